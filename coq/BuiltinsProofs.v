(* BuiltinsProofs.v — the built-ins of Builtins.v against specifications that do not mention their
   code: occurrences in lists for the string functions, histories of calls for err / errmsg and the
   test counters, binary64 facts for rand and hsl; then the same through the dispatcher. *)
From Coq Require Import ZArith NArith List Bool Lia ZifyBool ZifyNat ZifyN Floats Arith.
From Coq Require Strings.String.
Import Coq.Strings.String.StringSyntax.
Local Open Scope string_scope.
Local Open Scope list_scope.
From EvyV Require Import Base BuiltinTy Builtins.
Import ListNotations.

(** * independent list specifications *)

(* [sub] occurs in [s] at position [i] (in code points) *)
Definition Occurs (sub s : str) (i : nat) : Prop :=
  exists a b, s = a ++ sub ++ b /\ List.length a = i.
(* … and nowhere before *)
Definition FirstOcc (sub s : str) (i : nat) : Prop :=
  Occurs sub s i /\ forall j, Occurs sub s j -> (i <= j)%nat.
Definition NoOcc (sub s : str) : Prop := forall i, ~ Occurs sub s i.

Definition IsPrefix (p s : str) : Prop := exists t, s = p ++ t.
Definition IsSuffix (suf s : str) : Prop := exists t, s = t ++ suf.

Lemma firstn_exact {A} (a r : list A) : firstn (List.length a) (a ++ r) = a.
Proof. induction a; simpl; [destruct r; reflexivity | f_equal; assumption]. Qed.

Lemma skipn_exact {A} (a r : list A) : skipn (List.length a) (a ++ r) = r.
Proof. induction a; simpl; [reflexivity | assumption]. Qed.

Lemma skipn_exact2 {A} (a m r : list A) : skipn (List.length a + List.length m) (a ++ m ++ r) = r.
Proof. rewrite <- app_length, app_assoc. apply skipn_exact. Qed.

Lemma prefixb_spec p s : prefixb p s = true <-> IsPrefix p s.
Proof.
  revert s; induction p as [|x p IH]; intros s; simpl.
  - split; [intros _; exists s; reflexivity | reflexivity].
  - destruct s as [|y s].
    + split; [discriminate | intros [t H]; discriminate].
    + rewrite andb_true_iff, N.eqb_eq, IH. split.
      * intros [-> [t ->]]. exists t. reflexivity.
      * intros [t H]. inversion H; subst. split; [reflexivity | exists t; reflexivity].
Qed.

Lemma startswith_spec s p : startswith s p = true <-> IsPrefix p s.
Proof. apply prefixb_spec. Qed.

Lemma endswith_spec s suf : endswith s suf = true <-> IsSuffix suf s.
Proof.
  unfold endswith. rewrite andb_true_iff, Nat.leb_le, str_eqb_eq. split.
  - intros [Hle Heq]. exists (firstn (List.length s - List.length suf) s).
    rewrite <- Heq at 2. symmetry. apply firstn_skipn.
  - intros [t ->]. rewrite app_length. split; [lia|].
    replace (List.length t + List.length suf - List.length suf)%nat with (List.length t + 0)%nat by lia.
    rewrite skipn_app, Nat.add_0_r, skipn_all.
    replace (List.length t - List.length t)%nat with 0%nat by lia. reflexivity.
Qed.

Lemma occurs_0_prefix sub s : Occurs sub s 0 <-> IsPrefix sub s.
Proof.
  split.
  - intros (a & b & -> & Hl). destruct a; [|discriminate]. exists b. reflexivity.
  - intros [t ->]. exists [], t. split; reflexivity.
Qed.

Lemma occurs_cons sub c s i : Occurs sub (c :: s) (S i) <-> Occurs sub s i.
Proof.
  split.
  - intros (a & b & H & Hl). destruct a as [|x a]; [discriminate|].
    simpl in H. inversion H; subst. exists a, b. split; [reflexivity | simpl in Hl; lia].
  - intros (a & b & -> & Hl). exists (c :: a), b. split; [reflexivity | simpl; lia].
Qed.

Lemma occurs_nil_inv sub i : Occurs sub [] i -> sub = [] /\ i = 0%nat.
Proof.
  intros (a & b & H & Hl). symmetry in H. apply app_eq_nil in H as [-> H].
  apply app_eq_nil in H as [-> _]. split; [reflexivity | simpl in Hl; lia].
Qed.

Lemma index_from_some k s sub n :
  index_from k s sub = Some n -> exists i, n = (k + i)%nat /\ FirstOcc sub s i.
Proof.
  revert k; induction s as [|c s IH]; intros k; simpl.
  - destruct (prefixb sub []) eqn:E; [|discriminate].
    intros [= <-]. exists 0%nat. split; [lia|]. split; [|intros; lia].
    apply occurs_0_prefix, prefixb_spec, E.
  - destruct (prefixb sub (c :: s)) eqn:E.
    + intros [= <-]. exists 0%nat. split; [lia|]. split; [|intros; lia].
      apply occurs_0_prefix, prefixb_spec, E.
    + intros H. apply IH in H as (i & -> & Ho & Hmin). exists (S i). split; [lia|]. split.
      * apply occurs_cons, Ho.
      * intros [|j] Hj.
        -- apply occurs_0_prefix, prefixb_spec in Hj. congruence.
        -- apply (proj1 (occurs_cons sub c s j)) in Hj. apply Hmin in Hj. lia.
Qed.

Lemma index_from_none k s sub : index_from k s sub = None -> NoOcc sub s.
Proof.
  revert k; induction s as [|c s IH]; intros k; simpl.
  - destruct (prefixb sub []) eqn:E; [discriminate|]. intros _ i Ho.
    destruct (occurs_nil_inv _ _ Ho) as [-> _]. discriminate.
  - destruct (prefixb sub (c :: s)) eqn:E; [discriminate|]. intros H [|i] Ho.
    + apply occurs_0_prefix, prefixb_spec in Ho. congruence.
    + apply (proj1 (occurs_cons sub c s i)) in Ho. exact (IH _ H i Ho).
Qed.

Lemma first_occ_unique sub s i j : FirstOcc sub s i -> FirstOcc sub s j -> i = j.
Proof. intros [H1 M1] [H2 M2]. apply M1 in H2. apply M2 in H1. lia. Qed.

Lemma index_cp_spec s sub :
  match index_cp s sub with
  | Some i => FirstOcc sub s i
  | None => NoOcc sub s
  end.
Proof.
  unfold index_cp. destruct (index_from 0 s sub) eqn:E.
  - apply index_from_some in E as (i & -> & H). exact H.
  - eapply index_from_none, E.
Qed.

Lemma index_cp_some_iff s sub i : index_cp s sub = Some i <-> FirstOcc sub s i.
Proof.
  pose proof (index_cp_spec s sub) as H. split.
  - intros E. rewrite E in H. exact H.
  - intros F. destruct (index_cp s sub) as [j|].
    + f_equal. eapply first_occ_unique; eassumption.
    + destruct F as [Ho _]. exfalso. exact (H i Ho).
Qed.

Lemma index_cp_none_iff s sub : index_cp s sub = None <-> NoOcc sub s.
Proof.
  pose proof (index_cp_spec s sub) as H. split.
  - intros E. rewrite E in H. exact H.
  - intros N. destruct (index_cp s sub) as [j|]; [|reflexivity].
    destruct H as [Ho _]. exfalso. exact (N j Ho).
Qed.

Lemma index_chars_spec s sub :
  (forall i, index_chars s sub = Z.of_nat i <-> FirstOcc sub s i) /\
  (index_chars s sub = (-1)%Z <-> NoOcc sub s).
Proof.
  unfold index_chars. split.
  - intros i. rewrite <- index_cp_some_iff. destruct (index_cp s sub).
    + split; [intros H; f_equal; lia | intros [= ->]; reflexivity].
    + split; [lia | discriminate].
  - rewrite <- index_cp_none_iff. destruct (index_cp s sub); split; try reflexivity; try discriminate; lia.
Qed.

(* index before 79c1bbb: the same occurrence, measured in bytes of the prefix *)
Lemma index_bytes_before_fix_spec s sub :
  (forall i, FirstOcc sub s i -> index_bytes_before_fix s sub = Z.of_nat (utf8_len (firstn i s))) /\
  (index_bytes_before_fix s sub = (-1)%Z <-> NoOcc sub s).
Proof.
  unfold index_bytes_before_fix. split.
  - intros i F. apply index_cp_some_iff in F. rewrite F. reflexivity.
  - rewrite <- index_cp_none_iff. destruct (index_cp s sub); split; try reflexivity; try discriminate; lia.
Qed.

Lemma utf8_width_pos c : (1 <= utf8_width c <= 4)%nat.
Proof. unfold utf8_width. repeat destruct (_ <? _)%N; lia. Qed.

Lemma utf8_len_ge s : (List.length s <= utf8_len s)%nat.
Proof. induction s as [|c s IH]; simpl; [lia|]. pose proof (utf8_width_pos c). lia. Qed.

Lemma utf8_len_ascii s : utf8_len s = List.length s <-> Forall (fun c => (c < 128)%N) s.
Proof.
  induction s as [|c s IH]; simpl.
  - split; [constructor | reflexivity].
  - pose proof (utf8_len_ge s) as Hge. pose proof (utf8_width_pos c) as Hw. split.
    + intros H. assert (utf8_width c = 1%nat) as Hw1 by lia. assert (utf8_len s = List.length s) as Hl by lia.
      constructor; [|apply IH; assumption].
      unfold utf8_width in Hw1. destruct (c <? 128)%N eqn:E; [lia|].
      repeat destruct (_ <? _)%N; discriminate.
    + intros H. inversion H as [|? ? Hc Hs]; subst. apply IH in Hs. unfold utf8_width.
      destruct (c <? 128)%N eqn:E; lia.
Qed.

Lemma index_bytes_before_fix_eq_iff s sub i :
  FirstOcc sub s i -> (index_bytes_before_fix s sub = index_chars s sub <-> Forall (fun c => (c < 128)%N) (firstn i s)).
Proof.
  intros F. pose proof F as F'. apply index_cp_some_iff in F. unfold index_bytes_before_fix, index_chars. rewrite F.
  rewrite <- utf8_len_ascii. destruct F' as [(a & b & -> & Hl) _].
  subst i. rewrite firstn_exact. lia.
Qed.

Lemma join_cons x l sep : l <> [] -> join (x :: l) sep = x ++ sep ++ join l sep.
Proof. destruct l; [congruence | reflexivity]. Qed.

Lemma occurs_decompose sub s i : Occurs sub s i -> s = firstn i s ++ sub ++ skipn (i + List.length sub) s.
Proof.
  intros (a & b & -> & <-). rewrite firstn_exact, skipn_exact2. reflexivity.
Qed.

Lemma split_ne_nonempty f s sep : split_ne f s sep <> [].
Proof. destruct f; simpl; [|destruct (index_cp s sep)]; discriminate. Qed.

Lemma split_ne_join fuel s sep : join (split_ne fuel s sep) sep = s.
Proof.
  revert s; induction fuel as [|f IH]; intros s; simpl; [reflexivity|].
  destruct (index_cp s sep) as [m|] eqn:E; [|reflexivity].
  rewrite join_cons.
  - rewrite IH. apply index_cp_some_iff in E as [Ho _]. symmetry. apply occurs_decompose, Ho.
  - apply split_ne_nonempty.
Qed.

Lemma join_explode s : join (explode s) [] = s.
Proof.
  induction s as [|c s IH]; [reflexivity|]. unfold explode in *. simpl map.
  destruct s as [|d s]; [reflexivity|]. rewrite join_cons by discriminate. rewrite IH. reflexivity.
Qed.

Lemma split_join s sep : join (split s sep) sep = s.
Proof.
  unfold split. destruct sep; [apply join_explode | apply split_ne_join].
Qed.

(* the pieces of a split: each separator found is the leftmost one in what
   remains, and the last piece contains none *)
Inductive SplitSpec (sep : str) : str -> list str -> Prop :=
| SS_last s : NoOcc sep s -> SplitSpec sep s [s]
| SS_cons a b ps : FirstOcc sep (a ++ sep ++ b) (List.length a) -> SplitSpec sep b ps ->
                   SplitSpec sep (a ++ sep ++ b) (a :: ps).

Lemma split_ne_spec fuel s sep : sep <> [] -> (List.length s < fuel)%nat -> SplitSpec sep s (split_ne fuel s sep).
Proof.
  intros Hsep. revert s; induction fuel as [|f IH]; intros s Hf; [lia|]. simpl.
  destruct (index_cp s sep) as [m|] eqn:E.
  - apply index_cp_some_iff in E. pose proof E as [Ho _]. pose proof Ho as (a & b & Hs & Hl).
    pose proof (occurs_decompose _ _ _ Ho) as Hd.
    assert (firstn m s = a) as Ha by (subst s m; apply firstn_exact).
    assert (skipn (m + List.length sep) s = b) as Hb.
    { subst s m. apply skipn_exact2. }
    rewrite Ha, Hb. rewrite Hs. apply SS_cons.
    + rewrite <- Hs, Hl. exact E.
    + apply IH. subst s. rewrite !app_length in Hf. destruct sep; [congruence|]. simpl in Hf. lia.
  - apply SS_last. apply index_cp_none_iff, E.
Qed.

Lemma split_spec s sep : sep <> [] -> SplitSpec sep s (split s sep).
Proof.
  intros H. unfold split. destruct sep; [congruence|]. apply split_ne_spec; [discriminate | lia].
Qed.

Lemma split_empty_sep s : split s [] = map (fun c => [c]) s.
Proof. reflexivity. Qed.

Lemma split_empty_empty : split [] [] = [].
Proof. reflexivity. Qed.

Lemma split_empty_string sep : sep <> [] -> split [] sep = [[]].
Proof.
  intros H. destruct sep as [|c sep]; [congruence|]. unfold split. simpl.
  unfold index_cp. simpl. reflexivity.
Qed.

Lemma app_sep_inj (sep a b a0 b0 : str) :
  a0 ++ sep ++ b0 = a ++ sep ++ b -> List.length a = List.length a0 -> a = a0 /\ b = b0.
Proof.
  intros H Hl. pose proof (f_equal (firstn (List.length a)) H) as Hfst.
  rewrite firstn_exact in Hfst. rewrite Hl, firstn_exact in Hfst. subst a0.
  apply app_inv_head in H. apply app_inv_head in H. split; congruence.
Qed.

Lemma first_occ_cut sep a b a0 b0 :
  a0 ++ sep ++ b0 = a ++ sep ++ b -> FirstOcc sep (a ++ sep ++ b) (List.length a) ->
  FirstOcc sep (a0 ++ sep ++ b0) (List.length a0) -> a = a0 /\ b = b0.
Proof.
  intros H F F0. rewrite H in F0. apply (app_sep_inj sep); [exact H | eapply first_occ_unique; eassumption].
Qed.

Lemma split_spec_unique sep s ps qs : sep <> [] -> SplitSpec sep s ps -> SplitSpec sep s qs -> ps = qs.
Proof.
  intros Hsep H. revert qs. induction H as [s Hn | a b ps Hf Hs IH]; intros qs Hq.
  - inversion Hq; subst; [reflexivity|]. exfalso. destruct H as [Ho _]. exact (Hn _ Ho).
  - inversion Hq; subst.
    + exfalso. destruct Hf as [Ho _]. exact (H _ Ho).
    + destruct (first_occ_cut _ _ _ _ _ H Hf H0) as [<- <-].
      f_equal. apply IH. assumption.
Qed.

(* all non-overlapping occurrences, left to right *)
Inductive ReplSpec (old new : str) : str -> str -> Prop :=
| RS_none s : NoOcc old s -> ReplSpec old new s s
| RS_occ a b r : FirstOcc old (a ++ old ++ b) (List.length a) -> ReplSpec old new b r ->
                 ReplSpec old new (a ++ old ++ b) (a ++ new ++ r).

Lemma replace_ne_join_split fuel s old new : replace_ne fuel s old new = join (split_ne fuel s old) new.
Proof.
  revert s; induction fuel as [|f IH]; intros s; simpl; [reflexivity|].
  destruct (index_cp s old) as [m|] eqn:E; [|reflexivity].
  rewrite join_cons.
  - rewrite IH. reflexivity.
  - apply split_ne_nonempty.
Qed.

Lemma repl_of_split old new s ps : SplitSpec old s ps -> ReplSpec old new s (join ps new).
Proof.
  induction 1 as [s Hn|a b ps Hf Hs IH]; [apply RS_none, Hn|].
  rewrite join_cons by (destruct Hs; discriminate). apply RS_occ; assumption.
Qed.

Lemma replace_ne_spec fuel s old new : old <> [] -> (List.length s < fuel)%nat -> ReplSpec old new s (replace_ne fuel s old new).
Proof. intros Hold Hf. rewrite replace_ne_join_split. apply repl_of_split, split_ne_spec; assumption. Qed.

Lemma repl_spec_same old s r : ReplSpec old old s r -> r = s.
Proof. induction 1; [reflexivity | congruence]. Qed.

Lemma repl_spec_total old new s : old <> [] -> exists r, ReplSpec old new s r.
Proof. intros H. exists (replace_ne (S (List.length s)) s old new). apply replace_ne_spec; [assumption | lia]. Qed.

Lemma split_of_repl old new s r : ReplSpec old new s r -> exists ps, SplitSpec old s ps /\ r = join ps new.
Proof.
  induction 1 as [s Hn|a b r Hf Hs (ps & Hps & ->)]; [exists [s]; split; [apply SS_last, Hn | reflexivity]|].
  exists (a :: ps). split; [apply SS_cons; assumption|]. rewrite join_cons by (destruct Hps; discriminate). reflexivity.
Qed.

Lemma repl_spec_unique old new s r1 r2 : old <> [] -> ReplSpec old new s r1 -> ReplSpec old new s r2 -> r1 = r2.
Proof.
  intros Hold H1 H2. apply split_of_repl in H1 as (ps1 & S1 & ->), H2 as (ps2 & S2 & ->).
  rewrite (split_spec_unique old s ps1 ps2 Hold S1 S2). reflexivity.
Qed.

(* replaceFunc, old non-empty: the result is THE string obtained by replacing
   all non-overlapping occurrences left to right *)
Lemma replace_spec s old new : old <> [] -> ReplSpec old new s (replace s old new).
Proof.
  intros Hold. unfold replace. destruct (str_eqb old new) eqn:E.
  - (* replace returns s, and s is all that ReplSpec old old s allows *)
    apply str_eqb_eq in E. subst new.
    destruct (repl_spec_total old old s Hold) as [r Hr]. pose proof (repl_spec_same _ _ _ Hr). subst r. exact Hr.
  - destruct old; [congruence|]. apply replace_ne_spec; [discriminate | lia].
Qed.

Lemma replace_empty_old s new : new <> [] -> replace s [] new = new ++ flat_map (fun c => c :: new) s.
Proof.
  intros H. unfold replace. destruct (str_eqb [] new) eqn:E; [apply str_eqb_eq in E; congruence|].
  induction s as [|c s IH]; simpl; [rewrite app_nil_r; reflexivity|].
  rewrite IH. reflexivity.
Qed.

Lemma replace_is_join_split s old new : old <> [] -> replace s old new = join (split s old) new.
Proof.
  intros Hold. unfold replace, split. destruct (str_eqb old new) eqn:E.
  - apply str_eqb_eq in E. subst new. destruct old; [congruence|]. symmetry. apply split_ne_join.
  - destruct old; [congruence|]. apply replace_ne_join_split.
Qed.

Definition InCut (cut : str) (c : N) : Prop := In c cut.

Lemma memN_In c l : memN c l = true <-> In c l.
Proof.
  induction l as [|x l IH]; simpl; [split; [discriminate | tauto]|].
  rewrite orb_true_iff, N.eqb_eq, IH. tauto.
Qed.

Lemma trim_left_spec s cut :
  exists l, s = l ++ trim_left s cut /\ Forall (InCut cut) l /\
            match trim_left s cut with [] => True | c :: _ => ~ In c cut end.
Proof.
  induction s as [|c s (l & Hs & Hl & Hh)]; simpl.
  - exists []. repeat split; constructor.
  - destruct (memN c cut) eqn:E.
    + exists (c :: l). split; [simpl; congruence|]. split; [constructor; [apply memN_In, E | exact Hl] | exact Hh].
    + exists []. split; [reflexivity|]. split; [constructor|]. intro Hin. apply memN_In in Hin. congruence.
Qed.

Definition last_opt (s : str) : option N := match rev s with [] => None | c :: _ => Some c end.

Lemma trim_right_spec s cut :
  exists r, s = trim_right s cut ++ r /\ Forall (InCut cut) r /\
            match last_opt (trim_right s cut) with None => True | Some c => ~ In c cut end.
Proof.
  unfold trim_right, last_opt. destruct (trim_left_spec (rev s) cut) as (l & Hs & Hl & Hh).
  exists (rev l). split.
  - rewrite <- rev_app_distr, <- Hs, rev_involutive. reflexivity.
  - split; [apply Forall_rev, Hl|]. rewrite rev_involutive. destruct (trim_left (rev s) cut); exact Hh.
Qed.

Lemma trim_left_suffix_last s cut c :
  last_opt (trim_left s cut) = Some c -> last_opt s = Some c.
Proof.
  destruct (trim_left_spec s cut) as (l & Hs & _ & _). unfold last_opt. intros H.
  rewrite Hs at 1. rewrite rev_app_distr. destruct (rev (trim_left s cut)); [discriminate|]. simpl. exact H.
Qed.

Lemma trim_spec s cut :
  exists l r, s = l ++ trim s cut ++ r /\ Forall (InCut cut) l /\ Forall (InCut cut) r /\
              match trim s cut with [] => True | c :: _ => ~ In c cut end /\
              match last_opt (trim s cut) with None => True | Some c => ~ In c cut end.
Proof.
  unfold trim. destruct s as [|c0 s0] eqn:Es.
  - exists [], []. repeat split; constructor.
  - destruct cut as [|k cut0] eqn:Ec.
    + exists [], []. rewrite app_nil_r. repeat split; try constructor.
      * intros [].
      * destruct (last_opt (c0 :: s0)); [intros [] | exact I].
    + rewrite <- Es, <- Ec. clear Es Ec.
      destruct (trim_right_spec s cut) as (r & Hs & Hr & Hlast).
      destruct (trim_left_spec (trim_right s cut) cut) as (l & Hs2 & Hl & Hh).
      exists l, r. split; [rewrite app_assoc, <- Hs2; exact Hs|]. repeat split; try assumption.
      destruct (last_opt (trim_left (trim_right s cut) cut)) eqn:E; [|exact I].
      apply trim_left_suffix_last in E. rewrite E in Hlast. exact Hlast.
Qed.

(** * len *)
Lemma len_str_app a b : len_str (a ++ b) = (len_str a + len_str b)%nat.
Proof. apply app_length. Qed.

Lemma len_split_chars s : List.length (split s []) = len_str s.
Proof. unfold split, explode. apply map_length. Qed.

(** * the err / errmsg protocol over histories *)

(* what a call does to the err state: the two conversions, or anything else *)
Inductive hcall := HStr2Num (s : str) | HStr2Bool (s : str) | HOther.

Section Err.
Variable o : oracles.

Definition hstep (st : errst) (c : hcall) : errst :=
  match c with
  | HStr2Num s => snd (str2num o s st)
  | HStr2Bool s => snd (str2bool o s st)
  | HOther => st
  end.
Definition hrun (st : errst) (h : list hcall) : errst := fold_left hstep h st.

(* the documentation: a conversion succeeds or fails … *)
Definition conv_succeeds (c : hcall) : bool :=
  match c with
  | HStr2Num s => match o_parse_float o s with PFOk _ => true | _ => false end
  | HStr2Bool s => mem_str s true_literals || mem_str s false_literals
  | HOther => true
  end.
(* … and err/errmsg afterwards say which: (false, "") or (true, message naming
   the function and quoting the input) *)
Definition documented_state (c : hcall) : errst :=
  if conv_succeeds c then {| e_err := false; e_msg := [] |}
  else match c with
       | HStr2Num s => {| e_err := true; e_msg := s_ "str2num: cannot parse " ++ quote o s |}
       | HStr2Bool s => {| e_err := true; e_msg := s_ "str2bool: cannot parse " ++ quote o s |}
       | HOther => {| e_err := false; e_msg := [] |}
       end.

Definition pick_conv (acc : option hcall) (c : hcall) : option hcall :=
  match c with HOther => acc | _ => Some c end.
(* the last conversion call of a history *)
Definition last_conv (h : list hcall) : option hcall := fold_left pick_conv h None.

Lemma hstep_conv st c : c <> HOther -> hstep st c = documented_state c.
Proof.
  destruct c as [s|s|]; intros H; [| |congruence]; unfold hstep, documented_state, conv_succeeds.
  - unfold str2num. destruct (o_parse_float o s); reflexivity.
  - unfold str2bool, parse_bool. destruct (mem_str s true_literals); [reflexivity|].
    destruct (mem_str s false_literals); reflexivity.
Qed.

Lemma hrun_gen h : forall st acc,
  (forall c, acc = Some c -> st = documented_state c) ->
  hrun st h = match fold_left pick_conv h acc with Some c => documented_state c | None => st end
  /\ (fold_left pick_conv h acc = None -> acc = None).
Proof.
  induction h as [|c h IH]; intros st acc Hacc; simpl.
  - split; [|tauto]. destruct acc; [apply Hacc; reflexivity | reflexivity].
  - assert (C : c = HOther \/ pick_conv acc c = Some c /\ c <> HOther)
      by (destruct c; [right; split | right; split | left]; try reflexivity; discriminate).
    destruct C as [->|[Pc C]]; [apply (IH st acc Hacc)|]. rewrite Pc.
    destruct (IH (hstep st c) (Some c)) as [E N].
    { intros c' [= <-]. apply hstep_conv, C. }
    split; [|intros F; apply N in F; discriminate].
    rewrite E. destruct (fold_left pick_conv h (Some c)) eqn:F; [reflexivity|]. discriminate (N eq_refl).
Qed.

(* after ANY history of calls, err and errmsg describe the last conversion
   call (set on failure, reset on success); without one they are untouched *)
Lemma err_protocol h st :
  hrun st h = match last_conv h with Some c => documented_state c | None => st end.
Proof. apply (hrun_gen h st None). discriminate. Qed.

Lemma err_after_append h st c : c <> HOther -> hrun st (h ++ [c]) = documented_state c.
Proof. intros H. unfold hrun. rewrite fold_left_app. simpl. apply hstep_conv, H. Qed.

End Err.

(* the same through the dispatcher: every built-in, every program *)
Definition hcall_of (name : str) (args : list val) : hcall :=
  if str_eqb name (s_ "str2num") then match args with [VStr s] => HStr2Num s | _ => HOther end
  else if str_eqb name (s_ "str2bool") then match args with [VStr s] => HStr2Bool s | _ => HOther end
  else HOther.

(* the dispatcher is a chain of tests on the name: a property of the resulting state holds of the
   whole if it holds of every row *)
Lemma err_if (c : bool) (x y : outcome * list effect * bstate) e :
  b_err (snd x) = e -> b_err (snd y) = e -> b_err (snd (if c then x else y)) = e.
Proof. destruct c; auto. Qed.

(* every row but the two conversions returns the state it was given, or only consumes an input line *)
Lemma call_builtin_err_other o name args st :
  str_eqb name (s_ "str2num") = false -> str_eqb name (s_ "str2bool") = false ->
  b_err (snd (call_builtin o name args st)) = b_err st.
Proof.
  intros N1 N2. unfold call_builtin.
  destruct (find _ _) as [sg|]; [|reflexivity].
  destruct (negb _); [reflexivity|].
  unfold name_is. rewrite N1, N2. cbv iota.
  repeat (apply err_if;
          [repeat match goal with |- context [match ?x with _ => _ end] => destruct x end; reflexivity|]).
  reflexivity.
Qed.

Lemma call_builtin_str2num o a st :
  call_builtin o (s_ "str2num") [VStr a] st =
  let '(f, e) := str2num o a (b_err st) in (ORet (VNum f), [], {| b_err := e; b_inputs := b_inputs st |}).
Proof. reflexivity. Qed.
Lemma call_builtin_str2bool o a st :
  call_builtin o (s_ "str2bool") [VStr a] st =
  let '(b, e) := str2bool o a (b_err st) in (ORet (VBool b), [], {| b_err := e; b_inputs := b_inputs st |}).
Proof. reflexivity. Qed.

(* any other shape of arguments is refused by the signature check, before the table is consulted *)
Lemma call_builtin_err_conv o (isnum : bool) args st :
  let name := if isnum then s_ "str2num" else s_ "str2bool" in
  b_err (snd (call_builtin o name args st)) = hstep o (b_err st) (hcall_of name args).
Proof.
  destruct isnum; cbv zeta; destruct args as [|v [|w r]]; try reflexivity; destruct v; try reflexivity.
  - rewrite call_builtin_str2num. change (hcall_of (s_ "str2num") [VStr s]) with (HStr2Num s).
    cbn [hstep]. destruct (str2num o s (b_err st)). reflexivity.
  - rewrite call_builtin_str2bool. change (hcall_of (s_ "str2bool") [VStr s]) with (HStr2Bool s).
    cbn [hstep]. destruct (str2bool o s (b_err st)). reflexivity.
Qed.

Lemma call_builtin_err o name args st :
  b_err (snd (call_builtin o name args st)) = hstep o (b_err st) (hcall_of name args).
Proof.
  destruct (str_eqb name (s_ "str2num")) eqn:E1.
  - apply str_eqb_eq in E1. subst name. apply (call_builtin_err_conv o true).
  - destruct (str_eqb name (s_ "str2bool")) eqn:E2.
    + apply str_eqb_eq in E2. subst name. apply (call_builtin_err_conv o false).
    + unfold hcall_of. rewrite E1, E2. apply call_builtin_err_other; assumption.
Qed.

Definition calls_hist (calls : list (str * list val)) : list hcall :=
  map (fun c => hcall_of (fst c) (snd c)) calls.

Lemma run_calls_err o ff calls : forall st t i cr,
  nth_error (fst (fst (fst (run_calls o ff calls st t)))) i = Some cr ->
  c_err cr = hrun o (b_err st) (firstn (S i) (calls_hist calls)).
Proof.
  induction calls as [|[name args] rest IH]; intros st t i cr; simpl.
  - destruct i; discriminate.
  - pose proof (call_builtin_err o name args st) as HE.
    destruct (call_builtin o name args st) as [[r0 effs] st']. simpl in HE.
    destruct (account_test ff (str_eqb name (s_ "test")) r0 t) as [r t'].
    destruct (stops r).
    + simpl. destruct i as [|i]; [|destruct i; discriminate].
      intros [= <-]. simpl. exact HE.
    + specialize (IH st' t').
      destruct (run_calls o ff rest st' t') as [[[crs effs'] t''] stop]. simpl in *.
      destruct i as [|i].
      * intros [= <-]. simpl. exact HE.
      * intros H. rewrite (IH i cr H). rewrite HE. reflexivity.
Qed.

(* err/errmsg after the i-th call describe the last conversion among
   the first i+1 calls (set on failure, reset on success) *)
Lemma run_calls_err_protocol o ff calls st t i cr :
  nth_error (fst (fst (fst (run_calls o ff calls st t)))) i = Some cr ->
  c_err cr = match last_conv (firstn (S i) (calls_hist calls)) with
             | Some c => documented_state o c
             | None => b_err st
             end.
Proof. intros H. rewrite (run_calls_err o ff calls st t i cr H). apply err_protocol. Qed.

(** * str2bool's literals *)
Lemma literals_disjoint : forallb (fun x => negb (mem_str x true_literals)) false_literals = true.
Proof. vm_compute. reflexivity. Qed.

Lemma parse_bool_true s : parse_bool s = Some true <-> In s true_literals.
Proof.
  unfold parse_bool. rewrite <- mem_str_In. destruct (mem_str s true_literals); [tauto|].
  destruct (mem_str s false_literals); split; discriminate.
Qed.

Lemma parse_bool_false s : parse_bool s = Some false <-> In s false_literals.
Proof.
  unfold parse_bool. rewrite <- (mem_str_In s false_literals).
  destruct (mem_str s true_literals) eqn:T.
  - split; [discriminate|]. intros F. pose proof literals_disjoint as D.
    rewrite forallb_forall in D. apply mem_str_In in F. apply D in F. rewrite T in F. discriminate.
  - destruct (mem_str s false_literals); split; try discriminate; reflexivity.
Qed.

Lemma parse_bool_none s : parse_bool s = None <-> ~ In s (true_literals ++ false_literals).
Proof.
  rewrite in_app_iff, <- !mem_str_In. unfold parse_bool.
  destruct (mem_str s true_literals); [split; [discriminate | intros H; exfalso; apply H; left; reflexivity]|].
  destruct (mem_str s false_literals); [split; [discriminate | intros H; exfalso; apply H; right; reflexivity]|].
  split; [intros _ [H|H]; discriminate | reflexivity].
Qed.

(** * repr: map keys *)
Section Keys.
Variable o : oracles.

(* an identifier: a letter or underscore, then letters, digits, underscores *)
Definition IdentSpec (k : str) : Prop :=
  exists c t, k = c :: t /\ is_letter_ o c = true /\ Forall (fun x => is_letter_ o x = true \/ is_digit_ x = true) t.

Definition ident_rest (t : str) : bool := forallb (fun c => is_letter_ o c || is_digit_ c) t.

Lemma is_ident_loop_false t : is_ident_loop o false t = ident_rest t.
Proof.
  induction t as [|c t IH]; [reflexivity|]. simpl. rewrite <- IH.
  destruct (is_letter_ o c), (is_digit_ c); reflexivity.
Qed.

Lemma is_ident_unfold k :
  is_ident o k = match k with [] => false | c :: t => is_letter_ o c && ident_rest t end.
Proof.
  destruct k as [|c t]; [reflexivity|]. unfold is_ident. simpl.
  rewrite is_ident_loop_false. destruct (is_letter_ o c); reflexivity.
Qed.

Lemma is_ident_spec k : is_ident o k = true <-> IdentSpec k.
Proof.
  rewrite is_ident_unfold. unfold IdentSpec, ident_rest. destruct k as [|c t].
  - split; [discriminate | intros (c & t & H & _); discriminate].
  - rewrite andb_true_iff, forallb_forall. split.
    + intros [Hc Ht]. exists c, t. split; [reflexivity|]. split; [exact Hc|].
      apply Forall_forall. intros x Hx. apply Ht in Hx. apply orb_true_iff in Hx. exact Hx.
    + intros (c' & t' & [= <- <-] & Hc & Ht). split; [exact Hc|]. intros x Hx.
      rewrite Forall_forall in Ht. apply orb_true_iff. apply Ht, Hx.
Qed.

Lemma is_ident_loop_before_fix_false t : is_ident_loop_before_fix o false t = ident_rest t.
Proof.
  induction t as [|c t IH]; [reflexivity|]. simpl. rewrite <- IH.
  destruct (is_letter_ o c), (is_digit_ c); reflexivity.
Qed.

(* before 09cb4c8 the FIRST character was never examined *)
Lemma is_ident_before_fix_unfold k :
  is_ident_before_fix o k = match k with [] => false | _ :: t => ident_rest t end.
Proof.
  destruct k as [|c t]; [reflexivity|]. unfold is_ident_before_fix. simpl.
  rewrite andb_false_r. apply is_ident_loop_before_fix_false.
Qed.

Lemma esc_char_nonempty a c : (1 <= List.length (esc_char o a c))%nat.
Proof.
  unfold esc_char.
  repeat match goal with |- context [if ?b then _ else _] => destruct b end;
    cbn; rewrite ?app_length; cbn; lia.
Qed.

Lemma flat_map_esc_length a s : (List.length s <= List.length (flat_map (esc_char o a) s))%nat.
Proof.
  induction s as [|c s IH]; simpl; [lia|]. rewrite app_length. pose proof (esc_char_nonempty a c). lia.
Qed.

Lemma quote_longer s : (List.length s + 2 <= List.length (quote o s))%nat.
Proof.
  unfold quote, quote_with. simpl. rewrite app_length. simpl. pose proof (flat_map_esc_length false s). lia.
Qed.

Lemma quote_neq s : quote o s <> s.
Proof. intros H. pose proof (quote_longer s) as L. rewrite H in L. lia. Qed.

(* keyRepr: a key is printed bare iff it is an identifier, quoted otherwise *)
Lemma key_repr_spec k :
  (key_repr o k = k <-> IdentSpec k) /\ (key_repr o k = quote o k <-> ~ IdentSpec k).
Proof.
  unfold key_repr. rewrite <- is_ident_spec. destruct (is_ident o k).
  - split; [tauto|]. split; [intros H; symmetry in H; apply quote_neq in H; contradiction | intros H; exfalso; apply H; reflexivity].
  - split; [split; [intros H; apply quote_neq in H; contradiction | discriminate] | split; [discriminate | reflexivity]].
Qed.

End Keys.

(** * test bookkeeping over histories of test outcomes *)

Fixpoint run_tests (failfast : bool) (outs : list outcome) (t : testinfo) : testinfo * option outcome :=
  match outs with
  | [] => (t, None)
  | r0 :: rest =>
      let '(r, t') := account_test failfast true r0 t in
      if stops r then (t', Some r) else run_tests failfast rest t'
  end.

(* specification, independent of the counters: which calls are executed … *)
Definition ends_run (failfast : bool) (r : outcome) : bool :=
  match r with ORet _ => false | OTestFail _ => failfast | _ => true end.
Fixpoint executed (failfast : bool) (outs : list outcome) : list outcome :=
  match outs with
  | [] => []
  | r :: rest => if ends_run failfast r then [r] else r :: executed failfast rest
  end.
Definition is_fail (r : outcome) : bool := match r with OTestFail _ => true | _ => false end.
Definition fail_msgs (l : list outcome) : list str :=
  flat_map (fun r => match r with OTestFail m => [m] | _ => [] end) l.

Lemma fail_msgs_length l : List.length (fail_msgs l) = List.length (filter is_fail l).
Proof. induction l as [|r l IH]; [reflexivity|]. destruct r; simpl; auto. Qed.

Lemma run_tests_gen ff outs : forall t,
  let '(t', stop) := run_tests ff outs t in
  t_total t' = (t_total t + List.length (executed ff outs))%nat /\
  t_errors t' = t_errors t ++ fail_msgs (executed ff outs) /\
  (stop = None <-> forallb (fun r => negb (ends_run ff r)) outs = true) /\
  (forall r, stop = Some r -> ends_run ff r = true /\ In r outs).
Proof.
  induction outs as [|r0 rest IH]; intros t; simpl.
  - rewrite Nat.add_0_r, app_nil_r. repeat split; discriminate.
  - destruct r0 as [v|k|f|msg| | |]; unfold account_test; simpl;
      try (rewrite app_nil_r; split; [lia|]; split; [reflexivity|]; split; [split; discriminate|];
           intros r' [= <-]; split; [reflexivity | left; reflexivity]).
    + (* ORet *)
      specialize (IH {| t_total := S (t_total t); t_errors := t_errors t |}).
      destruct (run_tests ff rest _) as [t' stop]. simpl in IH. destruct IH as (A & B & C & D).
      split; [lia|]. split; [assumption|]. split; [exact C|].
      intros r Hr. destruct (D r Hr). split; [assumption | right; assumption].
    + (* OTestFail *)
      destruct ff; simpl.
      * split; [lia|]. split; [reflexivity|]. split; [split; discriminate|].
        intros r [= <-]. split; [reflexivity | left; reflexivity].
      * specialize (IH {| t_total := S (t_total t); t_errors := t_errors t ++ [msg] |}).
        destruct (run_tests false rest _) as [t' stop]. simpl in IH. destruct IH as (A & B & C & D).
        split; [lia|]. split; [rewrite B, <- app_assoc; reflexivity|]. split; [exact C|].
        intros r Hr. destruct (D r Hr). split; [assumption | right; assumption].
Qed.

Lemma filter_len_le {A} (f : A -> bool) l : (List.length (filter f l) <= List.length l)%nat.
Proof. induction l as [|x l IH]; simpl; [lia|]. destruct (f x); simpl; lia. Qed.

Definition bookkeeping_ok (ff : bool) (outs : list outcome) (t : testinfo) (stop : option outcome) : Prop :=
  let ex := executed ff outs in
  t_total t = List.length ex /\
  fail_count t = List.length (filter is_fail ex) /\
  (success_count t + fail_count t = t_total t)%nat /\
  t_errors t = fail_msgs ex /\
  (stop = None <-> forallb (fun r => negb (ends_run ff r)) outs = true) /\
  (classify stop t = RcOk <-> stop = None /\ fail_count t = 0%nat).

(* over every history of test outcomes and both fail-fast settings *)
Lemma test_bookkeeping ff outs :
  let '(t, stop) := run_tests ff outs ti_init in
  let ex := executed ff outs in
  t_total t = List.length ex /\
  fail_count t = List.length (filter is_fail ex) /\
  (success_count t + fail_count t = t_total t)%nat /\
  t_errors t = fail_msgs ex /\
  (stop = None <-> forallb (fun r => negb (ends_run ff r)) outs = true) /\
  (classify stop t = RcOk <-> stop = None /\ fail_count t = 0%nat).
Proof.
  pose proof (run_tests_gen ff outs ti_init) as H. destruct (run_tests ff outs ti_init) as [t stop].
  simpl in H. destruct H as (A & B & C & D).
  assert (fail_count t = List.length (filter is_fail (executed ff outs))) as F.
  { unfold fail_count. rewrite B. apply fail_msgs_length. }
  assert (List.length (filter is_fail (executed ff outs)) <= List.length (executed ff outs))%nat as L by apply filter_len_le.
  assert (CL : classify stop t = RcOk <-> stop = None /\ fail_count t = 0%nat).
  { split.
    - intros Hc. unfold classify in Hc. destruct stop as [r|].
      + destruct (D r eq_refl) as [E _]. destruct r; simpl in *; try discriminate.
      + destruct (Nat.ltb 0 (fail_count t)) eqn:G; [discriminate|]. apply Nat.ltb_ge in G. split; [reflexivity | lia].
    - intros [-> Z0]. unfold classify. rewrite Z0. reflexivity. }
  split; [exact A|]. split; [exact F|]. split; [unfold success_count; lia|].
  split; [exact B|]. split; [exact C | exact CL].
Qed.

Lemma report_spec ns t :
  report ns t =
  if ns || Nat.eqb (t_total t) 0 then None
  else if Nat.eqb (fail_count t) 0
       then Some (green_mark ++ nat_str (success_count t) ++ s_ " passed test" ++ plural_suffix (success_count t) ++ [10%N])
       else Some (cross_mark ++ nat_str (fail_count t) ++ s_ " failed test" ++ plural_suffix (fail_count t) ++ [10%N]
                  ++ check_mark ++ nat_str (success_count t) ++ s_ " passed test" ++ plural_suffix (success_count t) ++ [10%N]).
Proof.
  unfold report. destruct (ns || Nat.eqb (t_total t) 0); [reflexivity|].
  destruct (fail_count t); reflexivity.
Qed.

Lemma plural_suffix_spec n : plural_suffix n = [] <-> n = 1%nat.
Proof.
  unfold plural_suffix. destruct (Nat.eqb n 1) eqn:E.
  - apply Nat.eqb_eq in E. tauto.
  - apply Nat.eqb_neq in E. split; [discriminate | tauto].
Qed.

Lemma args_accepted_variadic_any tys : args_accepted [] (Some TAny) tys = true.
Proof. induction tys as [|t tys IH]; [reflexivity|]. simpl. exact IH. Qed.

Lemma wrap_args_variadic_any args : wrap_args [] (Some TAny) args = map wrap_any args.
Proof. induction args as [|a args IH]; [reflexivity|]. simpl. rewrite IH. reflexivity. Qed.

Lemma call_builtin_test o args st :
  call_builtin o (s_ "test") args st = (test_func o (map wrap_any args), [], st).
Proof.
  unfold call_builtin.
  change (find (fun s => str_eqb (s_ (b_name s)) (s_ "test")) Gen.BuiltinSigs.builtin_sigs)
    with (Some {| b_name := "test"; b_params := []; b_variadic := Some TAny; b_ret := TNone |}).
  cbn [b_params b_variadic]. rewrite args_accepted_variadic_any, wrap_args_variadic_any. reflexivity.
Qed.

Definition test_calls (argss : list (list val)) : list (str * list val) := map (fun a => (s_ "test", a)) argss.

(* a program that is a sequence of test calls: the bookkeeping of run_calls is
   run_tests on the outcomes of testFunc *)
Lemma run_calls_tests o ff argss : forall st t,
  let '(_, _, t', stop) := run_calls o ff (test_calls argss) st t in
  (t', stop) = run_tests ff (map (fun a => test_func o (map wrap_any a)) argss) t.
Proof.
  induction argss as [|a rest IH]; intros st t; [reflexivity|].
  cbn [test_calls map run_calls run_tests]. rewrite call_builtin_test, str_eqb_refl.
  destruct (account_test ff true (test_func o (map wrap_any a)) t) as [r t'].
  destruct (stops r); [reflexivity|].
  specialize (IH st t'). unfold test_calls in IH.
  destruct (run_calls o ff (map (fun a0 => (s_ "test", a0)) rest) st t') as [[[crs effs] t''] stop].
  cbn [app]. exact IH.
Qed.

Lemma test_bookkeeping_programs o ff argss st :
  let '(_, _, t, stop) := run_calls o ff (test_calls argss) st ti_init in
  bookkeeping_ok ff (map (fun a => test_func o (map wrap_any a)) argss) t stop.
Proof.
  pose proof (run_calls_tests o ff argss st ti_init) as B.
  pose proof (test_bookkeeping ff (map (fun a => test_func o (map wrap_any a)) argss)) as T.
  destruct (run_calls o ff (test_calls argss) st ti_init) as [[[crs effs] t] stop].
  rewrite <- B in T. exact T.
Qed.

(** * exit status *)
Lemma exit_status_range f : (0 <= exit_status f < 256)%Z.
Proof. unfold exit_status. apply Z.mod_pos_bound. lia. Qed.

Lemma float_to_Z_trunc f z : float_to_Z f = Some z -> float_trunc f = Some z.
Proof.
  unfold float_to_Z, float_trunc. destruct (Prim2SF f) as [s|s| |s m e]; try discriminate; [tauto|].
  destruct (0 <=? e)%Z; [tauto|].
  destruct ((Z.pos m mod 2 ^ (- e)) =? 0)%Z; [tauto | discriminate].
Qed.

Lemma exit_status_int f z : float_to_Z f = Some z -> (- 2 ^ 63 <= z < 2 ^ 63)%Z -> exit_status f = (z mod 256)%Z.
Proof.
  intros H R. unfold exit_status, go_int64. rewrite (float_to_Z_trunc f z H).
  replace ((- 2 ^ 63 <=? z) && (z <? 2 ^ 63))%Z with true; [reflexivity|].
  symmetry. apply andb_true_iff. split; [apply Z.leb_le | apply Z.ltb_lt]; lia.
Qed.

Lemma exit_status_small f z : float_to_Z f = Some z -> (0 <= z < 256)%Z -> exit_status f = z.
Proof.
  intros H R. rewrite (exit_status_int f z H); [apply Z.mod_small; lia|].
  assert (256 < 2 ^ 63)%Z by (vm_compute; reflexivity). lia.
Qed.

(* NaN and ±Inf (no integer part at all): Go's conversion gives -2^63, status 0 *)
Lemma exit_status_nonfinite f : float_trunc f = None -> exit_status f = 0%Z.
Proof. intros H. unfold exit_status, go_int64. rewrite H. vm_compute. reflexivity. Qed.

(** * rand *)

(* binary64 facts needed: a valid finite float with exponent above the
   subnormal range has a 53-bit mantissa *)
Lemma digits2_pos_bounds m :
  (2 ^ (Z.pos (SpecFloat.digits2_pos m) - 1) <= Z.pos m < 2 ^ (Z.pos (SpecFloat.digits2_pos m)))%Z.
Proof.
  induction m as [m IH|m IH|]; simpl SpecFloat.digits2_pos; [| |simpl; lia];
    rewrite Pos2Z.inj_succ, Z.sub_succ_l, !Z.pow_succ_r by lia; lia.
Qed.

Lemma valid_normal_mantissa s m e :
  SpecFloat.valid_binary FloatOps.prec FloatOps.emax (SpecFloat.S754_finite s m e) = true ->
  (-1074 < e)%Z -> (2 ^ 52 <= Z.pos m < 2 ^ 53)%Z.
Proof.
  unfold SpecFloat.valid_binary, SpecFloat.bounded, SpecFloat.canonical_mantissa, SpecFloat.fexp, SpecFloat.emin.
  intros H He. apply andb_true_iff in H as [H _]. apply Zeq_bool_eq in H.
  change FloatOps.prec with 53%Z in H. change FloatOps.emax with 1024%Z in H.
  assert (Z.pos (SpecFloat.digits2_pos m) = 53%Z) as D by lia.
  pose proof (digits2_pos_bounds m) as B. rewrite D in B. exact B.
Qed.

(* 1 and 2^31-1 with the mantissa normalised to 53 bits: 2^52 * 2^-52 and (2^31-1) * 2^22 * 2^-22 *)
Lemma prim2sf_one : Prim2SF 1 = SpecFloat.S754_finite false 4503599627370496 (-52).
Proof. vm_compute. reflexivity. Qed.
Lemma prim2sf_int31max : Prim2SF 2147483647 = SpecFloat.S754_finite false 9007199250546688 (-22).
Proof. vm_compute. reflexivity. Qed.

(* what the two comparisons say of a positive finite float m * 2^e *)
Lemma between_one_int31max m e :
  SpecFloat.SFleb (SpecFloat.S754_finite false 4503599627370496 (-52)) (SpecFloat.S754_finite false m e) = true ->
  SpecFloat.SFleb (SpecFloat.S754_finite false m e) (SpecFloat.S754_finite false 9007199250546688 (-22)) = true ->
  (-52 <= e <= -22)%Z /\ (e = -22 -> Z.pos m <= 9007199250546688)%Z.
Proof.
  unfold SpecFloat.SFleb, SpecFloat.SFcompare. intros H1 H2.
  assert (-52 <= e)%Z as E1.
  { revert H1. destruct (Z.compare_spec (-52) e); intros H1; [lia | lia | discriminate]. }
  assert (e <= -22)%Z as E2.
  { revert H2. destruct (Z.compare_spec e (-22)); intros H2; [lia | lia | discriminate]. }
  split; [lia|]. intros ->. rewrite Z.compare_refl in H2.
  remember 9007199250546688%positive as c eqn:Hc.
  assert (m <= c)%positive as Hle.
  { unfold Pos.le, Pos.compare. intros G. rewrite G in H2. discriminate. }
  lia.
Qed.

(* the accepted range [1, 2^31-1] (as the two float comparisons decide it)
   truncates to an integer in [1, 2^31) — in particular never NaN, never <= 0 *)
Lemma rand_domain_int32 upper :
  PrimFloat.leb 1 upper = true -> PrimFloat.leb upper 2147483647 = true ->
  (1 <= go_int32 upper < 2 ^ 31)%Z.
Proof.
  rewrite !leb_spec, prim2sf_one, prim2sf_int31max.
  pose proof (Prim2SF_valid upper) as V.
  unfold go_int32, float_trunc.
  destruct (Prim2SF upper) as [s|s| |s m e].
  1-3: unfold SpecFloat.SFleb, SpecFloat.SFcompare; try destruct s; discriminate.
  destruct s; [discriminate|].
  intros H1 H2. destruct (between_one_int31max m e H1 H2) as ((E1 & E2) & E3).
  pose proof (valid_normal_mantissa false m e V ltac:(lia)) as M.
  destruct (0 <=? e)%Z eqn:P; [lia|].
  assert (0 < 2 ^ (- e))%Z as Q by (apply Z.pow_pos_nonneg; lia).
  assert (2 ^ (- e) <= 2 ^ 52)%Z as Q2 by (apply Z.pow_le_mono_r; lia).
  assert (1 <= Z.pos m / 2 ^ (- e))%Z as L by (apply Z.div_le_lower_bound; lia).
  assert (Z.pos m / 2 ^ (- e) < 2 ^ 31)%Z as U.
  { apply Z.div_lt_upper_bound; [exact Q|].
    destruct (Z.eq_dec e (-22)) as [->|Ne].
    - (* 2^22 * 2^31 = 2^53 *)
      specialize (E3 eq_refl). change (2 ^ (- -22) * 2 ^ 31)%Z with 9007199254740992%Z. lia.
    - rewrite <- Z.pow_add_r by lia.
      assert (2 ^ 54 <= 2 ^ (- e + 31))%Z by (apply Z.pow_le_mono_r; lia).
      assert (2 ^ 53 < 2 ^ 54)%Z by (vm_compute; reflexivity). lia. }
  assert (- 2 ^ 31 <= Z.pos m / 2 ^ (- e))%Z as L2 by (assert (- 2 ^ 31 < 0)%Z by (vm_compute; reflexivity); lia).
  replace ((- 2 ^ 31 <=? Z.pos m / 2 ^ (- e)) && (Z.pos m / 2 ^ (- e) <? 2 ^ 31))%Z with true
    by (symmetry; apply andb_true_iff; split; [apply Z.leb_le | apply Z.ltb_lt]; assumption).
  lia.
Qed.

Section Rand.
Variable o : oracles.
Hypothesis rand_contract : forall n, (0 < n)%Z -> (0 <= o_rand o n < n)%Z.

(* rand never reaches the host crash: NaN and everything outside [1, 2^31-1]
   is rejected first, and what passes truncates to n >= 1 *)
Lemma rand_no_host_crash upper : rand_model o upper <> OHostCrash.
Proof.
  unfold rand_model. destruct (PrimFloat.leb 1 upper) eqn:A; simpl; [|discriminate].
  destruct (PrimFloat.leb upper 2147483647) eqn:B; simpl; [|discriminate].
  pose proof (rand_domain_int32 upper A B) as R.
  destruct (go_int32 upper <=? 0)%Z eqn:C; [apply Z.leb_le in C; lia | discriminate].
Qed.

(* rand n: for 1 <= n <= 2^31-1 an integer in [0, int32(n)), for every other n
   (NaN included) the documented panic — nothing else *)
Lemma rand_range upper :
  if PrimFloat.leb 1 upper && PrimFloat.leb upper 2147483647
  then exists z, rand_model o upper = ORet (VNum (float_of_Z z)) /\ (0 <= z < go_int32 upper)%Z /\ (1 <= go_int32 upper < 2 ^ 31)%Z
  else rand_model o upper = OPanic BadArguments.
Proof.
  unfold rand_model. destruct (PrimFloat.leb 1 upper) eqn:A; simpl; [|reflexivity].
  destruct (PrimFloat.leb upper 2147483647) eqn:B; simpl; [|reflexivity].
  pose proof (rand_domain_int32 upper A B) as R.
  destruct (go_int32 upper <=? 0)%Z eqn:C; [apply Z.leb_le in C; lia|].
  exists (o_rand o (go_int32 upper)). split; [reflexivity|]. split; [apply rand_contract; lia | exact R].
Qed.
End Rand.

(** * the text of a failed test *)

(* testMessage: nothing with <= 2 arguments; with exactly 3 the third argument
   VERBATIM (no formatting: a '%' in it is just a character); with >= 4 the
   third argument is a format string applied to the remaining arguments *)
Lemma test_message_none o args : (List.length args <= 2)%nat -> test_message o args = Some [].
Proof. destruct args as [|a [|b [|c r]]]; simpl; intros H; try reflexivity; lia. Qed.

Lemma test_message_three o a b m msg :
  any_inner m = VStr msg -> test_message o [a; b; m] = Some (s_ " (" ++ msg ++ s_ ")").
Proof. intros H. simpl. rewrite H. reflexivity. Qed.

Lemma test_message_format o a b m msg x rest :
  any_inner m = VStr msg ->
  test_message o (a :: b :: m :: x :: rest)
  = option_map (fun r => s_ " (" ++ r ++ s_ ")") (sprintf o msg (x :: rest)).
Proof. intros H. simpl. rewrite H. reflexivity. Qed.

Lemma test_func_failure o want got rest tail :
  same want got = false ->
  match rest with [] => True | m :: _ => exists msg, any_inner m = VStr msg end ->
  test_message o (want :: got :: rest) = Some tail ->
  test_func o (want :: got :: rest)
  = OTestFail (s_ "want != got: " ++ vrepr o want ++ s_ " != " ++ vrepr o got ++ tail).
Proof.
  intros S M T. unfold test_func. 
  assert (match rest with [] => true | m :: _ => match any_inner m with VStr _ => true | _ => false end end = true) as OK.
  { destruct rest as [|m r]; [reflexivity|]. destruct M as [msg ->]. reflexivity. }
  rewrite OK, S, T. reflexivity.
Qed.

(** * hsl *)

Lemma SFcompare_antisym x y :
  SpecFloat.SFcompare y x = option_map CompOpp (SpecFloat.SFcompare x y).
Proof.
  destruct x as [sx|sx| |sx mx ex], y as [sy|sy| |sy my ey]; simpl; try reflexivity;
    try (destruct sx; reflexivity); try (destruct sy; reflexivity); try (destruct sx, sy; reflexivity).
  destruct sx, sy; simpl; try reflexivity; rewrite (Z.compare_antisym ex ey);
    destruct (ex ?= ey)%Z; simpl; try reflexivity.
  - rewrite (Pos.compare_cont_antisym mx my Eq). reflexivity.
  - rewrite (Pos.compare_cont_antisym mx my Eq). reflexivity.
Qed.

Lemma SFcompare_none x y : SpecFloat.SFcompare x y = None -> x = SpecFloat.S754_nan \/ y = SpecFloat.S754_nan.
Proof.
  destruct x as [sx|sx| |sx mx ex], y as [sy|sy| |sy my ey]; simpl; intros H; try discriminate; auto.
Qed.

Lemma not_nan_sf x : is_nan x = false -> Prim2SF x <> SpecFloat.S754_nan.
Proof.
  unfold is_nan. rewrite eqb_spec. intros H E. rewrite E in H. discriminate.
Qed.

Lemma ltb_negb_leb x y : is_nan x = false -> is_nan y = false -> PrimFloat.ltb x y = negb (PrimFloat.leb y x).
Proof.
  intros Hx Hy. rewrite ltb_spec, leb_spec. unfold SpecFloat.SFltb, SpecFloat.SFleb.
  rewrite (SFcompare_antisym (Prim2SF x) (Prim2SF y)).
  destruct (SpecFloat.SFcompare (Prim2SF x) (Prim2SF y)) as [c|] eqn:E.
  - destruct c; reflexivity.
  - apply SFcompare_none in E. destruct E as [E|E]; [apply not_nan_sf in Hx | apply not_nan_sf in Hy]; contradiction.
Qed.

Lemma hsl_range_tests_agree x hi : is_nan x = false -> is_nan hi = false ->
  hsl_out_of_range x hi = negb (hsl_in_range x hi).
Proof.
  intros Hx Hh. unfold hsl_out_of_range, hsl_in_range.
  rewrite (ltb_negb_leb x 0 Hx) by (vm_compute; reflexivity). rewrite (ltb_negb_leb hi x Hh Hx).
  rewrite negb_andb. reflexivity.
Qed.

Section HslFacts.
Variable o : oracles.

Lemma hsl_arg_count bad nums : (List.length nums = 0 \/ 5 <= List.length nums)%nat ->
  hsl_with o bad nums = OPanic BadArguments.
Proof.
  destruct nums as [|a [|b [|c [|d [|e r]]]]]; simpl; intros H; try reflexivity; lia.
Qed.

Lemma hsl_with_ext bad1 bad2 nums :
  (forall x, In x nums -> bad1 x 360%float = bad2 x 360%float /\ bad1 x 100%float = bad2 x 100%float) ->
  hsl_with o bad1 nums = hsl_with o bad2 nums.
Proof.
  intros H. destruct nums as [|a [|b [|c [|d [|e r]]]]]; try reflexivity; unfold hsl_with;
    repeat match goal with
           | |- context [bad1 ?x 360%float] => rewrite (proj1 (H x ltac:(simpl; tauto)))
           | |- context [bad1 ?x 100%float] => rewrite (proj2 (H x ltac:(simpl; tauto)))
           end; reflexivity.
Qed.

(* documented acceptance: hue in [0,360], the others in [0,100] *)
Definition hsl_args_ok (nums : list float) : bool :=
  match nums with
  | [] => false
  | h :: rest => hsl_in_range h 360 && forallb (fun x => hsl_in_range x 100) rest
  end.

(* hsl: accepted exactly when 1..4 arguments are all
   in their documented ranges; missing arguments default to 100, 50, 100; the
   result has the documented shape *)
Lemma hsl_model_spec nums : (1 <= List.length nums <= 4)%nat ->
  hsl_model o nums =
  if hsl_args_ok nums
  then ORet (VStr (hsl_text o (nth 0 nums 0%float) (nth 1 nums 100%float) (nth 2 nums 50%float) (nth 3 nums 100%float)))
  else OPanic BadArguments.
Proof.
  destruct nums as [|a [|b [|c [|d [|e r]]]]]; simpl; intros H; try lia;
    unfold hsl_model, hsl_with; simpl;
    repeat match goal with |- context [hsl_in_range ?x ?hi] => destruct (hsl_in_range x hi); simpl end;
    reflexivity.
Qed.

(* the tests before 1433667 (`x < 0 || x > max`) gave the same result for numbers *)
Lemma hsl_before_fix_agrees nums : Forall (fun x => is_nan x = false) nums ->
  hsl_before_fix o nums = hsl_model o nums.
Proof.
  intros F. apply hsl_with_ext. intros x Hin.
  rewrite Forall_forall in F. specialize (F x Hin).
  split; apply hsl_range_tests_agree; try exact F; vm_compute; reflexivity.
Qed.

Lemma hsl_defaults h sa l :
  hsl_model o [h] = hsl_model o [h; 100%float; 50%float; 100%float] /\
  hsl_model o [h; sa] = hsl_model o [h; sa; 50%float; 100%float] /\
  hsl_model o [h; sa; l] = hsl_model o [h; sa; l; 100%float].
Proof.
  assert (A : hsl_in_range 100 100 = true) by (vm_compute; reflexivity).
  assert (B : hsl_in_range 50 100 = true) by (vm_compute; reflexivity).
  unfold hsl_model, hsl_with. rewrite A, B.
  repeat split; repeat match goal with |- context [hsl_in_range ?x ?hi] => destruct (hsl_in_range x hi) end; reflexivity.
Qed.

End HslFacts.

(* float constants for Props/C13.v (which does not import Floats, so that Print
   Assumptions shows the primitive operations with their qualified names) *)
Definition fc_nan : float := nan.
Definition fc_inf : float := infinity.
Definition fc_zero : float := zero.
Definition fc_one : float := one.
Definition fc_int31max : float := 2147483647%float.
Definition fc_half : float := 0.5%float.
Definition fc_360 : float := 360%float.
Definition fc_100 : float := 100%float.
Definition fc_50 : float := 50%float.
Definition fc_lit (z : Z) : float := float_of_Z z.
Definition fc_frac (num den : Z) : float := PrimFloat.div (float_of_Z num) (float_of_Z den).
