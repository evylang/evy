(* CompileCoverProofs.v — what the fragment of compile_correct_locals leaves
   out: every program the compiler accepts and that is [plain] (no element
   store; plus two shapes the parser never produces) lies in lfrag. *)
From Coq Require Import ZArith NArith List Bool Lia.
From EvyV Require Import Base Bytecode BytecodeProofs SymTab Vm Compile CompileSem CompileProofs CompileStmtProofs CompileCtlProofs CompileLocProofs.
Require Import EvyV.Gen.Opcodes.
Import ListNotations.

Ltac split_hyps := repeat match goal with H : _ && _ = true |- _ => apply andb_true_iff in H; destruct H end.
Ltac split_goal := repeat (apply andb_true_iff; split).

Lemma cover_expr :
  (forall e st st', compile_expr true e st = COk st' -> mapok e = true -> efrag e = true) /\
  (forall l st st', compile_elist true l st = COk st' -> mapok_list l = true -> efrag_list l = true) /\
  (forall l st st', compile_pairs true l st = COk st' -> mapok_pairs l = true -> efrag_pairs l = true) /\
  (forall o st st', compile_oexpr true o st = COk st' -> mapok_o o = true -> efrag_o o = true).
Proof.
  apply expr_mutind; intros; simpl in *; auto; binds;
    try (destruct op; try discriminate);
    split_hyps;
    repeat match goal with
           | IH : forall st st', _ = COk st' -> _ = true -> _ = true, H : _ = COk _ |- _ => specialize (IH _ _ H); clear H
           end;
    split_goal; auto; try discriminate.
Qed.

Ltac derive2 SE SO :=
    repeat match goal with
    | H : compile_expr true _ _ = COk _ |- _ => let X := fresh "X" in pose proof (SE _ _ _ H) as X; clear H
    | H : compile_oexpr true _ _ = COk _ |- _ => let X := fresh "X" in pose proof (SO _ _ _ H) as X; clear H
    | H : compile_block true _ _ = COk _ |- _ => apply block_body in H; destruct H as (? & ? & H)
    | H : compile_cond true _ _ _ = COk _ |- _ => apply cond_body in H; destruct H as ((? & ?) & ? & ? & H)
    | H : for_loop true _ _ _ _ _ = COk _ |- _ => apply for_body in H; destruct H as (? & ? & H)
    | IH : (forall st st', body_of true ?b st = COk st' -> _), H : body_of true ?b _ = COk _ |- _ =>
        destruct (IH _ _ H); clear H
    end.
(* the two claims of cover_stmt, each from its hypothesis on the shape *)
Ltac both := split; intro; split_hyps; split_goal; auto.

(* One walk over the statement compiler for both fragments: cfrag (compile_wf,
   element stores included) and lfrag (compile_correct_locals) differ in
   `a[i] = e` only. *)
Opaque emit emit_const.
Lemma cover_stmt :
  (forall s st st', compile_stmt true s st = COk st' ->
     (wplain_stmt s = true -> cfrag_stmt s = true) /\ (plain_stmt s = true -> lfrag_stmt s = true)) /\
  (forall l st st', body_of true l st = COk st' ->
     (wplain_slist l = true -> cfrag_slist l = true) /\ (plain_slist l = true -> lfrag_slist l = true)) /\
  (forall l jumps st st', fst (compile_elifs true l jumps st) = COk st' ->
     (wplain_clist l = true -> cfrag_clist l = true) /\ (plain_clist l = true -> lfrag_clist l = true)) /\
  (forall o, match o with
             | NoElse => True
             | Else b => forall st st', body_of true b st = COk st' ->
                 (wplain_slist b = true -> cfrag_slist b = true) /\ (plain_slist b = true -> lfrag_slist b = true)
             end).
Proof.
  destruct cover_expr as (SE & SL & SP & SO).
  apply stmt_mutind; intros; simpl in *; auto.
  - (* SDecl *) binds. derive2 SE SO. both.
  - (* SAssign *)
    match goal with H : _ = COk _ |- _ => bind_inv H; rename H into HT end.
    destruct target; simpl in *; try discriminate; binds; derive2 SE SO; both; discriminate.
  - (* SIf *)
    match goal with H : _ = COk _ |- _ => bind_inv H; rename H into HT end.
    match type of HT with context [compile_elifs true ?l ?j ?x] =>
      destruct (compile_elifs true l j x) as [r jumps] eqn:EE end.
    binds.
    match goal with IH : forall jumps st st', fst (compile_elifs true elifs jumps st) = COk st' -> _ |- _ =>
      destruct (IH [(pos_of st0 - 3)%Z] st0 st1) as [XE1 XE2]; [rewrite EE; simpl; eassumption|] end.
    destruct els; simpl in *; derive2 SE SO; both.
  - (* SWhile *) binds. derive2 SE SO. both.
  - (* SForStep *) binds. derive2 SE SO. destruct start, step; simpl in *; both.
  - (* SForIter *) destruct t; try discriminate; binds; derive2 SE SO; both.
  - (* SUnsupported *) discriminate.
  - (* SCons *) binds.
    match goal with H : compile_slist true _ _ = COk _ |- _ => rewrite compile_slist_body in H end.
    repeat match goal with IH : forall st st', _ = COk st' -> _ /\ _, H : _ = COk _ |- _ => destruct (IH _ _ H); clear H end.
    both.
  - (* CCons *)
    match goal with H : fst (match ?x with _ => _ end) = COk _ |- _ => destruct x eqn:EC; [|simpl in H; discriminate] end.
    derive2 SE SO.
    match goal with IH : forall jumps st st', _ -> _ /\ _, H : fst _ = COk _ |- _ => destruct (IH _ _ _ H) end.
    both.
  - (* Else *) eauto.
Qed.
Transparent emit emit_const.

(* every program the compiler accepts is in the fragment, unless it has an
   element store (or one of the two shapes the parser never produces) *)
Theorem compile_covered : forall (p : slist) (st : cstate),
  compile p = COk st -> plain_slist p = true -> lfrag_slist p = true.
Proof.
  intros p st H HP. unfold compile, compile_program in H. rewrite compile_slist_body in H.
  destruct cover_stmt as (_ & SL & _). apply (proj2 (SL p cinit st H) HP).
Qed.

(* compile_correct for every program the compiler accepts, element stores
   aside: the hypotheses on the shape of p are [plain] (no element store; the
   parser guarantees the rest of it) and no break outside a loop (a parse
   error as well). *)
Theorem compile_correct_plain : forall (p : slist) (st : cstate) (fuel : nat) (env' : senv),
  compile p = COk st -> plain_slist p = true -> nb_slist p = true ->
  lx_l fuel p [[]] = Some (env', false) ->
  (st_local_count (csym st) + ldepth p <= StackSize)%N ->
  let prog := program_of (bytecode_of st) in
  exists s, reaches prog (vm_init prog) s /\
            vm_step prog s = Halted s /\ ostack s = [] /\
            forall n y v, st_resolve n (csym st) = Some y -> slook n env' = Some v ->
                          nth_error (globals s) (N.to_nat (sidx y)) = Some v.
Proof.
  intros p st fuel env' HC HP HNB HX HD. apply (compile_correct_locals p st fuel env'); auto.
  unfold lpfrag. rewrite (compile_covered p st HC HP), HNB. reflexivity.
Qed.

Lemma pfrag2_cfrag p : pfrag2 p = cfrag_slist p.
Proof. induction p as [|s t IH]; [reflexivity|]. cbn [pfrag2 cfrag_slist]. unfold pfrag_stmt2. rewrite IH. reflexivity. Qed.

Theorem compile_covered_wf : forall (p : slist) (st : cstate),
  compile p = COk st -> wplain_slist p = true -> pfrag2 p = true.
Proof.
  intros p st H HP. rewrite pfrag2_cfrag. unfold compile, compile_program in H. rewrite compile_slist_body in H.
  destruct cover_stmt as (_ & SL & _). apply (proj1 (SL p cinit st H) HP).
Qed.

(* compile_wf for EVERY program the compiler accepts: wplain only excludes
   two shapes the parser never produces, and a pending break at the end is a
   break outside a loop (a parse error) *)
Theorem compile_wf_all : forall (p : slist) (st : cstate),
  compile p = COk st -> wplain_slist p = true -> cbreaks st = [] ->
  WF {| bcode := out_code (bytecode_of st); nconsts := N.of_nat (List.length (out_consts (bytecode_of st)));
        gcount := out_gcount (bytecode_of st); lcount := out_lcount (bytecode_of st) |}.
Proof. intros p st HC HP HB. apply (compile_wf_ctl2 p st (compile_covered_wf p st HC HP) HC HB). Qed.

Lemma setvar_breaks y st st' : emit_set_var true y st = COk st' -> cbreaks st' = cbreaks st.
Proof. unfold emit_set_var. destruct (sscp y); apply emit_breaks. Qed.

Lemma expr_breaks_any :
  (forall e st st', compile_expr true e st = COk st' -> cbreaks st' = cbreaks st) /\
  (forall l st st', compile_elist true l st = COk st' -> cbreaks st' = cbreaks st) /\
  (forall l st st', compile_pairs true l st = COk st' -> cbreaks st' = cbreaks st) /\
  (forall o st st', compile_oexpr true o st = COk st' -> cbreaks st' = cbreaks st).
Proof.
  apply expr_mutind; intros; cbn [compile_expr compile_elist compile_pairs compile_oexpr] in *; binds;
    try (match goal with H : compile_var true _ _ = COk _ |- _ =>
           unfold compile_var in H; destruct (st_resolve _ _); [|discriminate]; destruct (sscp _) end);
    try (match goal with H : compile_binop true ?op ?lt ?rt _ = COk _ |- _ =>
           unfold compile_binop in H; destruct op, lt, rt; cbn [num_binop str_binop] in H; try discriminate end);
    try (match goal with H : match ?op with UMinus => _ | UBang => _ | UOtherOp => _ end = COk _ |- _ => destruct op; try discriminate end);
    try discriminate;
    repeat match goal with
           | H : emit_const true _ _ = COk _ |- _ => unfold emit_const in H
           | H : emit true _ _ _ = COk _ |- _ => apply emit_breaks in H
           | H : COk _ = COk _ |- _ => inversion H; subst; clear H
           | IH : forall st st', _ = COk st' -> cbreaks st' = cbreaks st, H : _ = COk _ |- _ => apply IH in H
           end;
    cbn [cbreaks] in *; congruence.
Qed.

Lemma emit_const_breaks k st st' : emit_const true k st = COk st' -> cbreaks st' = cbreaks st.
Proof. unfold emit_const. intro H. apply emit_breaks in H. exact H. Qed.

Lemma patch_breaks p t st st' : patch true p t st = COk st' -> cbreaks st' = cbreaks st.
Proof. unfold patch. destruct (change_operand _ _ _); [|discriminate]. intro H. inversion H. reflexivity. Qed.

Lemma patch_all_breaks l t : forall r st', fold_left (fun r p => r >>= patch true p t) l r = COk st' ->
  exists st0, r = COk st0 /\ cbreaks st' = cbreaks st0.
Proof.
  induction l as [|p l IH]; intros r st' H; cbn [fold_left] in H.
  - exists st'. auto.
  - destruct (IH _ _ H) as (st1 & E & B). apply bind_ok in E. destruct E as (st0 & -> & E).
    exists st0. split; [reflexivity|]. rewrite B. apply (patch_breaks _ _ _ _ E).
Qed.

Lemma patch_all_breaks' l t st st' : patch_all true l t st = COk st' -> cbreaks st' = cbreaks st.
Proof. unfold patch_all. intro H. destruct (patch_all_breaks _ _ _ _ H) as (st0 & E & B). inversion E; subst. exact B. Qed.

Lemma for_declare_breaks lv st st' : for_declare true lv st = COk st' -> cbreaks st' = cbreaks st.
Proof.
  unfold for_declare. destruct lv as [n|]; [|intro H; inversion H; reflexivity].
  destruct (st_define n (csym st)) as [s' y]. intro H. bind_inv H. apply emit_breaks in H0. apply setvar_breaks in H.
  cbn [with_sym cbreaks] in H0. congruence.
Qed.
Lemma for_assign_breaks lv st st' : for_assign true lv st = COk st' -> cbreaks st' = cbreaks st.
Proof.
  unfold for_assign. destruct lv as [n|]; [|intro H; inversion H; reflexivity].
  destruct (st_resolve n (csym st)); [|discriminate]. apply setvar_breaks.
Qed.

(* a loop leaves the enclosing loop's list as it found it, whatever its body does *)
Lemma for_loop_breaks lv rop n b st st' : for_loop true lv rop n b st = COk st' -> cbreaks st' = cbreaks st.
Proof.
  intro H. destruct b as [|s t]; cbn [for_loop] in H;
    repeat (apply bind_ok in H; let x := fresh "c" in let E := fresh "E" in destruct H as (x & E & H));
    inversion H; subst; cbn [with_breaks cbreaks];
    repeat match goal with
           | X : (_ >>= _) = COk _ |- _ => bind_inv X
           | X : for_declare true _ _ = COk _ |- _ => apply for_declare_breaks in X
           | X : for_assign true _ _ = COk _ |- _ => apply for_assign_breaks in X
           | X : emit true _ _ _ = COk _ |- _ => apply emit_breaks in X
           end; congruence.
Qed.

Lemma while_breaks c b st st' : compile_stmt true (SWhile c b) st = COk st' -> cbreaks st' = cbreaks st.
Proof.
  intro H. cbn [compile_stmt] in H.
  repeat (apply bind_ok in H; let x := fresh "c" in let E := fresh "E" in destruct H as (x & E & H)).
  inversion H; subst; cbn [with_breaks cbreaks].
  repeat match goal with
         | X : (_ >>= _) = COk _ |- _ => bind_inv X
         | X : compile_expr true _ _ = COk _ |- _ => apply (proj1 expr_breaks_any) in X
         | X : emit true _ _ _ = COk _ |- _ => apply emit_breaks in X
         end; congruence.
Qed.

Ltac bi H x E := apply bind_ok in H; destruct H as (x & E & H).

Opaque emit emit_const.
Lemma stmt_no_breaks :
  (forall s st st', compile_stmt true s st = COk st' -> wplain_stmt s = true -> nb_stmt s = true -> cbreaks st' = cbreaks st) /\
  (forall l st st', body_of true l st = COk st' -> wplain_slist l = true -> nb_slist l = true -> cbreaks st' = cbreaks st) /\
  (forall l jumps st st', fst (compile_elifs true l jumps st) = COk st' -> wplain_clist l = true -> nb_clist l = true -> cbreaks st' = cbreaks st) /\
  (forall o, match o with
             | NoElse => True
             | Else b => forall st st', body_of true b st = COk st' -> wplain_slist b = true -> nb_slist b = true -> cbreaks st' = cbreaks st
             end).
Proof.
  destruct expr_breaks_any as (EB & _ & _ & _).
  assert (BLOCK : forall b, (forall st st', body_of true b st = COk st' -> wplain_slist b = true -> nb_slist b = true -> cbreaks st' = cbreaks st) ->
                            forall st st', compile_block true b st = COk st' -> wplain_slist b = true -> nb_slist b = true -> cbreaks st' = cbreaks st).
  { intros b Hb st st' H HP HN. destruct b as [|s t].
    - simpl in H. inversion H; reflexivity.
    - simpl in H. bi H c1 E1. inversion H; subst. cbn [with_sym cbreaks].
      rewrite (Hb (with_sym (st_push (csym st)) st) c1); [reflexivity|simpl; exact E1|exact HP|exact HN]. }
  assert (COND : forall c b, (forall st st', body_of true b st = COk st' -> wplain_slist b = true -> nb_slist b = true -> cbreaks st' = cbreaks st) ->
                             forall st st', compile_cond true c b st = COk st' -> wplain_slist b = true -> nb_slist b = true -> cbreaks st' = cbreaks st).
  { intros c b Hb st st' H HP HN. destruct b as [|s t].
    - simpl in H. bi H c1 E1. bi H c2 E2. bi H c4 E4.
      apply EB in E1. apply emit_breaks in E2. apply emit_breaks in E4. apply patch_breaks in H. cbn [with_sym cbreaks] in *. congruence.
    - simpl in H. bi H c1 E1. bi H c2 E2. bi H c3 E3. bi H c4 E4.
      apply EB in E1. apply emit_breaks in E2. apply emit_breaks in E4. apply patch_breaks in H. cbn [with_sym cbreaks] in *.
      pose proof (Hb (with_sym (st_push (csym c2)) c2) c3 ltac:(simpl; exact E3) HP HN) as X. cbn [with_sym cbreaks] in X. congruence. }
  apply stmt_mutind.
  - (* SDecl *) intros n e st st' H _ _. cbn [compile_stmt] in H. bi H c1 E1. apply EB in E1.
    destruct (st_define n (csym c1)). apply setvar_breaks in H. cbn [with_sym cbreaks] in H. congruence.
  - (* SAssign *) intros target e st st' H _ _. cbn [compile_stmt] in H. bi H c1 E1. apply EB in E1.
    destruct target; try discriminate H.
    + destruct (st_resolve n (csym c1)); [|discriminate]. apply setvar_breaks in H. congruence.
    + bi H c3 E3. bi E3 c2 E2. apply EB in E2. apply EB in E3. apply emit_breaks in H. congruence.
  - (* SIf *) intros c b Hb elifs He els Ho st st' H HP HN. cbn [compile_stmt] in H. cbn [wplain_stmt nb_stmt] in HP, HN. split_hyps.
    bi H c1 E1.
    destruct (compile_elifs true elifs [(pos_of c1 - 3)%Z] c1) as [r jumps] eqn:EE.
    bi H c2 E2. bi H c3 E3. subst r. apply patch_all_breaks' in H.
    assert (X1 : cbreaks c1 = cbreaks st) by (apply (COND c b Hb _ _ E1); assumption).
    assert (X2 : cbreaks c2 = cbreaks c1) by (apply (He [(pos_of c1 - 3)%Z] c1 c2); [rewrite EE; reflexivity|assumption|assumption]).
    assert (X3 : cbreaks c3 = cbreaks c2).
    { destruct els; [inversion E3; reflexivity|]. apply (BLOCK _ Ho _ _ E3); assumption. }
    congruence.
  - (* SWhile *) intros c b _ st st' H _ _. apply (while_breaks c b st st' H).
  - (* SForStep *) intros lv start stop step b _ st st' H _ _. cbn [compile_stmt] in H.
    bi H c3 E3. bi E3 c2 E2. bi E2 c1 E1. apply EB in E1. apply EB in E2. apply EB in E3. apply for_loop_breaks in H. congruence.
  - (* SForIter *) intros lv t e b _ st st' H _ _. cbn [compile_stmt] in H. destruct t; try discriminate H;
      (bi H c2 E2; bi E2 c1 E1; apply EB in E1; apply emit_const_breaks in E2; apply for_loop_breaks in H; congruence).
  - (* SBreak *) intros st st' _ _ HN. discriminate HN.
  - (* SEmpty *) intros st st' H _ _. inversion H; reflexivity.
  - (* SBlock *) intros b _ st st' _ HP. discriminate HP.
  - (* SUnsupported *) intros w st st' H. discriminate H.
  - (* SNil *) intros st st' H _ _. inversion H; reflexivity.
  - (* SCons *) intros s Hs t Ht st st' H HP HN. cbn [body_of] in H. bi H c1 E1. rewrite compile_slist_body in H.
    cbn [wplain_slist nb_slist] in HP, HN. split_hyps.
    rewrite (Ht _ _ H), (Hs _ _ E1); auto.
  - (* CNil *) intros jumps st st' H _ _. inversion H; reflexivity.
  - (* CCons *) intros c b Hb t Ht jumps st st' H HP HN. cbn [compile_elifs] in H.
    destruct (compile_cond true c b st) as [c1|] eqn:EC; [|discriminate H].
    cbn [wplain_clist nb_clist] in HP, HN. split_hyps.
    rewrite (Ht _ _ _ H), (COND _ _ Hb _ _ EC); auto.
  - (* NoElse *) exact I.
  - (* Else *) intros b Hb. exact Hb.
Qed.
Transparent emit emit_const.

Theorem compile_no_pending_break : forall (p : slist) (st : cstate),
  compile p = COk st -> wplain_slist p = true -> nb_slist p = true -> cbreaks st = [].
Proof.
  intros p st H HP HN. unfold compile, compile_program in H. rewrite compile_slist_body in H.
  destruct stmt_no_breaks as (_ & SL & _). apply (SL p cinit st H HP HN).
Qed.

(* … so the side conditions of compile_wf_all are two syntactic facts about
   the program, both guaranteed by the parser *)
Theorem compile_wf_total : forall (p : slist) (st : cstate),
  compile p = COk st -> wplain_slist p = true -> nb_slist p = true ->
  WF {| bcode := out_code (bytecode_of st); nconsts := N.of_nat (List.length (out_consts (bytecode_of st)));
        gcount := out_gcount (bytecode_of st); lcount := out_lcount (bytecode_of st) |}.
Proof. intros p st HC HP HN. apply (compile_wf_all p st HC HP (compile_no_pending_break p st HC HP HN)). Qed.
