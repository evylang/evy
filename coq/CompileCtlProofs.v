(* CompileCtlProofs.v — compile_wf for code with jumps: what the compiler
   emits for assignments, if / else-if / else chains, while, break and the
   for-range forms (with or without a loop variable) satisfies the premises of
   bok_WF: every jump operand the compiler patches lands on an instruction
   boundary inside the program and the stack states agree at every join. *)
From Coq Require Import ZArith NArith List Bool Lia ZifyBool ZifyNat ZifyN Floats.
From EvyV Require Import Base Bytecode BytecodeProofs SymTab SymTabProofs Vm VmProofs Compile CompileSem CompileProofs CompileWfProofs CompileJumpProofs CompileHoleProofs CompileSymProofs.
Require Import EvyV.Gen.Opcodes.
Import ListNotations.
Open Scope N_scope.

Lemma fill_nil T : forall ops pc, fill [] T ops pc = ops.
Proof. intros. apply fill_above. intros q []. Qed.

Lemma fill_ext s1 s2 T : (forall q, In q s1 <-> In q s2) -> forall ops pc, fill s1 T ops pc = fill s2 T ops pc.
Proof.
  intros HE. induction ops as [|[h x] t IH]; intros pc; [reflexivity|]. cbn [fill].
  assert (existsb (N.eqb pc) s1 = existsb (N.eqb pc) s2).
  { apply eq_true_iff_eq. rewrite !existsb_exists.
    split; intros (q & Hq & Eq); exists q; (split; [apply HE; exact Hq|exact Eq]). }
  rewrite H, IH. reflexivity.
Qed.

Lemma fill_fill s1 s2 T : forall ops pc, fill s1 T (fill s2 T ops pc) pc = fill (s1 ++ s2) T ops pc.
Proof.
  induction ops as [|[h x] t IH]; intros pc; [reflexivity|]. cbn [fill]. rewrite existsb_app.
  destruct (h && is_jump (fst x)) eqn:EJ.
  - destruct (existsb (N.eqb pc) s2) eqn:E2.
    + rewrite orb_true_r. cbn [andb fill fst snd]. f_equal. apply IH.
    + rewrite orb_false_r. cbn [andb fill]. rewrite EJ. cbn [andb].
      destruct (existsb (N.eqb pc) s1); f_equal; apply IH.
  - cbn [andb fill]. rewrite EJ. cbn [andb]. f_equal. apply IH.
Qed.

Lemma total_len_cons x t : total_len (x :: t) = ilen_of x + total_len t.
Proof. reflexivity. Qed.
Lemma strip_cons h x t : strip ((h, x) :: t) = x :: strip t.
Proof. reflexivity. Qed.

Lemma hole_at_range ops : forall pc p, hole_at ops pc p -> pc <= p < pc + total_len (strip ops).
Proof.
  induction ops as [|[h x] t IH]; intros pc p H; [destruct H|]. cbn [hole_at] in H.
  rewrite strip_cons, total_len_cons. pose proof (ilen_pos x).
  destruct H as [(E & _)|(HL & H)]; [lia|]. apply IH in H. lia.
Qed.

Lemma holes_hole_at nc gc : forall ops pc a p ra, In (p, ra) (holes nc gc ops pc a) -> hole_at ops pc p.
Proof.
  induction ops as [|[h x] t IH]; intros pc a p ra H; [destruct H|]. cbn [holes hole_at] in *.
  apply in_app_or in H. destruct H as [H|H].
  - left. destruct h; [|destruct H]. destruct (jop_req x a) as [[T r]|] eqn:EQ; [|destruct H].
    destruct H as [E|[]]. inversion E; subst. repeat split.
    unfold jop_req in EQ. destruct (fst x); try discriminate EQ; reflexivity.
  - right. destruct (jop_step nc gc x a); [|destruct H]. apply IH in H. split; [|exact H].
    apply hole_at_range in H. pose proof (ilen_pos x). lia.
Qed.

Lemma hole_at_app_l a b : forall pc p, hole_at a pc p -> hole_at (a ++ b) pc p.
Proof.
  induction a as [|[h x] t IH]; intros pc p H; [destruct H|]. cbn [app hole_at] in *.
  destruct H as [H|(HL & H)]; [left; exact H|right; split; auto].
Qed.

Lemma hole_at_app_r a b : forall pc p, hole_at b (pc + total_len (strip a)) p -> hole_at (a ++ b) pc p.
Proof.
  induction a as [|[h x] t IH]; intros pc p H.
  - unfold total_len in H. simpl in H. rewrite N.add_0_r in H. exact H.
  - cbn [app hole_at]. right. pose proof (hole_at_range _ _ _ H) as HR. pose proof (ilen_pos x).
    rewrite strip_cons, total_len_cons in *. split; [lia|].
    apply IH. replace (pc + ilen_of x + total_len (strip t)) with (pc + (ilen_of x + total_len (strip t))) by lia.
    exact H.
Qed.

Lemma hole_at_fill_sel sel T : forall ops pc p, ~ In p sel -> hole_at ops pc p -> hole_at (fill sel T ops pc) pc p.
Proof.
  induction ops as [|[h x] t IH]; intros pc p NI HH; [destruct HH|]. cbn [fill hole_at] in *.
  destruct HH as [(E1 & E2 & HJ)|(HLt & HH)].
  - subst pc h. assert (existsb (N.eqb p) sel = false).
    { destruct (existsb (N.eqb p) sel) eqn:E; [|reflexivity]. apply existsb_exists in E.
      destruct E as (q & Hq & Eq). apply N.eqb_eq in Eq. subst q. contradiction. }
    rewrite H, andb_false_r. left. auto.
  - destruct (h && is_jump (fst x) && existsb (N.eqb pc) sel); cbn [fst snd]; right; split; auto;
      destruct x; apply IH; auto.
Qed.

Lemma fold_cerr l T e : fold_left (fun r p => r >>= patch true p T) l (CErr e) = CErr e.
Proof. induction l; simpl; auto. Qed.

Lemma patch_all_cons x l T st : patch_all true (x :: l) T st = patch true x T st >>= patch_all true l T.
Proof. unfold patch_all. cbn [fold_left bind]. destruct (patch true x T st); [reflexivity|apply fold_cerr]. Qed.

Lemma patch_fill nc gc p T st st' ops prefix a aend :
  ccode st = prefix ++ encode (strip ops) ->
  jruns nc gc (strip ops) a = Some aend ->
  hole_at ops (N.of_nat (List.length prefix)) p ->
  patch true (Z.of_N p) T st = COk st' ->
  (0 <= T < 65536)%Z /\
  st' = {| ccode := prefix ++ encode (strip (fill [p] (Z.to_N T) ops (N.of_nat (List.length prefix))));
           cconsts := cconsts st; csym := csym st; cbreaks := cbreaks st |}.
Proof.
  intros HC HR HH HP. unfold patch, change_operand in HP. destruct (fits16 T) eqn:HF; [|discriminate].
  inversion HP; subst st'; clear HP. unfold fits16 in HF. split; [lia|]. f_equal.
  rewrite HC, N2Z.id. rewrite <- (Z2N.id T) at 1 by lia.
  assert (HTN : Z.to_N T < 65536) by lia.
  apply (encode_fill_one nc gc (Z.to_N T) p HTN ops _ a aend prefix HR HH eq_refl).
Qed.

Lemma patch_all_fill nc gc T : forall l st st' ops prefix a aend,
  NoDup l ->
  ccode st = prefix ++ encode (strip ops) ->
  jruns nc gc (strip ops) a = Some aend ->
  (forall p, In p l -> hole_at ops (N.of_nat (List.length prefix)) p) ->
  patch_all true (map Z.of_N l) T st = COk st' ->
  (l <> [] -> (0 <= T < 65536)%Z) /\
  st' = {| ccode := prefix ++ encode (strip (fill l (Z.to_N T) ops (N.of_nat (List.length prefix))));
           cconsts := cconsts st; csym := csym st; cbreaks := cbreaks st |}.
Proof.
  unfold patch_all. induction l as [|p l IH]; intros st st' ops prefix a aend ND HC HR HH HP.
  - simpl in HP. inversion HP; subst st'. split; [congruence|]. rewrite fill_nil, <- HC. destruct st; reflexivity.
  - cbn [map fold_left bind] in HP.
    destruct (patch true (Z.of_N p) T st) as [st1|e] eqn:E1; [|rewrite fold_cerr in HP; discriminate].
    destruct (patch_fill nc gc p T st st1 ops prefix a aend HC HR (HH p (or_introl eq_refl)) E1) as [HT ->].
    inversion ND; subst. assert (HTN : Z.to_N T < 65536) by lia.
    destruct (fill_frame nc gc [p] (Z.to_N T) HTN ops (N.of_nat (List.length prefix)) a aend HR) as (R1 & _ & _).
    eapply (IH _ st' (fill [p] (Z.to_N T) ops (N.of_nat (List.length prefix))) prefix a aend H2) in HP;
      [|reflexivity|exact R1|].
    + destruct HP as [_ ->]. split; [intros _; exact HT|]. cbn [cconsts csym cbreaks]. f_equal. f_equal. f_equal. f_equal.
      rewrite fill_fill. apply fill_ext. intro q. rewrite in_app_iff. simpl. tauto.
    + intros q Hq. apply hole_at_fill_sel; [intros [<-|[]]; contradiction|]. apply HH. right. exact Hq.
Qed.

Lemma emit_breaks o ops st st' : emit true o ops st = COk st' -> cbreaks st' = cbreaks st.
Proof. intro H. apply emit_ok in H. destruct H as (? & _ & ->). reflexivity. Qed.

Lemma efrag_breaks_all :
  (forall e, efrag e = true -> forall st st', compile_expr true e st = COk st' -> cbreaks st' = cbreaks st) /\
  (forall l, efrag_list l = true -> forall st st', compile_elist true l st = COk st' -> cbreaks st' = cbreaks st) /\
  (forall l, efrag_pairs l = true -> forall st st', compile_pairs true l st = COk st' -> cbreaks st' = cbreaks st) /\
  (forall o, efrag_o o = true -> forall st st', compile_oexpr true o st = COk st' -> cbreaks st' = cbreaks st).
Proof.
  apply expr_mutind; try (intros; exact I).
  - intros f HF st st' HC; simpl in HC. unfold emit_const in HC. apply emit_breaks in HC. exact HC.
  - intros b HF st st' HC; simpl in HC. apply emit_breaks in HC. exact HC.
  - intros s HF st st' HC; simpl in HC. unfold emit_const in HC. apply emit_breaks in HC. exact HC.
  - intros n HF st st' HC; simpl in HC. unfold compile_var in HC. destruct (st_resolve n (csym st)); [|discriminate]. destruct (sscp s); apply emit_breaks in HC; exact HC.
  - intros l IHl HF st st' HC; simpl in HC. cbn [efrag] in HF. bind_inv HC. rewrite <- (IHl HF _ _ H). apply emit_breaks in HC. exact HC.
  - intros kvs IHl np HF st st' HC; simpl in HC. cbn [efrag] in HF. apply andb_true_iff in HF. destruct HF as [_ HF].
    bind_inv HC. rewrite <- (IHl HF _ _ H). apply emit_breaks in HC. exact HC.
  - intros op e IHe HF st st' HC; simpl in HC. assert (HF1 : efrag e = true) by (destruct op; simpl in HF; congruence).
    bind_inv HC. rewrite <- (IHe HF1 _ _ H). destruct op; try discriminate HC; apply emit_breaks in HC; exact HC.
  - intros op lt rt e1 IHe1 e2 IHe2 HF st st' HC; simpl in HC.
    simpl in HF. apply andb_true_iff in HF. destruct HF as [HF1 HF2]. bind_inv HC. bind_inv H.
    rewrite <- (IHe1 HF1 _ _ H0), <- (IHe2 HF2 _ _ H).
    destruct (binop_opc _ _ _ _ _ HC) as (o & HE & _). apply emit_breaks in HE. exact HE.
  - intros e1 IHe1 e2 IHe2 HF st st' HC; simpl in HC.
    simpl in HF. apply andb_true_iff in HF. destruct HF as [HF1 HF2]. bind_inv HC. bind_inv H.
    rewrite <- (IHe1 HF1 _ _ H0), <- (IHe2 HF2 _ _ H). apply emit_breaks in HC. exact HC.
  - intros l IHl a IHa b IHb HF st st' HC. cbn [efrag] in HF.
    rewrite !andb_true_iff in HF. destruct HF as [[HF1 HF2] HF3].
    cbn [compile_expr] in HC.
    apply bind_ok in HC; destruct HC as (c3 & HC3 & HC). apply bind_ok in HC3; destruct HC3 as (c2 & HC2 & HCb).
    apply bind_ok in HC2; destruct HC2 as (c1 & HCl & HCa).
    apply emit_breaks in HC. rewrite HC, (IHb HF3 _ _ HCb), (IHa HF2 _ _ HCa). apply (IHl HF1 _ _ HCl).
  - intros e IHe HF st st' HC; simpl in HC. apply (IHe HF _ _ HC).
  - intros w HF. discriminate HF.
  - intros _ st st' HC. simpl in HC. inversion HC; reflexivity.
  - intros e IHe t IHt HF st st' HC. cbn [efrag_list] in HF. apply andb_true_iff in HF. destruct HF as [HF1 HF2].
    simpl in HC. bind_inv HC. rewrite <- (IHe HF1 _ _ H). apply (IHt HF2 _ _ HC).
  - intros _ st st' HC. simpl in HC. inversion HC; reflexivity.
  - intros k e IHe t IHt HF st st' HC. cbn [efrag_pairs] in HF. apply andb_true_iff in HF. destruct HF as [HF1 HF2].
    cbn [compile_pairs] in HC. bind_inv HC. bind_inv H. unfold emit_const in H0. apply emit_breaks in H0. cbn [cbreaks] in H0.
    rewrite (IHt HF2 _ _ HC), (IHe HF1 _ _ H). exact H0.
  - intros _ st st' HC. cbn [compile_oexpr] in HC. apply emit_breaks in HC. exact HC.
  - intros e IHe HF st st' HC. cbn [efrag_o] in HF. cbn [compile_oexpr] in HC. apply (IHe HF _ _ HC).
Qed.

Lemma efrag_breaks : forall e, efrag e = true -> forall st st', compile_expr true e st = COk st' -> cbreaks st' = cbreaks st.
Proof. exact (proj1 efrag_breaks_all). Qed.

(* every operand fits 16 bits *)
Definition AOK (ops : list hop) : Prop := Forall (fun hx => snd (snd hx) < 65536) ops.

Lemma aok_len ops : AOK ops -> N.of_nat (List.length (encode (strip ops))) = total_len (strip ops).
Proof.
  induction 1 as [|[h x] t HA _ IH]; [reflexivity|].
  rewrite strip_cons, total_len_cons. unfold encode. cbn [flat_map]. fold (encode (strip t)).
  rewrite app_length, Nat2N.inj_add, IH. f_equal. apply (decode1_enc1' x [] HA).
Qed.

Lemma aok_app a b : AOK a -> AOK b -> AOK (a ++ b).
Proof. intros; apply Forall_app; split; assumption. Qed.
Lemma aok_one h o a : a < 65536 -> AOK [(h, (o, a))].
Proof. intro H. constructor; [exact H|constructor]. Qed.

Lemma aok_fill sel T : T < 65536 -> forall ops pc, AOK ops -> AOK (fill sel T ops pc).
Proof.
  intros HT. induction ops as [|[h x] t IH]; intros pc H; [constructor|]. inversion H; subst. cbn [fill].
  constructor; [|apply IH; assumption].
  destruct (h && is_jump (fst x) && existsb (N.eqb pc) sel); cbn [snd]; assumption.
Qed.

Lemma runs_aok nc gc ops : forall k k', runs nc gc ops k = Some k' -> AOK (solid ops).
Proof.
  induction ops as [|x t IH]; simpl; intros k k' H; [constructor|].
  destruct (sop_ok nc gc x k) as [k1|] eqn:E; [|discriminate]. constructor; [|eapply IH; eauto]. cbn [snd].
  destruct (sop_ok_jop _ _ _ _ _ E) as [J _]. apply (jop_step_arg _ _ _ _ _ J).
Qed.

Definition pcof (st : cstate) : N := N.of_nat (List.length (ccode st)).

(* some count bounds the slots of the visible globals *)
Definition has_gbw (s : symtab) : Prop := exists gc0, gbw s gc0.
Lemma has_gbw_push s : has_gbw s -> has_gbw (st_push s).
Proof. intros (g & H). exists g. apply gbw_push. exact H. Qed.
Lemma bound_define n s : bound s <= bound (fst (st_define n s)).
Proof. pose proof (bound_step (SDefine n) s) as B. cbn [st_step] in B. destruct (st_define n s); exact B. Qed.

Lemma sx_has_gbw s s' : SX s s' -> has_gbw s -> has_gbw s'.
Proof. intros X (g & H). exists g. apply (sx_gbw _ _ X). exact H. Qed.

Lemma expr_piece e st st1 : efrag e = true -> compile_expr true e st = COk st1 -> has_gbw (csym st) ->
  csym st1 = csym st /\ cbreaks st1 = cbreaks st /\
  exists ops newc, AOK (solid ops) /\
    ccode st1 = ccode st ++ encode ops /\ cconsts st1 = cconsts st ++ newc /\
    (forall nc gc k, N.of_nat (List.length (cconsts st1)) <= nc -> gbw (csym st) gc ->
                    runs nc gc ops k = Some (k + 1)) /\
    (forall lc, lbw (csym st) lc -> Forall (lopk lc) ops).
Proof.
  intros HF HC (gc0 & HG). destruct (efrag_sl2 e HF st st1 HC) as (A & ops & newc & B & C & D & L).
  split; [exact A|]. split; [apply (efrag_breaks e HF _ _ HC)|].
  exists ops, newc. pose proof (D (N.of_nat (List.length (cconsts st1))) gc0 0 (N.le_refl _) HG) as R0.
  split; [apply (runs_aok _ _ _ _ _ R0)|]. auto.
Qed.

(* the store of a variable, global or local *)
Definition setop (y : symbol) : opc := match sscp y with GlobalScope => SetGlobal | LocalScope => SetLocal end.

Lemma set_var_rec y st1 st' : emit_set_var true y st1 = COk st' ->
  sidx y < 65536 /\
  st' = {| ccode := ccode st1 ++ enc1 (setop y, sidx y); cconsts := cconsts st1; csym := csym st1; cbreaks := cbreaks st1 |}.
Proof.
  unfold emit_set_var, setop. intro H. destruct (sscp y); apply emit_enc1 in H; try reflexivity; destruct H as [HR ->];
    rewrite N2Z.id; split; [lia|reflexivity|lia|reflexivity].
Qed.

Lemma set_var_sl y st1 st' : emit_set_var true y st1 = COk st' ->
  csym st' = csym st1 /\ cconsts st' = cconsts st1 /\ cbreaks st' = cbreaks st1 /\
  ccode st' = ccode st1 ++ encode [(setop y, sidx y)] /\ sidx y < 65536.
Proof. intro H. apply set_var_rec in H. destruct H as [HR ->]. rewrite encode_one. repeat split. exact HR. Qed.

Lemma sop_ok_setvar nc gc y k : (sscp y = GlobalScope -> sidx y < gc) -> sidx y < 65536 ->
  sop_ok nc gc (setop y, sidx y) (k + 1) = Some k.
Proof.
  intros H1 H2. unfold setop. destruct (sscp y); [apply sop_ok_setglobal; auto|].
  rewrite <- (N.add_0_r k) at 2. apply sop_ok_effect; try reflexivity; [exact H2|discriminate].
Qed.

Lemma lopk_setvar lc y : (sscp y = LocalScope -> sidx y < lc) -> lopk lc (setop y, sidx y).
Proof. unfold lopk, setop. cbn [fst snd]. destruct (sscp y); intros H X; [discriminate X|apply H; reflexivity]. Qed.

Lemma jop_step_jof nc gc T k : T < 65536 -> jop_step nc gc (JumpOnFalse, T) (AH (k + 1)) = Some (AH k).
Proof.
  intro HT. unfold jop_step. cbn [fst snd]. destruct (T <? 65536) eqn:E0; [|apply N.ltb_ge in E0; lia]. cbn [negb].
  destruct (1 <=? k + 1) eqn:E; [|apply N.leb_gt in E; lia]. f_equal. f_equal. lia.
Qed.
Lemma jop_step_jump nc gc T a : T < 65536 -> jop_step nc gc (Jump, T) a = match a with AH k => Some (AH k) | ACond _ => None end.
Proof.
  intro HT. unfold jop_step. cbn [fst snd]. destruct (T <? 65536) eqn:E0; [|apply N.ltb_ge in E0; lia]. reflexivity.
Qed.

Lemma bok_hole_jof nc gc pc k :
  BOK nc gc [(true, (JumpOnFalse, 9999))] pc (AH (k + 1)) (AH k) /\
  holes nc gc [(true, (JumpOnFalse, 9999))] pc (AH (k + 1)) = [(pc, AH k)].
Proof.
  unfold BOK. cbn [strip map snd jruns jannot htgt holes]. rewrite (jop_step_jof nc gc 9999 k) by lia.
  unfold jop_req. cbn [fst snd]. replace (k + 1 - 1) with k by lia. repeat split.
Qed.

Lemma bok_hole_jump nc gc pc k :
  BOK nc gc [(true, (Jump, 9999))] pc (AH k) (AH k) /\
  holes nc gc [(true, (Jump, 9999))] pc (AH k) = [(pc, AH k)].
Proof.
  unfold BOK. cbn [strip map snd jruns jannot htgt holes]. rewrite (jop_step_jump nc gc 9999 (AH k)) by lia.
  unfold jop_req. cbn [fst snd]. repeat split.
Qed.

(* a resolved backward jump closing a loop *)
Lemma bok_snoc_back nc gc pre pc0 a0 k T :
  BOK nc gc pre pc0 a0 (AH k) -> In (T, AH k) (jannot nc gc (strip pre) pc0 a0) -> T < 65536 ->
  BOK nc gc (pre ++ [(false, (Jump, T))]) pc0 a0 (AH k) /\
  holes nc gc (pre ++ [(false, (Jump, T))]) pc0 a0 = holes nc gc pre pc0 a0.
Proof.
  intros [R Tg] HI HT.
  assert (RJ : jruns nc gc (strip [(false, (Jump, T))]) (AH k) = Some (AH k)).
  { cbn [strip map snd jruns]. rewrite (jop_step_jump nc gc T (AH k) HT). reflexivity. }
  split.
  - unfold BOK. rewrite strip_app. split; [eapply jruns_app; eauto|].
    rewrite (jannot_app nc gc (strip pre) _ pc0 a0 (AH k) R).
    apply (htgt_app nc gc _ _ _ pre _ a0 (AH k) R). split.
    + eapply htgt_weaken; [exact Tg|]. intros T0 ra [[E1 E2]|HI0].
      * right. apply in_or_app. right. subst. cbn [strip map snd jannot]. left. reflexivity.
      * right. apply in_or_app. left. exact HI0.
    + cbn [htgt jop_req fst snd]. split; [right; apply in_or_app; left; exact HI|].
      destruct (jop_step nc gc (Jump, T) (AH k)); exact I.
  - rewrite (holes_app nc gc pre _ pc0 a0 (AH k) R). cbn [holes].
    destruct (jop_step nc gc (Jump, T) (AH k)); rewrite ?app_nil_r; reflexivity.
Qed.

(* the state between two runs is a legal jump target of the whole *)
Lemma seam_target nc gc a b pc s s1 s2 :
  jruns nc gc a s = Some s1 -> jruns nc gc b s1 = Some s2 ->
  (pc + total_len a = pc + total_len (a ++ b) /\ s1 = s2) \/
  In (pc + total_len a, s1) (jannot nc gc (a ++ b) pc s).
Proof.
  intros Ra Rb. destruct b as [|y t].
  - left. inversion Rb. rewrite app_nil_r. auto.
  - right. rewrite (jannot_app nc gc a _ pc s s1 Ra). apply in_or_app. right. apply jannot_head. discriminate.
Qed.

Lemma bok_nil nc gc pc a : BOK nc gc [] pc a a.
Proof. split; [reflexivity|exact I]. Qed.

(* head (ending in the JumpOnFalse hole at jof); body; Jump top; tail.  Every
   exit -- the hole at jof and the breaks bb of the body -- is patched to the
   start of the tail, where the linear pass has the state of the loop top. *)
Lemma bok_loop nc gc (hd body tail : list hop) top k aend jof bb :
  let W0 : list hop := (hd ++ body) ++ [(false, (Jump, top))] in
  let endp := top + total_len (strip W0) in
  hd <> [] -> top < 65536 ->
  BOK nc gc hd top (AH k) (AH k) -> holes nc gc hd top (AH k) = [(jof, AH k)] ->
  BOK nc gc body (top + total_len (strip hd)) (AH k) (AH k) ->
  (forall p ra, In (p, ra) (holes nc gc body (top + total_len (strip hd)) (AH k)) -> ra = AH k /\ In p bb) ->
  BOK nc gc tail endp (AH k) aend -> holes nc gc tail endp (AH k) = [] ->
  BOK nc gc (W0 ++ tail) top (AH k) aend /\
  (endp < 65536 ->
   BOK nc gc (fill (jof :: bb) endp (W0 ++ tail) top) top (AH k) aend /\
   holes nc gc (fill (jof :: bb) endp (W0 ++ tail) top) top (AH k) = []).
Proof.
  intros W0 endp NE HT BKh HHh BKb HHb BKt HHt.
  pose proof (bok_app _ _ _ _ _ _ _ _ BKh BKb) as BK2.
  assert (HIN : In (top, AH k) (jannot nc gc (strip (hd ++ body)) top (AH k))).
  { apply jannot_head. destruct hd; [congruence|discriminate]. }
  destruct (bok_snoc_back nc gc _ top (AH k) k top BK2 HIN HT) as [BK3 HH3]. fold W0 in BK3, HH3.
  pose proof (bok_app _ _ _ _ _ _ _ _ BK3 BKt) as BKW. fold endp in BKW.
  assert (HW : forall p ra, In (p, ra) (holes nc gc (W0 ++ tail) top (AH k)) -> ra = AH k /\ In p (jof :: bb)).
  { intros p ra Hin. rewrite (holes_app nc gc W0 tail top _ _ (proj1 BK3)) in Hin. fold endp in Hin.
    rewrite HHt, app_nil_r, HH3, (holes_app nc gc hd body top _ _ (proj1 BKh)), HHh in Hin.
    destruct Hin as [E|Hin]; [inversion E; split; [reflexivity|left; reflexivity]|].
    destruct (HHb _ _ Hin). split; [assumption|right; assumption]. }
  split; [exact BKW|]. intro HE. split.
  - apply bok_fill; [exact HE|exact BKW|]. intros p ra Hin _. destruct (HW _ _ Hin) as [-> _].
    rewrite strip_app. apply (seam_target nc gc (strip W0) (strip tail) top _ _ _ (proj1 BK3) (proj1 BKt)).
  - destruct (holes nc gc (fill (jof :: bb) endp (W0 ++ tail) top) top (AH k)) as [|[p ra] r] eqn:EH; [reflexivity|exfalso].
    destruct (holes_fill nc gc (jof :: bb) endp HE (W0 ++ tail) top _ _ (proj1 BKW) p ra) as [Hin0 HN];
      [rewrite EH; left; reflexivity|].
    apply HN. apply (HW _ _ Hin0).
Qed.

Lemma bok_one nc gc x pc a a' : jop_step nc gc x a = Some a' -> jop_req x a = None ->
  BOK nc gc [(false, x)] pc a a' /\ holes nc gc [(false, x)] pc a = [].
Proof. intros ST RQ. unfold BOK. cbn [strip map snd jruns jannot htgt holes]. rewrite ST, RQ. repeat split. Qed.

(* a condition followed by the JumpOnFalse hole *)
Lemma bok_test_head nc gc ops pc k : runs nc gc ops k = Some (k + 1) ->
  BOK nc gc (solid ops ++ [(true, (JumpOnFalse, 9999))]) pc (AH k) (AH k) /\
  holes nc gc (solid ops ++ [(true, (JumpOnFalse, 9999))]) pc (AH k) = [(pc + total_len ops, AH k)].
Proof.
  intro R. destruct (runs_bok nc gc ops pc k (k + 1) R) as [BKc HHc].
  destruct (bok_hole_jof nc gc (pc + total_len ops) k) as [BKj HHj]. split.
  - eapply bok_app; [exact BKc|]. rewrite strip_solid. exact BKj.
  - rewrite (holes_app nc gc _ _ pc _ _ (proj1 BKc)), HHc, strip_solid. exact HHj.
Qed.

(* head (ending in the JumpOnFalse hole at jof); body; the end-of-if Jump, a
   hole at ej.  The JumpOnFalse is patched to the end; the breaks of the body
   and the Jump stay open. *)
Lemma bok_cond nc gc (hd body : list hop) pc k jof bb :
  let W : list hop := (hd ++ body) ++ [(true, (Jump, 9999))] in
  let ej := pc + total_len (strip (hd ++ body)) in
  let endp := pc + total_len (strip W) in
  BOK nc gc hd pc (AH k) (AH k) -> holes nc gc hd pc (AH k) = [(jof, AH k)] ->
  BOK nc gc body (pc + total_len (strip hd)) (AH k) (AH k) ->
  (forall p ra, In (p, ra) (holes nc gc body (pc + total_len (strip hd)) (AH k)) -> ra = AH k /\ In p bb) ->
  BOK nc gc W pc (AH k) (AH k) /\
  (endp < 65536 ->
   BOK nc gc (fill [jof] endp W pc) pc (AH k) (AH k) /\
   forall p ra, In (p, ra) (holes nc gc (fill [jof] endp W pc) pc (AH k)) -> ra = AH k /\ In p (bb ++ [ej])).
Proof.
  intros W ej endp BKh HHh BKb HHb.
  pose proof (bok_app _ _ _ _ _ _ _ _ BKh BKb) as BK2.
  destruct (bok_hole_jump nc gc ej k) as [BKe HHe].
  pose proof (bok_app _ _ _ _ _ _ _ _ BK2 BKe) as BKW. fold W in BKW.
  assert (HW : forall p ra, In (p, ra) (holes nc gc W pc (AH k)) -> ra = AH k /\ (p = jof \/ In p (bb ++ [ej]))).
  { intros p ra Hin. unfold W in Hin. rewrite (holes_app nc gc _ _ pc _ _ (proj1 BK2)) in Hin. fold ej in Hin.
    rewrite HHe, (holes_app nc gc hd body pc _ _ (proj1 BKh)), HHh in Hin. cbn [app] in Hin.
    destruct Hin as [E|Hin]; [inversion E; auto|]. apply in_app_or in Hin. destruct Hin as [Hin|[E|[]]].
    - destruct (HHb _ _ Hin). split; [assumption|right; apply in_or_app; left; assumption].
    - inversion E. split; [reflexivity|right; apply in_or_app; right; left; reflexivity]. }
  split; [exact BKW|]. intro HE. split.
  - apply bok_fill; [exact HE|exact BKW|]. intros p ra Hin _. left. destruct (HW _ _ Hin). auto.
  - intros p ra Hin. destruct (holes_fill nc gc [jof] endp HE W pc _ _ (proj1 BKW) p ra Hin) as [Hin0 HN].
    destruct (HW _ _ Hin0) as [E [->|Hp]]; [exfalso; apply HN; left; reflexivity|auto].
Qed.

Definition CTL (st st' : cstate) : Prop :=
  SX (csym st) (csym st') /\
  exists new newc newb,
    AOK new /\
    ccode st' = ccode st ++ encode (strip new) /\
    cconsts st' = cconsts st ++ newc /\
    cbreaks st' = cbreaks st ++ map Z.of_N newb /\
    NoDup newb /\
    (forall p, In p newb -> hole_at new (pcof st) p) /\
    (* the local accesses stay below whatever LocalCount the table ends with *)
    (forall lc, bound (csym st') <= lc -> LOK lc new) /\
    forall nc gc k, N.of_nat (List.length (cconsts st')) <= nc -> gbw (csym st) gc ->
      BOK nc gc new (pcof st) (AH k) (AH k) /\
      forall p ra, In (p, ra) (holes nc gc new (pcof st) (AH k)) -> ra = AH k /\ In p newb.

Lemma nodup_app {A} (a b : list A) : NoDup a -> NoDup b -> (forall x, In x a -> ~ In x b) -> NoDup (a ++ b).
Proof.
  induction a as [|x t IH]; intros Ha Hb HD; [exact Hb|]. inversion Ha; subst. simpl. constructor.
  - intro HI. apply in_app_or in HI. destruct HI as [HI|HI]; [contradiction|]. apply (HD x (or_introl eq_refl) HI).
  - apply IH; auto. intros y Hy. apply HD. right. exact Hy.
Qed.

Lemma pcof_app st st1 new : ccode st1 = ccode st ++ encode (strip new) -> AOK new ->
  pcof st1 = pcof st + total_len (strip new).
Proof. intros H HA. unfold pcof. rewrite H, app_length, Nat2N.inj_add, (aok_len new HA). reflexivity. Qed.

Lemma CTL_refl st : CTL st st.
Proof.
  split; [apply SX_refl|]. exists [], [], []. split; [constructor|]. split; [simpl; rewrite app_nil_r; reflexivity|].
  split; [rewrite app_nil_r; reflexivity|]. split; [simpl; rewrite app_nil_r; reflexivity|]. split; [constructor|].
  split; [intros p []|]. split; [intros; apply lok_nil|]. intros nc gc k _ _. split; [split; simpl; auto|intros p ra []].
Qed.

Lemma pos_pcof st : pos_of st = Z.of_N (pcof st).
Proof. unfold pos_of, pcof. rewrite nat_N_Z. reflexivity. Qed.

(* if / else-if / else: pending end-of-if jumps xs besides the breaks *)
Definition CTLx (xs : list N) (st st' : cstate) : Prop :=
  SX (csym st) (csym st') /\
  exists new newc newb,
    AOK new /\
    ccode st' = ccode st ++ encode (strip new) /\
    cconsts st' = cconsts st ++ newc /\
    cbreaks st' = cbreaks st ++ map Z.of_N newb /\
    NoDup newb /\ NoDup xs /\ (forall p, In p newb -> ~ In p xs) /\
    (forall p, In p (newb ++ xs) -> hole_at new (pcof st) p) /\
    (forall lc, bound (csym st') <= lc -> LOK lc new) /\
    forall nc gc k, N.of_nat (List.length (cconsts st')) <= nc -> gbw (csym st) gc ->
      BOK nc gc new (pcof st) (AH k) (AH k) /\
      forall p ra, In (p, ra) (holes nc gc new (pcof st) (AH k)) -> ra = AH k /\ In p (newb ++ xs).

Lemma ctlx_of_ctl st st' : CTL st st' -> CTLx [] st st'.
Proof.
  intros (S & new & newc & newb & A & C & K & B & ND & H & L & D). split; [exact S|].
  exists new, newc, newb. repeat (split; [assumption|]). split; [constructor|]. split; [intros p _ []|].
  split; [intros p Hp; rewrite app_nil_r in Hp; auto|]. split; [exact L|].
  intros nc gc k Hnc HG. destruct (D nc gc k Hnc HG) as [BK HL]. split; [exact BK|].
  intros p ra Hin. rewrite app_nil_r. auto.
Qed.

Lemma ctl_of_ctlx st st' : CTLx [] st st' -> CTL st st'.
Proof.
  intros (S & new & newc & newb & A & C & K & B & ND & _ & _ & H & L & D). split; [exact S|].
  exists new, newc, newb. repeat (split; [assumption|]). split; [intros p Hp; apply H, in_or_app; left; exact Hp|].
  split; [exact L|]. intros nc gc k Hnc HG. destruct (D nc gc k Hnc HG) as [BK HL]. split; [exact BK|].
  intros p ra Hin. destruct (HL p ra Hin) as [E Hp]. rewrite app_nil_r in Hp. auto.
Qed.

Lemma ctlx_trans x1 x2 st st1 st2 : CTLx x1 st st1 -> CTLx x2 st1 st2 -> CTLx (x1 ++ x2) st st2.
Proof.
  intros (S1 & n1 & c1 & b1 & A1 & C1 & K1 & B1 & ND1 & NX1 & DJ1 & H1 & L1 & D1)
         (S2 & n2 & c2 & b2 & A2 & C2 & K2 & B2 & ND2 & NX2 & DJ2 & H2 & L2 & D2).
  pose proof (pcof_app st st1 n1 C1 A1) as HP.
  assert (R1 : forall p, In p (b1 ++ x1) -> pcof st <= p < pcof st1).
  { intros p Hp. apply H1 in Hp. apply hole_at_range in Hp. lia. }
  assert (R2 : forall p, In p (b2 ++ x2) -> pcof st1 <= p).
  { intros p Hp. apply H2 in Hp. apply hole_at_range in Hp. lia. }
  split; [eapply SX_trans; eauto|]. exists (n1 ++ n2), (c1 ++ c2), (b1 ++ b2).
  split; [apply aok_app; assumption|].
  split; [rewrite C2, C1, strip_app; unfold encode; rewrite flat_map_app, app_assoc; reflexivity|].
  split; [rewrite K2, K1, app_assoc; reflexivity|].
  split; [rewrite B2, B1, map_app, app_assoc; reflexivity|].
  split.
  { apply nodup_app; auto. intros p Hp1 Hp2.
    specialize (R1 p (in_or_app _ _ _ (or_introl Hp1))). specialize (R2 p (in_or_app _ _ _ (or_introl Hp2))). lia. }
  split.
  { apply nodup_app; auto. intros p Hp1 Hp2.
    specialize (R1 p (in_or_app _ _ _ (or_intror Hp1))). specialize (R2 p (in_or_app _ _ _ (or_intror Hp2))). lia. }
  split.
  { intros p Hb Hx. apply in_app_or in Hb. apply in_app_or in Hx. destruct Hb as [Hb|Hb]; destruct Hx as [Hx|Hx].
    - apply (DJ1 p Hb Hx).
    - specialize (R1 p (in_or_app _ _ _ (or_introl Hb))). specialize (R2 p (in_or_app _ _ _ (or_intror Hx))). lia.
    - specialize (R1 p (in_or_app _ _ _ (or_intror Hx))). specialize (R2 p (in_or_app _ _ _ (or_introl Hb))). lia.
    - apply (DJ2 p Hb Hx). }
  split.
  { intros p Hp.
    assert (In p (b1 ++ x1) \/ In p (b2 ++ x2)) as [Hq|Hq].
    { apply in_app_or in Hp. destruct Hp as [Hp|Hp]; apply in_app_or in Hp; destruct Hp as [Hp|Hp];
        [left|right|left|right]; apply in_or_app; auto. }
    - apply hole_at_app_l. apply H1. exact Hq.
    - apply hole_at_app_r. rewrite <- HP. apply H2. exact Hq. }
  split.
  { intros lc HLc. pose proof (sx_bound _ _ S2). apply lok_app; [apply L1; lia|apply L2; exact HLc]. }
  intros nc gc k Hnc HG.
  assert (Hnc1 : N.of_nat (List.length (cconsts st1)) <= nc) by (rewrite K2, app_length in Hnc; lia).
  destruct (D1 nc gc k Hnc1 HG) as [BK1 HL1].
  assert (HG1 : gbw (csym st1) gc) by (apply (sx_gbw _ _ S1); exact HG).
  destruct (D2 nc gc k Hnc HG1) as [BK2 HL2]. rewrite HP in BK2, HL2.
  split; [eapply bok_app; eauto|].
  intros p ra Hin. rewrite (holes_app nc gc n1 n2 (pcof st) (AH k) (AH k) (proj1 BK1)) in Hin.
  apply in_app_or in Hin. destruct Hin as [Hin|Hin].
  - destruct (HL1 _ _ Hin) as [E Hq]. split; [assumption|].
    apply in_app_or in Hq. destruct Hq; apply in_or_app; [left|right]; apply in_or_app; left; assumption.
  - destruct (HL2 _ _ Hin) as [E Hq]. split; [assumption|].
    apply in_app_or in Hq. destruct Hq; apply in_or_app; [left|right]; apply in_or_app; right; assumption.
Qed.

Lemma CTL_trans st st1 st2 : CTL st st1 -> CTL st1 st2 -> CTL st st2.
Proof. intros X1 X2. apply ctl_of_ctlx, (ctlx_trans [] [] st st1 st2); apply ctlx_of_ctl; assumption. Qed.

(* closing the if: all end jumps are patched to the end of the statement *)
Lemma ctlx_close xs st st3 st' : has_gbw (csym st) -> CTLx xs st st3 ->
  patch_all true (map Z.of_N xs) (pos_of st3) st3 = COk st' -> CTL st st'.
Proof.
  intros (gc0 & HG0) X HP. destruct xs as [|x0 xs']; [inversion HP; subst st'; apply ctl_of_ctlx, X|].
  destruct X as (S & new & newc & newb & A & C & K & B & ND & NX & DJ & H & L & D).
  destruct (D (N.of_nat (List.length (cconsts st3))) gc0 0 (N.le_refl _) HG0) as [[RW _] _].
  eapply (patch_all_fill _ _ _ _ _ st' new (ccode st) (AH 0) (AH 0) NX C RW) in HP.
  2:{ intros p Hp. apply H. apply in_or_app. right. exact Hp. }
  destruct HP as [HT ->]. specialize (HT ltac:(discriminate)). fold (pcof st).
  rewrite pos_pcof, N2Z.id, (pcof_app st st3 new C A) in *. set (T := pcof st + total_len (strip new)) in *.
  split; [exact S|]. exists (fill (x0 :: xs') T new (pcof st)), newc, newb. cbn [ccode cconsts csym cbreaks].
  split; [apply aok_fill; [lia|exact A]|]. split; [reflexivity|]. split; [exact K|]. split; [exact B|]. split; [exact ND|].
  split.
  { intros p Hp. apply hole_at_fill_sel; [apply DJ; exact Hp|]. apply H. apply in_or_app. left. exact Hp. }
  split; [intros lc HLc; apply lok_fill, L, HLc|].
  intros nc gc k Hnc HG. destruct (D nc gc k Hnc HG) as [BK HL]. split.
  - apply bok_fill; [lia|exact BK|]. intros p ra Hin _. left. destruct (HL _ _ Hin). split; [reflexivity|assumption].
  - intros p ra Hin.
    destruct (holes_fill nc gc (x0 :: xs') T ltac:(lia) new (pcof st) _ _ (proj1 BK) p ra Hin) as [Hin0 HN].
    destruct (HL _ _ Hin0) as [E Hq]. split; [exact E|]. apply in_app_or in Hq. destruct Hq; [assumption|contradiction].
Qed.

Lemma CTL_straight st st' ops newc :
  SX (csym st) (csym st') -> cbreaks st' = cbreaks st -> AOK (solid ops) ->
  ccode st' = ccode st ++ encode ops -> cconsts st' = cconsts st ++ newc ->
  (forall lc, bound (csym st') <= lc -> Forall (lopk lc) ops) ->
  (forall nc gc k, N.of_nat (List.length (cconsts st')) <= nc -> gbw (csym st) gc -> runs nc gc ops k = Some k) ->
  CTL st st'.
Proof.
  intros S B A C K L R. split; [exact S|]. exists (solid ops), newc, [].
  split; [exact A|]. split; [rewrite strip_solid; exact C|]. split; [exact K|].
  split; [simpl; rewrite app_nil_r; exact B|]. split; [constructor|]. split; [intros p []|].
  split; [intros lc HLc; apply lok_solid, L, HLc|].
  intros nc gc k Hnc HG. destruct (runs_bok nc gc ops (pcof st) k k (R nc gc k Hnc HG)) as [BK HH].
  split; [exact BK|]. rewrite HH. intros p ra [].
Qed.

(* a block: enterScope; statements; leaveScope *)
Lemma CTL_block st st3 :
  CTL (with_sym (st_push (csym st)) st) st3 ->
  CTL st (with_sym (st_pop (csym st3)) st3).
Proof.
  intros (S & new & newc & newb & A & C & K & B & ND & HH & L & D).
  cbn [with_sym csym ccode cconsts cbreaks] in *.
  split; [cbn [with_sym csym]; apply SX_block; exact S|].
  exists new, newc, newb. cbn [with_sym ccode cconsts cbreaks csym]. repeat (split; [assumption|]).
  split.
  { intros lc HLc. apply L. pose proof (bound_step SPop (csym st3)) as X. cbn [st_step fst] in X. lia. }
  intros nc gc k Hnc HB. apply (D nc gc k Hnc). apply gbw_push. exact HB.
Qed.

Lemma emit_hole o st st' : is_jump o = true -> emit true o [JumpPlaceholderZ] st = COk st' ->
  st' = {| ccode := ccode st ++ encode (strip [(true, (o, 9999))]); cconsts := cconsts st; csym := csym st; cbreaks := cbreaks st |}.
Proof.
  intros HJ H. assert (HO : has_operand o = true) by (destruct o; try discriminate HJ; reflexivity).
  apply emit_enc1 in H; [|exact HO]. destruct H as [_ ->]. cbn [strip map snd]. rewrite encode_one. reflexivity.
Qed.

Lemma emit_jump_to T st st' : emit true Jump [T] st = COk st' ->
  (0 <= T < 65536)%Z /\
  st' = {| ccode := ccode st ++ encode (strip [(false, (Jump, Z.to_N T))]); cconsts := cconsts st; csym := csym st; cbreaks := cbreaks st |}.
Proof.
  intro H. apply emit_enc1 in H; [|reflexivity]. destruct H as [HR ->]. split; [exact HR|].
  cbn [strip map snd]. rewrite encode_one. reflexivity.
Qed.

Definition slist_ctl (l : slist) : Prop :=
  forall st st', body_of true l st = COk st' -> outers (csym st) <> [] -> Inv (csym st) -> has_gbw (csym st) -> CTL st st'.

Lemma compile_block_body b st : compile_block true b st =
  body_of true b (with_sym (st_push (csym st)) st) >>= fun st1 => COk (with_sym (st_pop (csym st1)) st1).
Proof. destruct b; reflexivity. Qed.

Lemma ctl_block b st st' : slist_ctl b -> compile_block true b st = COk st' ->
  Inv (csym st) -> has_gbw (csym st) -> CTL st st'.
Proof.
  intros HB HC HG HGB. rewrite compile_block_body in HC.
  destruct (body_of true b (with_sym (st_push (csym st)) st)) as [st3|] eqn:E; [|discriminate].
  cbn [bind] in HC. inversion HC; subst st'. apply CTL_block.
  apply (HB _ _ E); cbn [with_sym csym]; [discriminate|apply inv_push; exact HG|apply has_gbw_push; exact HGB].
Qed.

Lemma encode_strip_app a b : encode (strip (a ++ b)) = encode (strip a) ++ encode (strip b).
Proof. rewrite strip_app. apply encode_app. Qed.

(* a condition and the JumpOnFalse hole behind it: the head of a while loop and
   of a `cond / block` *)
Lemma test_piece c st st1 st2 : efrag c = true -> compile_expr true c st = COk st1 -> has_gbw (csym st) ->
  emit true JumpOnFalse [JumpPlaceholderZ] st1 = COk st2 ->
  exists ops newc, let hd := solid ops ++ [(true, (JumpOnFalse, 9999))] in
    csym st2 = csym st /\ cbreaks st2 = cbreaks st /\ cconsts st2 = cconsts st ++ newc /\
    AOK hd /\ ccode st2 = ccode st ++ encode (strip hd) /\ pcof st1 = pcof st + total_len ops /\
    (forall lc, lbw (csym st) lc -> LOK lc hd) /\
    (forall nc gc k, N.of_nat (List.length (cconsts st2)) <= nc -> gbw (csym st) gc ->
       BOK nc gc hd (pcof st) (AH k) (AH k) /\ holes nc gc hd (pcof st) (AH k) = [(pcof st + total_len ops, AH k)]).
Proof.
  intros HF E1 HGB E2. destruct (expr_piece c st st1 HF E1 HGB) as (S1 & B1 & ops & newc & A & C & K & R & L).
  apply emit_hole in E2; [|reflexivity]. subst st2. cbn [ccode cconsts csym cbreaks].
  exists ops, newc. cbv zeta. split; [exact S1|]. split; [exact B1|]. split; [exact K|].
  split; [apply aok_app; [exact A|apply aok_one; lia]|].
  split; [rewrite encode_strip_app, strip_solid, C, app_assoc; reflexivity|].
  split; [pose proof (pcof_app st st1 (solid ops)) as P1; rewrite strip_solid in P1; exact (P1 C A)|].
  split; [intros lc HL; apply lok_app; [apply lok_solid, L, HL|apply lok_one; reflexivity]|].
  intros nc gc k Hnc HG. apply bok_test_head, (R nc gc k Hnc HG).
Qed.

Lemma ctl_break st st' : compile_stmt true SBreak st = COk st' -> CTL st st'.
Proof.
  cbn [compile_stmt]. intro HC.
  destruct (emit true Jump [JumpPlaceholderZ] st) as [st1|] eqn:E1; [|discriminate]. cbn [bind] in HC.
  inversion HC; subst st'; clear HC. apply emit_hole in E1; [|reflexivity]. subst st1.
  split; [apply SX_refl|]. exists [(true, (Jump, 9999))], [], [pcof st]. cbn [with_breaks ccode cconsts csym cbreaks].
  split; [constructor; [cbn; lia|constructor]|]. split; [reflexivity|]. split; [rewrite app_nil_r; reflexivity|].
  split; [cbn [map]; unfold pos_of, pcof; rewrite nat_N_Z; reflexivity|].
  split; [constructor; [intros []|constructor]|].
  split; [intros p [<-|[]]; cbn [hole_at]; left; auto|].
  split; [intros; apply lok_one; reflexivity|].
  intros nc gc k _ _. destruct (bok_hole_jump nc gc (pcof st) k) as [BK HH]. split; [exact BK|].
  rewrite HH. intros p ra [Eq|[]]. inversion Eq; subst. split; [reflexivity|left; reflexivity].
Qed.

(* the code of `x = e` and `x := e`: e, then the store to the slot y of x; s1 is
   the state after e (for a declaration: with the new symbol table) *)
Lemma expr_setvar_piece e st st1 s1 y st' : efrag e = true -> compile_expr true e st = COk st1 -> has_gbw (csym st) ->
  ccode s1 = ccode st1 -> cconsts s1 = cconsts st1 -> cbreaks s1 = cbreaks st1 -> emit_set_var true y s1 = COk st' ->
  csym st' = csym s1 /\ cbreaks st' = cbreaks st /\
  exists ops newc,
    AOK (solid (ops ++ [(setop y, sidx y)])) /\
    ccode st' = ccode st ++ encode (ops ++ [(setop y, sidx y)]) /\ cconsts st' = cconsts st ++ newc /\
    (forall lc, lbw (csym st) lc -> (sscp y = LocalScope -> sidx y < lc) -> Forall (lopk lc) (ops ++ [(setop y, sidx y)])) /\
    (forall nc gc k, N.of_nat (List.length (cconsts st')) <= nc -> gbw (csym st) gc -> (sscp y = GlobalScope -> sidx y < gc) ->
       runs nc gc (ops ++ [(setop y, sidx y)]) k = Some k).
Proof.
  intros HF E1 HGB Cs Ks Bs HC.
  destruct (expr_piece e st st1 HF E1 HGB) as (S1 & B1 & ops & newc & A & C & K & R & L).
  destruct (set_var_sl y s1 st' HC) as (E1' & E2' & E4' & E3' & HRng).
  split; [exact E1'|]. split; [congruence|]. exists ops, newc.
  split; [unfold solid; rewrite map_app; apply aok_app; [exact A|]; constructor; [cbn; exact HRng|constructor]|].
  split; [rewrite E3', Cs, C, encode_app, app_assoc; reflexivity|]. split; [congruence|]. split.
  - intros lc HLB HY. apply Forall_app. split; [apply L; exact HLB|]. constructor; [|constructor]. apply lopk_setvar. exact HY.
  - intros nc gc k Hnc HG HY. eapply runs_app; [apply (R nc gc k); [rewrite <- Ks, <- E2'; exact Hnc|exact HG]|].
    cbn [runs]. rewrite sop_ok_setvar; [reflexivity|exact HY|exact HRng].
Qed.

Lemma ctl_assign n e st st' : efrag e = true ->
  compile_stmt true (SAssign (EVar n) e) st = COk st' -> Inv (csym st) -> has_gbw (csym st) -> CTL st st'.
Proof.
  intros HF HC HI HGB. cbn [compile_stmt] in HC.
  destruct (compile_expr true e st) as [st1|] eqn:E1; [|discriminate]. cbn [bind] in HC.
  destruct (efrag_sl2 e HF st st1 E1) as (S1 & _).
  destruct (st_resolve n (csym st1)) as [y|] eqn:ER; [|discriminate]. rewrite S1 in ER.
  destruct (expr_setvar_piece e st st1 st1 y st' HF E1 HGB eq_refl eq_refl eq_refl HC) as (S' & B' & ops & newc & A & C & K & L & R).
  apply (CTL_straight st st' (ops ++ [(setop y, sidx y)]) newc); try assumption.
  - apply SX_eq. congruence.
  - intros lc HLc. rewrite S', S1 in HLc. pose proof (inv_lbw _ _ HI HLc) as HLB. apply (L lc HLB). intro HS. apply (HLB n y ER HS).
  - intros nc gc k Hnc HG. apply (R nc gc k Hnc HG). intro HS. apply (HG n y ER HS).
Qed.

(* l[i] = e: the value, the container, the index, OpSetIndex (pops three) *)
Lemma sop_ok_setindex nc gc k : sop_ok nc gc (SetIndex, 0) (k + 3) = Some k.
Proof. rewrite <- (N.add_0_r k) at 2. apply sop_ok_effect; reflexivity. Qed.

Lemma ctl_store l i e st st' : efrag l = true -> efrag i = true -> efrag e = true ->
  compile_stmt true (SAssign (EIndex l i) e) st = COk st' -> Inv (csym st) -> has_gbw (csym st) -> CTL st st'.
Proof.
  intros HFl HFi HFe HC HI HGB. cbn [compile_stmt] in HC.
  destruct (compile_expr true e st) as [st1|] eqn:E1; [|discriminate]. cbn [bind] in HC.
  apply bind_ok in HC. destruct HC as (st3 & HC3 & HC). apply bind_ok in HC3. destruct HC3 as (st2 & E2 & E3).
  destruct (expr_piece e st st1 HFe E1 HGB) as (S1 & B1 & ops1 & newc1 & A1 & C1 & K1 & R1 & L1).
  assert (HGB1 : has_gbw (csym st1)) by (rewrite S1; exact HGB).
  destruct (expr_piece l st1 st2 HFl E2 HGB1) as (S2 & B2 & ops2 & newc2 & A2 & C2 & K2 & R2 & L2).
  assert (HGB2 : has_gbw (csym st2)) by (rewrite S2; exact HGB1).
  destruct (expr_piece i st2 st3 HFi E3 HGB2) as (S3 & B3 & ops3 & newc3 & A3 & C3 & K3 & R3 & L3).
  pose proof (emit_enc0 SetIndex _ _ eq_refl HC) as ->. cbn [csym ccode cconsts cbreaks].
  apply (CTL_straight st _ (ops1 ++ ops2 ++ ops3 ++ [(SetIndex, 0)]) (newc1 ++ newc2 ++ newc3)); cbn [csym ccode cconsts cbreaks].
  - apply SX_eq. congruence.
  - congruence.
  - unfold solid. rewrite !map_app. apply aok_app; [exact A1|]. apply aok_app; [exact A2|]. apply aok_app; [exact A3|].
    constructor; [cbn; lia|constructor].
  - rewrite !encode_app, encode_one, C3, C2, C1, <- !app_assoc. reflexivity.
  - rewrite K3, K2, K1, <- !app_assoc. reflexivity.
  - intros lc HLc. rewrite S3, S2, S1 in HLc. pose proof (inv_lbw _ _ HI HLc) as HLB.
    apply Forall_app. split; [apply L1; exact HLB|]. apply Forall_app. split; [apply L2; rewrite S1; exact HLB|].
    apply Forall_app. split; [apply L3; rewrite S2, S1; exact HLB|].
    constructor; [apply lopk_nonlocal; reflexivity|constructor].
  - intros nc gc k Hnc HG. rewrite K3, K2, !app_length in Hnc.
    eapply runs_app; [apply (R1 nc gc k); [lia|exact HG]|].
    eapply runs_app; [apply (R2 nc gc (k + 1)); [rewrite K2, app_length; lia|rewrite S1; exact HG]|].
    eapply runs_app; [apply (R3 nc gc (k + 1 + 1)); [rewrite K3, K2, !app_length; lia|rewrite S2, S1; exact HG]|].
    cbn [runs]. replace (k + 1 + 1 + 1) with (k + 3) by lia. rewrite sop_ok_setindex. reflexivity.
Qed.

Lemma decl_piece n e st st' : efrag e = true -> compile_stmt true (SDecl n e) st = COk st' -> has_gbw (csym st) ->
  let y := snd (st_define n (csym st)) in
  csym st' = fst (st_define n (csym st)) /\ cbreaks st' = cbreaks st /\
  exists ops newc,
    AOK (solid (ops ++ [(setop y, sidx y)])) /\
    ccode st' = ccode st ++ encode (ops ++ [(setop y, sidx y)]) /\ cconsts st' = cconsts st ++ newc /\
    (forall lc, lbw (csym st) lc -> (sscp y = LocalScope -> sidx y < lc) -> Forall (lopk lc) (ops ++ [(setop y, sidx y)])) /\
    (forall nc gc k, N.of_nat (List.length (cconsts st')) <= nc -> gbw (csym st) gc -> (sscp y = GlobalScope -> sidx y < gc) ->
       runs nc gc (ops ++ [(setop y, sidx y)]) k = Some k).
Proof.
  intros HF HC HGB. cbv zeta. cbn [compile_stmt] in HC.
  destruct (compile_expr true e st) as [st1|] eqn:E1; [|discriminate]. cbn [bind] in HC.
  destruct (efrag_sl2 e HF st st1 E1) as (S1 & _). rewrite S1 in HC.
  destruct (st_define n (csym st)) as [sym' y]. cbn [fst snd].
  exact (expr_setvar_piece e st st1 (with_sym sym' st1) y st' HF E1 HGB eq_refl eq_refl eq_refl HC).
Qed.

(* x := e inside a block: x becomes a local of the block's scope *)
Lemma ctl_decl n e st st' : efrag e = true ->
  compile_stmt true (SDecl n e) st = COk st' -> outers (csym st) <> [] -> Inv (csym st) -> has_gbw (csym st) -> CTL st st'.
Proof.
  intros HF HC HO HI HGB.
  destruct (decl_piece n e st st' HF HC HGB) as (S' & B' & ops & newc & A & C & K & L & R).
  pose proof (define_local n (csym st) HO HI) as HLoc. pose proof (define_below n (csym st) HI HLoc) as HBel.
  pose proof (SX_define n (csym st) HO HI) as SXd. rewrite <- S' in SXd, HBel.
  set (y := snd (st_define n (csym st))) in *.
  apply (CTL_straight st st' (ops ++ [(setop y, sidx y)]) newc); try assumption.
  - intros lc HLc. pose proof (sx_bound _ _ SXd) as HB2. apply (L lc); [apply inv_lbw; [exact HI|lia]|intros _; lia].
  - intros nc gc k Hnc HG. apply (R nc gc k Hnc HG). intro HS. congruence.
Qed.

Lemma holes_solid nc gc ops pc k k' : runs nc gc ops k = Some k' -> holes nc gc (solid ops) pc (AH k) = [].
Proof. intro H. apply (runs_bok nc gc ops pc k k' H). Qed.

(* code without holes that pops S operands *)
Definition LOOPOK (S : N) (st st' : cstate) : Prop :=
  SX (csym st) (csym st') /\ cbreaks st' = cbreaks st /\
  exists new newc,
    AOK new /\
    ccode st' = ccode st ++ encode (strip new) /\
    cconsts st' = cconsts st ++ newc /\
    (forall lc, bound (csym st') <= lc -> LOK lc new) /\
    forall nc gc k, N.of_nat (List.length (cconsts st')) <= nc -> gbw (csym st) gc ->
      BOK nc gc new (pcof st) (AH (k + S)) (AH k) /\ holes nc gc new (pcof st) (AH (k + S)) = [].

Lemma CTL_of_loop S st st1 st' ops newc :
  SX (csym st) (csym st1) -> cbreaks st1 = cbreaks st -> AOK (solid ops) ->
  ccode st1 = ccode st ++ encode ops -> cconsts st1 = cconsts st ++ newc ->
  (forall lc, bound (csym st1) <= lc -> Forall (lopk lc) ops) ->
  (forall nc gc k, N.of_nat (List.length (cconsts st1)) <= nc -> gbw (csym st) gc -> runs nc gc ops k = Some (k + S)) ->
  LOOPOK S st1 st' -> CTL st st'.
Proof.
  intros S1 B1 A C K L R (S2 & B2 & new & newc2 & A2 & C2 & K2 & L2 & D2).
  pose proof (pcof_app st st1 (solid ops)) as HP. rewrite strip_solid in HP. specialize (HP C A).
  split; [eapply SX_trans; eauto|]. exists (solid ops ++ new), (newc ++ newc2), [].
  split; [apply aok_app; assumption|].
  split; [rewrite C2, C, encode_strip_app, strip_solid, app_assoc; reflexivity|].
  split; [rewrite K2, K, app_assoc; reflexivity|].
  split; [cbn [map]; rewrite app_nil_r; congruence|]. split; [constructor|]. split; [intros p []|].
  split.
  { intros lc HLc. pose proof (sx_bound _ _ S2) as X. apply lok_app; [apply lok_solid, L; lia|apply L2; exact HLc]. }
  intros nc gc k Hnc HG.
  assert (Hnc1 : N.of_nat (List.length (cconsts st1)) <= nc) by (rewrite K2, app_length in Hnc; lia).
  destruct (runs_bok nc gc ops (pcof st) k (k + S) (R nc gc k Hnc1 HG)) as [BK1 HH1].
  assert (HG1 : gbw (csym st1) gc) by (apply (sx_gbw _ _ S1); exact HG).
  destruct (D2 nc gc k Hnc HG1) as [BK2 HH2]. rewrite HP in BK2, HH2.
  split.
  - eapply bok_app; [exact BK1|]. rewrite strip_solid. exact BK2.
  - intros p ra Hin. rewrite (holes_app nc gc (solid ops) new (pcof st) _ _ (proj1 BK1)), HH1, strip_solid, HH2 in Hin. destruct Hin.
Qed.

(* The patches at the end of a loop.  s holds the loop W0 ++ tail as emitted;
   the JumpOnFalse of the head and the breaks of the body are then patched to
   T, the position of the tail. *)
Lemma loop_close S st s s1 s2 (hd nb tail : list hop) newc jof bb T :
  let top := pcof st in
  let W0 : list hop := (hd ++ nb) ++ [(false, (Jump, top))] in
  hd <> [] -> has_gbw (csym st) -> SX (csym st) (csym s) ->
  ccode s = ccode st ++ encode (strip (W0 ++ tail)) -> cconsts s = cconsts st ++ newc ->
  AOK (W0 ++ tail) -> (forall lc, bound (csym s) <= lc -> LOK lc (W0 ++ tail)) ->
  T = Z.of_N (top + total_len (strip W0)) ->
  NoDup bb -> (forall p, In p bb -> hole_at nb (top + total_len (strip hd)) p) ->
  patch true (Z.of_N jof) T s = COk s1 -> patch_all true (map Z.of_N bb) T s1 = COk s2 ->
  (forall nc gc k, N.of_nat (List.length (cconsts s)) <= nc -> gbw (csym st) gc ->
     BOK nc gc hd top (AH (k + S)) (AH (k + S)) /\ holes nc gc hd top (AH (k + S)) = [(jof, AH (k + S))] /\
     BOK nc gc nb (top + total_len (strip hd)) (AH (k + S)) (AH (k + S)) /\
     (forall p ra, In (p, ra) (holes nc gc nb (top + total_len (strip hd)) (AH (k + S))) -> ra = AH (k + S) /\ In p bb) /\
     BOK nc gc tail (top + total_len (strip W0)) (AH (k + S)) (AH k) /\
     holes nc gc tail (top + total_len (strip W0)) (AH (k + S)) = []) ->
  LOOPOK S st (with_breaks (cbreaks st) s2).
Proof.
  intros top W0 NE (gc0 & HG0) SXs C K A L ET ND HB E5 E6 D.
  assert (HTop : top < 65536).
  { apply Forall_app in A. destruct A as [A _]. apply Forall_app in A. destruct A as [_ A]. inversion A. assumption. }
  destruct (D (N.of_nat (List.length (cconsts s))) gc0 0 (N.le_refl _) HG0) as (BKh & HHh & BKb & HHb & BKt & HHt).
  destruct (bok_loop _ _ hd nb tail top _ _ jof bb NE HTop BKh HHh BKb HHb BKt HHt) as [[RW _] _].
  fold W0 in RW.
  assert (HJ : hole_at hd top jof) by (eapply holes_hole_at; rewrite HHh; left; reflexivity).
  assert (HH : forall p, In p (jof :: bb) -> hole_at (W0 ++ tail) top p).
  { intros p Hp. do 2 apply hole_at_app_l. destruct Hp as [<-|Hp]; [apply hole_at_app_l; exact HJ|apply hole_at_app_r, HB, Hp]. }
  assert (ND' : NoDup (jof :: bb)).
  { constructor; [|exact ND]. intro Hin. apply HB, hole_at_range in Hin. apply hole_at_range in HJ. lia. }
  assert (E : patch_all true (map Z.of_N (jof :: bb)) T s = COk s2) by (cbn [map]; rewrite patch_all_cons, E5; exact E6).
  destruct (patch_all_fill _ _ T _ s s2 (W0 ++ tail) (ccode st) _ _ ND' C RW HH E) as [HT ->].
  specialize (HT ltac:(discriminate)). fold (pcof st) in *. fold top.
  rewrite ET, N2Z.id in *. set (endp := top + total_len (strip W0)) in *.
  assert (HE : endp < 65536) by lia.
  split; [exact SXs|]. split; [reflexivity|]. exists (fill (jof :: bb) endp (W0 ++ tail) top), newc.
  split; [apply aok_fill; assumption|]. split; [reflexivity|]. split; [exact K|].
  split; [intros lc HLc; apply lok_fill, L, HLc|].
  intros nc gc k Hnc HGl. destruct (D nc gc k Hnc HGl) as (BKh' & HHh' & BKb' & HHb' & BKt' & HHt').
  apply (bok_loop _ _ hd nb tail top _ _ jof bb NE HTop BKh' HHh' BKb' HHb' BKt' HHt'). exact HE.
Qed.

Lemma ctl_while c b st st' : efrag c = true -> slist_ctl b ->
  compile_stmt true (SWhile c b) st = COk st' -> Inv (csym st) -> has_gbw (csym st) -> CTL st st'.
Proof.
  intros HF HB HC HI HGB. cbn [compile_stmt] in HC.
  destruct (compile_expr true c st) as [st1|] eqn:E1; [|discriminate]. cbn [bind] in HC.
  destruct (emit true JumpOnFalse [JumpPlaceholderZ] st1) as [st2|] eqn:E2; [|discriminate]. cbn [bind] in HC.
  destruct (compile_block true b (with_breaks [] st2)) as [stb|] eqn:E3; [|discriminate]. cbn [bind] in HC.
  destruct (emit true Jump [pos_of st] stb) as [st3|] eqn:E4; [|discriminate]. cbn [bind] in HC.
  destruct (patch true (pos_of st1) (pos_of st3) st3) as [st4|] eqn:E5; [|discriminate]. cbn [bind] in HC.
  destruct (patch_all true (cbreaks st3) (pos_of st3) st4) as [st5|] eqn:E6; [|discriminate]. cbn [bind] in HC.
  inversion HC; subst st'; clear HC.
  destruct (test_piece c st st1 st2 HF E1 HGB E2) as (ops & newc & S2 & B2 & K2 & Ahd & C2 & P1 & Lhd & Dhd).
  set (hd := solid ops ++ [(true, (JumpOnFalse, 9999))]) in *.
  assert (HG2 : Inv (csym (with_breaks [] st2))) by (cbn [with_breaks csym]; rewrite S2; exact HI).
  assert (HGB2 : has_gbw (csym (with_breaks [] st2))) by (cbn [with_breaks csym]; rewrite S2; exact HGB).
  pose proof (ctl_block b _ _ HB E3 HG2 HGB2) as (Sb & nb & cb & bb & Ab & Cb & Kb & Bb & NDb & Hb & Lb & Db).
  cbn [with_breaks ccode cconsts csym cbreaks app] in Sb, Cb, Kb, Bb, Db.
  change (pcof (with_breaks [] st2)) with (pcof st2) in Hb, Db. rewrite (pcof_app st st2 hd C2 Ahd) in Hb, Db.
  apply emit_jump_to in E4. destruct E4 as [HRs E4]. rewrite pos_pcof in HRs, E4. rewrite N2Z.id in E4.
  assert (A0 : AOK ((hd ++ nb) ++ [(false, (Jump, pcof st))])).
  { apply aok_app; [apply aok_app; assumption|apply aok_one; lia]. }
  assert (C3 : ccode st3 = ccode st ++ encode (strip ((hd ++ nb) ++ [(false, (Jump, pcof st))]))).
  { subst st3. cbn [ccode]. rewrite Cb, C2, !encode_strip_app, !app_assoc. reflexivity. }
  rewrite pos_pcof, P1 in E5. rewrite pos_pcof, (pcof_app st st3 _ C3 A0) in E5, E6.
  replace (cbreaks st3) with (map Z.of_N bb) in E6 by (subst st3; cbn [cbreaks]; rewrite Bb; reflexivity).
  rewrite B2.
  apply (CTL_of_loop 0 st st _ [] []); [apply SX_refl|reflexivity|constructor|symmetry; apply app_nil_r
    |symmetry; apply app_nil_r|intros; constructor|intros; cbn [runs]; rewrite N.add_0_r; reflexivity|].
  rewrite <- (app_nil_r ((hd ++ nb) ++ [(false, (Jump, pcof st))])) in C3, A0.
  refine (loop_close 0 st st3 st4 st5 hd nb [] (newc ++ cb) _ bb _ _ HGB _ C3 _ A0 _ eq_refl NDb Hb E5 E6 _).
  - unfold hd. destruct ops; discriminate.
  - subst st3. cbn [csym]. rewrite <- S2. exact Sb.
  - subst st3. cbn [cconsts]. rewrite Kb, K2, app_assoc. reflexivity.
  - intros lc HLc. subst st3. cbn [csym] in HLc. rewrite app_nil_r. pose proof (sx_bound _ _ Sb) as HB2. rewrite S2 in HB2.
    apply lok_app; [apply lok_app; [apply Lhd, inv_lbw; [exact HI|lia]|apply Lb, HLc]|apply lok_one; reflexivity].
  - intros nc gc k Hnc HGl. rewrite N.add_0_r. subst st3. cbn [cconsts] in Hnc.
    assert (Hnc2 : N.of_nat (List.length (cconsts st2)) <= nc) by (rewrite Kb, app_length in Hnc; lia).
    destruct (Dhd nc gc k Hnc2 HGl) as [BKh HHh].
    assert (HGl2 : gbw (csym st2) gc) by (rewrite S2; exact HGl).
    destruct (Db nc gc k Hnc HGl2) as [BKb HLb].
    split; [exact BKh|]. split; [exact HHh|]. split; [exact BKb|]. split; [exact HLb|]. split; [apply bok_nil|reflexivity].
Qed.

Definition range_op (rop : opc) (S : N) : Prop := (rop = StepRange /\ S = 3) \/ (rop = IterRange /\ S = 2).

Lemma range_op_operand rop S : range_op rop S -> has_operand rop = true /\ is_local rop = false.
Proof. intros [[-> _]|[-> _]]; split; reflexivity. Qed.

Lemma step_range_op nc gc rop S k : range_op rop S ->
  jop_step nc gc (rop, 0) (AH (k + S)) = Some (AH (k + S + 1)) /\ jop_req (rop, 0) (AH (k + S)) = None.
Proof.
  intros [[-> ->]|[-> ->]]; unfold jop_step, jop_req; cbn [fst snd]; change (0 <? 65536) with true; cbn [negb].
  - destruct (3 <=? k + 3) eqn:E; [|apply N.leb_gt in E; lia]. auto.
  - destruct (2 <=? k + 2) eqn:E; [|apply N.leb_gt in E; lia]. auto.
Qed.

Lemma sop_ok_drop nc gc S k : S < 65536 -> sop_ok nc gc (Drop, S) (k + S) = Some k.
Proof. intro HS. rewrite <- (N.add_0_r k) at 2. apply sop_ok_effect; try reflexivity; [exact HS|discriminate]. Qed.

Lemma step_range_op_lv nc gc rop S k : range_op rop S ->
  jop_step nc gc (rop, 1) (AH (k + S)) = Some (ACond (k + S)) /\ jop_req (rop, 1) (AH (k + S)) = None.
Proof.
  intros [[-> ->]|[-> ->]]; unfold jop_step, jop_req; cbn [fst snd]; change (1 <? 65536) with true; cbn [negb].
  - destruct (3 <=? k + 3) eqn:E; [|apply N.leb_gt in E; lia]. auto.
  - destruct (2 <=? k + 2) eqn:E; [|apply N.leb_gt in E; lia]. auto.
Qed.

Lemma bok_hole_jof_cond nc gc pc k :
  BOK nc gc [(true, (JumpOnFalse, 9999))] pc (ACond k) (AH (k + 1)) /\
  holes nc gc [(true, (JumpOnFalse, 9999))] pc (ACond k) = [(pc, AH k)].
Proof.
  assert (ST : jop_step nc gc (JumpOnFalse, 9999) (ACond k) = Some (AH (k + 1))).
  { unfold jop_step. cbn [fst snd]. change (9999 <? 65536) with true. reflexivity. }
  unfold BOK. cbn [strip map snd jruns jannot htgt holes]. rewrite ST. unfold jop_req. cbn [fst snd]. repeat split.
Qed.

Lemma sop_ok_onone nc gc k : sop_ok nc gc (ONone, 0) k = Some (k + 1).
Proof. rewrite <- (N.add_0_r k) at 1. apply sop_ok_effect; reflexivity. Qed.

Lemma compile_foriter_eq lv t e b st : (t = TStr \/ t = TArr \/ t = TMap) ->
  compile_stmt true (SForIter lv t e b) st =
  compile_expr true e st >>= emit_const true (KNum 0) >>= for_loop true lv IterRange 2 b.
Proof. intros [->|[->| ->]]; reflexivity. Qed.

Lemma for_loop_body lv rop S b st : for_loop true lv rop S b st =
  (for_declare true lv st >>= fun st1 =>
   emit true rop [match lv with Some _ => 1%Z | None => 0%Z end] st1 >>= fun st2 =>
   emit true JumpOnFalse [JumpPlaceholderZ] st2 >>= for_assign true lv >>= fun st3 =>
   body_of true b (with_sym (st_push (csym st3)) (with_breaks [] st3)) >>= fun st4 =>
   emit true Jump [pos_of st1] (with_sym (st_pop (csym st4)) st4) >>= fun st5 =>
   emit true Drop [S] st5 >>= fun st6 =>
   patch true (pos_of st2) (pos_of st5) st6 >>= patch_all true (cbreaks st6) (pos_of st5) >>= fun st7 =>
   COk (with_breaks (cbreaks st3) st7)).
Proof. destruct b; reflexivity. Qed.

(* 1 with a loop variable: OpStepRange / OpIterRange then also push the value
   that the store after the JumpOnFalse pops *)
Definition hvN (lv : option str) : N := match lv with Some _ => 1 | None => 0 end.

(* the store that for_assign and the prologue emit for the loop variable *)
Lemma for_assign_piece lv st st' : for_assign true lv st = COk st' ->
  exists ops, st' = {| ccode := ccode st ++ encode ops; cconsts := cconsts st; csym := csym st; cbreaks := cbreaks st |} /\
    AOK (solid ops) /\
    (forall lc, lbw (csym st) lc -> Forall (lopk lc) ops) /\
    (forall nc gc k, gbw (csym st) gc -> runs nc gc ops (k + hvN lv) = Some k).
Proof.
  unfold for_assign. destruct lv as [n|]; intro H.
  - destruct (st_resolve n (csym st)) as [y|] eqn:ER; [|discriminate]. apply set_var_rec in H. destruct H as [HR ->].
    exists [(setop y, sidx y)]. split; [rewrite encode_one; reflexivity|]. split; [apply aok_one, HR|].
    split; [intros lc HL; constructor; [apply lopk_setvar; intro X; apply (HL n y ER X)|constructor]|].
    intros nc gc k HG. cbn [runs hvN]. rewrite sop_ok_setvar; [reflexivity|intro X; apply (HG n y ER X)|exact HR].
  - inversion H; subst st'. exists []. split; [cbn [encode flat_map]; rewrite app_nil_r; destruct st; reflexivity|].
    split; [constructor|]. split; [constructor|]. intros nc gc k _. cbn [runs hvN]. rewrite N.add_0_r. reflexivity.
Qed.

Lemma bok_range_head nc gc rop S lv sv pc k : range_op rop S ->
  runs nc gc sv (k + S + hvN lv) = Some (k + S) ->
  let hd := ([(false, (rop, hvN lv))] ++ [(true, (JumpOnFalse, 9999))]) ++ solid sv in
  BOK nc gc hd pc (AH (k + S)) (AH (k + S)) /\
  holes nc gc hd pc (AH (k + S)) = [(pc + total_len (strip [(false, (rop, hvN lv))]), AH (k + S))].
Proof.
  intros HRO Rs hd. set (jof := pc + total_len (strip [(false, (rop, hvN lv))])).
  assert (X : exists ac, jop_step nc gc (rop, hvN lv) (AH (k + S)) = Some ac /\ jop_req (rop, hvN lv) (AH (k + S)) = None /\
            BOK nc gc [(true, (JumpOnFalse, 9999))] jof ac (AH (k + S + hvN lv)) /\
            holes nc gc [(true, (JumpOnFalse, 9999))] jof ac = [(jof, AH (k + S))]).
  { destruct lv; cbn [hvN].
    - destruct (step_range_op_lv nc gc rop S k HRO) as [ST RQ]. exists (ACond (k + S)). split; [exact ST|]. split; [exact RQ|].
      apply bok_hole_jof_cond.
    - destruct (step_range_op nc gc rop S k HRO) as [ST RQ]. exists (AH (k + S + 1)). split; [exact ST|]. split; [exact RQ|].
      rewrite N.add_0_r. apply bok_hole_jof. }
  destruct X as (ac & ST & RQ & BKj & HHj). destruct (bok_one nc gc _ pc _ _ ST RQ) as [BK1 HH1].
  pose proof (bok_app _ _ _ _ _ _ _ _ BK1 BKj) as BK2.
  set (h2 := [(false, (rop, hvN lv))] ++ [(true, (JumpOnFalse, 9999))]) in *.
  destruct (runs_bok nc gc sv (pc + total_len (strip h2)) _ _ Rs) as [BKs HHs].
  split; [apply (bok_app _ _ _ _ _ _ _ _ BK2 BKs)|].
  unfold hd. rewrite (holes_app nc gc h2 _ pc _ _ (proj1 BK2)), HHs, app_nil_r.
  unfold h2. rewrite (holes_app nc gc _ _ pc _ _ (proj1 BK1)), HH1. exact HHj.
Qed.

(* OpStepRange / OpIterRange; JumpOnFalse; store of the loop variable; body;
   Jump to the range instruction; Drop of the loop state *)
Lemma for_range_ok rop S lv b sa st' : range_op rop S -> slist_ctl b ->
  (emit true rop [Z.of_N (hvN lv)] sa >>= fun st2 =>
   emit true JumpOnFalse [JumpPlaceholderZ] st2 >>= for_assign true lv >>= fun st3 =>
   body_of true b (with_sym (st_push (csym st3)) (with_breaks [] st3)) >>= fun st4 =>
   emit true Jump [pos_of sa] (with_sym (st_pop (csym st4)) st4) >>= fun st5 =>
   emit true Drop [Z.of_N S] st5 >>= fun st6 =>
   patch true (pos_of st2) (pos_of st5) st6 >>= patch_all true (cbreaks st6) (pos_of st5) >>= fun st7 =>
   COk (with_breaks (cbreaks st3) st7)) = COk st' ->
  Inv (csym sa) -> has_gbw (csym sa) -> LOOPOK S sa st'.
Proof.
  intros HRO HB HC HI HGB.
  assert (HS : S < 65536) by (destruct HRO as [[_ ->]|[_ ->]]; lia).
  assert (Hhv : hvN lv < 65536) by (destruct lv; cbn; lia).
  destruct (emit true rop [Z.of_N (hvN lv)] sa) as [st2|] eqn:E1; [|discriminate]. cbn [bind] in HC.
  destruct (emit true JumpOnFalse [JumpPlaceholderZ] st2) as [st2'|] eqn:E2; [|discriminate]. cbn [bind] in HC.
  destruct (for_assign true lv st2') as [st3|] eqn:E2a; [|discriminate]. cbn [bind] in HC.
  destruct (body_of true b (with_sym (st_push (csym st3)) (with_breaks [] st3))) as [st4|] eqn:E3; [|discriminate]. cbn [bind] in HC.
  destruct (emit true Jump [pos_of sa] (with_sym (st_pop (csym st4)) st4)) as [st5|] eqn:E4; [|discriminate]. cbn [bind] in HC.
  destruct (emit true Drop [Z.of_N S] st5) as [st6|] eqn:E5; [|discriminate]. cbn [bind] in HC.
  destruct (patch true (pos_of st2) (pos_of st5) st6) as [st7|] eqn:E6; [|discriminate]. cbn [bind] in HC.
  destruct (patch_all true (cbreaks st6) (pos_of st5) st7) as [st8|] eqn:E7; [|discriminate]. cbn [bind] in HC.
  inversion HC; subst st'; clear HC.
  destruct (range_op_operand rop S HRO) as [HOr HLr].
  apply emit_enc1 in E1; [|exact HOr]. destruct E1 as [_ E1]. rewrite N2Z.id, <- encode_one in E1.
  apply emit_hole in E2; [|reflexivity].
  destruct (for_assign_piece lv st2' st3 E2a) as (sv & E2b & Asv & Lsv & Rsv).
  set (hd := ([(false, (rop, hvN lv))] ++ [(true, (JumpOnFalse, 9999))]) ++ solid sv).
  assert (S3 : csym st3 = csym sa) by (subst st3 st2' st2; reflexivity).
  assert (K3 : cconsts st3 = cconsts sa) by (subst st3 st2' st2; reflexivity).
  assert (B3 : cbreaks st3 = cbreaks sa) by (subst st3 st2' st2; reflexivity).
  assert (C3 : ccode st3 = ccode sa ++ encode (strip hd)).
  { subst st3 st2' st2. cbn [ccode]. unfold hd. rewrite !encode_strip_app, strip_solid, <- !app_assoc. reflexivity. }
  assert (A1 : AOK [(false, (rop, hvN lv))]) by (apply aok_one, Hhv).
  assert (Ahd : AOK hd) by (apply aok_app; [apply aok_app; [exact A1|apply aok_one; lia]|exact Asv]).
  assert (HG3 : Inv (st_push (csym st3))) by (apply inv_push; rewrite S3; exact HI).
  assert (HGB3 : has_gbw (st_push (csym st3))) by (apply has_gbw_push; rewrite S3; exact HGB).
  pose proof (HB _ _ E3 ltac:(discriminate) HG3 HGB3) as (Sb & nb & cb & bb & Ab & Cb & Kb & Bb & NDb & Hb & Lb & Db).
  cbn [with_sym with_breaks ccode cconsts csym cbreaks app] in Sb, Cb, Kb, Bb, Lb, Db.
  change (pcof (with_sym (st_push (csym st3)) (with_breaks [] st3))) with (pcof st3) in Hb, Db.
  rewrite (pcof_app sa st3 hd C3 Ahd) in Hb, Db.
  apply emit_jump_to in E4. destruct E4 as [HRs E4]. rewrite pos_pcof in HRs, E4. rewrite N2Z.id in E4.
  apply emit_enc1 in E5; [|reflexivity]. destruct E5 as [_ E5]. rewrite N2Z.id, <- encode_one in E5.
  set (W0 := (hd ++ nb) ++ [(false, (Jump, pcof sa))]).
  assert (A0 : AOK W0) by (apply aok_app; [apply aok_app; assumption|apply aok_one; lia]).
  assert (C5 : ccode st5 = ccode sa ++ encode (strip W0)).
  { subst st5. cbn [with_sym ccode]. unfold W0. rewrite Cb, C3, !encode_strip_app, !app_assoc. reflexivity. }
  assert (C6 : ccode st6 = ccode sa ++ encode (strip (W0 ++ [(false, (Drop, S))]))).
  { subst st6. cbn [ccode]. rewrite C5, (encode_strip_app W0), app_assoc. reflexivity. }
  assert (C2 : ccode st2 = ccode sa ++ encode (strip [(false, (rop, hvN lv))])) by (subst st2; reflexivity).
  rewrite pos_pcof, (pcof_app sa st2 _ C2 A1) in E6. rewrite pos_pcof, (pcof_app sa st5 _ C5 A0) in E6, E7.
  replace (cbreaks st6) with (map Z.of_N bb) in E7 by (subst st6 st5; cbn [with_sym cbreaks]; rewrite Bb; reflexivity).
  rewrite B3.
  refine (loop_close S sa st6 st7 st8 hd nb [(false, (Drop, S))] cb _ bb _ _ HGB _ C6 _ _ _ eq_refl NDb Hb E6 E7 _).
  - discriminate.
  - subst st6 st5. cbn [with_sym csym]. rewrite <- S3. apply SX_block. exact Sb.
  - subst st6 st5. cbn [with_sym cconsts]. rewrite Kb, K3. reflexivity.
  - apply aok_app; [exact A0|apply aok_one, HS].
  - intros lc HLc. subst st6 st5. cbn [with_sym csym] in HLc.
    pose proof (bound_step SPop (csym st4)) as X. cbn [st_step fst] in X.
    pose proof (sx_bound _ _ Sb) as X2. pose proof (bound_step SPush (csym st3)) as X3. cbn [st_step fst] in X3.
    apply lok_app; [|apply lok_one; reflexivity]. apply lok_app; [|apply lok_one; reflexivity].
    apply lok_app; [|apply Lb; lia]. apply lok_app; [apply lok_cons; [exact HLr|apply lok_one; reflexivity]|].
    apply lok_solid, Lsv. subst st2' st2. cbn [csym]. apply inv_lbw; [exact HI|rewrite S3 in X2, X3; lia].
  - intros nc gc k Hnc HGl. subst st6 st5. cbn [with_sym cconsts] in Hnc.
    assert (HGl2 : gbw (csym st2') gc) by (subst st2' st2; exact HGl).
    destruct (bok_range_head nc gc rop S lv sv (pcof sa) k HRO (Rsv nc gc (k + S) HGl2)) as [BKh HHh].
    assert (HGl3 : gbw (st_push (csym st3)) gc) by (apply gbw_push; rewrite S3; exact HGl).
    destruct (Db nc gc (k + S) Hnc HGl3) as [BKb HLb].
    destruct (runs_bok nc gc [(Drop, S)] (pcof sa + total_len (strip W0)) (k + S) k) as [BKd HHd].
    { cbn [runs]. rewrite (sop_ok_drop nc gc S k HS). reflexivity. }
    split; [exact BKh|]. split; [exact HHh|]. split; [exact BKb|]. split; [exact HLb|]. split; [exact BKd|exact HHd].
Qed.

Lemma compile_cond_body c b st : compile_cond true c b st =
  compile_expr true c st >>= fun st1 =>
  emit true JumpOnFalse [JumpPlaceholderZ] st1 >>= fun st2 =>
  body_of true b (with_sym (st_push (csym st2)) st2) >>= fun st3 =>
  emit true Jump [JumpPlaceholderZ] (with_sym (st_pop (csym st3)) st3) >>= fun st4 =>
  patch true (pos_of st1) (pos_of st4) st4.
Proof. destruct b; reflexivity. Qed.

(* one `cond / block` of an if statement: leaves its end jump pending *)
Lemma ctl_cond c b st st' : efrag c = true -> slist_ctl b ->
  compile_cond true c b st = COk st' -> Inv (csym st) -> has_gbw (csym st) ->
  exists ej, Z.of_N ej = (pos_of st' - 3)%Z /\ CTLx [ej] st st'.
Proof.
  intros HF HB HC HI HGB. rewrite compile_cond_body in HC.
  destruct (compile_expr true c st) as [st1|] eqn:E1; [|discriminate]. cbn [bind] in HC.
  destruct (emit true JumpOnFalse [JumpPlaceholderZ] st1) as [st2|] eqn:E2; [|discriminate]. cbn [bind] in HC.
  destruct (body_of true b (with_sym (st_push (csym st2)) st2)) as [st3|] eqn:E3; [|discriminate]. cbn [bind] in HC.
  destruct (emit true Jump [JumpPlaceholderZ] (with_sym (st_pop (csym st3)) st3)) as [st4|] eqn:E4; [|discriminate]. cbn [bind] in HC.
  destruct (test_piece c st st1 st2 HF E1 HGB E2) as (ops & newc & S2 & B2 & K2 & Ahd & C2 & P1 & Lhd & Dhd).
  set (hd := solid ops ++ [(true, (JumpOnFalse, 9999))]) in *.
  assert (HG3 : Inv (st_push (csym st2))) by (apply inv_push; rewrite S2; exact HI).
  assert (HGB3 : has_gbw (st_push (csym st2))) by (apply has_gbw_push; rewrite S2; exact HGB).
  pose proof (HB _ _ E3 ltac:(discriminate) HG3 HGB3) as (Sb & nb & cb & bb & Ab & Cb & Kb & Bb & NDb & Hb & Lb & Db).
  cbn [with_sym ccode cconsts csym cbreaks] in Sb, Cb, Kb, Bb, Lb, Db.
  change (pcof (with_sym (st_push (csym st2)) st2)) with (pcof st2) in Hb, Db.
  apply emit_hole in E4; [|reflexivity].
  rewrite (pcof_app st st2 hd C2 Ahd) in Hb, Db.
  set (W := (hd ++ nb) ++ [(true, (Jump, 9999))]).
  assert (AW : AOK W) by (apply aok_app; [apply aok_app; assumption|apply aok_one; lia]).
  assert (C4 : ccode st4 = ccode st ++ encode (strip W)).
  { subst st4. cbn [with_sym ccode]. unfold W. rewrite Cb, C2, !encode_strip_app, !app_assoc. reflexivity. }
  rewrite pos_pcof, P1, pos_pcof, (pcof_app st st4 W C4 AW) in HC.
  (* the unpatched block, for all parameters *)
  assert (BW : forall nc gc k, N.of_nat (List.length (cconsts st3)) <= nc -> gbw (csym st) gc ->
            BOK nc gc hd (pcof st) (AH k) (AH k) /\ holes nc gc hd (pcof st) (AH k) = [(pcof st + total_len ops, AH k)] /\
            BOK nc gc nb (pcof st + total_len (strip hd)) (AH k) (AH k) /\
            forall p ra, In (p, ra) (holes nc gc nb (pcof st + total_len (strip hd)) (AH k)) -> ra = AH k /\ In p bb).
  { intros nc gc k Hnc HGl.
    assert (Hnc2 : N.of_nat (List.length (cconsts st2)) <= nc) by (rewrite Kb, app_length in Hnc; lia).
    destruct (Dhd nc gc k Hnc2 HGl) as [BKh HHh].
    assert (HGl3 : gbw (st_push (csym st2)) gc) by (apply gbw_push; rewrite S2; exact HGl).
    destruct (Db nc gc k Hnc HGl3). auto. }
  destruct HGB as (gc0 & HG0).
  destruct (BW _ gc0 0 (N.le_refl _) HG0) as (BKh & HHh & BKb & HHb).
  destruct (bok_cond _ _ hd nb (pcof st) 0 _ bb BKh HHh BKb HHb) as [[RW _] _]. fold W in RW.
  assert (HJ : hole_at W (pcof st) (pcof st + total_len ops)).
  { do 2 apply hole_at_app_l. eapply holes_hole_at. rewrite HHh. left. reflexivity. }
  destruct (patch_fill _ _ _ _ st4 st' W (ccode st) _ _ C4 RW HJ HC) as [HT ->]. rewrite N2Z.id in *.
  set (T := pcof st + total_len (strip W)) in *. fold (pcof st).
  destruct (fill_frame _ _ [pcof st + total_len ops] T ltac:(lia) W (pcof st) _ _ RW) as (_ & _ & TL).
  set (ej := pcof st + total_len (strip (hd ++ nb))).
  exists ej. split.
  - rewrite pos_pcof. unfold pcof at 1. cbn [ccode]. rewrite app_length, Nat2N.inj_add. fold (pcof st).
    rewrite (aok_len _ (aok_fill _ T ltac:(lia) W (pcof st) AW)), TL. unfold W, ej.
    rewrite (strip_app (hd ++ nb)), total_len_app. change (total_len (strip [(true, (Jump, 9999))])) with 3. lia.
  - assert (HBs : forall p, In p bb -> hole_at W (pcof st) p) by (intros p Hp; apply hole_at_app_l, hole_at_app_r, Hb, Hp).
    assert (HE : hole_at W (pcof st) ej) by (apply hole_at_app_r; left; auto).
    assert (RJ : pcof st + total_len ops < pcof st + total_len (strip hd)).
    { assert (X : hole_at hd (pcof st) (pcof st + total_len ops)) by (eapply holes_hole_at; rewrite HHh; left; reflexivity).
      apply hole_at_range in X. lia. }
    assert (RB : forall p, In p bb -> pcof st + total_len (strip hd) <= p < ej).
    { intros p Hp. pose proof (hole_at_range _ _ _ (Hb p Hp)) as X. unfold ej. rewrite strip_app, total_len_app. lia. }
    assert (RE : pcof st + total_len (strip hd) <= ej) by (unfold ej; rewrite strip_app, total_len_app; lia).
    split; [cbn [csym]; subst st4; cbn [with_sym csym]; rewrite <- S2; apply SX_block; exact Sb|].
    exists (fill [pcof st + total_len ops] T W (pcof st)), (newc ++ cb), bb. cbn [ccode cconsts csym cbreaks].
    split; [apply aok_fill; [lia|exact AW]|]. split; [reflexivity|].
    split; [subst st4; cbn [with_sym cconsts]; rewrite Kb, K2, app_assoc; reflexivity|].
    split; [subst st4; cbn [with_sym cbreaks]; rewrite Bb, B2; reflexivity|].
    split; [exact NDb|]. split; [constructor; [intros []|constructor]|].
    split; [intros p Hp [<-|[]]; specialize (RB _ Hp); lia|].
    split.
    { intros p Hp. apply hole_at_fill_sel.
      - intros [<-|[]]. apply in_app_or in Hp. destruct Hp as [Hp|[E|[]]]; [specialize (RB _ Hp)|]; lia.
      - apply in_app_or in Hp. destruct Hp as [Hp|[<-|[]]]; [apply HBs; exact Hp|exact HE]. }
    split.
    { intros lc HLc. subst st4. cbn [with_sym csym] in HLc.
      pose proof (bound_step SPop (csym st3)) as X. cbn [st_step fst] in X.
      pose proof (sx_bound _ _ Sb) as X2. pose proof (bound_step SPush (csym st2)) as X3. cbn [st_step fst] in X3. rewrite S2 in X2, X3.
      apply lok_fill. apply lok_app; [|apply lok_one; reflexivity]. apply lok_app; [|apply Lb; lia].
      apply Lhd, inv_lbw; [exact HI|lia]. }
    intros nc gc k Hnc HGl. subst st4. cbn [with_sym cconsts] in Hnc.
    destruct (BW nc gc k Hnc HGl) as (BKh' & HHh' & BKb' & HHb').
    apply (bok_cond _ _ hd nb (pcof st) k _ bb BKh' HHh' BKb' HHb'). fold W. fold T. lia.
Qed.

(* statements that define a symbol in the current scope: inside a block it is
   a local; at top level (a global) they are treated apart (TL) *)
Definition needs_scope (s : stmt) : bool :=
  match s with SDecl _ _ | SForStep (Some _) _ _ _ _ | SForIter (Some _) _ _ _ => true | _ => false end.

Fixpoint cfrag_stmt (s : stmt) : bool :=
  match s with
  | SDecl _ e => efrag e
  | SAssign (EVar _) e => efrag e
  | SAssign (EIndex l i) e => efrag l && efrag i && efrag e     (* element stores: a[i] = e, m[k] = e *)
  | SEmpty | SBreak => true
  | SIf c b elifs els =>
      efrag c && cfrag_slist b && cfrag_clist elifs &&
      match els with NoElse => true | Else eb => cfrag_slist eb end
  | SWhile c b => efrag c && cfrag_slist b
  | SForStep _ start stop step b => ofrag start && efrag stop && ofrag step && cfrag_slist b
  | SForIter _ t e b => match t with TStr | TArr | TMap => efrag e && cfrag_slist b | _ => false end
  | _ => false
  end
with cfrag_slist (l : slist) : bool :=
  match l with SNil => true | SCons s t => cfrag_stmt s && cfrag_slist t end
with cfrag_clist (l : clist) : bool :=
  match l with CNil => true | CCons c b t => efrag c && cfrag_slist b && cfrag_clist t end.

(* the fragments admit `for … range e` for strings, arrays and maps *)
Lemma iterable_ty t (x y : bool) : match t with TStr | TArr | TMap => x && y | _ => false end = true ->
  (t = TStr \/ t = TArr \/ t = TMap) /\ x = true /\ y = true.
Proof. destruct t; try discriminate; rewrite andb_true_iff; auto. Qed.

Lemma cfrag_foriter lv t e b : cfrag_stmt (SForIter lv t e b) = true ->
  (t = TStr \/ t = TArr \/ t = TMap) /\ efrag e = true /\ cfrag_slist b = true.
Proof. apply iterable_ty. Qed.

Lemma lfrag_cfrag :
  (forall s, lfrag_stmt s = true -> cfrag_stmt s = true) /\
  (forall l, lfrag_slist l = true -> cfrag_slist l = true) /\
  (forall l, lfrag_clist l = true -> cfrag_clist l = true) /\
  (forall o, match o with NoElse => True | Else b => lfrag_slist b = true -> cfrag_slist b = true end).
Proof.
  apply stmt_mutind; cbn [lfrag_stmt cfrag_stmt lfrag_slist cfrag_slist lfrag_clist cfrag_clist]; auto.
  - intros target e. destruct target; auto; discriminate.
  - intros c b Hb elifs Hc els Ho. rewrite !andb_true_iff. destruct els; intuition.
  - intros c b Hb. rewrite !andb_true_iff. intuition.
  - intros lv start stop step b Hb. rewrite !andb_true_iff. intuition.
  - intros lv t e b Hb. destruct t; auto. all: rewrite !andb_true_iff; intuition.
  - intros s Hs t Ht. rewrite !andb_true_iff. intuition.
  - intros c b Hb t Ht. rewrite !andb_true_iff. intuition.
Qed.

Lemma ofrag_expr o d : ofrag o = true -> efrag (match o with OSome e => e | ONoneE => ENum d end) = true.
Proof. destruct o; simpl; auto. Qed.

(* the operands a for loop is entered with *)
Definition PREFIX (S : N) (st s3 : cstate) : Prop :=
  csym s3 = csym st /\ cbreaks s3 = cbreaks st /\
  exists ops newc, AOK (solid ops) /\ ccode s3 = ccode st ++ encode ops /\ cconsts s3 = cconsts st ++ newc /\
    (forall lc, lbw (csym st) lc -> Forall (lopk lc) ops) /\
    (forall nc gc k, N.of_nat (List.length (cconsts s3)) <= nc -> gbw (csym st) gc -> runs nc gc ops k = Some (k + S)).

Lemma forstep_prefix lv start stop step b st st' :
  ofrag start = true -> efrag stop = true -> ofrag step = true -> has_gbw (csym st) ->
  compile_stmt true (SForStep lv start stop step b) st = COk st' ->
  exists s3, PREFIX 3 st s3 /\ for_loop true lv StepRange 3 b s3 = COk st'.
Proof.
  intros F1 F2 F3 HGB HC. cbn [compile_stmt] in HC.
  destruct (compile_expr true stop st) as [s1|] eqn:E1; [|discriminate]. cbn [bind] in HC.
  destruct (compile_expr true (match step with OSome e => e | ONoneE => ENum 1 end) s1) as [s2|] eqn:E2; [|discriminate]. cbn [bind] in HC.
  destruct (compile_expr true (match start with OSome e => e | ONoneE => ENum 0 end) s2) as [s3|] eqn:E3; [|discriminate]. cbn [bind] in HC.
  exists s3. split; [|exact HC].
  destruct (expr_piece _ _ _ F2 E1 HGB) as (S1 & B1 & o1 & c1 & A1 & C1 & K1 & R1 & L1).
  assert (HGB1 : has_gbw (csym s1)) by (rewrite S1; exact HGB).
  destruct (expr_piece _ _ _ (ofrag_expr step 1 F3) E2 HGB1) as (S2 & B2 & o2 & c2 & A2 & C2 & K2 & R2 & L2).
  assert (HGB2 : has_gbw (csym s2)) by (rewrite S2, S1; exact HGB).
  destruct (expr_piece _ _ _ (ofrag_expr start 0 F1) E3 HGB2) as (S3 & B3 & o3 & c3 & A3 & C3 & K3 & R3 & L3).
  split; [congruence|]. split; [congruence|]. exists (o1 ++ o2 ++ o3), (c1 ++ c2 ++ c3).
  split; [unfold solid; rewrite !map_app; apply aok_app; [exact A1|]; apply aok_app; [exact A2|exact A3]|].
  split; [rewrite C3, C2, C1, !encode_app, <- !app_assoc; reflexivity|].
  split; [rewrite K3, K2, K1, <- !app_assoc; reflexivity|]. split.
  - intros lc HLc. apply Forall_app. split; [apply L1; exact HLc|]. apply Forall_app.
    split; [apply L2; rewrite S1; exact HLc|apply L3; rewrite S2, S1; exact HLc].
  - intros nc gc k Hnc HGl.
    assert (N1 : N.of_nat (List.length (cconsts s1)) <= nc) by (rewrite K3, K2, !app_length in Hnc; lia).
    assert (N2 : N.of_nat (List.length (cconsts s2)) <= nc) by (rewrite K3, !app_length in Hnc; lia).
    eapply runs_app; [apply (R1 nc gc k N1 HGl)|].
    eapply runs_app; [apply (R2 nc gc (k + 1) N2); rewrite S1; exact HGl|].
    replace (k + 3) with (k + 1 + 1 + 1) by lia. apply (R3 nc gc (k + 1 + 1) Hnc). rewrite S2, S1. exact HGl.
Qed.

Lemma foriter_prefix lv t e b st st' : (t = TStr \/ t = TArr \/ t = TMap) -> efrag e = true -> has_gbw (csym st) ->
  compile_stmt true (SForIter lv t e b) st = COk st' ->
  exists s2, PREFIX 2 st s2 /\ for_loop true lv IterRange 2 b s2 = COk st'.
Proof.
  intros Ht F HGB HC'. rewrite (compile_foriter_eq _ _ _ _ _ Ht) in HC'.
  destruct (compile_expr true e st) as [s1|] eqn:E1; [|discriminate]. cbn [bind] in HC'.
  destruct (emit_const true (KNum 0) s1) as [s2|] eqn:E2; [|discriminate]. cbn [bind] in HC'.
  exists s2. split; [|exact HC'].
  destruct (expr_piece _ _ _ F E1 HGB) as (S1 & B1 & o1 & c1 & A1 & C1 & K1 & R1 & L1).
  destruct (const_sl _ _ _ E2) as (RI & S2 & C2 & K2).
  assert (B2 : cbreaks s2 = cbreaks s1) by (unfold emit_const in E2; apply emit_breaks in E2; exact E2).
  split; [congruence|]. split; [congruence|].
  exists (o1 ++ [(Constant, N.of_nat (List.length (cconsts s1)))]), (c1 ++ [KNum 0]).
  split; [unfold solid; rewrite map_app; apply aok_app; [exact A1|]; constructor; [cbn; exact RI|constructor]|].
  split; [rewrite C2, C1, !encode_app, <- !app_assoc; reflexivity|].
  split; [rewrite K2, K1, <- !app_assoc; reflexivity|]. split.
  - intros lc HLc. apply Forall_app. split; [apply L1; exact HLc|]. constructor; [apply lopk_nonlocal; reflexivity|constructor].
  - intros nc gc k Hnc HGl.
    assert (N1 : N.of_nat (List.length (cconsts s1)) <= nc) by (rewrite K2, !app_length in Hnc; lia).
    eapply runs_app; [apply (R1 nc gc k N1 HGl)|]. cbn [runs].
    rewrite sop_ok_const; [f_equal; lia| |exact RI]. rewrite K2, app_length in Hnc. simpl in Hnc. lia.
Qed.

(* the table a for loop runs in: the loop variable is defined in the scope the
   statement is in (a global at top level, a local inside a block) *)
Definition for_sym (lv : option str) (s : symtab) : symtab :=
  match lv with Some n => fst (st_define n s) | None => s end.

(* the prologue: OpNone and a first store, which makes the variable's slot exist *)
Lemma for_declare_piece lv s3 sa : for_declare true lv s3 = COk sa ->
  exists pro,
    sa = {| ccode := ccode s3 ++ encode pro; cconsts := cconsts s3; csym := for_sym lv (csym s3); cbreaks := cbreaks s3 |} /\
    AOK (solid pro) /\
    (forall lc, lbw (for_sym lv (csym s3)) lc -> Forall (lopk lc) pro) /\
    (forall nc gc k, gbw (for_sym lv (csym s3)) gc -> runs nc gc pro k = Some k).
Proof.
  unfold for_declare, for_sym. destruct lv as [n|]; intro H.
  - pose proof (define_then_resolve (csym s3) n) as DR. destruct (st_define n (csym s3)) as [sym' y]. cbn [fst snd] in *.
    destruct (emit true ONone [] (with_sym sym' s3)) as [s4|] eqn:Ea; [|discriminate]. cbn [bind] in H.
    apply emit_enc0 in Ea; [|reflexivity]. subst s4. apply set_var_rec in H. destruct H as [HR ->].
    exists [(ONone, 0); (setop y, sidx y)]. cbn [with_sym ccode cconsts csym cbreaks].
    split; [unfold encode; cbn [flat_map]; rewrite app_nil_r, app_assoc; reflexivity|].
    split; [constructor; [cbn; lia|apply aok_one, HR]|].
    split; [intros lc HL; constructor; [apply lopk_nonlocal; reflexivity|constructor; [|constructor]];
            apply lopk_setvar; intro X; apply (HL n y DR X)|].
    intros nc gc k HG. cbn [runs]. rewrite sop_ok_onone, sop_ok_setvar; [reflexivity|intro X; apply (HG n y DR X)|exact HR].
  - inversion H; subst sa. exists []. split; [cbn [encode flat_map]; rewrite app_nil_r; destruct s3; reflexivity|].
    split; [constructor|]. split; [constructor|reflexivity].
Qed.

(* a for loop inside the fragment: without a loop variable anywhere; with one
   (a local of the enclosing block) only inside a block *)
Lemma ctl_loop rop S lv b st s3 st' : range_op rop S -> slist_ctl b -> PREFIX S st s3 ->
  for_loop true lv rop (Z.of_N S) b s3 = COk st' ->
  (lv <> None -> outers (csym st) <> []) -> Inv (csym st) -> has_gbw (csym st) -> CTL st st'.
Proof.
  intros HRO HB (S3 & B3 & ops & newc & A & C & K & L & R) HC HO HI HGB.
  rewrite for_loop_body in HC. destruct (for_declare true lv s3) as [sa|] eqn:ED; [|discriminate]. cbn [bind] in HC.
  destruct (for_declare_piece lv s3 sa ED) as (pro & Esa & Ap & Lp & Rp). rewrite S3 in Esa, Lp, Rp.
  assert (SXd : SX (csym st) (for_sym lv (csym st))).
  { destruct lv as [n|]; [apply SX_define; [apply HO; discriminate|exact HI]|apply SX_refl]. }
  assert (Ssa : csym sa = for_sym lv (csym st)) by (rewrite Esa; reflexivity).
  assert (HL : LOOPOK S sa st').
  { apply (for_range_ok rop S lv b sa st' HRO HB); [destruct lv; exact HC| |]; rewrite Ssa;
      [apply (sx_inv _ _ SXd HI)|apply (sx_has_gbw _ _ SXd HGB)]. }
  apply (CTL_of_loop S st sa st' (ops ++ pro) newc); [rewrite Ssa; exact SXd|rewrite Esa; exact B3| | | | | |exact HL].
  - unfold solid. rewrite map_app. apply aok_app; assumption.
  - rewrite Esa. cbn [ccode]. rewrite C, encode_app, app_assoc. reflexivity.
  - rewrite Esa. exact K.
  - intros lc HLc. rewrite Ssa in HLc. pose proof (sx_bound _ _ SXd) as X.
    apply Forall_app. split; [apply L, inv_lbw; [exact HI|lia]|apply Lp, inv_lbw; [apply (sx_inv _ _ SXd HI)|exact HLc]].
  - intros nc gc k Hnc HG. rewrite Esa in Hnc. cbn [cconsts] in Hnc.
    eapply runs_app; [apply (R nc gc k Hnc HG)|apply Rp, (sx_gbw _ _ SXd), HG].
Qed.

Definition clist_ctl (l : clist) : Prop :=
  forall jumps st st' jumps', compile_elifs true l jumps st = (COk st', jumps') ->
    Inv (csym st) -> has_gbw (csym st) ->
    exists xs, jumps' = jumps ++ map Z.of_N xs /\ CTLx xs st st'.

Lemma ctl_if c b elifs els st st' :
  efrag c = true -> slist_ctl b -> clist_ctl elifs ->
  (match els with NoElse => True | Else eb => slist_ctl eb end) ->
  compile_stmt true (SIf c b elifs els) st = COk st' -> Inv (csym st) -> has_gbw (csym st) -> CTL st st'.
Proof.
  intros F HB HE HL HC HG HGB. cbn [compile_stmt] in HC.
  destruct (compile_cond true c b st) as [st1|] eqn:E1; [|discriminate]. cbn [bind] in HC.
  destruct (ctl_cond c b st st1 F HB E1 HG HGB) as (ej & Eej & X1).
  destruct (compile_elifs true elifs [(pos_of st1 - 3)%Z] st1) as [r jumps] eqn:E2.
  destruct r as [st2|]; [|discriminate]. cbn [bind] in HC.
  assert (HG1 : Inv (csym st1)) by (apply (sx_inv _ _ (proj1 X1)); exact HG).
  assert (HGB1 : has_gbw (csym st1)) by (apply (sx_has_gbw _ _ (proj1 X1)); exact HGB).
  destruct (HE _ _ _ _ E2 HG1 HGB1) as (xs & EJ & X2).
  assert (HG2 : Inv (csym st2)) by (apply (sx_inv _ _ (proj1 X2)); exact HG1).
  assert (HGB2 : has_gbw (csym st2)) by (apply (sx_has_gbw _ _ (proj1 X2)); exact HGB1).
  assert (X3 : exists st3, (match els with NoElse => COk st2 | Else eb => compile_block true eb st2 end) = COk st3 /\
                           CTL st2 st3 /\ patch_all true jumps (pos_of st3) st3 = COk st').
  { destruct els as [|eb].
    - cbn [bind] in HC. exists st2. split; [reflexivity|]. split; [apply CTL_refl|exact HC].
    - destruct (compile_block true eb st2) as [st3|] eqn:E3; [|discriminate]. cbn [bind] in HC.
      exists st3. split; [reflexivity|]. split; [apply (ctl_block eb st2 st3 HL E3 HG2 HGB2)|exact HC]. }
  destruct X3 as (st3 & _ & X3 & HP).
  pose proof (ctlx_trans _ _ _ _ _ X1 (ctlx_trans _ _ _ _ _ X2 (ctlx_of_ctl _ _ X3))) as XA.
  eapply (ctlx_close _ st st3 st' HGB XA).
  rewrite EJ, <- Eej in HP. rewrite app_nil_r. exact HP.
Qed.

Theorem ctl_all :
  (forall s, cfrag_stmt s = true -> forall st st', compile_stmt true s st = COk st' ->
             (needs_scope s = true -> outers (csym st) <> []) ->
             Inv (csym st) -> has_gbw (csym st) -> CTL st st') /\
  (forall l, cfrag_slist l = true -> slist_ctl l) /\
  (forall l, cfrag_clist l = true -> clist_ctl l) /\
  (forall o, match o with NoElse => True | Else b => cfrag_slist b = true -> slist_ctl b end).
Proof.
  apply stmt_mutind.
  - (* SDecl *) intros n e HF st st' HC HO HG HGB. apply (ctl_decl n e st st' HF HC (HO eq_refl) HG HGB).
  - (* SAssign *) intros target e HF st st' HC _ HG HGB. destruct target; try discriminate HF.
    + apply (ctl_assign n e st st' HF HC HG HGB).
    + cbn [cfrag_stmt] in HF. rewrite !andb_true_iff in HF. destruct HF as [[F1 F2] F3].
      apply (ctl_store target1 target2 e st st' F1 F2 F3 HC HG HGB).
  - (* SIf *) intros c b Hb elifs He els Ho HF st st' HC _ HG HGB. cbn [cfrag_stmt] in HF.
    rewrite !andb_true_iff in HF. destruct HF as [[[F1 F2] F3] F4].
    apply (ctl_if c b elifs els st st' F1 (Hb F2) (He F3)); auto.
    destruct els; [exact I|apply Ho; exact F4].
  - (* SWhile *) intros c b Hb HF st st' HC _ HG HGB. cbn [cfrag_stmt] in HF. apply andb_true_iff in HF. destruct HF as [F1 F2].
    apply (ctl_while c b st st' F1 (Hb F2) HC HG HGB).
  - (* SForStep *) intros lv start stop step b Hb HF st st' HC HO HG HGB. cbn [cfrag_stmt] in HF.
    rewrite !andb_true_iff in HF. destruct HF as [[[F1 F2] F3] F4].
    destruct (forstep_prefix lv start stop step b st st' F1 F2 F3 HGB HC) as (s3 & HP & HC3).
    apply (ctl_loop StepRange 3 lv b st s3 st' (or_introl (conj eq_refl eq_refl)) (Hb F4) HP HC3); auto.
    intro NE. apply HO. destruct lv; [reflexivity|congruence].
  - (* SForIter *) intros lv t e b Hb HF st st' HC HO HG HGB. destruct (cfrag_foriter _ _ _ _ HF) as (Ht & F1 & F2).
    destruct (foriter_prefix lv t e b st st' Ht F1 HGB HC) as (s2 & HP & HC2).
    apply (ctl_loop IterRange 2 lv b st s2 st' (or_intror (conj eq_refl eq_refl)) (Hb F2) HP HC2); auto.
    intro NE. apply HO. destruct lv; [reflexivity|congruence].
  - (* SBreak *) intros _ st st' HC _ _ _. apply (ctl_break st st' HC).
  - (* SEmpty *) intros _ st st' HC _ _ _. cbn [compile_stmt] in HC. inversion HC; subst. apply CTL_refl.
  - (* SBlock *) intros b _ HF. discriminate.
  - (* SUnsupported *) intros w HF. discriminate.
  - (* SNil *) intros _ st st' HC _ _ _. cbn [body_of] in HC. inversion HC; subst. apply CTL_refl.
  - (* SCons *) intros s Hs t Ht HF st st' HC HO HG HGB. cbn [cfrag_slist] in HF. apply andb_true_iff in HF. destruct HF as [F1 F2].
    cbn [body_of] in HC. destruct (compile_stmt true s st) as [st1|] eqn:E1; [|discriminate]. cbn [bind] in HC.
    pose proof (Hs F1 st st1 E1 (fun _ => HO) HG HGB) as X1. rewrite compile_slist_body in HC.
    assert (HO1 : outers (csym st1) <> []) by (rewrite (sx_out _ _ (proj1 X1)); exact HO).
    assert (HG1 : Inv (csym st1)) by (apply (sx_inv _ _ (proj1 X1)); exact HG).
    assert (HGB1 : has_gbw (csym st1)) by (apply (sx_has_gbw _ _ (proj1 X1)); exact HGB).
    apply (CTL_trans st st1 st' X1 (Ht F2 st1 st' HC HO1 HG1 HGB1)).
  - (* CNil *) intros _ jumps st st' jumps' HC _ _. cbn [compile_elifs] in HC. inversion HC; subst.
    exists []. split; [cbn [map]; rewrite app_nil_r; reflexivity|apply ctlx_of_ctl; apply CTL_refl].
  - (* CCons *) intros c b Hb t Ht HF jumps st st' jumps' HC HG HGB. cbn [cfrag_clist] in HF.
    rewrite !andb_true_iff in HF. destruct HF as [[F1 F2] F3].
    cbn [compile_elifs] in HC. destruct (compile_cond true c b st) as [st1|] eqn:E1; [|inversion HC].
    destruct (ctl_cond c b st st1 F1 (Hb F2) E1 HG HGB) as (ej & Eej & X1).
    assert (HG1 : Inv (csym st1)) by (apply (sx_inv _ _ (proj1 X1)); exact HG).
    assert (HGB1 : has_gbw (csym st1)) by (apply (sx_has_gbw _ _ (proj1 X1)); exact HGB).
    destruct (Ht F3 _ _ _ _ HC HG1 HGB1) as (xs & EJ & X2).
    exists (ej :: xs). split; [rewrite EJ, <- Eej, <- app_assoc; reflexivity|].
    apply (ctlx_trans [ej] xs st st1 st' X1 X2).
  - (* NoElse *) exact I.
  - (* Else *) intros b Hb. exact Hb.
Qed.

(* the top level: the global scope is the current one; blocks may have left a
   LocalCount (nmax) behind *)
Definition top_ok2 (st : cstate) : Prop := outers (csym st) = [] /\ Inv (csym st).

Lemma top_ok_top_ok2 st : top_ok st -> top_ok2 st.
Proof. intros (A & B & _). split; assumption. Qed.

Lemma top_gbw st gc : top_ok2 st -> index (cur (csym st)) <= gc -> gbw (csym st) gc.
Proof. intros (HO & HI) HL n y HR _. destruct (sym_top_globals _ HO HI n y HR) as [_ R]. lia. Qed.

Lemma top_lbw2 st lc : top_ok2 st -> lbw (csym st) lc.
Proof. intros (HO & HI) n y HR HS. destruct (sym_top_globals _ HO HI n y HR) as [S _]. congruence. Qed.

Definition TL (st st' : cstate) : Prop :=
  top_ok2 st' /\ index (cur (csym st)) <= index (cur (csym st')) /\ bound (csym st) <= bound (csym st') /\
  exists new newc newb,
    AOK new /\
    ccode st' = ccode st ++ encode (strip new) /\
    cconsts st' = cconsts st ++ newc /\
    cbreaks st' = cbreaks st ++ map Z.of_N newb /\
    (forall p, In p newb -> hole_at new (pcof st) p) /\
    (forall lc, bound (csym st') <= lc -> LOK lc new) /\
    forall nc gc, N.of_nat (List.length (cconsts st')) <= nc -> index (cur (csym st')) <= gc ->
      BOK nc gc new (pcof st) (AH 0) (AH 0) /\
      forall p ra, In (p, ra) (holes nc gc new (pcof st) (AH 0)) -> In p newb.

Lemma TL_refl st : top_ok2 st -> TL st st.
Proof.
  intro HT. split; [exact HT|]. split; [lia|]. split; [lia|]. exists [], [], []. split; [constructor|].
  split; [simpl; rewrite app_nil_r; reflexivity|]. split; [rewrite app_nil_r; reflexivity|].
  split; [simpl; rewrite app_nil_r; reflexivity|]. split; [intros p []|]. split; [intros; apply lok_nil|].
  intros nc gc _ _. split; [split; simpl; auto|intros p ra []].
Qed.

Lemma TL_trans st st1 st2 : TL st st1 -> TL st1 st2 -> TL st st2.
Proof.
  intros (T1 & M1 & N1 & n1 & c1 & b1 & A1 & C1 & K1 & B1 & H1 & L1 & D1) (T2 & M2 & N2 & n2 & c2 & b2 & A2 & C2 & K2 & B2 & H2 & L2 & D2).
  pose proof (pcof_app st st1 n1 C1 A1) as HP.
  split; [exact T2|]. split; [lia|]. split; [lia|]. exists (n1 ++ n2), (c1 ++ c2), (b1 ++ b2).
  split; [apply aok_app; assumption|].
  split; [rewrite C2, C1, strip_app; unfold encode; rewrite flat_map_app, app_assoc; reflexivity|].
  split; [rewrite K2, K1, app_assoc; reflexivity|].
  split; [rewrite B2, B1, map_app, app_assoc; reflexivity|].
  split.
  { intros p Hp. apply in_app_or in Hp. destruct Hp as [Hp|Hp].
    - apply hole_at_app_l. apply H1. exact Hp.
    - apply hole_at_app_r. rewrite <- HP. apply H2. exact Hp. }
  split; [intros lc HLc; apply lok_app; [apply L1; lia|apply L2; exact HLc]|].
  intros nc gc Hnc Hgc.
  assert (Hnc1 : N.of_nat (List.length (cconsts st1)) <= nc) by (rewrite K2, app_length in Hnc; lia).
  destruct (D1 nc gc Hnc1 ltac:(lia)) as [BK1 HL1].
  destruct (D2 nc gc Hnc Hgc) as [BK2 HL2]. rewrite HP in BK2, HL2.
  split; [eapply bok_app; eauto|].
  intros p ra Hin. rewrite (holes_app nc gc n1 n2 (pcof st) _ _ (proj1 BK1)) in Hin. apply in_app_or in Hin.
  destruct Hin as [Hin|Hin]; apply in_or_app; [left; apply (HL1 _ _ Hin)|right; apply (HL2 _ _ Hin)].
Qed.

Lemma TL_of_CTL st st' : top_ok2 st -> CTL st st' -> TL st st'.
Proof.
  intros HT (S & new & newc & newb & A & C & K & B & ND & H & L & D). pose proof HT as (HO & HI).
  destruct (sx_top _ _ S HO) as [ES EI].
  assert (HT' : top_ok2 st') by (split; [rewrite (sx_out _ _ S); exact HO|apply (sx_inv _ _ S); exact HI]).
  split; [exact HT'|]. split; [lia|]. split; [apply (sx_bound _ _ S)|].
  exists new, newc, newb. repeat (split; [assumption|]).
  intros nc gc Hnc Hgc. rewrite EI in Hgc.
  destruct (D nc gc 0 Hnc (top_gbw st gc HT Hgc)) as [BK HL]. split; [exact BK|]. intros p ra Hin. apply (HL _ _ Hin).
Qed.

(* a top-level declaration defines a global *)
Lemma TL_of_decl n e st st' : efrag e = true -> top_ok2 st ->
  compile_stmt true (SDecl n e) st = COk st' -> TL st st'.
Proof.
  intros HF HT HC. pose proof HT as (HO & HI).
  assert (HGB : has_gbw (csym st)) by (exists (index (cur (csym st))); apply top_gbw; [exact HT|lia]).
  destruct (decl_piece n e st st' HF HC HGB) as (S' & B' & ops & newc & A & C & K & L & R).
  set (y := snd (st_define n (csym st))) in *.
  destruct (define_frame n (csym st)) as (F1 & F2 & F3). rewrite <- S' in F1, F3.
  pose proof (inv_define n (csym st) HI) as HI'. pose proof (define_then_resolve (csym st) n) as DR. fold y in DR. rewrite <- S' in HI', DR.
  assert (HO' : outers (csym st') = []) by congruence.
  destruct (sym_top_globals _ HO' HI' _ _ DR) as [SG RG].
  pose proof (bound_define n (csym st)) as HBd. rewrite <- S' in HBd.
  split; [split; assumption|]. split; [exact F3|]. split; [exact HBd|].
  exists (solid (ops ++ [(setop y, sidx y)])), newc, [].
  split; [exact A|]. split; [rewrite strip_solid; exact C|]. split; [exact K|].
  split; [cbn [map]; rewrite app_nil_r; exact B'|]. split; [intros p []|].
  split; [intros lc _; apply lok_solid, L; [apply top_lbw2, HT|intro X; congruence]|].
  intros nc gc Hnc Hgc.
  destruct (runs_bok nc gc _ (pcof st) 0 0 (R nc gc 0 Hnc (top_gbw st gc HT ltac:(lia)) ltac:(intros _; lia))) as [BK HH].
  split; [exact BK|]. rewrite HH. intros p ra [].
Qed.

Lemma top_has_gbw st : top_ok2 st -> has_gbw (csym st).
Proof. intro HT. exists (index (cur (csym st))). apply top_gbw; [exact HT|lia]. Qed.

(* a top-level for loop WITH a loop variable: the variable is a global (see
   finding vm-loopvar-global) *)
Lemma tl_loop rop S n b st s3 st' : range_op rop S -> slist_ctl b -> PREFIX S st s3 ->
  for_loop true (Some n) rop (Z.of_N S) b s3 = COk st' -> top_ok2 st -> TL st st'.
Proof.
  intros HRO HB (S3 & B3 & ops & newc & A & C & K & L & R) HC HT. pose proof HT as (HO & HI).
  rewrite for_loop_body in HC. destruct (for_declare true (Some n) s3) as [sa|] eqn:ED; [|discriminate]. cbn [bind] in HC.
  destruct (for_declare_piece (Some n) s3 sa ED) as (pro & Esa & Ap & Lp & Rp). rewrite S3 in Esa, Lp, Rp. cbn [for_sym] in Esa, Lp, Rp.
  set (sym' := fst (st_define n (csym st))) in *.
  destruct (define_frame n (csym st)) as (F1 & F2 & F3). fold sym' in F1, F2, F3.
  assert (HO' : outers sym' = []) by congruence.
  assert (HT1 : top_ok2 sa) by (rewrite Esa; split; [exact HO'|apply inv_define; exact HI]).
  destruct (for_range_ok rop S (Some n) b sa st' HRO HB HC (proj2 HT1) (top_has_gbw _ HT1))
    as (S2 & B2 & new & newc2 & A2 & C2 & K2 & L2 & D2).
  assert (Ssa : csym sa = sym') by (rewrite Esa; reflexivity). rewrite Ssa in S2.
  destruct (sx_top _ _ S2 HO') as [_ EI].
  pose proof (bound_define n (csym st)) as HBd'. fold sym' in HBd'.
  assert (Aop : AOK (solid (ops ++ pro))) by (unfold solid; rewrite map_app; apply aok_app; assumption).
  assert (Csa : ccode sa = ccode st ++ encode (ops ++ pro)) by (rewrite Esa; cbn [ccode]; rewrite C, encode_app, app_assoc; reflexivity).
  pose proof (pcof_app st sa (solid (ops ++ pro))) as HP. rewrite strip_solid in HP. specialize (HP Csa Aop).
  split; [split; [rewrite (sx_out _ _ S2); exact HO'|apply (sx_inv _ _ S2), inv_define, HI]|].
  split; [lia|]. split; [pose proof (sx_bound _ _ S2); lia|].
  exists (solid (ops ++ pro) ++ new), (newc ++ newc2), [].
  split; [apply aok_app; assumption|].
  split; [rewrite C2, Csa, encode_strip_app, strip_solid, app_assoc; reflexivity|].
  split; [rewrite K2, Esa; cbn [cconsts]; rewrite K, app_assoc; reflexivity|].
  split; [cbn [map]; rewrite app_nil_r, B2, Esa; exact B3|]. split; [intros p []|].
  split.
  { intros lc HLc. apply lok_app; [|apply L2; exact HLc]. apply lok_solid, Forall_app.
    split; [apply L, top_lbw2, HT|apply Lp; rewrite <- Ssa; apply top_lbw2, HT1]. }
  intros nc gc Hnc Hgc.
  assert (Hnc1 : N.of_nat (List.length (cconsts s3)) <= nc) by (rewrite K2, Esa, app_length in Hnc; cbn [cconsts] in Hnc; lia).
  assert (HG : gbw (csym st) gc) by (apply top_gbw; [exact HT|lia]).
  assert (HG' : gbw (csym sa) gc) by (apply top_gbw; [exact HT1|rewrite Ssa; lia]).
  destruct (runs_bok nc gc (ops ++ pro) (pcof st) 0 (0 + S)) as [BK1 HH1].
  { eapply runs_app; [apply (R nc gc 0 Hnc1 HG)|apply Rp; rewrite <- Ssa; exact HG']. }
  destruct (D2 nc gc 0 Hnc HG') as [BK2 HH2]. rewrite HP in BK2, HH2.
  split.
  - eapply bok_app; [exact BK1|]. rewrite strip_solid. exact BK2.
  - intros p ra Hin. rewrite (holes_app nc gc _ new (pcof st) _ _ (proj1 BK1)), HH1, strip_solid, HH2 in Hin. destruct Hin.
Qed.

(* the program fragment: at top level, declarations and for loops with a loop
   variable define globals; everything else, and everything inside blocks, is
   the control-flow fragment cfrag (which has declarations and loop variables
   of its own: locals) *)
Definition pfrag_stmt2 (s : stmt) : bool := cfrag_stmt s.
Fixpoint pfrag2 (p : slist) : bool :=
  match p with SNil => true | SCons s t => pfrag_stmt2 s && pfrag2 t end.

Lemma pfrag2_TL p : forall st st', pfrag2 p = true -> compile_slist true p st = COk st' -> top_ok2 st -> TL st st'.
Proof.
  induction p as [|s t IH]; intros st st' HF HC HT.
  - simpl in HC. inversion HC; subst. apply TL_refl. exact HT.
  - cbn [pfrag2] in HF. apply andb_true_iff in HF. destruct HF as [F1 F2]. cbn [compile_slist] in HC.
    destruct (compile_stmt true s st) as [st1|] eqn:E1; [|discriminate]. cbn [bind] in HC.
    assert (X1 : TL st st1).
    { unfold pfrag_stmt2 in F1.
      assert (GEN : needs_scope s = false -> TL st st1).
      { intro NS. apply TL_of_CTL; [exact HT|].
        apply (proj1 ctl_all _ F1 st st1 E1 ltac:(intro X; congruence) (proj2 HT) (top_has_gbw st HT)). }
      destruct s; try (apply GEN; reflexivity).
      - apply (TL_of_decl n e st st1 F1 HT E1).
      - destruct lv as [n|]; [|apply GEN; reflexivity].
        cbn [cfrag_stmt] in F1. rewrite !andb_true_iff in F1. destruct F1 as [[[G1 G2] G3] G4].
        destruct (forstep_prefix _ start stop step b st st1 G1 G2 G3 (top_has_gbw st HT) E1) as (s3 & HP & HC3).
        apply (tl_loop StepRange 3 n b st s3 st1 (or_introl (conj eq_refl eq_refl)) (proj1 (proj2 ctl_all) b G4) HP HC3 HT).
      - destruct lv as [n|]; [|apply GEN; reflexivity].
        destruct (cfrag_foriter _ _ _ _ F1) as (Ht & G1 & G2).
        destruct (foriter_prefix _ t0 e b st st1 Ht G1 (top_has_gbw st HT) E1) as (s2 & HP & HC2).
        apply (tl_loop IterRange 2 n b st s2 st1 (or_intror (conj eq_refl eq_refl)) (proj1 (proj2 ctl_all) b G2) HP HC2 HT). }
    apply (TL_trans st st1 st' X1). apply (IH st1 st' F2 HC). apply X1.
Qed.

(* the end of a program: no open scope, so the bound is LocalCount *)
Lemma TL_WF st : TL cinit st -> cbreaks st = [] ->
  WF {| bcode := out_code (bytecode_of st); nconsts := N.of_nat (List.length (out_consts (bytecode_of st)));
        gcount := out_gcount (bytecode_of st); lcount := out_lcount (bytecode_of st) |}.
Proof.
  intros ((T1 & T2) & _ & _ & new & newc & newb & A & C & K & B & H & L & D) HB.
  simpl in C, K, B. rewrite HB in B. assert (newb = []) by (destruct newb; [reflexivity|discriminate]). subst newb.
  unfold bytecode_of. cbn [out_code out_consts out_gcount out_lcount]. unfold st_local_count, st_global_count.
  rewrite C.
  destruct (D (N.of_nat (List.length (cconsts st))) (index (cur (csym st))) (N.le_refl _) (N.le_refl _)) as [BK HL].
  change (pcof cinit) with 0 in BK, HL.
  apply bok_WF; [exact BK| |apply L; rewrite (bound_top _ T1); lia].
  destruct (holes _ _ new 0 (AH 0)) as [|[q ra] r] eqn:EH; [reflexivity|].
  exfalso. apply (HL q ra). left. reflexivity.
Qed.

Lemma top_ok2_init : top_ok2 cinit.
Proof. split; [reflexivity|apply inv_new]. Qed.

(* compile_wf: declarations and for loops with a loop variable at top level
   (globals) and inside blocks (locals), assignments to globals and locals,
   if / else-if / else, while, break, for over step ranges and iterables
   without loop variable — nested arbitrarily.  If the compiler succeeds (and
   no break is left outside a loop, which the parser guarantees), its output
   satisfies WF; in particular every OpGetLocal / OpSetLocal operand is below
   the LocalCount of the emitted program (SymTabProofs.bound along the
   compilation).  No size guard: out-of-range operands and jump targets are
   compile errors at HEAD. *)
Theorem compile_wf_ctl2 : forall (p : slist) (st : cstate),
  pfrag2 p = true -> compile p = COk st -> cbreaks st = [] ->
  WF {| bcode := out_code (bytecode_of st); nconsts := N.of_nat (List.length (out_consts (bytecode_of st)));
        gcount := out_gcount (bytecode_of st); lcount := out_lcount (bytecode_of st) |}.
Proof.
  intros p st HF HC HB. unfold compile, compile_program in HC.
  apply TL_WF; [|exact HB]. apply (pfrag2_TL p cinit st HF HC top_ok2_init).
Qed.

(* what WF says about the local accesses, spelled out: every OpGetLocal /
   OpSetLocal of the emitted code addresses a slot below LocalCount *)
Theorem compile_local_operands : forall (p : slist) (st : cstate),
  pfrag2 p = true -> compile p = COk st -> cbreaks st = [] ->
  forall instrs pc i, decode_all (ccode st) = Some instrs -> In (pc, i) instrs ->
    (opc_of_N (iop i) = Some GetLocal \/ opc_of_N (iop i) = Some SetLocal) ->
    arg0 i < st_local_count (csym st).
Proof.
  intros p st HF HC HB instrs pc i HD HI HO.
  destruct (compile_wf_ctl2 p st HF HC HB) as (instrs' & h & D & O & _).
  unfold bytecode_of in D, O. cbn [bcode out_code] in D. rewrite HD in D. inversion D; subst instrs'.
  destruct (O pc i HI) as [OK _]. unfold operand_ok in OK. cbn [lcount out_lcount] in OK.
  destruct HO as [E|E]; rewrite E in OK; apply N.ltb_lt in OK; exact OK.
Qed.

(* every statement of the fragment, compiled inside a block, keeps the
   symbol-table invariant (hence: names visible at the same time have
   different slots, visible_no_sharing), leaves the enclosing scopes alone and
   never lowers the bound that becomes LocalCount *)
Theorem compile_stmt_table : forall s st st',
  cfrag_stmt s = true -> compile_stmt true s st = COk st' ->
  outers (csym st) <> [] -> Inv (csym st) -> has_gbw (csym st) ->
  Inv (csym st') /\ outers (csym st') = outers (csym st) /\ bound (csym st) <= bound (csym st').
Proof.
  intros s st st' HF HC HO HI HGB.
  destruct (proj1 ctl_all s HF st st' HC (fun _ => HO) HI HGB) as [S _].
  split; [apply (sx_inv _ _ S HI)|]. split; [apply (sx_out _ _ S)|apply (sx_bound _ _ S)].
Qed.
