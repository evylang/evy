(* CompileHoleProofs.v — instruction lists with HOLES (jumps whose operand is
   still the placeholder and will be patched later), the compositional
   judgment BOK on them, and the lemmas the compiler proof needs: sequencing,
   straight-line pieces, filling holes. *)
From Coq Require Import ZArith NArith List Bool Lia ZifyBool ZifyNat ZifyN Floats.
From EvyV Require Import Base Bytecode BytecodeProofs SymTab SymTabProofs Vm VmProofs Compile CompileSem CompileProofs CompileWfProofs CompileJumpProofs.
Require Import EvyV.Gen.Opcodes.
Import ListNotations.
Open Scope N_scope.

(* (true, x): a hole — a jump emitted with the placeholder operand *)
Definition hop := (bool * sop)%type.
Definition strip (ops : list hop) : list sop := map snd ops.

Definition is_jump (o : opc) : bool := match o with Jump | JumpOnFalse => true | _ => false end.

(* target obligations of the non-hole jumps; holes owe nothing yet *)
Fixpoint htgt (nc gc : N) (A : list (N * ast)) (E : N) (aend : ast) (ops : list hop) (a : ast) : Prop :=
  match ops with
  | [] => True
  | (h, x) :: t =>
      (if h then True else
         match jop_req x a with
         | Some (T, ra) => (T = E /\ ra = aend) \/ In (T, ra) A
         | None => True
         end) /\
      match jop_step nc gc x a with
      | Some a' => htgt nc gc A E aend t a'
      | None => True
      end
  end.

(* the holes: position and the state their jump will require at its target *)
Fixpoint holes (nc gc : N) (ops : list hop) (pc : N) (a : ast) : list (N * ast) :=
  match ops with
  | [] => []
  | (h, x) :: t =>
      (if h then match jop_req x a with Some (_, ra) => [(pc, ra)] | None => [] end else []) ++
      match jop_step nc gc x a with
      | Some a' => holes nc gc t (pc + ilen_of x) a'
      | None => []
      end
  end.

Definition BOK (nc gc : N) (ops : list hop) (pc0 : N) (a0 aend : ast) : Prop :=
  jruns nc gc (strip ops) a0 = Some aend /\
  htgt nc gc (jannot nc gc (strip ops) pc0 a0) (pc0 + total_len (strip ops)) aend ops a0.

Lemma total_len_app a b : total_len (a ++ b) = total_len a + total_len b.
Proof. unfold total_len. induction a as [|x t IH]; simpl; [reflexivity|]. rewrite IH. lia. Qed.

Lemma jannot_app nc gc a : forall b pc s s1, jruns nc gc a s = Some s1 ->
  jannot nc gc (a ++ b) pc s = jannot nc gc a pc s ++ jannot nc gc b (pc + total_len a) s1.
Proof.
  induction a as [|x t IH]; simpl; intros b pc s s1 H.
  - inversion H; subst. unfold total_len. simpl. rewrite N.add_0_r. reflexivity.
  - destruct (jop_step nc gc x s) as [s'|]; [|discriminate].
    rewrite (IH b _ _ _ H). unfold total_len. simpl. f_equal. f_equal. f_equal. lia.
Qed.

Lemma strip_app a b : strip (a ++ b) = strip a ++ strip b.
Proof. apply map_app. Qed.

Lemma htgt_weaken nc gc A E aend A' E' aend' ops : forall a,
  htgt nc gc A E aend ops a ->
  (forall T ra, (T = E /\ ra = aend) \/ In (T, ra) A -> (T = E' /\ ra = aend') \/ In (T, ra) A') ->
  htgt nc gc A' E' aend' ops a.
Proof.
  induction ops as [|[h x] t IH]; simpl; intros a H HW; [exact I|].
  destruct H as [H0 H1]. split.
  - destruct h; [exact I|]. destruct (jop_req x a) as [[T ra]|]; [apply HW; exact H0|exact I].
  - destruct (jop_step nc gc x a); [apply IH; auto|exact I].
Qed.

Lemma htgt_app nc gc A E aend a : forall b s s1, jruns nc gc (strip a) s = Some s1 ->
  htgt nc gc A E aend (a ++ b) s <-> htgt nc gc A E aend a s /\ htgt nc gc A E aend b s1.
Proof.
  induction a as [|[h x] t IH]; simpl; intros b s s1 H.
  - inversion H; subst. tauto.
  - destruct (jop_step nc gc x s) as [s'|]; [|discriminate]. rewrite (IH b s' s1 H). tauto.
Qed.

Lemma holes_app nc gc a : forall b pc s s1, jruns nc gc (strip a) s = Some s1 ->
  holes nc gc (a ++ b) pc s = holes nc gc a pc s ++ holes nc gc b (pc + total_len (strip a)) s1.
Proof.
  induction a as [|[h x] t IH]; simpl; intros b pc s s1 H.
  - inversion H; subst. unfold total_len. simpl. rewrite N.add_0_r. reflexivity.
  - destruct (jop_step nc gc x s) as [s'|]; [|discriminate].
    rewrite (IH b _ _ _ H), <- app_assoc. unfold total_len. simpl. do 3 f_equal. lia.
Qed.

Lemma jannot_head nc gc ops pc a : ops <> [] -> In (pc, a) (jannot nc gc ops pc a).
Proof. destruct ops; [congruence|]. intros _. simpl. left. reflexivity. Qed.

Lemma bok_app nc gc a b pc0 s0 s1 s2 :
  BOK nc gc a pc0 s0 s1 -> BOK nc gc b (pc0 + total_len (strip a)) s1 s2 ->
  BOK nc gc (a ++ b) pc0 s0 s2.
Proof.
  intros [Ra Ta] [Rb Tb]. unfold BOK. rewrite strip_app, total_len_app.
  split; [eapply jruns_app; eauto|].
  rewrite (jannot_app nc gc (strip a) (strip b) pc0 s0 s1 Ra).
  apply (htgt_app nc gc _ _ _ a b s0 s1 Ra). split.
  - eapply htgt_weaken; [exact Ta|]. intros T ra [[E1 E2]|HI].
    + destruct (strip b) as [|y t] eqn:EB.
      * simpl in Rb. inversion Rb; subst s2. left. split; [rewrite E1; unfold total_len; simpl; lia|exact E2].
      * right. apply in_or_app. right. subst T ra. apply jannot_head. discriminate.
    + right. apply in_or_app. left. exact HI.
  - eapply htgt_weaken; [exact Tb|]. intros T ra [[E1 E2]|HI].
    + left. split; [lia|exact E2].
    + right. apply in_or_app. right. exact HI.
Qed.

Definition solid (ops : list sop) : list hop := map (fun x => (false, x)) ops.

Lemma strip_solid ops : strip (solid ops) = ops.
Proof. unfold strip, solid. rewrite map_map. simpl. apply map_id. Qed.

Lemma sop_ok_jop nc gc x k k' : sop_ok nc gc x k = Some k' ->
  jop_step nc gc x (AH k) = Some (AH k') /\ jop_req x (AH k) = None.
Proof.
  intro H. destruct (sop_ok_sl _ _ _ _ _ H) as [SL LT]. destruct x as [o arg]. cbn [fst snd] in SL, LT.
  apply N.ltb_lt in LT. unfold jop_step, jop_req. cbn [fst snd]. rewrite LT. cbn [negb].
  destruct o; try discriminate SL; rewrite H; split; reflexivity.
Qed.

Lemma runs_bok nc gc ops : forall pc0 k k', runs nc gc ops k = Some k' ->
  BOK nc gc (solid ops) pc0 (AH k) (AH k') /\ holes nc gc (solid ops) pc0 (AH k) = [].
Proof.
  unfold BOK. intros pc0 k k' H. rewrite strip_solid.
  generalize (jannot nc gc ops pc0 (AH k)) as A. generalize (pc0 + total_len ops) as E.
  revert pc0 k H. induction ops as [|x t IH]; simpl; intros pc0 k H E A.
  - inversion H; subst. repeat split.
  - destruct (sop_ok nc gc x k) as [k1|] eqn:ES; [|discriminate].
    destruct (sop_ok_jop _ _ _ _ _ ES) as [J1 J2]. rewrite J1, J2.
    destruct (IH (pc0 + ilen_of x) k1 H E A) as [[R T] HH]. repeat split; auto.
Qed.

(* the step of a jump does not look at its target *)
Lemma jop_step_retarget nc gc o arg T a : is_jump o = true -> arg < 65536 -> T < 65536 ->
  jop_step nc gc (o, T) a = jop_step nc gc (o, arg) a.
Proof.
  intros HJ HA HT. unfold jop_step. cbn [fst snd].
  destruct (arg <? 65536) eqn:E1; [|apply N.ltb_ge in E1; lia].
  destruct (T <? 65536) eqn:E2; [|apply N.ltb_ge in E2; lia]. cbn [negb].
  destruct o; try discriminate HJ; reflexivity.
Qed.

Lemma jump_step nc gc o T a : is_jump o = true -> T < 65536 ->
  forall a', jop_step nc gc (o, 0) a = Some a' -> jop_step nc gc (o, T) a = Some a'.
Proof. intros HJ HT a' H. rewrite (jop_step_retarget nc gc o 0 T a HJ) by lia. exact H. Qed.

Fixpoint fill (sel : list N) (T : N) (ops : list hop) (pc : N) : list hop :=
  match ops with
  | [] => []
  | (h, x) :: t =>
      (if h && is_jump (fst x) && existsb (N.eqb pc) sel then (false, (fst x, T)) else (h, x))
        :: fill sel T t (pc + ilen_of x)
  end.

(* when fill retargets the instruction at pc *)
Lemma fill_sel_iff h o pc sel :
  h && is_jump o && existsb (N.eqb pc) sel = true <-> h = true /\ is_jump o = true /\ In pc sel.
Proof.
  rewrite !andb_true_iff, existsb_exists. split.
  - intros [[Hh HJ] (q & Hq & Eq)]. apply N.eqb_eq in Eq. subst q. auto.
  - intros (Hh & HJ & Hin). repeat split; auto. exists pc. split; [exact Hin|apply N.eqb_refl].
Qed.

Lemma fill_frame nc gc sel T : T < 65536 -> forall ops pc a aend,
  jruns nc gc (strip ops) a = Some aend ->
  jruns nc gc (strip (fill sel T ops pc)) a = Some aend /\
  (forall pc0, jannot nc gc (strip (fill sel T ops pc)) pc0 a = jannot nc gc (strip ops) pc0 a) /\
  total_len (strip (fill sel T ops pc)) = total_len (strip ops).
Proof.
  intros HT. induction ops as [|[h x] t IH]; intros pc a aend H; [simpl; auto|].
  cbn [strip map snd jruns] in H. destruct (jop_step nc gc x a) as [a1|] eqn:ES; [|discriminate].
  destruct (IH (pc + ilen_of x) a1 aend H) as (R & An & TL).
  cbn [fill]. destruct (h && is_jump (fst x) && existsb (N.eqb pc) sel) eqn:EC.
  - apply fill_sel_iff in EC. destruct EC as (_ & HJ & _).
    destruct x as [o arg]. cbn [fst snd] in *. cbn [strip map snd jruns jannot].
    rewrite (jop_step_retarget nc gc o arg T a HJ (jop_step_arg _ _ _ _ _ ES) HT), ES.
    split; [exact R|]. split.
    + intro pc0. fold (strip (fill sel T t (pc + ilen_of (o, arg)))). change (ilen_of (o, T)) with (ilen_of (o, arg)). rewrite An. reflexivity.
    + unfold total_len in *. cbn [fold_right]. change (ilen_of (o, T)) with (ilen_of (o, arg)). f_equal. exact TL.
  - cbn [strip map snd jruns jannot]. rewrite ES. split; [exact R|]. split.
    + intro pc0. fold (strip (fill sel T t (pc + ilen_of x))). rewrite An. reflexivity.
    + unfold total_len in *. cbn [fold_right]. f_equal. exact TL.
Qed.

Lemma jop_req_retarget o arg T a : is_jump o = true ->
  jop_req (o, T) a = option_map (fun tr => (T, snd tr)) (jop_req (o, arg) a).
Proof. intro HJ. unfold jop_req. cbn [fst snd]. destruct o; try discriminate HJ; destruct a; reflexivity. Qed.

(* filling: every hole selected must find its required state at T *)
Lemma htgt_fill nc gc A E aend sel T : T < 65536 -> forall ops pc a aend',
  jruns nc gc (strip ops) a = Some aend' ->
  htgt nc gc A E aend ops a ->
  (forall p ra, In (p, ra) (holes nc gc ops pc a) -> In p sel -> (T = E /\ ra = aend) \/ In (T, ra) A) ->
  htgt nc gc A E aend (fill sel T ops pc) a.
Proof.
  intros HT. induction ops as [|[h x] t IH]; simpl; intros pc a aend' HR H HH; [exact I|].
  destruct H as [H0 H1].
  destruct (jop_step nc gc x a) as [a1|] eqn:ES1; [|discriminate].
  destruct (h && is_jump (fst x) && existsb (N.eqb pc) sel) eqn:EC.
  - apply fill_sel_iff in EC. destruct EC as (-> & HJ & Hin).
    destruct x as [o arg]. cbn [fst snd] in *.
    assert (HA : arg < 65536) by (apply (jop_step_arg _ _ _ _ _ ES1)).
    rewrite (jop_step_retarget nc gc o arg T a HJ HA HT), ES1. split.
    + rewrite (jop_req_retarget o arg T a HJ). destruct (jop_req (o, arg) a) as [[T0 ra]|] eqn:EQ; [|exact I].
      simpl. apply (HH pc ra); [left; reflexivity|exact Hin].
    + eapply IH; [exact HR|exact H1|]. intros p ra Hp. apply HH. apply in_or_app. right. exact Hp.
  - rewrite ES1. split; [exact H0|].
    eapply IH; [exact HR|exact H1|]. intros p ra Hp. apply HH. apply in_or_app. right. exact Hp.
Qed.

(* the holes that remain after filling *)
Lemma holes_fill nc gc sel T : T < 65536 -> forall ops pc a aend',
  jruns nc gc (strip ops) a = Some aend' ->
  forall p ra, In (p, ra) (holes nc gc (fill sel T ops pc) pc a) ->
               In (p, ra) (holes nc gc ops pc a) /\ ~ In p sel.
Proof.
  intros HT. induction ops as [|[h x] t IH]; simpl; intros pc a aend' HR p ra Hin; [destruct Hin|].
  destruct (jop_step nc gc x a) as [a1|] eqn:ES1; [|discriminate].
  destruct (h && is_jump (fst x) && existsb (N.eqb pc) sel) eqn:EC.
  - apply fill_sel_iff in EC. destruct EC as (-> & HJ & _).
    destruct x as [o arg]. cbn [fst snd] in *.
    assert (HA : arg < 65536) by (apply (jop_step_arg _ _ _ _ _ ES1)).
    rewrite (jop_step_retarget nc gc o arg T a HJ HA HT), ES1 in Hin. simpl in Hin.
    destruct (IH _ _ _ HR _ _ Hin) as [I1 I2]. split; [apply in_or_app; right; exact I1|exact I2].
  - cbn [fst snd] in Hin. rewrite ES1 in Hin. apply in_app_or in Hin. destruct Hin as [Hin|Hin].
    + split; [apply in_or_app; left; exact Hin|].
      destruct h; [|destruct Hin]. destruct (jop_req x a) as [[T0 ra0]|] eqn:EQ; [|destruct Hin].
      destruct Hin as [Eq|[]]. inversion Eq; subst p ra0. intro HS.
      assert (HJ : is_jump (fst x) = true).
      { unfold jop_req in EQ. destruct (fst x); try discriminate EQ; reflexivity. }
      rewrite (proj2 (fill_sel_iff true (fst x) pc sel) (conj eq_refl (conj HJ HS))) in EC. discriminate EC.
    + destruct (IH _ _ _ HR _ _ Hin) as [I1 I2]. split; [apply in_or_app; right; exact I1|exact I2].
Qed.

Lemma bok_fill nc gc sel T ops pc0 a0 aend :
  T < 65536 -> BOK nc gc ops pc0 a0 aend ->
  (forall p ra, In (p, ra) (holes nc gc ops pc0 a0) -> In p sel ->
                (T = pc0 + total_len (strip ops) /\ ra = aend) \/ In (T, ra) (jannot nc gc (strip ops) pc0 a0)) ->
  BOK nc gc (fill sel T ops pc0) pc0 a0 aend.
Proof.
  intros HT [R Tg] HH. destruct (fill_frame nc gc sel T HT ops pc0 a0 aend R) as (R' & An & TL).
  unfold BOK. rewrite An, TL. split; [exact R'|]. eapply htgt_fill; eauto.
Qed.

Lemma htgt_closed nc gc A E aend : forall ops pc a,
  holes nc gc ops pc a = [] -> htgt nc gc A E aend ops a -> jtargets nc gc A E aend (strip ops) a.
Proof.
  induction ops as [|[h x] t IH]; simpl; intros pc a HH H; [exact I|].
  destruct H as [H0 H1]. apply app_eq_nil in HH. destruct HH as [HH0 HH1]. split.
  - destruct h; [|exact H0]. destruct (jop_req x a) as [[T ra]|]; [discriminate|exact I].
  - destruct (jop_step nc gc x a); [eapply IH; eauto|exact I].
Qed.

Theorem bok_WF : forall nc gc lc ops,
  BOK nc gc ops 0 (AH 0) (AH 0) -> holes nc gc ops 0 (AH 0) = [] -> Forall (lopk lc) (strip ops) ->
  WF {| bcode := encode (strip ops); nconsts := nc; gcount := gc; lcount := lc |}.
Proof.
  intros nc gc lc ops [R T] HH HL. apply ops_WF; [exact R| |exact HL].
  rewrite N.add_0_l in T. eapply htgt_closed; eauto.
Qed.

(* the local accesses of a list with holes; filling holes does not touch them *)
Definition LOK (lc : N) (ops : list hop) : Prop := Forall (lopk lc) (strip ops).

Lemma lok_nil lc : LOK lc [].
Proof. constructor. Qed.
Lemma lok_app lc a b : LOK lc a -> LOK lc b -> LOK lc (a ++ b).
Proof. unfold LOK. rewrite strip_app. intros. apply Forall_app. auto. Qed.
Lemma lok_solid lc ops : Forall (lopk lc) ops -> LOK lc (solid ops).
Proof. unfold LOK. rewrite strip_solid. auto. Qed.
Lemma lok_one lc h o a : is_local o = false -> LOK lc [(h, (o, a))].
Proof. intro H. constructor; [apply lopk_nonlocal; exact H|constructor]. Qed.
Lemma lok_cons lc h o a t : is_local o = false -> LOK lc t -> LOK lc ((h, (o, a)) :: t).
Proof. intros H HT. constructor; [apply lopk_nonlocal; exact H|exact HT]. Qed.
Lemma lok_mono lc lc' ops : lc <= lc' -> LOK lc ops -> LOK lc' ops.
Proof. intros HL H. unfold LOK in *. eapply Forall_impl; [|exact H]. intros x Hx Hl. specialize (Hx Hl). lia. Qed.

Lemma set_nth_patch (pre : list N) : forall a h l hi lo rest,
  set_nth (List.length pre + 2) lo (set_nth (List.length pre + 1) hi (pre ++ a :: h :: l :: rest)) =
  pre ++ a :: hi :: lo :: rest.
Proof.
  induction pre as [|y t IH]; intros; simpl; [reflexivity|]. f_equal. apply IH.
Qed.

(* p is the position of a hole (a flagged jump) of ops laid out from pc *)
Fixpoint hole_at (ops : list hop) (pc p : N) : Prop :=
  match ops with
  | [] => False
  | (h, x) :: t => (pc = p /\ h = true /\ is_jump (fst x) = true) \/ (pc < p /\ hole_at t (pc + ilen_of x) p)
  end.

Lemma fill_above sel T : forall ops pc, (forall q, In q sel -> q < pc) -> fill sel T ops pc = ops.
Proof.
  induction ops as [|[h x] t IH]; intros pc HS; [reflexivity|]. cbn [fill].
  assert (existsb (N.eqb pc) sel = false).
  { destruct (existsb (N.eqb pc) sel) eqn:E; [|reflexivity]. apply existsb_exists in E.
    destruct E as (q & Hq & Eq). apply N.eqb_eq in Eq. subst q. specialize (HS _ Hq). lia. }
  rewrite H, andb_false_r. f_equal. apply IH. intros q Hq. specialize (HS _ Hq). pose proof (ilen_pos x). lia.
Qed.

Lemma enc1_jump o arg : is_jump o = true -> arg < 65536 ->
  exists hi lo, put16 (Z.of_N arg) = [hi; lo] /\ enc1 (o, arg) = [N_of_opc o; hi; lo].
Proof.
  intros HJ HA. assert (HO : has_operand o = true) by (destruct o; try discriminate HJ; reflexivity).
  destruct (put16_read (Z.of_N arg)) as (hi & lo & EP & _); [lia|]. exists hi, lo. split; [exact EP|].
  unfold enc1. cbn [fst snd]. rewrite HO, make_put16, EP by first [exact HO|unfold fits16; lia]. reflexivity.
Qed.

Lemma enc1_len nc gc x a a' : jop_step nc gc x a = Some a' -> N.of_nat (List.length (enc1 x)) = ilen_of x.
Proof. intro H. apply (decode1_enc1' x [] (jop_step_arg _ _ _ _ _ H)). Qed.

(* filling one hole is what Instructions.changeOperand does to the bytes *)
Lemma encode_fill_one nc gc T p : T < 65536 -> forall ops pc a aend prefix,
  jruns nc gc (strip ops) a = Some aend -> hole_at ops pc p -> N.of_nat (List.length prefix) = pc ->
  change_operand_before_fix p (Z.of_N T) (prefix ++ encode (strip ops)) =
  prefix ++ encode (strip (fill [p] T ops pc)).
Proof.
  intros HT. induction ops as [|[h x] t IH]; intros pc a aend prefix HR HH HP; [destruct HH|].
  cbn [strip map snd jruns] in HR. destruct (jop_step nc gc x a) as [a1|] eqn:ES; [|discriminate].
  cbn [hole_at] in HH. destruct HH as [(E1 & E2 & HJ)|(HLt & HH)].
  - subst p h. cbn [fill]. rewrite HJ. cbn [existsb]. rewrite N.eqb_refl. cbn [andb orb].
    rewrite (fill_above [pc] T t (pc + ilen_of x)) by (intros q [<-|[]]; pose proof (ilen_pos x); lia).
    destruct x as [o arg]. cbn [fst snd] in *.
    destruct (enc1_jump o arg HJ (jop_step_arg _ _ _ _ _ ES)) as (h0 & l0 & _ & E0).
    destruct (enc1_jump o T HJ HT) as (hi & lo & EP & ET).
    cbn [strip map snd]. unfold encode. cbn [flat_map]. rewrite E0, ET.
    unfold change_operand_before_fix. rewrite EP.
    replace (N.to_nat pc) with (List.length prefix) by lia.
    cbn [app]. apply set_nth_patch.
  - cbn [fill]. assert (EX : existsb (N.eqb pc) [p] = false).
    { cbn [existsb]. destruct (pc =? p) eqn:E; [apply N.eqb_eq in E; lia|reflexivity]. }
    rewrite EX, andb_false_r. cbn [strip map snd]. unfold encode. cbn [flat_map]. fold (encode (strip t)).
    fold (encode (strip (fill [p] T t (pc + ilen_of x)))).
    rewrite !app_assoc. apply (IH (pc + ilen_of x) a1 aend (prefix ++ enc1 x) HR HH).
    rewrite app_length, Nat2N.inj_add, (enc1_len _ _ _ _ _ ES). lia.
Qed.

Lemma fill_cons p sel T : forall ops pc, fill (p :: sel) T ops pc = fill [p] T (fill sel T ops pc) pc.
Proof.
  induction ops as [|[h x] t IH]; intros pc; [reflexivity|]. cbn [fill existsb].
  destruct (h && is_jump (fst x)) eqn:EJ.
  - destruct (existsb (N.eqb pc) sel) eqn:ES.
    + rewrite orb_true_r. cbn [andb fst snd]. f_equal. apply IH.
    + rewrite orb_false_r. cbn [andb]. rewrite EJ. cbn [andb]. destruct (pc =? p); cbn [orb]; f_equal; apply IH.
  - cbn [andb]. rewrite EJ. cbn [andb]. f_equal. apply IH.
Qed.

Lemma hole_at_fill q T : forall ops pc p, p <> q -> hole_at ops pc p -> hole_at (fill [q] T ops pc) pc p.
Proof.
  induction ops as [|[h x] t IH]; intros pc p NE HH; [destruct HH|]. cbn [fill hole_at] in *.
  destruct HH as [(E1 & E2 & HJ)|(HLt & HH)].
  - subst pc h. cbn [existsb]. destruct (p =? q) eqn:E; [apply N.eqb_eq in E; congruence|].
    cbn [orb]. rewrite andb_false_r. left. auto.
  - destruct (h && is_jump (fst x) && existsb (N.eqb pc) [q]); cbn [fst snd]; right; split; auto;
      destruct x; apply IH; auto.
Qed.

Lemma lok_fill lc sel T : forall ops pc, LOK lc ops -> LOK lc (fill sel T ops pc).
Proof.
  unfold LOK. induction ops as [|[h x] t IH]; intros pc H; [constructor|]. cbn [fill].
  cbn [strip map snd] in H. inversion H; subst.
  destruct (h && is_jump (fst x) && existsb (N.eqb pc) sel) eqn:EC.
  - apply fill_sel_iff in EC. destruct EC as (_ & HJ & _).
    cbn [strip map snd]. constructor; [|apply IH; assumption].
    apply lopk_nonlocal. destruct (fst x); try discriminate HJ; reflexivity.
  - cbn [strip map snd]. constructor; [assumption|apply IH; assumption].
Qed.
