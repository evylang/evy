(* CompileInitProofs.v — the compile side of definite initialisation of local
   slots: every OpGetLocal the compiler emits reads a slot that an OpSetLocal
   has written on every path.  The certificate is one number per instruction:
   the count of live locals in the compiler's symbol table when the
   instruction was emitted (live locals occupy the slots 0 .. k-1).  A
   declaration compiles its initialiser BEFORE it defines its symbol, so the
   initialiser's reads are below the old count, and the OpSetLocal of the
   declaration raises the count by exactly the slot it writes. *)
From Coq Require Import ZArith NArith List Bool Lia ZifyBool ZifyNat ZifyN Floats.
From EvyV Require Import Base Bytecode BytecodeProofs SymTab SymTabProofs Vm VmProofs Compile CompileSem CompileProofs
     CompileWfProofs CompileStmtProofs CompileJumpProofs CompileHoleProofs CompileSymProofs CompileCtlProofs CompileSemProofs
     CompileLocProofs CompileCoverProofs LocalInit LocalInitProofs.
Require Import EvyV.Gen.Opcodes.
Import ListNotations.
Open Scope N_scope.

Definition kof (s : symtab) : N := match outers s with [] => 0 | _ :: _ => index (cur s) end.

Lemma kof_push s : kof (st_push s) = kof s.
Proof. unfold kof, st_push. cbn [outers cur index]. destruct (outers s); reflexivity. Qed.

Lemma chain_local_below ts : chain_ok ts -> forall n y, resolve_in n ts = Some y -> sscp y = LocalScope ->
  match ts with t :: _ :: _ => sidx y < index t | _ => False end.
Proof.
  induction ts as [|t tl IH]; [simpl; tauto|]. intros HC n y HR HS.
  destruct tl as [|o r].
  - simpl in HC. destruct HC as (_ & B & _). cbn [resolve_in] in HR.
    destruct (slookup n (store t)) as [z|] eqn:E; [|discriminate]. inversion HR; subst z.
    destruct (B n y E) as (_ & S & _). congruence.
  - apply chain_ok_cons in HC; [|discriminate]. destruct HC as [(A & B & _) HC2].
    cbn [resolve_in] in HR. destruct (slookup n (store t)) as [z|] eqn:E.
    + inversion HR; subst z. destruct (B n y E) as (_ & _ & R). lia.
    + specialize (IH HC2 n y HR HS). destruct r as [|o2 r2]; [contradiction|]. cbn [base_of] in A. lia.
Qed.

Lemma kof_resolve s n y : Inv s -> st_resolve n s = Some y -> sscp y = LocalScope -> sidx y < kof s.
Proof.
  intros HI HR HS. unfold Inv in HI. unfold st_resolve in HR.
  pose proof (chain_local_below _ HI n y HR HS) as X. unfold kof. destruct (outers s); [contradiction|exact X].
Qed.

Lemma lbw_kof s : Inv s -> lbw s (kof s).
Proof. intros HI n y HR HS. apply (kof_resolve s n y HI HR HS). Qed.

Lemma kof_pop s : Inv s -> kof (st_pop s) <= kof s.
Proof.
  intro HI. unfold kof, st_pop. destruct (outers s) as [|o r] eqn:E; [rewrite E; lia|]. cbn [outers cur index].
  destruct r as [|o2 r2]; [lia|]. unfold Inv in HI. rewrite E in HI.
  apply chain_ok_cons in HI; [|discriminate]. destruct HI as [(A & _) _]. cbn [base_of] in A. exact A.
Qed.

Lemma kof_pop_push s sb : outers sb = cur s :: outers s -> kof (st_pop sb) = kof s.
Proof. intro E. unfold kof, st_pop. rewrite E. cbn [outers cur index]. destruct (outers s); reflexivity. Qed.

Definition kout (o : opc) (a k : N) : N :=
  match o with SetLocal => if a =? k then k + 1 else k | _ => k end.
Lemma kout_ge o a k : k <= kout o a k.
Proof. unfold kout. destruct o; try lia. destruct (a =? k); lia. Qed.

Lemma kof_define n s : Inv s ->
  kof (fst (st_define n s)) <= kout (setop (snd (st_define n s))) (sidx (snd (st_define n s))) (kof s).
Proof.
  intro HI. unfold st_define. destruct (slookup n (store (cur s))) as [y|] eqn:E; cbn [fst snd].
  - apply kout_ge.
  - unfold kof. cbn [outers cur index]. destruct (outers s) as [|o r]; [lia|].
    unfold setop. cbn [sscp sidx kout]. rewrite N.eqb_refl. lia.
Qed.

Lemma kof_define_mono n s : kof s <= kof (fst (st_define n s)).
Proof.
  unfold st_define. destruct (slookup n (store (cur s))); cbn [fst]; [lia|].
  unfold kof. cbn [outers cur index]. destruct (outers s); lia.
Qed.

(* the condition on the instruction at pc when the slots below k are written *)
Definition ICOND (code : list N) (pc k : N) (OK : N -> N -> Prop) : Prop :=
  exists i rest o, decode1 (skipn (N.to_nat pc) code) = Some (i, rest) /\ opc_of_N (iop i) = Some o /\
    (o = GetLocal -> arg0 i < k) /\
    forall t, In t (lsuccs pc i) -> OK t (kout o (arg0 i) k).

Lemma icond_mono code pc k (OK OK' : N -> N -> Prop) :
  (forall t kk, OK t kk -> OK' t kk) -> ICOND code pc k OK -> ICOND code pc k OK'.
Proof. intros H (i & rest & o & A & B & C & D). exists i, rest, o. repeat split; auto. Qed.

Definition LINITK (code : list N) (K : N -> N -> Prop) : Prop :=
  let cl := N.of_nat (List.length code) in
  (code <> [] -> K 0 0) /\
  forall pc k, K pc k -> pc < cl -> ICOND code pc k (fun t kk => t = cl \/ exists k', K t k' /\ k' <= kk).

(* soundness against the VM model: no WF needed, the judgment itself says
   that every point it annotates decodes *)
Theorem linitk_safe : forall (p : program) K, LINITK (pcode p) K ->
  forall s w, reach_w p s w ->
  forall i, fetch p s = Some i -> ip s < N.of_nat (List.length (pcode p)) ->
            opc_of_N (iop i) = Some GetLocal -> In (arg0 i) w.
Proof.
  intros p K [K0 KS] s w HR.
  set (cl := N.of_nat (List.length (pcode p))) in *.
  assert (INV : ip s = cl \/ exists k, K (ip s) k /\ forall a, a < k -> In a w).
  { induction HR as [|s w s' HR IH Hstep|s w s' HR IH HP].
    - destruct (pcode p) as [|b t] eqn:EC.
      + left. reflexivity.
      + right. exists 0. split; [apply K0; discriminate|intros a Ha; lia].
    - destruct IH as [IH|(k & HK & HW)].
      + exfalso. rewrite vm_step_end in Hstep by (rewrite IH; apply N.le_refl). discriminate.
      + assert (Hlt : ip s < cl).
        { destruct (N.lt_ge_cases (ip s) cl) as [L|L]; [exact L|]. exfalso.
          rewrite (vm_step_end p s L) in Hstep. discriminate. }
        destruct (KS _ _ HK Hlt) as (i & rest & o & HD1 & Ho & _ & HSu).
        assert (Hf : fetch p s = Some i) by (unfold fetch; rewrite HD1; reflexivity).
        pose proof (step_lsuccs p s s' i rest o HD1 Ho Hstep) as Hin.
        destruct (HSu _ Hin) as [E|(k' & HK' & Hle)]; [left; exact E|].
        right. exists k'. split; [exact HK'|]. intros a Ha. unfold wstep. rewrite Hf. unfold lout. rewrite Ho.
        unfold kout in Hle. destruct o; try (apply HW; lia).
        destruct (arg0 i =? k) eqn:EA.
        * apply N.eqb_eq in EA. destruct (N.eq_dec a k) as [->|NE]; [left; exact EA|right; apply HW; lia].
        * right. apply HW. lia.
    - destruct HP as (Hip & _). rewrite Hip. exact IH. }
  intros i Hf Hlt HO. destruct INV as [E|(k & HK & HW)]; [lia|].
  destruct (KS _ _ HK Hlt) as (i' & rest & o & HD1 & Ho & HG & _).
  unfold fetch in Hf. rewrite HD1 in Hf. simpl in Hf. inversion Hf; subst i'.
  rewrite HO in Ho. inversion Ho; subst o. apply HW. apply HG. reflexivity.
Qed.

(* Ks annotates the instructions of code[lo, lo+len); kin at the entry; an
   instruction may leave through the end of the segment (needs kex) or jump
   somewhere else (obligation J) *)
Definition SEGOK (code : list N) (Ks : N -> N -> Prop) (lo len kin kex : N) (J : N -> N -> Prop) : Prop :=
  (forall pc k, Ks pc k -> lo <= pc < lo + len) /\
  (len <> 0 -> Ks lo kin) /\
  forall pc k, Ks pc k ->
    ICOND code pc k (fun t kk => (exists k', Ks t k' /\ k' <= kk) \/ (t = lo + len /\ kex <= kk) \/ J t kk).

Definition KNONE : N -> N -> Prop := fun _ _ => False.
Definition KOR (A B : N -> N -> Prop) : N -> N -> Prop := fun pc k => A pc k \/ B pc k.

Lemma seg_nil code lo k J : SEGOK code KNONE lo 0 k k J.
Proof. split; [intros pc k0 []|]. split; [congruence|intros pc k0 []]. Qed.

Lemma seg_weaken code Ks lo len kin kex kex' (J J' : N -> N -> Prop) :
  kex' <= kex -> (forall t kk, J t kk -> J' t kk) ->
  SEGOK code Ks lo len kin kex J -> SEGOK code Ks lo len kin kex' J'.
Proof.
  intros HK HJ (R1 & R2 & R3). split; [exact R1|]. split; [exact R2|].
  intros pc k H. eapply icond_mono; [|apply (R3 pc k H)]. cbn beta.
  intros t kk [X|[[E L]|X]]; [left; exact X|right; left; split; [exact E|lia]|right; right; apply HJ; exact X].
Qed.

(* discharge jump obligations that land inside the segment or at its end *)
Lemma seg_resolve code Ks lo len kin kex (J J' : N -> N -> Prop) :
  SEGOK code Ks lo len kin kex J ->
  (forall t kk, J t kk -> (exists k', Ks t k' /\ k' <= kk) \/ (t = lo + len /\ kex <= kk) \/ J' t kk) ->
  SEGOK code Ks lo len kin kex J'.
Proof.
  intros (R1 & R2 & R3) HJ. split; [exact R1|]. split; [exact R2|].
  intros pc k H. eapply icond_mono; [|apply (R3 pc k H)]. cbn beta.
  intros t kk [X|[X|X]]; [left; exact X|right; left; exact X|apply HJ; exact X].
Qed.

Lemma seg_seq code K1 K2 lo len1 len2 kin kmid kex J :
  SEGOK code K1 lo len1 kin kmid J -> SEGOK code K2 (lo + len1) len2 kmid kex J ->
  (len1 = 0 -> kmid = kin) -> (len2 = 0 -> kex <= kmid) ->
  SEGOK code (KOR K1 K2) lo (len1 + len2) kin kex J.
Proof.
  intros (A1 & A2 & A3) (B1 & B2 & B3) E1 E2. split; [|split].
  - intros pc k [H|H]; [apply A1 in H|apply B1 in H]; lia.
  - intro NE. destruct (N.eq_dec len1 0) as [Z|NZ].
    + right. rewrite Z, N.add_0_r in B2. rewrite <- (E1 Z). apply B2. lia.
    + left. apply A2. exact NZ.
  - intros pc k [H|H].
    + eapply icond_mono; [|apply (A3 pc k H)]. cbn beta.
      intros t kk [(k' & X & L)|[[E L]|X]].
      * left. exists k'. split; [left; exact X|exact L].
      * destruct (N.eq_dec len2 0) as [Z|NZ].
        -- right. left. split; [lia|]. specialize (E2 Z). lia.
        -- left. exists kmid. split; [right; rewrite E; apply B2; exact NZ|exact L].
      * right. right. exact X.
    + eapply icond_mono; [|apply (B3 pc k H)]. cbn beta.
      intros t kk [(k' & X & L)|[[E L]|X]].
      * left. exists k'. split; [right; exact X|exact L].
      * right. left. split; [lia|exact L].
      * right. right. exact X.
Qed.

Lemma nlen0 {A} (l : list A) : N.of_nat (List.length l) = 0 -> l = [].
Proof. destruct l; [reflexivity|simpl; lia]. Qed.

(* seg_seq with the positions given by lists: the second piece starts where the first ends *)
Lemma seg_seq_l code K1 K2 (pre seg1 seg2 : list N) kin kmid kex J :
  SEGOK code K1 (N.of_nat (List.length pre)) (N.of_nat (List.length seg1)) kin kmid J ->
  SEGOK code K2 (N.of_nat (List.length (pre ++ seg1))) (N.of_nat (List.length seg2)) kmid kex J ->
  (seg1 = [] -> kmid = kin) -> (seg2 = [] -> kex <= kmid) ->
  SEGOK code (KOR K1 K2) (N.of_nat (List.length pre)) (N.of_nat (List.length (seg1 ++ seg2))) kin kex J.
Proof.
  intros S1 S2 E1 E2. rewrite (app_length seg1), Nat2N.inj_add. rewrite app_length, Nat2N.inj_add in S2.
  apply (seg_seq code K1 K2 _ _ _ kin kmid kex J S1 S2); intro Z; apply nlen0 in Z; auto.
Qed.

Definition KPT (lo kin : N) : N -> N -> Prop := fun pc k => pc = lo /\ k = kin.

Lemma seg_instr code lo kin kex (J : N -> N -> Prop) i rest o :
  decode1 (skipn (N.to_nat lo) code) = Some (i, rest) -> opc_of_N (iop i) = Some o ->
  (o = GetLocal -> arg0 i < kin) ->
  (forall t, In t (lsuccs lo i) -> (t = lo + ilen i /\ kex <= kout o (arg0 i) kin) \/ J t (kout o (arg0 i) kin)) ->
  SEGOK code (KPT lo kin) lo (ilen i) kin kex J.
Proof.
  intros HD Ho HG HS. pose proof (decode1_opc _ _ _ _ HD Ho) as [Hlen _].
  split; [|split].
  - intros pc k [-> ->]. destruct (has_operand o); lia.
  - intros _. split; reflexivity.
  - intros pc k [-> ->]. exists i, rest, o. split; [exact HD|]. split; [exact Ho|]. split; [exact HG|].
    intros t Ht. destruct (HS t Ht) as [X|X]; [right; left; exact X|right; right; exact X].
Qed.

Lemma skipn_pre {A} (pre l : list A) n : n = List.length pre -> skipn n (pre ++ l) = l.
Proof. intros ->. rewrite skipn_app, skipn_all, Nat.sub_diag. reflexivity. Qed.

Lemma seg_raw3 code pre post o hi lo kin kex (J : N -> N -> Prop) :
  code = pre ++ [N_of_opc o; hi; lo] ++ post -> has_operand o = true ->
  (o = GetLocal -> hi * 256 + lo < kin) ->
  (o <> Jump -> kex <= kout o (hi * 256 + lo) kin) ->
  (o = Jump \/ o = JumpOnFalse -> J (hi * 256 + lo) kin) ->
  SEGOK code (KPT (N.of_nat (List.length pre)) kin) (N.of_nat (List.length pre)) 3 kin kex J.
Proof.
  intros HC HO HG HN HJ.
  pose proof (seg_instr code (N.of_nat (List.length pre)) kin kex J
                {| iop := N_of_opc o; iargs := [hi * 256 + lo]; ilen := 3 |} post o) as X. cbn [ilen] in X.
  apply X; clear X.
  - rewrite HC, Nat2N.id, skipn_pre by reflexivity. cbn [app]. apply decode1_raw3. exact HO.
  - cbn [iop]. apply opc_of_N_of_opc.
  - exact HG.
  - unfold lsuccs, arg0. cbn [iop iargs ilen nth]. rewrite opc_of_N_of_opc. intros t Ht.
    assert (KJ : kout o (hi * 256 + lo) kin = kin \/ o = SetLocal) by (destruct o; auto).
    destruct o; cbn [In] in Ht;
      try (destruct Ht as [<-|[]]; left; split; [reflexivity|apply HN; discriminate]).
    + (* Jump *) destruct Ht as [<-|[]]. right. apply HJ. left. reflexivity.
    + (* JumpOnFalse *) destruct Ht as [<-|[<-|[]]]; [left; split; [reflexivity|apply HN; discriminate]|right; apply HJ; right; reflexivity].
Qed.

Lemma seg_raw1 code pre post o kin kex (J : N -> N -> Prop) :
  code = pre ++ [N_of_opc o] ++ post -> has_operand o = false -> kex <= kin ->
  SEGOK code (KPT (N.of_nat (List.length pre)) kin) (N.of_nat (List.length pre)) 1 kin kex J.
Proof.
  intros HC HO HK.
  pose proof (seg_instr code (N.of_nat (List.length pre)) kin kex J
                {| iop := N_of_opc o; iargs := []; ilen := 1 |} post o) as X. cbn [ilen] in X.
  apply X; clear X.
  - rewrite HC, Nat2N.id, skipn_pre by reflexivity. cbn [app]. apply decode1_raw1. exact HO.
  - cbn [iop]. apply opc_of_N_of_opc.
  - intro E. subst o. discriminate HO.
  - unfold lsuccs. cbn [iop ilen]. rewrite opc_of_N_of_opc. intros t Ht.
    assert (KJ : forall a, kout o a kin = kin) by (intro a; destruct o; try reflexivity; discriminate HO).
    destruct o; try discriminate HO; cbn [In] in Ht; destruct Ht as [<-|[]]; left; (split; [reflexivity|rewrite KJ; exact HK]).
Qed.

Lemma runs_all_sl nc gc : forall ops k k', runs nc gc ops k = Some k' ->
  Forall (fun x => is_sl (fst x) = true /\ snd x < 65536) ops.
Proof.
  induction ops as [|x t IH]; intros k k' H; [constructor|]. cbn [runs] in H.
  destruct (sop_ok nc gc x k) as [k1|] eqn:E; [|discriminate].
  constructor; [exact (sop_ok_sl _ _ _ _ _ E)|apply (IH _ _ H)].
Qed.

Lemma seg_ops code kin (J : N -> N -> Prop) : forall ops pre post,
  code = pre ++ encode ops ++ post ->
  Forall (fun x => is_sl (fst x) = true /\ snd x < 65536) ops -> Forall (lopk kin) ops ->
  exists Ks, SEGOK code Ks (N.of_nat (List.length pre)) (N.of_nat (List.length (encode ops))) kin kin J.
Proof.
  induction ops as [|x t IH]; intros pre post HC HS HL.
  - exists KNONE. apply seg_nil.
  - destruct (Forall_inv HS) as [SL LT]. pose proof (Forall_inv_tail HS) as HS'.
    pose proof (Forall_inv HL) as LK. pose proof (Forall_inv_tail HL) as HL'.
    change (encode (x :: t)) with (enc1 x ++ encode t) in *. rewrite <- app_assoc in HC.
    destruct (decode1_enc1' x (encode t ++ post) LT) as [HD HLen].
    destruct (IH (pre ++ enc1 x) post) as (K2 & S2); [rewrite HC, <- app_assoc; reflexivity|exact HS'|exact HL'|].
    exists (KOR (KPT (N.of_nat (List.length pre)) kin) K2).
    rewrite app_length, Nat2N.inj_add.
    eapply seg_seq with (kmid := kin); [| |intros Z; reflexivity|intros _; lia].
    + rewrite HLen.
      replace (ilen_of x) with (ilen (instr_of x)) by reflexivity.
      eapply (seg_instr code _ kin kin J (instr_of x) (encode t ++ post) (fst x)).
      * rewrite HC, Nat2N.id, skipn_pre by reflexivity. exact HD.
      * unfold instr_of. cbn [iop]. apply opc_of_N_of_opc.
      * intro E. unfold lopk in LK. unfold arg0, instr_of. cbn [iargs]. rewrite E in *. cbn [has_operand nth]. apply LK. reflexivity.
      * unfold lsuccs. unfold instr_of at 1. cbn [iop]. rewrite opc_of_N_of_opc. intros tt Ht.
        destruct (fst x); try discriminate SL; cbn [In] in Ht; destruct Ht as [<-|[]]; left; (split; [reflexivity|apply kout_ge]).
    + rewrite app_length, Nat2N.inj_add, HLen in S2. rewrite HLen. exact S2.
Qed.

Lemma gbw_root s : Inv s -> gbw s (rootcount s).
Proof. intros HI n y HR HS. apply (resolve_global_below s n y HI HR HS). Qed.

Lemma seg_expr code e st st1 seg_e pre post (J : N -> N -> Prop) :
  efrag e = true -> compile_expr true e st = COk st1 -> ccode st1 = ccode st ++ seg_e -> Inv (csym st) ->
  code = pre ++ seg_e ++ post ->
  csym st1 = csym st /\ seg_e <> [] /\
  exists Ks, SEGOK code Ks (N.of_nat (List.length pre)) (N.of_nat (List.length seg_e)) (kof (csym st)) (kof (csym st)) J.
Proof.
  intros HF HC HE HI HCode.
  destruct (efrag_sl2 e HF st st1 HC) as (A & ops & newc & B & C & D & L).
  rewrite B in HE. apply app_inv_head in HE. subst seg_e.
  pose proof (D (N.of_nat (List.length (cconsts st1))) (rootcount (csym st)) 0 (N.le_refl _) (gbw_root _ HI)) as R0.
  split; [exact A|]. split.
  - intro E. rewrite (runs_encode_nil _ _ _ _ _ R0 E) in R0. discriminate R0.
  - apply (seg_ops code (kof (csym st)) J ops pre post HCode (runs_all_sl _ _ _ _ _ R0)). apply L. apply lbw_kof. exact HI.
Qed.

(* break jumps of the innermost loop go to T; the loop's count there is kb *)
Definition JB (T kb : N) : N -> N -> Prop := fun t kk => t = T /\ kb <= kk.

Definition PSEG (st st' : cstate) (seg : list N) (J : N -> N -> N -> N -> Prop) : Prop :=
  forall code pre post T kb,
    code = pre ++ seg ++ post -> N.of_nat (List.length pre) = N.of_nat (List.length (ccode st)) ->
    Inv (csym st) -> kb <= kof (csym st) ->
    kof (csym st) <= kof (csym st') /\ (seg = [] -> kof (csym st') = kof (csym st)) /\
    exists Ks, SEGOK code Ks (N.of_nat (List.length pre)) (N.of_nat (List.length seg))
                     (kof (csym st)) (kof (csym st')) (J T kb).

Definition P_LY (brk : option N) (s : stmt) (st st' : cstate) (bs : list Z) (seg : list N) : Prop :=
  forall T0, brk = Some T0 -> PSEG st st' seg (fun T kb => JB T0 kb).
Definition P_LYL (brk : option N) (l : slist) (st st' : cstate) (bs : list Z) (seg : list N) : Prop :=
  forall T0, brk = Some T0 -> PSEG st st' seg (fun T kb => JB T0 kb).

Ltac lens := rewrite ?app_length, ?Nat2N.inj_add in *; cbn [List.length] in *.

(* e, then the store into a variable (declaration or assignment) *)
Lemma seg_expr_set code e st st1 seg_e pre post o a sg kex (J : N -> N -> Prop) :
  efrag e = true -> compile_expr true e st = COk st1 -> ccode st1 = ccode st ++ seg_e -> Inv (csym st) ->
  code = pre ++ (seg_e ++ sg) ++ post -> jbytes o a sg -> has_operand o = true -> o <> GetLocal -> o <> Jump -> o <> JumpOnFalse ->
  kex <= kout o a (kof (csym st)) ->
  exists Ks, SEGOK code Ks (N.of_nat (List.length pre)) (N.of_nat (List.length (seg_e ++ sg))) (kof (csym st)) kex J.
Proof.
  intros HF HC HE HI HCode (hi & lo & -> & ET) HO NG NJ NF HK.
  destruct (seg_expr code e st st1 seg_e pre ([N_of_opc o; hi; lo] ++ post) J HF HC HE HI) as (_ & NE & K1 & S1);
    [rewrite HCode, <- !app_assoc; reflexivity|].
  eexists. eapply (seg_seq_l code K1 _ pre seg_e [N_of_opc o; hi; lo] _ _ _ _ S1); [|intros _; reflexivity|discriminate].
  apply (seg_raw3 code (pre ++ seg_e) post o hi lo); [rewrite HCode, <- !app_assoc; reflexivity|exact HO| | |].
  - intro E. congruence.
  - intros _. rewrite ET. exact HK.
  - intros [E|E]; congruence.
Qed.

Lemma setop_facts y : has_operand (setop y) = true /\ setop y <> GetLocal /\ setop y <> Jump /\ setop y <> JumpOnFalse.
Proof. unfold setop. destruct (sscp y); repeat split; discriminate. Qed.

Lemma p_decl brk n e st st1 st' seg_e sg :
  efrag e = true -> compile_expr true e st = COk st1 -> ccode st1 = ccode st ++ seg_e ->
  jbytes (setop (snd (st_define n (csym st)))) (sidx (snd (st_define n (csym st)))) sg ->
  csym st' = fst (st_define n (csym st)) ->
  P_LY brk (SDecl n e) st st' [] (seg_e ++ sg).
Proof.
  intros HF HC HE HJ HS T0 _ code pre post T kb HCode HL HI HK.
  rewrite HS. split; [apply kof_define_mono|]. split.
  - intro E. destruct HJ as (hi & lo & -> & _). apply app_eq_nil in E. destruct E as [_ E]. discriminate E.
  - destruct (setop_facts (snd (st_define n (csym st)))) as (A & B & C & D).
    apply (seg_expr_set code e st st1 seg_e pre post _ _ sg _ _ HF HC HE HI HCode HJ A B C D). apply kof_define. exact HI.
Qed.

Lemma p_assign brk n e st st1 st' y seg_e sg :
  efrag e = true -> compile_expr true e st = COk st1 -> ccode st1 = ccode st ++ seg_e ->
  jbytes (setop y) (sidx y) sg -> csym st' = csym st ->
  P_LY brk (SAssign (EVar n) e) st st' [] (seg_e ++ sg).
Proof.
  intros HF HC HE HJ HS T0 _ code pre post T kb HCode HL HI HK.
  rewrite HS. split; [lia|]. split; [reflexivity|].
  destruct (setop_facts y) as (A & B & C & D).
  apply (seg_expr_set code e st st1 seg_e pre post _ _ sg _ _ HF HC HE HI HCode HJ A B C D). apply kout_ge.
Qed.

Lemma p_break T0 st st' jb :
  jbytes Jump T0 jb -> csym st' = csym st ->
  PSEG st st' jb (fun T kb => JB T0 kb).
Proof.
  intros (hi & lo & -> & ET) HS code pre post T kb HCode HL HI HK.
  rewrite HS. split; [lia|]. split; [discriminate|].
  exists (KPT (N.of_nat (List.length pre)) (kof (csym st))).
  apply (seg_raw3 code pre post Jump hi lo); [exact HCode|reflexivity|discriminate|congruence|].
  intros _. rewrite ET. split; [reflexivity|exact HK].
Qed.

Lemma p_lyl_nil st J : PSEG st st [] J.
Proof.
  intros code pre post T kb _ _ _ _. split; [lia|]. split; [reflexivity|]. exists KNONE. apply seg_nil.
Qed.

Lemma pseg_seq st st1 st2 seg1 seg2 J :
  PSEG st st1 seg1 J -> PSEG st1 st2 seg2 J ->
  N.of_nat (List.length (ccode st1)) = N.of_nat (List.length (ccode st)) + N.of_nat (List.length seg1) ->
  (Inv (csym st) -> Inv (csym st1)) ->
  PSEG st st2 (seg1 ++ seg2) J.
Proof.
  intros P1 P2 HLen HInv code pre post T kb HCode HL HI HK.
  destruct (P1 code pre (seg2 ++ post) T kb) as (M1 & E1 & K1 & S1); [rewrite HCode, <- !app_assoc; reflexivity|exact HL|exact HI|exact HK|].
  destruct (P2 code (pre ++ seg1) post T kb) as (M2 & E2 & K2 & S2);
    [rewrite HCode, <- !app_assoc; reflexivity|lens; lia|apply HInv; exact HI|lia|].
  split; [lia|]. split.
  - intro E. apply app_eq_nil in E. destruct E as [Ea Eb]. rewrite (E2 Eb), (E1 Ea). reflexivity.
  - exists (KOR K1 K2). apply (seg_seq_l code K1 K2 pre seg1 seg2 _ _ _ _ S1 S2); [exact E1|intro Z; rewrite (E2 Z); lia].
Qed.

(* a block: the body in a pushed scope, popped afterwards *)
Lemma kof_block st stx stb st' :
  csym stx = st_push (csym st) -> outers (csym stb) = outers (csym stx) -> csym st' = st_pop (csym stb) ->
  kof (csym st') = kof (csym st).
Proof.
  intros HX HO HP. rewrite HP. apply kof_pop_push. rewrite HO, HX. reflexivity.
Qed.

Lemma p_while brk c b st st1 stx stb st' bs_b seg_c seg_b jf jb :
  efrag c = true -> compile_expr true c st = COk st1 -> ccode st1 = ccode st ++ seg_c ->
  csym stx = st_push (csym st) ->
  N.of_nat (List.length (ccode stx)) = N.of_nat (List.length (ccode st1)) + 3 ->
  LYL (Some (N.of_nat (List.length (ccode st)) + N.of_nat (List.length (seg_c ++ jf ++ seg_b ++ jb)))) b stx stb bs_b seg_b ->
  P_LYL (Some (N.of_nat (List.length (ccode st)) + N.of_nat (List.length (seg_c ++ jf ++ seg_b ++ jb)))) b stx stb bs_b seg_b ->
  jbytes JumpOnFalse (N.of_nat (List.length (ccode st)) + N.of_nat (List.length (seg_c ++ jf ++ seg_b ++ jb))) jf ->
  jbytes Jump (N.of_nat (List.length (ccode st))) jb ->
  csym st' = st_pop (csym stb) ->
  P_LY brk (SWhile c b) st st' [] (seg_c ++ jf ++ seg_b ++ jb).
Proof.
  intros HF HC HE HX HLx HB PB (h1 & l1 & -> & ET1) (h2 & l2 & -> & ET2) HP T0 _ code pre post T kb HCode HL HI HK.
  set (k := kof (csym st)). set (lo := N.of_nat (List.length pre)) in *.
  set (JF := [N_of_opc JumpOnFalse; h1; l1]) in *. set (JBk := [N_of_opc Jump; h2; l2]) in *.
  set (Tend := N.of_nat (List.length (ccode st)) + N.of_nat (List.length (seg_c ++ JF ++ seg_b ++ JBk))) in *.
  destruct (proj1 (proj2 ly_frame) (Some Tend) b stx stb bs_b seg_b HB) as [_ SYb].
  assert (HK' : kof (csym st') = k) by (apply (kof_block st stx stb st' HX (sy_out _ _ SYb) HP)).
  rewrite HK'. split; [lia|]. split; [intro E; apply app_eq_nil in E; destruct E as [_ E]; discriminate E|].
  pose (J0 := fun t kk => (t = Tend /\ k <= kk) \/ (t = lo /\ k <= kk)).
  (* the condition *)
  destruct (seg_expr code c st st1 seg_c pre ((JF ++ seg_b ++ JBk) ++ post) J0 HF HC HE HI) as (SC & NE & K1 & S1);
    [rewrite HCode, <- !app_assoc; reflexivity|].
  (* the exit jump *)
  assert (S2 : SEGOK code (KPT (N.of_nat (List.length (pre ++ seg_c))) k) (N.of_nat (List.length (pre ++ seg_c))) (N.of_nat (List.length JF)) k k J0).
  { apply (seg_raw3 code (pre ++ seg_c) (seg_b ++ JBk ++ post) JumpOnFalse h1 l1);
      [rewrite HCode, <- !app_assoc; reflexivity|reflexivity|discriminate|intros _; cbn; lia|].
    intros _. rewrite ET1. left. split; [reflexivity|lia]. }
  (* the body *)
  assert (HIx : Inv (csym stx)) by (rewrite HX; apply inv_push; exact HI).
  assert (Hkx : kof (csym stx) = k) by (rewrite HX; apply kof_push).
  destruct (PB Tend eq_refl code ((pre ++ seg_c) ++ JF) (JBk ++ post) Tend k) as (M3 & E3 & K3 & S3);
    [rewrite HCode, <- !app_assoc; reflexivity|rewrite HLx, HE; unfold JF; lens; lia|exact HIx|lia|].
  rewrite Hkx in *.
  assert (S3' : SEGOK code K3 (N.of_nat (List.length ((pre ++ seg_c) ++ JF))) (N.of_nat (List.length seg_b)) k (kof (csym stb)) J0).
  { eapply seg_weaken; [apply N.le_refl| |exact S3]. intros t kk [E L]. left. split; [exact E|exact L]. }
  (* the jump back *)
  assert (S4 : SEGOK code (KPT (N.of_nat (List.length (((pre ++ seg_c) ++ JF) ++ seg_b))) (kof (csym stb)))
                     (N.of_nat (List.length (((pre ++ seg_c) ++ JF) ++ seg_b))) (N.of_nat (List.length JBk)) (kof (csym stb)) k J0).
  { apply (seg_raw3 code (((pre ++ seg_c) ++ JF) ++ seg_b) post Jump h2 l2);
      [rewrite HCode, <- !app_assoc; reflexivity|reflexivity|discriminate|congruence|].
    intros _. rewrite ET2. right. split; [unfold lo; lia|lia]. }
  (* together, from the right *)
  pose proof (seg_seq_l _ _ _ _ _ _ _ _ _ _ S3' S4 (fun Z => E3 Z) ltac:(unfold JBk; discriminate)) as R3.
  pose proof (seg_seq_l _ _ _ _ _ _ _ _ _ _ S2 R3 (fun _ => eq_refl) ltac:(unfold JBk; intro Z; apply app_eq_nil in Z; destruct Z as [_ Z]; discriminate Z)) as R2.
  pose proof (seg_seq_l _ _ _ _ _ _ _ _ _ _ S1 R2 (fun _ => eq_refl) ltac:(unfold JF; discriminate)) as R1.
  eexists. eapply seg_resolve; [exact R1|].
  intros t kk [[E L]|[E L]].
  - right. left. split; [rewrite E; unfold Tend, lo in *; rewrite HL; reflexivity|exact L].
  - left. exists k. split; [|exact L]. rewrite E.
    destruct R1 as (_ & R2' & _). apply R2'. rewrite !app_length. unfold JF. cbn [List.length]. lia.
Qed.

Lemma pseg_expr e st st1 seg_e J :
  efrag e = true -> compile_expr true e st = COk st1 -> ccode st1 = ccode st ++ seg_e -> PSEG st st1 seg_e J.
Proof.
  intros HF HC HE code pre post T kb HCode HL HI HK.
  destruct (seg_expr code e st st1 seg_e pre post (J T kb) HF HC HE HI HCode) as (A & _ & Ks & S).
  rewrite A. split; [lia|]. split; [reflexivity|]. exists Ks. exact S.
Qed.

Lemma pseg_const k0 s1 s2 segk J :
  emit_const true k0 s1 = COk s2 -> ccode s2 = ccode s1 ++ segk -> PSEG s1 s2 segk J.
Proof.
  intros HC HE code pre post T kb HCode HL HI HK.
  destruct (const_sl _ _ _ HC) as (R0 & A & B & _). rewrite B in HE. apply app_inv_head in HE. subst segk.
  rewrite A. split; [lia|]. split; [reflexivity|].
  apply (seg_ops code (kof (csym s1)) (J T kb) _ pre post HCode).
  - constructor; [cbn [fst snd]; split; [reflexivity|exact R0]|constructor].
  - constructor; [apply lopk_nonlocal; reflexivity|constructor].
Qed.

Lemma pseg_weaken st st' seg (J J' : N -> N -> N -> N -> Prop) :
  (forall T kb t kk, J T kb t kk -> J' T kb t kk) -> PSEG st st' seg J -> PSEG st st' seg J'.
Proof.
  intros HJ P code pre post T kb HCode HL HI HK. destruct (P code pre post T kb HCode HL HI HK) as (M & E & Ks & S).
  split; [exact M|]. split; [exact E|]. exists Ks. eapply seg_weaken; [apply N.le_refl|apply HJ|exact S].
Qed.

Lemma p_lvpro lv s3 sa segp lvi J : LVPRO lv s3 sa segp lvi -> PSEG s3 sa segp J.
Proof.
  unfold LVPRO. destruct lv as [n|].
  - intros (sg & HJ & -> & HCo & _ & HS & _) code pre post T kb HCode HL HI HK.
    rewrite HS. split; [apply kof_define_mono|]. split; [discriminate|].
    destruct (setop_facts (snd (st_define n (csym s3)))) as (A & B & C & D).
    destruct HJ as (hi & lo & -> & ET).
    eexists. eapply (seg_seq_l code _ _ pre [N_of_opc ONone]) with (kmid := kof (csym s3)); [| |intros _; reflexivity|discriminate].
    + apply (seg_raw1 code pre ([N_of_opc (setop (snd (st_define n (csym s3)))); hi; lo] ++ post) ONone);
        [rewrite HCode, <- !app_assoc; reflexivity|reflexivity|lia].
    + apply (seg_raw3 code (pre ++ [N_of_opc ONone]) post (setop (snd (st_define n (csym s3)))) hi lo); [rewrite HCode, <- !app_assoc; reflexivity|exact A| | |].
      * intro E. congruence.
      * intros _. rewrite ET. apply kof_define. exact HI.
      * intros [E|E]; congruence.
  - intros (_ & _ & HS & -> & _) code pre post T kb HCode HL HI HK. rewrite HS.
    split; [lia|]. split; [reflexivity|]. exists KNONE. apply seg_nil.
Qed.

Lemma lvpro_inv lv s3 sa segp lvi : LVPRO lv s3 sa segp lvi -> Inv (csym s3) -> Inv (csym sa).
Proof. intros H HI. destruct (lvpro_frame _ _ _ _ _ H) as (_ & SYp & _). apply (sy_inv _ _ SYp HI). Qed.

(* the loop itself: range instruction, exit jump, store of the loop variable, body, jump back, OpDrop *)
Lemma p_lyr rop S lvi b s3 stx stb st' bs_b seg_b jf jb sgv J :
  (rop = StepRange \/ rop = IterRange) ->
  lvstore lvi (csym s3) sgv -> csym stx = st_push (csym s3) ->
  N.of_nat (List.length (ccode stx)) = N.of_nat (List.length (ccode s3)) + 6 + N.of_nat (List.length sgv) ->
  LYL (Some (N.of_nat (List.length (ccode s3)) + N.of_nat (List.length ([N_of_opc rop; 0; hvof lvi] ++ jf ++ sgv ++ seg_b ++ jb)))) b stx stb bs_b seg_b ->
  P_LYL (Some (N.of_nat (List.length (ccode s3)) + N.of_nat (List.length ([N_of_opc rop; 0; hvof lvi] ++ jf ++ sgv ++ seg_b ++ jb)))) b stx stb bs_b seg_b ->
  jbytes JumpOnFalse (N.of_nat (List.length (ccode s3)) + N.of_nat (List.length ([N_of_opc rop; 0; hvof lvi] ++ jf ++ sgv ++ seg_b ++ jb))) jf ->
  jbytes Jump (N.of_nat (List.length (ccode s3))) jb ->
  csym st' = st_pop (csym stb) ->
  PSEG s3 st' ([N_of_opc rop; 0; hvof lvi] ++ jf ++ sgv ++ seg_b ++ jb ++ [N_of_opc Drop; 0; S]) J.
Proof.
  intros HR HV HX HLx HB PB (h1 & l1 & -> & ET1) (h2 & l2 & -> & ET2) HP code pre post T kb HCode HL HI HK.
  set (k := kof (csym s3)). set (lo := N.of_nat (List.length pre)) in *.
  set (RO := [N_of_opc rop; 0; hvof lvi]) in *. set (JF := [N_of_opc JumpOnFalse; h1; l1]) in *.
  set (JBk := [N_of_opc Jump; h2; l2]) in *. set (DR := [N_of_opc Drop; 0; S]) in *.
  set (Td := N.of_nat (List.length (ccode s3)) + N.of_nat (List.length (RO ++ JF ++ sgv ++ seg_b ++ JBk))) in *.
  destruct (proj1 (proj2 ly_frame) (Some Td) b stx stb bs_b seg_b HB) as [_ SYb].
  assert (HK' : kof (csym st') = k) by (apply (kof_block s3 stx stb st' HX (sy_out _ _ SYb) HP)).
  rewrite HK'. split; [lia|]. split; [intro E; discriminate E|].
  pose (J0 := fun t kk => (t = Td /\ k <= kk) \/ (t = lo /\ k <= kk)).
  assert (HO : has_operand rop = true /\ rop <> GetLocal /\ rop <> Jump /\ rop <> JumpOnFalse /\ forall a, kout rop a k = k)
    by (destruct HR; subst rop; repeat split; discriminate).
  destruct HO as (O1 & O2 & O3 & O4 & O5).
  (* range instruction *)
  assert (S1 : SEGOK code (KPT lo k) lo (N.of_nat (List.length RO)) k k J0).
  { apply (seg_raw3 code pre (JF ++ sgv ++ seg_b ++ JBk ++ DR ++ post) rop 0 (hvof lvi));
      [rewrite HCode; unfold RO; rewrite <- !app_assoc; reflexivity|exact O1|intro E; congruence|intros _; rewrite O5; lia|intros [E|E]; congruence]. }
  (* exit jump *)
  assert (S2 : SEGOK code (KPT (N.of_nat (List.length (pre ++ RO))) k) (N.of_nat (List.length (pre ++ RO))) (N.of_nat (List.length JF)) k k J0).
  { apply (seg_raw3 code (pre ++ RO) (sgv ++ seg_b ++ JBk ++ DR ++ post) JumpOnFalse h1 l1);
      [rewrite HCode; unfold JF; rewrite <- !app_assoc; reflexivity|reflexivity|discriminate|intros _; cbn; lia|].
    intros _. rewrite ET1. left. split; [reflexivity|lia]. }
  (* store of the loop variable *)
  assert (S3 : exists K3, SEGOK code K3 (N.of_nat (List.length ((pre ++ RO) ++ JF))) (N.of_nat (List.length sgv)) k k J0).
  { unfold lvstore in HV. destruct lvi as [[n y]|].
    - destruct HV as [(hi & l0 & E & ET) _]. destruct (setop_facts y) as (A & B & C & D).
      eexists. rewrite E.
      apply (seg_raw3 code ((pre ++ RO) ++ JF) (seg_b ++ JBk ++ DR ++ post) (setop y) hi l0);
        [rewrite HCode, E; rewrite <- !app_assoc; reflexivity|exact A|intro X; congruence|intros _; apply kout_ge|intros [X|X]; congruence].
    - exists KNONE. rewrite HV. apply seg_nil. }
  destruct S3 as (K3 & S3).
  (* body *)
  assert (HIx : Inv (csym stx)) by (rewrite HX; apply inv_push; exact HI).
  assert (Hkx : kof (csym stx) = k) by (rewrite HX; apply kof_push).
  destruct (PB Td eq_refl code (((pre ++ RO) ++ JF) ++ sgv) (JBk ++ DR ++ post) Td k) as (M4 & E4 & K4 & S4);
    [rewrite HCode, <- !app_assoc; reflexivity|rewrite HLx; unfold RO, JF; lens; lia|exact HIx|lia|].
  rewrite Hkx in *.
  assert (S4' : SEGOK code K4 (N.of_nat (List.length (((pre ++ RO) ++ JF) ++ sgv))) (N.of_nat (List.length seg_b)) k (kof (csym stb)) J0).
  { eapply seg_weaken; [apply N.le_refl| |exact S4]. intros t kk [E L]. left. split; [exact E|exact L]. }
  (* jump back *)
  assert (S5 : SEGOK code (KPT (N.of_nat (List.length ((((pre ++ RO) ++ JF) ++ sgv) ++ seg_b))) (kof (csym stb)))
                     (N.of_nat (List.length ((((pre ++ RO) ++ JF) ++ sgv) ++ seg_b))) (N.of_nat (List.length JBk)) (kof (csym stb)) k J0).
  { apply (seg_raw3 code ((((pre ++ RO) ++ JF) ++ sgv) ++ seg_b) (DR ++ post) Jump h2 l2);
      [rewrite HCode; unfold JBk; rewrite <- !app_assoc; reflexivity|reflexivity|discriminate|congruence|].
    intros _. rewrite ET2. right. split; [unfold lo; lia|lia]. }
  (* OpDrop *)
  assert (S6 : SEGOK code (KPT (N.of_nat (List.length (((((pre ++ RO) ++ JF) ++ sgv) ++ seg_b) ++ JBk))) k)
                     (N.of_nat (List.length (((((pre ++ RO) ++ JF) ++ sgv) ++ seg_b) ++ JBk))) (N.of_nat (List.length DR)) k k J0).
  { apply (seg_raw3 code (((((pre ++ RO) ++ JF) ++ sgv) ++ seg_b) ++ JBk) post Drop 0 S);
      [rewrite HCode, <- !app_assoc; reflexivity|reflexivity|discriminate|intros _; cbn; lia|intros [E|E]; discriminate E]. }
  (* together, from the right *)
  pose proof (seg_seq_l _ _ _ _ _ _ _ _ _ _ S5 S6 ltac:(unfold JBk; discriminate) (fun _ => N.le_refl k)) as R5.
  pose proof (seg_seq_l _ _ _ _ _ _ _ _ _ _ S4' R5 (fun Z => E4 Z) ltac:(unfold JBk; discriminate)) as R4.
  pose proof (seg_seq_l _ _ _ _ _ _ _ _ _ _ S3 R4 (fun _ => eq_refl) (fun _ => N.le_refl k)) as R3.
  pose proof (seg_seq_l _ _ _ _ _ _ _ _ _ _ S2 R3 (fun _ => eq_refl) (fun _ => N.le_refl k)) as R2.
  pose proof (seg_seq_l _ _ _ _ _ _ _ _ _ _ S1 R2 (fun _ => eq_refl) (fun _ => N.le_refl k)) as R1.
  eexists. eapply seg_resolve; [exact R1|].
  intros t kk [[E L]|[E L]]; left; exists k; (split; [|exact L]).
  - do 5 right. split; [|reflexivity]. rewrite E. unfold Td. rewrite <- !app_assoc, (app_length pre), Nat2N.inj_add. fold lo. rewrite HL. reflexivity.
  - rewrite E. destruct R1 as (_ & R2' & _). apply R2'. unfold RO. rewrite app_length. cbn [List.length]. lia.
Qed.

Definition P_LYC (brk : option N) (fin : bool) (l : clist) (els : oslist) (st st' : cstate) (End : N)
                 (js bs : list Z) (seg : list N) : Prop :=
  fin = true -> forall T0, brk = Some T0 ->
  forall code pre post kb,
    code = pre ++ seg ++ post -> N.of_nat (List.length pre) = N.of_nat (List.length (ccode st)) ->
    Inv (csym st) -> kb <= kof (csym st) ->
    End = N.of_nat (List.length pre) + N.of_nat (List.length seg) /\ kof (csym st') = kof (csym st) /\
    exists Ks, SEGOK code Ks (N.of_nat (List.length pre)) (N.of_nat (List.length seg))
                     (kof (csym st)) (kof (csym st)) (JB T0 kb).

Lemma p_lyc_nil_noelse brk fin st End : End = N.of_nat (List.length (ccode st)) -> P_LYC brk fin CNil NoElse st st End [] [] [].
Proof.
  intros HE _ T0 _ code pre post kb _ HL _ _. split; [cbn; lia|]. split; [reflexivity|]. exists KNONE. apply seg_nil.
Qed.

Lemma p_lyc_nil_else brk fin eb st sty ste st' End bs_e seg_e :
  csym sty = st_push (csym st) -> List.length (ccode sty) = List.length (ccode st) ->
  LYL brk eb sty ste bs_e seg_e -> P_LYL brk eb sty ste bs_e seg_e ->
  End = N.of_nat (List.length (ccode st)) + N.of_nat (List.length seg_e) -> csym st' = st_pop (csym ste) ->
  P_LYC brk fin CNil (Else eb) st st' End [] bs_e seg_e.
Proof.
  intros HX HLy HB PB HE HP _ T0 EB code pre post kb HCode HL HI HK.
  destruct (proj1 (proj2 ly_frame) _ _ _ _ _ _ HB) as [_ SYb].
  split; [lia|]. split; [apply (kof_block st sty ste st' HX (sy_out _ _ SYb) HP)|].
  destruct (PB T0 EB code pre post T0 kb HCode) as (M & _ & Ks & S);
    [rewrite HLy; exact HL|rewrite HX; apply inv_push; exact HI|rewrite HX, kof_push; exact HK|].
  exists Ks. rewrite HX, kof_push in *. eapply seg_weaken; [exact M|intros t kk X; exact X|exact S].
Qed.

Lemma p_lyc_cons brk fin c b t els st st1 stx stb sty st' End js bs_b bs_r seg_c seg_b jf je seg_r :
  efrag c = true -> compile_expr true c st = COk st1 -> ccode st1 = ccode st ++ seg_c ->
  csym stx = st_push (csym st) ->
  N.of_nat (List.length (ccode stx)) = N.of_nat (List.length (ccode st1)) + 3 ->
  LYL brk b stx stb bs_b seg_b -> P_LYL brk b stx stb bs_b seg_b ->
  jbytes JumpOnFalse (N.of_nat (List.length (ccode st)) + N.of_nat (List.length (seg_c ++ jf ++ seg_b ++ je))) jf ->
  jshape fin End je ->
  csym sty = st_pop (csym stb) ->
  N.of_nat (List.length (ccode sty)) = N.of_nat (List.length (ccode stb)) + 3 ->
  N.of_nat (List.length (ccode stb)) = N.of_nat (List.length (ccode stx)) + N.of_nat (List.length seg_b) ->
  P_LYC brk fin t els sty st' End js bs_r seg_r ->
  P_LYC brk fin (CCons c b t) els st st' End
        (Z.of_nat (List.length (ccode st) + List.length (seg_c ++ jf ++ seg_b)) :: js) (bs_b ++ bs_r)
        (seg_c ++ jf ++ seg_b ++ je ++ seg_r).
Proof.
  intros HF HC HE HX HLx HB PB (h1 & l1 & -> & ET1) HJE HY HLy HLb PR Hfin T0 EB code pre post kb HCode HL HI HK.
  subst fin. destruct HJE as (h2 & l2 & -> & ET2).
  set (k := kof (csym st)). set (lo := N.of_nat (List.length pre)) in *.
  set (JF := [N_of_opc JumpOnFalse; h1; l1]) in *. set (JE := [N_of_opc Jump; h2; l2]) in *.
  set (Tn := N.of_nat (List.length (ccode st)) + N.of_nat (List.length (seg_c ++ JF ++ seg_b ++ JE))) in *.
  destruct (proj1 (proj2 ly_frame) _ _ _ _ _ _ HB) as [_ SYb].
  assert (HIx : Inv (csym stx)) by (rewrite HX; apply inv_push; exact HI).
  assert (Hkx : kof (csym stx) = k) by (rewrite HX; apply kof_push).
  assert (HIy : Inv (csym sty)) by (rewrite HY; apply inv_pop; apply (sy_inv _ _ SYb HIx)).
  assert (Hky : kof (csym sty) = k) by (apply (kof_block st stx stb sty HX (sy_out _ _ SYb) HY)).
  (* the rest of the chain first: it fixes End *)
  destruct (PR eq_refl T0 EB code ((((pre ++ seg_c) ++ JF) ++ seg_b) ++ JE) post kb) as (HEnd & HK' & K5 & S5);
    [rewrite HCode, <- !app_assoc; reflexivity|rewrite HLy, HLb, HLx, HE; unfold JF, JE; lens; lia|exact HIy|rewrite Hky; exact HK|].
  rewrite Hky in *.
  assert (HEnd' : End = lo + N.of_nat (List.length (seg_c ++ JF ++ seg_b ++ JE ++ seg_r)))
    by (rewrite HEnd, <- Nat2N.inj_add, <- app_length, <- !app_assoc, (app_length pre), Nat2N.inj_add; reflexivity).
  split; [exact HEnd'|]. split; [exact HK'|].
  pose (J0 := fun t kk => JB T0 kb t kk \/ (t = Tn /\ k <= kk) \/ (t = End /\ k <= kk)).
  destruct (seg_expr code c st st1 seg_c pre ((JF ++ seg_b ++ JE ++ seg_r) ++ post) J0 HF HC HE HI) as (SC & NE & K1 & S1);
    [rewrite HCode, <- !app_assoc; reflexivity|].
  assert (S2 : SEGOK code (KPT (N.of_nat (List.length (pre ++ seg_c))) k) (N.of_nat (List.length (pre ++ seg_c))) (N.of_nat (List.length JF)) k k J0).
  { apply (seg_raw3 code (pre ++ seg_c) (seg_b ++ JE ++ seg_r ++ post) JumpOnFalse h1 l1);
      [rewrite HCode; unfold JF; rewrite <- !app_assoc; reflexivity|reflexivity|discriminate|intros _; cbn; lia|].
    intros _. rewrite ET1. right. left. split; [reflexivity|lia]. }
  destruct (PB T0 EB code ((pre ++ seg_c) ++ JF) (JE ++ seg_r ++ post) T0 kb) as (M3 & E3 & K3 & S3);
    [rewrite HCode, <- !app_assoc; reflexivity|rewrite HLx, HE; unfold JF; lens; lia|exact HIx|rewrite Hkx; exact HK|].
  rewrite Hkx in *.
  assert (S3' : SEGOK code K3 (N.of_nat (List.length ((pre ++ seg_c) ++ JF))) (N.of_nat (List.length seg_b)) k (kof (csym stb)) J0).
  { eapply seg_weaken; [apply N.le_refl| |exact S3]. intros tt kk X. left. exact X. }
  assert (S4 : SEGOK code (KPT (N.of_nat (List.length (((pre ++ seg_c) ++ JF) ++ seg_b))) (kof (csym stb)))
                     (N.of_nat (List.length (((pre ++ seg_c) ++ JF) ++ seg_b))) (N.of_nat (List.length JE)) (kof (csym stb)) k J0).
  { apply (seg_raw3 code (((pre ++ seg_c) ++ JF) ++ seg_b) (seg_r ++ post) Jump h2 l2);
      [rewrite HCode; unfold JE; rewrite <- !app_assoc; reflexivity|reflexivity|discriminate|congruence|].
    intros _. rewrite ET2. right. right. split; [reflexivity|lia]. }
  assert (S5' : SEGOK code K5 (N.of_nat (List.length ((((pre ++ seg_c) ++ JF) ++ seg_b) ++ JE))) (N.of_nat (List.length seg_r)) k k J0).
  { eapply seg_weaken; [apply N.le_refl| |exact S5]. intros tt kk X. left. exact X. }
  (* together, from the right *)
  pose proof (seg_seq_l _ _ _ _ _ _ _ _ _ _ S4 S5' ltac:(unfold JE; discriminate) (fun _ => N.le_refl k)) as R4.
  pose proof (seg_seq_l _ _ _ _ _ _ _ _ _ _ S3' R4 (fun Z => E3 Z) ltac:(unfold JE; discriminate)) as R3.
  pose proof (seg_seq_l _ _ _ _ _ _ _ _ _ _ S2 R3 (fun _ => eq_refl) (fun _ => N.le_refl k)) as R2.
  pose proof (seg_seq_l _ _ _ _ _ _ _ _ _ _ S1 R2 (fun _ => eq_refl) (fun _ => N.le_refl k)) as R1.
  assert (HTn : Tn = N.of_nat (List.length ((((pre ++ seg_c) ++ JF) ++ seg_b) ++ JE)))
    by (unfold Tn; rewrite <- !app_assoc, (app_length pre), Nat2N.inj_add; fold lo; rewrite HL; reflexivity).
  eexists. eapply seg_resolve; [exact R1|].
  intros tt kk [X|[[E L]|[E L]]].
  - right. right. exact X.
  - destruct (N.eq_dec (N.of_nat (List.length seg_r)) 0) as [Z|NZ].
    + right. left. split; [|exact L]. apply nlen0 in Z. rewrite E, HTn, Z, <- !app_assoc, (app_length pre), Nat2N.inj_add, app_nil_r. reflexivity.
    + left. exists k. split; [|exact L]. do 4 right. rewrite E, HTn. destruct S5' as (_ & R2' & _). apply R2'. exact NZ.
  - right. left. split; [|exact L]. rewrite E. exact HEnd'.
Qed.

Definition P_LYR (lvi : lvsym) (b : slist) (s3 st' : cstate) (S : N) (rop : opc) (seg : list N) : Prop :=
  (rop = StepRange \/ rop = IterRange) -> forall J, PSEG s3 st' seg J.

Lemma expr_step e st st1 seg_e : efrag e = true -> compile_expr true e st = COk st1 -> ccode st1 = ccode st ++ seg_e ->
  N.of_nat (List.length (ccode st1)) = N.of_nat (List.length (ccode st)) + N.of_nat (List.length seg_e) /\
  (Inv (csym st) -> Inv (csym st1)).
Proof.
  intros HF HC HE. split; [rewrite HE; lens; lia|]. destruct (efrag_consts e st st1 HF HC) as [_ A]. rewrite A. auto.
Qed.

Lemma p_forstep brk lv start stop step b st s1 s2 s3 sa st' seg1 seg2 seg3 segp seg_r lvi :
  efrag stop = true -> compile_expr true stop st = COk s1 -> ccode s1 = ccode st ++ seg1 ->
  efrag (match step with OSome e => e | ONoneE => ENum 1 end) = true ->
  compile_expr true (match step with OSome e => e | ONoneE => ENum 1 end) s1 = COk s2 -> ccode s2 = ccode s1 ++ seg2 ->
  efrag (match start with OSome e => e | ONoneE => ENum 0 end) = true ->
  compile_expr true (match start with OSome e => e | ONoneE => ENum 0 end) s2 = COk s3 -> ccode s3 = ccode s2 ++ seg3 ->
  LVPRO lv s3 sa segp lvi -> P_LYR lvi b sa st' 3 StepRange seg_r ->
  P_LY brk (SForStep lv start stop step b) st st' [] (seg1 ++ seg2 ++ seg3 ++ segp ++ seg_r).
Proof.
  intros F1 C1 E1 F2 C2 E2 F3 C3 E3 HV PR T0 _.
  destruct (expr_step _ _ _ _ F1 C1 E1) as [L1 I1]. destruct (expr_step _ _ _ _ F2 C2 E2) as [L2 I2].
  destruct (expr_step _ _ _ _ F3 C3 E3) as [L3 I3].
  destruct (lvpro_frame _ _ _ _ _ HV) as (_ & _ & L4 & _).
  apply (pseg_seq st s1 st' seg1 _ _ (pseg_expr _ _ _ _ _ F1 C1 E1)); [|exact L1|exact I1].
  apply (pseg_seq s1 s2 st' seg2 _ _ (pseg_expr _ _ _ _ _ F2 C2 E2)); [|exact L2|exact I2].
  apply (pseg_seq s2 s3 st' seg3 _ _ (pseg_expr _ _ _ _ _ F3 C3 E3)); [|exact L3|exact I3].
  apply (pseg_seq s3 sa st' segp _ _ (p_lvpro _ _ _ _ _ _ HV)); [|exact L4|apply (lvpro_inv _ _ _ _ _ HV)].
  apply PR. left. reflexivity.
Qed.

Lemma p_foriter brk lv t e b st s1 s2 sa st' seg1 segk segp seg_r lvi :
  efrag e = true -> compile_expr true e st = COk s1 -> ccode s1 = ccode st ++ seg1 ->
  emit_const true (KNum 0) s1 = COk s2 -> ccode s2 = ccode s1 ++ segk ->
  LVPRO lv s2 sa segp lvi -> P_LYR lvi b sa st' 2 IterRange seg_r ->
  P_LY brk (SForIter lv t e b) st st' [] (seg1 ++ segk ++ segp ++ seg_r).
Proof.
  intros F1 C1 E1 CK EK HV PR T0 _.
  destruct (expr_step _ _ _ _ F1 C1 E1) as [L1 I1].
  destruct (const_sl _ _ _ CK) as (_ & AK & _ & _).
  destruct (lvpro_frame _ _ _ _ _ HV) as (_ & _ & L4 & _).
  apply (pseg_seq st s1 st' seg1 _ _ (pseg_expr _ _ _ _ _ F1 C1 E1)); [|exact L1|exact I1].
  apply (pseg_seq s1 s2 st' segk _ _ (pseg_const _ _ _ _ _ CK EK)); [|rewrite EK; lens; lia|rewrite AK; auto].
  apply (pseg_seq s2 sa st' segp _ _ (p_lvpro _ _ _ _ _ _ HV)); [|exact L4|apply (lvpro_inv _ _ _ _ _ HV)].
  apply PR. right. reflexivity.
Qed.

Lemma p_if brk c b elifs els st ste st' js bs seg :
  P_LYC brk true (CCons c b elifs) els st ste (N.of_nat (List.length (ccode st)) + N.of_nat (List.length seg)) js bs seg ->
  csym st' = csym ste -> P_LY brk (SIf c b elifs els) st st' bs seg.
Proof.
  intros PC HS T0 EB code pre post T kb HCode HL HI HK.
  destruct (PC eq_refl T0 EB code pre post kb HCode HL HI HK) as (_ & HK' & Ks & S).
  rewrite HS, HK'. split; [lia|]. split; [reflexivity|]. exists Ks. exact S.
Qed.

Lemma p_store brk l i e st st1 st2 st3 st' seg_e seg_l seg_i :
  efrag e = true -> compile_expr true e st = COk st1 -> ccode st1 = ccode st ++ seg_e ->
  efrag l = true -> compile_expr true l st1 = COk st2 -> ccode st2 = ccode st1 ++ seg_l ->
  efrag i = true -> compile_expr true i st2 = COk st3 -> ccode st3 = ccode st2 ++ seg_i ->
  csym st' = csym st ->
  P_LY brk (SAssign (EIndex l i) e) st st' [] (seg_e ++ seg_l ++ seg_i ++ [N_of_opc SetIndex]).
Proof.
  intros F1 C1 E1 F2 C2 E2 F3 C3 E3 HS T0 _.
  destruct (expr_step _ _ _ _ F1 C1 E1) as [L1 I1]. destruct (expr_step _ _ _ _ F2 C2 E2) as [L2 I2].
  destruct (expr_step _ _ _ _ F3 C3 E3) as [L3 I3].
  destruct (efrag_consts _ _ _ F1 C1) as [_ A1]. destruct (efrag_consts _ _ _ F2 C2) as [_ A2]. destruct (efrag_consts _ _ _ F3 C3) as [_ A3].
  apply (pseg_seq st st1 st' seg_e _ _ (pseg_expr _ _ _ _ _ F1 C1 E1)); [|exact L1|exact I1].
  apply (pseg_seq st1 st2 st' seg_l _ _ (pseg_expr _ _ _ _ _ F2 C2 E2)); [|exact L2|exact I2].
  apply (pseg_seq st2 st3 st' seg_i _ _ (pseg_expr _ _ _ _ _ F3 C3 E3)); [|exact L3|exact I3].
  intros code pre post T kb HCode HL HI HK.
  assert (EQ : kof (csym st') = kof (csym st3)) by (rewrite HS, A3, A2, A1; reflexivity).
  rewrite EQ. split; [lia|]. split; [discriminate|].
  exists (KPT (N.of_nat (List.length pre)) (kof (csym st3))).
  apply (seg_raw1 code pre post SetIndex); [exact HCode|reflexivity|lia].
Qed.

Theorem p_all :
  (forall brk s st st' bs seg, LY brk s st st' bs seg -> P_LY brk s st st' bs seg) /\
  (forall brk l st st' bs seg, LYL brk l st st' bs seg -> P_LYL brk l st st' bs seg) /\
  (forall brk fin l els st st' End js bs seg, LYC brk fin l els st st' End js bs seg -> P_LYC brk fin l els st st' End js bs seg) /\
  (forall lvi b s3 st' S rop seg, LYR lvi b s3 st' S rop seg -> P_LYR lvi b s3 st' S rop seg).
Proof.
  apply LY_mutind.
  - (* decl *) intros. eapply p_decl; eauto.
  - (* assign *) intros. eapply p_assign; eauto.
  - (* empty *) intros brk st T0 _. apply p_lyl_nil.
  - (* break *) intros brk st st' jb HB _ HS T0 E. subst brk. apply (p_break T0 st st' jb HB HS).
  - (* while *) intros. eapply p_while; eauto.
  - (* forstep *) intros. eapply p_forstep; eauto.
  - (* foriter *) intros. eapply p_foriter; eauto.
  - (* if *) intros. eapply p_if; eauto.
  - (* store *) intros. eapply p_store; eauto.
  - (* nil *) intros brk st T0 _. apply p_lyl_nil.
  - (* cons *) intros brk s t st st1 st2 bs1 bs2 seg1 seg2 L1 P1 HLen L2 P2 T0 E.
    apply (pseg_seq st st1 st2 seg1 seg2 _ (P1 T0 E) (P2 T0 E) HLen).
    destruct (proj1 ly_frame _ _ _ _ _ _ L1) as [_ SY1]. apply (sy_inv _ _ SY1).
  - (* nil noelse *) intros. apply p_lyc_nil_noelse. assumption.
  - (* nil else *) intros. eapply p_lyc_nil_else; eauto.
  - (* cons *) intros. eapply p_lyc_cons; eauto. apply (lyl_len _ _ _ _ _ _ l).
  - (* lyr *) intros rop S lvi b s3 stx stb st' bs_b seg_b jf jb sgv HV HCo HX HLx HB PB HJ1 HJ2 HCo' HP HR J.
    eapply p_lyr; eauto.
Qed.

Theorem compile_linitk_w : forall (p : slist) (st : cstate),
  cfrag_slist p = true -> nb_slist p = true -> compile p = COk st -> exists K, LINITK (ccode st) K.
Proof.
  intros p st HF HNB HC.
  unfold compile, compile_program in HC. rewrite compile_slist_body in HC.
  destruct (proj1 (proj2 ly_all_w) p HF cinit st HC) as (bs & seg & L0 & C & B).
  pose proof (proj1 (proj2 ly_no_breaks) _ _ _ _ _ _ L0 HNB) as ->.
  destruct (proj1 (proj2 (ly_brk_patch 0%Z)) _ _ _ _ _ _ L0 eq_refl st st (ccode cinit) []) as (seg' & C' & _ & _ & _ & _ & L);
    [rewrite app_nil_r; exact C|reflexivity|reflexivity|].
  rewrite app_nil_r, C in C'. apply app_inv_head in C'. subst seg'.
  change (ccode cinit) with (@nil N) in C. cbn [app] in C.
  destruct (proj1 (proj2 p_all) _ _ _ _ _ _ L 0 eq_refl (ccode st) [] [] 0 0) as (_ & E & Ks & S);
    [rewrite C, app_nil_r; reflexivity|reflexivity|apply inv_new|cbn; lia|].
  change (kof (csym cinit)) with 0 in *. cbn [List.length] in S. change (N.of_nat 0) with 0 in S. rewrite <- C in S.
  assert (S' : SEGOK (ccode st) Ks 0 (N.of_nat (List.length (ccode st))) 0 (kof (csym st)) (fun _ _ => False)).
  { eapply seg_resolve; [exact S|]. intros t kk [-> _].
    destruct (N.eq_dec (N.of_nat (List.length (ccode st))) 0) as [Z|NZ].
    - right. left. split; [lia|]. apply nlen0 in Z. rewrite <- C in E. rewrite (E Z). lia.
    - left. exists 0. split; [|lia]. destruct S as (_ & R2 & _). apply R2. exact NZ. }
  exists Ks. destruct S' as (R1 & R2 & R3). split.
  - intro NE. apply R2. destruct (ccode st); [congruence|cbn; lia].
  - intros pc k HK _. eapply icond_mono; [|apply (R3 pc k HK)]. cbn beta.
    intros t kk [X|[[Et _]|[]]]; [right; exact X|left; lia].
Qed.

(* every program of the fragment: in every run of the VM model on the compiled
   code, an OpGetLocal about to execute reads a slot that an executed OpSetLocal
   has written *)
Theorem compile_linit_safe_w : forall (p : slist) (st : cstate),
  cfrag_slist p = true -> nb_slist p = true -> compile p = COk st ->
  let prog := program_of (bytecode_of st) in
  forall s w, reach_w prog s w ->
  forall i, fetch prog s = Some i -> ip s < N.of_nat (List.length (pcode prog)) ->
            opc_of_N (iop i) = Some GetLocal -> In (arg0 i) w.
Proof.
  intros p st HF HN HC prog. destruct (compile_linitk_w p st HF HN HC) as (K & HK).
  apply (linitk_safe prog K). unfold prog, program_of, bytecode_of. cbn [pcode out_code]. exact HK.
Qed.

(* EVERY program the compiler accepts (element stores included): the side
   conditions are the two syntactic, parser-guaranteed ones of compile_wf_all *)
Theorem compile_linit_safe_all : forall (p : slist) (st : cstate),
  compile p = COk st -> wplain_slist p = true -> nb_slist p = true ->
  let prog := program_of (bytecode_of st) in
  forall s w, reach_w prog s w ->
  forall i, fetch prog s = Some i -> ip s < N.of_nat (List.length (pcode prog)) ->
            opc_of_N (iop i) = Some GetLocal -> In (arg0 i) w.
Proof.
  intros p st HC HP HN. apply (compile_linit_safe_w p st); [|exact HN|exact HC].
  rewrite <- pfrag2_cfrag. apply (compile_covered_wf p st HC HP).
Qed.
