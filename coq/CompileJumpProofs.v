(* CompileJumpProofs.v — well-formedness of code WITH jumps, at the level of
   instruction lists (opcode, operand): the pass of CompileWfProofs.v with the
   step jop_step, which treats OpJump as height-preserving for the instruction
   that follows it, and the requirement jop_req of a jump at its target.  The
   code is well formed (judgment WF of Bytecode.v) if the pass succeeds and
   every jump's target carries exactly the state the jump requires there
   (ops_WF); CompileCtlProofs.v shows that what the compiler emits for
   if / else-if / else, while, break and the for-range forms satisfies the
   premises. *)
From Coq Require Import ZArith NArith List Bool Lia ZifyBool ZifyNat ZifyN Floats.
From EvyV Require Import Base Bytecode BytecodeProofs SymTab SymTabProofs Vm VmProofs Compile CompileSem CompileProofs CompileWfProofs.
Require Import EvyV.Gen.Opcodes.
Import ListNotations.
Open Scope N_scope.

Definition jop_step (nc gc : N) (x : sop) (a : ast) : option ast :=
  if negb (snd x <? 65536) then None
  else match fst x, a with
       | Jump, AH k => Some (AH k)
       | JumpOnFalse, AH k => if 1 <=? k then Some (AH (k - 1)) else None
       | JumpOnFalse, ACond k => Some (AH (k + 1))
       | StepRange, AH k => if 3 <=? k then Some (if snd x =? 0 then AH (k + 1) else ACond k) else None
       | IterRange, AH k => if 2 <=? k then Some (if snd x =? 0 then AH (k + 1) else ACond k) else None
       | _, AH k => match sop_ok nc gc x k with Some k' => Some (AH k') | None => None end
       | _, ACond _ => None
       end.

(* a jump's target and the state it requires there *)
Definition jop_req (x : sop) (a : ast) : option (N * ast) :=
  match fst x, a with
  | Jump, AH k => Some (snd x, AH k)
  | JumpOnFalse, AH k => Some (snd x, AH (k - 1))
  | JumpOnFalse, ACond k => Some (snd x, AH k)
  | _, _ => None
  end.

Fixpoint jruns (nc gc : N) (ops : list sop) (a : ast) : option ast :=
  match ops with
  | [] => Some a
  | x :: t => match jop_step nc gc x a with Some a' => jruns nc gc t a' | None => None end
  end.

Fixpoint jannot (nc gc : N) (ops : list sop) (pc : N) (a : ast) : list (N * ast) :=
  match ops with
  | [] => []
  | x :: t => (pc, a) :: match jop_step nc gc x a with
                         | Some a' => jannot nc gc t (pc + ilen_of x) a'
                         | None => []
                         end
  end.

(* every jump of ops (run from state a) finds its required state at its
   target: in the annotation A, or at the end E with state aend *)
Fixpoint jtargets (nc gc : N) (A : list (N * ast)) (E : N) (aend : ast) (ops : list sop) (a : ast) : Prop :=
  match ops with
  | [] => True
  | x :: t =>
      match jop_req x a with
      | Some (T, ra) => (T = E /\ ra = aend) \/ In (T, ra) A
      | None => True
      end /\
      match jop_step nc gc x a with
      | Some a' => jtargets nc gc A E aend t a'
      | None => True
      end
  end.

Lemma jruns_app nc gc a : forall b s s1 s2,
  jruns nc gc a s = Some s1 -> jruns nc gc b s1 = Some s2 -> jruns nc gc (a ++ b) s = Some s2.
Proof.
  induction a as [|x t IH]; simpl; intros b s s1 s2 H1 H2.
  - inversion H1; subst; exact H2.
  - destruct (jop_step nc gc x s); [|discriminate]. eauto.
Qed.

Lemma jop_step_arg nc gc x a a' : jop_step nc gc x a = Some a' -> snd x < 65536.
Proof. unfold jop_step. destruct (snd x <? 65536) eqn:E; [lia|discriminate]. Qed.

Lemma jop_step_xfer nc gc x a a' pc : jop_step nc gc x a = Some a' ->
  xfer 0 pc (instr_of x) a = Some (psuccs jop_req x a a' pc).
Proof.
  intro H. pose proof (jop_step_arg _ _ _ _ _ H) as HA. unfold jop_step in H.
  destruct (snd x <? 65536) eqn:EA; [|discriminate]. cbn [negb] in H.
  destruct x as [o arg]. cbn [fst snd] in *.
  destruct o; destruct a as [k|k]; try discriminate H;
    try (match type of H with
         | match sop_ok ?n ?g ?x ?k with _ => _ end = _ =>
             destruct (sop_ok n g x k) as [k'|] eqn:ES; [|discriminate]; inversion H; subst a';
             unfold psuccs, jop_req; cbn [fst snd]; apply (sop_ok_xfer _ _ _ _ _ pc ES)
         end).
  (* the five jump cases: both sides by computation, once the height test of jop_step is decided *)
  all: unfold xfer, psuccs, jop_req, instr_of, arg0, ilen_of; cbn [iop iargs ilen fst snd has_operand nth];
    rewrite opc_of_N_of_opc.
  - (* Jump *) inversion H; subst a'. reflexivity.
  - (* JumpOnFalse, AH *) change (0 + 1) with 1. destruct (1 <=? k); [|discriminate]. inversion H; subst a'. reflexivity.
  - (* JumpOnFalse, ACond *) inversion H; subst a'. reflexivity.
  - (* StepRange *) change (0 + 3) with 3. destruct (3 <=? k); [|discriminate]. inversion H; subst a'. reflexivity.
  - (* IterRange *) change (0 + 2) with 2. destruct (2 <=? k); [|discriminate]. inversion H; subst a'. reflexivity.
Qed.

Lemma jop_step_operand_ok nc gc x a a' :
  jop_step nc gc x a = Some a' ->
  chk_nl nc gc (instr_of x) = true.
Proof.
  intro H. unfold jop_step in H. destruct (snd x <? 65536); [|discriminate]. cbn [negb] in H.
  destruct x as [o arg]. cbn [fst snd] in H.
  destruct (is_sl o) eqn:SL.
  - (* not a jump: jop_step is sop_ok, which has checked the operand *)
    assert (ES : exists k k', sop_ok nc gc (o, arg) k = Some k').
    { destruct o; try discriminate SL; destruct a as [k|k]; try discriminate H;
        exists k; (destruct (sop_ok nc gc _ k) as [k'|]; [eauto|discriminate H]). }
    destruct ES as (k & k' & ES). exact (proj1 (sop_ok_chk _ _ _ _ _ ES)).
  - (* a jump or a range instruction: chk_nl checks nothing *)
    unfold chk_nl, instr_of. cbn [iop fst]. rewrite opc_of_N_of_opc. destruct o; try discriminate SL; reflexivity.
Qed.

Lemma jump_target_req x a a' nc gc T : jop_step nc gc x a = Some a' ->
  jump_target (instr_of x) = Some T -> exists ra, jop_req x a = Some (T, ra).
Proof.
  intros HS HJ. unfold jump_target, instr_of, arg0 in HJ. cbn [iop iargs] in HJ. rewrite opc_of_N_of_opc in HJ.
  unfold jop_step in HS. destruct (snd x <? 65536); [|discriminate]. cbn [negb] in HS.
  destruct x as [o arg]. cbn [fst snd] in *. unfold jop_req. cbn [fst snd].
  destruct o; try discriminate HJ; cbn [has_operand nth] in HJ; inversion HJ; subst T;
    destruct a; try discriminate HS; eauto.
Qed.

Lemma jruns_pruns nc gc : forall ops a, jruns nc gc ops a = pruns (jop_step nc gc) ops a.
Proof. induction ops as [|x t IH]; intro a; cbn [jruns pruns]; [reflexivity|]. destruct (jop_step nc gc x a); auto. Qed.

Lemma jannot_pannot nc gc : forall ops pc a, jannot nc gc ops pc a = pannot (jop_step nc gc) ops pc a.
Proof.
  induction ops as [|x t IH]; intros pc a; cbn [jannot pannot]; [reflexivity|]. destruct (jop_step nc gc x a); [rewrite IH|]; reflexivity.
Qed.

Lemma jtargets_ptargets nc gc A E aend : forall ops a,
  jtargets nc gc A E aend ops a -> ptargets (jop_step nc gc) jop_req A E aend ops a.
Proof.
  induction ops as [|x t IH]; intro a; cbn [jtargets ptargets]; [auto|]. intros [H0 H1]. split; [exact H0|].
  destruct (jop_step nc gc x a); [apply IH; exact H1|exact I].
Qed.

(* with the operands of the local accesses below lc: WF with LocalCount = lc
   (the heights of the linear pass are counted from LocalCount) *)
Theorem ops_WF : forall nc gc lc ops,
  jruns nc gc ops (AH 0) = Some (AH 0) ->
  jtargets nc gc (jannot nc gc ops 0 (AH 0)) (total_len ops) (AH 0) ops (AH 0) ->
  Forall (lopk lc) ops ->
  WF {| bcode := encode ops; nconsts := nc; gcount := gc; lcount := lc |}.
Proof.
  intros nc gc lc ops HR HT HL. rewrite jruns_pruns in HR. rewrite jannot_pannot in HT. apply jtargets_ptargets in HT.
  apply (pass_WF nc gc (jop_step nc gc) jop_req); [| | | |exact HR|exact HT|exact HL].
  - intros x a a'. apply jop_step_arg.
  - intros x a a' pc. apply jop_step_xfer.
  - intros x a a'. apply jop_step_operand_ok.
  - intros x a a' T. apply jump_target_req.
Qed.
