(* CompileLocProofs.v — compile_correct with locals: declarations and loop
   variables inside blocks.  The semantics lx_l of CompileSem.v keeps a list
   of frames; the compiler's symbol table keeps a list of tables; the
   simulation relation RELs maps every live binding (visible or shadowed) to
   its slot — a global slot or a slot of the VM's local area.  Slot
   disjointness of simultaneously live symbols (SymTabProofs.chain_no_sharing)
   is what makes a store leave all other bindings alone. *)
From Coq Require Import ZArith NArith List Bool Lia ZifyBool ZifyNat ZifyN Floats.
From EvyV Require Import Base Bytecode BytecodeProofs SymTab SymTabProofs Vm VmProofs Compile CompileSem CompileProofs
     CompileWfProofs CompileStmtProofs CompileJumpProofs CompileHoleProofs CompileSymProofs CompileCtlProofs CompileSemProofs.
Require Import EvyV.Gen.Opcodes.
Import ListNotations.
Open Scope N_scope.

Definition tstore := list (str * symbol).
Definition stores (s : symtab) : list tstore := map store (cur s :: outers s).

Fixpoint sres (n : str) (ss : list tstore) : option symbol :=
  match ss with
  | [] => None
  | t :: r => match slookup n t with Some y => Some y | None => sres n r end
  end.

Lemma resolve_sres n s : st_resolve n s = sres n (stores s).
Proof.
  unfold st_resolve, stores. generalize (cur s :: outers s). induction l as [|t r IH]; [reflexivity|].
  cbn [resolve_in map sres]. destruct (slookup n (store t)); [reflexivity|exact IH].
Qed.

Definition FREL (ls gs : list value) (f : frame) (t : tstore) : Prop :=
  (forall n, alook n f = None <-> slookup n t = None) /\
  (forall n v y, alook n f = Some v -> slookup n t = Some y -> slot_holds y v ls gs).
Definition RELs (env : senv) (ss : list tstore) (ls gs : list value) : Prop := Forall2 (FREL ls gs) env ss.

Lemma rels_lookup env ss ls gs : RELs env ss ls gs -> forall n y v,
  sres n ss = Some y -> slook n env = Some v -> slot_holds y v ls gs.
Proof.
  induction 1 as [|f t env ss (HD & HV) _ IH]; intros n y v HR HL; [discriminate|].
  cbn [sres slook] in HR, HL.
  destruct (slookup n t) as [y0|] eqn:ES.
  - inversion HR; subst y0. destruct (alook n f) as [v0|] eqn:EA; [inversion HL; subst; eapply HV; eauto|].
    apply HD in EA. congruence.
  - destruct (alook n f) as [v0|] eqn:EA; [apply HD in ES; congruence|]. eapply IH; eauto.
Qed.

Lemma rels_vars_hold env s ls gs : RELs env (stores s) ls gs -> vars_hold (fun x => slook x env) s ls gs.
Proof. intros H n y v HR HE. rewrite resolve_sres in HR. apply (rels_lookup _ _ _ _ H n y v HR HE). Qed.

Definition same_slot (y y' : symbol) : Prop := sscp y = sscp y' /\ sidx y = sidx y'.
Definition put (y : symbol) (v : value) (ls gs : list value) : list value * list value :=
  match sscp y with
  | GlobalScope => (ls, set_nth (N.to_nat (sidx y)) v gs)
  | LocalScope => (set_nth (N.to_nat (sidx y)) v ls, gs)
  end.
Definition in_range (y : symbol) (ls gs : list value) : Prop :=
  match sscp y with
  | GlobalScope => (N.to_nat (sidx y) < List.length gs)%nat
  | LocalScope => (N.to_nat (sidx y) < List.length ls)%nat
  end.

Lemma put_same y v ls gs : in_range y ls gs -> slot_holds y v (fst (put y v ls gs)) (snd (put y v ls gs)).
Proof.
  unfold in_range, slot_holds, put. destruct (sscp y); cbn [fst snd]; intro H; apply nth_error_set_nth_same; exact H.
Qed.

Lemma put_other y v y' v' ls gs : ~ same_slot y y' -> slot_holds y' v' ls gs ->
  slot_holds y' v' (fst (put y v ls gs)) (snd (put y v ls gs)).
Proof.
  unfold same_slot, slot_holds, put. intros HN H.
  destruct (sscp y) eqn:E1; destruct (sscp y') eqn:E2; cbn [fst snd]; try exact H.
  - rewrite nth_error_set_nth_other; [exact H|]. intro EQ. apply HN. split; [reflexivity|lia].
  - rewrite nth_error_set_nth_other; [exact H|]. intro EQ. apply HN. split; [reflexivity|lia].
Qed.

Lemma put_lengths y v ls gs : List.length (fst (put y v ls gs)) = List.length ls /\ List.length (snd (put y v ls gs)) = List.length gs.
Proof. unfold put. destruct (sscp y); cbn [fst snd]; rewrite ?set_nth_length; auto. Qed.

(* every other binding of a table has another slot *)
Definition other (y : symbol) (t : tstore) (except : option str) : Prop :=
  forall n' y', slookup n' t = Some y' -> except <> Some n' -> ~ same_slot y y'.

Fixpoint sepl (y : symbol) (n : str) (ss : list tstore) : Prop :=
  match ss with
  | [] => True
  | t :: r => match slookup n t with
              | Some _ => other y t (Some n) /\ Forall (fun t' => other y t' None) r
              | None => other y t None /\ sepl y n r
              end
  end.

Lemma frel_put_other y v ls gs f t : other y t None -> FREL ls gs f t -> FREL (fst (put y v ls gs)) (snd (put y v ls gs)) f t.
Proof.
  intros HO (HD & HV). split; [exact HD|]. intros n v' y' HA HS.
  apply put_other; [apply (HO n y' HS); discriminate|apply (HV n v' y' HA HS)].
Qed.

Lemma rels_put_other y v ls gs env ss : Forall (fun t => other y t None) ss -> RELs env ss ls gs ->
  RELs env ss (fst (put y v ls gs)) (snd (put y v ls gs)).
Proof.
  intros HF H. induction H as [|f t env ss HFR _ IH]; [constructor|]. inversion HF; subst.
  constructor; [apply frel_put_other; assumption|apply IH; assumption].
Qed.

Lemma alook_cons_same n v f : alook n ((n, v) :: f) = Some v.
Proof. simpl. rewrite str_eqb_refl. reflexivity. Qed.
Lemma alook_cons_other n m v f : m <> n -> alook m ((n, v) :: f) = alook m f.
Proof. intro NE. simpl. destruct (str_eqb n m) eqn:E; [apply str_eqb_eq in E; congruence|reflexivity]. Qed.

(* the head frame gets a (new) binding for n whose symbol y is in the head table *)
Lemma frel_head_update y v ls gs f t n : in_range y ls gs -> slookup n t = Some y -> other y t (Some n) ->
  FREL ls gs f t -> FREL (fst (put y v ls gs)) (snd (put y v ls gs)) ((n, v) :: f) t.
Proof.
  intros HR HS HO (HD & HV). split.
  - intro m. destruct (str_eqb n m) eqn:E.
    + apply str_eqb_eq in E. subst m. rewrite alook_cons_same, HS. split; discriminate.
    + rewrite alook_cons_other; [apply HD|]. intros ->. rewrite str_eqb_refl in E. discriminate.
  - intros m v' y' HA HS'. destruct (str_eqb n m) eqn:E.
    + apply str_eqb_eq in E. subst m. rewrite alook_cons_same in HA. inversion HA; subst v'.
      rewrite HS in HS'. inversion HS'; subst y'. apply put_same. exact HR.
    + assert (NE : m <> n) by (intros ->; rewrite str_eqb_refl in E; discriminate).
      rewrite alook_cons_other in HA by exact NE. apply put_other; [|apply (HV m v' y' HA HS')].
      apply (HO m y' HS'). intro X. inversion X. congruence.
Qed.

Lemma rels_assign env ss ls gs : RELs env ss ls gs -> forall n y v env',
  sres n ss = Some y -> sassign n v env = Some env' -> sepl y n ss -> in_range y ls gs ->
  RELs env' ss (fst (put y v ls gs)) (snd (put y v ls gs)).
Proof.
  induction 1 as [|f t env ss HFR HT IH]; intros n y v env' HR HA HS HI; [discriminate|].
  cbn [sres sassign sepl] in HR, HA, HS. destruct HFR as (HD & HV).
  destruct (slookup n t) as [y0|] eqn:ES.
  - inversion HR; subst y0. destruct HS as [HO1 HO2].
    destruct (alook n f) as [v0|] eqn:EA; [|apply HD in EA; congruence].
    inversion HA; subst env'. constructor.
    + apply frel_head_update; auto. split; assumption.
    + apply rels_put_other; assumption.
  - destruct HS as [HO1 HS]. destruct (alook n f) as [v0|] eqn:EA; [apply HD in ES; congruence|].
    destruct (sassign n v env) as [env1|] eqn:EA1; [|discriminate]. inversion HA; subst env'.
    constructor; [apply frel_put_other; [exact HO1|split; assumption]|eapply IH; eauto].
Qed.

Definition NOSHARE (ts : list table) : Prop :=
  forall d1 d2 n1 n2 y1 y2, live_in ts d1 n1 y1 -> live_in ts d2 n2 y2 ->
    sscp y1 = sscp y2 -> sidx y1 = sidx y2 -> d1 = d2 /\ n1 = n2.

Lemma noshare_tail t r : NOSHARE (t :: r) -> NOSHARE r.
Proof.
  intros H d1 d2 n1 n2 y1 y2 L1 L2 E1 E2.
  assert (A1 : live_in (t :: r) (S d1) n1 y1) by (apply live_in_S; exact L1).
  assert (A2 : live_in (t :: r) (S d2) n2 y2) by (apply live_in_S; exact L2).
  destruct (H (S d1) (S d2) n1 n2 y1 y2 A1 A2 E1 E2) as [A B]. split; [lia|exact B].
Qed.

Lemma noshare_other_tail y n t r : NOSHARE (t :: r) -> live_in (t :: r) 0 n y ->
  Forall (fun t' => other y (store t') None) r.
Proof.
  intros H L. apply Forall_forall. intros t' HIn n' y' HS _ [E1 E2].
  apply In_nth_error in HIn. destruct HIn as (k & Hk).
  assert (L' : live_in (t :: r) (S k) n' y') by (apply live_in_S; exists t'; auto).
  destruct (H 0%nat (S k) n n' y y' L L' E1 E2). discriminate.
Qed.

Lemma sres_live : forall r n y, sres n (map store r) = Some y -> exists d, live_in r d n y.
Proof.
  induction r as [|t' r' IH]; intros n y HR; [discriminate|]. cbn [map sres] in HR.
  destruct (slookup n (store t')) as [y1|] eqn:E.
  - inversion HR; subst. exists 0%nat. apply live_in_0. exact E.
  - destruct (IH n y HR) as (d & L). exists (S d). apply live_in_S. exact L.
Qed.

Lemma noshare_sepl ts : NOSHARE ts -> forall n y, sres n (map store ts) = Some y -> sepl y n (map store ts).
Proof.
  induction ts as [|t r IH]; intros H n y HR; [exact I|]. cbn [map sres sepl] in *.
  destruct (slookup n (store t)) as [y0|] eqn:ES.
  - inversion HR; subst y0. assert (L : live_in (t :: r) 0 n y) by (apply live_in_0; exact ES). split.
    + intros n' y' HS NE [E1 E2]. assert (L' : live_in (t :: r) 0 n' y') by (apply live_in_0; exact HS).
      destruct (H 0%nat 0%nat n n' y y' L L' E1 E2) as [_ ->]. congruence.
    + rewrite Forall_map. apply (noshare_other_tail y n t r H L).
  - split.
    + intros n' y' HS _ [E1 E2].
      destruct (sres_live r n y HR) as (d & L0). assert (L : live_in (t :: r) (S d) n y) by (apply live_in_S; exact L0).
      assert (L' : live_in (t :: r) 0 n' y') by (apply live_in_0; exact HS).
      destruct (H (S d) 0%nat n n' y y' L L' E1 E2). discriminate.
    + apply IH; [eapply noshare_tail; eauto|exact HR].
Qed.

Lemma inv_sepl s n y : Inv s -> st_resolve n s = Some y -> sepl y n (stores s).
Proof.
  intros HI HR. rewrite resolve_sres in HR. unfold stores in *.
  apply noshare_sepl; [|exact HR]. intros d1 d2 n1 n2 y1 y2. apply (chain_no_sharing _ HI).
Qed.

Lemma stores_define n s : stores (fst (st_define n s)) =
  match slookup n (store (cur s)) with
  | Some _ => stores s
  | None => ((n, snd (st_define n s)) :: store (cur s)) :: map store (outers s)
  end.
Proof. unfold st_define, stores. destruct (slookup n (store (cur s))); reflexivity. Qed.

Lemma rels_declare env s ls gs n v : RELs env (stores s) ls gs -> Inv s ->
  let s' := fst (st_define n s) in let y := snd (st_define n s) in
  in_range y ls gs ->
  RELs (sdecl n v env) (stores s') (fst (put y v ls gs)) (snd (put y v ls gs)).
Proof.
  intros H HI s' y HR.
  pose proof (inv_define n s HI) as HI'. pose proof (define_then_resolve s n) as DR. fold s' y in HI', DR.
  pose proof (inv_sepl s' n y HI' DR) as HS.
  unfold s' in HS |- *. rewrite stores_define in HS |- *. unfold stores in H. cbn [map] in H.
  inversion H as [|f t env0 ss0 HFR HT]; subst. cbn [sdecl].
  destruct (slookup n (store (cur s))) as [y0|] eqn:ES.
  - (* an existing symbol of this scope *)
    assert (y = y0) by (unfold y, st_define; rewrite ES; reflexivity). subst y0.
    unfold stores in HS. cbn [map sepl] in HS. rewrite ES in HS. destruct HS as [HO1 HO2].
    unfold stores. cbn [map]. constructor; [apply frel_head_update; auto|apply rels_put_other; assumption].
  - cbn [sepl slookup] in HS. rewrite str_eqb_refl in HS. destruct HS as [HO1 HO2].
    constructor; [|apply rels_put_other; assumption].
    destruct HFR as (HD & HV). split.
    + intro m. cbn [slookup]. destruct (str_eqb n m) eqn:E.
      * apply str_eqb_eq in E. subst m. rewrite alook_cons_same. split; discriminate.
      * rewrite alook_cons_other; [apply HD|]. intros ->. rewrite str_eqb_refl in E. discriminate.
    + intros m v' y' HA HS'. cbn [slookup] in HS'. destruct (str_eqb n m) eqn:E.
      * apply str_eqb_eq in E. subst m. rewrite alook_cons_same in HA. inversion HA; subst v'. inversion HS'; subst y'.
        apply put_same. exact HR.
      * assert (NE : m <> n) by (intros ->; rewrite str_eqb_refl in E; discriminate).
        rewrite alook_cons_other in HA by exact NE. apply put_other; [|apply (HV m v' y' HA HS')].
        apply (HO1 m y'); [cbn [slookup]; rewrite E; exact HS'|]. intro X. inversion X. congruence.
Qed.

Lemma stores_push s : stores (st_push s) = [] :: stores s.
Proof. reflexivity. Qed.

Lemma stores_pop s : outers s <> [] -> stores (st_pop s) = tl (stores s).
Proof. unfold st_pop, stores. destruct (outers s) as [|o r]; [congruence|]. reflexivity. Qed.

Lemma rels_push env ss ls gs : RELs env ss ls gs -> RELs ([] :: env) ([] :: ss) ls gs.
Proof. intro H. constructor; [|exact H]. split; [intro n; split; reflexivity|intros n v y HA; discriminate]. Qed.

Lemma rels_tl env ss ls gs : RELs env ss ls gs -> RELs (tl env) (tl ss) ls gs.
Proof. intro H. inversion H; subst; [constructor|assumption]. Qed.

Definition rootcount (s : symtab) : N := index (last (outers s) (cur s)).

(* what a compiled statement may do to the symbol table, declarations at top
   level included: outer tables untouched, invariant kept, the bound on local
   slots and the count of global slots only grow *)
Record SY (s s' : symtab) : Prop := {
  sy_out : outers s' = outers s;
  sy_inv : Inv s -> Inv s';
  sy_bound : bound s <= bound s';
  sy_gc : rootcount s <= rootcount s'
}.

Lemma SY_refl s : SY s s.
Proof. constructor; auto; lia. Qed.
Lemma SY_eq s s' : s' = s -> SY s s'.
Proof. intros ->. apply SY_refl. Qed.
Lemma SY_trans s1 s2 s3 : SY s1 s2 -> SY s2 s3 -> SY s1 s3.
Proof.
  intros A B. constructor.
  - rewrite (sy_out _ _ B). apply (sy_out _ _ A).
  - intro H. apply (sy_inv _ _ B), (sy_inv _ _ A), H.
  - pose proof (sy_bound _ _ A). pose proof (sy_bound _ _ B). lia.
  - pose proof (sy_gc _ _ A). pose proof (sy_gc _ _ B). lia.
Qed.

Lemma last_irrel {A} (l : list A) a b : l <> [] -> last l a = last l b.
Proof. induction l as [|x r IH]; [congruence|]. intros _. destruct r; [reflexivity|]. cbn [last]. apply IH. discriminate. Qed.

Lemma SY_define n s : SY s (fst (st_define n s)).
Proof.
  destruct (define_frame n s) as (F1 & F2 & F3). constructor.
  - exact F1.
  - intro HI. apply inv_define. exact HI.
  - apply bound_define.
  - unfold rootcount. rewrite F1. destruct (outers s) as [|o r]; [cbn [last]; exact F3|].
    rewrite (last_irrel (o :: r) (cur (fst (st_define n s))) (cur s)) by discriminate. lia.
Qed.

Lemma last_cons_ne {A} (x : A) l d d' : l <> [] -> last (x :: l) d = last l d'.
Proof. destruct l as [|y r]; [congruence|]. intros _. apply (last_irrel (y :: r)). discriminate. Qed.

Lemma rootcount_push s : rootcount (st_push s) = rootcount s.
Proof.
  unfold rootcount, st_push. cbn [cur outers]. destruct (outers s) as [|o r]; [reflexivity|].
  apply (f_equal index). apply last_cons_ne. discriminate.
Qed.

Lemma SY_block s s3 : SY (st_push s) s3 -> SY s (st_pop s3).
Proof.
  intro A. pose proof (sy_out _ _ A) as HO. cbn [st_push outers] in HO.
  assert (EP : st_pop s3 = {| cur := {| store := store (cur s); index := index (cur s);
                                         nmax := N.max (nmax (cur s)) (nmax (cur s3) + index (cur s3)) |};
                              outers := outers s |}).
  { unfold st_pop. rewrite HO. reflexivity. }
  constructor.
  - rewrite EP. reflexivity.
  - intro H. apply inv_pop, (sy_inv _ _ A), inv_push, H.
  - pose proof (bound_step SPush s) as B1. pose proof (sy_bound _ _ A) as B2. pose proof (bound_step SPop s3) as B3.
    cbn [st_step fst] in B1, B3. lia.
  - rewrite EP. unfold rootcount. cbn [cur outers]. destruct (outers s) as [|o r]; [cbn [last index]; lia|].
    apply N.eq_le_incl. f_equal. apply last_irrel. discriminate.
Qed.

Lemma SY_scope s sx sb s' : sx = st_push s -> SY sx sb -> s' = st_pop sb -> SY s s'.
Proof. intros -> H ->. apply SY_block. exact H. Qed.

Definition lvsym := option (str * symbol).
Definition hvof (lvi : lvsym) : N := match lvi with Some _ => 1 | None => 0 end.
(* the store of the loop variable at the head of every round *)
Definition lvstore (lvi : lvsym) (sym : symtab) (sgv : list N) : Prop :=
  match lvi with
  | Some (n, y) => jbytes (setop y) (sidx y) sgv /\ st_resolve n sym = Some y
  | None => sgv = []
  end.
(* the prologue of a for loop: the loop variable is defined in the current
   scope and set to none *)
Definition LVPRO (lv : option str) (s3 sa : cstate) (segp : list N) (lvi : lvsym) : Prop :=
  match lv with
  | None => ccode sa = ccode s3 /\ cconsts sa = cconsts s3 /\ csym sa = csym s3 /\ segp = [] /\ lvi = None
  | Some n =>
      let y := snd (st_define n (csym s3)) in
      exists sg, jbytes (setop y) (sidx y) sg /\ segp = [N_of_opc ONone] ++ sg /\
        ccode sa = ccode s3 ++ segp /\ cconsts sa = cconsts s3 /\ csym sa = fst (st_define n (csym s3)) /\
        lvi = Some (n, y)
  end.

Inductive LY : option N -> stmt -> cstate -> cstate -> list Z -> list N -> Prop :=
| ly_decl brk n e st st1 st' seg_e sg :
    efrag e = true -> compile_expr true e st = COk st1 -> ccode st1 = ccode st ++ seg_e ->
    jbytes (setop (snd (st_define n (csym st)))) (sidx (snd (st_define n (csym st)))) sg ->
    cconsts st' = cconsts st1 -> csym st' = fst (st_define n (csym st)) ->
    LY brk (SDecl n e) st st' [] (seg_e ++ sg)
| ly_assign brk n e st st1 st' y seg_e sg :
    efrag e = true -> compile_expr true e st = COk st1 -> ccode st1 = ccode st ++ seg_e ->
    st_resolve n (csym st) = Some y -> jbytes (setop y) (sidx y) sg ->
    cconsts st' = cconsts st1 -> csym st' = csym st ->
    LY brk (SAssign (EVar n) e) st st' [] (seg_e ++ sg)
| ly_empty brk st : LY brk SEmpty st st [] []
| ly_break brk st st' jb :
    bshape brk jb -> cconsts st' = cconsts st -> csym st' = csym st ->
    LY brk SBreak st st' [Z.of_nat (List.length (ccode st))] jb
| ly_while brk c b st st1 stx stb st' bs_b seg_c seg_b jf jb :
    efrag c = true -> compile_expr true c st = COk st1 -> ccode st1 = ccode st ++ seg_c ->
    cconsts stx = cconsts st1 -> csym stx = st_push (csym st) ->
    N.of_nat (List.length (ccode stx)) = N.of_nat (List.length (ccode st1)) + 3 ->
    LYL (Some (N.of_nat (List.length (ccode st)) + N.of_nat (List.length (seg_c ++ jf ++ seg_b ++ jb)))) b stx stb bs_b seg_b ->
    jbytes JumpOnFalse (N.of_nat (List.length (ccode st)) + N.of_nat (List.length (seg_c ++ jf ++ seg_b ++ jb))) jf ->
    jbytes Jump (N.of_nat (List.length (ccode st))) jb ->
    cconsts st' = cconsts stb -> csym st' = st_pop (csym stb) ->
    LY brk (SWhile c b) st st' [] (seg_c ++ jf ++ seg_b ++ jb)
| ly_forstep brk lv start stop step b st s1 s2 s3 sa st' seg1 seg2 seg3 segp seg_r lvi :
    efrag stop = true -> compile_expr true stop st = COk s1 -> ccode s1 = ccode st ++ seg1 ->
    efrag (match step with OSome e => e | ONoneE => ENum 1 end) = true ->
    compile_expr true (match step with OSome e => e | ONoneE => ENum 1 end) s1 = COk s2 -> ccode s2 = ccode s1 ++ seg2 ->
    efrag (match start with OSome e => e | ONoneE => ENum 0 end) = true ->
    compile_expr true (match start with OSome e => e | ONoneE => ENum 0 end) s2 = COk s3 -> ccode s3 = ccode s2 ++ seg3 ->
    LVPRO lv s3 sa segp lvi ->
    LYR lvi b sa st' 3 StepRange seg_r ->
    LY brk (SForStep lv start stop step b) st st' [] (seg1 ++ seg2 ++ seg3 ++ segp ++ seg_r)
| ly_foriter brk lv t e b st s1 s2 sa st' seg1 segk segp seg_r lvi :
    (t = TStr \/ t = TArr \/ t = TMap) ->
    efrag e = true -> compile_expr true e st = COk s1 -> ccode s1 = ccode st ++ seg1 ->
    emit_const true (KNum 0) s1 = COk s2 -> ccode s2 = ccode s1 ++ segk ->
    LVPRO lv s2 sa segp lvi ->
    LYR lvi b sa st' 2 IterRange seg_r ->
    LY brk (SForIter lv t e b) st st' [] (seg1 ++ segk ++ segp ++ seg_r)
| ly_if brk c b elifs els st ste st' js bs seg :
    LYC brk true (CCons c b elifs) els st ste (N.of_nat (List.length (ccode st)) + N.of_nat (List.length seg)) js bs seg ->
    cconsts st' = cconsts ste -> csym st' = csym ste ->
    LY brk (SIf c b elifs els) st st' bs seg
(* l[i] = e: the value, the container, the index, OpSetIndex.  (The semantics lx_s
   has no element stores — Vm.v does not perform them —, so the simulation is
   vacuous here; the constructor exists for the static properties of the layout:
   CompileInitProofs.v.) *)
| ly_store brk l i e st st1 st2 st3 st' seg_e seg_l seg_i :
    efrag e = true -> compile_expr true e st = COk st1 -> ccode st1 = ccode st ++ seg_e ->
    efrag l = true -> compile_expr true l st1 = COk st2 -> ccode st2 = ccode st1 ++ seg_l ->
    efrag i = true -> compile_expr true i st2 = COk st3 -> ccode st3 = ccode st2 ++ seg_i ->
    cconsts st' = cconsts st3 -> csym st' = csym st ->
    LY brk (SAssign (EIndex l i) e) st st' [] (seg_e ++ seg_l ++ seg_i ++ [N_of_opc SetIndex])
with LYL : option N -> slist -> cstate -> cstate -> list Z -> list N -> Prop :=
| lyl_nil brk st : LYL brk SNil st st [] []
| lyl_cons brk s t st st1 st2 bs1 bs2 seg1 seg2 :
    LY brk s st st1 bs1 seg1 ->
    N.of_nat (List.length (ccode st1)) = N.of_nat (List.length (ccode st)) + N.of_nat (List.length seg1) ->
    LYL brk t st1 st2 bs2 seg2 ->
    LYL brk (SCons s t) st st2 (bs1 ++ bs2) (seg1 ++ seg2)
with LYC : option N -> bool -> clist -> oslist -> cstate -> cstate -> N -> list Z -> list Z -> list N -> Prop :=
| lyc_nil_noelse brk fin st End : End = N.of_nat (List.length (ccode st)) -> LYC brk fin CNil NoElse st st End [] [] []
| lyc_nil_else brk fin eb st sty ste st' End bs_e seg_e :
    cconsts sty = cconsts st -> csym sty = st_push (csym st) ->
    List.length (ccode sty) = List.length (ccode st) ->
    LYL brk eb sty ste bs_e seg_e -> End = N.of_nat (List.length (ccode st)) + N.of_nat (List.length seg_e) ->
    cconsts st' = cconsts ste -> csym st' = st_pop (csym ste) ->
    LYC brk fin CNil (Else eb) st st' End [] bs_e seg_e
| lyc_cons brk fin c b t els st st1 stx stb sty st' End js bs_b bs_r seg_c seg_b jf je seg_r :
    efrag c = true -> compile_expr true c st = COk st1 -> ccode st1 = ccode st ++ seg_c ->
    cconsts stx = cconsts st1 -> csym stx = st_push (csym st) ->
    N.of_nat (List.length (ccode stx)) = N.of_nat (List.length (ccode st1)) + 3 ->
    LYL brk b stx stb bs_b seg_b ->
    jbytes JumpOnFalse (N.of_nat (List.length (ccode st)) + N.of_nat (List.length (seg_c ++ jf ++ seg_b ++ je))) jf ->
    jshape fin End je ->
    cconsts sty = cconsts stb -> csym sty = st_pop (csym stb) ->
    N.of_nat (List.length (ccode sty)) = N.of_nat (List.length (ccode stb)) + 3 ->
    LYC brk fin t els sty st' End js bs_r seg_r ->
    LYC brk fin (CCons c b t) els st st' End
         (Z.of_nat (List.length (ccode st) + List.length (seg_c ++ jf ++ seg_b)) :: js)
         (bs_b ++ bs_r)
         (seg_c ++ jf ++ seg_b ++ je ++ seg_r)
with LYR : lvsym -> slist -> cstate -> cstate -> N -> opc -> list N -> Prop :=
| lyr rop S lvi b s3 stx stb st' bs_b seg_b jf jb sgv :
    lvstore lvi (csym s3) sgv ->
    cconsts stx = cconsts s3 -> csym stx = st_push (csym s3) ->
    N.of_nat (List.length (ccode stx)) = N.of_nat (List.length (ccode s3)) + 6 + N.of_nat (List.length sgv) ->
    LYL (Some (N.of_nat (List.length (ccode s3)) + N.of_nat (List.length ([N_of_opc rop; 0; hvof lvi] ++ jf ++ sgv ++ seg_b ++ jb)))) b stx stb bs_b seg_b ->
    jbytes JumpOnFalse (N.of_nat (List.length (ccode s3)) + N.of_nat (List.length ([N_of_opc rop; 0; hvof lvi] ++ jf ++ sgv ++ seg_b ++ jb))) jf ->
    jbytes Jump (N.of_nat (List.length (ccode s3))) jb ->
    cconsts st' = cconsts stb -> csym st' = st_pop (csym stb) ->
    LYR lvi b s3 st' S rop ([N_of_opc rop; 0; hvof lvi] ++ jf ++ sgv ++ seg_b ++ jb ++ [N_of_opc Drop; 0; S]).

Scheme LY_mind := Induction for LY Sort Prop
  with LYL_mind := Induction for LYL Sort Prop
  with LYC_mind := Induction for LYC Sort Prop
  with LYR_mind := Induction for LYR Sort Prop.
Combined Scheme LY_mutind from LY_mind, LYL_mind, LYC_mind, LYR_mind.

Lemma lvpro_frame lv s3 sa segp lvi : LVPRO lv s3 sa segp lvi ->
  cconsts sa = cconsts s3 /\ SY (csym s3) (csym sa) /\
  N.of_nat (List.length (ccode sa)) = N.of_nat (List.length (ccode s3)) + N.of_nat (List.length segp) /\
  lvstore lvi (csym sa) (match lvi with Some _ => skipn 1 segp | None => [] end).
Proof.
  unfold LVPRO. destruct lv as [n|].
  - intros (sg & HJ & -> & C & K & S & ->). split; [exact K|]. split; [rewrite S; apply SY_define|].
    split; [rewrite C, app_length; lia|]. cbn [lvstore skipn app]. split; [exact HJ|]. rewrite S. apply define_then_resolve.
  - intros (C & K & S & -> & ->). split; [exact K|]. split; [apply SY_eq; exact S|]. split; [rewrite C; simpl; lia|reflexivity].
Qed.

Lemma lvpro_code lv s3 sa segp lvi : LVPRO lv s3 sa segp lvi -> ccode sa = ccode s3 ++ segp.
Proof.
  unfold LVPRO. destruct lv; [intros (sg & _ & _ & C & _); exact C|intros (C & _ & _ & -> & _); rewrite app_nil_r; exact C].
Qed.

(* consts only grow; the table moves along SY *)
Lemma ly_frame :
  (forall brk s st st' bs seg, LY brk s st st' bs seg -> (exists newc, cconsts st' = cconsts st ++ newc) /\ SY (csym st) (csym st')) /\
  (forall brk l st st' bs seg, LYL brk l st st' bs seg -> (exists newc, cconsts st' = cconsts st ++ newc) /\ SY (csym st) (csym st')) /\
  (forall brk fin l els st st' End js bs seg, LYC brk fin l els st st' End js bs seg ->
     (exists newc, cconsts st' = cconsts st ++ newc) /\ SY (csym st) (csym st')) /\
  (forall lvi b s3 st' S rop seg, LYR lvi b s3 st' S rop seg ->
     (exists newc, cconsts st' = cconsts s3 ++ newc) /\ SY (csym s3) (csym st')).
Proof.
  apply LY_mutind; intros;
    repeat match goal with
    | HF : efrag ?e = true, HC : compile_expr true ?e ?st = COk ?st1 |- _ =>
        let nc := fresh "nc" in let K := fresh "K" in let SE := fresh "SE" in
        destruct (efrag_consts e st st1 HF HC) as [(nc & K) SE]; clear HC
    | HC : emit_const true ?k ?st = COk ?st1 |- _ =>
        let K := fresh "Kk" in let SE := fresh "SEk" in
        destruct (const_sl _ _ _ HC) as (_ & SE & _ & K); clear HC
    | HP : LVPRO _ _ _ _ _ |- _ =>
        let K := fresh "Kp" in let SP := fresh "SP" in
        destruct (lvpro_frame _ _ _ _ _ HP) as (K & SP & _ & _); clear HP
    | H : (exists newc, _) /\ _ |- _ => let nb := fresh "nb" in let Kb := fresh "Kb" in let Sb := fresh "Sb" in destruct H as [(nb & Kb) Sb]
    end;
    (split; [first [exists []; rewrite app_nil_r; first [reflexivity|assumption] | chain_consts]|]).
  - rewrite e4. apply SY_define.
  - apply SY_eq. exact e5.
  - apply SY_refl.
  - apply SY_eq. exact e0.
  - apply (SY_scope _ _ _ _ e3 Sb e6).
  - apply (SY_trans _ (csym s3)); [apply SY_eq; congruence|apply (SY_trans _ _ _ SP Sb)].
  - apply (SY_trans _ (csym s2)); [apply SY_eq; congruence|apply (SY_trans _ _ _ SP Sb)].
  - rewrite e0. exact Sb.
  - apply SY_eq. exact e10.
  - apply SY_refl.
  - apply (SY_trans _ _ _ Sb0 Sb).
  - apply SY_refl.
  - apply (SY_scope _ _ _ _ e0 Sb e4).
  - apply (SY_trans _ (csym sty)); [apply (SY_scope _ _ _ _ e3 Sb0 e6)|exact Sb].
  - apply (SY_scope _ _ _ _ e0 Sb e3).
Qed.

Lemma ly_len :
  (forall brk s st st' bs seg, LY brk s st st' bs seg -> True) /\
  (forall brk l st st' bs seg, LYL brk l st st' bs seg ->
     N.of_nat (List.length (ccode st')) = N.of_nat (List.length (ccode st)) + N.of_nat (List.length seg)) /\
  (forall brk fin l els st st' End js bs seg, LYC brk fin l els st st' End js bs seg ->
     End = N.of_nat (List.length (ccode st)) + N.of_nat (List.length seg)) /\
  (forall lvi b s3 st' S rop seg, LYR lvi b s3 st' S rop seg -> True).
Proof.
  apply LY_mutind; intros; auto.
  - simpl. lia.
  - rewrite app_length, Nat2N.inj_add. lia.
  - simpl. lia.
  - subst End. pose proof (jbytes_len _ _ _ j) as Lj.
    pose proof (jshape_len _ _ _ j0) as Lje.
    apply (f_equal (@List.length N)) in e1. rewrite app_length in e1.
    rewrite !app_length, Lj, Lje, !Nat2N.inj_add. lia.
Qed.

Lemma lyl_len : forall brk l st st' bs seg, LYL brk l st st' bs seg ->
  N.of_nat (List.length (ccode st')) = N.of_nat (List.length (ccode st)) + N.of_nat (List.length seg).
Proof. apply ly_len. Qed.

Lemma chain_global_below ts : chain_ok ts -> forall d n y, live_in ts d n y -> sscp y = GlobalScope ->
  sidx y < index (last ts {| store := []; index := 0; nmax := 0 |}).
Proof.
  induction ts as [|t tl IH]; [simpl; tauto|]. intros H d n y L S.
  destruct tl as [|o r].
  - destruct d; [|destruct L as (? & E & _); destruct d; discriminate].
    apply live_0 in L. simpl in H. destruct H as (_ & B & _). apply B in L. cbn [last]. lia.
  - apply chain_ok_cons in H; [|discriminate]. destruct H as [(A & B & C) H2].
    destruct d.
    + apply live_0 in L. apply B in L. destruct L as (_ & X & _). congruence.
    + apply live_S in L. change (last (t :: o :: r) _) with (last (o :: r) {| store := []; index := 0; nmax := 0 |}).
      apply (IH H2 d n y L S).
Qed.

Lemma resolve_global_below s n y : Inv s -> st_resolve n s = Some y -> sscp y = GlobalScope -> sidx y < rootcount s.
Proof.
  intros HI HR HS. pose proof (resolve_innermost s n) as RI. rewrite HR in RI. destruct RI as (d & L & _).
  pose proof (chain_global_below _ HI d n y L HS) as X. unfold rootcount.
  destruct (outers s) as [|o r] eqn:E; [cbn [last] in *; exact X|].
  change (last (cur s :: o :: r) _) with (last (o :: r) {| store := []; index := 0; nmax := 0 |}) in X.
  rewrite (last_irrel (o :: r) (cur s) {| store := []; index := 0; nmax := 0 |}) by discriminate. exact X.
Qed.

Lemma resolve_in_range s n y ls gs : Inv s -> st_resolve n s = Some y ->
  rootcount s <= N.of_nat (List.length gs) -> bound s <= N.of_nat (List.length ls) -> in_range y ls gs.
Proof.
  intros HI HR HG HL. unfold in_range. destruct (sscp y) eqn:E.
  - pose proof (resolve_global_below s n y HI HR E). lia.
  - pose proof (resolve_local_below s n y HI HR E). lia.
Qed.

Definition MS (G L : nat) (st : cstate) (env : senv) (base : list value) (vs : vmstate) : Prop :=
  ostack vs = base /\ List.length (locals vs) = L /\ List.length (globals vs) = G /\
  RELs env (stores (csym st)) (locals vs) (globals vs).
(* while a break is under way the innermost frame may lack declarations the
   table already has (the rest of the block was compiled but not executed) *)
Definition MSb (br : bool) (G L : nat) (st : cstate) (env : senv) (base : list value) (vs : vmstate) : Prop :=
  ostack vs = base /\ List.length (locals vs) = L /\ List.length (globals vs) = G /\
  if br then RELs (tl env) (tl (stores (csym st))) (locals vs) (globals vs)
  else RELs env (stores (csym st)) (locals vs) (globals vs).

Lemma ms_msb G L st env base vs br : MS G L st env base vs -> MSb br G L st env base vs.
Proof. intros (A & B & C & D). repeat split; auto. destruct br; [apply rels_tl|]; exact D. Qed.

(* an expression, from any stack *)
Lemma expr_runs_ms G L e st st1 seg_e env v base p vs pre post :
  efrag e = true -> compile_expr true e st = COk st1 -> ccode st1 = ccode st ++ seg_e ->
  eval_expr (fun x => slook x env) e = Some v ->
  pcode p = pre ++ seg_e ++ post -> consts_of p st1 -> ip vs = N.of_nat (List.length pre) ->
  MS G L st env base vs -> N.of_nat L + N.of_nat (List.length base) + edepth e <= StackSize ->
  exists vs1, reaches p vs vs1 /\ ip vs1 = N.of_nat (List.length (pre ++ seg_e)) /\ MS G L st1 env (v :: base) vs1.
Proof.
  intros HF HC HSeg HE HP (more & HK) HI (M1 & M2 & M3 & M4) HD.
  destruct (compile_expr_correct_v e HF _ st st1 v HC HE) as (_ & seg & newc & B & _ & D).
  assert (seg = seg_e) by (rewrite HSeg in B; apply app_inv_head in B; congruence). subst seg.
  destruct (D p vs more pre post HP HK HI (rels_vars_hold _ _ _ _ M4)) as (n & R); [rewrite M1, M2; lia|].
  eexists. split; [exists n; exact R|]. cbn [ip].
  split; [rewrite HI, app_length, Nat2N.inj_add; reflexivity|].
  repeat split; cbn [ostack locals globals]; auto; [rewrite M1; reflexivity|].
  rewrite (proj2 (efrag_consts e st st1 HF HC)). exact M4.
Qed.

Lemma step_setvar p vs pre post sg y v rest :
  jbytes (setop y) (sidx y) sg -> pcode p = pre ++ sg ++ post -> ip vs = N.of_nat (List.length pre) ->
  ostack vs = v :: rest -> in_range y (locals vs) (globals vs) ->
  vm_step p vs = Running {| ip := ip vs + 3; ostack := rest;
                            locals := fst (put y v (locals vs) (globals vs)); globals := snd (put y v (locals vs) (globals vs)) |}.
Proof.
  intros (hi & lo & -> & E) HC HI HS HR.
  assert (HO : has_operand (setop y) = true) by (unfold setop; destruct (sscp y); reflexivity).
  rewrite (fetch_arg p vs (setop y) hi lo pre post HC HI HO). rewrite E.
  unfold setop, put, in_range in *. destruct (sscp y).
  - rewrite (exec_setglobal p vs _ _ v rest HS HR). reflexivity.
  - unfold exec. cbn [simple_effect]. change (N.to_nat 1) with 1%nat. rewrite HS. cbn [List.length Nat.ltb Nat.leb firstn skipn hd].
    unfold set_nth_opt. destruct (N.to_nat (sidx y) <? List.length (locals vs))%nat eqn:EL; [reflexivity|apply Nat.ltb_ge in EL; lia].
Qed.

(* the store as a run between MS states: the slot of y gets v, the rest of
   the frame and the global array are as before *)
Lemma store_runs G L st env y v base p vs pre post sg :
  jbytes (setop y) (sidx y) sg -> pcode p = pre ++ sg ++ post -> ip vs = N.of_nat (List.length pre) ->
  MS G L st env (v :: base) vs -> in_range y (locals vs) (globals vs) ->
  exists vs', reaches p vs vs' /\ ip vs' = N.of_nat (List.length (pre ++ sg)) /\
    ostack vs' = base /\ List.length (locals vs') = L /\ List.length (globals vs') = G /\
    locals vs' = fst (put y v (locals vs) (globals vs)) /\ globals vs' = snd (put y v (locals vs) (globals vs)).
Proof.
  intros HJ HP HI (M1 & M2 & M3 & _) HR. destruct (put_lengths y v (locals vs) (globals vs)) as [PL PG].
  eexists. split; [apply reaches_step, (step_setvar p vs pre post sg y v base HJ HP HI M1 HR)|]. cbn [ip ostack locals globals].
  split; [rewrite HI, app_length, (jbytes_len _ _ _ HJ), Nat2N.inj_add; reflexivity|]. repeat split; congruence.
Qed.

(* a condition and its JumpOnFalse: on true the machine is behind the jump, on
   false at its target *)
Lemma cond_runs_ms G L c st st1 seg_c env b base p vs pre post jf T :
  efrag c = true -> compile_expr true c st = COk st1 -> ccode st1 = ccode st ++ seg_c ->
  eval_expr (fun x => slook x env) c = Some (VBool b) -> jbytes JumpOnFalse T jf ->
  pcode p = pre ++ seg_c ++ jf ++ post -> consts_of p st1 -> ip vs = N.of_nat (List.length pre) ->
  MS G L st env base vs -> N.of_nat L + N.of_nat (List.length base) + edepth c <= StackSize ->
  exists vs2, reaches p vs vs2 /\ ip vs2 = (if b then N.of_nat (List.length (pre ++ seg_c ++ jf)) else T) /\
    MS G L st env base vs2.
Proof.
  intros HF HC HS HE HJ HP HK HI HM HD.
  destruct (expr_runs_ms G L c st st1 seg_c env (VBool b) base p vs pre (jf ++ post) HF HC HS HE HP HK HI HM HD)
    as (vs1 & R1 & I1 & M1 & M2 & M3 & M4).
  eexists. split; [eapply reaches_trans; [exact R1|apply reaches_step, (step_jof p vs1 (pre ++ seg_c) post jf T b base HJ)];
                   [rewrite HP, <- app_assoc; reflexivity|exact I1|exact M1]|].
  cbn [ip ostack locals globals]. split.
  - destruct b; [|reflexivity]. rewrite I1, !app_length, (jbytes_len _ _ _ HJ), !Nat2N.inj_add. cbn. lia.
  - rewrite (proj2 (efrag_consts c st st1 HF HC)) in M4. repeat split; assumption.
Qed.

Lemma stores_tl s : tl (stores s) = map store (outers s).
Proof. reflexivity. Qed.

Lemma block_stores s s3 : outers s3 = cur s :: outers s -> stores (st_pop s3) = stores s.
Proof. intro H. unfold st_pop, stores. rewrite H. reflexivity. Qed.

(* a block leaves the tables as they were *)
Lemma lyl_block_stores brk b stx stb bs seg s : LYL brk b stx stb bs seg -> csym stx = st_push s ->
  stores (st_pop (csym stb)) = stores s.
Proof.
  intros HL HS. destruct (proj1 (proj2 ly_frame) _ _ _ _ _ _ HL) as [_ SYb].
  pose proof (sy_out _ _ SYb) as HOut. rewrite HS in HOut. apply block_stores. exact HOut.
Qed.

Lemma rootcount_pop s : outers s <> [] -> rootcount (st_pop s) = rootcount s.
Proof.
  unfold rootcount, st_pop. destruct (outers s) as [|o r]; [congruence|]. intros _. cbn [cur outers].
  destruct r as [|o2 r2]; [reflexivity|]. apply (f_equal index).
  change (last (o :: o2 :: r2) (cur s)) with (last (o2 :: r2) (cur s)). apply last_irrel. discriminate.
Qed.

Lemma bound_pop s : bound s <= bound (st_pop s).
Proof. apply (bound_step SPop s). Qed.
Lemma bound_push s : bound s <= bound (st_push s).
Proof. apply (bound_step SPush s). Qed.

Definition SIMs (fuel : nat) (T : N) (s : stmt) (st st' : cstate) (seg : list N) : Prop :=
  forall G L env env' br base, lx_s fuel s env = Some (env', br) -> forall p vs pre post,
    pcode p = pre ++ seg ++ post -> List.length pre = List.length (ccode st) -> consts_of p st' ->
    ip vs = N.of_nat (List.length pre) -> MS G L st env base vs -> Inv (csym st) ->
    rootcount (csym st') <= N.of_nat G -> bound (csym st') <= N.of_nat L ->
    N.of_nat L + N.of_nat (List.length base) + sdepth s <= StackSize ->
    exists vs', reaches p vs vs' /\ ip vs' = (if br then T else ip vs + N.of_nat (List.length seg)) /\ MSb br G L st' env' base vs'.

Definition SIMl (fuel : nat) (T : N) (l : slist) (st st' : cstate) (seg : list N) : Prop :=
  forall G L env env' br base, lx_l fuel l env = Some (env', br) -> forall p vs pre post,
    pcode p = pre ++ seg ++ post -> List.length pre = List.length (ccode st) -> consts_of p st' ->
    ip vs = N.of_nat (List.length pre) -> MS G L st env base vs -> Inv (csym st) ->
    rootcount (csym st') <= N.of_nat G -> bound (csym st') <= N.of_nat L ->
    N.of_nat L + N.of_nat (List.length base) + ldepth l <= StackSize ->
    exists vs', reaches p vs vs' /\ ip vs' = (if br then T else ip vs + N.of_nat (List.length seg)) /\ MSb br G L st' env' base vs'.

Definition SIMc (fuel : nat) (T : N) (l : clist) (els : oslist) (st st' : cstate) (End : N) (seg : list N) : Prop :=
  forall G L env env' br base, lx_c fuel l els env = Some (env', br) -> forall p vs pre post,
    pcode p = pre ++ seg ++ post -> List.length pre = List.length (ccode st) -> consts_of p st' ->
    ip vs = N.of_nat (List.length pre) -> MS G L st env base vs -> Inv (csym st) ->
    rootcount (csym st') <= N.of_nat G -> bound (csym st') <= N.of_nat L ->
    N.of_nat L + N.of_nat (List.length base) + cdepth l <= StackSize ->
    N.of_nat L + N.of_nat (List.length base) + odepth els <= StackSize ->
    exists vs', reaches p vs vs' /\ ip vs' = (if br then T else End) /\ MSb br G L st' env' base vs'.

Definition lvname (lvi : lvsym) : option str := option_map fst lvi.

Definition SIMr (fuel : nat) (lvi : lvsym) (b : slist) (s3 st' : cstate) (seg : list N) : Prop :=
  forall G L env env' br idx stp stop base, lx_r fuel (lvname lvi) idx stp stop b env = Some (env', br) -> forall p vs pre post,
    pcode p = pre ++ seg ++ post -> List.length pre = List.length (ccode s3) -> consts_of p st' ->
    ip vs = N.of_nat (List.length pre) -> PrimFloat.eqb stp 0 = false ->
    MS G L s3 env (VNum idx :: VNum stp :: VNum stop :: base) vs -> Inv (csym s3) ->
    rootcount (csym st') <= N.of_nat G -> bound (csym st') <= N.of_nat L ->
    N.of_nat L + N.of_nat (List.length base) + 5 <= StackSize -> N.of_nat L + N.of_nat (List.length base) + 3 + ldepth b <= StackSize ->
    exists vs', reaches p vs vs' /\ ip vs' = ip vs + N.of_nat (List.length seg) /\ br = false /\ MS G L st' env' base vs'.

Definition SIMi (fuel : nat) (lvi : lvsym) (b : slist) (s3 st' : cstate) (seg : list N) : Prop :=
  forall G L env env' br idx iter base, lx_i fuel (lvname lvi) idx iter b env = Some (env', br) -> forall p vs pre post,
    pcode p = pre ++ seg ++ post -> List.length pre = List.length (ccode s3) -> consts_of p st' ->
    ip vs = N.of_nat (List.length pre) ->
    MS G L s3 env (VNum idx :: iter :: base) vs -> Inv (csym s3) ->
    rootcount (csym st') <= N.of_nat G -> bound (csym st') <= N.of_nat L ->
    N.of_nat L + N.of_nat (List.length base) + 4 <= StackSize -> N.of_nat L + N.of_nat (List.length base) + 2 + ldepth b <= StackSize ->
    exists vs', reaches p vs vs' /\ ip vs' = ip vs + N.of_nat (List.length seg) /\ br = false /\ MS G L st' env' base vs'.

Definition ALLs f := forall T s st st' bs seg, LY (Some T) s st st' bs seg -> SIMs f T s st st' seg.
Definition ALLl f := forall T l st st' bs seg, LYL (Some T) l st st' bs seg -> SIMl f T l st st' seg.
Definition ALLc f := forall T l els st st' End js bs seg, LYC (Some T) true l els st st' End js bs seg -> SIMc f T l els st st' End seg.
Definition ALLr f := forall lvi b s3 st' seg, LYR lvi b s3 st' 3 StepRange seg -> SIMr f lvi b s3 st' seg.
Definition ALLi f := forall lvi b s3 st' seg, LYR lvi b s3 st' 2 IterRange seg -> SIMi f lvi b s3 st' seg.

(* the body of a block compiled from stx (= the pushed state) to stb, run from
   [] :: env; the result is stated for the popped state *)
Lemma sim_block f T b stx stb bs seg_b (s0 : symtab) :
  ALLl f -> LYL (Some T) b stx stb bs seg_b -> csym stx = st_push s0 ->
  forall G L env env1 br base, leave (lx_l f b ([] :: env)) = Some (env1, br) -> forall p vs pre post,
    pcode p = pre ++ seg_b ++ post -> List.length pre = List.length (ccode stx) -> consts_of p stb ->
    ip vs = N.of_nat (List.length pre) ->
    ostack vs = base -> List.length (locals vs) = L -> List.length (globals vs) = G ->
    RELs env (stores s0) (locals vs) (globals vs) -> Inv s0 ->
    rootcount (st_pop (csym stb)) <= N.of_nat G -> bound (st_pop (csym stb)) <= N.of_nat L ->
    N.of_nat L + N.of_nat (List.length base) + ldepth b <= StackSize ->
    exists vs', reaches p vs vs' /\ ip vs' = (if br then T else ip vs + N.of_nat (List.length seg_b)) /\
      ostack vs' = base /\ List.length (locals vs') = L /\ List.length (globals vs') = G /\
      RELs env1 (stores s0) (locals vs') (globals vs') /\ stores (st_pop (csym stb)) = stores s0.
Proof.
  intros IHl HL HS G L env env1 br base HX p vs pre post HP HLen HK HI HO HLl HLg HR HInv HG HB HD.
  unfold leave in HX. destruct (lx_l f b ([] :: env)) as [[env1' br']|] eqn:HXb; [|discriminate]. inversion HX; subst env1 br'.
  destruct (proj1 (proj2 ly_frame) _ _ _ _ _ _ HL) as [_ SYb].
  pose proof (sy_out _ _ SYb) as HOut. rewrite HS in HOut. cbn [st_push outers] in HOut.
  assert (HNE : outers (csym stb) <> []) by (rewrite HOut; discriminate).
  assert (HM : MS G L stx ([] :: env) base vs).
  { repeat split; auto. rewrite HS, stores_push. apply rels_push. exact HR. }
  destruct (IHl _ _ _ _ _ _ HL G L ([] :: env) env1' br base HXb p vs pre post HP HLen HK HI HM) as (vs' & R & I & (A1 & A2 & A3 & A4)).
  { rewrite HS. apply inv_push. exact HInv. }
  { rewrite <- (rootcount_pop _ HNE). exact HG. }
  { pose proof (bound_pop (csym stb)). lia. }
  { exact HD. }
  exists vs'. split; [exact R|]. split; [exact I|]. split; [exact A1|]. split; [exact A2|]. split; [exact A3|].
  pose proof (block_stores s0 (csym stb) HOut) as ES. split; [|exact ES].
  assert (ET : tl (stores (csym stb)) = stores s0) by (rewrite <- ES, (stores_pop _ HNE); reflexivity).
  rewrite <- ET. destruct br; [exact A4|apply rels_tl; exact A4].
Qed.

Lemma sim_decl f T n e st st' bs seg : LY (Some T) (SDecl n e) st st' bs seg -> SIMs (S f) T (SDecl n e) st st' seg.
Proof.
  intro HL. inversion HL as [? ? ? ? st1 ? seg_e sg HF HC HS HJ HKc HSy| | | | | | | | ]; subst.
  intros G L env env' br base HX p vs pre post HP HLen HK HI HM HInv HG HB HD.
  cbn [lx_s] in HX. destruct (eval_expr (fun x => slook x env) e) as [v|] eqn:HE; [|discriminate]. inversion HX; subst env' br.
  cbn [sdepth] in HD.
  pose proof (consts_of_eq p st1 _ HKc HK) as HK1.
  destruct (expr_runs_ms G L e st st1 seg_e env v base p vs pre (sg ++ post) HF HC HS HE
              ltac:(rewrite HP, <- !app_assoc; reflexivity) HK1 HI HM HD) as (vs1 & R1 & I1 & HM1).
  pose proof HM1 as (_ & M2 & M3 & M4). rewrite (proj2 (efrag_consts e st st1 HF HC)) in M4.
  assert (HR : in_range (snd (st_define n (csym st))) (locals vs1) (globals vs1)).
  { apply (resolve_in_range (fst (st_define n (csym st))) n); [apply inv_define; exact HInv|apply define_then_resolve|rewrite M3, <- HSy; exact HG|rewrite M2, <- HSy; exact HB]. }
  destruct (store_runs G L st1 env _ v base p vs1 (pre ++ seg_e) post sg HJ ltac:(rewrite HP, <- !app_assoc; reflexivity) I1 HM1 HR)
    as (vs2 & R2 & I2 & O2 & L2 & G2 & EL & EG).
  exists vs2. split; [eapply reaches_trans; [exact R1|exact R2]|]. split; [rewrite I2, HI, !app_length; clear; lia|].
  repeat split; try assumption. rewrite HSy, EL, EG. apply rels_declare; assumption.
Qed.

Lemma sim_assign f T n e st st' bs seg : LY (Some T) (SAssign (EVar n) e) st st' bs seg -> SIMs (S f) T (SAssign (EVar n) e) st st' seg.
Proof.
  intro HL. inversion HL as [|? ? ? ? st1 ? y seg_e sg HF HC HS HRy HJ HKc HSy| | | | | | | ]; subst.
  intros G L env env' br base HX p vs pre post HP HLen HK HI HM HInv HG HB HD.
  cbn [lx_s] in HX. destruct (eval_expr (fun x => slook x env) e) as [v|] eqn:HE; [|discriminate].
  destruct (sassign n v env) as [env1|] eqn:HA; [|discriminate]. inversion HX; subst env' br.
  cbn [sdepth] in HD.
  pose proof (consts_of_eq p st1 _ HKc HK) as HK1.
  destruct (expr_runs_ms G L e st st1 seg_e env v base p vs pre (sg ++ post) HF HC HS HE
              ltac:(rewrite HP, <- !app_assoc; reflexivity) HK1 HI HM HD) as (vs1 & R1 & I1 & HM1).
  pose proof HM1 as (_ & M2 & M3 & M4). rewrite (proj2 (efrag_consts e st st1 HF HC)) in M4.
  assert (HR : in_range y (locals vs1) (globals vs1)).
  { apply (resolve_in_range (csym st) n y _ _ HInv HRy); [rewrite M3, <- HSy; exact HG|rewrite M2, <- HSy; exact HB]. }
  destruct (store_runs G L st1 env y v base p vs1 (pre ++ seg_e) post sg HJ ltac:(rewrite HP, <- !app_assoc; reflexivity) I1 HM1 HR)
    as (vs2 & R2 & I2 & O2 & L2 & G2 & EL & EG).
  exists vs2. split; [eapply reaches_trans; [exact R1|exact R2]|]. split; [rewrite I2, HI, !app_length; clear; lia|].
  repeat split; try assumption. rewrite HSy, EL, EG.
  apply (rels_assign env (stores (csym st)) _ _ M4 n y v env1); [rewrite <- resolve_sres; exact HRy|exact HA|apply inv_sepl; assumption|exact HR].
Qed.

Lemma sim_empty f T st st' bs seg : LY (Some T) SEmpty st st' bs seg -> SIMs (S f) T SEmpty st st' seg.
Proof.
  intro HL. inversion HL; subst. intros G L env env' br base HX p vs pre post HP HLen HK HI HM HInv HG HB HD.
  cbn [lx_s] in HX. inversion HX; subst. exists vs. split; [apply reaches_refl|]. split; [simpl; lia|apply ms_msb; exact HM].
Qed.

Lemma sim_break f T st st' bs seg : LY (Some T) SBreak st st' bs seg -> SIMs (S f) T SBreak st st' seg.
Proof.
  intro HL. inversion HL as [| | |? ? ? jb HBs HKc HSy| | | | | ]; subst.
  intros G L env env' br base HX p vs pre post HP HLen HK HI HM HInv HG HB HD.
  cbn [lx_s] in HX. inversion HX; subst env' br. cbn [bshape] in HBs.
  pose proof (step_jump p vs pre post seg T HBs HP HI) as R.
  eexists. split; [apply reaches_step; exact R|]. split; [reflexivity|].
  apply ms_msb. destruct HM as (M1 & M2 & M3 & M4). repeat split; auto. cbn [locals globals]. rewrite HSy. exact M4.
Qed.

Lemma sim_list f : ALLs f -> ALLl f -> ALLl (S f).
Proof.
  intros IHs IHl T l st st' bs seg HL.
  inversion HL as [|? s t ? st1 ? bs1 bs2 seg1 seg2 H H0 H1]; subst; intros G L env env' br base HX p vs pre post HP HLen HK HI HM HInv HG HB HD.
  - cbn [lx_l] in HX. inversion HX; subst. exists vs. split; [apply reaches_refl|]. split; [simpl; lia|apply ms_msb; exact HM].
  - cbn [lx_l] in HX. cbn [ldepth] in HD.
    destruct (lx_s f s env) as [[env1 br1]|] eqn:HX1; [|discriminate].
    destruct (proj1 ly_frame _ _ _ _ _ _ H) as [(n1 & K1) S1]. destruct (proj1 (proj2 ly_frame) _ _ _ _ _ _ H1) as [(n2 & K2) S2].
    assert (HK1 : consts_of p st1) by (apply (consts_of_prefix p st1 st' n2 K2 HK)).
    destruct (IHs _ _ _ _ _ _ H G L env env1 br1 base HX1 p vs pre (seg2 ++ post)) as (vs1 & R1 & I1 & HM1); auto.
    { rewrite HP, <- !app_assoc. reflexivity. }
    { pose proof (sy_gc _ _ S2). lia. }
    { pose proof (sy_bound _ _ S2). lia. }
    { lia. }
    destruct br1.
    + inversion HX; subst env' br. exists vs1. split; [exact R1|]. split; [exact I1|].
      destruct HM1 as (A1 & A2 & A3 & A4). repeat split; auto.
      rewrite stores_tl in A4 |- *. rewrite (sy_out _ _ S2). exact A4.
    + destruct (IHl _ _ _ _ _ _ H1 G L env1 env' br base HX p vs1 (pre ++ seg1) post) as (vs2 & R2 & I2 & HM2); auto.
      { rewrite HP, <- !app_assoc. reflexivity. }
      { rewrite app_length. apply Nat2N.inj. rewrite H0, Nat2N.inj_add, HLen. reflexivity. }
      { rewrite I1, HI, app_length. lia. }
      { apply (sy_inv _ _ S1). exact HInv. }
      { lia. }
      exists vs2. split; [eapply reaches_trans; eauto|]. split; [rewrite I2, I1, app_length; destruct br; [reflexivity|lia]|exact HM2].
Qed.

Lemma sim_while f c b : ALLs f -> ALLl f ->
  forall T st st' bs seg, LY (Some T) (SWhile c b) st st' bs seg -> SIMs (S f) T (SWhile c b) st st' seg.
Proof.
  intros IHs IHl T st st' bs seg HL.
  inversion HL as [| | | |? ? ? ? st1 stx stb ? bs_b seg_c seg_b jf jb HF HC HS HKx HSx HLx HLb HJf HJb HKc HSy| | | | ]; subst.
  intros G L env env' br base HX p vs pre post HP HLen HK HI HM HInv HG HB HD.
  cbn [lx_s] in HX. cbn [sdepth] in HD.
  destruct (proj1 (proj2 ly_frame) _ _ _ _ _ _ HLb) as [(nb & Kb) Sb].
  destruct (efrag_consts c st st1 HF HC) as [(nc & K1) S1].
  pose proof (consts_of_eq p stb _ HKc HK) as HKb.
  assert (HK1 : consts_of p st1).
  { apply (consts_of_prefix p st1 stb nb); [rewrite Kb, HKx; reflexivity|exact HKb]. }
  pose proof (jbytes_len _ _ _ HJf) as Ljf. pose proof (jbytes_len _ _ _ HJb) as Ljb.
  destruct (eval_expr (fun x => slook x env) c) as [[| [] | | | | |]|] eqn:HE; try discriminate.
  - (* true: one more round *)
    destruct (leave (lx_l f b ([] :: env))) as [[env1 brb]|] eqn:HXb; [|discriminate].
    destruct (cond_runs_ms G L c st st1 seg_c env true base p vs pre (seg_b ++ jb ++ post) jf _ HF HC HS HE HJf
                ltac:(rewrite HP, <- !app_assoc; reflexivity) HK1 HI HM ltac:(clear - HD; lia)) as (vs2 & R2 & I2 & M1 & M2 & M3 & M4).
    destruct (sim_block f _ b stx stb bs_b seg_b (csym st) IHl HLb HSx G L env env1 brb base HXb p vs2 (pre ++ seg_c ++ jf) (jb ++ post))
      as (vs3 & R3 & I3 & O3 & L3 & G3 & REL3 & ES3); auto.
    { rewrite HP, <- !app_assoc. reflexivity. }
    { rewrite !app_length, Ljf. apply Nat2N.inj. rewrite HLx, HS, app_length, !Nat2N.inj_add, HLen. simpl. lia. }
    { rewrite <- HSy. exact HG. }
    { rewrite <- HSy. exact HB. }
    { clear - HD. lia. }
    destruct brb.
    + (* the body broke out: the machine is at the end of the loop *)
      inversion HX; subst env' br.
      exists vs3. split; [|split].
      * eapply reaches_trans; [exact R2|exact R3].
      * rewrite I3, HI, HLen. reflexivity.
      * repeat split; auto. rewrite HSy, ES3. exact REL3.
    + pose proof (step_jump p vs3 (pre ++ seg_c ++ jf ++ seg_b) post jb _ HJb
                    ltac:(rewrite HP, <- !app_assoc; reflexivity)
                    ltac:(rewrite I3, I2, !app_length; clear; lia)) as R4.
      set (vs4 := {| ip := N.of_nat (List.length (ccode st)); ostack := ostack vs3; locals := locals vs3; globals := globals vs3 |}) in *.
      assert (HM4 : MS G L st env1 base vs4) by (unfold vs4; repeat split; auto).
      destruct (IHs _ _ _ _ _ _ HL G L env1 env' br base HX p vs4 pre post HP HLen HK) as (vs5 & R5 & I5 & HM5); auto.
      { unfold vs4; simpl. rewrite HLen. reflexivity. }
      exists vs5. split; [|split; [|exact HM5]].
      * eapply reaches_trans; [exact R2|]. eapply reaches_trans; [exact R3|]. eapply reaches_trans; [apply reaches_step; exact R4|exact R5].
      * rewrite I5. unfold vs4; simpl. rewrite HI, HLen. reflexivity.
  - (* false: leave the loop *)
    inversion HX; subst env' br.
    destruct (cond_runs_ms G L c st st1 seg_c env false base p vs pre (seg_b ++ jb ++ post) jf _ HF HC HS HE HJf
                ltac:(rewrite HP, <- !app_assoc; reflexivity) HK1 HI HM ltac:(clear - HD; lia)) as (vs2 & R2 & I2 & M1 & M2 & M3 & M4).
    exists vs2. split; [exact R2|]. split; [rewrite I2, HI, HLen; reflexivity|]. repeat split; auto.
    rewrite HSy, (lyl_block_stores _ _ _ _ _ _ _ HLb HSx). exact M4.
Qed.

Lemma lyc_stores :
  (forall brk s st st' bs seg, LY brk s st st' bs seg -> True) /\
  (forall brk l st st' bs seg, LYL brk l st st' bs seg -> True) /\
  (forall brk fin l els st st' End js bs seg, LYC brk fin l els st st' End js bs seg -> stores (csym st') = stores (csym st)) /\
  (forall lvi b s3 st' S rop seg, LYR lvi b s3 st' S rop seg -> True).
Proof.
  apply LY_mutind; intros; auto.
  - rewrite e4. apply (lyl_block_stores _ _ _ _ _ _ _ l e0).
  - rewrite H0, e6. apply (lyl_block_stores _ _ _ _ _ _ _ l e3).
Qed.

Lemma sim_chain f : ALLl f -> ALLc f -> ALLc (S f).
Proof.
  intros IHl IHc T l els st st' End js bs seg HL.
  inversion HL as [? ? ? ? HE0|? ? eb ? sty ste ? ? bs_e seg_e HKy HSy HLy HLe HE0 HKc HSc
                  |? ? c b t ? ? st1 stx stb sty ? ? js0 bs_b bs_r seg_c seg_b jf je seg_r HF HC HS HKx HSx HLx HLb HJf HJe HKy HSy HLy HT]; subst;
    intros G L env env' br base HX p vs pre post HP HLen HK HI HM HInv HG HB HD HDo.
  - (* no more conditions, no else *)
    cbn [lx_c] in HX. inversion HX; subst. exists vs. split; [apply reaches_refl|]. split; [rewrite HI, HLen; reflexivity|apply ms_msb; exact HM].
  - (* the else block *)
    cbn [lx_c] in HX. unfold odepth in HDo. destruct HM as (M1 & M2 & M3 & M4).
    destruct (sim_block f _ eb sty ste bs seg (csym st) IHl HLe HSy G L env env' br base HX p vs pre post)
      as (vs3 & R3 & I3 & O3 & L3 & G3 & REL3 & ES3); auto.
    { congruence. }
    { apply (consts_of_eq p _ _ HKc HK). }
    { rewrite <- HSc. exact HG. }
    { rewrite <- HSc. exact HB. }
    exists vs3. split; [exact R3|]. split; [rewrite I3, HI, HLen; destruct br; reflexivity|].
    repeat split; auto. rewrite HSc, ES3. destruct br; [apply rels_tl|]; exact REL3.
  - (* a condition *)
    cbn [lx_c] in HX. cbn [cdepth] in HD. cbn [jshape] in HJe.
    destruct (proj1 (proj2 ly_frame) _ _ _ _ _ _ HLb) as [(nb & Kb) Sb].
    destruct (proj1 (proj2 (proj2 ly_frame)) _ _ _ _ _ _ _ _ _ _ HT) as [(nr & Kr) Sr].
    destruct (efrag_consts c st st1 HF HC) as [(nc & K1) S1].
    assert (HKb : consts_of p stb).
    { apply (consts_of_prefix p stb st' nr); [rewrite Kr, HKy; reflexivity|exact HK]. }
    assert (HK1 : consts_of p st1).
    { apply (consts_of_prefix p st1 stb nb); [rewrite Kb, HKx; reflexivity|exact HKb]. }
    pose proof (jbytes_len _ _ _ HJf) as Ljf. pose proof (jbytes_len _ _ _ HJe) as Lje.
    pose proof (lyl_len _ _ _ _ _ _ HLb) as LLb.
    pose proof (lyl_block_stores _ _ _ _ _ _ _ HLb HSx) as ESb.
    pose proof (proj1 (proj2 (proj2 lyc_stores)) _ _ _ _ _ _ _ _ _ _ HT) as EST.
    assert (ESall : stores (csym st') = stores (csym st)) by (rewrite EST, HSy, ESb; reflexivity).
    destruct (eval_expr (fun x => slook x env) c) as [[| [] | | | | |]|] eqn:HE; try discriminate.
    + destruct (cond_runs_ms G L c st st1 seg_c env true base p vs pre (seg_b ++ je ++ seg_r ++ post) jf _ HF HC HS HE HJf
                  ltac:(rewrite HP, <- !app_assoc; reflexivity) HK1 HI HM ltac:(clear - HD; lia)) as (vs2 & R2 & I2 & M1 & M2 & M3 & M4).
      destruct (sim_block f _ b stx stb bs_b seg_b (csym st) IHl HLb HSx G L env env' br base HX p vs2 (pre ++ seg_c ++ jf) (je ++ seg_r ++ post))
        as (vs3 & R3 & I3 & O3 & L3 & G3 & REL3 & ES3); auto.
      { rewrite HP, <- !app_assoc. reflexivity. }
      { rewrite !app_length, Ljf. apply Nat2N.inj. rewrite HLx, HS, app_length, !Nat2N.inj_add, HLen. simpl. lia. }
      { rewrite <- HSy. pose proof (sy_gc _ _ Sr). lia. }
      { rewrite <- HSy. pose proof (sy_bound _ _ Sr). lia. }
      { clear - HD. lia. }
      destruct br.
      * exists vs3. split; [|split].
        -- eapply reaches_trans; [exact R2|exact R3].
        -- exact I3.
        -- repeat split; auto. rewrite ESall. apply rels_tl. exact REL3.
      * pose proof (step_jump p vs3 (pre ++ seg_c ++ jf ++ seg_b) (seg_r ++ post) je _ HJe
                      ltac:(rewrite HP, <- !app_assoc; reflexivity)
                      ltac:(rewrite I3, I2, !app_length; clear; lia)) as R4.
        eexists. split; [|split].
        -- eapply reaches_trans; [exact R2|]. eapply reaches_trans; [exact R3|apply reaches_step; exact R4].
        -- reflexivity.
        -- unfold MSb; cbn [ostack locals globals]. repeat split; auto. rewrite ESall. exact REL3.
    + destruct (cond_runs_ms G L c st st1 seg_c env false base p vs pre (seg_b ++ je ++ seg_r ++ post) jf _ HF HC HS HE HJf
                  ltac:(rewrite HP, <- !app_assoc; reflexivity) HK1 HI HM ltac:(clear - HD; lia)) as (vs2 & R2 & I2 & M1 & M2 & M3 & M4).
      assert (HM2 : MS G L sty env base vs2) by (repeat split; auto; rewrite HSy, ESb; exact M4).
      destruct (IHc _ _ _ _ _ _ _ _ _ HT G L env env' br base HX p vs2 (pre ++ seg_c ++ jf ++ seg_b ++ je) post) as (vs3 & R3 & I3 & HM3); auto.
      { rewrite HP, <- !app_assoc. reflexivity. }
      { assert (X : N.of_nat (List.length (ccode st1)) = N.of_nat (List.length (ccode st)) + N.of_nat (List.length seg_c)) by (rewrite HS, app_length; lia).
        apply Nat2N.inj. rewrite !app_length, Ljf, Lje. lia. }
      { rewrite I2, !app_length, HLen. clear. lia. }
      { rewrite HSy. apply inv_pop. apply (sy_inv _ _ Sb). rewrite HSx. apply inv_push. exact HInv. }
      { clear - HD. lia. }
      exists vs3. split; [|split; [exact I3|exact HM3]].
      eapply reaches_trans; [exact R2|exact R3].
Qed.

Lemma sim_if f c b elifs els : ALLc f ->
  forall T st st' bs seg, LY (Some T) (SIf c b elifs els) st st' bs seg -> SIMs (S f) T (SIf c b elifs els) st st' seg.
Proof.
  intros IHc T st st' bs seg HL.
  inversion HL as [| | | | | | |? ? ? ? ? ? ste ? js ? ? HCh HKc HSy| ]; subst.
  intros G L env env' br base HX p vs pre post HP HLen HK HI HM HInv HG HB HD.
  cbn [lx_s] in HX. cbn [sdepth] in HD.
  destruct (IHc _ _ _ _ _ _ _ _ _ HCh G L env env' br base HX p vs pre post HP HLen) as (vs' & R & I & HM'); auto.
  { apply (consts_of_eq p _ _ HKc HK). }
  { rewrite <- HSy. exact HG. }
  { rewrite <- HSy. exact HB. }
  { cbn [cdepth]. lia. }
  { unfold odepth. lia. }
  exists vs'. split; [exact R|]. split; [rewrite I, HI, HLen; reflexivity|].
  destruct HM' as (A1 & A2 & A3 & A4). repeat split; auto. rewrite HSy. exact A4.
Qed.

(* the head of a round that goes on: the range op has pushed the flag (and the
   value for the loop variable); the exit jump falls through; the loop
   variable is stored *)
Lemma round_head G L lvi s3 sgv (v : value) env env0 base' p vs0 pre0 post0 jf Endp :
  lvstore lvi (csym s3) sgv -> lv_set (lvname lvi) v env = Some env0 ->
  jbytes JumpOnFalse Endp jf -> pcode p = pre0 ++ jf ++ sgv ++ post0 -> ip vs0 = N.of_nat (List.length pre0) ->
  ostack vs0 = VBool true :: (match lvi with Some _ => [v] | None => [] end) ++ base' ->
  List.length (locals vs0) = L -> List.length (globals vs0) = G ->
  RELs env (stores (csym s3)) (locals vs0) (globals vs0) -> Inv (csym s3) ->
  rootcount (csym s3) <= N.of_nat G -> bound (csym s3) <= N.of_nat L ->
  exists vsA, reaches p vs0 vsA /\ ip vsA = ip vs0 + 3 + N.of_nat (List.length sgv) /\ ostack vsA = base' /\
    List.length (locals vsA) = L /\ List.length (globals vsA) = G /\
    RELs env0 (stores (csym s3)) (locals vsA) (globals vsA).
Proof.
  intros HLV HSet HJ HP HI HO HLl HLg HR HInv HG HB.
  pose proof (jbytes_len _ _ _ HJ) as Ljf.
  pose proof (step_jof p vs0 pre0 (sgv ++ post0) jf _ true _ HJ HP HI HO) as R2.
  set (vs1 := {| ip := ip vs0 + 3; ostack := (match lvi with Some _ => [v] | None => [] end) ++ base'; locals := locals vs0; globals := globals vs0 |}) in *.
  destruct lvi as [[n y]|]; cbn [lvstore lvname option_map fst lv_set] in *.
  - destruct HLV as [HSG HRy].
    assert (HRng : in_range y (locals vs0) (globals vs0)) by (apply (resolve_in_range (csym s3) n y _ _ HInv HRy); lia).
    pose proof (step_setvar p vs1 (pre0 ++ jf) post0 sgv y v base' HSG
                  ltac:(rewrite HP, <- !app_assoc; reflexivity)
                  ltac:(unfold vs1; cbn [ip]; rewrite HI, app_length, Ljf; lia) eq_refl HRng) as R3.
    destruct (put_lengths y v (locals vs0) (globals vs0)) as [PL PG].
    eexists. split; [eapply reaches_trans; [apply reaches_step; exact R2|apply reaches_step; exact R3]|].
    unfold vs1. cbn [ip ostack locals globals]. pose proof (jbytes_len _ _ _ HSG) as Lsg.
    split; [rewrite Lsg; lia|]. split; [reflexivity|]. split; [congruence|]. split; [congruence|].
    apply (rels_assign env (stores (csym s3)) _ _ HR n y v env0); [rewrite <- resolve_sres; exact HRy|exact HSet|apply inv_sepl; assumption|exact HRng].
  - subst sgv. inversion HSet; subst env0. exists vs1. split; [apply reaches_step; exact R2|].
    unfold vs1; cbn [ip ostack locals globals app List.length]. repeat split; auto. lia.
Qed.

Lemma lx_r_false : forall fuel lv idx stp stop b env env' br, lx_r fuel lv idx stp stop b env = Some (env', br) -> br = false.
Proof.
  induction fuel as [|f IH]; intros lv idx stp stop b env env' br H; [discriminate|]. cbn [lx_r] in H.
  destruct (going idx stp stop); [|inversion H; reflexivity].
  destruct (lv_set lv (VNum idx) env) as [env0|]; [|discriminate].
  destruct (leave (lx_l f b ([] :: env0))) as [[env1 [|]]|]; [inversion H; reflexivity|apply (IH _ _ _ _ _ _ _ _ H)|discriminate].
Qed.
Lemma lx_i_false : forall fuel lv idx iter b env env' br, lx_i fuel lv idx iter b env = Some (env', br) -> br = false.
Proof.
  induction fuel as [|f IH]; intros lv idx iter b env env' br H; [discriminate|]. cbn [lx_i] in H.
  destruct (iter_next iter idx) as [[v|]|]; [|inversion H; reflexivity|discriminate].
  destruct (lv_set lv v env) as [env0|]; [|discriminate].
  destruct (leave (lx_l f b ([] :: env0))) as [[env1 [|]]|]; [inversion H; reflexivity|apply (IH _ _ _ _ _ _ _ H)|discriminate].
Qed.

(* One round of a range loop, from the state the range instruction leaves:
   next is the loop variable's value for this round, or None when the range is
   exhausted; rs is the range state the instruction keeps below it; REC is the
   evaluator's next round. *)
Lemma range_round f lvi b s3 st' S rop seg (rs : list value) (next : option value) (REC : senv -> option (senv * bool))
    G L env env' base p vs vs1 pre post :
  ALLl f -> LYR lvi b s3 st' S rop seg -> N.to_nat S = List.length rs ->
  pcode p = pre ++ seg ++ post -> List.length pre = List.length (ccode s3) -> consts_of p st' ->
  ip vs = N.of_nat (List.length pre) -> Inv (csym s3) ->
  rootcount (csym st') <= N.of_nat G -> bound (csym st') <= N.of_nat L ->
  N.of_nat L + N.of_nat (List.length (rs ++ base)) + ldepth b <= StackSize ->
  vm_step p vs = Running vs1 -> ip vs1 = ip vs + 3 -> List.length (locals vs1) = L -> List.length (globals vs1) = G ->
  RELs env (stores (csym s3)) (locals vs1) (globals vs1) ->
  ostack vs1 = match next with
               | Some v => VBool true :: (match lvi with Some _ => [v] | None => [] end) ++ rs ++ base
               | None => VBool false :: rs ++ base
               end ->
  match next with
  | Some v =>
      match lv_set (lvname lvi) v env with
      | Some env0 =>
          match leave (lx_l f b ([] :: env0)) with
          | Some (env1, false) => REC env1
          | Some (env1, true) => Some (env1, false)
          | None => None
          end
      | None => None
      end
  | None => Some (env, false)
  end = Some (env', false) ->
  (forall env1 vs4, REC env1 = Some (env', false) -> ip vs4 = N.of_nat (List.length pre) -> MS G L s3 env1 (rs ++ base) vs4 ->
     exists vs5, reaches p vs4 vs5 /\ ip vs5 = ip vs4 + N.of_nat (List.length seg) /\ MS G L st' env' base vs5) ->
  exists vs', reaches p vs vs' /\ ip vs' = ip vs + N.of_nat (List.length seg) /\ MS G L st' env' base vs'.
Proof.
  intros IHl HL. inversion HL as [? ? ? ? ? stx stb ? bs_b seg_b jf jb sgv HLV HKx HSx HLx HLb HJf HJb HKc HSy]; subst.
  intros HSrs HP HLen HK HI HInv HG HB HDb R1 I1 L1 G1 M4 O1 HX CONT.
  set (sr := [N_of_opc rop; 0; hvof lvi]) in *. set (dr := [N_of_opc Drop; 0; S]) in *.
  set (Endp := N.of_nat (List.length (ccode s3)) + N.of_nat (List.length (sr ++ jf ++ sgv ++ seg_b ++ jb))) in *.
  destruct (proj1 (proj2 ly_frame) _ _ _ _ _ _ HLb) as [(nb & Kb) Sb].
  destruct (proj2 (proj2 (proj2 ly_frame)) _ _ _ _ _ _ _ HL) as [_ Sall].
  pose proof (consts_of_eq p stb _ HKc HK) as HKb.
  pose proof (jbytes_len _ _ _ HJf) as Ljf. pose proof (jbytes_len _ _ _ HJb) as Ljb.
  pose proof (lyl_block_stores _ _ _ _ _ _ _ HLb HSx) as ESb.
  set (base' := rs ++ base) in *.
  (* the exit *)
  assert (EXIT : forall env2 vsd, ip vsd = Endp -> ostack vsd = base' -> List.length (locals vsd) = L -> List.length (globals vsd) = G ->
            RELs env2 (stores (csym s3)) (locals vsd) (globals vsd) ->
            exists vs', reaches p vsd vs' /\ ip vs' = ip vs + N.of_nat (List.length (sr ++ jf ++ sgv ++ seg_b ++ jb ++ dr)) /\ MS G L st' env2 base vs').
  { intros env2 vsd ID OD LD GD RD.
    pose proof (step_drop p vsd (pre ++ sr ++ jf ++ sgv ++ seg_b ++ jb) post S rs base
                  ltac:(rewrite HP; unfold dr; rewrite <- !app_assoc; reflexivity)
                  ltac:(rewrite ID; unfold Endp; rewrite !app_length, HLen, !Nat2N.inj_add; lia) OD ltac:(lia)) as RD'.
    eexists. split; [apply reaches_step; exact RD'|]. split.
    - simpl. rewrite ID, HI. unfold Endp, dr. rewrite !app_length, HLen. simpl. lia.
    - unfold MS; simpl. repeat split; auto. rewrite HSy, ESb. exact RD. }
  destruct next as [v|].
  - destruct (lv_set (lvname lvi) v env) as [env0|] eqn:HSet; [|discriminate].
    destruct (leave (lx_l f b ([] :: env0))) as [[env1 brb]|] eqn:HXb; [|discriminate].
    destruct (round_head G L lvi s3 sgv v env env0 base' p vs1 (pre ++ sr) (seg_b ++ jb ++ dr ++ post) jf Endp HLV HSet HJf)
      as (vsA & RA & IA & OA & LA & GA & RELA); auto.
    { rewrite HP, <- !app_assoc. reflexivity. }
    { rewrite I1, HI, app_length. unfold sr. simpl. lia. }
    { pose proof (sy_gc _ _ Sall). lia. }
    { pose proof (sy_bound _ _ Sall). lia. }
    destruct (sim_block f _ b stx stb bs_b seg_b (csym s3) IHl HLb HSx G L env0 env1 brb base' HXb p vsA (pre ++ sr ++ jf ++ sgv) (jb ++ dr ++ post))
      as (vs3 & R3 & I3 & O3 & L3 & G3 & REL3 & ES3); auto.
    { rewrite HP, <- !app_assoc. reflexivity. }
    { apply Nat2N.inj. rewrite HLx, !app_length, Ljf, HLen. unfold sr. cbn [List.length]. lia. }
    { rewrite IA, I1, HI, !app_length, Ljf. unfold sr. cbn [List.length]. lia. }
    { rewrite <- HSy. exact HG. }
    { rewrite <- HSy. exact HB. }
    destruct brb.
    + inversion HX; subst env'.
      destruct (EXIT env1 vs3 I3 O3 L3 G3 REL3) as (vs' & RE & IE & ME).
      exists vs'. split; [|split; [exact IE|exact ME]].
      eapply reaches_trans; [apply reaches_step; exact R1|]. eapply reaches_trans; [exact RA|]. eapply reaches_trans; [exact R3|exact RE].
    + pose proof (step_jump p vs3 (pre ++ sr ++ jf ++ sgv ++ seg_b) (dr ++ post) jb _ HJb
                    ltac:(rewrite HP, <- !app_assoc; reflexivity)
                    ltac:(rewrite I3, IA, I1, HI, !app_length, Ljf; unfold sr; simpl; lia)) as R4.
      set (vs4 := {| ip := N.of_nat (List.length (ccode s3)); ostack := ostack vs3; locals := locals vs3; globals := globals vs3 |}) in *.
      assert (HM4 : MS G L s3 env1 base' vs4) by (unfold vs4; repeat split; auto).
      destruct (CONT env1 vs4 HX ltac:(unfold vs4; simpl; rewrite HLen; reflexivity) HM4) as (vs5 & R5 & I5 & HM5).
      exists vs5. split; [|split; [|exact HM5]].
      * eapply reaches_trans; [apply reaches_step; exact R1|]. eapply reaches_trans; [exact RA|].
        eapply reaches_trans; [exact R3|]. eapply reaches_trans; [apply reaches_step; exact R4|exact R5].
      * rewrite I5. unfold vs4; simpl. rewrite HI, HLen. reflexivity.
  - (* the range is exhausted *)
    inversion HX; subst env'.
    pose proof (step_jof p vs1 (pre ++ sr) (sgv ++ seg_b ++ jb ++ dr ++ post) jf _ false base' HJf
                  ltac:(rewrite HP, <- !app_assoc; reflexivity)
                  ltac:(rewrite I1, HI, app_length; unfold sr; simpl; lia) O1) as R2.
    set (vs2 := {| ip := Endp; ostack := base'; locals := locals vs1; globals := globals vs1 |}) in *.
    destruct (EXIT env vs2 eq_refl eq_refl L1 G1 M4) as (vs' & RE & IE & ME).
    exists vs'. split; [|split; [exact IE|exact ME]].
    eapply reaches_trans; [apply reaches_step; exact R1|]. eapply reaches_trans; [apply reaches_step; exact R2|exact RE].
Qed.

Lemma sim_r f : ALLl f -> ALLr f -> ALLr (S f).
Proof.
  intros IHl IHr lvi b s3 st' seg HL.
  pose proof HL as HL'. inversion HL' as [? ? ? ? ? stx stb ? bs_b seg_b jf jb sgv _ _ _ _ _ _ _ _ _]; subst.
  intros G L env env' br idx stp stop base HX p vs pre post HP HLen HK HI HZ HM HInv HG HB HD5 HDb.
  pose proof (lx_r_false _ _ _ _ _ _ _ _ _ HX) as ->. cbn [lx_r] in HX. destruct HM as (M1 & M2 & M3 & M4).
  set (rs := [VNum (idx + stp)%float; VNum stp; VNum stop]).
  pose proof (step_steprange_any p vs pre _ (hvof lvi) idx stp stop base ltac:(rewrite HP, <- !app_assoc; reflexivity) HI M1 HZ
                ltac:(rewrite M2; destruct lvi; cbn [hvof N.eqb]; lia)) as R1.
  match type of R1 with _ = Running ?x => set (vs1 := x) in * end.
  enough (X : exists vs', reaches p vs vs' /\ ip vs' = ip vs + N.of_nat (List.length _) /\ MS G L st' env' base vs')
    by (destruct X as (vs' & A & B & C); exists vs'; split; [exact A|split; [exact B|split; [reflexivity|exact C]]]).
  apply (range_round f lvi b s3 st' 3 StepRange _ rs (if going idx stp stop then Some (VNum idx) else None)
           (fun env1 => lx_r f (lvname lvi) (idx + stp)%float stp stop b env1) G L env env' base p vs vs1 pre post IHl HL);
    try assumption; try congruence; try reflexivity.
  - unfold rs. cbn [List.length app]. lia.
  - destruct lvi, (going idx stp stop); reflexivity.
  - destruct (going idx stp stop); exact HX.
  - intros env1 vs4 HX4 I4 HM4.
    destruct (IHr _ _ _ _ _ HL G L env1 env' false (idx + stp)%float stp stop base HX4 p vs4 pre post HP HLen HK I4 HZ HM4 HInv HG HB HD5 HDb)
      as (vs5 & R5 & I5 & _ & HM5). eauto.
Qed.

Lemma sim_i f : ALLl f -> ALLi f -> ALLi (S f).
Proof.
  intros IHl IHi lvi b s3 st' seg HL.
  pose proof HL as HL'. inversion HL' as [? ? ? ? ? stx stb ? bs_b seg_b jf jb sgv _ _ _ _ _ _ _ _ _]; subst.
  intros G L env env' br idx iter base HX p vs pre post HP HLen HK HI HM HInv HG HB HD5 HDb.
  pose proof (lx_i_false _ _ _ _ _ _ _ _ HX) as ->. cbn [lx_i] in HX. destruct HM as (M1 & M2 & M3 & M4).
  destruct (iter_next iter idx) as [r|] eqn:HN; [|discriminate].
  set (rs := [VNum (idx + 1)%float; iter]).
  pose proof (step_iterrange_any p vs pre _ (hvof lvi) idx iter base ltac:(rewrite HP, <- !app_assoc; reflexivity) HI M1
                ltac:(rewrite M2; destruct lvi; cbn [hvof N.eqb]; lia) r HN) as R1.
  match type of R1 with _ = Running ?x => set (vs1 := x) in * end.
  enough (X : exists vs', reaches p vs vs' /\ ip vs' = ip vs + N.of_nat (List.length _) /\ MS G L st' env' base vs')
    by (destruct X as (vs' & A & B & C); exists vs'; split; [exact A|split; [exact B|split; [reflexivity|exact C]]]).
  apply (range_round f lvi b s3 st' 2 IterRange _ rs r
           (fun env1 => lx_i f (lvname lvi) (idx + 1)%float iter b env1) G L env env' base p vs vs1 pre post IHl HL);
    try assumption; try congruence; try reflexivity.
  - unfold rs. cbn [List.length app]. lia.
  - destruct lvi, r; reflexivity.
  - intros env1 vs4 HX4 I4 HM4.
    destruct (IHi _ _ _ _ _ HL G L env1 env' false (idx + 1)%float iter base HX4 p vs4 pre post HP HLen HK I4 HM4 HInv HG HB HD5 HDb)
      as (vs5 & R5 & I5 & _ & HM5). eauto.
Qed.

Lemma sim_prologue G L lv s3 sa segp lvi env stk p vs pre0 post0 :
  LVPRO lv s3 sa segp lvi -> Inv (csym s3) ->
  pcode p = pre0 ++ segp ++ post0 -> ip vs = N.of_nat (List.length pre0) -> MS G L s3 env stk vs ->
  rootcount (csym sa) <= N.of_nat G -> bound (csym sa) <= N.of_nat L ->
  N.of_nat L + N.of_nat (List.length stk) + 1 <= StackSize ->
  exists vsA, reaches p vs vsA /\ ip vsA = N.of_nat (List.length (pre0 ++ segp)) /\
    MS G L sa (lv_decl lv env) stk vsA /\ lvname lvi = lv.
Proof.
  intros HPRO HInv HP HI (HO & HLl & HLg & HR) HG HB HD. unfold LVPRO in HPRO. destruct lv as [n|].
  - destruct HPRO as (sg & HSG & -> & C & K & S & ->). cbn [lvname option_map fst lv_decl].
    set (y := snd (st_define n (csym s3))) in *.
    pose proof (step_onone p vs pre0 (sg ++ post0) ltac:(rewrite HP, <- !app_assoc; reflexivity) HI ltac:(rewrite HO, HLl; lia)) as R1.
    set (vs1 := {| ip := ip vs + 1; ostack := VNone :: ostack vs; locals := locals vs; globals := globals vs |}) in *.
    assert (HRng : in_range y (locals vs) (globals vs)).
    { apply (resolve_in_range (csym sa) n y); [rewrite S; apply inv_define; exact HInv|rewrite S; apply define_then_resolve|lia|lia]. }
    pose proof (step_setvar p vs1 (pre0 ++ [N_of_opc ONone]) post0 sg y VNone stk HSG
                  ltac:(rewrite HP, <- !app_assoc; reflexivity)
                  ltac:(unfold vs1; cbn [ip]; rewrite HI, app_length; simpl; lia)
                  ltac:(unfold vs1; cbn [ostack]; rewrite HO; reflexivity) HRng) as R2.
    destruct (put_lengths y VNone (locals vs) (globals vs)) as [PL PG].
    eexists. split; [eapply reaches_trans; [apply reaches_step; exact R1|apply reaches_step; exact R2]|].
    unfold vs1, MS. cbn [ip ostack locals globals]. pose proof (jbytes_len _ _ _ HSG) as Lsg.
    split; [rewrite !app_length, Lsg; simpl; lia|]. split; [|reflexivity].
    split; [reflexivity|]. split; [congruence|]. split; [congruence|]. rewrite S. apply rels_declare; assumption.
  - destruct HPRO as (C & K & S & -> & ->). exists vs. split; [apply reaches_refl|].
    split; [rewrite app_nil_r; exact HI|]. split; [|reflexivity]. repeat split; auto. cbn [lv_decl]. rewrite S. exact HR.
Qed.

Lemma sim_forstep f lv start stop step b : ALLr f ->
  forall T st st' bs seg, LY (Some T) (SForStep lv start stop step b) st st' bs seg -> SIMs (S f) T (SForStep lv start stop step b) st st' seg.
Proof.
  intros IHr T st st' bs seg HL.
  inversion HL as [| | | | |? ? ? ? ? ? ? s1 s2 s3 sa ? seg1 seg2 seg3 segp seg_r lvi HF1 HC1 HS1 HF2 HC2 HS2 HF3 HC3 HS3 HPRO HR| | | ]; subst.
  intros G L env env' br base HX p vs pre post HP HLen HK HI HM HInv HG HB HD.
  cbn [lx_s] in HX. cbn [sdepth] in HD.
  set (estep := match step with OSome e => e | ONoneE => ENum 1 end) in *.
  set (estart := match start with OSome e => e | ONoneE => ENum 0 end) in *.
  destruct (eval_expr (fun x => slook x env) stop) as [[vstop| | | | | |]|] eqn:HE1; try discriminate.
  destruct (eval_expr (fun x => slook x env) estep) as [[vstep| | | | | |]|] eqn:HE2; try discriminate.
  destruct (eval_expr (fun x => slook x env) estart) as [[vstart| | | | | |]|] eqn:HE3; try discriminate.
  destruct (PrimFloat.eqb vstep 0) eqn:HZ; [discriminate|].
  destruct (efrag_consts stop st s1 HF1 HC1) as [(n1 & K1) S1].
  destruct (efrag_consts estep s1 s2 HF2 HC2) as [(n2 & K2) S2].
  destruct (efrag_consts estart s2 s3 HF3 HC3) as [(n3 & K3) S3].
  destruct (lvpro_frame _ _ _ _ _ HPRO) as (Kp & SYp & Lp & _).
  destruct (proj2 (proj2 (proj2 ly_frame)) _ _ _ _ _ _ _ HR) as [(nr & Kr) Sr].
  assert (HKa : consts_of p sa) by (apply (consts_of_prefix p sa st' nr Kr HK)).
  pose proof (consts_of_eq p s3 _ Kp HKa) as HK3.
  assert (HK2 : consts_of p s2) by (apply (consts_of_prefix p s2 s3 n3 K3 HK3)).
  assert (HK1 : consts_of p s1) by (apply (consts_of_prefix p s1 s2 n2 K2 HK2)).
  assert (HInv3 : Inv (csym s3)) by (rewrite S3, S2, S1; exact HInv).
  assert (HGa : rootcount (csym sa) <= N.of_nat G) by (apply (N.le_trans _ _ _ (sy_gc _ _ Sr) HG)).
  assert (HBa : bound (csym sa) <= N.of_nat L) by (apply (N.le_trans _ _ _ (sy_bound _ _ Sr) HB)).
  (* stop, step, start, the prologue, the rounds: each starts where the last ended *)
  destruct (expr_runs_ms G L stop st s1 seg1 env (VNum vstop) base p vs pre (seg2 ++ seg3 ++ segp ++ seg_r ++ post) HF1 HC1 HS1 HE1
              ltac:(rewrite HP, <- !app_assoc; reflexivity) HK1 HI HM ltac:(clear - HD; lia)) as (vs1 & R1 & I1 & HM1).
  destruct (expr_runs_ms G L estep s1 s2 seg2 env (VNum vstep) (VNum vstop :: base) p vs1 (pre ++ seg1) (seg3 ++ segp ++ seg_r ++ post) HF2 HC2 HS2 HE2
              ltac:(rewrite HP, <- !app_assoc; reflexivity) HK2 I1 HM1 ltac:(clear - HD; cbn [List.length]; lia)) as (vs2 & R2 & I2 & HM2).
  destruct (expr_runs_ms G L estart s2 s3 seg3 env (VNum vstart) (VNum vstep :: VNum vstop :: base) p vs2 ((pre ++ seg1) ++ seg2) (segp ++ seg_r ++ post) HF3 HC3 HS3 HE3
              ltac:(rewrite HP, <- !app_assoc; reflexivity) HK3 I2 HM2 ltac:(clear - HD; cbn [List.length]; lia)) as (vs3 & R3 & I3 & HM3).
  destruct (sim_prologue G L lv s3 sa segp lvi env (VNum vstart :: VNum vstep :: VNum vstop :: base) p vs3 (((pre ++ seg1) ++ seg2) ++ seg3) (seg_r ++ post) HPRO HInv3
              ltac:(rewrite HP, <- !app_assoc; reflexivity) I3 HM3 HGa HBa ltac:(clear - HD; cbn [List.length]; lia))
    as (vsA & RA & IA & HMA & ELV).
  subst lv.
  destruct (IHr _ _ _ _ _ HR G L (lv_decl (lvname lvi) env) env' br vstart vstep vstop base HX p vsA ((((pre ++ seg1) ++ seg2) ++ seg3) ++ segp) post)
    as (vs4 & R4 & I4 & -> & HM4); auto.
  { rewrite HP, <- !app_assoc. reflexivity. }
  { apply Nat2N.inj. rewrite Lp, !app_length, HS3, HS2, HS1, !app_length, HLen. clear. lia. }
  { apply (sy_inv _ _ SYp). exact HInv3. }
  { clear - HD. lia. }
  { clear - HD. lia. }
  exists vs4. split; [|split; [|apply ms_msb; exact HM4]].
  - eapply reaches_trans; [exact R1|]. eapply reaches_trans; [exact R2|]. eapply reaches_trans; [exact R3|]. eapply reaches_trans; [exact RA|exact R4].
  - rewrite I4, IA, HI, !app_length. clear. lia.
Qed.

Lemma sim_foriter f lv t e b : ALLi f ->
  forall T st st' bs seg, LY (Some T) (SForIter lv t e b) st st' bs seg -> SIMs (S f) T (SForIter lv t e b) st st' seg.
Proof.
  intros IHi T st st' bs seg HL.
  inversion HL as [| | | | | |? ? ? ? ? ? s1 s2 sa ? seg1 segk segp seg_r lvi Ht HF1 HC1 HS1 HCk HSk HPRO HR| | ]; subst.
  intros G L env env' br base HX p vs pre post HP HLen HK HI HM HInv HG HB HD.
  cbn [lx_s] in HX. cbn [sdepth] in HD.
  assert (HX' : match eval_expr (fun x => slook x env) e with Some iter => lx_i f lv 0%float iter b (lv_decl lv env) | None => None end = Some (env', br))
    by (destruct Ht as [->|[->| ->]]; exact HX). clear HX.
  destruct (eval_expr (fun x => slook x env) e) as [iter|] eqn:HE1; [|discriminate].
  destruct (efrag_consts e st s1 HF1 HC1) as [(n1 & K1) S1].
  destruct (const_correct _ _ _ HCk) as (S2 & segk' & C2 & K2 & D2).
  assert (segk' = segk) by (rewrite C2 in HSk; apply app_inv_head in HSk; exact HSk). subst segk'.
  destruct (lvpro_frame _ _ _ _ _ HPRO) as (Kp & SYp & Lp & _).
  destruct (proj2 (proj2 (proj2 ly_frame)) _ _ _ _ _ _ _ HR) as [(nr & Kr) Sr].
  assert (HKa : consts_of p sa) by (apply (consts_of_prefix p sa st' nr Kr HK)).
  pose proof (consts_of_eq p s2 _ Kp HKa) as HK2.
  assert (HK1 : consts_of p s1) by (apply (consts_of_prefix p s1 s2 [KNum 0] K2 HK2)).
  assert (HInv2 : Inv (csym s2)) by (rewrite S2, S1; exact HInv).
  assert (HGa : rootcount (csym sa) <= N.of_nat G) by (apply (N.le_trans _ _ _ (sy_gc _ _ Sr) HG)).
  assert (HBa : bound (csym sa) <= N.of_nat L) by (apply (N.le_trans _ _ _ (sy_bound _ _ Sr) HB)).
  destruct (expr_runs_ms G L e st s1 seg1 env iter base p vs pre (segk ++ segp ++ seg_r ++ post) HF1 HC1 HS1 HE1
              ltac:(rewrite HP, <- !app_assoc; reflexivity) HK1 HI HM ltac:(clear - HD; lia)) as (vs1 & R1 & I1 & (M1 & M2 & M3 & M4)).
  destruct HK2 as (more2 & HK2).
  destruct (D2 p vs1 more2 (pre ++ seg1) (segp ++ seg_r ++ post)) as (nk & R2);
    [rewrite HP, <- !app_assoc; reflexivity|exact HK2|exact I1|rewrite M1, M2; clear - HD; cbn [List.length]; lia|].
  cbn [const_value] in R2.
  set (vs2 := {| ip := ip vs1 + N.of_nat (List.length segk); ostack := VNum 0 :: ostack vs1; locals := locals vs1; globals := globals vs1 |}) in *.
  assert (I2 : ip vs2 = N.of_nat (List.length ((pre ++ seg1) ++ segk))) by (unfold vs2; cbn [ip]; rewrite I1, (app_length (pre ++ seg1)), Nat2N.inj_add; reflexivity).
  assert (HM2 : MS G L s2 env (VNum 0 :: iter :: base) vs2) by (unfold vs2; repeat split; cbn [ostack locals globals]; [rewrite M1; reflexivity|exact M2|exact M3|rewrite S2; exact M4]).
  destruct (sim_prologue G L lv s2 sa segp lvi env (VNum 0 :: iter :: base) p vs2 ((pre ++ seg1) ++ segk) (seg_r ++ post) HPRO HInv2
              ltac:(rewrite HP, <- !app_assoc; reflexivity) I2 HM2 HGa HBa ltac:(clear - HD; cbn [List.length]; lia))
    as (vsA & RA & IA & HMA & ELV).
  subst lv.
  destruct (IHi _ _ _ _ _ HR G L (lv_decl (lvname lvi) env) env' br 0%float iter base HX' p vsA (((pre ++ seg1) ++ segk) ++ segp) post)
    as (vs4 & R4 & I4 & -> & HM4); auto.
  { rewrite HP, <- !app_assoc. reflexivity. }
  { apply Nat2N.inj. rewrite Lp, !app_length, HSk, HS1, !app_length, HLen. clear. lia. }
  { apply (sy_inv _ _ SYp). exact HInv2. }
  { clear - HD. lia. }
  { clear - HD. lia. }
  exists vs4. split; [|split; [|apply ms_msb; exact HM4]].
  - eapply reaches_trans; [exact R1|]. eapply reaches_trans; [exists nk; exact R2|]. eapply reaches_trans; [exact RA|exact R4].
  - rewrite I4, IA, HI, !app_length. clear. lia.
Qed.

Theorem sim_all : forall fuel, ALLs fuel /\ ALLl fuel /\ ALLc fuel /\ ALLr fuel /\ ALLi fuel.
Proof.
  induction fuel as [|f (IHs & IHl & IHc & IHr & IHi)].
  - repeat split; repeat intro; simpl in *; discriminate.
  - split; [|split; [|split; [|split]]].
    + intros T s st st' bs seg HL. destruct s;
        try (inversion HL; fail).
      * apply (sim_decl f T n e st st' bs seg HL).
      * inversion HL; subst; [eapply sim_assign; eassumption|].
        repeat intro. match goal with HX : lx_s _ _ _ = Some _ |- _ => cbn in HX; discriminate HX end.
      * apply (sim_if f c b elifs els IHc T st st' bs seg HL).
      * apply (sim_while f c b IHs IHl T st st' bs seg HL).
      * apply (sim_forstep f lv start stop step b IHr T st st' bs seg HL).
      * apply (sim_foriter f lv t e b IHi T st st' bs seg HL).
      * apply (sim_break f T st st' bs seg HL).
      * apply (sim_empty f T st st' bs seg HL).
    + apply sim_list; assumption.
    + apply sim_chain; assumption.
    + apply sim_r; assumption.
    + apply sim_i; assumption.
Qed.

Lemma ly_brk_patch T :
  (forall brk s st st' bs seg, LY brk s st st' bs seg -> brk = None ->
     PATCHED T bs st seg (fun seg' => LY (Some (Z.to_N T)) s st st' bs seg')) /\
  (forall brk l st st' bs seg, LYL brk l st st' bs seg -> brk = None ->
     PATCHED T bs st seg (fun seg' => LYL (Some (Z.to_N T)) l st st' bs seg')) /\
  (forall brk fin l els st st' End js bs seg, LYC brk fin l els st st' End js bs seg -> brk = None ->
     PATCHED T bs st seg (fun seg' => LYC (Some (Z.to_N T)) fin l els st st' End js bs seg')) /\
  (forall lvi b s3 st' S rop seg, LYR lvi b s3 st' S rop seg -> True).
Proof.
  apply LY_mutind; intros; try exact I; subst brk.
  - apply patched_nil. eapply ly_decl; eauto.
  - apply patched_nil. eapply ly_assign; eauto.
  - apply patched_nil. constructor.
  - intros x x' pre post HC HLen HP. cbn [bshape] in b. destruct b as (h0 & l0 & ->).
    unfold patch_all in HP. cbn [fold_left bind] in HP. rewrite <- HLen in HP.
    destruct (patch_bytes pre _ h0 l0 post T x x' HC HP) as (HT & hi & lo & EH & ->).
    exists [N_of_opc Jump; hi; lo]. cbn [ccode cconsts csym cbreaks]. repeat split; auto.
    apply ly_break; auto. exists hi, lo. auto.
  - apply patched_nil. eapply ly_while; eauto.
  - apply patched_nil. eapply ly_forstep; eauto.
  - apply patched_nil. eapply ly_foriter; eauto.
  - intros x x' pre post HC HLen HP.
    destruct (H eq_refl x x' pre post HC HLen HP) as (seg' & C' & K' & S' & B' & L' & LY).
    exists seg'. repeat split; auto. eapply ly_if; eauto. rewrite L'. exact LY.
  - apply patched_nil. eapply ly_store; eauto.
  - apply patched_nil. constructor.
  - apply (patched_app T bs1 bs2 st st1 seg1 seg2 _ _ _ (H eq_refl) (H0 eq_refl) e).
    intros s1 s2 L1 LY1 LY2. eapply lyl_cons; eauto. rewrite L1. exact e.
  - apply patched_nil. constructor; assumption.
  - intros x x' pre post HC HLen HP.
    destruct (H eq_refl x x' pre post HC) as (seg' & C' & K' & S' & B' & L' & LY); auto; [congruence|].
    exists seg'. repeat split; auto. eapply lyc_nil_else; eauto. rewrite L'. assumption.
  - intros x x' pre post HC HLen HP.
    rewrite patch_all_app in HP. destruct (patch_all true bs_b T x) as [x1|] eqn:E1; [|discriminate]. cbn [bind] in HP.
    pose proof (jbytes_len _ _ _ j) as Ljf.
    pose proof (f_equal (@List.length N) e1) as L1. rewrite app_length in L1.
    pose proof (lyl_len _ _ _ _ _ _ l) as LLb.
    destruct (H eq_refl x x1 (pre ++ seg_c ++ jf) (je ++ seg_r ++ post)) as (seg_b' & C1 & K1 & S1 & B1 & Lb & LY1); auto.
    { rewrite HC, <- !app_assoc. reflexivity. }
    { apply Nat2N.inj. rewrite !app_length, Ljf. lia. }
    destruct (H0 eq_refl x1 x' (pre ++ seg_c ++ jf ++ seg_b' ++ je) post) as (seg_r' & C2 & K2 & S2 & B2 & Lr & LY2); auto.
    { rewrite C1, <- !app_assoc. reflexivity. }
    { pose proof (jshape_len _ _ _ j0) as Lje.
      apply Nat2N.inj. rewrite !app_length, Ljf, Lje, Lb. lia. }
    exists (seg_c ++ jf ++ seg_b' ++ je ++ seg_r'). split; [rewrite C2, <- !app_assoc; reflexivity|].
    split; [congruence|]. split; [congruence|]. split; [congruence|]. split; [rewrite !app_length; congruence|].
    replace (List.length (ccode st) + List.length (seg_c ++ jf ++ seg_b))%nat
      with (List.length (ccode st) + List.length (seg_c ++ jf ++ seg_b'))%nat by (rewrite !app_length, Lb; reflexivity).
    eapply lyc_cons; eauto.
    replace (List.length (seg_c ++ jf ++ seg_b' ++ je)) with (List.length (seg_c ++ jf ++ seg_b ++ je)) by (rewrite !app_length, Lb; reflexivity).
    exact j.
Qed.

Definition LYOK (s : stmt) (st st' : cstate) : Prop :=
  exists bs seg, LY None s st st' bs seg /\ ccode st' = ccode st ++ seg /\ cbreaks st' = cbreaks st ++ bs.
Definition LYLOK (l : slist) (st st' : cstate) : Prop :=
  exists bs seg, LYL None l st st' bs seg /\ ccode st' = ccode st ++ seg /\ cbreaks st' = cbreaks st ++ bs.
Definition slist_ly (l : slist) : Prop := forall st st', body_of true l st = COk st' -> LYLOK l st st'.

Lemma ly_patchable b : patchable (fun brk => LYL brk b).
Proof. intros T stx st4 bs seg L. apply (proj1 (proj2 (ly_brk_patch T)) _ _ _ _ _ _ L eq_refl). Qed.

Lemma slist_ly_body b s : slist_ly b -> body_lay (fun brk => LYL brk b) b s.
Proof. intros HB stx st4 _ E. apply (HB _ _ E). Qed.

Lemma ly_decl_ok n e st st' : efrag e = true -> compile_stmt true (SDecl n e) st = COk st' -> LYOK (SDecl n e) st st'.
Proof.
  intros HF HC. cbn [compile_stmt] in HC.
  destruct (compile_expr true e st) as [st1|] eqn:E1; [|discriminate]. cbn [bind] in HC.
  destruct (efrag_sl2 e HF st st1 E1) as (S1 & ops & newc & C & K & _).
  pose proof (efrag_breaks e HF _ _ E1) as B1.
  destruct (st_define n (csym st1)) as [sym' y] eqn:ED. rewrite S1 in ED.
  apply set_var_bytes in HC. destruct HC as (sg & HJ & ->). cbn [with_sym ccode cconsts csym cbreaks] in *.
  exists [], (encode ops ++ sg). split; [|split].
  - eapply ly_decl; eauto; cbn [cconsts csym]; rewrite ?ED; auto.
  - cbn [ccode]. rewrite C, app_assoc. reflexivity.
  - cbn [cbreaks]. rewrite app_nil_r. exact B1.
Qed.

Lemma ly_assign_ok n e st st' : efrag e = true -> compile_stmt true (SAssign (EVar n) e) st = COk st' -> LYOK (SAssign (EVar n) e) st st'.
Proof.
  intros HF HC. cbn [compile_stmt] in HC.
  destruct (compile_expr true e st) as [st1|] eqn:E1; [|discriminate]. cbn [bind] in HC.
  destruct (efrag_sl2 e HF st st1 E1) as (S1 & ops & newc & C & K & _).
  pose proof (efrag_breaks e HF _ _ E1) as B1.
  destruct (st_resolve n (csym st1)) as [y|] eqn:ER; [|discriminate]. rewrite S1 in ER.
  apply set_var_bytes in HC. destruct HC as (sg & HJ & ->).
  exists [], (encode ops ++ sg). split; [|split].
  - eapply ly_assign; eauto.
  - cbn [ccode]. rewrite C, app_assoc. reflexivity.
  - cbn [cbreaks]. rewrite app_nil_r. exact B1.
Qed.

Lemma ly_break_ok st st' : compile_stmt true SBreak st = COk st' -> LYOK SBreak st st'.
Proof.
  intro HC. cbn [compile_stmt] in HC.
  destruct (emit true Jump [JumpPlaceholderZ] st) as [st1|] eqn:E1; [|discriminate]. cbn [bind] in HC.
  apply emit_hole_bytes in E1; [|reflexivity]. destruct E1 as (h0 & l0 & ->). inversion HC; subst st'; clear HC.
  cbn [with_breaks ccode cconsts csym cbreaks].
  exists [pos_of st], [N_of_opc Jump; h0; l0]. split; [|split]; try reflexivity.
  unfold pos_of. apply ly_break; [exists h0, l0; reflexivity|reflexivity|reflexivity].
Qed.

Lemma ly_block b st st' : slist_ly b -> compile_block true b st = COk st' ->
  exists stx stb bs seg, LYL None b stx stb bs seg /\
    cconsts stx = cconsts st /\ csym stx = st_push (csym st) /\ ccode stx = ccode st /\
    ccode st' = ccode st ++ seg /\ ccode stb = ccode st' /\ cconsts st' = cconsts stb /\
    cbreaks st' = cbreaks st ++ bs /\ csym st' = st_pop (csym stb).
Proof.
  intros HB HC. rewrite compile_block_body in HC.
  destruct (body_of true b (with_sym (st_push (csym st)) st)) as [st3|] eqn:E; [|discriminate]. cbn [bind] in HC.
  inversion HC; subst st'; clear HC.
  destruct (HB _ _ E) as (bs & seg & L & C & B).
  cbn [with_sym ccode cconsts csym cbreaks] in *.
  exists (with_sym (st_push (csym st)) st), st3, bs, seg. cbn [with_sym ccode cconsts csym cbreaks]. auto 10.
Qed.

Lemma ly_while_ok c b st st' : efrag c = true -> slist_ly b ->
  compile_stmt true (SWhile c b) st = COk st' -> LYOK (SWhile c b) st st'.
Proof.
  intros HF HB HC.
  destruct (while_lay (fun brk => LYL brk b) c b st st' HF HC (slist_ly_body b _ HB) (ly_patchable b))
    as (st1 & stx & st4 & bs_b & seg_c & seg_b & jf & jb & E1 & C & Kx & Sx & _ & Lx & L & HJF & HJB & C' & K' & S' & B').
  exists [], (seg_c ++ jf ++ seg_b ++ jb). split; [|split; [exact C'|rewrite app_nil_r; exact B']].
  exact (ly_while None c b st st1 stx st4 st' bs_b seg_c seg_b jf jb HF E1 C Kx Sx Lx L HJF HJB K' S').
Qed.

Lemma for_declare_ok lv s3 sa : for_declare true lv s3 = COk sa ->
  cbreaks sa = cbreaks s3 /\ exists segp lvi, LVPRO lv s3 sa segp lvi.
Proof.
  unfold LVPRO. destruct lv as [n|]; intro H.
  - destruct (for_declare_bytes n s3 sa H) as (sg & HJ & ->). cbn [ccode cconsts csym cbreaks].
    split; [reflexivity|]. exists ([N_of_opc ONone] ++ sg), (Some (n, snd (st_define n (csym s3)))). exists sg.
    split; [exact HJ|]. split; [reflexivity|]. split; [rewrite <- app_assoc; reflexivity|]. auto.
  - inversion H; subst sa. split; [reflexivity|]. exists [], None. auto 10.
Qed.

Lemma lyr_ok rop S lv b s3 sa st' segp lvi : range_op rop S -> slist_ly b ->
  LVPRO lv s3 sa segp lvi -> for_declare true lv s3 = COk sa ->
  for_loop true lv rop (Z.of_N S) b s3 = COk st' ->
  exists seg_r, LYR lvi b sa st' S rop seg_r /\ ccode st' = ccode sa ++ seg_r /\ cbreaks st' = cbreaks sa.
Proof.
  intros HRO HB HPRO HDecl HC.
  destruct (for_loop_lay (fun brk => LYL brk b) rop S lv b s3 sa st' HRO HDecl HC (slist_ly_body b _ HB) (ly_patchable b))
    as (stx & st4 & bs_b & seg_b & jf & jb & sgv & HLV & Kx & Sx & _ & Lx & L & HJF & HJB & C' & K' & S' & B').
  (* the loop variable of the prologue is the one the loop stores to *)
  assert (EHV : hvN lv = hvof lvi /\ lvstore lvi (csym sa) sgv).
  { destruct (lvpro_frame _ _ _ _ _ HPRO) as (_ & _ & _ & HLVS). unfold LVPRO in HPRO. destruct lv as [n|].
    - destruct HPRO as (sg & _ & _ & _ & _ & _ & ->). split; [reflexivity|]. cbn [lvstore] in *.
      destruct HLV as (y' & HRy & HJ), HLVS as [_ HRy']. assert (y' = snd (st_define n (csym s3))) by congruence. subst y'. auto.
    - destruct HPRO as (_ & _ & _ & _ & ->). split; [reflexivity|exact HLV]. }
  destruct EHV as [EHV HLVS]. rewrite EHV in *.
  exists ([N_of_opc rop; 0; hvof lvi] ++ jf ++ sgv ++ seg_b ++ jb ++ [N_of_opc Drop; 0; S]). split; [|auto].
  exact (lyr rop S lvi b sa stx st4 st' bs_b seg_b jf jb sgv HLVS Kx Sx Lx L HJF HJB K' S').
Qed.

Lemma ly_forstep_ok lv start stop step b st st' :
  ofrag start = true -> efrag stop = true -> ofrag step = true -> slist_ly b ->
  compile_stmt true (SForStep lv start stop step b) st = COk st' -> LYOK (SForStep lv start stop step b) st st'.
Proof.
  intros F1 F2 F3 HB HC. cbn [compile_stmt] in HC.
  pose proof (ofrag_expr step 1 F3) as F3'. pose proof (ofrag_expr start 0 F1) as F1'.
  destruct (compile_expr true stop st) as [s1|] eqn:E1; [|discriminate]. cbn [bind] in HC.
  destruct (compile_expr true (match step with OSome e => e | ONoneE => ENum 1 end) s1) as [s2|] eqn:E2; [|discriminate]. cbn [bind] in HC.
  destruct (compile_expr true (match start with OSome e => e | ONoneE => ENum 0 end) s2) as [s3|] eqn:E3; [|discriminate]. cbn [bind] in HC.
  destruct (efrag_sl2 _ F2 st s1 E1) as (S1 & o1 & c1 & C1 & K1 & _). pose proof (efrag_breaks _ F2 _ _ E1) as B1.
  destruct (efrag_sl2 _ F3' s1 s2 E2) as (S2 & o2 & c2 & C2 & K2 & _). pose proof (efrag_breaks _ F3' _ _ E2) as B2.
  destruct (efrag_sl2 _ F1' s2 s3 E3) as (S3 & o3 & c3 & C3 & K3 & _). pose proof (efrag_breaks _ F1' _ _ E3) as B3.
  assert (HD : exists sa, for_declare true lv s3 = COk sa).
  { rewrite for_loop_body in HC. destruct (for_declare true lv s3) as [sa|]; [eauto|discriminate]. }
  destruct HD as (sa & HD). destruct (for_declare_ok lv s3 sa HD) as (Bp & segp & lvi & HPRO).
  change 3%Z with (Z.of_N 3) in HC.
  destruct (lyr_ok StepRange 3 lv b s3 sa st' segp lvi (or_introl (conj eq_refl eq_refl)) HB HPRO HD HC) as (seg_r & LR & CR & BR).
  pose proof (lvpro_code _ _ _ _ _ HPRO) as Cp.
  exists [], (encode o1 ++ encode o2 ++ encode o3 ++ segp ++ seg_r). split; [|split].
  - eapply ly_forstep; eauto.
  - rewrite CR, Cp, C3, C2, C1, <- !app_assoc. reflexivity.
  - rewrite app_nil_r. congruence.
Qed.

Lemma ly_foriter_ok lv t e b st st' :
  (t = TStr \/ t = TArr \/ t = TMap) -> efrag e = true -> slist_ly b ->
  compile_stmt true (SForIter lv t e b) st = COk st' -> LYOK (SForIter lv t e b) st st'.
Proof.
  intros Ht F HB HC'. rewrite (compile_foriter_eq _ _ _ _ _ Ht) in HC'.
  destruct (compile_expr true e st) as [s1|] eqn:E1; [|discriminate]. cbn [bind] in HC'.
  destruct (emit_const true (KNum 0) s1) as [s2|] eqn:E2; [|discriminate]. cbn [bind] in HC'.
  destruct (efrag_sl2 _ F st s1 E1) as (S1 & o1 & c1 & C1 & K1 & _). pose proof (efrag_breaks _ F _ _ E1) as B1.
  destruct (const_correct _ _ _ E2) as (S2 & segk & C2 & K2 & _).
  assert (B2 : cbreaks s2 = cbreaks s1) by (unfold emit_const in E2; apply emit_breaks in E2; exact E2).
  assert (HD : exists sa, for_declare true lv s2 = COk sa).
  { rewrite for_loop_body in HC'. destruct (for_declare true lv s2) as [sa|]; [eauto|discriminate]. }
  destruct HD as (sa & HD). destruct (for_declare_ok lv s2 sa HD) as (Bp & segp & lvi & HPRO).
  change 2%Z with (Z.of_N 2) in HC'.
  destruct (lyr_ok IterRange 2 lv b s2 sa st' segp lvi (or_intror (conj eq_refl eq_refl)) HB HPRO HD HC') as (seg_r & LR & CR & BR).
  pose proof (lvpro_code _ _ _ _ _ HPRO) as Cp.
  exists [], (encode o1 ++ segk ++ segp ++ seg_r). split; [|split].
  - eapply ly_foriter; eauto.
  - rewrite CR, Cp, C2, C1, <- !app_assoc. reflexivity.
  - rewrite app_nil_r. congruence.
Qed.

(* one `cond / block`: a builder for the head of a chain whose end jump still
   holds the placeholder *)
Lemma cond_ly c b st st1 : efrag c = true -> slist_ly b ->
  compile_cond true c b st = COk st1 ->
  exists bs_h segh, cbreaks st1 = cbreaks st ++ bs_h /\ ccode st1 = ccode st ++ segh /\
    forall t els st' End js bs_r seg_r, LYC None false t els st1 st' End js bs_r seg_r ->
      LYC None false (CCons c b t) els st st' End ((pos_of st1 - 3)%Z :: js) (bs_h ++ bs_r) (segh ++ seg_r).
Proof.
  intros HF HB HC.
  destruct (cond_block_lay (fun brk => LYL brk b) c b st st1 HF HC (slist_ly_body b _ HB))
    as (ste & stx & st3 & bs_b & seg_c & seg_b & jf & je & E1 & C & Kx & Sx & _ & Lx & L & HJF & HJE & K1 & S1 & L1 & C1 & B1 & EJ).
  exists bs_b, (seg_c ++ jf ++ seg_b ++ je). split; [exact B1|]. split; [exact C1|].
  intros t els st' End js bs_r seg_r HT2. rewrite EJ, <- !app_assoc.
  exact (lyc_cons None false c b t els st ste stx st3 st1 st' End js bs_b bs_r seg_c seg_b jf je seg_r HF E1 C Kx Sx Lx L HJF (HJE End) K1 S1 L1 HT2).
Qed.

Fixpoint clist_lyok (l : clist) : Prop :=
  match l with CNil => True | CCons c b t => efrag c = true /\ slist_ly b /\ clist_lyok t end.

(* the else-if blocks: the chain up to its (still unknown) tail *)
Lemma elifs_ly : forall l, clist_lyok l -> forall jumps st st2 js',
  compile_elifs true l jumps st = (COk st2, js') ->
  exists js bs seg, js' = jumps ++ js /\ ccode st2 = ccode st ++ seg /\ cbreaks st2 = cbreaks st ++ bs /\
    forall els st' End bs_e seg_e, LYC None false CNil els st2 st' End [] bs_e seg_e ->
      LYC None false l els st st' End js (bs ++ bs_e) (seg ++ seg_e).
Proof.
  induction l as [|c b t IH]; intros HOK jumps st st2 js' HC.
  - cbn [compile_elifs] in HC. inversion HC; subst.
    exists [], [], []. split; [rewrite app_nil_r; reflexivity|]. split; [rewrite app_nil_r; reflexivity|]. split; [rewrite app_nil_r; reflexivity|].
    intros els st' End bs_e seg_e HT. exact HT.
  - destruct HOK as (HF & HB & HOK). cbn [compile_elifs] in HC.
    destruct (compile_cond true c b st) as [st1|] eqn:E1; [|inversion HC].
    destruct (cond_ly c b st st1 HF HB E1) as (bs_h & segh & B1 & C1 & BUILD).
    destruct (IH HOK _ _ _ _ HC) as (js & bs & seg & EJ & C2 & B2 & TAIL).
    exists ((pos_of st1 - 3)%Z :: js), (bs_h ++ bs), (segh ++ seg). split; [rewrite EJ, <- app_assoc; reflexivity|].
    split; [rewrite C2, C1, app_assoc; reflexivity|]. split; [rewrite B2, B1, app_assoc; reflexivity|].
    intros els st' End bs_e seg_e HT. rewrite <- !app_assoc. apply BUILD. apply TAIL. exact HT.
Qed.

(* the final patching of compileIfStatement turns the pending chain into the
   final one; segment lengths and all compile-time states stay *)
Lemma lyc_patch brk : forall l els st st' End js bs seg, LYC brk false l els st st' End js bs seg ->
  forall T s s' pre post, Z.to_N T = End -> ccode s = pre ++ seg ++ post -> List.length pre = List.length (ccode st) ->
  patch_all true js T s = COk s' ->
  exists seg', ccode s' = pre ++ seg' ++ post /\ cconsts s' = cconsts s /\ csym s' = csym s /\ cbreaks s' = cbreaks s /\
    List.length seg' = List.length seg /\ LYC brk true l els st st' End js bs seg'.
Proof.
  induction l as [|c b t IH]; intros els st st' End js bs seg HL T s s' pre post HT HC HLen HP.
  - inversion HL; subst; rewrite patch_all_nil in HP; inversion HP; subst s'.
    + exists []. repeat split; auto. constructor; assumption.
    + exists seg. repeat split; auto. econstructor; eauto.
  - inversion HL; subst.
    match goal with H : jshape false _ _ |- _ => cbn [jshape] in H; destruct H as (h0 & l0 & ->) end.
    unfold patch_all in HP. cbn [fold_left bind] in HP.
    match type of HP with fold_left _ _ ?X = _ => destruct X as [s1|e] eqn:E1; [|rewrite fold_cerr in HP; discriminate] end.
    change (patch_all true js0 T s1 = COk s') in HP.
    assert (CC : ccode s = (pre ++ seg_c ++ jf ++ seg_b) ++ N_of_opc Jump :: h0 :: l0 :: (seg_r ++ post)).
    { rewrite HC, <- !app_assoc. reflexivity. }
    assert (EL : (List.length (ccode st) + List.length (seg_c ++ jf ++ seg_b))%nat = List.length (pre ++ seg_c ++ jf ++ seg_b)).
    { rewrite (app_length pre), HLen. reflexivity. }
    rewrite EL in E1.
    destruct (patch_bytes _ _ h0 l0 (seg_r ++ post) T s s1 CC E1) as (HTr & hi & lo & EH & ->).
    match goal with HJ : jbytes JumpOnFalse _ jf |- _ => pose proof (jbytes_len _ _ _ HJ) as Ljf end.
    match goal with HB : LYL _ b stx stb _ seg_b |- _ => pose proof (lyl_len _ _ _ _ _ _ HB) as LLb end.
    match goal with H1 : ccode st1 = ccode st ++ seg_c |- _ => pose proof (f_equal (@List.length N) H1) as L1; rewrite app_length in L1 end.
    match type of HP with patch_all _ _ _ ?s1 = _ => set (s1v := s1) in * end.
    lazymatch goal with HT2 : LYC _ false t els sty st' _ js0 _ seg_r |- _ =>
      destruct (IH els sty st' _ js0 _ seg_r HT2 T s1v s' (pre ++ seg_c ++ jf ++ seg_b ++ [N_of_opc Jump; hi; lo]) post eq_refl) as
        (seg_r' & C' & K' & S' & B' & L' & LY'); [unfold s1v; cbn [ccode]; rewrite <- !app_assoc; reflexivity| |exact HP|] end.
    { apply Nat2N.inj. rewrite !app_length, Ljf. simpl List.length. lia. }
    unfold s1v in *. cbn [ccode cconsts csym cbreaks] in *.
    exists (seg_c ++ jf ++ seg_b ++ [N_of_opc Jump; hi; lo] ++ seg_r').
    split; [rewrite C', <- !app_assoc; reflexivity|]. split; [exact K'|]. split; [exact S'|]. split; [exact B'|].
    split; [rewrite !app_length, L'; reflexivity|].
    eapply lyc_cons; try eassumption.
    + match goal with HJ : jbytes JumpOnFalse ?X jf |- jbytes JumpOnFalse ?Y jf => replace Y with X; [exact HJ|] end.
      rewrite !app_length. reflexivity.
    + cbn [jshape]. exists hi, lo. split; [reflexivity|exact EH].
Qed.

Lemma ly_if_ok c b elifs els st st' : efrag c = true -> slist_ly b -> clist_lyok elifs ->
  (match els with NoElse => True | Else eb => slist_ly eb end) ->
  compile_stmt true (SIf c b elifs els) st = COk st' ->
  LYOK (SIf c b elifs els) st st'.
Proof.
  intros HF HB HEL HE HC. cbn [compile_stmt] in HC.
  destruct (compile_cond true c b st) as [st1|] eqn:E1; [|discriminate]. cbn [bind] in HC.
  destruct (compile_elifs true elifs [(pos_of st1 - 3)%Z] st1) as [r jumps] eqn:E2.
  destruct r as [st2|]; [|discriminate]. cbn [bind] in HC.
  destruct (cond_ly c b st st1 HF HB E1) as (bs_h & segh & B1 & C1 & BUILD).
  destruct (elifs_ly elifs HEL _ _ _ _ E2) as (js & bs2 & seg2 & EJ & C2 & B2 & TAIL).
  subst jumps. cbn [app] in HC.
  assert (TAILOK : exists st3 ste End bs_e seg_e,
            (match els with NoElse => COk st2 | Else eb => compile_block true eb st2 end) = COk st3 /\
            LYC None false CNil els st2 ste End [] bs_e seg_e /\ ccode st3 = ccode st2 ++ seg_e /\
            End = N.of_nat (List.length (ccode st3)) /\ cconsts st3 = cconsts ste /\ csym st3 = csym ste /\
            cbreaks st3 = cbreaks st2 ++ bs_e).
  { destruct els as [|eb].
    - exists st2, st2, (N.of_nat (List.length (ccode st2))), [], []. repeat split; auto; [constructor; reflexivity|rewrite app_nil_r; reflexivity|rewrite app_nil_r; reflexivity].
    - destruct (compile_block true eb st2) as [st3|] eqn:E6; [|discriminate]. cbn [bind] in HC.
      destruct (ly_block eb st2 st3 HE E6) as (sty & stee & bs_e & seg_e & Le & Ky & Sy & Cy & Ce & Cee & Ke & Be & Se).
      exists st3, st3, (N.of_nat (List.length (ccode st2)) + N.of_nat (List.length seg_e)), bs_e, seg_e.
      split; [reflexivity|]. split; [apply (lyc_nil_else None false eb st2 sty stee st3 _ bs_e seg_e Ky Sy (f_equal (@List.length N) Cy) Le eq_refl Ke Se)|].
      split; [exact Ce|]. split; [rewrite Ce, app_length, Nat2N.inj_add; reflexivity|]. auto. }
  destruct TAILOK as (st3 & ste & End & bs_e & seg_e & E3 & LT & C3 & EE & K3 & S3 & B3). rewrite E3 in HC. cbn [bind] in HC.
  pose proof (BUILD _ _ _ _ _ _ _ (TAIL _ _ _ _ _ LT)) as LC.
  destruct (lyc_patch _ _ _ _ _ _ _ _ _ LC (pos_of st3) st3 st' (ccode st) []) as (seg' & C' & K' & S' & B' & L' & LY).
  { unfold pos_of. rewrite EE. lia. }
  { rewrite C3, C2, C1, app_nil_r, <- !app_assoc. reflexivity. }
  { reflexivity. }
  { exact HC. }
  rewrite app_nil_r in C'.
  exists (bs_h ++ bs2 ++ bs_e), seg'. split; [|split; [exact C'|]].
  - eapply ly_if; [|rewrite K'; exact K3|rewrite S'; exact S3].
    replace (N.of_nat (List.length (ccode st)) + N.of_nat (List.length seg')) with End; [exact LY|].
    rewrite EE, C3, C2, C1, L', !app_length, !Nat2N.inj_add. lia.
  - rewrite B', B3, B2, B1, <- !app_assoc. reflexivity.
Qed.

Lemma ly_store_ok l i e st st' : efrag l = true -> efrag i = true -> efrag e = true ->
  compile_stmt true (SAssign (EIndex l i) e) st = COk st' -> LYOK (SAssign (EIndex l i) e) st st'.
Proof.
  intros HFl HFi HFe HC. cbn [compile_stmt] in HC.
  destruct (compile_expr true e st) as [st1|] eqn:E1; [|discriminate]. cbn [bind] in HC.
  apply bind_ok in HC. destruct HC as (st3 & HC3 & HC). apply bind_ok in HC3. destruct HC3 as (st2 & E2 & E3).
  destruct (efrag_sl2 e HFe st st1 E1) as (S1 & ops1 & newc1 & C1 & K1 & _).
  destruct (efrag_sl2 l HFl st1 st2 E2) as (S2 & ops2 & newc2 & C2 & K2 & _).
  destruct (efrag_sl2 i HFi st2 st3 E3) as (S3 & ops3 & newc3 & C3 & K3 & _).
  pose proof (efrag_breaks e HFe _ _ E1) as B1. pose proof (efrag_breaks l HFl _ _ E2) as B2. pose proof (efrag_breaks i HFi _ _ E3) as B3.
  pose proof (emit_enc0 SetIndex _ _ eq_refl HC) as ->. cbn [csym ccode cconsts cbreaks].
  change (enc1 (SetIndex, 0)) with [N_of_opc SetIndex].
  exists [], (encode ops1 ++ encode ops2 ++ encode ops3 ++ [N_of_opc SetIndex]). split; [|split].
  - eapply ly_store; eauto; cbn [cconsts csym]; congruence.
  - rewrite C3, C2, C1, <- !app_assoc. reflexivity.
  - rewrite B3, B2, B1, app_nil_r. reflexivity.
Qed.

(* every statement of cfrag, element stores included (for them the layout has
   static uses only: CompileInitProofs.v) *)
Theorem ly_all_w :
  (forall s, cfrag_stmt s = true -> forall st st', compile_stmt true s st = COk st' -> LYOK s st st') /\
  (forall l, cfrag_slist l = true -> slist_ly l) /\
  (forall l, cfrag_clist l = true -> clist_lyok l) /\
  (forall o, match o with NoElse => True | Else b => cfrag_slist b = true -> slist_ly b end).
Proof.
  apply stmt_mutind; try (intros; exact I).
  - intros n e HF st st' HC. apply (ly_decl_ok n e st st' HF HC).
  - intros target e HF st st' HC. destruct target; try discriminate HF.
    + apply (ly_assign_ok n e st st' HF HC).
    + cbn [cfrag_stmt] in HF. rewrite !andb_true_iff in HF. destruct HF as [[F1 F2] F3].
      apply (ly_store_ok target1 target2 e st st' F1 F2 F3 HC).
  - intros c b Hb elifs Hc els Ho HF st st' HC. cbn [cfrag_stmt] in HF.
    rewrite !andb_true_iff in HF. destruct HF as [[[F1 F2] F3] F4].
    apply (ly_if_ok c b elifs els st st' F1 (Hb F2) (Hc F3)); auto. destruct els; [exact I|apply Ho; exact F4].
  - intros c b Hb HF st st' HC. cbn [cfrag_stmt] in HF. apply andb_true_iff in HF. destruct HF as [F1 F2].
    apply (ly_while_ok c b st st' F1 (Hb F2) HC).
  - intros lv start stop step b Hb HF st st' HC. cbn [cfrag_stmt] in HF.
    rewrite !andb_true_iff in HF. destruct HF as [[[F1 F2] F3] F4].
    apply (ly_forstep_ok lv start stop step b st st' F1 F2 F3 (Hb F4) HC).
  - intros lv t e b Hb HF st st' HC. destruct (cfrag_foriter _ _ _ _ HF) as (Ht & F1 & F2).
    apply (ly_foriter_ok lv t e b st st' Ht F1 (Hb F2) HC).
  - intros _ st st' HC. apply (ly_break_ok st st' HC).
  - intros _ st st' HC. cbn [compile_stmt] in HC. inversion HC; subst.
    exists [], []. split; [constructor|]. split; rewrite app_nil_r; reflexivity.
  - intros b _ HF. discriminate.
  - intros w HF. discriminate.
  - intros _ st st' HC. cbn [body_of] in HC. inversion HC; subst.
    exists [], []. split; [constructor|]. split; rewrite app_nil_r; reflexivity.
  - intros s Hs t Ht HF st st' HC. cbn [cfrag_slist] in HF. apply andb_true_iff in HF. destruct HF as [F1 F2].
    cbn [body_of] in HC. destruct (compile_stmt true s st) as [st1|] eqn:E1; [|discriminate]. cbn [bind] in HC.
    destruct (Hs F1 st st1 E1) as (bs1 & seg1 & L1 & C1 & B1). rewrite compile_slist_body in HC.
    destruct (Ht F2 st1 st' HC) as (bs2 & seg2 & L2 & C2 & B2).
    exists (bs1 ++ bs2), (seg1 ++ seg2). split; [|split; [rewrite C2, C1, app_assoc; reflexivity|rewrite B2, B1, app_assoc; reflexivity]].
    eapply lyl_cons; eauto. rewrite C1, app_length, Nat2N.inj_add. reflexivity.
  - intros c b Hb t Ht HF. cbn [cfrag_clist] in HF.
    rewrite !andb_true_iff in HF. destruct HF as [[F1 F2] F3].
    cbn [clist_lyok]. auto.
  - intros b Hb. exact Hb.
Qed.

Theorem ly_all :
  (forall s, lfrag_stmt s = true -> forall st st', compile_stmt true s st = COk st' -> LYOK s st st') /\
  (forall l, lfrag_slist l = true -> slist_ly l) /\
  (forall l, lfrag_clist l = true -> clist_lyok l) /\
  (forall o, match o with NoElse => True | Else b => lfrag_slist b = true -> slist_ly b end).
Proof.
  destruct ly_all_w as (Ws & Wl & Wc & Wo). destruct lfrag_cfrag as (Fs & Fl & Fc & Fo).
  split; [|split; [|split]].
  - intros s HF. apply Ws, Fs, HF.
  - intros l HF. apply Wl, Fl, HF.
  - intros l HF. apply Wc, Fc, HF.
  - intros [|b]; [exact I|]. intro HF. apply (Wo (Else b)), (Fo (Else b)), HF.
Qed.

(* no break outside a loop: nothing is pending *)
Lemma ly_no_breaks :
  (forall brk s st st' bs seg, LY brk s st st' bs seg -> nb_stmt s = true -> bs = []) /\
  (forall brk l st st' bs seg, LYL brk l st st' bs seg -> nb_slist l = true -> bs = []) /\
  (forall brk fin l els st st' End js bs seg, LYC brk fin l els st st' End js bs seg ->
     nb_clist l = true -> match els with NoElse => True | Else eb => nb_slist eb = true end -> bs = []) /\
  (forall lvi b s3 st' S rop seg, LYR lvi b s3 st' S rop seg -> True).
Proof.
  apply LY_mutind; intros; try reflexivity; try exact I.
  - discriminate.
  - cbn [nb_stmt] in H0. rewrite !andb_true_iff in H0. destruct H0 as [[F1 F2] F3].
    apply H; [cbn [nb_clist]; rewrite F1, F2; reflexivity|destruct els; [exact I|exact F3]].
  - cbn [nb_slist] in H1. apply andb_true_iff in H1. destruct H1 as [F1 F2]. rewrite (H F1), (H0 F2). reflexivity.
  - apply H. exact H1.
  - cbn [nb_clist] in H1. apply andb_true_iff in H1. destruct H1 as [F1 F2]. rewrite (H F1), (H0 F2 H2). reflexivity.
Qed.

(* compile_correct with locals: for every program of the fragment lpfrag
   (declarations and for loops with a loop variable at top level AND inside
   blocks, assignments to globals and locals, if / else-if / else, while,
   break, for loops over step ranges and iterables, nested; expressions in
   efrag): if the compiler succeeds and the scoped big-step semantics lx_l is
   defined for some fuel, the VM model started by NewVM runs to the end of the
   code, halts there with an empty operand stack, and every global the
   compiler knows holds the value the semantics gives it. *)
Theorem compile_correct_locals : forall (p : slist) (st : cstate) (fuel : nat) (env' : senv),
  lpfrag p = true -> compile p = COk st -> lx_l fuel p [[]] = Some (env', false) ->
  st_local_count (csym st) + ldepth p <= StackSize ->
  let prog := program_of (bytecode_of st) in
  exists s, reaches prog (vm_init prog) s /\
            vm_step prog s = Halted s /\ ostack s = [] /\
            forall n y v, st_resolve n (csym st) = Some y -> slook n env' = Some v ->
                          nth_error (globals s) (N.to_nat (sidx y)) = Some v.
Proof.
  intros p st fuel env' HF HC HX HD prog. unfold lpfrag in HF. apply andb_true_iff in HF. destruct HF as [HF HNB].
  unfold compile, compile_program in HC. rewrite compile_slist_body in HC.
  destruct (proj1 (proj2 ly_all) p HF cinit st HC) as (bs & seg & L0 & C & B).
  pose proof (proj1 (proj2 ly_no_breaks) _ _ _ _ _ _ L0 HNB) as ->.
  destruct (proj1 (proj2 (ly_brk_patch 0%Z)) _ _ _ _ _ _ L0 eq_refl st st (ccode cinit) []) as (seg' & C' & _ & _ & _ & _ & L);
    [rewrite app_nil_r; exact C|reflexivity|reflexivity|].
  rewrite app_nil_r, C in C'. apply app_inv_head in C'. subst seg'.
  destruct (proj1 (proj2 ly_frame) _ _ _ _ _ _ L) as [_ SYp].
  pose proof (sy_out _ _ SYp) as HO. simpl in HO.
  pose proof (sy_inv _ _ SYp inv_new) as HI'.
  set (G := N.to_nat (st_global_count (csym st))). set (Lc := N.to_nat (st_local_count (csym st))).
  assert (HM : MS G Lc cinit [[]] [] (vm_init prog)).
  { unfold MS, vm_init, prog, program_of, bytecode_of. cbn [ostack locals globals plcount pgcount out_lcount out_gcount].
    rewrite !repeat_length. repeat split; auto. constructor; [|constructor]. split; [intro n; split; reflexivity|intros n v y HA; discriminate]. }
  destruct (proj1 (proj2 (sim_all fuel)) _ p cinit st _ seg L G Lc [[]] env' false [] HX prog (vm_init prog) [] []) as (s & R & I & (A1 & A2 & A3 & A4)); auto.
  - unfold prog, program_of, bytecode_of. cbn [pcode out_code]. rewrite C, app_nil_r. reflexivity.
  - exists []. unfold prog, program_of, bytecode_of. cbn [pconsts out_consts]. rewrite app_nil_r. reflexivity.
  - apply inv_new.
  - unfold rootcount, G, st_global_count. rewrite HO. cbn [last]. lia.
  - rewrite (bound_top _ HO). unfold Lc, st_local_count. lia.
  - unfold Lc. cbn [List.length]. lia.
  - exists s. split; [exact R|]. split; [|split; [exact A1|]].
    + apply vm_step_end. rewrite I. unfold prog, program_of, bytecode_of. cbn [pcode out_code vm_init ip]. rewrite C. cbn. lia.
    + intros n y v HR HV. pose proof HR as HR'. rewrite resolve_sres in HR'.
      pose proof (rels_lookup _ _ _ _ A4 n y v HR' HV) as SH. unfold slot_holds in SH.
      destruct (sym_top_globals _ HO HI' n y HR) as [SG _]. rewrite SG in SH. exact SH.
Qed.
