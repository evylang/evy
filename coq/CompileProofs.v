(* CompileProofs.v — the compiler accepts no node it does not translate; the
   code of an expression of the fragment efrag computes, on the VM model, the
   value eval_expr gives. *)
From Coq Require Import ZArith NArith List Bool Lia ZifyBool ZifyNat ZifyN Floats.
From EvyV Require Import Base Bytecode BytecodeProofs SymTab Vm VmProofs Compile CompileSem.
Require Import EvyV.Gen.Opcodes.
Import ListNotations.
Open Scope Z_scope.

Scheme expr_mind := Induction for expr Sort Prop
  with elist_mind := Induction for elist Sort Prop
  with eplist_mind := Induction for eplist Sort Prop
  with oexpr_mind := Induction for oexpr Sort Prop.
Combined Scheme expr_mutind from expr_mind, elist_mind, eplist_mind, oexpr_mind.

Scheme stmt_mind := Induction for stmt Sort Prop
  with slist_mind := Induction for slist Sort Prop
  with clist_mind := Induction for clist Sort Prop
  with oslist_mind := Induction for oslist Sort Prop.
Combined Scheme stmt_mutind from stmt_mind, slist_mind, clist_mind, oslist_mind.

Lemma bind_ok r f st' : (r >>= f) = COk st' -> exists st1, r = COk st1 /\ f st1 = COk st'.
Proof. destruct r as [st1|e]; simpl; intro H; [eauto|discriminate]. Qed.

Ltac bind_inv H :=
  let st := fresh "st" in let H1 := fresh "H" in
  apply bind_ok in H; destruct H as (st & H1 & H).

Ltac binds := repeat match goal with H : (_ >>= _) = COk _ |- _ => bind_inv H end.
Ltac use_ih := repeat match goal with
  | IH : forall st st', _ = COk st' -> _ = true, H : _ = COk _ |- _ => rewrite (IH _ _ H); clear H
  end.

Lemma strict_expr_supported :
  (forall e st st', compile_expr true e st = COk st' -> supported_expr e = true) /\
  (forall l st st', compile_elist true l st = COk st' -> supported_elist l = true) /\
  (forall l st st', compile_pairs true l st = COk st' -> supported_pairs l = true) /\
  (forall o st st', compile_oexpr true o st = COk st' -> supported_oexpr o = true).
Proof.
  apply expr_mutind; intros; simpl in *; auto; binds; try (destruct op; try discriminate); use_ih; auto; try discriminate.
Qed.

Definition body_of (strict : bool) (l : slist) (st : cstate) : cres :=
  match l with
  | SNil => COk st
  | SCons s t => compile_stmt strict s st >>= compile_slist strict t
  end.

Lemma compile_slist_body strict l st : compile_slist strict l st = body_of strict l st.
Proof. destruct l; reflexivity. Qed.

(* a block, a conditional block and a loop compile their body (body_of) somewhere *)
Lemma block_body strict b st st' : compile_block strict b st = COk st' -> exists st0 st1, body_of strict b st0 = COk st1.
Proof.
  intro H. destruct b as [|s t]; [exists st, st; reflexivity|]. cbn [compile_block] in H. bind_inv H.
  eexists _, _. cbn [body_of]. eassumption.
Qed.

Lemma cond_body strict c b st st' : compile_cond strict c b st = COk st' ->
  (exists st1, compile_expr strict c st = COk st1) /\ exists st0 st1, body_of strict b st0 = COk st1.
Proof.
  intro H. destruct b as [|s t]; cbn [compile_cond] in H; bind_inv H; (split; [eauto|]); [exists st, st; reflexivity|].
  bind_inv H; bind_inv H. eexists _, _. cbn [body_of]. eassumption.
Qed.

Lemma for_body strict lv rop n b st st' : for_loop strict lv rop n b st = COk st' -> exists st0 st1, body_of strict b st0 = COk st1.
Proof.
  intro H. destruct b as [|s t]; [exists st, st; reflexivity|]. cbn [for_loop] in H.
  bind_inv H; bind_inv H; bind_inv H; bind_inv H. eexists _, _. cbn [body_of]. eassumption.
Qed.

(* every hypothesis "this part compiled" becomes "this part is supported": by
   the lemmas SE..SP for expressions, by the induction hypothesis for a body *)
Ltac derive SE SO SL SP :=
  repeat match goal with
  | H : compile_elist true _ _ = COk _ |- _ => apply SL in H
  | H : compile_pairs true _ _ = COk _ |- _ => apply SP in H
  | H : compile_expr true _ _ = COk _ |- _ => apply SE in H
  | H : compile_oexpr true _ _ = COk _ |- _ => apply SO in H
  | H : compile_block true _ _ = COk _ |- _ => apply block_body in H; destruct H as (? & ? & H)
  | H : compile_cond true _ _ _ = COk _ |- _ => apply cond_body in H; destruct H as ((? & ?) & ? & ? & H)
  | H : for_loop true _ _ _ _ _ = COk _ |- _ => apply for_body in H; destruct H as (? & ? & H)
  | IH : (forall st st', body_of true ?b st = COk st' -> _), H : body_of true ?b _ = COk _ |- _ => apply IH in H
  end.
Ltac finish := repeat match goal with H : _ = true |- _ => rewrite H; clear H end; simpl; auto.

Opaque emit emit_const.
Lemma strict_stmt_supported :
  (forall s st st', compile_stmt true s st = COk st' -> supported_stmt s = true) /\
  (forall l st st', body_of true l st = COk st' -> supported_slist l = true) /\
  (forall l jumps st st', fst (compile_elifs true l jumps st) = COk st' -> supported_clist l = true) /\
  (forall o, match o with
             | NoElse => True
             | Else b => forall st st', body_of true b st = COk st' -> supported_slist b = true
             end).
Proof.
  destruct strict_expr_supported as (SE & SL & SP & SO).
  apply stmt_mutind; intros; simpl in *; auto.
  - (* SDecl *) binds. derive SE SO SL SP. finish.
  - (* SAssign *)
    match goal with H : _ = COk _ |- _ => bind_inv H; rename H into HT end.
    destruct target; simpl in *; binds;
      try (destruct (st_resolve _ _); [|discriminate]);
      try (destruct op; try discriminate);
      derive SE SO SL SP; try discriminate; finish.
  - (* SIf *)
    match goal with H : _ = COk _ |- _ => bind_inv H; rename H into HT end.
    match type of HT with context [compile_elifs true ?l ?j ?x] =>
      destruct (compile_elifs true l j x) as [r jumps] eqn:EE end.
    binds.
    match goal with IH : forall jumps st st', fst (compile_elifs true elifs jumps st) = COk st' -> _ |- _ =>
      erewrite IH by (rewrite EE; simpl; eassumption) end.
    destruct els; simpl in *; derive SE SO SL SP; finish.
  - (* SWhile *) binds. derive SE SO SL SP. finish.
  - (* SForStep *) binds. derive SE SO SL SP. destruct start, step; simpl in *; finish.
  - (* SForIter *) destruct t; try discriminate; binds; derive SE SO SL SP; finish.
  - (* SBlock *) derive SE SO SL SP. finish.
  - (* SUnsupported *) discriminate.
  - (* SCons *) binds.
    match goal with H : compile_slist true _ _ = COk _ |- _ => rewrite compile_slist_body in H end.
    use_ih. reflexivity.
  - (* CCons *)
    match goal with H : fst (match ?x with _ => _ end) = COk _ |- _ => destruct x eqn:EC; [|simpl in H; discriminate] end.
    derive SE SO SL SP. finish. eauto.
  - (* Else *) eauto.
Qed.

Transparent emit emit_const.

Theorem compile_rejects_unsupported : forall (p : slist) (st : cstate),
  compile p = COk st -> supported_slist p = true.
Proof.
  intros p st H. unfold compile, compile_program in H. rewrite compile_slist_body in H.
  destruct strict_stmt_supported as (_ & SL & _). eapply SL; eauto.
Qed.

Open Scope N_scope.

Lemma vm_steps_trans n : forall m p s s1 o,
  vm_steps n p s = Running s1 -> vm_steps m p s1 = o -> vm_steps (n + m) p s = o.
Proof.
  induction n as [|n IH]; simpl; intros m p s s1 o H1 H2.
  - injection H1 as <-. exact H2.
  - destruct (vm_step p s); try discriminate. eauto.
Qed.

Lemma fetch_noarg p s o pre post :
  pcode p = pre ++ [N_of_opc o] ++ post -> ip s = N.of_nat (List.length pre) -> has_operand o = false ->
  vm_step p s = exec p s o 0 (ip s + 1).
Proof.
  intros HC HI HO. unfold vm_step. rewrite HC, HI, Nat2N.id, skipn_app, skipn_all, Nat.sub_diag.
  cbn [app skipn]. rewrite opc_of_N_of_opc, has_operand_vm, HO. reflexivity.
Qed.

Lemma fetch_arg p s o hi lo pre post :
  pcode p = pre ++ [N_of_opc o; hi; lo] ++ post -> ip s = N.of_nat (List.length pre) -> has_operand o = true ->
  vm_step p s = exec p s o (hi * 256 + lo) (ip s + 3).
Proof.
  intros HC HI HO. unfold vm_step. rewrite HC, HI, Nat2N.id, skipn_app, skipn_all, Nat.sub_diag.
  cbn [app skipn]. rewrite opc_of_N_of_opc, has_operand_vm, HO. reflexivity.
Qed.

Lemma emit_ok o ops st st' : emit true o ops st = COk st' ->
  exists ins, make (N_of_opc o) ops = Some ins /\
              st' = {| ccode := ccode st ++ ins; cconsts := cconsts st; csym := csym st; cbreaks := cbreaks st |}.
Proof.
  unfold emit. destruct (make (N_of_opc o) ops) as [ins|]; [|discriminate].
  intro H; inversion H; subst. eauto.
Qed.

Lemma exec_pure p s o arg next pn v :
  is_pure o = true -> simple_effect o arg = Some (pn, 1) ->
  (N.to_nat pn <= List.length (ostack s))%nat ->
  pure_sem o arg (pconsts p) (locals s) (globals s) (firstn (N.to_nat pn) (ostack s)) = POk v ->
  N.of_nat (List.length (locals s)) + N.of_nat (S (List.length (ostack s) - N.to_nat pn)) <= StackSize ->
  exec p s o arg next =
  Running {| ip := next; ostack := v :: skipn (N.to_nat pn) (ostack s); locals := locals s; globals := globals s |}.
Proof.
  intros HP HE HL HS HR. rewrite (exec_pure_eq p s o arg next HP), HE.
  destruct (List.length (ostack s) <? N.to_nat pn)%nat eqn:E; [apply Nat.ltb_lt in E; lia|].
  rewrite HS. unfold with_stack. cbn [List.length]. rewrite skipn_length.
  destruct (StackSize <? _) eqn:E2; [apply N.ltb_lt in E2; lia|]. reflexivity.
Qed.

(* the same with the operands named: they lie on top of the stack *)
Lemma exec_pure_args p s o arg next args rest v :
  is_pure o = true -> simple_effect o arg = Some (N.of_nat (List.length args), 1) -> ostack s = args ++ rest ->
  pure_sem o arg (pconsts p) (locals s) (globals s) args = POk v ->
  N.of_nat (List.length (locals s)) + N.of_nat (List.length rest) + 1 <= StackSize ->
  exec p s o arg next = Running {| ip := next; ostack := v :: rest; locals := locals s; globals := globals s |}.
Proof.
  intros HP HE HO HS HR.
  rewrite (exec_pure p s o arg next _ v HP HE); rewrite HO, Nat2N.id.
  - rewrite skipn_app, skipn_all, Nat.sub_diag. reflexivity.
  - rewrite app_length. lia.
  - rewrite firstn_app, firstn_all, Nat.sub_diag, app_nil_r. exact HS.
  - rewrite app_length. lia.
Qed.

(* every name the symbol table resolves is a global, and the VM's global
   slots hold the environment *)
Definition sym_static (sym : symtab) : Prop :=
  forall n y, st_resolve n sym = Some y -> sscp y = GlobalScope.
Definition globals_hold (env : genv) (sym : symtab) (g : list value) : Prop :=
  forall n y v, st_resolve n sym = Some y -> env n = Some v -> nth_error g (N.to_nat (sidx y)) = Some v.

(* with locals: the slot of every visible name holds its value *)
Definition slot_holds (y : symbol) (v : value) (ls gs : list value) : Prop :=
  match sscp y with
  | GlobalScope => nth_error gs (N.to_nat (sidx y)) = Some v
  | LocalScope => nth_error ls (N.to_nat (sidx y)) = Some v
  end.
Definition vars_hold (env : genv) (sym : symtab) (ls gs : list value) : Prop :=
  forall n y v, st_resolve n sym = Some y -> env n = Some v -> slot_holds y v ls gs.

Lemma globals_vars_hold env sym ls gs : sym_static sym -> globals_hold env sym gs -> vars_hold env sym ls gs.
Proof. intros HS HG n y v HR HE. unfold slot_holds. rewrite (HS n y HR). apply (HG n y v HR HE). Qed.

Definition run_to (p : program) (s : vmstate) (len : nat) (v : value) : Prop :=
  exists n, vm_steps n p s =
            Running {| ip := ip s + N.of_nat len; ostack := v :: ostack s; locals := locals s; globals := globals s |}.

Definition expr_correct (e : expr) : Prop :=
  forall env st st' v,
    compile_expr true e st = COk st' -> eval_expr env e = Some v ->
    csym st' = csym st /\
    exists seg newc,
      ccode st' = ccode st ++ seg /\ cconsts st' = cconsts st ++ newc /\
      forall p s more pre post,
        pcode p = pre ++ seg ++ post ->
        pconsts p = map const_value (cconsts st') ++ more ->
        ip s = N.of_nat (List.length pre) ->
        vars_hold env (csym st) (locals s) (globals s) ->
        N.of_nat (List.length (locals s)) + N.of_nat (List.length (ostack s)) + edepth e <= StackSize ->
        run_to p s (List.length seg) v.

Lemma run_one p s len v s1 :
  vm_step p s = Running s1 ->
  s1 = {| ip := ip s + N.of_nat len; ostack := v :: ostack s; locals := locals s; globals := globals s |} ->
  run_to p s len v.
Proof. intros H ->. exists 1%nat. simpl. rewrite H. reflexivity. Qed.

Lemma nth_error_map_app {A B} (f : A -> B) l x more :
  nth_error (map f (l ++ [x]) ++ more) (List.length l) = Some (f x).
Proof.
  rewrite nth_error_app1 by (rewrite map_length, app_length; simpl; lia).
  rewrite map_app. rewrite nth_error_app2 by (rewrite map_length; lia).
  rewrite map_length, Nat.sub_diag. reflexivity.
Qed.

Lemma const_correct k st st' :
  emit_const true k st = COk st' ->
  csym st' = csym st /\
  exists seg, ccode st' = ccode st ++ seg /\ cconsts st' = cconsts st ++ [k] /\
    forall p s more pre post,
      pcode p = pre ++ seg ++ post ->
      pconsts p = map const_value (cconsts st') ++ more ->
      ip s = N.of_nat (List.length pre) ->
      N.of_nat (List.length (locals s)) + N.of_nat (List.length (ostack s)) + 1 <= StackSize ->
      run_to p s (List.length seg) (const_value k).
Proof.
  unfold emit_const. intro H. apply emit_ok in H. destruct H as (ins & HM & ->). cbn [csym ccode cconsts].
  split; [reflexivity|]. exists ins. split; [reflexivity|]. split; [reflexivity|].
  intros p s more pre post HC HK HI HR.
  pose proof (make_some_range Constant _ _ eq_refl HM) as HRng.
  destruct (make_arg_bytes Constant (Z.of_nat (List.length (cconsts st)))) as (hi & lo & HM' & E); [reflexivity|lia|].
  rewrite HM in HM'. inversion HM'; subst ins; clear HM'.
  eapply run_one.
  - rewrite (fetch_arg p s Constant hi lo pre post HC HI eq_refl).
    apply (exec_pure p s Constant _ _ 0 (const_value k)); try reflexivity.
    + simpl. lia.
    + cbn [pure_sem]. rewrite E, HK.
      replace (N.to_nat (Z.to_N (Z.of_nat (List.length (cconsts st))))) with (List.length (cconsts st)) by lia.
      rewrite nth_error_map_app. reflexivity.
    + change (N.to_nat 0) with 0%nat. lia.
  - reflexivity.
Qed.

Lemma edepth_pos e : 1 <= edepth e.
Proof. induction e; simpl; lia. Qed.

Lemma binop_correct op lt rt st2 st' a b v :
  compile_binop true op lt rt st2 = COk st' -> eval_binop op lt rt a b = Some v ->
  exists o, emit true o [] st2 = COk st' /\ is_pure o = true /\ has_operand o = false /\
            (forall arg, simple_effect o arg = Some (2, 1)) /\
            forall arg cs ls gs, pure_sem o arg cs ls gs [b; a] = POk v.
Proof.
  intros HC HE. unfold compile_binop in HC. unfold eval_binop in HE.
  assert (EQ : op = BEq \/ op = BNe \/ (op <> BEq /\ op <> BNe))
    by (destruct op; auto; right; right; split; discriminate).
  destruct EQ as [->|[->|[N1 N2]]].
  - (* == on any two operands: val_equals decides on both sides *)
    destruct (val_equals a b) as [t|] eqn:EV; [|discriminate]. inversion HE; subst v.
    exists Equal. split; [exact HC|]. split; [reflexivity|]. split; [reflexivity|]. split; [reflexivity|].
    intros arg cs ls gs. cbn [pure_sem]. rewrite EV. reflexivity.
  - destruct (val_equals a b) as [t|] eqn:EV; [|discriminate]. inversion HE; subst v.
    exists NotEqual. split; [exact HC|]. split; [reflexivity|]. split; [reflexivity|]. split; [reflexivity|].
    intros arg cs ls gs. cbn [pure_sem]. rewrite EV. reflexivity.
  - (* the other operators: the static types choose the opcode, and the values have those types *)
    destruct op; try congruence; destruct lt, rt; try discriminate HC;
      destruct a; try discriminate HE; destruct b; try discriminate HE;
      cbn [num_binop str_binop] in HC; try discriminate HC;
      (eexists; split; [exact HC|]; split; [reflexivity|]; split; [reflexivity|]; split; [reflexivity|];
       intros arg cs ls gs; cbn [pure_sem num2 str2];
       repeat match type of HE with
              | context [if ?c then _ else _] => destruct c
              | context [match arr_repeat ?g ?r ?l with _ => _ end] => destruct (arr_repeat g r l)
              end;
       try discriminate; inversion HE; reflexivity).
Qed.

(* all the values of a list on the stack, the first one deepest *)
Definition run_tol (p : program) (s : vmstate) (len : nat) (vs : list value) : Prop :=
  exists n, vm_steps n p s =
            Running {| ip := ip s + N.of_nat len; ostack := rev vs ++ ostack s; locals := locals s; globals := globals s |}.

(* From st to st' the compiler appended code that pushes vs, using at most dep
   slots above the height it starts at.  expr_correct & co. below say this of
   what compile_expr & co. append, with the values of the evaluator. *)
Definition pushes (env : genv) (st st' : cstate) (dep : N) (vs : list value) : Prop :=
  csym st' = csym st /\
  exists seg newc,
    ccode st' = ccode st ++ seg /\ cconsts st' = cconsts st ++ newc /\
    forall p s more pre post,
      pcode p = pre ++ seg ++ post ->
      pconsts p = map const_value (cconsts st') ++ more ->
      ip s = N.of_nat (List.length pre) ->
      vars_hold env (csym st) (locals s) (globals s) ->
      N.of_nat (List.length (locals s)) + N.of_nat (List.length (ostack s)) + dep <= StackSize ->
      run_tol p s (List.length seg) vs.

Lemma pushes_nil env st dep : pushes env st st dep [].
Proof.
  split; [reflexivity|]. exists [], []. split; [symmetry; apply app_nil_r|]. split; [symmetry; apply app_nil_r|].
  intros p s more pre post _ _ _ _ _. exists 0%nat. destruct s; cbn. rewrite N.add_0_r. reflexivity.
Qed.

Lemma pushes_const env k st st' : emit_const true k st = COk st' -> pushes env st st' 1 [const_value k].
Proof.
  intro HC. destruct (const_correct _ _ _ HC) as (A & seg & B & C & D).
  split; [exact A|]. exists seg, [k]. split; [exact B|]. split; [exact C|].
  intros p s more pre post H1 H2 H4 _ H6. exact (D p s more pre post H1 H2 H4 H6).
Qed.

Lemma pushes_app env st st1 st2 d1 d2 d vs1 vs2 :
  pushes env st st1 d1 vs1 -> pushes env st1 st2 d2 vs2 ->
  d1 <= d -> N.of_nat (List.length vs1) + d2 <= d -> pushes env st st2 d (vs1 ++ vs2).
Proof.
  intros (A1 & seg1 & newc1 & B1 & C1 & D1) (A2 & seg2 & newc2 & B2 & C2 & D2) L1 L2.
  split; [congruence|]. exists (seg1 ++ seg2), (newc1 ++ newc2).
  split; [rewrite B2, B1, app_assoc; reflexivity|]. split; [rewrite C2, C1, app_assoc; reflexivity|].
  intros p s more pre post H1 H2 H4 H5 H6.
  destruct (D1 p s (map const_value newc2 ++ more) pre (seg2 ++ post)) as (n1 & R1);
    [rewrite H1, <- app_assoc; reflexivity|rewrite H2, C2, map_app, <- app_assoc; reflexivity|exact H4|exact H5|lia|].
  set (s1 := {| ip := ip s + N.of_nat (List.length seg1); ostack := rev vs1 ++ ostack s; locals := locals s; globals := globals s |}) in R1.
  destruct (D2 p s1 more (pre ++ seg1) post) as (n2 & R2);
    [rewrite H1, <- !app_assoc; reflexivity|exact H2|cbn [s1 ip]; rewrite H4, app_length, Nat2N.inj_add; reflexivity
    |rewrite A1; exact H5|cbn [s1 locals ostack]; rewrite app_length, rev_length; lia|].
  exists (n1 + n2)%nat. rewrite (vm_steps_trans _ _ _ _ _ _ R1 R2). cbn [s1 ip ostack locals globals].
  rewrite app_length, Nat2N.inj_add, N.add_assoc, rev_app_distr, <- app_assoc. reflexivity.
Qed.

(* emit appends one instruction; the VM decodes it as o with operand arg *)
Definition emits (o : opc) (arg : N) (st st' : cstate) : Prop :=
  exists ins,
    st' = {| ccode := ccode st ++ ins; cconsts := cconsts st; csym := csym st; cbreaks := cbreaks st |} /\
    forall p s pre post, pcode p = pre ++ ins ++ post -> ip s = N.of_nat (List.length pre) ->
      vm_step p s = exec p s o arg (ip s + N.of_nat (List.length ins)).

Lemma emit_noarg o st st' : emit true o [] st = COk st' -> has_operand o = false -> emits o 0 st st'.
Proof.
  intros H HO. apply emit_ok in H. destruct H as (ins & HM & ->).
  rewrite (make_noarg_bytes o HO) in HM. inversion HM; subst ins.
  exists [N_of_opc o]. split; [reflexivity|]. intros p s pre post HC HI. exact (fetch_noarg p s o pre post HC HI HO).
Qed.

Lemma emit_arg o z st st' : emit true o [z] st = COk st' -> has_operand o = true -> emits o (Z.to_N z) st st'.
Proof.
  intros H HO. apply emit_ok in H. destruct H as (ins & HM & ->).
  destruct (make_arg_bytes o z HO (make_some_range o z ins HO HM)) as (hi & lo & HM' & E).
  rewrite HM in HM'. inversion HM'; subst ins.
  exists [N_of_opc o; hi; lo]. split; [reflexivity|]. intros p s pre post HC HI. rewrite <- E. exact (fetch_arg p s o hi lo pre post HC HI HO).
Qed.

(* the code of the operands, then a pure instruction that pops them all *)
Lemma pushes_op env st st0 st' o arg d d' vs v :
  pushes env st st0 d vs -> emits o arg st0 st' -> is_pure o = true ->
  simple_effect o arg = Some (N.of_nat (List.length vs), 1) ->
  (forall p s more, pconsts p = map const_value (cconsts st') ++ more ->
     vars_hold env (csym st) (locals s) (globals s) ->
     pure_sem o arg (pconsts p) (locals s) (globals s) (rev vs) = POk v) ->
  1 <= d' -> d <= d' -> pushes env st st' d' [v].
Proof.
  intros (A & seg & newc & B & C & D) (ins & -> & F) HP HSE HPS L1 L2. cbn [csym ccode cconsts] in *.
  split; [exact A|]. exists (seg ++ ins), newc. split; [rewrite B, app_assoc; reflexivity|]. split; [exact C|].
  intros p s more pre post H1 H2 H4 H5 H6.
  destruct (D p s more pre (ins ++ post)) as (n1 & R1); [rewrite H1, <- app_assoc; reflexivity|exact H2|exact H4|exact H5|lia|].
  set (s1 := {| ip := ip s + N.of_nat (List.length seg); ostack := rev vs ++ ostack s; locals := locals s; globals := globals s |}) in R1.
  exists (n1 + 1)%nat. apply (vm_steps_trans _ _ _ _ _ _ R1). cbn [vm_steps].
  rewrite (F p s1 (pre ++ seg) post)
    by (try (rewrite H1, <- !app_assoc; reflexivity); cbn [s1 ip]; rewrite H4, app_length, Nat2N.inj_add; reflexivity).
  rewrite <- (rev_length vs) in HSE.
  rewrite (exec_pure_args p s1 o arg _ (rev vs) (ostack s) v HP HSE eq_refl (HPS p s1 more H2 H5)) by (cbn [s1 locals]; lia).
  cbn [s1 ip locals globals]. rewrite app_length, Nat2N.inj_add, N.add_assoc. reflexivity.
Qed.

Definition elist_correct (l : elist) : Prop :=
  forall env st st' vs,
    compile_elist true l st = COk st' -> eval_list env l = Some vs ->
    csym st' = csym st /\
    exists seg newc,
      ccode st' = ccode st ++ seg /\ cconsts st' = cconsts st ++ newc /\
      forall p s more pre post,
        pcode p = pre ++ seg ++ post ->
        pconsts p = map const_value (cconsts st') ++ more ->
        ip s = N.of_nat (List.length pre) ->
        vars_hold env (csym st) (locals s) (globals s) ->
        N.of_nat (List.length (locals s)) + N.of_nat (List.length (ostack s)) + edepth_list l <= StackSize ->
        run_tol p s (List.length seg) vs.

Lemma eval_list_len env : forall l vs, eval_list env l = Some vs -> Z.of_nat (List.length vs) = elist_len l.
Proof.
  induction l as [|e t IH]; intros vs H; simpl in H.
  - inversion H; reflexivity.
  - destruct (eval_expr env e); [|discriminate]. destruct (eval_list env t) as [vt|] eqn:E; [|discriminate].
    inversion H; subst. cbn [List.length elist_len]. rewrite <- (IH vt eq_refl). lia.
Qed.

(* the pairs of a map literal on the stack: key, value, key, value, …, the first key deepest *)
Definition flatp (m : list (list N * value)) : list value := flat_map (fun kv => [VStr (fst kv); snd kv]) m.

Definition pairs_correct (l : eplist) : Prop :=
  forall env st st' m,
    compile_pairs true l st = COk st' -> eval_pairs env l = Some m ->
    csym st' = csym st /\
    exists seg newc,
      ccode st' = ccode st ++ seg /\ cconsts st' = cconsts st ++ newc /\
      forall p s more pre post,
        pcode p = pre ++ seg ++ post ->
        pconsts p = map const_value (cconsts st') ++ more ->
        ip s = N.of_nat (List.length pre) ->
        vars_hold env (csym st) (locals s) (globals s) ->
        N.of_nat (List.length (locals s)) + N.of_nat (List.length (ostack s)) + edepth_pairs l <= StackSize ->
        run_tol p s (List.length seg) (flatp m).

Lemma eval_pairs_len env : forall l m, eval_pairs env l = Some m -> Z.of_nat (List.length m) = pairs_len l.
Proof.
  induction l as [|k e t IH]; intros m H; simpl in H.
  - inversion H; reflexivity.
  - destruct (eval_expr env e); [|discriminate]. destruct (eval_pairs env t) as [mt|] eqn:E; [|discriminate].
    inversion H; subst. cbn [List.length pairs_len]. rewrite <- (IH mt eq_refl). lia.
Qed.

Lemma flatp_length m : List.length (flatp m) = (2 * List.length m)%nat.
Proof. induction m as [|kv t IH]; [reflexivity|]. cbn [flatp flat_map app List.length] in *. unfold flatp in IH. rewrite IH. lia. Qed.

(* OpMap rebuilds the pairs in source order from the popped values *)
Lemma map_pairs_flat : forall m acc, map_pairs (rev (flatp m)) acc = Some (m ++ acc).
Proof.
  induction m as [|[k v] t IH] using rev_ind; intro acc; [reflexivity|].
  unfold flatp. rewrite flat_map_app. cbn [flat_map fst snd app]. rewrite rev_app_distr. cbn [rev app map_pairs].
  fold (flatp t). rewrite IH, <- app_assoc. reflexivity.
Qed.

(* an optional slice bound: the expression, or OpNone *)
Definition oexpr_correct (o : oexpr) : Prop :=
  forall env st st' v,
    compile_oexpr true o st = COk st' -> eval_oexpr env o = Some v ->
    csym st' = csym st /\
    exists seg newc,
      ccode st' = ccode st ++ seg /\ cconsts st' = cconsts st ++ newc /\
      forall p s more pre post,
        pcode p = pre ++ seg ++ post ->
        pconsts p = map const_value (cconsts st') ++ more ->
        ip s = N.of_nat (List.length pre) ->
        vars_hold env (csym st) (locals s) (globals s) ->
        N.of_nat (List.length (locals s)) + N.of_nat (List.length (ostack s)) + edepth_o o <= StackSize ->
        run_to p s (List.length seg) v.

(* Each case is the compiler's equation for that form: the operands by
   induction (pushes_app), then the instruction (pushes_op). *)
Theorem compile_expr_correct_all :
  (forall e, efrag e = true -> expr_correct e) /\
  (forall l, efrag_list l = true -> elist_correct l) /\
  (forall l, efrag_pairs l = true -> pairs_correct l) /\
  (forall o, efrag_o o = true -> oexpr_correct o).
Proof.
  apply expr_mutind; try (intros; exact I).
  - (* ENum *) intros f _ env st st' v HC HE. inversion HE; subst v. exact (pushes_const env (KNum f) st st' HC).
  - (* EBool *) intros b _ env st st' v HC HE. inversion HE; subst v.
    apply (pushes_op env st st st' (if b then OTrue else OFalse) 0 0 1 [] (VBool b) (pushes_nil env st 0));
      [apply (emit_noarg _ _ _ HC)| | |intros|lia|lia]; destruct b; reflexivity.
  - (* EStr *) intros s _ env st st' v HC HE. inversion HE; subst v. exact (pushes_const env (KStr s) st st' HC).
  - (* EVar *) intros n _ env st st' v HC HE. cbn [compile_expr] in HC. unfold compile_var in HC. cbn [eval_expr] in HE.
    destruct (st_resolve n (csym st)) as [y|] eqn:ER; [|discriminate].
    assert (HS : forall s, vars_hold env (csym st) (locals s) (globals s) -> slot_holds y v (locals s) (globals s))
      by (intros s H; exact (H n y v ER HE)).
    unfold slot_holds in HS.
    destruct (sscp y);
      (eapply (pushes_op env st st st' _ _ 0 1 [] v (pushes_nil env st 0));
       [apply (emit_arg _ _ _ _ HC); reflexivity|reflexivity|reflexivity| |lia|lia]);
      intros p s more _ H5; cbn [pure_sem rev]; rewrite N2Z.id, (HS s H5); reflexivity.
  - (* EArr *) intros l IHl HF env st st' v HC HE. cbn [compile_expr] in HC. bind_inv HC. cbn [eval_expr] in HE.
    destruct (eval_list env l) as [vs|] eqn:Evs; [|discriminate]. inversion HE; subst v.
    apply (pushes_op env st st0 st' Array (Z.to_N (elist_len l)) (edepth_list l) _ vs (VArr vs) (IHl HF env st st0 vs H Evs));
      [apply (emit_arg _ _ _ _ HC); reflexivity|reflexivity| | |cbn [edepth]; lia|cbn [edepth]; lia].
    + cbn [simple_effect]. pose proof (eval_list_len env l vs Evs). f_equal. f_equal. lia.
    + intros p s more _ _. cbn [pure_sem]. rewrite rev_involutive. reflexivity.
  - (* EMap *) intros kvs IHl np HF env st st' v HC HE.
    cbn [efrag] in HF. apply andb_true_iff in HF. destruct HF as [HNP HF]. apply Z.eqb_eq in HNP. subst np.
    cbn [compile_expr] in HC. bind_inv HC. cbn [eval_expr] in HE.
    destruct (eval_pairs env kvs) as [m|] eqn:Evs; [|discriminate]. inversion HE; subst v.
    apply (pushes_op env st st0 st' Map (Z.to_N (pairs_len kvs)) (edepth_pairs kvs) _ (flatp m) (VMap m) (IHl HF env st st0 m H Evs));
      [apply (emit_arg _ _ _ _ HC); reflexivity|reflexivity| | |cbn [edepth]; lia|cbn [edepth]; lia].
    + cbn [simple_effect]. pose proof (eval_pairs_len env kvs m Evs). rewrite flatp_length. f_equal. f_equal. lia.
    + intros p s more _ _. cbn [pure_sem]. rewrite map_pairs_flat, app_nil_r. reflexivity.
  - (* EUn *) intros op e IHe HF env st st' v HC HE. cbn [compile_expr] in HC. bind_inv HC. cbn [eval_expr] in HE.
    destruct op; try discriminate HF; destruct (eval_expr env e) as [[]|] eqn:Ea; try discriminate HE; inversion HE; subst v;
      (eapply (pushes_op env st st0 st' _ 0 _ _ [_] _ (IHe HF env st st0 _ H Ea));
       [apply (emit_noarg _ _ _ HC); reflexivity|reflexivity|reflexivity|intros; reflexivity|apply edepth_pos|apply N.le_refl]).
  - (* EBin *) intros op lt rt e1 IHe1 e2 IHe2 HF env st st' v HC HE.
    cbn [efrag] in HF. apply andb_true_iff in HF. destruct HF as [HF1 HF2].
    cbn [compile_expr] in HC. bind_inv HC. bind_inv H. cbn [eval_expr] in HE.
    destruct (eval_expr env e1) as [a|] eqn:Ea; [|discriminate]. destruct (eval_expr env e2) as [b|] eqn:Eb; [|discriminate].
    destruct (binop_correct _ _ _ _ _ _ _ _ HC HE) as (o & HEm & HP & HO & HSE & HPS).
    apply (pushes_op env st st0 st' o 0 (edepth (EBin op lt rt e1 e2)) _ [a; b] v);
      [|exact (emit_noarg _ _ _ HEm HO)|exact HP|apply HSE|intros; apply HPS|cbn [edepth]; lia|apply N.le_refl].
    apply (pushes_app env st st1 st0 _ _ _ [a] [b] (IHe1 HF1 env st st1 a H0 Ea) (IHe2 HF2 env st1 st0 b H Eb)); cbn [edepth List.length]; lia.
  - (* EIndex *) intros e1 IHe1 e2 IHe2 HF env st st' v HC HE.
    cbn [efrag] in HF. apply andb_true_iff in HF. destruct HF as [HF1 HF2].
    cbn [compile_expr] in HC. bind_inv HC. bind_inv H. cbn [eval_expr] in HE.
    destruct (eval_expr env e1) as [a|] eqn:Ea; [|discriminate]. destruct (eval_expr env e2) as [b|] eqn:Eb; [|discriminate].
    apply (pushes_op env st st0 st' Index 0 (edepth (EIndex e1 e2)) _ [a; b] v);
      [|exact (emit_noarg _ _ _ HC eq_refl)|reflexivity|reflexivity| |cbn [edepth]; lia|apply N.le_refl].
    + apply (pushes_app env st st1 st0 _ _ _ [a] [b] (IHe1 HF1 env st st1 a H0 Ea) (IHe2 HF2 env st1 st0 b H Eb)); cbn [edepth List.length]; lia.
    + intros p s more _ _. cbn [pure_sem rev app]. destruct (index_value a b); inversion HE; reflexivity.
  - (* ESlice *) intros l IHl a IHa b IHb HF env st st' v HC HE.
    cbn [efrag] in HF. apply andb_true_iff in HF. destruct HF as [HF HF3]. apply andb_true_iff in HF. destruct HF as [HF1 HF2].
    cbn [compile_expr] in HC.
    apply bind_ok in HC; destruct HC as (c3 & HC3 & HC). apply bind_ok in HC3; destruct HC3 as (c2 & HC2 & HCb).
    apply bind_ok in HC2; destruct HC2 as (c1 & HCl & HCa).
    cbn [eval_expr] in HE. destruct (eval_expr env l) as [x|] eqn:El; [|discriminate].
    destruct (eval_oexpr env a) as [va|] eqn:Ea; [|discriminate]. destruct (eval_oexpr env b) as [vb|] eqn:Eb; [|discriminate].
    apply (pushes_op env st c3 st' Slice 0 (edepth (ESlice l a b)) _ [x; va; vb] v);
      [|exact (emit_noarg _ _ _ HC eq_refl)|reflexivity|reflexivity| |cbn [edepth]; lia|apply N.le_refl].
    + apply (pushes_app env st c2 c3 (N.max (edepth l) (1 + edepth_o a)) (edepth_o b) _ [x; va] [vb]);
        [|exact (IHb HF3 env c2 c3 vb HCb Eb)|cbn [edepth]; lia|cbn [edepth List.length]; lia].
      apply (pushes_app env st c1 c2 _ _ _ [x] [va] (IHl HF1 env st c1 x HCl El) (IHa HF2 env c1 c2 va HCa Ea)); cbn [List.length]; lia.
    + intros p s more _ _. cbn [pure_sem rev app]. destruct (slice_value x va vb); inversion HE; reflexivity.
  - (* EGroup *) intros e IHe HF. exact (IHe HF).
  - (* EUnsupported *) intros w HF. discriminate HF.
  - (* ENil *) intros _ env st st' vs HC HE. inversion HC; subst st'. inversion HE; subst vs. apply pushes_nil.
  - (* ECons *) intros e IHe t IHt HF env st st' vs HC HE.
    cbn [efrag_list] in HF. apply andb_true_iff in HF. destruct HF as [HF1 HF2].
    cbn [compile_elist] in HC. bind_inv HC. cbn [eval_list] in HE.
    destruct (eval_expr env e) as [v|] eqn:Ev; [|discriminate]. destruct (eval_list env t) as [vt|] eqn:Evt; [|discriminate].
    inversion HE; subst vs.
    apply (pushes_app env st st0 st' _ _ _ [v] vt (IHe HF1 env st st0 v H Ev) (IHt HF2 env st0 st' vt HC Evt)); cbn [edepth_list List.length]; lia.
  - (* PNil *) intros _ env st st' m HC HE. inversion HC; subst st'. inversion HE; subst m. apply pushes_nil.
  - (* PCons *) intros k e IHe t IHt HF env st st' m HC HE.
    cbn [efrag_pairs] in HF. apply andb_true_iff in HF. destruct HF as [HF1 HF2].
    cbn [compile_pairs] in HC. bind_inv HC. bind_inv H. cbn [eval_pairs] in HE.
    destruct (eval_expr env e) as [v|] eqn:Ev; [|discriminate]. destruct (eval_pairs env t) as [mt|] eqn:Evt; [|discriminate].
    inversion HE; subst m.
    apply (pushes_app env st st1 st' _ (N.max (edepth e) (1 + edepth_pairs t)) _ [const_value (KStr k)] ([v] ++ flatp mt) (pushes_const env _ _ _ H0));
      [|cbn [edepth_pairs]; lia|cbn [edepth_pairs List.length]; lia].
    apply (pushes_app env st1 st0 st' _ _ _ [v] (flatp mt) (IHe HF1 env st1 st0 v H Ev) (IHt HF2 env st0 st' mt HC Evt)); cbn [List.length]; lia.
  - (* ONoneE *) intros _ env st st' v HC HE. inversion HE; subst v.
    apply (pushes_op env st st st' ONone 0 0 1 [] VNone (pushes_nil env st 0)); try reflexivity; [|lia].
    exact (emit_noarg _ _ _ HC eq_refl).
  - (* OSome *) intros e IHe HF. exact (IHe HF).
Qed.

Theorem compile_expr_correct_v : forall e, efrag e = true -> expr_correct e.
Proof. exact (proj1 compile_expr_correct_all). Qed.

(* the form without locals: every visible name is a global *)
Definition expr_correct_g (e : expr) : Prop :=
  forall env st st' v,
    compile_expr true e st = COk st' -> eval_expr env e = Some v -> sym_static (csym st) ->
    csym st' = csym st /\
    exists seg newc,
      ccode st' = ccode st ++ seg /\ cconsts st' = cconsts st ++ newc /\
      forall p s more pre post,
        pcode p = pre ++ seg ++ post ->
        pconsts p = map const_value (cconsts st') ++ more ->
        ip s = N.of_nat (List.length pre) ->
        globals_hold env (csym st) (globals s) ->
        N.of_nat (List.length (locals s)) + N.of_nat (List.length (ostack s)) + edepth e <= StackSize ->
        run_to p s (List.length seg) v.

Theorem compile_expr_correct : forall e, efrag e = true -> expr_correct_g e.
Proof.
  intros e HF env st st' v HC HE HS. destruct (compile_expr_correct_v e HF env st st' v HC HE) as (A & seg & newc & B & C & D).
  split; [exact A|]. exists seg, newc. split; [exact B|]. split; [exact C|].
  intros p s more pre post H1 H2 H4 H5 H6. apply (D p s more pre post H1 H2 H4); [|exact H6].
  apply globals_vars_hold; assumption.
Qed.
