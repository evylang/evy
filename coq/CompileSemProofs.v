(* compile_correct for statements with control flow, globals only, against the
   fuel-indexed semantics of CompileSem.  LAY describes the final code of a
   compiled statement; sim_all (induction on the fuel; a loop is re-entered at
   its start pc) runs the VM on code laid out that way; lay_all shows that the
   compiler's back-patching produces that layout; compile_correct_ctl joins
   them.  The layout steps loop_end, while_lay, for_loop_lay, cond_block_lay
   hold for any description of the body (body_lay, patchable) and serve
   CompileLocProofs.v too. *)
From Coq Require Import ZArith NArith List Bool Lia ZifyBool ZifyNat ZifyN Floats.
From EvyV Require Import Base Bytecode BytecodeProofs SymTab SymTabProofs Vm VmProofs Compile CompileSem CompileProofs
     CompileWfProofs CompileStmtProofs CompileJumpProofs CompileHoleProofs CompileSymProofs CompileCtlProofs.
Require Import EvyV.Gen.Opcodes.
Import ListNotations.
Open Scope N_scope.

Definition same_resolve (a b : symtab) : Prop := forall n, st_resolve n a = st_resolve n b.

Definition jbytes (o : opc) (T : N) (bs : list N) : Prop :=
  exists hi lo, bs = [N_of_opc o; hi; lo] /\ hi * 256 + lo = T.

(* an end-of-block jump: to End, or still holding the placeholder *)
Definition jshape (fin : bool) (End : N) (je : list N) : Prop :=
  if fin then jbytes Jump End je else exists h0 l0, je = [N_of_opc Jump; h0; l0].

(* a break jump: to the end of the innermost loop, or still holding the placeholder *)
Definition bshape (brk : option N) (jb : list N) : Prop :=
  match brk with Some T => jbytes Jump T jb | None => exists h0 l0, jb = [N_of_opc Jump; h0; l0] end.

(* LAY brk s st st' bs seg: seg is the code of s compiled from st to st';
   bs are the positions of the break jumps of s that belong to an enclosing
   loop; they jump to T (brk = Some T) or are still pending (brk = None: the
   code before the enclosing compileWhileStatement patched c.breaks) *)
Inductive LAY : option N -> stmt -> cstate -> cstate -> list Z -> list N -> Prop :=
| lay_assign brk n e st st1 st' y seg_e sg :
    efrag e = true -> compile_expr true e st = COk st1 -> ccode st1 = ccode st ++ seg_e ->
    st_resolve n (csym st) = Some y -> sscp y = GlobalScope -> jbytes SetGlobal (sidx y) sg ->
    cconsts st' = cconsts st1 -> csym st' = csym st ->
    LAY brk (SAssign (EVar n) e) st st' [] (seg_e ++ sg)
| lay_empty brk st : LAY brk SEmpty st st [] []
| lay_break brk st st' jb :
    bshape brk jb -> cconsts st' = cconsts st -> csym st' = csym st ->
    LAY brk SBreak st st' [Z.of_nat (List.length (ccode st))] jb
| lay_while brk c b st st1 stx stb st' bs_b seg_c seg_b jf jb :
    efrag c = true -> compile_expr true c st = COk st1 -> ccode st1 = ccode st ++ seg_c ->
    cconsts stx = cconsts st1 -> same_resolve (csym stx) (csym st) ->
    N.of_nat (List.length (ccode stx)) = N.of_nat (List.length (ccode st1)) + 3 ->
    LAYL (Some (N.of_nat (List.length (ccode st)) + N.of_nat (List.length (seg_c ++ jf ++ seg_b ++ jb)))) b stx stb bs_b seg_b ->
    jbytes JumpOnFalse (N.of_nat (List.length (ccode st)) + N.of_nat (List.length (seg_c ++ jf ++ seg_b ++ jb))) jf ->
    jbytes Jump (N.of_nat (List.length (ccode st))) jb ->
    cconsts st' = cconsts stb -> csym st' = csym st ->
    LAY brk (SWhile c b) st st' [] (seg_c ++ jf ++ seg_b ++ jb)
| lay_forstep brk start stop step b st s1 s2 s3 st' seg1 seg2 seg3 seg_r :
    efrag stop = true -> compile_expr true stop st = COk s1 -> ccode s1 = ccode st ++ seg1 ->
    efrag (match step with OSome e => e | ONoneE => ENum 1 end) = true ->
    compile_expr true (match step with OSome e => e | ONoneE => ENum 1 end) s1 = COk s2 -> ccode s2 = ccode s1 ++ seg2 ->
    efrag (match start with OSome e => e | ONoneE => ENum 0 end) = true ->
    compile_expr true (match start with OSome e => e | ONoneE => ENum 0 end) s2 = COk s3 -> ccode s3 = ccode s2 ++ seg3 ->
    LAYR b s3 st' 3 StepRange seg_r ->
    LAY brk (SForStep None start stop step b) st st' [] (seg1 ++ seg2 ++ seg3 ++ seg_r)
| lay_foriter brk t e b st s1 s2 st' seg1 segk seg_r :
    (t = TStr \/ t = TArr \/ t = TMap) ->
    efrag e = true -> compile_expr true e st = COk s1 -> ccode s1 = ccode st ++ seg1 ->
    emit_const true (KNum 0) s1 = COk s2 -> ccode s2 = ccode s1 ++ segk ->
    LAYR b s2 st' 2 IterRange seg_r ->
    LAY brk (SForIter None t e b) st st' [] (seg1 ++ segk ++ seg_r)
| lay_if brk c b elifs els st ste st' js bs seg :
    LAYC brk true (CCons c b elifs) els st ste (N.of_nat (List.length (ccode st)) + N.of_nat (List.length seg)) js bs seg ->
    cconsts st' = cconsts ste -> csym st' = csym st ->
    LAY brk (SIf c b elifs els) st st' bs seg
with LAYL : option N -> slist -> cstate -> cstate -> list Z -> list N -> Prop :=
| layl_nil brk st : LAYL brk SNil st st [] []
| layl_cons brk s t st st1 st2 bs1 bs2 seg1 seg2 :
    LAY brk s st st1 bs1 seg1 ->
    N.of_nat (List.length (ccode st1)) = N.of_nat (List.length (ccode st)) + N.of_nat (List.length seg1) ->
    LAYL brk t st1 st2 bs2 seg2 ->
    LAYL brk (SCons s t) st st2 (bs1 ++ bs2) (seg1 ++ seg2)
(* a chain of `cond / block` with its else part; every block ends with a jump
   to End (fin = true) or with a jump whose operand is still the placeholder
   (fin = false: the code before compileIfStatement's final patching); js are
   the positions of those jumps *)
with LAYC : option N -> bool -> clist -> oslist -> cstate -> cstate -> N -> list Z -> list Z -> list N -> Prop :=
| layc_nil_noelse brk fin st End : End = N.of_nat (List.length (ccode st)) -> LAYC brk fin CNil NoElse st st End [] [] []
| layc_nil_else brk fin eb st sty ste End bs_e seg_e :
    cconsts sty = cconsts st -> same_resolve (csym sty) (csym st) ->
    List.length (ccode sty) = List.length (ccode st) ->
    LAYL brk eb sty ste bs_e seg_e -> End = N.of_nat (List.length (ccode st)) + N.of_nat (List.length seg_e) ->
    LAYC brk fin CNil (Else eb) st ste End [] bs_e seg_e
| layc_cons brk fin c b t els st st1 stx stb sty st' End js bs_b bs_r seg_c seg_b jf je seg_r :
    efrag c = true -> compile_expr true c st = COk st1 -> ccode st1 = ccode st ++ seg_c ->
    cconsts stx = cconsts st1 -> same_resolve (csym stx) (csym st) ->
    N.of_nat (List.length (ccode stx)) = N.of_nat (List.length (ccode st1)) + 3 ->
    LAYL brk b stx stb bs_b seg_b ->
    jbytes JumpOnFalse (N.of_nat (List.length (ccode st)) + N.of_nat (List.length (seg_c ++ jf ++ seg_b ++ je))) jf ->
    jshape fin End je ->
    cconsts sty = cconsts stb -> same_resolve (csym sty) (csym st) ->
    N.of_nat (List.length (ccode sty)) = N.of_nat (List.length (ccode stb)) + 3 ->
    LAYC brk fin t els sty st' End js bs_r seg_r ->
    LAYC brk fin (CCons c b t) els st st' End
         (Z.of_nat (List.length (ccode st) + List.length (seg_c ++ jf ++ seg_b)) :: js)
         (bs_b ++ bs_r)
         (seg_c ++ jf ++ seg_b ++ je ++ seg_r)

(* the loop part of a range loop, entered with the S slots of its state on the
   stack: range op (no loop variable); exit jump to the OpDrop; body (its
   breaks go to the OpDrop too); jump back to the range op; OpDrop S *)
with LAYR : slist -> cstate -> cstate -> N -> opc -> list N -> Prop :=
| layr rop S b s3 stx stb st' bs_b seg_b jf jb :
    cconsts stx = cconsts s3 -> same_resolve (csym stx) (csym s3) ->
    N.of_nat (List.length (ccode stx)) = N.of_nat (List.length (ccode s3)) + 6 ->
    LAYL (Some (N.of_nat (List.length (ccode s3)) + N.of_nat (List.length ([N_of_opc rop; 0; 0] ++ jf ++ seg_b ++ jb)))) b stx stb bs_b seg_b ->
    jbytes JumpOnFalse (N.of_nat (List.length (ccode s3)) + N.of_nat (List.length ([N_of_opc rop; 0; 0] ++ jf ++ seg_b ++ jb))) jf ->
    jbytes Jump (N.of_nat (List.length (ccode s3))) jb ->
    cconsts st' = cconsts stb -> csym st' = csym s3 ->
    LAYR b s3 st' S rop ([N_of_opc rop; 0; 0] ++ jf ++ seg_b ++ jb ++ [N_of_opc Drop; 0; S]).

Scheme LAY_mind := Induction for LAY Sort Prop
  with LAYL_mind := Induction for LAYL Sort Prop
  with LAYC_mind := Induction for LAYC Sort Prop
  with LAYR_mind := Induction for LAYR Sort Prop.
Combined Scheme LAY_mutind from LAY_mind, LAYL_mind, LAYC_mind, LAYR_mind.

Lemma step_jof p vs pre post jf T b rest :
  jbytes JumpOnFalse T jf -> pcode p = pre ++ jf ++ post -> ip vs = N.of_nat (List.length pre) ->
  ostack vs = VBool b :: rest ->
  vm_step p vs = Running {| ip := if b then ip vs + 3 else T; ostack := rest; locals := locals vs; globals := globals vs |}.
Proof.
  intros (hi & lo & -> & E) HC HI HS. rewrite (fetch_arg p vs JumpOnFalse hi lo pre post HC HI eq_refl).
  unfold exec. rewrite HS, E. reflexivity.
Qed.

Lemma step_jump p vs pre post jb T :
  jbytes Jump T jb -> pcode p = pre ++ jb ++ post -> ip vs = N.of_nat (List.length pre) ->
  vm_step p vs = Running {| ip := T; ostack := ostack vs; locals := locals vs; globals := globals vs |}.
Proof.
  intros (hi & lo & -> & E) HC HI. rewrite (fetch_arg p vs Jump hi lo pre post HC HI eq_refl).
  unfold exec. rewrite E. reflexivity.
Qed.

Lemma jbytes_len o T bs : jbytes o T bs -> List.length bs = 3%nat.
Proof. intros (hi & lo & -> & _). reflexivity. Qed.

Lemma jshape_len fin End je : jshape fin End je -> List.length je = 3%nat.
Proof. destruct fin; cbn [jshape]; [apply jbytes_len|intros (h & l & ->); reflexivity]. Qed.

Lemma reaches_refl p s : reaches p s s.
Proof. exists 0%nat. reflexivity. Qed.

Lemma reaches_step p s s' : vm_step p s = Running s' -> reaches p s s'.
Proof. intro H. exists 1%nat. simpl. rewrite H. reflexivity. Qed.

Lemma step_steprange_any p vs pre post lv idx stp stop base :
  pcode p = pre ++ [N_of_opc StepRange; 0; lv] ++ post -> ip vs = N.of_nat (List.length pre) ->
  ostack vs = VNum idx :: VNum stp :: VNum stop :: base -> PrimFloat.eqb stp 0 = false ->
  N.of_nat (List.length (locals vs)) + N.of_nat (List.length base) + (if lv =? 0 then 4 else 5) <= StackSize ->
  vm_step p vs = Running {| ip := ip vs + 3;
                            ostack := VBool (going idx stp stop) ::
                                      (if lv =? 0 then [] else if going idx stp stop then [VNum idx] else []) ++
                                      VNum (idx + stp)%float :: VNum stp :: VNum stop :: base;
                            locals := locals vs; globals := globals vs |}.
Proof.
  intros HC HI HS HZ HR. rewrite (fetch_arg p vs StepRange 0 lv pre post HC HI eq_refl).
  unfold exec. rewrite HS. cbn [List.length Nat.ltb Nat.leb zero_step]. rewrite HZ.
  change (0 * 256 + lv) with lv. cbn [step_range]. fold (going idx stp stop).
  unfold with_stack. destruct (lv =? 0), (going idx stp stop); cbn [negb andb app List.length];
    match goal with |- (if ?c then _ else _) = _ => destruct c eqn:E; [apply N.ltb_lt in E; lia|reflexivity] end.
Qed.

Lemma step_iterrange_any p vs pre post lv idx iter base :
  pcode p = pre ++ [N_of_opc IterRange; 0; lv] ++ post -> ip vs = N.of_nat (List.length pre) ->
  ostack vs = VNum idx :: iter :: base ->
  N.of_nat (List.length (locals vs)) + N.of_nat (List.length base) + (if lv =? 0 then 3 else 4) <= StackSize ->
  forall r, iter_next iter idx = Some r ->
  vm_step p vs = Running {| ip := ip vs + 3;
                            ostack := VBool (if r then true else false) ::
                                      (if lv =? 0 then [] else match r with Some v => [v] | None => [] end) ++
                                      VNum (idx + 1)%float :: iter :: base;
                            locals := locals vs; globals := globals vs |}.
Proof.
  intros HC HI HS HR r HN. rewrite (fetch_arg p vs IterRange 0 lv pre post HC HI eq_refl).
  unfold exec. rewrite HS. cbn [List.length Nat.ltb Nat.leb]. change (0 * 256 + lv) with lv.
  unfold iter_next in HN. unfold iter_range. destruct (float_to_Z idx) as [z|]; [|discriminate].
  destruct (z <? 0)%Z; [discriminate|]. inversion HN; subst r. unfold iter_elem.
  set (val := match iter with
              | VArr l => nth_error l (Z.to_nat z)
              | VMap m => option_map (fun kv => VStr (fst kv)) (nth_error m (Z.to_nat z))
              | VStr s => if (Z.to_nat z <? List.length (utf8_decode s))%nat then Some (VStr (utf8_encode (firstn 1 (skipn (Z.to_nat z) (utf8_decode s))))) else None
              | _ => None
              end).
  unfold with_stack. destruct (lv =? 0), val; cbn [negb app List.length];
    match goal with |- (if ?c then _ else _) = _ => destruct c eqn:E; [apply N.ltb_lt in E; lia|reflexivity] end.
Qed.

Lemma step_drop p vs pre post k dropped base :
  pcode p = pre ++ [N_of_opc Drop; 0; k] ++ post -> ip vs = N.of_nat (List.length pre) ->
  ostack vs = dropped ++ base -> N.of_nat (List.length dropped) = k ->
  vm_step p vs = Running {| ip := ip vs + 3; ostack := base; locals := locals vs; globals := globals vs |}.
Proof.
  intros HC HI HS HL. rewrite (fetch_arg p vs Drop 0 k pre post HC HI eq_refl).
  unfold exec. change (0 * 256 + k) with k. cbn [simple_effect]. rewrite HS, <- HL, Nat2N.id, app_length.
  destruct (List.length dropped + List.length base <? List.length dropped)%nat eqn:E; [apply Nat.ltb_lt in E; lia|].
  rewrite skipn_app, skipn_all, Nat.sub_diag. reflexivity.
Qed.

Lemma step_onone p vs pre post :
  pcode p = pre ++ [N_of_opc ONone] ++ post -> ip vs = N.of_nat (List.length pre) ->
  N.of_nat (List.length (locals vs)) + N.of_nat (List.length (ostack vs)) + 1 <= StackSize ->
  vm_step p vs = Running {| ip := ip vs + 1; ostack := VNone :: ostack vs; locals := locals vs; globals := globals vs |}.
Proof.
  intros HC HI HR. rewrite (fetch_noarg p vs ONone pre post HC HI eq_refl).
  rewrite (exec_pure p vs ONone 0 (ip vs + 1) 0 VNone); try reflexivity; simpl; lia.
Qed.

Lemma step_setglobal p vs pre post sg idx v rest :
  jbytes SetGlobal idx sg -> pcode p = pre ++ sg ++ post -> ip vs = N.of_nat (List.length pre) ->
  ostack vs = v :: rest -> (N.to_nat idx < List.length (globals vs))%nat ->
  vm_step p vs = Running {| ip := ip vs + 3; ostack := rest; locals := locals vs; globals := set_nth (N.to_nat idx) v (globals vs) |}.
Proof.
  intros (hi & lo & -> & E) HC HI HS HL. rewrite (fetch_arg p vs SetGlobal hi lo pre post HC HI eq_refl).
  rewrite E. apply exec_setglobal; assumption.
Qed.

Definition slots_distinct (sym : symtab) : Prop :=
  forall n1 n2 y1 y2, st_resolve n1 sym = Some y1 -> st_resolve n2 sym = Some y2 -> sidx y1 = sidx y2 -> n1 = n2.
Definition slots_exist (sym : symtab) (g : list value) : Prop :=
  forall n y, st_resolve n sym = Some y -> (N.to_nat (sidx y) < List.length g)%nat.

Definition consts_of (p : program) (st : cstate) : Prop :=
  exists more, pconsts p = map const_value (cconsts st) ++ more.

Lemma consts_of_prefix p st st' newc : cconsts st' = cconsts st ++ newc -> consts_of p st' -> consts_of p st.
Proof. intros E (more & H). exists (map const_value newc ++ more). rewrite H, E, map_app, <- app_assoc. reflexivity. Qed.

Lemma consts_of_eq p st st' : cconsts st' = cconsts st -> consts_of p st' -> consts_of p st.
Proof. intros E (more & H). exists more. rewrite H, E. reflexivity. Qed.

Lemma globals_hold_same env a b g : same_resolve b a -> globals_hold env a g -> globals_hold env b g.
Proof. intros HS HG n y v HR HE. rewrite HS in HR. apply (HG n y v HR HE). Qed.
Lemma sym_static_same a b : same_resolve b a -> sym_static a -> sym_static b.
Proof. intros HS H n y HR. rewrite HS in HR. apply (H n y HR). Qed.
Lemma slots_distinct_same a b : same_resolve b a -> slots_distinct a -> slots_distinct b.
Proof. intros HS H n1 n2 y1 y2 H1 H2. rewrite HS in H1, H2. apply (H n1 n2 y1 y2 H1 H2). Qed.
Lemma slots_exist_same a b g : same_resolve b a -> slots_exist a g -> slots_exist b g.
Proof. intros HS H n y HR. rewrite HS in HR. apply (H n y HR). Qed.
Lemma same_resolve_refl a : same_resolve a a.
Proof. intro n. reflexivity. Qed.
Lemma same_resolve_eq a b : a = b -> same_resolve a b.
Proof. intros ->. apply same_resolve_refl. Qed.

Lemma efrag_consts e st st1 : efrag e = true -> compile_expr true e st = COk st1 ->
  (exists newc, cconsts st1 = cconsts st ++ newc) /\ csym st1 = csym st.
Proof. intros HF HC. destruct (efrag_sl e HF st st1 HC) as (A & ops & newc & _ & C & _). split; [eauto|exact A]. Qed.

(* for lay_frame / ly_frame: rewrite with the equations of the context *)
Ltac chain_consts :=
  eexists;
  repeat match goal with H : cconsts ?a = _ |- context [cconsts ?a] => rewrite H end;
  rewrite <- ?app_assoc; reflexivity.
Ltac chain_resolve :=
  let n := fresh "n" in intro n;
  repeat match goal with
         | H : same_resolve ?a _ |- context [st_resolve n ?a] => rewrite (H n)
         | H : csym ?a = _ |- context [csym ?a] => rewrite H
         end; reflexivity.

Lemma lay_frame :
  (forall brk s st st' bs seg, LAY brk s st st' bs seg -> (exists newc, cconsts st' = cconsts st ++ newc) /\ same_resolve (csym st') (csym st)) /\
  (forall brk l st st' bs seg, LAYL brk l st st' bs seg -> (exists newc, cconsts st' = cconsts st ++ newc) /\ same_resolve (csym st') (csym st)) /\
  (forall brk fin l els st st' End js bs seg, LAYC brk fin l els st st' End js bs seg ->
     (exists newc, cconsts st' = cconsts st ++ newc) /\ same_resolve (csym st') (csym st)) /\
  (forall b s3 st' S rop seg, LAYR b s3 st' S rop seg ->
     (exists newc, cconsts st' = cconsts s3 ++ newc) /\ same_resolve (csym st') (csym s3)).
Proof.
  apply LAY_mutind; intros;
    repeat match goal with
    | HF : efrag ?e = true, HC : compile_expr true ?e ?st = COk ?st1 |- _ =>
        let nc := fresh "nc" in let K := fresh "K" in let SE := fresh "SE" in
        destruct (efrag_consts e st st1 HF HC) as [(nc & K) SE]; clear HC
    | HC : emit_const true ?k ?st = COk ?st1 |- _ =>
        let K := fresh "Kk" in let SE := fresh "SEk" in
        destruct (const_sl _ _ _ HC) as (_ & SE & _ & K); clear HC
    | H : (exists newc, _) /\ _ |- _ => let nb := fresh "nb" in let Kb := fresh "Kb" in let Sb := fresh "Sb" in destruct H as [(nb & Kb) Sb]
    end;
    (split; [first [exists []; rewrite app_nil_r; first [reflexivity|assumption] | chain_consts]
            |first [apply same_resolve_refl | chain_resolve]]).
Qed.

Lemma lay_len :
  (forall brk s st st' bs seg, LAY brk s st st' bs seg -> True) /\
  (forall brk l st st' bs seg, LAYL brk l st st' bs seg ->
     N.of_nat (List.length (ccode st')) = N.of_nat (List.length (ccode st)) + N.of_nat (List.length seg)) /\
  (forall brk fin l els st st' End js bs seg, LAYC brk fin l els st st' End js bs seg ->
     End = N.of_nat (List.length (ccode st)) + N.of_nat (List.length seg)) /\
  (forall b s3 st' S rop seg, LAYR b s3 st' S rop seg -> True).
Proof.
  apply LAY_mutind; intros; auto.
  - simpl. lia.
  - rewrite app_length, Nat2N.inj_add. lia.
  - simpl. lia.
  - subst End. pose proof (jbytes_len _ _ _ j) as Lj.
    pose proof (jshape_len _ _ _ j0) as Lje.
    apply (f_equal (@List.length N)) in e1. rewrite app_length in e1.
    rewrite !app_length, Lj, Lje, !Nat2N.inj_add. lia.
Qed.

Lemma layl_len : forall brk l st st' bs seg, LAYL brk l st st' bs seg ->
  N.of_nat (List.length (ccode st')) = N.of_nat (List.length (ccode st)) + N.of_nat (List.length seg).
Proof. apply lay_len. Qed.

(* base: what lies on the operand stack below the statement (the state of the
   enclosing range loops) *)
Definition mstate_ok (G : nat) (st : cstate) (env : genv) (base : list value) (vs : vmstate) : Prop :=
  ostack vs = base /\ locals vs = [] /\ globals_hold env (csym st) (globals vs) /\ slots_exist (csym st) (globals vs) /\
  List.length (globals vs) = G.

(* where the machine is after a statement: at the break target T if a break
   is under way, right after the code otherwise *)
Definition SIMs (fuel : nat) (T : N) (s : stmt) (st st' : cstate) (seg : list N) : Prop :=
  forall G env env' br base, exec_s fuel s env = Some (env', br) -> forall p vs pre post,
    pcode p = pre ++ seg ++ post -> List.length pre = List.length (ccode st) -> consts_of p st' ->
    ip vs = N.of_nat (List.length pre) -> mstate_ok G st env base vs ->
    sym_static (csym st) -> slots_distinct (csym st) -> N.of_nat (List.length base) + sdepth s <= StackSize ->
    exists vs', reaches p vs vs' /\ ip vs' = (if br then T else ip vs + N.of_nat (List.length seg)) /\ mstate_ok G st env' base vs'.

Definition SIMl (fuel : nat) (T : N) (l : slist) (st st' : cstate) (seg : list N) : Prop :=
  forall G env env' br base, exec_l fuel l env = Some (env', br) -> forall p vs pre post,
    pcode p = pre ++ seg ++ post -> List.length pre = List.length (ccode st) -> consts_of p st' ->
    ip vs = N.of_nat (List.length pre) -> mstate_ok G st env base vs ->
    sym_static (csym st) -> slots_distinct (csym st) -> N.of_nat (List.length base) + ldepth l <= StackSize ->
    exists vs', reaches p vs vs' /\ ip vs' = (if br then T else ip vs + N.of_nat (List.length seg)) /\ mstate_ok G st env' base vs'.

Definition odepth (els : oslist) : N := match els with NoElse => 0 | Else eb => ldepth eb end.

(* a chain ends at End, whichever block ran *)
Definition SIMc (fuel : nat) (T : N) (l : clist) (els : oslist) (st st' : cstate) (End : N) (seg : list N) : Prop :=
  forall G env env' br base, exec_c fuel l els env = Some (env', br) -> forall p vs pre post,
    pcode p = pre ++ seg ++ post -> List.length pre = List.length (ccode st) -> consts_of p st' ->
    ip vs = N.of_nat (List.length pre) -> mstate_ok G st env base vs ->
    sym_static (csym st) -> slots_distinct (csym st) ->
    N.of_nat (List.length base) + cdepth l <= StackSize -> N.of_nat (List.length base) + odepth els <= StackSize ->
    exists vs', reaches p vs vs' /\ ip vs' = (if br then T else End) /\ mstate_ok G st env' base vs'.

(* the loop part of a step range, entered with index / step / stop on the stack *)
Definition SIMr (fuel : nat) (b : slist) (s3 st' : cstate) (seg : list N) : Prop :=
  forall G env env' br idx stp stop base, exec_r fuel idx stp stop b env = Some (env', br) -> forall p vs pre post,
    pcode p = pre ++ seg ++ post -> List.length pre = List.length (ccode s3) -> consts_of p st' ->
    ip vs = N.of_nat (List.length pre) -> PrimFloat.eqb stp 0 = false ->
    mstate_ok G s3 env (VNum idx :: VNum stp :: VNum stop :: base) vs ->
    sym_static (csym s3) -> slots_distinct (csym s3) ->
    N.of_nat (List.length base) + 4 <= StackSize -> N.of_nat (List.length base) + 3 + ldepth b <= StackSize ->
    exists vs', reaches p vs vs' /\ ip vs' = ip vs + N.of_nat (List.length seg) /\ mstate_ok G s3 env' base vs'.

Definition SIMi (fuel : nat) (b : slist) (s3 st' : cstate) (seg : list N) : Prop :=
  forall G env env' br idx iter base, exec_i fuel idx iter b env = Some (env', br) -> forall p vs pre post,
    pcode p = pre ++ seg ++ post -> List.length pre = List.length (ccode s3) -> consts_of p st' ->
    ip vs = N.of_nat (List.length pre) ->
    mstate_ok G s3 env (VNum idx :: iter :: base) vs ->
    sym_static (csym s3) -> slots_distinct (csym s3) ->
    N.of_nat (List.length base) + 3 <= StackSize -> N.of_nat (List.length base) + 2 + ldepth b <= StackSize ->
    exists vs', reaches p vs vs' /\ ip vs' = ip vs + N.of_nat (List.length seg) /\ mstate_ok G s3 env' base vs'.

Lemma exec_i_false : forall fuel idx iter b env env' br,
  exec_i fuel idx iter b env = Some (env', br) -> br = false.
Proof.
  induction fuel as [|f IH]; intros idx iter b env env' br H; [discriminate|]. cbn [exec_i] in H.
  destruct (iter_next iter idx) as [[v|]|]; [|inversion H; reflexivity|discriminate].
  destruct (exec_l f b env) as [[env1 [|]]|]; [inversion H; reflexivity|apply (IH _ _ _ _ _ _ H)|discriminate].
Qed.

Lemma exec_r_false : forall fuel idx stp stop b env env' br,
  exec_r fuel idx stp stop b env = Some (env', br) -> br = false.
Proof.
  induction fuel as [|f IH]; intros idx stp stop b env env' br H; [discriminate|]. cbn [exec_r] in H.
  destruct (going idx stp stop); [|inversion H; reflexivity].
  destruct (exec_l f b env) as [[env1 [|]]|]; [inversion H; reflexivity|apply (IH _ _ _ _ _ _ _ H)|discriminate].
Qed.

Lemma store_global_distinct env n v y sym (g : list value) :
  slots_distinct sym -> st_resolve n sym = Some y -> (N.to_nat (sidx y) < List.length g)%nat ->
  globals_hold env sym g -> globals_hold (upd env n v) sym (set_nth (N.to_nat (sidx y)) v g).
Proof.
  intros HD HR HL HG m ym vm HRm HEm. unfold upd in HEm.
  destruct (str_eqb m n) eqn:E.
  - apply str_eqb_eq in E. subst m. rewrite HR in HRm. inversion HRm; subst ym. inversion HEm; subst vm.
    apply nth_error_set_nth_same. exact HL.
  - rewrite nth_error_set_nth_other; [apply (HG m ym vm HRm HEm)|].
    intro EQ. assert (sidx y = sidx ym) by lia.
    pose proof (HD n m y ym HR HRm H) as ->. rewrite str_eqb_refl in E. discriminate.
Qed.

Lemma mstate_same G st st2 env base vs : same_resolve (csym st2) (csym st) -> mstate_ok G st env base vs -> mstate_ok G st2 env base vs.
Proof.
  intros HS (A & B & C & D & E). repeat split; auto; [eapply globals_hold_same; eauto|eapply slots_exist_same; eauto].
Qed.
Lemma mstate_same_back G st st2 env base vs : same_resolve (csym st2) (csym st) -> mstate_ok G st2 env base vs -> mstate_ok G st env base vs.
Proof.
  intros HS H. apply (mstate_same G st2 st env base vs); [intro n; rewrite HS; reflexivity|exact H].
Qed.

(* The run lemmas: from an mstate_ok state the machine reaches an mstate_ok
   state, its ip given as the length of the code behind it, which is where
   the next lemma starts. *)
Lemma expr_runs_ok G e st st1 seg_e env v base p vs pre post :
  efrag e = true -> compile_expr true e st = COk st1 -> ccode st1 = ccode st ++ seg_e ->
  eval_expr env e = Some v -> sym_static (csym st) ->
  pcode p = pre ++ seg_e ++ post -> consts_of p st1 -> ip vs = N.of_nat (List.length pre) ->
  mstate_ok G st env base vs -> N.of_nat (List.length base) + edepth e <= StackSize ->
  exists vs', reaches p vs vs' /\ ip vs' = N.of_nat (List.length (pre ++ seg_e)) /\ mstate_ok G st1 env (v :: base) vs'.
Proof.
  intros HF HC HSeg HE HS HP (more & HK) HI (M1 & M2 & M3 & M4 & M5) HD.
  destruct (compile_expr_correct e HF env st st1 v HC HE HS) as (S1 & seg & newc & B & _ & D).
  assert (seg = seg_e) by (rewrite HSeg in B; apply app_inv_head in B; congruence). subst seg.
  destruct (D p vs more pre post HP HK HI M3) as (n & R); [rewrite M1, M2; simpl; lia|].
  eexists. split; [exists n; exact R|].
  split; [cbn [ip]; rewrite HI, app_length, Nat2N.inj_add; reflexivity|].
  unfold mstate_ok; cbn [ostack locals globals]. rewrite S1, M1. repeat split; auto.
Qed.

Lemma const_runs_ok G k st st1 seg env base p vs pre post :
  emit_const true k st = COk st1 -> ccode st1 = ccode st ++ seg ->
  pcode p = pre ++ seg ++ post -> consts_of p st1 -> ip vs = N.of_nat (List.length pre) ->
  mstate_ok G st env base vs -> N.of_nat (List.length base) + 1 <= StackSize ->
  exists vs', reaches p vs vs' /\ ip vs' = N.of_nat (List.length (pre ++ seg)) /\ mstate_ok G st1 env (const_value k :: base) vs'.
Proof.
  intros HC HSeg HP (more & HK) HI (M1 & M2 & M3 & M4 & M5) HD.
  destruct (const_correct _ _ _ HC) as (S1 & seg' & C1 & _ & D).
  assert (seg' = seg) by (rewrite C1 in HSeg; apply app_inv_head in HSeg; exact HSeg). subst seg'.
  destruct (D p vs more pre post HP HK HI ltac:(rewrite M1, M2; cbn [List.length]; lia)) as (nk & R).
  eexists. split; [exists nk; exact R|].
  split; [cbn [ip]; rewrite HI, app_length, Nat2N.inj_add; reflexivity|].
  unfold mstate_ok; cbn [ostack locals globals]. rewrite S1, M1. repeat split; auto.
Qed.

Lemma jump_runs G st env base p vs pre post jb T :
  jbytes Jump T jb -> pcode p = pre ++ jb ++ post -> ip vs = N.of_nat (List.length pre) -> mstate_ok G st env base vs ->
  exists vs', reaches p vs vs' /\ ip vs' = T /\ mstate_ok G st env base vs'.
Proof.
  intros HJ HP HI HM. eexists. split; [apply reaches_step; exact (step_jump p vs pre post jb T HJ HP HI)|].
  split; [reflexivity|exact HM].
Qed.

Lemma cond_runs G c st st1 seg_c jf T env b base p vs pre post :
  efrag c = true -> compile_expr true c st = COk st1 -> ccode st1 = ccode st ++ seg_c -> jbytes JumpOnFalse T jf ->
  eval_expr env c = Some (VBool b) -> sym_static (csym st) ->
  pcode p = pre ++ (seg_c ++ jf) ++ post -> consts_of p st1 -> ip vs = N.of_nat (List.length pre) ->
  mstate_ok G st env base vs -> N.of_nat (List.length base) + edepth c <= StackSize ->
  exists vs', reaches p vs vs' /\ ip vs' = (if b then N.of_nat (List.length (pre ++ seg_c ++ jf)) else T) /\ mstate_ok G st env base vs'.
Proof.
  intros HF HC HS HJ HE HSS HP HK HI HM HD.
  destruct (expr_runs_ok G c st st1 seg_c env _ base p vs pre (jf ++ post) HF HC HS HE HSS
              ltac:(rewrite HP, <- !app_assoc; reflexivity) HK HI HM HD) as (vs1 & R1 & I1 & (M1 & M2 & M3 & M4 & M5)).
  destruct (efrag_consts c st st1 HF HC) as [_ S1]. rewrite S1 in M3, M4.
  eexists. split; [eapply reaches_trans; [exact R1|]; apply reaches_step;
                   exact (step_jof p vs1 (pre ++ seg_c) post jf T b base HJ ltac:(rewrite HP, <- !app_assoc; reflexivity) I1 M1)|].
  split; [cbn [ip]; destruct b; [|reflexivity]; rewrite I1, !app_length, (jbytes_len _ _ _ HJ), !Nat2N.inj_add; lia|].
  unfold mstate_ok; cbn [ostack locals globals]. repeat split; auto.
Qed.

Lemma setglobal_runs G st env n y v base p vs pre post sg :
  jbytes SetGlobal (sidx y) sg -> st_resolve n (csym st) = Some y -> slots_distinct (csym st) ->
  pcode p = pre ++ sg ++ post -> ip vs = N.of_nat (List.length pre) -> mstate_ok G st env (v :: base) vs ->
  exists vs', reaches p vs vs' /\ ip vs' = N.of_nat (List.length (pre ++ sg)) /\ mstate_ok G st (upd env n v) base vs'.
Proof.
  intros HSG HR HSD HP HI (M1 & M2 & M3 & M4 & M5).
  eexists. split; [apply reaches_step; exact (step_setglobal p vs pre post sg (sidx y) v base HSG HP HI M1 (M4 n y HR))|].
  split; [cbn [ip]; rewrite HI, app_length, (jbytes_len _ _ _ HSG), Nat2N.inj_add; reflexivity|].
  unfold mstate_ok; cbn [ostack locals globals]. rewrite set_nth_length. repeat split; auto.
  - apply store_global_distinct; auto. apply (M4 n y HR).
  - intros m ym HRm. rewrite set_nth_length. apply (M4 m ym HRm).
Qed.

(* the loop part of a range loop: hd is the range op with its operand (1 if it
   pushes the element for a loop variable); the loop variable, if any, is the
   global y, stored by sg *)
Definition LOOP (hd : list N) (S : N) (bind : option (str * symbol)) (b : slist) (s3 st' : cstate) (seg : list N) : Prop :=
  exists stx stb bs_b seg_b jf jb sg,
    match bind with
    | Some (n, y) => jbytes SetGlobal (sidx y) sg /\ st_resolve n (csym s3) = Some y
    | None => sg = []
    end /\
    List.length hd = 3%nat /\ same_resolve (csym stx) (csym s3) /\
    N.of_nat (List.length (ccode stx)) = N.of_nat (List.length (ccode s3)) + 6 + N.of_nat (List.length sg) /\
    LAYL (Some (N.of_nat (List.length (ccode s3)) + N.of_nat (List.length (hd ++ jf ++ sg ++ seg_b ++ jb)))) b stx stb bs_b seg_b /\
    jbytes JumpOnFalse (N.of_nat (List.length (ccode s3)) + N.of_nat (List.length (hd ++ jf ++ sg ++ seg_b ++ jb))) jf /\
    jbytes Jump (N.of_nat (List.length (ccode s3))) jb /\
    cconsts st' = cconsts stb /\
    seg = hd ++ jf ++ sg ++ seg_b ++ jb ++ [N_of_opc Drop; 0; S].

Lemma layr_loop b s3 st' S rop seg : LAYR b s3 st' S rop seg -> LOOP [N_of_opc rop; 0; 0] S None b s3 st' seg.
Proof.
  intro HL. inversion HL; subst. exists stx, stb, bs_b, seg_b, jf, jb, [].
  repeat split; auto. cbn [List.length]. lia.
Qed.

(* the environment the body runs in, and what the range op pushes above the
   loop state for the loop variable *)
Definition loop_env (bind : option (str * symbol)) (env : genv) (v : value) : genv :=
  match bind with Some (n, _) => upd env n v | None => env end.
Definition loop_elem (bind : option (str * symbol)) (r : option value) : list value :=
  match r with Some v => match bind with Some _ => [v] | None => [] end | None => [] end.

(* one round of a range loop, from the state the range op leaves: r is the
   element it yields (None: exhausted), hdr' the loop state it leaves on the
   stack, REC the evaluator's next round.  Exhausted, or the body breaks: the
   machine ends after the OpDrop; otherwise it is back at the range op, from
   where the next round (CONT) takes it to the end. *)
Lemma range_round f hd S bind b s3 st' seg :
  (forall T l st st' bs seg, LAYL (Some T) l st st' bs seg -> SIMl f T l st st' seg) ->
  LOOP hd S bind b s3 st' seg ->
  forall G env env' br (r : option value) (REC : genv -> option (genv * bool)) hdr' base stk p vs pre post,
    pcode p = pre ++ seg ++ post -> List.length pre = List.length (ccode s3) -> consts_of p st' ->
    ip vs = N.of_nat (List.length pre) -> mstate_ok G s3 env stk vs ->
    sym_static (csym s3) -> slots_distinct (csym s3) -> N.of_nat (List.length hdr') = S ->
    vm_step p vs = Running {| ip := ip vs + 3; ostack := VBool (if r then true else false) :: loop_elem bind r ++ hdr' ++ base;
                              locals := locals vs; globals := globals vs |} ->
    N.of_nat (List.length base) + S + ldepth b <= StackSize ->
    match r with
    | Some v => match exec_l f b (loop_env bind env v) with
                | Some (env1, false) => REC env1
                | Some (env1, true) => Some (env1, false)
                | None => None
                end
    | None => Some (env, false)
    end = Some (env', br) ->
    (forall env1 vs1, REC env1 = Some (env', br) -> ip vs1 = ip vs -> mstate_ok G s3 env1 (hdr' ++ base) vs1 ->
       exists vs', reaches p vs1 vs' /\ ip vs' = ip vs1 + N.of_nat (List.length seg) /\ mstate_ok G s3 env' base vs') ->
    exists vs', reaches p vs vs' /\ ip vs' = ip vs + N.of_nat (List.length seg) /\ mstate_ok G s3 env' base vs'.
Proof.
  intros IHl (stx & stb & bs_b & seg_b & jf & jb & sg & HB & Lhd & Sx & Cx & LL & HJF & HJB & Kb & ->)
         G env env' br r REC hdr' base stk p vs pre post HP HLen HK HI (_ & M2 & M3 & M4 & M5) HSS HSD LH HDR HDb HX CONT.
  set (dr := [N_of_opc Drop; 0; S]) in *.
  set (Endp := N.of_nat (List.length (ccode s3)) + N.of_nat (List.length (hd ++ jf ++ sg ++ seg_b ++ jb))) in *.
  pose proof (jbytes_len _ _ _ HJF) as Ljf.
  pose proof (consts_of_eq p stb _ Kb HK) as HKb.
  set (vs1 := {| ip := ip vs + 3; ostack := VBool (if r then true else false) :: loop_elem bind r ++ hdr' ++ base;
                 locals := locals vs; globals := globals vs |}) in *.
  pose proof (step_jof p vs1 (pre ++ hd) (sg ++ seg_b ++ jb ++ dr ++ post) jf _ _ _ HJF
                ltac:(rewrite HP, <- !app_assoc; reflexivity)
                ltac:(cbn [vs1 ip]; rewrite HI, app_length, Lhd; lia) eq_refl) as R2.
  (* the exit: OpDrop S *)
  assert (EXIT : forall env2 vsd, ip vsd = Endp -> mstate_ok G s3 env2 (hdr' ++ base) vsd ->
            exists vs', reaches p vsd vs' /\ ip vs' = ip vs + N.of_nat (List.length (hd ++ jf ++ sg ++ seg_b ++ jb ++ dr)) /\
                        mstate_ok G s3 env2 base vs').
  { intros env2 vsd ID (OD & LD & GD & SD & ND).
    pose proof (step_drop p vsd (pre ++ hd ++ jf ++ sg ++ seg_b ++ jb) post S hdr' base
                  ltac:(rewrite HP; unfold dr; rewrite <- !app_assoc; reflexivity)
                  ltac:(rewrite ID; unfold Endp; rewrite (app_length pre), HLen, Nat2N.inj_add; reflexivity) OD LH) as RD.
    eexists. split; [apply reaches_step; exact RD|]. split.
    - cbn [ip]. rewrite ID, HI, HLen. unfold Endp, dr. rewrite !app_length. cbn [List.length]. lia.
    - unfold mstate_ok; cbn [ostack locals globals]. repeat split; auto. }
  destruct r as [v|]; cbn [loop_elem] in *.
  - destruct (exec_l f b (loop_env bind env v)) as [[env1 brb]|] eqn:HXb; [|discriminate].
    (* the element goes to the loop variable, if there is one *)
    assert (STORE : exists vs3, reaches p vs vs3 /\ ip vs3 = N.of_nat (List.length (pre ++ hd ++ jf ++ sg)) /\
                      mstate_ok G stx (loop_env bind env v) (hdr' ++ base) vs3).
    { destruct bind as [[n y]|]; cbn [loop_env app] in *.
      - destruct HB as [HSG HRy].
        set (vs2 := {| ip := ip vs1 + 3; ostack := v :: hdr' ++ base; locals := locals vs1; globals := globals vs1 |}) in *.
        destruct (setglobal_runs G s3 env n y v (hdr' ++ base) p vs2 (pre ++ hd ++ jf) (seg_b ++ jb ++ dr ++ post) sg HSG HRy HSD
                    ltac:(rewrite HP, <- !app_assoc; reflexivity)
                    ltac:(cbn [vs2 vs1 ip]; rewrite HI, !app_length, Ljf, Lhd; lia)
                    ltac:(unfold mstate_ok; cbn [vs2 vs1 ostack locals globals]; repeat split; auto)) as (vs3 & R3 & I3 & HM3).
        exists vs3. split; [eapply reaches_trans; [apply reaches_step; exact HDR|]; eapply reaches_trans; [apply reaches_step; exact R2|exact R3]|].
        split; [rewrite I3, <- !app_assoc; reflexivity|apply (mstate_same G s3 stx _ _ _ Sx HM3)].
      - subst sg. eexists. split; [eapply reaches_trans; apply reaches_step; [exact HDR|exact R2]|].
        split; [cbn [vs1 ip]; rewrite HI, !app_length, Ljf, Lhd; cbn [List.length]; lia|].
        apply (mstate_same G s3 stx); [exact Sx|]. unfold mstate_ok; cbn [ostack locals globals]. repeat split; auto. }
    destruct STORE as (vs3 & R3 & I3 & HM3).
    destruct (IHl _ b stx stb _ seg_b LL G _ env1 brb (hdr' ++ base) HXb p vs3 (pre ++ hd ++ jf ++ sg) (jb ++ dr ++ post)) as (vs4 & R4 & I4 & HM4).
    { rewrite HP, <- !app_assoc. reflexivity. }
    { apply Nat2N.inj. rewrite Cx, !app_length, HLen, Ljf, Lhd. lia. }
    { exact HKb. }
    { exact I3. }
    { exact HM3. }
    { apply (sym_static_same (csym s3)); assumption. }
    { apply (slots_distinct_same (csym s3)); assumption. }
    { rewrite app_length, Nat2N.inj_add. lia. }
    pose proof (mstate_same_back G s3 stx env1 _ vs4 Sx HM4) as HM4'.
    destruct brb.
    + inversion HX; subst env' br. destruct (EXIT env1 vs4 I4 HM4') as (vs' & RE & IE & ME).
      exists vs'. split; [eapply reaches_trans; [exact R3|]; eapply reaches_trans; [exact R4|exact RE]|]. split; [exact IE|exact ME].
    + pose proof (step_jump p vs4 (pre ++ hd ++ jf ++ sg ++ seg_b) (dr ++ post) jb _ HJB
                    ltac:(rewrite HP, <- !app_assoc; reflexivity)
                    ltac:(rewrite I4, I3, !app_length, !Nat2N.inj_add; lia)) as R5.
      set (vs5 := {| ip := N.of_nat (List.length (ccode s3)); ostack := ostack vs4; locals := locals vs4; globals := globals vs4 |}) in *.
      destruct (CONT env1 vs5 HX ltac:(cbn [vs5 ip]; rewrite HI, HLen; reflexivity) HM4') as (vs' & R6 & I6 & HM6).
      exists vs'. split; [eapply reaches_trans; [exact R3|]; eapply reaches_trans; [exact R4|]; eapply reaches_trans; [apply reaches_step; exact R5|exact R6]|].
      split; [rewrite I6; cbn [vs5 ip]; rewrite HI, HLen; reflexivity|exact HM6].
  - inversion HX; subst env' br.
    set (vs2 := {| ip := Endp; ostack := hdr' ++ base; locals := locals vs1; globals := globals vs1 |}) in *.
    destruct (EXIT env vs2 eq_refl) as (vs' & RE & IE & ME); [unfold mstate_ok; cbn [vs2 vs1 ostack locals globals]; repeat split; auto|].
    exists vs'. split; [eapply reaches_trans; [apply reaches_step; exact HDR|]; eapply reaches_trans; [apply reaches_step; exact R2|exact RE]|].
    split; [exact IE|exact ME].
Qed.

Lemma loop_head hd S bind b s3 st' seg : LOOP hd S bind b s3 st' seg -> exists rest, seg = hd ++ rest.
Proof. intros (stx & stb & bs_b & seg_b & jf & jb & sg & H). decompose [and] H. eauto. Qed.

Lemma simr_step f : (forall T l st st' bs seg, LAYL (Some T) l st st' bs seg -> SIMl f T l st st' seg) ->
  forall b s3 st' seg, LAYR b s3 st' 3 StepRange seg -> SIMr f b s3 st' seg -> SIMr (S f) b s3 st' seg.
Proof.
  intros IHl b s3 st' seg HL IHr G env env' br idx stp stop base HX p vs pre post HP HLen HK HI HZ HM HSS HSD HD4 HDb.
  apply layr_loop in HL. destruct (loop_head _ _ _ _ _ _ _ HL) as (rest & Eseg).
  cbn [exec_r] in HX. pose proof HM as (M1 & M2 & _).
  pose proof (step_steprange_any p vs pre (rest ++ post) 0 idx stp stop base ltac:(rewrite HP, Eseg, <- app_assoc; reflexivity) HI M1 HZ
                ltac:(rewrite M2; simpl; lia)) as HDR.
  pose proof (fun r => range_round f _ _ _ _ _ _ _ IHl HL G env env' br r (fun env1 => exec_r f (idx + stp)%float stp stop b env1)
                         [VNum (idx + stp)%float; VNum stp; VNum stop] base _ p vs pre post HP HLen HK HI HM HSS HSD eq_refl) as RR.
  assert (CONT : forall env1 vs1, exec_r f (idx + stp)%float stp stop b env1 = Some (env', br) -> ip vs1 = ip vs ->
            mstate_ok G s3 env1 ([VNum (idx + stp)%float; VNum stp; VNum stop] ++ base) vs1 ->
            exists vs', reaches p vs1 vs' /\ ip vs' = ip vs1 + N.of_nat (List.length seg) /\ mstate_ok G s3 env' base vs').
  { intros env1 vs1 HX1 I1 HM1. apply (IHr G env1 env' br _ stp stop base HX1 p vs1 pre post HP HLen HK ltac:(rewrite I1; exact HI) HZ HM1 HSS HSD HD4 HDb). }
  destruct (going idx stp stop); [exact (RR (Some (VNum idx)) HDR HDb HX CONT)|exact (RR None HDR HDb HX CONT)].
Qed.

Lemma simi_step f : (forall T l st st' bs seg, LAYL (Some T) l st st' bs seg -> SIMl f T l st st' seg) ->
  forall b s3 st' seg, LAYR b s3 st' 2 IterRange seg -> SIMi f b s3 st' seg -> SIMi (S f) b s3 st' seg.
Proof.
  intros IHl b s3 st' seg HL IHr G env env' br idx iter base HX p vs pre post HP HLen HK HI HM HSS HSD HD3 HDb.
  apply layr_loop in HL. destruct (loop_head _ _ _ _ _ _ _ HL) as (rest & Eseg).
  cbn [exec_i] in HX. pose proof HM as (M1 & M2 & _).
  destruct (iter_next iter idx) as [r|] eqn:HN; [|discriminate].
  pose proof (step_iterrange_any p vs pre (rest ++ post) 0 idx iter base ltac:(rewrite HP, Eseg, <- app_assoc; reflexivity) HI M1
                ltac:(rewrite M2; simpl; lia) r HN) as HDR.
  pose proof (range_round f _ _ _ _ _ _ _ IHl HL G env env' br r (fun env1 => exec_i f (idx + 1)%float iter b env1)
                [VNum (idx + 1)%float; iter] base _ p vs pre post HP HLen HK HI HM HSS HSD eq_refl) as RR.
  assert (CONT : forall env1 vs1, exec_i f (idx + 1)%float iter b env1 = Some (env', br) -> ip vs1 = ip vs ->
            mstate_ok G s3 env1 ([VNum (idx + 1)%float; iter] ++ base) vs1 ->
            exists vs', reaches p vs1 vs' /\ ip vs' = ip vs1 + N.of_nat (List.length seg) /\ mstate_ok G s3 env' base vs').
  { intros env1 vs1 HX1 I1 HM1. apply (IHr G env1 env' br _ iter base HX1 p vs1 pre post HP HLen HK ltac:(rewrite I1; exact HI) HM1 HSS HSD HD3 HDb). }
  destruct r; exact (RR HDR HDb HX CONT).
Qed.

Lemma sim_assign f T n e st st1 st' y seg_e sg :
  efrag e = true -> compile_expr true e st = COk st1 -> ccode st1 = ccode st ++ seg_e ->
  st_resolve n (csym st) = Some y -> jbytes SetGlobal (sidx y) sg -> cconsts st' = cconsts st1 ->
  SIMs (S f) T (SAssign (EVar n) e) st st' (seg_e ++ sg).
Proof.
  intros HF HC HS HR HSG K' G env env' br base HX p vs pre post HP HLen HK HI HM HSS HSD HDp.
  cbn [exec_s] in HX. destruct (eval_expr env e) as [v|] eqn:HE; [|discriminate]. inversion HX; subst env' br.
  pose proof (consts_of_eq p st1 _ K' HK) as HK1.
  destruct (expr_runs_ok G e st st1 seg_e env v base p vs pre (sg ++ post) HF HC HS HE HSS
              ltac:(rewrite HP, <- !app_assoc; reflexivity) HK1 HI HM HDp) as (vs1 & R1 & I1 & HM1).
  destruct (efrag_consts e st st1 HF HC) as [_ S1].
  apply (mstate_same_back G st st1) in HM1; [|apply same_resolve_eq; exact S1].
  destruct (setglobal_runs G st env n y v base p vs1 (pre ++ seg_e) post sg HSG HR HSD
              ltac:(rewrite HP, <- !app_assoc; reflexivity) I1 HM1) as (vs2 & R2 & I2 & HM2).
  exists vs2. split; [eapply reaches_trans; eassumption|]. split; [|exact HM2].
  rewrite I2, HI, <- app_assoc, app_length, Nat2N.inj_add. reflexivity.
Qed.

Lemma sim_while f T c b st st1 stx stb st' bs_b seg_c seg_b jf jb :
  efrag c = true -> compile_expr true c st = COk st1 -> ccode st1 = ccode st ++ seg_c ->
  cconsts stx = cconsts st1 -> same_resolve (csym stx) (csym st) ->
  N.of_nat (List.length (ccode stx)) = N.of_nat (List.length (ccode st1)) + 3 ->
  LAYL (Some (N.of_nat (List.length (ccode st)) + N.of_nat (List.length (seg_c ++ jf ++ seg_b ++ jb)))) b stx stb bs_b seg_b ->
  jbytes JumpOnFalse (N.of_nat (List.length (ccode st)) + N.of_nat (List.length (seg_c ++ jf ++ seg_b ++ jb))) jf ->
  jbytes Jump (N.of_nat (List.length (ccode st))) jb -> cconsts st' = cconsts stb ->
  SIMl f (N.of_nat (List.length (ccode st)) + N.of_nat (List.length (seg_c ++ jf ++ seg_b ++ jb))) b stx stb seg_b ->
  SIMs f T (SWhile c b) st st' (seg_c ++ jf ++ seg_b ++ jb) ->
  SIMs (S f) T (SWhile c b) st st' (seg_c ++ jf ++ seg_b ++ jb).
Proof.
  intros HF HC HS Kx Sx Cx LL HJF HJB Kb IHb IHw G env env' br base HX p vs pre post HP HLen HK HI HM HSS HSD HDp.
  cbn [exec_s] in HX. cbn [sdepth] in HDp.
  destruct (proj1 (proj2 lay_frame) _ _ _ _ _ _ LL) as [(nb & Knb) _].
  pose proof (consts_of_eq p stb _ Kb HK) as HKb.
  assert (HK1 : consts_of p st1) by (apply (consts_of_prefix p st1 stb nb); [rewrite Knb, Kx; reflexivity|exact HKb]).
  pose proof (jbytes_len _ _ _ HJF) as Ljf.
  destruct (eval_expr env c) as [[| bv | | | | |]|] eqn:HE; try discriminate.
  destruct (cond_runs G c st st1 seg_c jf _ env bv base p vs pre (seg_b ++ jb ++ post) HF HC HS HJF HE HSS
              ltac:(rewrite HP, <- !app_assoc; reflexivity) HK1 HI HM ltac:(lia)) as (vs1 & R1 & I1 & HM1).
  destruct bv.
  - (* one more iteration *)
    destruct (exec_l f b env) as [[env1 brb]|] eqn:HXb; [|discriminate].
    destruct (IHb G env env1 brb base HXb p vs1 (pre ++ seg_c ++ jf) (jb ++ post) ltac:(rewrite HP, <- !app_assoc; reflexivity)
                ltac:(apply Nat2N.inj; rewrite Cx, HS, !app_length, HLen, Ljf; lia) HKb I1
                (mstate_same G st stx _ _ _ Sx HM1) (sym_static_same _ _ Sx HSS) (slots_distinct_same _ _ Sx HSD) ltac:(lia))
      as (vs2 & R2 & I2 & HM2).
    apply (mstate_same_back G st stx) in HM2; [|exact Sx].
    destruct brb.
    + (* the body broke out: the machine is at the end of the loop *)
      inversion HX; subst env' br. exists vs2. split; [eapply reaches_trans; eassumption|]. split; [rewrite I2, HI, HLen; reflexivity|exact HM2].
    + destruct (jump_runs G st env1 base p vs2 (pre ++ seg_c ++ jf ++ seg_b) post jb _ HJB ltac:(rewrite HP, <- !app_assoc; reflexivity)
                  ltac:(rewrite I2, I1, !app_length, !Nat2N.inj_add; lia) HM2) as (vs3 & R3 & I3 & HM3).
      destruct (IHw G env1 env' br base HX p vs3 pre post HP HLen HK ltac:(rewrite I3, HLen; reflexivity) HM3 HSS HSD ltac:(cbn [sdepth]; lia))
        as (vs4 & R4 & I4 & HM4).
      exists vs4. split; [eapply reaches_trans; [exact R1|]; eapply reaches_trans; [exact R2|]; eapply reaches_trans; eassumption|].
      split; [rewrite I4, I3, HI, HLen; reflexivity|exact HM4].
  - (* leave the loop *)
    inversion HX; subst env' br. exists vs1. split; [exact R1|]. split; [rewrite I1, HI, HLen; reflexivity|exact HM1].
Qed.

Lemma simc_cons f T c b t els st st1 stx stb sty st' End js bs_b bs_r seg_c seg_b jf je seg_r :
  efrag c = true -> compile_expr true c st = COk st1 -> ccode st1 = ccode st ++ seg_c ->
  cconsts stx = cconsts st1 -> same_resolve (csym stx) (csym st) ->
  N.of_nat (List.length (ccode stx)) = N.of_nat (List.length (ccode st1)) + 3 ->
  LAYL (Some T) b stx stb bs_b seg_b ->
  jbytes JumpOnFalse (N.of_nat (List.length (ccode st)) + N.of_nat (List.length (seg_c ++ jf ++ seg_b ++ je))) jf ->
  jbytes Jump End je ->
  cconsts sty = cconsts stb -> same_resolve (csym sty) (csym st) ->
  N.of_nat (List.length (ccode sty)) = N.of_nat (List.length (ccode stb)) + 3 ->
  LAYC (Some T) true t els sty st' End js bs_r seg_r ->
  SIMl f T b stx stb seg_b -> SIMc f T t els sty st' End seg_r ->
  SIMc (S f) T (CCons c b t) els st st' End (seg_c ++ jf ++ seg_b ++ je ++ seg_r).
Proof.
  intros HF HC HS Kx Sx Cx LL HJF HJE Ky Sy Cy LC IHb IHt G env env' br base HX p vs pre post HP HLen HK HI HM HSS HSD HDp HDo.
  cbn [exec_c] in HX. cbn [cdepth] in HDp.
  destruct (proj1 (proj2 lay_frame) _ _ _ _ _ _ LL) as [(nb & Knb) _].
  destruct (proj1 (proj2 (proj2 lay_frame)) _ _ _ _ _ _ _ _ _ _ LC) as [(nr & Knr) _].
  assert (HKb : consts_of p stb) by (apply (consts_of_prefix p stb st' nr); [rewrite Knr, Ky; reflexivity|exact HK]).
  assert (HK1 : consts_of p st1) by (apply (consts_of_prefix p st1 stb nb); [rewrite Knb, Kx; reflexivity|exact HKb]).
  pose proof (jbytes_len _ _ _ HJF) as Ljf. pose proof (jbytes_len _ _ _ HJE) as Lje. pose proof (layl_len _ _ _ _ _ _ LL) as LLb.
  destruct (eval_expr env c) as [[| bv | | | | |]|] eqn:HE; try discriminate.
  destruct (cond_runs G c st st1 seg_c jf _ env bv base p vs pre (seg_b ++ je ++ seg_r ++ post) HF HC HS HJF HE HSS
              ltac:(rewrite HP, <- !app_assoc; reflexivity) HK1 HI HM ltac:(lia)) as (vs1 & R1 & I1 & HM1).
  destruct bv.
  - (* this block runs; then the jump to End *)
    destruct (IHb G env env' br base HX p vs1 (pre ++ seg_c ++ jf) (je ++ seg_r ++ post) ltac:(rewrite HP, <- !app_assoc; reflexivity)
                ltac:(apply Nat2N.inj; rewrite Cx, HS, !app_length, HLen, Ljf; lia) HKb I1
                (mstate_same G st stx _ _ _ Sx HM1) (sym_static_same _ _ Sx HSS) (slots_distinct_same _ _ Sx HSD) ltac:(lia))
      as (vs2 & R2 & I2 & HM2).
    apply (mstate_same_back G st stx) in HM2; [|exact Sx].
    destruct br.
    + exists vs2. split; [eapply reaches_trans; eassumption|]. split; [exact I2|exact HM2].
    + destruct (jump_runs G st env' base p vs2 (pre ++ seg_c ++ jf ++ seg_b) (seg_r ++ post) je _ HJE ltac:(rewrite HP, <- !app_assoc; reflexivity)
                  ltac:(rewrite I2, I1, !app_length, !Nat2N.inj_add; lia) HM2) as (vs3 & R3 & I3 & HM3).
      exists vs3. split; [eapply reaches_trans; [exact R1|]; eapply reaches_trans; eassumption|]. split; [exact I3|exact HM3].
  - (* on to the rest of the chain *)
    destruct (IHt G env env' br base HX p vs1 (pre ++ seg_c ++ jf ++ seg_b ++ je) post ltac:(rewrite HP, <- !app_assoc; reflexivity)
                ltac:(apply Nat2N.inj; rewrite Cy, LLb, Cx, HS, !app_length, HLen, Ljf, Lje; lia) HK
                ltac:(rewrite I1, !app_length, HLen, !Nat2N.inj_add; lia)
                (mstate_same G st sty _ _ _ Sy HM1) (sym_static_same _ _ Sy HSS) (slots_distinct_same _ _ Sy HSD) ltac:(lia) HDo)
      as (vs2 & R2 & I2 & HM2).
    exists vs2. split; [eapply reaches_trans; eassumption|]. split; [exact I2|]. apply (mstate_same_back G st sty); assumption.
Qed.

Lemma siml_cons f T s t st st1 st2 bs1 bs2 seg1 seg2 :
  LAY (Some T) s st st1 bs1 seg1 ->
  N.of_nat (List.length (ccode st1)) = N.of_nat (List.length (ccode st)) + N.of_nat (List.length seg1) ->
  LAYL (Some T) t st1 st2 bs2 seg2 ->
  SIMs f T s st st1 seg1 -> SIMl f T t st1 st2 seg2 -> SIMl (S f) T (SCons s t) st st2 (seg1 ++ seg2).
Proof.
  intros L1 Len1 L2 IH1 IH2 G env env' br base HX p vs pre post HP HLen HK HI HM HSS HSD HDp.
  cbn [exec_l] in HX. cbn [ldepth] in HDp.
  destruct (exec_s f s env) as [[env1 br1]|] eqn:HX1; [|discriminate].
  destruct (proj1 lay_frame _ _ _ _ _ _ L1) as [_ S1]. destruct (proj1 (proj2 lay_frame) _ _ _ _ _ _ L2) as [(n2 & K2) _].
  destruct (IH1 G env env1 br1 base HX1 p vs pre (seg2 ++ post) ltac:(rewrite HP, <- !app_assoc; reflexivity) HLen
              (consts_of_prefix p st1 st2 n2 K2 HK) HI HM HSS HSD ltac:(lia)) as (vs1 & R1 & I1 & HM1).
  destruct br1.
  - inversion HX; subst env' br. exists vs1. auto.
  - destruct (IH2 G env1 env' br base HX p vs1 (pre ++ seg1) post ltac:(rewrite HP, <- !app_assoc; reflexivity)
                ltac:(apply Nat2N.inj; rewrite app_length, Len1, Nat2N.inj_add, HLen; reflexivity) HK
                ltac:(rewrite I1, HI, app_length, Nat2N.inj_add; reflexivity)
                (mstate_same G st st1 _ _ _ S1 HM1) (sym_static_same _ _ S1 HSS) (slots_distinct_same _ _ S1 HSD) ltac:(lia))
      as (vs2 & R2 & I2 & HM2).
    exists vs2. split; [eapply reaches_trans; eassumption|]. split; [rewrite I2, I1, app_length; destruct br; [reflexivity|lia]|].
    apply (mstate_same_back G st st1); assumption.
Qed.

Lemma sim_forstep f T start stop step b st s1 s2 s3 st' seg1 seg2 seg3 seg_r :
  efrag stop = true -> compile_expr true stop st = COk s1 -> ccode s1 = ccode st ++ seg1 ->
  efrag (match step with OSome e => e | ONoneE => ENum 1 end) = true ->
  compile_expr true (match step with OSome e => e | ONoneE => ENum 1 end) s1 = COk s2 -> ccode s2 = ccode s1 ++ seg2 ->
  efrag (match start with OSome e => e | ONoneE => ENum 0 end) = true ->
  compile_expr true (match start with OSome e => e | ONoneE => ENum 0 end) s2 = COk s3 -> ccode s3 = ccode s2 ++ seg3 ->
  LAYR b s3 st' 3 StepRange seg_r -> SIMr f b s3 st' seg_r ->
  SIMs (S f) T (SForStep None start stop step b) st st' (seg1 ++ seg2 ++ seg3 ++ seg_r).
Proof.
  intros F1 C1 E1 F2 C2 E2 F3 C3 E3 LR IHr G env env' br base HX p vs pre post HP HLen HK HI HM HSS HSD HDp.
  cbn [exec_s] in HX. cbn [sdepth] in HDp.
  set (estep := match step with OSome e => e | ONoneE => ENum 1 end) in *.
  set (estart := match start with OSome e => e | ONoneE => ENum 0 end) in *.
  assert (HD : N.of_nat (List.length base) + edepth stop <= StackSize /\
               N.of_nat (List.length (VNum 0 :: base)) + edepth estep <= StackSize /\
               N.of_nat (List.length (VNum 0 :: VNum 0 :: base)) + edepth estart <= StackSize /\
               N.of_nat (List.length base) + 4 <= StackSize /\ N.of_nat (List.length base) + 3 + ldepth b <= StackSize)
    by (clear - HDp; cbn [List.length]; lia).
  destruct HD as (HD1 & HD2 & HD3 & HD4 & HD5).
  destruct (eval_expr env stop) as [[vstop| | | | | |]|] eqn:HE1; try discriminate.
  destruct (eval_expr env estep) as [[vstep| | | | | |]|] eqn:HE2; try discriminate.
  destruct (eval_expr env estart) as [[vstart| | | | | |]|] eqn:HE3; try discriminate.
  destruct (PrimFloat.eqb vstep 0) eqn:HZ; [discriminate|].
  pose proof (exec_r_false _ _ _ _ _ _ _ _ HX) as ->.
  destruct (efrag_consts stop st s1 F1 C1) as [_ S1].
  destruct (efrag_consts estep s1 s2 F2 C2) as [(n2 & K2) S2].
  destruct (efrag_consts estart s2 s3 F3 C3) as [(n3 & K3) S3].
  destruct (proj2 (proj2 (proj2 lay_frame)) _ _ _ _ _ _ LR) as [(nr & Kr) _].
  pose proof (consts_of_prefix p s3 st' nr Kr HK) as HK3.
  pose proof (consts_of_prefix p s2 s3 n3 K3 HK3) as HK2.
  pose proof (consts_of_prefix p s1 s2 n2 K2 HK2) as HK1.
  assert (S30 : same_resolve (csym s3) (csym st)) by (apply same_resolve_eq; congruence).
  destruct (expr_runs_ok G stop st s1 seg1 env _ base p vs pre (seg2 ++ seg3 ++ seg_r ++ post) F1 C1 E1 HE1 HSS
              ltac:(rewrite HP, <- !app_assoc; reflexivity) HK1 HI HM HD1) as (vs1 & R1 & I1 & HM1).
  destruct (expr_runs_ok G estep s1 s2 seg2 env _ _ p vs1 (pre ++ seg1) (seg3 ++ seg_r ++ post) F2 C2 E2 HE2
              ltac:(rewrite S1; exact HSS) ltac:(rewrite HP, <- !app_assoc; reflexivity) HK2 I1 HM1 HD2) as (vs2 & R2 & I2 & HM2).
  destruct (expr_runs_ok G estart s2 s3 seg3 env _ _ p vs2 ((pre ++ seg1) ++ seg2) (seg_r ++ post) F3 C3 E3 HE3
              ltac:(rewrite S2, S1; exact HSS) ltac:(rewrite HP, <- !app_assoc; reflexivity) HK3 I2 HM2 HD3) as (vs3 & R3 & I3 & HM3).
  destruct (IHr G env env' false vstart vstep vstop base HX p vs3 (((pre ++ seg1) ++ seg2) ++ seg3) post
              ltac:(rewrite HP, <- !app_assoc; reflexivity)
              ltac:(rewrite E3, E2, E1, !app_length, HLen; reflexivity) HK I3 HZ HM3
              (sym_static_same _ _ S30 HSS) (slots_distinct_same _ _ S30 HSD) HD4 HD5) as (vs4 & R4 & I4 & HM4).
  exists vs4. split; [eapply reaches_trans; [exact R1|]; eapply reaches_trans; [exact R2|]; eapply reaches_trans; eassumption|].
  split; [rewrite I4, I3, HI, !app_length, !Nat2N.inj_add; clear; lia|]. apply (mstate_same_back G st s3); assumption.
Qed.

Lemma sim_foriter f T t e b st s1 s2 st' seg1 segk seg_r :
  (t = TStr \/ t = TArr \/ t = TMap) ->
  efrag e = true -> compile_expr true e st = COk s1 -> ccode s1 = ccode st ++ seg1 ->
  emit_const true (KNum 0) s1 = COk s2 -> ccode s2 = ccode s1 ++ segk ->
  LAYR b s2 st' 2 IterRange seg_r -> SIMi f b s2 st' seg_r ->
  SIMs (S f) T (SForIter None t e b) st st' (seg1 ++ segk ++ seg_r).
Proof.
  intros Ht F1 C1 E1 C2 E2 LR IHi G env env' br base HX p vs pre post HP HLen HK HI HM HSS HSD HDp.
  cbn [exec_s] in HX. cbn [sdepth] in HDp.
  assert (HX' : match eval_expr env e with Some iter => exec_i f 0%float iter b env | None => None end = Some (env', br))
    by (destruct Ht as [->|[->| ->]]; exact HX). clear HX.
  assert (HD : N.of_nat (List.length base) + edepth e <= StackSize /\ N.of_nat (List.length (VNum 0 :: base)) + 1 <= StackSize /\
               N.of_nat (List.length base) + 3 <= StackSize /\ N.of_nat (List.length base) + 2 + ldepth b <= StackSize)
    by (clear - HDp; cbn [List.length]; lia).
  destruct HD as (HD1 & HD2 & HD3 & HD4).
  destruct (eval_expr env e) as [iter|] eqn:HE1; [|discriminate].
  pose proof (exec_i_false _ _ _ _ _ _ _ HX') as ->.
  destruct (efrag_consts e st s1 F1 C1) as [_ S1].
  destruct (const_correct _ _ _ C2) as (S2 & _ & _ & K2 & _).
  destruct (proj2 (proj2 (proj2 lay_frame)) _ _ _ _ _ _ LR) as [(nr & Kr) _].
  pose proof (consts_of_prefix p s2 st' nr Kr HK) as HK2.
  pose proof (consts_of_prefix p s1 s2 [KNum 0] K2 HK2) as HK1.
  assert (S20 : same_resolve (csym s2) (csym st)) by (apply same_resolve_eq; congruence).
  destruct (expr_runs_ok G e st s1 seg1 env _ base p vs pre (segk ++ seg_r ++ post) F1 C1 E1 HE1 HSS
              ltac:(rewrite HP, <- !app_assoc; reflexivity) HK1 HI HM HD1) as (vs1 & R1 & I1 & HM1).
  destruct (const_runs_ok G (KNum 0) s1 s2 segk env _ p vs1 (pre ++ seg1) (seg_r ++ post) C2 E2
              ltac:(rewrite HP, <- !app_assoc; reflexivity) HK2 I1 HM1 HD2) as (vs2 & R2 & I2 & HM2).
  destruct (IHi G env env' false 0%float iter base HX' p vs2 ((pre ++ seg1) ++ segk) post
              ltac:(rewrite HP, <- !app_assoc; reflexivity)
              ltac:(rewrite E2, E1, !app_length, HLen; reflexivity) HK I2 HM2
              (sym_static_same _ _ S20 HSS) (slots_distinct_same _ _ S20 HSD) HD3 HD4) as (vs4 & R4 & I4 & HM4).
  exists vs4. split; [eapply reaches_trans; [exact R1|]; eapply reaches_trans; eassumption|].
  split; [rewrite I4, I2, HI, !app_length, !Nat2N.inj_add; clear; lia|]. apply (mstate_same_back G st s2); assumption.
Qed.

Theorem sim_all : forall fuel,
  (forall T s st st' bs seg, LAY (Some T) s st st' bs seg -> SIMs fuel T s st st' seg) /\
  (forall T l st st' bs seg, LAYL (Some T) l st st' bs seg -> SIMl fuel T l st st' seg) /\
  (forall T l els st st' End js bs seg, LAYC (Some T) true l els st st' End js bs seg -> SIMc fuel T l els st st' End seg) /\
  (forall b s3 st' seg, LAYR b s3 st' 3 StepRange seg -> SIMr fuel b s3 st' seg) /\
  (forall b s3 st' seg, LAYR b s3 st' 2 IterRange seg -> SIMi fuel b s3 st' seg).
Proof.
  induction fuel as [|f (IHs & IHl & IHc & IHr & IHi)].
  - repeat split; intros; intros G env env' br; intros; simpl in *; discriminate.
  - split; [|split; [|split; [|split]]].
    + intros T s st st' bs seg HL. inversion HL; subst.
      * eapply sim_assign; eassumption.
      * intros G env env' br base HX p vs pre post HP HLen HK HI HM HSS HSD HDp.
        cbn [exec_s] in HX. inversion HX; subst. exists vs. split; [apply reaches_refl|]. split; [simpl; lia|exact HM].
      * intros G env env' br base HX p vs pre post HP HLen HK HI HM HSS HSD HDp.
        cbn [exec_s] in HX. inversion HX; subst env' br. cbn [bshape] in *.
        eapply jump_runs; eassumption.
      * eapply sim_while; eauto.
      * eapply sim_forstep; eauto.
      * eapply sim_foriter; eauto.
      * (* if: the chain *)
        intros G env env' br base HX p vs pre post HP HLen HK HI HM HSS HSD HDp.
        cbn [exec_s] in HX. cbn [sdepth] in HDp.
        match goal with HC : LAYC _ _ _ _ _ _ _ _ _ _ |- _ =>
          destruct (IHc _ _ _ _ _ _ _ _ _ HC G env env' br base HX p vs pre post HP HLen) as (vs' & R & I & HM'); auto end.
        { eapply consts_of_eq; eassumption. }
        { cbn [cdepth]. lia. }
        { unfold odepth. lia. }
        exists vs'. split; [exact R|]. split; [rewrite I, HI, HLen; reflexivity|exact HM'].
    + intros T l st st' bs seg HL. inversion HL; subst.
      * intros G env env' br base HX p vs pre post HP HLen HK HI HM HSS HSD HDp.
        cbn [exec_l] in HX. inversion HX; subst. exists vs. split; [apply reaches_refl|]. split; [simpl; lia|exact HM].
      * eapply siml_cons; eauto.
    + intros T l els st st' End js bs seg HL. inversion HL; subst.
      * (* no more conditions, no else *)
        intros G env env' br base HX p vs pre post HP HLen HK HI HM HSS HSD HDp HDo.
        cbn [exec_c] in HX. inversion HX; subst. exists vs. split; [apply reaches_refl|]. split; [rewrite HI, HLen; reflexivity|exact HM].
      * (* the else block *)
        intros G env env' br base HX p vs pre post HP HLen HK HI HM HSS HSD HDp HDo.
        cbn [exec_c] in HX. unfold odepth in HDo.
        match goal with HL0 : LAYL _ eb sty st' _ seg |- _ => destruct (IHl _ eb sty st' _ seg HL0 G env env' br base HX p vs pre post HP) as (vs3 & R3 & I3 & HM3) end; auto; [congruence|apply (mstate_same G st sty); assumption|apply (sym_static_same (csym st)); assumption|apply (slots_distinct_same (csym st)); assumption|].
        exists vs3. split; [exact R3|]. split; [rewrite I3, HI, HLen; reflexivity|].
        apply (mstate_same_back G st sty); assumption.
      * eapply simc_cons; eauto.
    + intros b s3 st' seg HL. apply (simr_step f IHl b s3 st' seg HL (IHr b s3 st' seg HL)).
    + intros b s3 st' seg HL. apply (simi_step f IHl b s3 st' seg HL (IHi b s3 st' seg HL)).
Qed.

(* the loop part of a range loop WITH a loop variable (a global: top level
   only), entered with the loop state on the stack; y is the slot of the loop
   variable *)
Definition LAYRV (rop : opc) (S : N) (b : slist) (y : symbol) (s3 st' : cstate) (seg : list N) : Prop :=
  exists stx stb bs_b seg_b jf jb sg,
    jbytes SetGlobal (sidx y) sg /\
    cconsts stx = cconsts s3 /\ same_resolve (csym stx) (csym s3) /\
    N.of_nat (List.length (ccode stx)) = N.of_nat (List.length (ccode s3)) + 9 /\
    LAYL (Some (N.of_nat (List.length (ccode s3)) + N.of_nat (List.length ([N_of_opc rop; 0; 1] ++ jf ++ sg ++ seg_b ++ jb)))) b stx stb bs_b seg_b /\
    jbytes JumpOnFalse (N.of_nat (List.length (ccode s3)) + N.of_nat (List.length ([N_of_opc rop; 0; 1] ++ jf ++ sg ++ seg_b ++ jb))) jf /\
    jbytes Jump (N.of_nat (List.length (ccode s3))) jb /\
    cconsts st' = cconsts stb /\ csym st' = csym s3 /\
    seg = [N_of_opc rop; 0; 1] ++ jf ++ sg ++ seg_b ++ jb ++ [N_of_opc Drop; 0; S].

Lemma layrv_consts rop S b y s3 st' seg : LAYRV rop S b y s3 st' seg -> exists nr, cconsts st' = cconsts s3 ++ nr.
Proof.
  intros (stx & stb & bs_b & seg_b & jf & jb & sg0 & _ & Kx & _ & _ & LL & _ & _ & Kb & _).
  destruct (proj1 (proj2 lay_frame) _ _ _ _ _ _ LL) as [(nb & Knb) _]. exists nb. rewrite Kb, Knb, Kx. reflexivity.
Qed.

Lemma layrv_loop rop S n b y s3 st' seg : LAYRV rop S b y s3 st' seg -> st_resolve n (csym s3) = Some y ->
  LOOP [N_of_opc rop; 0; 1] S (Some (n, y)) b s3 st' seg.
Proof.
  intros (stx & stb & bs_b & seg_b & jf & jb & sg & HSG & _ & H0 & H1 & H2 & H3 & H4 & H5 & _ & ->) HRy.
  exists stx, stb, bs_b, seg_b, jf, jb, sg. rewrite (jbytes_len _ _ _ HSG). repeat split; auto. lia.
Qed.

Lemma exec_rv_false : forall fuel n idx stp stop b env env' br,
  exec_rv fuel n idx stp stop b env = Some (env', br) -> br = false.
Proof.
  induction fuel as [|f IH]; intros n idx stp stop b env env' br H; [discriminate|]. cbn [exec_rv] in H.
  destruct (going idx stp stop); [|inversion H; reflexivity].
  destruct (exec_l f b (upd env n (VNum idx))) as [[env1 [|]]|]; [inversion H; reflexivity|apply (IH _ _ _ _ _ _ _ _ H)|discriminate].
Qed.

Lemma sim_rv n b y s3 st' seg : LAYRV StepRange 3 b y s3 st' seg -> st_resolve n (csym s3) = Some y ->
  forall fuel G env env' br idx stp stop base, exec_rv fuel n idx stp stop b env = Some (env', br) -> forall p vs pre post,
    pcode p = pre ++ seg ++ post -> List.length pre = List.length (ccode s3) -> consts_of p st' ->
    ip vs = N.of_nat (List.length pre) -> PrimFloat.eqb stp 0 = false ->
    mstate_ok G s3 env (VNum idx :: VNum stp :: VNum stop :: base) vs ->
    sym_static (csym s3) -> slots_distinct (csym s3) ->
    N.of_nat (List.length base) + 5 <= StackSize -> N.of_nat (List.length base) + 3 + ldepth b <= StackSize ->
    exists vs', reaches p vs vs' /\ ip vs' = ip vs + N.of_nat (List.length seg) /\ mstate_ok G s3 env' base vs'.
Proof.
  intros HL HRy. pose proof (layrv_loop _ _ n _ _ _ _ _ HL HRy) as HLoop. destruct (loop_head _ _ _ _ _ _ _ HLoop) as (rest & Eseg).
  induction fuel as [|f IHr]; intros G env env' br idx stp stop base HX p vs pre post HP HLen HK HI HZ HM HSS HSD HD5 HDb; [discriminate|].
  cbn [exec_rv] in HX. pose proof HM as (M1 & M2 & _).
  pose proof (step_steprange_any p vs pre (rest ++ post) 1 idx stp stop base ltac:(rewrite HP, Eseg, <- app_assoc; reflexivity) HI M1 HZ
                ltac:(rewrite M2; simpl; lia)) as HDR.
  pose proof (fun r => range_round f _ _ _ _ _ _ _ (fun T => proj1 (proj2 (sim_all f)) T) HLoop G env env' br r
                         (fun env1 => exec_rv f n (idx + stp)%float stp stop b env1)
                         [VNum (idx + stp)%float; VNum stp; VNum stop] base _ p vs pre post HP HLen HK HI HM HSS HSD eq_refl) as RR.
  assert (CONT : forall env1 vs1, exec_rv f n (idx + stp)%float stp stop b env1 = Some (env', br) -> ip vs1 = ip vs ->
            mstate_ok G s3 env1 ([VNum (idx + stp)%float; VNum stp; VNum stop] ++ base) vs1 ->
            exists vs', reaches p vs1 vs' /\ ip vs' = ip vs1 + N.of_nat (List.length seg) /\ mstate_ok G s3 env' base vs').
  { intros env1 vs1 HX1 I1 HM1. apply (IHr G env1 env' br _ stp stop base HX1 p vs1 pre post HP HLen HK ltac:(rewrite I1; exact HI) HZ HM1 HSS HSD HD5 HDb). }
  destruct (going idx stp stop); [exact (RR (Some (VNum idx)) HDR HDb HX CONT)|exact (RR None HDR HDb HX CONT)].
Qed.

Lemma sim_iv n b y s3 st' seg : LAYRV IterRange 2 b y s3 st' seg -> st_resolve n (csym s3) = Some y ->
  forall fuel G env env' br idx iter base, exec_iv fuel n idx iter b env = Some (env', br) -> forall p vs pre post,
    pcode p = pre ++ seg ++ post -> List.length pre = List.length (ccode s3) -> consts_of p st' ->
    ip vs = N.of_nat (List.length pre) ->
    mstate_ok G s3 env (VNum idx :: iter :: base) vs ->
    sym_static (csym s3) -> slots_distinct (csym s3) ->
    N.of_nat (List.length base) + 4 <= StackSize -> N.of_nat (List.length base) + 2 + ldepth b <= StackSize ->
    exists vs', reaches p vs vs' /\ ip vs' = ip vs + N.of_nat (List.length seg) /\ mstate_ok G s3 env' base vs'.
Proof.
  intros HL HRy. pose proof (layrv_loop _ _ n _ _ _ _ _ HL HRy) as HLoop. destruct (loop_head _ _ _ _ _ _ _ HLoop) as (rest & Eseg).
  induction fuel as [|f IHr]; intros G env env' br idx iter base HX p vs pre post HP HLen HK HI HM HSS HSD HD4 HDb; [discriminate|].
  cbn [exec_iv] in HX. pose proof HM as (M1 & M2 & _).
  destruct (iter_next iter idx) as [r|] eqn:HN; [|discriminate].
  pose proof (step_iterrange_any p vs pre (rest ++ post) 1 idx iter base ltac:(rewrite HP, Eseg, <- app_assoc; reflexivity) HI M1
                ltac:(rewrite M2; simpl; lia) r HN) as HDR.
  pose proof (range_round f _ _ _ _ _ _ _ (fun T => proj1 (proj2 (sim_all f)) T) HLoop G env env' br r (fun env1 => exec_iv f n (idx + 1)%float iter b env1)
                [VNum (idx + 1)%float; iter] base _ p vs pre post HP HLen HK HI HM HSS HSD eq_refl) as RR.
  assert (CONT : forall env1 vs1, exec_iv f n (idx + 1)%float iter b env1 = Some (env', br) -> ip vs1 = ip vs ->
            mstate_ok G s3 env1 ([VNum (idx + 1)%float; iter] ++ base) vs1 ->
            exists vs', reaches p vs1 vs' /\ ip vs' = ip vs1 + N.of_nat (List.length seg) /\ mstate_ok G s3 env' base vs').
  { intros env1 vs1 HX1 I1 HM1. apply (IHr G env1 env' br _ iter base HX1 p vs1 pre post HP HLen HK ltac:(rewrite I1; exact HI) HM1 HSS HSD HD4 HDb). }
  destruct r; exact (RR HDR HDb HX CONT).
Qed.

Lemma patch_bytes pre a h l rest T s s' :
  ccode s = pre ++ a :: h :: l :: rest ->
  patch true (Z.of_nat (List.length pre)) T s = COk s' ->
  (0 <= T < 65536)%Z /\
  exists hi lo, hi * 256 + lo = Z.to_N T /\
    s' = {| ccode := pre ++ a :: hi :: lo :: rest; cconsts := cconsts s; csym := csym s; cbreaks := cbreaks s |}.
Proof.
  intros HC HP. unfold patch, change_operand in HP. destruct (fits16 T) eqn:HF; [|discriminate].
  unfold fits16 in HF. split; [lia|]. destruct (put16_read T ltac:(lia)) as (hi & lo & EP & E).
  exists hi, lo. split; [exact E|]. inversion HP; subst s'. f_equal.
  unfold change_operand_before_fix. rewrite EP, HC.
  replace (N.to_nat (Z.to_N (Z.of_nat (List.length pre)))) with (List.length pre) by lia. apply set_nth_patch.
Qed.

Lemma emit_hole_bytes o st st' : is_jump o = true -> emit true o [JumpPlaceholderZ] st = COk st' ->
  exists h l, st' = {| ccode := ccode st ++ [N_of_opc o; h; l]; cconsts := cconsts st; csym := csym st; cbreaks := cbreaks st |}.
Proof.
  intros HJ H. assert (HO : has_operand o = true) by (destruct o; try discriminate HJ; reflexivity).
  apply emit_ok in H. destruct H as (ins & HM & ->).
  destruct (make_arg_bytes o JumpPlaceholderZ HO ltac:(vm_compute; split; congruence)) as (h & l & HM' & _).
  rewrite HM in HM'. inversion HM'; subst. eauto.
Qed.

Lemma emit_jump_bytes T st st' : emit true Jump [T] st = COk st' ->
  exists jb, jbytes Jump (Z.to_N T) jb /\
    st' = {| ccode := ccode st ++ jb; cconsts := cconsts st; csym := csym st; cbreaks := cbreaks st |}.
Proof.
  intro H. apply emit_ok in H. destruct H as (ins & HM & ->).
  pose proof (make_some_range Jump T ins eq_refl HM) as HR.
  destruct (make_arg_bytes Jump T eq_refl HR) as (hi & lo & HM' & E). rewrite HM in HM'. inversion HM'; subst.
  exists [N_of_opc Jump; hi; lo]. split; [exists hi, lo; auto|reflexivity].
Qed.

Lemma emit_op_bytes o z st st' : has_operand o = true -> emit true o [z] st = COk st' ->
  exists ins, make (N_of_opc o) [z] = Some ins /\ jbytes o (Z.to_N z) ins /\
    st' = {| ccode := ccode st ++ ins; cconsts := cconsts st; csym := csym st; cbreaks := cbreaks st |}.
Proof.
  intros HO H. apply emit_ok in H. destruct H as (ins & HM & ->).
  pose proof (make_some_range o z ins HO HM) as HR.
  destruct (make_arg_bytes o z HO HR) as (hi & lo & HM' & E). rewrite HM in HM'. inversion HM'; subst.
  exists [N_of_opc o; hi; lo]. split; [exact HM|]. split; [exists hi, lo; auto|reflexivity].
Qed.

Lemma set_var_bytes y st1 st' : emit_set_var true y st1 = COk st' ->
  exists sg, jbytes (setop y) (sidx y) sg /\
    st' = {| ccode := ccode st1 ++ sg; cconsts := cconsts st1; csym := csym st1; cbreaks := cbreaks st1 |}.
Proof.
  unfold emit_set_var, setop. intro H. destruct (sscp y); apply emit_op_bytes in H; try reflexivity;
    destruct H as (sg & _ & HJ & ->); rewrite N2Z.id in HJ; eauto.
Qed.

Lemma for_declare_bytes n s3 sa : for_declare true (Some n) s3 = COk sa ->
  exists sg, jbytes (setop (snd (st_define n (csym s3)))) (sidx (snd (st_define n (csym s3)))) sg /\
    sa = {| ccode := (ccode s3 ++ [N_of_opc ONone]) ++ sg; cconsts := cconsts s3;
            csym := fst (st_define n (csym s3)); cbreaks := cbreaks s3 |}.
Proof.
  unfold for_declare. destruct (st_define n (csym s3)) as [sym' y]. cbn [fst snd]. intro H.
  destruct (emit true ONone [] (with_sym sym' s3)) as [s4|] eqn:Ea; [|discriminate]. cbn [bind] in H.
  apply emit_ok in Ea. destruct Ea as (insa & HMa & ->).
  assert (Xa : make (N_of_opc ONone) [] = Some [N_of_opc ONone]) by (vm_compute; reflexivity).
  assert (insa = [N_of_opc ONone]) by congruence. subst insa.
  apply set_var_bytes in H. destruct H as (sg & HJ & ->). exists sg. split; [exact HJ|reflexivity].
Qed.

Lemma patch_all_nil T s : patch_all true [] T s = COk s.
Proof. reflexivity. Qed.

Lemma patch_all_app a b T s : patch_all true (a ++ b) T s = patch_all true a T s >>= patch_all true b T.
Proof.
  unfold patch_all. rewrite fold_left_app.
  destruct (fold_left (fun r p => r >>= patch true p T) a (COk s)) as [s1|e]; [reflexivity|]. cbn [bind]. apply fold_cerr.
Qed.

(* compileWhileStatement patches c.breaks: the pending break jumps of the body
   get their target; nothing else changes *)
Definition PATCHED (T : Z) (bs : list Z) (st : cstate) (seg : list N) (K : list N -> Prop) : Prop :=
  forall x x' pre post, ccode x = pre ++ seg ++ post -> List.length pre = List.length (ccode st) ->
    patch_all true bs T x = COk x' ->
    exists seg', ccode x' = pre ++ seg' ++ post /\ cconsts x' = cconsts x /\ csym x' = csym x /\ cbreaks x' = cbreaks x /\
      List.length seg' = List.length seg /\ K seg'.

Lemma patched_nil T st seg (K : list N -> Prop) : K seg -> PATCHED T [] st seg K.
Proof.
  intros HK x x' pre post HC HLen HP. rewrite patch_all_nil in HP. inversion HP; subst x'. exists seg. repeat split; auto.
Qed.

Lemma patched_app T bs1 bs2 st st1 seg1 seg2 (K1 K2 K : list N -> Prop) :
  PATCHED T bs1 st seg1 K1 -> PATCHED T bs2 st1 seg2 K2 ->
  N.of_nat (List.length (ccode st1)) = N.of_nat (List.length (ccode st)) + N.of_nat (List.length seg1) ->
  (forall s1 s2, List.length s1 = List.length seg1 -> K1 s1 -> K2 s2 -> K (s1 ++ s2)) ->
  PATCHED T (bs1 ++ bs2) st (seg1 ++ seg2) K.
Proof.
  intros H1 H2 e HK x x' pre post HC HLen HP.
  rewrite patch_all_app in HP. destruct (patch_all true bs1 T x) as [x1|] eqn:E1; [|discriminate]. cbn [bind] in HP.
  destruct (H1 x x1 pre (seg2 ++ post)) as (seg1' & C1 & K1' & S1 & B1 & L1 & HK1); auto.
  { rewrite HC, <- app_assoc. reflexivity. }
  destruct (H2 x1 x' (pre ++ seg1') post) as (seg2' & C2 & K2' & S2 & B2 & L2 & HK2); auto.
  { rewrite C1, <- app_assoc. reflexivity. }
  { apply Nat2N.inj. rewrite app_length, L1, e, Nat2N.inj_add, HLen. reflexivity. }
  exists (seg1' ++ seg2'). split; [rewrite C2, <- !app_assoc; reflexivity|].
  split; [congruence|]. split; [congruence|]. split; [congruence|]. split; [rewrite !app_length; congruence|].
  apply HK; assumption.
Qed.

Definition grown (s s' : cstate) (bs : list N) : Prop :=
  ccode s' = ccode s ++ bs /\ cconsts s' = cconsts s /\ csym s' = csym s /\ cbreaks s' = cbreaks s.

(* The end of a loop (compileWhileStatement, compileForStatement).  The body,
   with code seg_b and pending breaks bs_b, was compiled from stx to st4; the
   code of stx is that of sj, the exit jump (its operand still the
   placeholder) and mid.  Then come the jump back, tail, and the patching of
   the exit jump and of the breaks, all to the position behind the jump back.
   K T is what is known of the body's code once its breaks jump to T. *)
Lemma loop_end (K : Z -> list N -> Prop) sj h0 l0 mid stx st4 seg_b bs_b back st5 st6 tail st7 st8 :
  ccode stx = ccode sj ++ [N_of_opc JumpOnFalse; h0; l0] ++ mid ->
  ccode st4 = ccode stx ++ seg_b -> cbreaks st4 = bs_b -> (forall T, PATCHED T bs_b stx seg_b (K T)) ->
  emit true Jump [back] (with_sym (st_pop (csym st4)) st4) = COk st5 -> grown st5 st6 tail ->
  patch true (pos_of sj) (pos_of st5) st6 = COk st7 -> patch_all true (cbreaks st6) (pos_of st5) st7 = COk st8 ->
  exists jf jb seg_b',
    Z.to_N (pos_of st5) = pcof sj + N.of_nat (List.length (jf ++ mid ++ seg_b' ++ jb)) /\
    jbytes JumpOnFalse (Z.to_N (pos_of st5)) jf /\ jbytes Jump (Z.to_N back) jb /\ K (pos_of st5) seg_b' /\
    ccode st8 = ccode sj ++ jf ++ mid ++ seg_b' ++ jb ++ tail /\
    cconsts st8 = cconsts st4 /\ csym st8 = st_pop (csym st4) /\ cbreaks st8 = bs_b.
Proof.
  intros Cx Cb <- HPA E4 (C6 & K6 & S6 & B6) E6 E7.
  apply emit_jump_bytes in E4. destruct E4 as (jb & HJB & ->). cbn [with_sym ccode cconsts csym cbreaks] in *.
  assert (CC : ccode st6 = ccode sj ++ N_of_opc JumpOnFalse :: h0 :: l0 :: (mid ++ seg_b ++ jb ++ tail)).
  { rewrite C6, Cb, Cx, <- !app_assoc. reflexivity. }
  unfold pos_of at 1 in E6.
  destruct (patch_bytes (ccode sj) _ h0 l0 _ _ st6 st7 CC E6) as (HT & hi & lo & EH & ->).
  set (jf := [N_of_opc JumpOnFalse; hi; lo]). rewrite B6 in E7.
  match type of E7 with patch_all _ _ ?T ?x = _ =>
    destruct (HPA T x st8 (ccode sj ++ jf ++ mid) (jb ++ tail)) as (seg_b' & C8 & K8 & S8 & B8 & L8 & HK);
      [cbn [ccode]; unfold jf; rewrite <- !app_assoc; reflexivity|unfold jf; rewrite Cx, !app_length; reflexivity|exact E7|] end.
  cbn [ccode cconsts csym cbreaks] in C8, K8, S8, B8.
  exists jf, jb, seg_b'. split.
  { unfold pos_of, pcof, jf. cbn [ccode]. rewrite Cb, Cx, !app_length, L8. cbn [List.length]. lia. }
  split; [exists hi, lo; auto|]. split; [exact HJB|]. split; [exact HK|].
  split; [rewrite C8, <- !app_assoc; reflexivity|]. split; [congruence|]. split; congruence.
Qed.

Lemma grown_refl s : grown s s [].
Proof. repeat split. rewrite app_nil_r. reflexivity. Qed.

Lemma lay_brk_patch T :
  (forall brk s st st' bs seg, LAY brk s st st' bs seg -> brk = None ->
     PATCHED T bs st seg (fun seg' => LAY (Some (Z.to_N T)) s st st' bs seg')) /\
  (forall brk l st st' bs seg, LAYL brk l st st' bs seg -> brk = None ->
     PATCHED T bs st seg (fun seg' => LAYL (Some (Z.to_N T)) l st st' bs seg')) /\
  (forall brk fin l els st st' End js bs seg, LAYC brk fin l els st st' End js bs seg -> brk = None ->
     PATCHED T bs st seg (fun seg' => LAYC (Some (Z.to_N T)) fin l els st st' End js bs seg')) /\
  (forall b s3 st' S rop seg, LAYR b s3 st' S rop seg -> True).
Proof.
  apply LAY_mutind; intros; try exact I; subst brk.
  - apply patched_nil. eapply lay_assign; eauto.
  - apply patched_nil. constructor.
  - intros x x' pre post HC HLen HP. cbn [bshape] in b. destruct b as (h0 & l0 & ->).
    unfold patch_all in HP. cbn [fold_left bind] in HP. rewrite <- HLen in HP.
    destruct (patch_bytes pre _ h0 l0 post T x x' HC HP) as (HT & hi & lo & EH & ->).
    exists [N_of_opc Jump; hi; lo]. cbn [ccode cconsts csym cbreaks]. repeat split; auto.
    apply lay_break; auto. exists hi, lo. auto.
  - apply patched_nil. eapply lay_while; eauto.
  - apply patched_nil. eapply lay_forstep; eauto.
  - apply patched_nil. eapply lay_foriter; eauto.
  - intros x x' pre post HC HLen HP.
    destruct (H eq_refl x x' pre post HC HLen HP) as (seg' & C' & K' & S' & B' & L' & LY).
    exists seg'. repeat split; auto. eapply lay_if; eauto. rewrite L'. exact LY.
  - apply patched_nil. constructor.
  - apply (patched_app T bs1 bs2 st st1 seg1 seg2 _ _ _ (H eq_refl) (H0 eq_refl) e).
    intros s1 s2 L1 LY1 LY2. eapply layl_cons; eauto. rewrite L1. exact e.
  - apply patched_nil. constructor; assumption.
  - intros x x' pre post HC HLen HP.
    destruct (H eq_refl x x' pre post HC) as (seg' & C' & K' & S' & B' & L' & LY); auto; [congruence|].
    exists seg'. repeat split; auto. eapply layc_nil_else; eauto. rewrite L'. assumption.
  - intros x x' pre post HC HLen HP.
    rewrite patch_all_app in HP. destruct (patch_all true bs_b T x) as [x1|] eqn:E1; [|discriminate]. cbn [bind] in HP.
    pose proof (jbytes_len _ _ _ j) as Ljf.
    pose proof (f_equal (@List.length N) e1) as L1. rewrite app_length in L1.
    pose proof (layl_len _ _ _ _ _ _ l) as LLb.
    destruct (H eq_refl x x1 (pre ++ seg_c ++ jf) (je ++ seg_r ++ post)) as (seg_b' & C1 & K1 & S1 & B1 & Lb & LY1); auto.
    { rewrite HC, <- !app_assoc. reflexivity. }
    { apply Nat2N.inj. rewrite !app_length, Ljf. lia. }
    destruct (H0 eq_refl x1 x' (pre ++ seg_c ++ jf ++ seg_b' ++ je) post) as (seg_r' & C2 & K2 & S2 & B2 & Lr & LY2); auto.
    { rewrite C1, <- !app_assoc. reflexivity. }
    { pose proof (jshape_len _ _ _ j0) as Lje. apply Nat2N.inj. rewrite !app_length, Ljf, Lje, Lb. lia. }
    exists (seg_c ++ jf ++ seg_b' ++ je ++ seg_r'). split; [rewrite C2, <- !app_assoc; reflexivity|].
    split; [congruence|]. split; [congruence|]. split; [congruence|]. split; [rewrite !app_length; congruence|].
    replace (List.length (ccode st) + List.length (seg_c ++ jf ++ seg_b))%nat
      with (List.length (ccode st) + List.length (seg_c ++ jf ++ seg_b'))%nat by (rewrite !app_length, Lb; reflexivity).
    eapply layc_cons; eauto.
    replace (List.length (seg_c ++ jf ++ seg_b' ++ je)) with (List.length (seg_c ++ jf ++ seg_b ++ je)) by (rewrite !app_length, Lb; reflexivity).
    exact j.
Qed.

(* the tables of programs whose blocks declare nothing: every pushed scope
   stays empty (gsym) and every name is a global (has_gb; has_gbw allows locals) *)
Definition gsym (s : symtab) : Prop := nmax (cur s) = 0 /\ (outers s <> [] -> index (cur s) = 0).

Lemma gsym_push s : gsym s -> gsym (st_push s).
Proof.
  intros [H1 H2]. unfold gsym, st_push. cbn [cur outers nmax index]. split; [reflexivity|].
  intros _. destruct (outers s); [reflexivity|]. apply H2. discriminate.
Qed.

Lemma pop_push_id s : gsym s -> st_pop (st_push s) = s.
Proof.
  intros [H1 H2]. unfold st_pop, st_push. cbn [cur outers nmax index store].
  destruct s as [[st idx nm] os]. cbn [cur outers nmax index store] in *. subst nm.
  assert (N.max 0 (0 + match os with [] => 0 | _ :: _ => idx end) = 0).
  { destruct os; [reflexivity|]. rewrite H2 by discriminate. reflexivity. }
  rewrite H. reflexivity.
Qed.

Definition has_gb (s : symtab) : Prop := exists gc0, globals_below s gc0.

Lemma globals_below_push s gc : globals_below s gc -> globals_below (st_push s) gc.
Proof. intros H n y HR. rewrite resolve_push' in HR. apply (H n y HR). Qed.

Lemma has_gb_push s : has_gb s -> has_gb (st_push s).
Proof. intros (g & H). exists g. apply globals_below_push. exact H. Qed.

Lemma top_gsym st : top_ok st -> gsym (csym st) /\ has_gb (csym st).
Proof.
  intros HT. pose proof HT as (HO & HI & HN). split.
  - split; [exact HN|]. rewrite HO. congruence.
  - exists (index (cur (csym st))). apply top_globals. exact HT.
Qed.

Definition LAYOK (s : stmt) (st st' : cstate) : Prop :=
  exists bs seg, LAY None s st st' bs seg /\ ccode st' = ccode st ++ seg /\ cbreaks st' = cbreaks st ++ bs /\ csym st' = csym st.
Definition LAYLOK (l : slist) (st st' : cstate) : Prop :=
  exists bs seg, LAYL None l st st' bs seg /\ ccode st' = ccode st ++ seg /\ cbreaks st' = cbreaks st ++ bs /\ csym st' = csym st.

Definition slist_lay (l : slist) : Prop :=
  forall st st', body_of true l st = COk st' -> gsym (csym st) -> has_gb (csym st) -> LAYLOK l st st'.

Lemma same_resolve_push s : same_resolve (st_push s) s.
Proof. intro n. apply resolve_push'. Qed.

Lemma slist_lay_pushed b s : slist_lay b -> gsym s -> has_gb s ->
  forall stx st4, csym stx = st_push s -> body_of true b stx = COk st4 -> LAYLOK b stx st4.
Proof. intros HB HG HGB stx st4 Sx E. apply (HB _ _ E); rewrite Sx; [apply gsym_push|apply has_gb_push]; assumption. Qed.

(* such a body leaves the table as it found it: popping its scope gives s back *)
Lemma body_pop b s stx st4 : slist_lay b -> gsym s -> has_gb s ->
  csym stx = st_push s -> body_of true b stx = COk st4 -> st_pop (csym st4) = s.
Proof.
  intros HB HG HGB Sx E. destruct (slist_lay_pushed b s HB HG HGB stx st4 Sx E) as (_ & _ & _ & _ & _ & Sb).
  rewrite Sb, Sx. apply pop_push_id, HG.
Qed.

Lemma lay_assign_ok n e st st' : efrag e = true ->
  compile_stmt true (SAssign (EVar n) e) st = COk st' -> has_gb (csym st) -> LAYOK (SAssign (EVar n) e) st st'.
Proof.
  intros HF HC (gc0 & HG0). cbn [compile_stmt] in HC.
  destruct (compile_expr true e st) as [st1|] eqn:E1; [|discriminate]. cbn [bind] in HC.
  destruct (efrag_sl e HF st st1 E1) as (S1 & ops & newc & C & K & _).
  destruct (st_resolve n (csym st1)) as [y|] eqn:ER; [|discriminate]. rewrite S1 in ER.
  destruct (HG0 n y ER) as [SG _].
  destruct (emit_setglobal_run y st1 st' HC SG) as (E1' & E2' & hi & lo & E3' & E4').
  exists [], (encode ops ++ [N_of_opc SetGlobal; hi; lo]). split; [|split; [|split]].
  - eapply lay_assign; eauto; [exists hi, lo; auto|congruence].
  - rewrite E3', C, app_assoc. reflexivity.
  - unfold emit_set_var in HC. rewrite SG in HC. apply emit_breaks in HC. rewrite HC, app_nil_r. apply (efrag_breaks e HF _ _ E1).
  - congruence.
Qed.

(* compileBreakStatement: a jump with the placeholder, its position appended to c.breaks *)
Lemma lay_break_ok st st' : compile_stmt true SBreak st = COk st' -> LAYOK SBreak st st'.
Proof.
  intro HC. cbn [compile_stmt] in HC.
  destruct (emit true Jump [JumpPlaceholderZ] st) as [st1|] eqn:E1; [|discriminate]. cbn [bind] in HC.
  apply emit_hole_bytes in E1; [|reflexivity]. destruct E1 as (h0 & l0 & ->). inversion HC; subst st'; clear HC.
  cbn [with_breaks ccode cconsts csym cbreaks].
  exists [pos_of st], [N_of_opc Jump; h0; l0]. split; [|split; [|split]]; try reflexivity.
  unfold pos_of. apply lay_break; [exists h0, l0; reflexivity|reflexivity|reflexivity].
Qed.

Lemma lay_block b st st' : slist_lay b -> compile_block true b st = COk st' -> gsym (csym st) -> has_gb (csym st) ->
  exists stx stb bs seg, LAYL None b stx stb bs seg /\
    cconsts stx = cconsts st /\ same_resolve (csym stx) (csym st) /\ ccode stx = ccode st /\
    ccode st' = ccode st ++ seg /\ ccode stb = ccode st' /\ cconsts st' = cconsts stb /\
    cbreaks st' = cbreaks st ++ bs /\ csym st' = csym st.
Proof.
  intros HB HC HG HGB. rewrite compile_block_body in HC.
  destruct (body_of true b (with_sym (st_push (csym st)) st)) as [st3|] eqn:E; [|discriminate]. cbn [bind] in HC.
  inversion HC; subst st'; clear HC.
  destruct (HB _ _ E) as (bs & seg & L & C & B & S); cbn [with_sym csym]; [apply gsym_push; exact HG|apply has_gb_push; exact HGB|].
  cbn [with_sym ccode cconsts csym cbreaks] in *.
  exists (with_sym (st_push (csym st)) st), st3, bs, seg. cbn [with_sym ccode cconsts csym cbreaks].
  split; [exact L|]. split; [reflexivity|]. split; [apply same_resolve_push|]. split; [reflexivity|].
  split; [exact C|]. split; [reflexivity|]. split; [reflexivity|]. split; [exact B|].
  rewrite S. apply pop_push_id. exact HG.
Qed.

(* What the layout lemmas below need of a description P of the compiled body
   of a block b: it holds of the body as the compiler leaves it in a scope
   pushed on s, the breaks bs still pending (body_lay), and it passes through
   the patching of those breaks (patchable). *)
Definition body_lay (P : option N -> cstate -> cstate -> list Z -> list N -> Prop) (b : slist) (s : symtab) : Prop :=
  forall stx st4, csym stx = st_push s -> body_of true b stx = COk st4 ->
    exists bs seg, P None stx st4 bs seg /\ ccode st4 = ccode stx ++ seg /\ cbreaks st4 = cbreaks stx ++ bs.
Definition patchable (P : option N -> cstate -> cstate -> list Z -> list N -> Prop) : Prop :=
  forall T stx st4 bs seg, P None stx st4 bs seg -> PATCHED T bs stx seg (fun seg' => P (Some (Z.to_N T)) stx st4 bs seg').

Lemma lay_patchable b : patchable (fun brk => LAYL brk b).
Proof. intros T stx st4 bs seg L. apply (proj1 (proj2 (lay_brk_patch T)) _ _ _ _ _ _ L eq_refl). Qed.

Lemma slist_lay_body b s : slist_lay b -> gsym s -> has_gb s -> body_lay (fun brk => LAYL brk b) b s.
Proof.
  intros HB HG HGB stx st4 Sx E. destruct (slist_lay_pushed b s HB HG HGB stx st4 Sx E) as (bs & seg & L & C & B & _). eauto.
Qed.

(* compileWhileStatement: condition; exit jump; body, its breaks going to the
   end; jump back to the condition *)
Lemma while_lay (P : option N -> cstate -> cstate -> list Z -> list N -> Prop) c b st st' :
  efrag c = true -> compile_stmt true (SWhile c b) st = COk st' -> body_lay P b (csym st) -> patchable P ->
  exists st1 stx st4 bs_b seg_c seg_b jf jb,
    compile_expr true c st = COk st1 /\ ccode st1 = ccode st ++ seg_c /\
    cconsts stx = cconsts st1 /\ csym stx = st_push (csym st) /\ body_of true b stx = COk st4 /\
    N.of_nat (List.length (ccode stx)) = N.of_nat (List.length (ccode st1)) + 3 /\
    P (Some (pcof st + N.of_nat (List.length (seg_c ++ jf ++ seg_b ++ jb)))) stx st4 bs_b seg_b /\
    jbytes JumpOnFalse (pcof st + N.of_nat (List.length (seg_c ++ jf ++ seg_b ++ jb))) jf /\ jbytes Jump (pcof st) jb /\
    ccode st' = ccode st ++ seg_c ++ jf ++ seg_b ++ jb /\
    cconsts st' = cconsts st4 /\ csym st' = st_pop (csym st4) /\ cbreaks st' = cbreaks st.
Proof.
  intros HF HC HB HPAT. cbn [compile_stmt] in HC.
  destruct (compile_expr true c st) as [st1|] eqn:E1; [|discriminate]. cbn [bind] in HC.
  destruct (emit true JumpOnFalse [JumpPlaceholderZ] st1) as [st2|] eqn:E2; [|discriminate]. cbn [bind] in HC.
  rewrite compile_block_body in HC.
  destruct (body_of true b (with_sym (st_push (csym (with_breaks [] st2))) (with_breaks [] st2))) as [st4|] eqn:E3; [|discriminate]. cbn [bind] in HC.
  destruct (emit true Jump [pos_of st] (with_sym (st_pop (csym st4)) st4)) as [st5|] eqn:E4; [|discriminate]. cbn [bind] in HC.
  destruct (patch true (pos_of st1) (pos_of st5) st5) as [st6|] eqn:E5; [|discriminate]. cbn [bind] in HC.
  destruct (patch_all true (cbreaks st5) (pos_of st5) st6) as [st7|] eqn:E6; [|discriminate]. cbn [bind] in HC.
  inversion HC; subst st'; clear HC.
  destruct (efrag_sl c HF st st1 E1) as (S1 & ops & newc & C & K & _).
  pose proof (efrag_breaks c HF _ _ E1) as B1.
  apply emit_hole_bytes in E2; [|reflexivity]. destruct E2 as (h0 & l0 & ->). cbn [with_breaks csym] in E3.
  match type of E3 with body_of _ _ ?x = _ => set (stx := x) in * end.
  destruct (HB stx st4 ltac:(unfold stx; cbn [with_sym csym]; rewrite S1; reflexivity) E3) as (bs_b & seg_b & L & Cb & Bb).
  destruct (loop_end (fun T seg' => P (Some (Z.to_N T)) stx st4 bs_b seg') st1 h0 l0 [] stx st4 seg_b bs_b _ st5 st5 [] st6 st7
              eq_refl Cb Bb (fun T => HPAT T _ _ _ _ L) E4 (grown_refl st5) E5 E6)
    as (jf & jb & seg_b' & ET & HJF & HJB & L' & C7 & K7 & S7 & B7).
  cbn [app] in ET, C7. rewrite app_nil_r in C7. rewrite pos_pcof, N2Z.id in HJB.
  assert (ET' : Z.to_N (pos_of st5) = pcof st + N.of_nat (List.length (encode ops ++ jf ++ seg_b' ++ jb))).
  { rewrite ET. unfold pcof. rewrite C, !app_length. lia. }
  rewrite ET' in HJF, L'.
  exists st1, stx, st4, bs_b, (encode ops), seg_b', jf, jb. cbn [with_breaks ccode cconsts csym cbreaks].
  split; [reflexivity|]. split; [exact C|]. split; [reflexivity|].
  split; [unfold stx; cbn [with_sym csym]; rewrite S1; reflexivity|]. split; [exact E3|].
  split; [unfold stx; cbn [with_sym with_breaks ccode]; rewrite app_length; cbn [List.length]; lia|].
  split; [exact L'|]. split; [exact HJF|]. split; [exact HJB|].
  split; [rewrite C7, C, <- !app_assoc; reflexivity|]. auto.
Qed.

Lemma lay_while_ok c b st st' : efrag c = true -> slist_lay b ->
  compile_stmt true (SWhile c b) st = COk st' -> gsym (csym st) -> has_gb (csym st) -> LAYOK (SWhile c b) st st'.
Proof.
  intros HF HB HC HG HGB.
  destruct (while_lay (fun brk => LAYL brk b) c b st st' HF HC (slist_lay_body b _ HB HG HGB) (lay_patchable b))
    as (st1 & stx & st4 & bs_b & seg_c & seg_b & jf & jb & E1 & C & Kx & Sx & E3 & Lx & L & HJF & HJB & C' & K' & S' & B').
  assert (SE : csym st' = csym st) by (rewrite S'; apply (body_pop b _ stx st4 HB HG HGB Sx E3)).
  exists [], (seg_c ++ jf ++ seg_b ++ jb). split; [|split; [exact C'|split; [rewrite app_nil_r; exact B'|exact SE]]].
  apply (lay_while None c b st st1 stx st4 st' bs_b seg_c seg_b jf jb HF E1 C Kx); auto.
  rewrite Sx. apply same_resolve_push.
Qed.

(* the loop part of a range loop (compileForStatement after the declaration
   of the loop variable): range op; exit jump to the OpDrop; the store of the
   loop variable, if any; the body, its breaks going to the OpDrop too; the
   jump back to the range op; OpDrop S *)
Lemma for_loop_lay (P : option N -> cstate -> cstate -> list Z -> list N -> Prop) rop S lv b s3 sa st' :
  range_op rop S -> for_declare true lv s3 = COk sa -> for_loop true lv rop (Z.of_N S) b s3 = COk st' ->
  body_lay P b (csym sa) -> patchable P ->
  exists stx st4 bs_b seg_b jf jb sgv,
    match lv with
    | Some n => exists y, st_resolve n (csym sa) = Some y /\ jbytes (setop y) (sidx y) sgv
    | None => sgv = []
    end /\
    cconsts stx = cconsts sa /\ csym stx = st_push (csym sa) /\ body_of true b stx = COk st4 /\
    N.of_nat (List.length (ccode stx)) = pcof sa + 6 + N.of_nat (List.length sgv) /\
    P (Some (pcof sa + N.of_nat (List.length ([N_of_opc rop; 0; hvN lv] ++ jf ++ sgv ++ seg_b ++ jb)))) stx st4 bs_b seg_b /\
    jbytes JumpOnFalse (pcof sa + N.of_nat (List.length ([N_of_opc rop; 0; hvN lv] ++ jf ++ sgv ++ seg_b ++ jb))) jf /\
    jbytes Jump (pcof sa) jb /\
    ccode st' = ccode sa ++ [N_of_opc rop; 0; hvN lv] ++ jf ++ sgv ++ seg_b ++ jb ++ [N_of_opc Drop; 0; S] /\
    cconsts st' = cconsts st4 /\ csym st' = st_pop (csym st4) /\ cbreaks st' = cbreaks sa.
Proof.
  intros HRO HDecl HC HB HPAT. rewrite for_loop_body, HDecl in HC. cbn [bind] in HC.
  assert (X1 : make (N_of_opc rop) [match lv with Some _ => 1%Z | None => 0%Z end] = Some [N_of_opc rop; 0; hvN lv])
    by (destruct HRO as [[-> ->]|[-> ->]]; destruct lv; vm_compute; reflexivity).
  assert (X5 : make (N_of_opc Drop) [Z.of_N S] = Some [N_of_opc Drop; 0; S]) by (destruct HRO as [[-> ->]|[-> ->]]; vm_compute; reflexivity).
  destruct (emit true rop _ sa) as [st2|] eqn:E1; [|discriminate]. cbn [bind] in HC.
  destruct (emit true JumpOnFalse [JumpPlaceholderZ] st2) as [st2'|] eqn:E2; [|discriminate]. cbn [bind] in HC.
  destruct (for_assign true lv st2') as [st3|] eqn:E2a; [|discriminate]. cbn [bind] in HC.
  destruct (body_of true b (with_sym (st_push (csym st3)) (with_breaks [] st3))) as [st4|] eqn:E3; [|discriminate]. cbn [bind] in HC.
  destruct (emit true Jump [pos_of sa] (with_sym (st_pop (csym st4)) st4)) as [st5|] eqn:E4; [|discriminate]. cbn [bind] in HC.
  destruct (emit true Drop [Z.of_N S] st5) as [st6|] eqn:E5; [|discriminate]. cbn [bind] in HC.
  destruct (patch true (pos_of st2) (pos_of st5) st6) as [st7|] eqn:E6; [|discriminate]. cbn [bind] in HC.
  destruct (patch_all true (cbreaks st6) (pos_of st5) st7) as [st8|] eqn:E7; [|discriminate]. cbn [bind] in HC.
  inversion HC; subst st'; clear HC.
  apply emit_ok in E1. destruct E1 as (ins1 & HM1 & ->). rewrite X1 in HM1. inversion HM1; subst ins1; clear X1 HM1.
  apply emit_hole_bytes in E2; [|reflexivity]. destruct E2 as (h0 & l0 & ->). cbn [ccode cconsts csym cbreaks] in *.
  set (sr := [N_of_opc rop; 0; hvN lv]) in *.
  (* the store of the loop variable *)
  assert (HSGV : exists sgv, match lv with
                             | Some n => exists y, st_resolve n (csym sa) = Some y /\ jbytes (setop y) (sidx y) sgv
                             | None => sgv = []
                             end /\
            st3 = {| ccode := ((ccode sa ++ sr) ++ [N_of_opc JumpOnFalse; h0; l0]) ++ sgv; cconsts := cconsts sa; csym := csym sa; cbreaks := cbreaks sa |}).
  { unfold for_assign in E2a. destruct lv as [n|].
    - cbn [csym] in E2a. destruct (st_resolve n (csym sa)) as [y|] eqn:HRy; [|discriminate].
      apply set_var_bytes in E2a. destruct E2a as (sg & HJ & ->). exists sg. cbn [ccode cconsts csym cbreaks]. eauto.
    - inversion E2a; subst st3. exists []. split; [reflexivity|]. rewrite app_nil_r. reflexivity. }
  destruct HSGV as (sgv & HLV & ->). cbn [ccode cconsts csym cbreaks] in *.
  match type of E3 with body_of _ _ ?x = _ => set (stx := x) in * end.
  destruct (HB stx st4 eq_refl E3) as (bs_b & seg_b & L & Cb & Bb).
  apply emit_ok in E5. destruct E5 as (ins5 & HM5 & ->). rewrite X5 in HM5. inversion HM5; subst ins5; clear X5 HM5.
  set (dr := [N_of_opc Drop; 0; S]) in *.
  match type of E6 with patch _ (pos_of ?x) _ ?y = _ => set (s2 := x) in *; set (st6 := y) in * end.
  destruct (loop_end (fun T seg' => P (Some (Z.to_N T)) stx st4 bs_b seg') s2 h0 l0 sgv stx st4 seg_b bs_b _ st5 st6 dr st7 st8
              ltac:(unfold stx, s2; cbn [with_sym with_breaks ccode]; rewrite <- !app_assoc; reflexivity)
              Cb Bb (fun T => HPAT T _ _ _ _ L) E4 ltac:(repeat split) E6 E7)
    as (jf & jb & seg_b' & ET & HJF & HJB & L' & C8 & K8 & S8 & B8).
  rewrite pos_pcof, N2Z.id in HJB.
  assert (ET' : Z.to_N (pos_of st5) = pcof sa + N.of_nat (List.length (sr ++ jf ++ sgv ++ seg_b' ++ jb))).
  { rewrite ET. unfold pcof, s2, sr. cbn [ccode]. rewrite !app_length. cbn [List.length]. lia. }
  rewrite ET' in HJF, L'.
  exists stx, st4, bs_b, seg_b', jf, jb, sgv. cbn [with_breaks ccode cconsts csym cbreaks].
  split; [exact HLV|]. split; [reflexivity|]. split; [reflexivity|]. split; [exact E3|].
  split; [unfold stx, pcof, sr; cbn [with_sym with_breaks ccode]; rewrite !app_length; cbn [List.length]; lia|].
  split; [exact L'|]. split; [exact HJF|]. split; [exact HJB|].
  split; [rewrite C8; unfold s2; cbn [ccode]; rewrite <- !app_assoc; reflexivity|]. auto.
Qed.

Lemma lay_loop rop S lv b s3 sa st' : range_op rop S -> slist_lay b ->
  for_declare true lv s3 = COk sa -> for_loop true lv rop (Z.of_N S) b s3 = COk st' -> gsym (csym sa) -> has_gb (csym sa) ->
  exists stx st4 bs_b seg_b jf jb sgv,
    match lv with
    | Some n => exists y, st_resolve n (csym sa) = Some y /\ jbytes (setop y) (sidx y) sgv
    | None => sgv = []
    end /\
    cconsts stx = cconsts sa /\ same_resolve (csym stx) (csym sa) /\
    N.of_nat (List.length (ccode stx)) = pcof sa + 6 + N.of_nat (List.length sgv) /\
    LAYL (Some (pcof sa + N.of_nat (List.length ([N_of_opc rop; 0; hvN lv] ++ jf ++ sgv ++ seg_b ++ jb)))) b stx st4 bs_b seg_b /\
    jbytes JumpOnFalse (pcof sa + N.of_nat (List.length ([N_of_opc rop; 0; hvN lv] ++ jf ++ sgv ++ seg_b ++ jb))) jf /\
    jbytes Jump (pcof sa) jb /\
    ccode st' = ccode sa ++ [N_of_opc rop; 0; hvN lv] ++ jf ++ sgv ++ seg_b ++ jb ++ [N_of_opc Drop; 0; S] /\
    cconsts st' = cconsts st4 /\ csym st' = csym sa /\ cbreaks st' = cbreaks sa.
Proof.
  intros HRO HB HD HC HG HGB.
  destruct (for_loop_lay (fun brk => LAYL brk b) rop S lv b s3 sa st' HRO HD HC (slist_lay_body b _ HB HG HGB) (lay_patchable b))
    as (stx & st4 & bs_b & seg_b & jf & jb & sgv & HLV & Kx & Sx & E3 & Lx & L & HJF & HJB & C' & K' & S' & B').
  exists stx, st4, bs_b, seg_b, jf, jb, sgv. repeat (split; [assumption|]).
  split; [rewrite Sx; apply same_resolve_push|]. repeat (split; [assumption|]).
  split; [rewrite S'; apply (body_pop b _ stx st4 HB HG HGB Sx E3)|exact B'].
Qed.

Lemma layr_ok rop S b s3 st' : range_op rop S -> slist_lay b ->
  for_loop true None rop (Z.of_N S) b s3 = COk st' -> gsym (csym s3) -> has_gb (csym s3) ->
  exists seg_r, LAYR b s3 st' S rop seg_r /\ ccode st' = ccode s3 ++ seg_r /\
                cbreaks st' = cbreaks s3 /\ csym st' = csym s3.
Proof.
  intros HRO HB HC HG HGB.
  destruct (lay_loop rop S None b s3 s3 st' HRO HB eq_refl HC HG HGB)
    as (stx & st4 & bs_b & seg_b & jf & jb & sgv & -> & Kx & Sx & Lx & L & HJF & HJB & C' & K' & S' & B').
  exists ([N_of_opc rop; 0; 0] ++ jf ++ seg_b ++ jb ++ [N_of_opc Drop; 0; S]). split; [|auto].
  apply (layr rop S b s3 stx st4 st' bs_b seg_b jf jb Kx Sx); auto. rewrite Lx. unfold pcof. cbn [List.length]. lia.
Qed.

Lemma lay_foriter_ok t e b st st' :
  (t = TStr \/ t = TArr \/ t = TMap) -> efrag e = true -> slist_lay b ->
  compile_stmt true (SForIter None t e b) st = COk st' -> gsym (csym st) -> has_gb (csym st) ->
  LAYOK (SForIter None t e b) st st'.
Proof.
  intros Ht F HB HC' HG HGB. rewrite (compile_foriter_eq _ _ _ _ _ Ht) in HC'.
  destruct (compile_expr true e st) as [s1|] eqn:E1; [|discriminate]. cbn [bind] in HC'.
  destruct (emit_const true (KNum 0) s1) as [s2|] eqn:E2; [|discriminate]. cbn [bind] in HC'.
  destruct (efrag_sl _ F st s1 E1) as (S1 & o1 & c1 & C1 & K1 & _). pose proof (efrag_breaks _ F _ _ E1) as B1.
  destruct (const_correct _ _ _ E2) as (S2 & segk & C2 & K2 & _).
  assert (B2 : cbreaks s2 = cbreaks s1) by (unfold emit_const in E2; apply emit_breaks in E2; exact E2).
  change 2%Z with (Z.of_N 2) in HC'.
  destruct (layr_ok IterRange 2 b s2 st' (or_intror (conj eq_refl eq_refl)) HB HC') as (seg_r & LR & CR & BR & SR);
    [rewrite S2, S1; exact HG|rewrite S2, S1; exact HGB|].
  exists [], (encode o1 ++ segk ++ seg_r). split; [|split; [|split]].
  - eapply lay_foriter; eauto.
  - rewrite CR, C2, C1, <- !app_assoc. reflexivity.
  - rewrite app_nil_r. congruence.
  - congruence.
Qed.

(* `for n := range …` at top level: the prologue (define n; OpNone; OpSetGlobal)
   and the loop part *)
Lemma layrv_ok rop S n b s3 st' : range_op rop S -> slist_lay b -> top_ok s3 ->
  for_loop true (Some n) rop (Z.of_N S) b s3 = COk st' ->
  let sym' := fst (st_define n (csym s3)) in let y := snd (st_define n (csym s3)) in
  top_ok (with_sym sym' s3) /\ sscp y = GlobalScope /\ st_resolve n sym' = Some y /\
  exists sg seg_r,
    jbytes SetGlobal (sidx y) sg /\
    LAYRV rop S b y {| ccode := (ccode s3 ++ [N_of_opc ONone]) ++ sg; cconsts := cconsts s3; csym := sym'; cbreaks := cbreaks s3 |} st' seg_r /\
    ccode st' = ccode s3 ++ [N_of_opc ONone] ++ sg ++ seg_r /\ cbreaks st' = cbreaks s3 /\ csym st' = sym'.
Proof.
  intros HRO HB HT HC sym' y. pose proof HT as (HO & HI & HN).
  destruct (define_frame n (csym s3)) as (F1 & F2 & F3). fold sym' in F1, F2, F3.
  pose proof (inv_define n (csym s3) HI) as HI'. fold sym' in HI'.
  pose proof (define_then_resolve (csym s3) n) as DR. fold sym' y in DR.
  assert (HO' : outers sym' = []) by congruence.
  destruct (sym_top_globals _ HO' HI' _ _ DR) as [SG SI].
  assert (HT' : top_ok (with_sym sym' s3)) by (repeat split; cbn [with_sym csym]; auto; congruence).
  destruct (top_gsym _ HT') as [HG' HGB']. cbn [with_sym csym] in HG', HGB'.
  split; [exact HT'|]. split; [exact SG|]. split; [exact DR|].
  assert (HD : exists sa, for_declare true (Some n) s3 = COk sa).
  { rewrite for_loop_body in HC. destruct (for_declare true (Some n) s3) as [sa|]; [eauto|discriminate]. }
  destruct HD as (sa & HD). destruct (for_declare_bytes n s3 sa HD) as (sg & HSG & Esa). fold sym' y in HSG, Esa.
  unfold setop in HSG. rewrite SG in HSG.
  destruct (lay_loop rop S (Some n) b s3 sa st' HRO HB HD HC ltac:(rewrite Esa; exact HG') ltac:(rewrite Esa; exact HGB'))
    as (stx & st4 & bs_b & seg_b & jf & jb & sgv & (y' & HRy & HSGV) & Kx & Sx & Lx & L & HJF & HJB & C' & K' & S' & B').
  assert (y' = y) by (rewrite Esa in HRy; cbn [csym] in HRy; congruence). subst y'.
  unfold setop in HSGV. rewrite SG in HSGV. pose proof (jbytes_len _ _ _ HSGV) as Lsg.
  subst sa. unfold pcof in *. cbn [ccode cconsts csym cbreaks hvN] in *.
  exists sg, ([N_of_opc rop; 0; 1] ++ jf ++ sgv ++ seg_b ++ jb ++ [N_of_opc Drop; 0; S]).
  split; [exact HSG|]. split; [|split; [rewrite C', <- !app_assoc; reflexivity|auto]].
  exists stx, st4, bs_b, seg_b, jf, jb, sgv. cbn [ccode cconsts csym]. repeat (split; [assumption|]).
  split; [rewrite Lx, Lsg; lia|]. repeat (split; [assumption|]). reflexivity.
Qed.

Lemma lay_forstep_ok start stop step b st st' :
  ofrag start = true -> efrag stop = true -> ofrag step = true -> slist_lay b ->
  compile_stmt true (SForStep None start stop step b) st = COk st' -> gsym (csym st) -> has_gb (csym st) ->
  LAYOK (SForStep None start stop step b) st st'.
Proof.
  intros F1 F2 F3 HB HC HG HGB. cbn [compile_stmt] in HC.
  pose proof (ofrag_expr step 1 F3) as F3'. pose proof (ofrag_expr start 0 F1) as F1'.
  destruct (compile_expr true stop st) as [s1|] eqn:E1; [|discriminate]. cbn [bind] in HC.
  destruct (compile_expr true (match step with OSome e => e | ONoneE => ENum 1 end) s1) as [s2|] eqn:E2; [|discriminate]. cbn [bind] in HC.
  destruct (compile_expr true (match start with OSome e => e | ONoneE => ENum 0 end) s2) as [s3|] eqn:E3; [|discriminate]. cbn [bind] in HC.
  destruct (efrag_sl _ F2 st s1 E1) as (S1 & o1 & c1 & C1 & K1 & _). pose proof (efrag_breaks _ F2 _ _ E1) as B1.
  destruct (efrag_sl _ F3' s1 s2 E2) as (S2 & o2 & c2 & C2 & K2 & _). pose proof (efrag_breaks _ F3' _ _ E2) as B2.
  destruct (efrag_sl _ F1' s2 s3 E3) as (S3 & o3 & c3 & C3 & K3 & _). pose proof (efrag_breaks _ F1' _ _ E3) as B3.
  destruct (layr_ok StepRange 3 b s3 st' (or_introl (conj eq_refl eq_refl)) HB HC) as (seg_r & LR & CR & BR & SR);
    [rewrite S3, S2, S1; exact HG|rewrite S3, S2, S1; exact HGB|].
  exists [], (encode o1 ++ encode o2 ++ encode o3 ++ seg_r). split; [|split; [|split]].
  - eapply lay_forstep; eauto.
  - rewrite CR, C3, C2, C1, <- !app_assoc. reflexivity.
  - rewrite app_nil_r. congruence.
  - congruence.
Qed.

(* one `cond / block` (compileConditionalBlock): condition; jump over the
   block; block; a jump whose operand is still the placeholder (it will go to
   the end of the chain) *)
Lemma cond_block_lay (P : option N -> cstate -> cstate -> list Z -> list N -> Prop) c b st st1 :
  efrag c = true -> compile_cond true c b st = COk st1 -> body_lay P b (csym st) ->
  exists ste stx st3 bs_b seg_c seg_b jf je,
    compile_expr true c st = COk ste /\ ccode ste = ccode st ++ seg_c /\
    cconsts stx = cconsts ste /\ csym stx = st_push (csym st) /\ body_of true b stx = COk st3 /\
    N.of_nat (List.length (ccode stx)) = N.of_nat (List.length (ccode ste)) + 3 /\
    P None stx st3 bs_b seg_b /\
    jbytes JumpOnFalse (pcof st + N.of_nat (List.length (seg_c ++ jf ++ seg_b ++ je))) jf /\ (forall End, jshape false End je) /\
    cconsts st1 = cconsts st3 /\ csym st1 = st_pop (csym st3) /\
    N.of_nat (List.length (ccode st1)) = N.of_nat (List.length (ccode st3)) + 3 /\
    ccode st1 = ccode st ++ seg_c ++ jf ++ seg_b ++ je /\ cbreaks st1 = cbreaks st ++ bs_b /\
    (pos_of st1 - 3)%Z = Z.of_nat (List.length (ccode st) + List.length (seg_c ++ jf ++ seg_b)).
Proof.
  intros HF HC HB. rewrite compile_cond_body in HC.
  destruct (compile_expr true c st) as [ste|] eqn:E1; [|discriminate]. cbn [bind] in HC.
  destruct (emit true JumpOnFalse [JumpPlaceholderZ] ste) as [st2|] eqn:E2; [|discriminate]. cbn [bind] in HC.
  destruct (body_of true b (with_sym (st_push (csym st2)) st2)) as [st3|] eqn:E3; [|discriminate]. cbn [bind] in HC.
  destruct (emit true Jump [JumpPlaceholderZ] (with_sym (st_pop (csym st3)) st3)) as [st4|] eqn:E4; [|discriminate]. cbn [bind] in HC.
  rename HC into E5.
  destruct (efrag_sl c HF st ste E1) as (S1 & ops & newc & C & K & _).
  pose proof (efrag_breaks c HF _ _ E1) as B1.
  apply emit_hole_bytes in E2; [|reflexivity]. destruct E2 as (h0 & l0 & ->). cbn [csym] in E3.
  match type of E3 with body_of _ _ ?x = _ => set (stx := x) in * end.
  destruct (HB stx st3 ltac:(unfold stx; cbn [with_sym csym]; rewrite S1; reflexivity) E3) as (bs_b & seg_b & L & Cb & Bb).
  unfold stx in Cb, Bb. cbn [with_sym ccode cbreaks] in Cb, Bb.
  apply emit_hole_bytes in E4; [|reflexivity]. destruct E4 as (h1 & l1 & ->). cbn [with_sym ccode cconsts csym cbreaks] in *.
  set (je := [N_of_opc Jump; h1; l1]) in *.
  assert (C4 : ccode st3 ++ je = ccode ste ++ N_of_opc JumpOnFalse :: h0 :: l0 :: (seg_b ++ je)).
  { rewrite Cb, <- !app_assoc. reflexivity. }
  unfold pos_of at 1 in E5.
  match type of E5 with patch _ _ ?T0 ?s0 = _ =>
    destruct (patch_bytes (ccode ste) _ h0 l0 (seg_b ++ je) T0 s0 st1 C4 E5) as (HT & hi & lo & EH & ->) end.
  cbn [ccode cconsts csym cbreaks].
  set (jf := [N_of_opc JumpOnFalse; hi; lo]) in *.
  exists ste, stx, st3, bs_b, (encode ops), seg_b, jf, je.
  split; [reflexivity|]. split; [exact C|]. split; [reflexivity|].
  split; [unfold stx; cbn [with_sym csym]; rewrite S1; reflexivity|]. split; [exact E3|].
  split; [unfold stx; cbn [with_sym ccode]; rewrite app_length; cbn [List.length]; lia|]. split; [exact L|].
  split.
  { exists hi, lo. split; [reflexivity|]. rewrite EH. unfold pos_of, pcof. cbn [ccode]. rewrite C4, C. unfold jf, je.
    rewrite ?app_length; simpl List.length; rewrite ?app_length; simpl List.length; lia. }
  split; [intro End; exists h1, l1; reflexivity|]. split; [reflexivity|]. split; [reflexivity|].
  split; [unfold je; rewrite Cb, ?app_length; simpl List.length; rewrite ?app_length; simpl List.length; lia|].
  split; [unfold jf; rewrite C, <- !app_assoc; reflexivity|]. split; [rewrite Bb, B1; reflexivity|].
  unfold pos_of, jf, je. cbn [ccode]. rewrite C. rewrite ?app_length; simpl List.length; rewrite ?app_length; simpl List.length; lia.
Qed.

(* a builder for the head of a chain whose end jump still holds the placeholder *)
Lemma cond_lay c b st st1 : efrag c = true -> slist_lay b ->
  compile_cond true c b st = COk st1 -> gsym (csym st) -> has_gb (csym st) ->
  csym st1 = csym st /\
  exists bs_h segh, cbreaks st1 = cbreaks st ++ bs_h /\ ccode st1 = ccode st ++ segh /\
    forall t els st' End js bs_r seg_r, LAYC None false t els st1 st' End js bs_r seg_r ->
      LAYC None false (CCons c b t) els st st' End ((pos_of st1 - 3)%Z :: js) (bs_h ++ bs_r) (segh ++ seg_r).
Proof.
  intros HF HB HC HG HGB.
  destruct (cond_block_lay (fun brk => LAYL brk b) c b st st1 HF HC (slist_lay_body b _ HB HG HGB))
    as (ste & stx & st3 & bs_b & seg_c & seg_b & jf & je & E1 & C & Kx & Sx & E3 & Lx & L & HJF & HJE & K1 & S1 & L1 & C1 & B1 & EJ).
  assert (Sc : csym st1 = csym st) by (rewrite S1; apply (body_pop b _ stx st3 HB HG HGB Sx E3)).
  split; [exact Sc|]. exists bs_b, (seg_c ++ jf ++ seg_b ++ je). split; [exact B1|]. split; [exact C1|].
  intros t els st' End js bs_r seg_r HT2. rewrite EJ, <- !app_assoc.
  apply (layc_cons None false c b t els st ste stx st3 st1 st' End js bs_b bs_r seg_c seg_b jf je seg_r HF E1 C Kx); auto.
  - rewrite Sx. apply same_resolve_push.
  - apply same_resolve_eq. exact Sc.
Qed.

Fixpoint clist_ok (l : clist) : Prop :=
  match l with CNil => True | CCons c b t => efrag c = true /\ slist_lay b /\ clist_ok t end.

(* the else-if blocks: the chain up to its (still unknown) tail *)
Lemma elifs_lay : forall l, clist_ok l -> forall jumps st st2 js',
  compile_elifs true l jumps st = (COk st2, js') -> gsym (csym st) -> has_gb (csym st) ->
  csym st2 = csym st /\
  exists js bs seg, js' = jumps ++ js /\ ccode st2 = ccode st ++ seg /\ cbreaks st2 = cbreaks st ++ bs /\
    forall els st' End bs_e seg_e, LAYC None false CNil els st2 st' End [] bs_e seg_e ->
      LAYC None false l els st st' End js (bs ++ bs_e) (seg ++ seg_e).
Proof.
  induction l as [|c b t IH]; intros HOK jumps st st2 js' HC HG HGB.
  - cbn [compile_elifs] in HC. inversion HC; subst. split; [reflexivity|].
    exists [], [], []. split; [rewrite app_nil_r; reflexivity|]. split; [rewrite app_nil_r; reflexivity|]. split; [rewrite app_nil_r; reflexivity|].
    intros els st' End bs_e seg_e HT. exact HT.
  - destruct HOK as (HF & HB & HOK). cbn [compile_elifs] in HC.
    destruct (compile_cond true c b st) as [st1|] eqn:E1; [|inversion HC].
    destruct (cond_lay c b st st1 HF HB E1 HG HGB) as (S1 & bs_h & segh & B1 & C1 & BUILD).
    destruct (IH HOK _ _ _ _ HC) as (S2 & js & bs & seg & EJ & C2 & B2 & TAIL); [rewrite S1; exact HG|rewrite S1; exact HGB|].
    split; [congruence|].
    exists ((pos_of st1 - 3)%Z :: js), (bs_h ++ bs), (segh ++ seg). split; [rewrite EJ, <- app_assoc; reflexivity|].
    split; [rewrite C2, C1, app_assoc; reflexivity|]. split; [rewrite B2, B1, app_assoc; reflexivity|].
    intros els st' End bs_e seg_e HT. rewrite <- !app_assoc. apply BUILD. apply TAIL. exact HT.
Qed.

(* the final patching of compileIfStatement turns the pending chain into the
   final one; segment lengths and all compile-time states stay *)
Lemma layc_patch brk : forall l els st st' End js bs seg, LAYC brk false l els st st' End js bs seg ->
  forall T s s' pre post, Z.to_N T = End -> ccode s = pre ++ seg ++ post -> List.length pre = List.length (ccode st) ->
  patch_all true js T s = COk s' ->
  exists seg', ccode s' = pre ++ seg' ++ post /\ cconsts s' = cconsts s /\ csym s' = csym s /\ cbreaks s' = cbreaks s /\
    List.length seg' = List.length seg /\ LAYC brk true l els st st' End js bs seg'.
Proof.
  induction l as [|c b t IH]; intros els st st' End js bs seg HL T s s' pre post HT HC HLen HP.
  - inversion HL; subst; rewrite patch_all_nil in HP; inversion HP; subst s'.
    + exists []. repeat split; auto. constructor; assumption.
    + exists seg. repeat split; auto. econstructor; eauto.
  - inversion HL; subst.
    match goal with H : jshape false _ _ |- _ => cbn [jshape] in H; destruct H as (h0 & l0 & ->) end.
    unfold patch_all in HP. cbn [fold_left bind] in HP.
    match type of HP with fold_left _ _ ?X = _ => destruct X as [s1|e] eqn:E1; [|rewrite fold_cerr in HP; discriminate] end.
    change (patch_all true js0 T s1 = COk s') in HP.
    assert (CC : ccode s = (pre ++ seg_c ++ jf ++ seg_b) ++ N_of_opc Jump :: h0 :: l0 :: (seg_r ++ post)).
    { rewrite HC, <- !app_assoc. reflexivity. }
    assert (EL : (List.length (ccode st) + List.length (seg_c ++ jf ++ seg_b))%nat = List.length (pre ++ seg_c ++ jf ++ seg_b)).
    { rewrite (app_length pre), HLen. reflexivity. }
    rewrite EL in E1.
    destruct (patch_bytes _ _ h0 l0 (seg_r ++ post) T s s1 CC E1) as (HTr & hi & lo & EH & ->).
    match goal with HJ : jbytes JumpOnFalse _ jf |- _ => pose proof (jbytes_len _ _ _ HJ) as Ljf end.
    match goal with HB : LAYL _ b stx stb _ seg_b |- _ => pose proof (layl_len _ _ _ _ _ _ HB) as LLb end.
    match goal with H1 : ccode st1 = ccode st ++ seg_c |- _ => pose proof (f_equal (@List.length N) H1) as L1; rewrite app_length in L1 end.
    match type of HP with patch_all _ _ _ ?s1 = _ => set (s1v := s1) in * end.
    lazymatch goal with HT2 : LAYC _ false t els sty st' _ js0 _ seg_r |- _ =>
      destruct (IH els sty st' _ js0 _ seg_r HT2 T s1v s' (pre ++ seg_c ++ jf ++ seg_b ++ [N_of_opc Jump; hi; lo]) post eq_refl) as
        (seg_r' & C' & K' & S' & B' & L' & LY'); [unfold s1v; cbn [ccode]; rewrite <- !app_assoc; reflexivity| |exact HP|] end.
    { apply Nat2N.inj. rewrite !app_length, Ljf. simpl List.length. lia. }
    unfold s1v in *. cbn [ccode cconsts csym cbreaks] in *.
    exists (seg_c ++ jf ++ seg_b ++ [N_of_opc Jump; hi; lo] ++ seg_r').
    split; [rewrite C', <- !app_assoc; reflexivity|]. split; [exact K'|]. split; [exact S'|]. split; [exact B'|].
    split; [rewrite !app_length, L'; reflexivity|].
    eapply layc_cons; try eassumption.
    + match goal with HJ : jbytes JumpOnFalse ?X jf |- jbytes JumpOnFalse ?Y jf => replace Y with X; [exact HJ|] end.
      rewrite !app_length. reflexivity.
    + cbn [jshape]. exists hi, lo. split; [reflexivity|exact EH].
Qed.

Lemma lay_if_ok c b elifs els st st' : efrag c = true -> slist_lay b -> clist_ok elifs ->
  (match els with NoElse => True | Else eb => slist_lay eb end) ->
  compile_stmt true (SIf c b elifs els) st = COk st' -> gsym (csym st) -> has_gb (csym st) ->
  LAYOK (SIf c b elifs els) st st'.
Proof.
  intros HF HB HEL HE HC HG HGB. cbn [compile_stmt] in HC.
  destruct (compile_cond true c b st) as [st1|] eqn:E1; [|discriminate]. cbn [bind] in HC.
  destruct (compile_elifs true elifs [(pos_of st1 - 3)%Z] st1) as [r jumps] eqn:E2.
  destruct r as [st2|]; [|discriminate]. cbn [bind] in HC.
  destruct (cond_lay c b st st1 HF HB E1 HG HGB) as (S1 & bs_h & segh & B1 & C1 & BUILD).
  destruct (elifs_lay elifs HEL _ _ _ _ E2) as (S2 & js & bs2 & seg2 & EJ & C2 & B2 & TAIL); [rewrite S1; exact HG|rewrite S1; exact HGB|].
  subst jumps. cbn [app] in HC.
  assert (TAILOK : exists st3 ste End bs_e seg_e,
            (match els with NoElse => COk st2 | Else eb => compile_block true eb st2 end) = COk st3 /\
            LAYC None false CNil els st2 ste End [] bs_e seg_e /\ ccode st3 = ccode st2 ++ seg_e /\
            End = N.of_nat (List.length (ccode st3)) /\ cconsts st3 = cconsts ste /\ csym st3 = csym st2 /\
            cbreaks st3 = cbreaks st2 ++ bs_e).
  { destruct els as [|eb].
    - exists st2, st2, (N.of_nat (List.length (ccode st2))), [], []. repeat split; auto; [constructor; reflexivity|rewrite app_nil_r; reflexivity|rewrite app_nil_r; reflexivity].
    - destruct (compile_block true eb st2) as [st3|] eqn:E6; [|discriminate]. cbn [bind] in HC.
      destruct (lay_block eb st2 st3 HE E6) as (sty & stee & bs_e & seg_e & Le & Ky & Sy & Cy & Ce & Cee & Ke & Be & Se);
        [rewrite S2, S1; exact HG|rewrite S2, S1; exact HGB|].
      exists st3, stee, (N.of_nat (List.length (ccode st2)) + N.of_nat (List.length seg_e)), bs_e, seg_e.
      split; [reflexivity|]. split; [apply (layc_nil_else None false eb st2 sty stee _ bs_e seg_e Ky Sy (f_equal (@List.length N) Cy) Le eq_refl)|].
      split; [exact Ce|]. split; [rewrite Ce, app_length, Nat2N.inj_add; reflexivity|]. auto. }
  destruct TAILOK as (st3 & ste & End & bs_e & seg_e & E3 & LT & C3 & EE & K3 & S3 & B3). rewrite E3 in HC. cbn [bind] in HC.
  pose proof (BUILD _ _ _ _ _ _ _ (TAIL _ _ _ _ _ LT)) as LC.
  destruct (layc_patch _ _ _ _ _ _ _ _ _ LC (pos_of st3) st3 st' (ccode st) []) as (seg' & C' & K' & S' & B' & L' & LY).
  { unfold pos_of. rewrite EE. lia. }
  { rewrite C3, C2, C1, app_nil_r, <- !app_assoc. reflexivity. }
  { reflexivity. }
  { exact HC. }
  rewrite app_nil_r in C'.
  exists (bs_h ++ bs2 ++ bs_e), seg'. split; [|split; [exact C'|split; [|congruence]]].
  - eapply lay_if; [|rewrite K'; exact K3|congruence].
    replace (N.of_nat (List.length (ccode st)) + N.of_nat (List.length seg')) with End; [exact LY|].
    rewrite EE, C3, C2, C1, L', !app_length, !Nat2N.inj_add. lia.
  - rewrite B', B3, B2, B1, <- !app_assoc. reflexivity.
Qed.

Theorem lay_all :
  (forall s, wfrag_stmt s = true -> forall st st', compile_stmt true s st = COk st' ->
             gsym (csym st) -> has_gb (csym st) -> LAYOK s st st') /\
  (forall l, wfrag_slist l = true -> slist_lay l) /\
  (forall l, wfrag_clist l = true -> clist_ok l) /\
  (forall o, match o with NoElse => True | Else b => wfrag_slist b = true -> slist_lay b end).
Proof.
  apply stmt_mutind; try (intros; exact I).
  - intros n e HF. discriminate.
  - intros target e HF st st' HC HG HGB. destruct target; try discriminate HF. apply (lay_assign_ok n e st st' HF HC HGB).
  - intros c b Hb elifs Hc els Ho HF st st' HC HG HGB. cbn [wfrag_stmt] in HF.
    rewrite !andb_true_iff in HF. destruct HF as [[[F1 F2] F3] F4].
    apply (lay_if_ok c b elifs els st st' F1 (Hb F2) (Hc F3)); auto. destruct els; [exact I|apply Ho; exact F4].
  - intros c b Hb HF st st' HC HG HGB. cbn [wfrag_stmt] in HF. apply andb_true_iff in HF. destruct HF as [F1 F2].
    apply (lay_while_ok c b st st' F1 (Hb F2) HC HG HGB).
  - intros lv start stop step b Hb HF st st' HC HG HGB. cbn [wfrag_stmt] in HF. destruct lv; [discriminate|].
    rewrite !andb_true_iff in HF. destruct HF as [[[F1 F2] F3] F4].
    apply (lay_forstep_ok start stop step b st st' F1 F2 F3 (Hb F4) HC HG HGB).
  - intros lv t e b Hb HF st st' HC HG HGB. cbn [wfrag_stmt] in HF. destruct lv; [discriminate|].
    destruct (iterable_ty _ _ _ HF) as (Ht & F1 & F2).
    apply (lay_foriter_ok t e b st st' Ht F1 (Hb F2) HC HG HGB).
  - intros _ st st' HC _ _. apply (lay_break_ok st st' HC).
  - intros _ st st' HC _ _. cbn [compile_stmt] in HC. inversion HC; subst.
    exists [], []. split; [constructor|]. split; [rewrite app_nil_r; reflexivity|]. split; [rewrite app_nil_r; reflexivity|reflexivity].
  - intros b _ HF. discriminate.
  - intros w HF. discriminate.
  - intros _ st st' HC _ _. cbn [body_of] in HC. inversion HC; subst.
    exists [], []. split; [constructor|]. split; [rewrite app_nil_r; reflexivity|]. split; [rewrite app_nil_r; reflexivity|reflexivity].
  - intros s Hs t Ht HF st st' HC HG HGB. cbn [wfrag_slist] in HF. apply andb_true_iff in HF. destruct HF as [F1 F2].
    cbn [body_of] in HC. destruct (compile_stmt true s st) as [st1|] eqn:E1; [|discriminate]. cbn [bind] in HC.
    destruct (Hs F1 st st1 E1 HG HGB) as (bs1 & seg1 & L1 & C1 & B1 & S1). rewrite compile_slist_body in HC.
    destruct (Ht F2 st1 st' HC) as (bs2 & seg2 & L2 & C2 & B2 & S2); [rewrite S1; exact HG|rewrite S1; exact HGB|].
    exists (bs1 ++ bs2), (seg1 ++ seg2). split; [|split; [rewrite C2, C1, app_assoc; reflexivity|split; [rewrite B2, B1, app_assoc; reflexivity|congruence]]].
    eapply layl_cons; eauto. rewrite C1, app_length, Nat2N.inj_add. reflexivity.
  - intros c b Hb t Ht HF. cbn [wfrag_clist] in HF.
    rewrite !andb_true_iff in HF. destruct HF as [[F1 F2] F3].
    cbn [clist_ok]. auto.
  - intros b Hb. exact Hb.
Qed.

Lemma nb_no_breaks :
  (forall brk s st st' bs seg, LAY brk s st st' bs seg -> nb_stmt s = true -> bs = []) /\
  (forall brk l st st' bs seg, LAYL brk l st st' bs seg -> nb_slist l = true -> bs = []) /\
  (forall brk fin l els st st' End js bs seg, LAYC brk fin l els st st' End js bs seg ->
     nb_clist l = true -> match els with NoElse => True | Else eb => nb_slist eb = true end -> bs = []) /\
  (forall b s3 st' S rop seg, LAYR b s3 st' S rop seg -> True).
Proof.
  apply LAY_mutind; intros; try reflexivity; try exact I.
  - discriminate.
  - cbn [nb_stmt] in H0. rewrite !andb_true_iff in H0. destruct H0 as [[F1 F2] F3].
    apply H; [cbn [nb_clist]; rewrite F1, F2; reflexivity|destruct els; [exact I|exact F3]].
  - cbn [nb_slist] in H1. apply andb_true_iff in H1. destruct H1 as [F1 F2]. rewrite (H F1), (H0 F2). reflexivity.
  - apply H. exact H1.
  - cbn [nb_clist] in H1. apply andb_true_iff in H1. destruct H1 as [F1 F2]. rewrite (H F1), (H0 F2 H2). reflexivity.
Qed.

Definition STEP (s : stmt) (st st' : cstate) : Prop :=
  forall fuel env env1, exec_s fuel s env = Some (env1, false) ->
  top_ok st' /\ index (cur (csym st)) <= index (cur (csym st')) /\
  exists seg newc, ccode st' = ccode st ++ seg /\ cconsts st' = cconsts st ++ newc /\
    forall p vs pre post,
      pcode p = pre ++ seg ++ post -> List.length pre = List.length (ccode st) -> consts_of p st' ->
      ip vs = N.of_nat (List.length pre) -> ostack vs = [] -> locals vs = [] ->
      index (cur (csym st')) <= N.of_nat (List.length (globals vs)) ->
      globals_hold env (csym st) (globals vs) -> sdepth s <= StackSize ->
      exists vs', reaches p vs vs' /\ ip vs' = ip vs + N.of_nat (List.length seg) /\ ostack vs' = [] /\ locals vs' = [] /\
                  List.length (globals vs') = List.length (globals vs) /\ globals_hold env1 (csym st') (globals vs').

Lemma top_static st : top_ok st -> sym_static (csym st) /\ slots_distinct (csym st).
Proof.
  intros (HO & HI & _). split.
  - intros n y HR. apply (sym_top_globals _ HO HI n y HR).
  - intros n1 n2 y1 y2 H1 H2 HE. apply (top_distinct (csym st) n1 n2 y1 y2 HO HI H1 H2 HE).
Qed.

Lemma step_decl n e st st' : efrag e = true -> compile_stmt true (SDecl n e) st = COk st' -> top_ok st -> STEP (SDecl n e) st st'.
Proof.
  intros HF HC HT fuel env env1 HX. destruct fuel as [|f]; [discriminate|]. cbn [exec_s] in HX.
  assert (HX' : exec_stmt env (SDecl n e) = Some env1).
  { cbn [exec_stmt]. destruct (eval_expr env e); [|discriminate]. inversion HX. reflexivity. }
  clear HX. rename HX' into HX.
  destruct (stmt_frag_ok (SDecl n e) env env1 st st' HF HC HT HX) as (T1 & M1 & seg & newc & C & K & D).
  split; [exact T1|]. split; [exact M1|]. exists seg, newc. split; [exact C|]. split; [exact K|].
  intros p vs pre post HP _ (more & HK) HI HO HL HIdx HG HD.
  destruct (D p vs more pre post HP HK HI HO HIdx HG) as (vs' & R & I & O & L & G & GH).
  - rewrite HL. simpl. cbn [sdepth] in HD. exact HD.
  - exists vs'. repeat split; auto. congruence.
Qed.

Lemma step_ctl s st st' : wfrag_stmt s = true -> nb_stmt s = true -> compile_stmt true s st = COk st' -> top_ok st -> STEP s st st'.
Proof.
  intros HF HNB HC HT fuel env env1 HX.
  destruct (top_gsym st HT) as [HG HGB]. destruct (top_static st HT) as [HSS HSD].
  destruct (proj1 lay_all s HF st st' HC HG HGB) as (bs & seg & L0 & C & B & S).
  pose proof (proj1 nb_no_breaks _ _ _ _ _ _ L0 HNB) as ->.
  (* no pending break: the layout holds for any break target *)
  destruct (proj1 (lay_brk_patch 0%Z) _ _ _ _ _ _ L0 eq_refl st' st' (ccode st) []) as (seg' & C' & _ & _ & _ & _ & L);
    [rewrite app_nil_r; exact C|reflexivity|reflexivity|].
  rewrite app_nil_r, C in C'. apply app_inv_head in C'. subst seg'.
  destruct (proj1 lay_frame _ _ _ _ _ _ L) as [(newc & K) _].
  split; [unfold top_ok; rewrite S; exact HT|]. split; [rewrite S; lia|].
  exists seg, newc. split; [exact C|]. split; [exact K|].
  intros p vs pre post HP HLen HK HI HO HL HIdx HGl HD.
  assert (HM : mstate_ok (List.length (globals vs)) st env [] vs).
  { repeat split; auto. intros m y HR. destruct (top_globals st HT m y HR) as [_ HI2]. rewrite S in HIdx. lia. }
  destruct (proj1 (sim_all fuel) _ s st st' _ seg L _ env env1 false [] HX p vs pre post HP HLen HK HI HM HSS HSD HD) as (vs' & R & I & (A1 & A2 & A3 & A4 & A5)).
  exists vs'. repeat split; auto. rewrite S. exact A3.
Qed.

(* `n :=` at top level before a range loop: OpNone; OpSetGlobal slot(n) *)
Lemma define_global_runs G n s3 sg env base p vs pre post :
  let sym' := fst (st_define n (csym s3)) in let y := snd (st_define n (csym s3)) in
  top_ok (with_sym sym' s3) -> st_resolve n sym' = Some y -> jbytes SetGlobal (sidx y) sg ->
  pcode p = pre ++ ([N_of_opc ONone] ++ sg) ++ post -> ip vs = N.of_nat (List.length pre) ->
  mstate_ok G s3 env base vs -> index (cur sym') <= N.of_nat G -> N.of_nat (List.length base) + 1 <= StackSize ->
  exists vs', reaches p vs vs' /\ ip vs' = N.of_nat (List.length (pre ++ [N_of_opc ONone] ++ sg)) /\
    forall sa, csym sa = sym' -> mstate_ok G sa (upd env n VNone) base vs'.
Proof.
  intros sym' y (HO & HI & _) DR HSG HP HIp (M1 & M2 & M3 & M4 & M5) HIdx HD. cbn [with_sym csym] in HO, HI.
  destruct (sym_top_globals _ HO HI _ _ DR) as [_ SI].
  pose proof (step_onone p vs pre (sg ++ post) ltac:(rewrite HP, <- !app_assoc; reflexivity) HIp
                ltac:(rewrite M1, M2; cbn [List.length]; lia)) as R1.
  set (vs1 := {| ip := ip vs + 1; ostack := VNone :: ostack vs; locals := locals vs; globals := globals vs |}) in *.
  pose proof (step_setglobal p vs1 (pre ++ [N_of_opc ONone]) post sg (sidx y) VNone base HSG
                ltac:(rewrite HP, <- !app_assoc; reflexivity)
                ltac:(cbn [vs1 ip]; rewrite HIp, app_length, Nat2N.inj_add; reflexivity)
                ltac:(cbn [vs1 ostack]; rewrite M1; reflexivity)
                ltac:(cbn [vs1 globals]; lia)) as R2.
  eexists. split; [eapply reaches_trans; apply reaches_step; [exact R1|exact R2]|].
  pose proof (jbytes_len _ _ _ HSG) as Lsg.
  split; [cbn [vs1 ip]; rewrite HIp, !app_length, Lsg; cbn [List.length]; lia|].
  intros sa ES. unfold mstate_ok; rewrite ES; cbn [vs1 ostack locals globals]. rewrite set_nth_length. repeat split; auto.
  - apply (store_global env n VNone y (csym s3) sym' (globals vs) HO HI DR); [|lia|exact M3].
    intros m Em. apply define_resolve_other. intros ->. rewrite str_eqb_refl in Em. discriminate.
  - intros m ym HRm. rewrite set_nth_length. destruct (sym_top_globals _ HO HI _ _ HRm) as [_ X]. lia.
Qed.

(* `for n := range [start] stop [step]` at top level: n becomes a global *)
Lemma step_forstep_lv n start stop step b st st' :
  ofrag start = true -> efrag stop = true -> ofrag step = true -> wfrag_slist b = true ->
  compile_stmt true (SForStep (Some n) start stop step b) st = COk st' -> top_ok st ->
  STEP (SForStep (Some n) start stop step b) st st'.
Proof.
  intros F1 F2 F3 F4 HC HT fuel env env1 HX.
  pose proof (ofrag_expr step 1 F3) as F3'. pose proof (ofrag_expr start 0 F1) as F1'.
  destruct fuel as [|f]; [discriminate|]. cbn [exec_s] in HX. cbn [compile_stmt] in HC.
  set (estep := match step with OSome e => e | ONoneE => ENum 1 end) in *.
  set (estart := match start with OSome e => e | ONoneE => ENum 0 end) in *.
  destruct (eval_expr env stop) as [[vstop| | | | | |]|] eqn:HE1; try discriminate.
  destruct (eval_expr env estep) as [[vstep| | | | | |]|] eqn:HE2; try discriminate.
  destruct (eval_expr env estart) as [[vstart| | | | | |]|] eqn:HE3; try discriminate.
  destruct (PrimFloat.eqb vstep 0) eqn:HZ; [discriminate|].
  destruct (compile_expr true stop st) as [s1|] eqn:E1; [|discriminate]. cbn [bind] in HC.
  destruct (compile_expr true estep s1) as [s2|] eqn:E2; [|discriminate]. cbn [bind] in HC.
  destruct (compile_expr true estart s2) as [s3|] eqn:E3; [|discriminate]. cbn [bind] in HC.
  destruct (efrag_sl _ F2 st s1 E1) as (S1 & o1 & c1 & C1 & K1 & _).
  destruct (efrag_sl _ F3' s1 s2 E2) as (S2 & o2 & c2 & C2 & K2 & _).
  destruct (efrag_sl _ F1' s2 s3 E3) as (S3 & o3 & c3 & C3 & K3 & _).
  assert (HT3 : top_ok s3) by (unfold top_ok; rewrite S3, S2, S1; exact HT).
  destruct (layrv_ok StepRange 3 n b s3 st' (or_introl (conj eq_refl eq_refl)) (proj1 (proj2 lay_all) b F4) HT3 HC) as (HT' & SG & DR & sg & seg_r & HSG & LR & CR & BR & SR).
  set (sym' := fst (st_define n (csym s3))) in *. set (y := snd (st_define n (csym s3))) in *.
  set (sa := {| ccode := (ccode s3 ++ [N_of_opc ONone]) ++ sg; cconsts := cconsts s3; csym := sym'; cbreaks := cbreaks s3 |}) in *.
  destruct (define_frame n (csym s3)) as (_ & _ & FD3). fold sym' in FD3.
  destruct (layrv_consts _ _ _ _ _ _ _ LR) as (nr & KR). cbn [sa cconsts] in KR.
  split; [unfold top_ok; rewrite SR; exact HT'|]. split; [rewrite SR, <- S1, <- S2, <- S3; exact FD3|].
  exists (encode o1 ++ encode o2 ++ encode o3 ++ [N_of_opc ONone] ++ sg ++ seg_r), (c1 ++ c2 ++ c3 ++ nr).
  split; [rewrite CR, C3, C2, C1, <- !app_assoc; reflexivity|]. split; [rewrite KR, K3, K2, K1, <- !app_assoc; reflexivity|].
  intros p vs pre post HP HLen HK HI0 HOs HLs HIdx HGl HD. cbn [sdepth] in HD. fold estep estart in HD. rewrite SR in HIdx.
  apply N.max_lub_iff in HD. destruct HD as [HD1 HD]. apply N.max_lub_iff in HD. destruct HD as [HD2 HD].
  apply N.max_lub_iff in HD. destruct HD as [HD3 HD]. apply N.max_lub_iff in HD. destruct HD as [HD4 HD5].
  set (G := List.length (globals vs)) in *.
  destruct (top_static st HT) as [HSS HSD].
  assert (HM : mstate_ok G st env [] vs).
  { repeat split; auto. intros m ym HR. destruct (top_globals st HT m ym HR) as [_ HI2]. rewrite S3, S2, S1 in FD3.
    (* with ZifyBool every boolean hypothesis (F1 .. F4, HZ) doubles the work of lia: it gets only what it needs *)
    clear - HI2 FD3 HIdx. lia. }
  assert (HK3 : consts_of p s3) by (apply (consts_of_prefix p s3 st' nr KR HK)).
  assert (HK2 : consts_of p s2) by (apply (consts_of_prefix p s2 s3 c3 K3 HK3)).
  assert (HK1 : consts_of p s1) by (apply (consts_of_prefix p s1 s2 c2 K2 HK2)).
  set (seg1 := encode o1) in *. set (seg2 := encode o2) in *. set (seg3 := encode o3) in *.
  destruct (expr_runs_ok G stop st s1 seg1 env _ [] p vs pre (seg2 ++ seg3 ++ [N_of_opc ONone] ++ sg ++ seg_r ++ post) F2 E1 C1 HE1 HSS
              ltac:(rewrite HP, <- !app_assoc; reflexivity) HK1 HI0 HM HD1) as (vs1 & R1 & I1 & HM1).
  destruct (expr_runs_ok G estep s1 s2 seg2 env _ _ p vs1 (pre ++ seg1) (seg3 ++ [N_of_opc ONone] ++ sg ++ seg_r ++ post) F3' E2 C2 HE2
              ltac:(rewrite S1; exact HSS) ltac:(rewrite HP, <- !app_assoc; reflexivity) HK2 I1 HM1 HD2) as (vs2 & R2 & I2 & HM2).
  destruct (expr_runs_ok G estart s2 s3 seg3 env _ _ p vs2 ((pre ++ seg1) ++ seg2) ([N_of_opc ONone] ++ sg ++ seg_r ++ post) F1' E3 C3 HE3
              ltac:(rewrite S2, S1; exact HSS) ltac:(rewrite HP, <- !app_assoc; reflexivity) HK3 I2 HM2 HD3) as (vs3 & R3 & I3 & HM3).
  destruct (define_global_runs G n s3 sg env _ p vs3 (((pre ++ seg1) ++ seg2) ++ seg3) (seg_r ++ post) HT' DR HSG
              ltac:(rewrite HP, <- !app_assoc; reflexivity) I3 HM3 HIdx ltac:(clear - HD4; cbn [List.length]; lia)) as (vs5 & R5 & I5 & HM5).
  destruct (top_static _ HT') as [HSSa HSDa].
  destruct (sim_rv n b y sa st' seg_r LR DR f G (upd env n VNone) env1 false vstart vstep vstop [] HX p vs5
              ((((pre ++ seg1) ++ seg2) ++ seg3) ++ [N_of_opc ONone] ++ sg) post
              ltac:(rewrite HP, <- !app_assoc; reflexivity)
              ltac:(cbn [sa ccode]; rewrite C3, C2, C1, <- !app_assoc, !app_length, HLen; reflexivity)
              HK I5 HZ (HM5 sa eq_refl) HSSa HSDa HD4 HD5) as (vs6 & R6 & I6 & A1 & A2 & A3 & _ & A5).
  exists vs6. split; [|split; [|split; [exact A1|split; [exact A2|split; [exact A5|rewrite SR; exact A3]]]]].
  - eapply reaches_trans; [exact R1|]. eapply reaches_trans; [exact R2|]. eapply reaches_trans; [exact R3|].
    eapply reaches_trans; [exact R5|exact R6].
  - rewrite I6, I5, HI0, !app_length, !Nat2N.inj_add. clear. lia.
Qed.

(* `for n := range iterable` at top level: n becomes a global *)
Lemma step_foriter_lv n t e b st st' :
  (t = TStr \/ t = TArr \/ t = TMap) -> efrag e = true -> wfrag_slist b = true ->
  compile_stmt true (SForIter (Some n) t e b) st = COk st' -> top_ok st ->
  STEP (SForIter (Some n) t e b) st st'.
Proof.
  intros Ht F2 F4 HC' HT fuel env env1 HX. rewrite (compile_foriter_eq _ _ _ _ _ Ht) in HC'.
  destruct fuel as [|f]; [discriminate|]. cbn [exec_s] in HX.
  assert (HX' : match eval_expr env e with Some iter => exec_iv f n 0%float iter b (upd env n VNone) | None => None end = Some (env1, false))
    by (destruct Ht as [->|[->| ->]]; exact HX). clear HX.
  destruct (eval_expr env e) as [iter|] eqn:HE1; [|discriminate].
  destruct (compile_expr true e st) as [s1|] eqn:E1; [|discriminate]. cbn [bind] in HC'.
  destruct (emit_const true (KNum 0) s1) as [s2|] eqn:E2; [|discriminate]. cbn [bind] in HC'.
  destruct (efrag_sl _ F2 st s1 E1) as (S1 & o1 & c1 & C1 & K1 & _).
  destruct (const_correct _ _ _ E2) as (S2 & segk & C2 & K2 & _).
  assert (HT2 : top_ok s2) by (unfold top_ok; rewrite S2, S1; exact HT).
  change 2%Z with (Z.of_N 2) in HC'.
  destruct (layrv_ok IterRange 2 n b s2 st' (or_intror (conj eq_refl eq_refl)) (proj1 (proj2 lay_all) b F4) HT2 HC') as (HT' & SG & DR & sg & seg_r & HSG & LR & CR & BR & SR).
  set (sym' := fst (st_define n (csym s2))) in *. set (y := snd (st_define n (csym s2))) in *.
  set (sa := {| ccode := (ccode s2 ++ [N_of_opc ONone]) ++ sg; cconsts := cconsts s2; csym := sym'; cbreaks := cbreaks s2 |}) in *.
  destruct (define_frame n (csym s2)) as (_ & _ & FD3). fold sym' in FD3.
  destruct (layrv_consts _ _ _ _ _ _ _ LR) as (nr & KR). cbn [sa cconsts] in KR.
  split; [unfold top_ok; rewrite SR; exact HT'|]. split; [rewrite SR, <- S1, <- S2; exact FD3|].
  exists (encode o1 ++ segk ++ [N_of_opc ONone] ++ sg ++ seg_r), (c1 ++ [KNum 0] ++ nr).
  split; [rewrite CR, C2, C1, <- !app_assoc; reflexivity|]. split; [rewrite KR, K2, K1, <- !app_assoc; reflexivity|].
  intros p vs pre post HP HLen HK HI0 HOs HLs HIdx HGl HD. cbn [sdepth] in HD. rewrite SR in HIdx.
  apply N.max_lub_iff in HD. destruct HD as [HD1 HD]. apply N.max_lub_iff in HD. destruct HD as [HD2 HD3].
  set (G := List.length (globals vs)) in *.
  destruct (top_static st HT) as [HSS HSD].
  assert (HM : mstate_ok G st env [] vs).
  { repeat split; auto. intros m ym HR. destruct (top_globals st HT m ym HR) as [_ HI2]. rewrite S2, S1 in FD3. clear - HI2 FD3 HIdx. lia. }
  assert (HK2 : consts_of p s2) by (apply (consts_of_prefix p s2 st' nr KR HK)).
  assert (HK1 : consts_of p s1) by (apply (consts_of_prefix p s1 s2 [KNum 0] K2 HK2)).
  set (seg1 := encode o1) in *.
  destruct (expr_runs_ok G e st s1 seg1 env _ [] p vs pre (segk ++ [N_of_opc ONone] ++ sg ++ seg_r ++ post) F2 E1 C1 HE1 HSS
              ltac:(rewrite HP, <- !app_assoc; reflexivity) HK1 HI0 HM HD1) as (vs1 & R1 & I1 & HM1).
  destruct (const_runs_ok G (KNum 0) s1 s2 segk env _ p vs1 (pre ++ seg1) ([N_of_opc ONone] ++ sg ++ seg_r ++ post) E2 C2
              ltac:(rewrite HP, <- !app_assoc; reflexivity) HK2 I1 HM1 ltac:(clear - HD2; cbn [List.length]; lia)) as (vs2 & R2 & I2 & HM2).
  destruct (define_global_runs G n s2 sg env _ p vs2 ((pre ++ seg1) ++ segk) (seg_r ++ post) HT' DR HSG
              ltac:(rewrite HP, <- !app_assoc; reflexivity) I2 HM2 HIdx ltac:(clear - HD2; cbn [List.length]; lia)) as (vs5 & R5 & I5 & HM5).
  destruct (top_static _ HT') as [HSSa HSDa].
  destruct (sim_iv n b y sa st' seg_r LR DR f G (upd env n VNone) env1 false 0%float iter [] HX' p vs5
              (((pre ++ seg1) ++ segk) ++ [N_of_opc ONone] ++ sg) post
              ltac:(rewrite HP, <- !app_assoc; reflexivity)
              ltac:(cbn [sa ccode]; rewrite C2, C1, <- !app_assoc, !app_length, HLen; reflexivity)
              HK I5 (HM5 sa eq_refl) HSSa HSDa HD2 HD3) as (vs6 & R6 & I6 & A1 & A2 & A3 & _ & A5).
  exists vs6. split; [|split; [|split; [exact A1|split; [exact A2|split; [exact A5|rewrite SR; exact A3]]]]].
  - eapply reaches_trans; [exact R1|]. eapply reaches_trans; [exact R2|]. eapply reaches_trans; [exact R5|exact R6].
  - rewrite I6, I5, HI0, !app_length, !Nat2N.inj_add. clear. lia.
Qed.

Lemma step_of_stmt s st st' : psfrag_stmt s = true -> compile_stmt true s st = COk st' -> top_ok st -> STEP s st st'.
Proof.
  intros HF HC HT.
  assert (GEN : wfrag_stmt s && nb_stmt s = true -> STEP s st st').
  { intro X. apply andb_true_iff in X. destruct X as [X1 X2]. apply step_ctl; assumption. }
  destruct s; try (apply GEN; exact HF).
  - apply (step_decl n e st st' HF HC HT).
  - destruct lv as [n|]; [|apply GEN; exact HF]. cbn [psfrag_stmt] in HF.
    rewrite !andb_true_iff in HF. destruct HF as [[[F1 F2] F3] F4].
    apply (step_forstep_lv n start stop step b st st' F1 F2 F3 F4 HC HT).
  - destruct lv as [n|]; [|apply GEN; exact HF]. cbn [psfrag_stmt] in HF.
    destruct (iterable_ty _ _ _ HF) as (Ht & F1 & F2).
    apply (step_foriter_lv n t e b st st' Ht F1 F2 HC HT).
Qed.

Lemma prog_sem p : forall fuel env env' st st',
  psfrag p = true -> compile_slist true p st = COk st' -> top_ok st -> exec_l fuel p env = Some (env', false) ->
  top_ok st' /\ index (cur (csym st)) <= index (cur (csym st')) /\
  exists seg newc, ccode st' = ccode st ++ seg /\ cconsts st' = cconsts st ++ newc /\
    forall pr vs pre post,
      pcode pr = pre ++ seg ++ post -> List.length pre = List.length (ccode st) -> consts_of pr st' ->
      ip vs = N.of_nat (List.length pre) -> ostack vs = [] -> locals vs = [] ->
      index (cur (csym st')) <= N.of_nat (List.length (globals vs)) ->
      globals_hold env (csym st) (globals vs) -> ldepth p <= StackSize ->
      exists vs', reaches pr vs vs' /\ ip vs' = ip vs + N.of_nat (List.length seg) /\ ostack vs' = [] /\ locals vs' = [] /\
                  List.length (globals vs') = List.length (globals vs) /\ globals_hold env' (csym st') (globals vs').
Proof.
  induction p as [|s t IH]; intros fuel env env' st st' HF HC HT HX.
  - destruct fuel as [|f]; [discriminate|]. cbn [exec_l] in HX. inversion HX; subst env'.
    simpl in HC. inversion HC; subst st'. split; [exact HT|]. split; [lia|].
    exists [], []. split; [rewrite app_nil_r; reflexivity|]. split; [rewrite app_nil_r; reflexivity|].
    intros pr vs pre post _ _ _ HI HO HL _ HG _. exists vs. split; [apply reaches_refl|]. simpl. repeat split; auto. lia.
  - destruct fuel as [|f]; [discriminate|]. cbn [exec_l] in HX.
    destruct (exec_s f s env) as [[env1 [|]]|] eqn:HX1; try discriminate.
    cbn [psfrag] in HF. apply andb_true_iff in HF. destruct HF as [F1 F2]. cbn [compile_slist] in HC.
    destruct (compile_stmt true s st) as [st1|] eqn:E1; [|discriminate]. cbn [bind] in HC.
    destruct (step_of_stmt s st st1 F1 E1 HT f env env1 HX1) as (T1 & M1 & seg1 & c1 & C1 & K1 & D1).
    destruct (IH f env1 env' st1 st' F2 HC T1 HX) as (T2 & M2 & seg2 & c2 & C2 & K2 & D2).
    split; [exact T2|]. split; [lia|]. exists (seg1 ++ seg2), (c1 ++ c2).
    split; [rewrite C2, C1, app_assoc; reflexivity|]. split; [rewrite K2, K1, app_assoc; reflexivity|].
    intros pr vs pre post HP HLen HK HI HO HL HIdx HG HD. cbn [ldepth] in HD.
    destruct (D1 pr vs pre (seg2 ++ post)) as (vs1 & R1 & I1 & O1 & L1 & G1 & GH1); auto.
    { rewrite HP, <- !app_assoc. reflexivity. }
    { apply (consts_of_prefix pr st1 st' c2 K2 HK). }
    { lia. }
    { pose proof (N.le_max_l (sdepth s) (ldepth t)). lia. }
    destruct (D2 pr vs1 (pre ++ seg1) post) as (vs2 & R2 & I2 & O2 & L2 & G2 & GH2); auto.
    { rewrite HP, <- !app_assoc. reflexivity. }
    { rewrite app_length, C1, app_length, HLen. reflexivity. }
    { rewrite I1, HI, app_length. lia. }
    { rewrite G1. exact HIdx. }
    { pose proof (N.le_max_r (sdepth s) (ldepth t)). lia. }
    exists vs2. split; [eapply reaches_trans; eauto|]. split; [rewrite I2, I1, app_length; lia|].
    repeat split; auto. congruence.
Qed.

(* compile_correct for the fragment psfrag: at top level declarations and
   `for x := range …` (x becomes a global); below, assignments to globals,
   if / else-if / else, while, break, `for range …` — nested.  If the compiler
   succeeds and the fuel-indexed semantics of the program is defined, the VM
   model started by NewVM reaches the end of the code with an empty operand
   stack, halts, and every global slot holds the value of the semantics. *)
Theorem compile_correct_ctl : forall (p : slist) (st : cstate) (fuel : nat) (env' : genv),
  psfrag p = true -> compile p = COk st -> exec_l fuel p (fun _ => None) = Some (env', false) ->
  ldepth p <= StackSize ->
  let prog := program_of (bytecode_of st) in
  exists s, reaches prog (vm_init prog) s /\
            vm_step prog s = Halted s /\ ostack s = [] /\
            forall n y v, st_resolve n (csym st) = Some y -> env' n = Some v ->
                          nth_error (globals s) (N.to_nat (sidx y)) = Some v.
Proof.
  intros p st fuel env' HF HC HX HD prog. unfold compile, compile_program in HC.
  assert (HT : top_ok cinit) by (split; [reflexivity|split; [apply inv_new|reflexivity]]).
  destruct (prog_sem p fuel _ env' cinit st HF HC HT HX) as ((T1 & T2 & T3) & _ & seg & newc & C & K & D).
  simpl in C, K.
  destruct (D prog (vm_init prog) [] []) as (s & R & I & O & L & G & GH); auto.
  - unfold prog, program_of, bytecode_of. cbn [pcode out_code]. rewrite C, app_nil_r. reflexivity.
  - exists []. unfold prog, program_of, bytecode_of. cbn [pconsts out_consts]. rewrite app_nil_r. reflexivity.
  - unfold prog, program_of, bytecode_of, vm_init, st_local_count. cbn [locals plcount out_lcount]. rewrite T3. reflexivity.
  - unfold prog, program_of, bytecode_of, vm_init, st_global_count. cbn [globals pgcount out_gcount]. rewrite repeat_length. lia.
  - intros n y v HR. discriminate.
  - exists s. split; [exact R|]. split; [|split; [exact O|exact GH]].
    apply vm_step_end. rewrite I. unfold prog, program_of, bytecode_of. cbn [pcode out_code vm_init ip]. rewrite C. cbn. lia.
Qed.
