(* CompileSemTie.v — the tie between the source semantics of compile_correct (C16:
   CompileSem.lx_l, a fuel-indexed big-step semantics over value environments) and the
   evaluator model coq/Sem.v (every value a heap cell), on a fragment:

     expressions  number / bool / ASCII string literals, variables, groups, unary - and !,
                  binary + - * / % < <= > >= on numbers, + and the comparisons on strings,
                  array literals, a[i] on arrays and strings, + on arrays,
                  == and != when one operand is manifestly scalar (scalar_valued);
     statements   declarations, assignments to variables, if / else if / else, while, break,
                  the empty statement — declarations anywhere (block scopes).

   Whenever lx_l is defined, the Sem run of the corresponding Ast program ends normally and
   every variable of lx_l's final environment is a global of the Sem state whose cell HOLDS
   that value.

   What is missing (hence _partial), and what stands in the way:
   - for loops.  lx_r / lx_i declare the loop variable in the ENCLOSING frame (lv_decl) and
     leave it there when the loop ends; Sem.v (as evalFor) gives the loop its own scope and
     pops it.  With the frame-by-frame relation used here (same names in corresponding frames)
     the two environments stop corresponding after the first loop.  A tie needs a static
     side condition that lx_l cannot see: the loop variable is not declared or used outside
     its loop (the parser's scoping).  Example where lx_l and Sem.v differ without it:
         x := 1
         if true
             for x := range 2
             end
             x = 5          // lx_l: assigns the stale loop variable; Sem.v: the global x
         end
   - == on two composites, array repetition, maps, slices.  Sem.equals and Sem.deep_copy walk at
     most value_depth = 4000 levels and then crash (Go: stack overflow); lx_l's val_equals and
     arr_repeat have no bound, and `a = [a]` in a loop builds values of any depth — so == is in the
     fragment only when one operand is manifestly scalar, and * on arrays is out.  Maps and slices
     are not done (the relation would extend as for arrays; Vm.normalize_index and
     Sem.normalize_index agree: norm_idx_eq).
   - strings beyond ASCII.  Vm.value strings are UTF-8 bytes, Sem.v strings are code points:
     the tie needs utf8_decode (utf8_encode s) = s and that byte-wise comparison of encodings
     is code-point comparison, for valid code points.  (ASCII: utf8_ascii.)
   - the converse (lx_l undefined => Sem.v panics) is not an equivalence: x / 0 is undefined in
     lx_l (the VM raises "division by zero") and +Inf in Sem.v (the evaluator divides). *)
From Coq Require Import ZArith NArith PArith List String Bool Floats FMapPositive Lia.
From EvyV Require Import Base Num Ast Omap Sem SemBasics SemOrder SemStoreBase SemFresh SemEvents SemIso SemWalkProofs.
From EvyV Require Vm Compile CompileSem.
Import ListNotations.
Local Open Scope positive_scope.

(* Compile.v's AST carries what compiler.go inspects; Ast.v's is the typed tree the evaluator
   walks.  [xrel e x], and srel / lrel / crel / orel for statements, statement lists, else-if
   chains and else blocks: x is e with arbitrary type annotations (Sem.v never looks at them
   in this fragment). *)
Definition trop (op : Compile.binop) : option binop :=
  match op with
  | Compile.BPlus => Some BPlus | Compile.BMinus => Some BMinus | Compile.BStar => Some BAsterisk | Compile.BSlash => Some BSlash
  | Compile.BPercent => Some BPercent
  | Compile.BLt => Some BLt | Compile.BLe => Some BLtEq | Compile.BGt => Some BGt | Compile.BGe => Some BGtEq
  | Compile.BEq => Some BEq | Compile.BNe => Some BNotEq
  | _ => None
  end.

Inductive xrel : Compile.expr -> expr -> Prop :=
| x_num f : xrel (Compile.ENum f) (ENum f)
| x_bool b : xrel (Compile.EBool b) (EBool b)
| x_str s : xrel (Compile.EStr s) (EStr s)
| x_var n t : xrel (Compile.EVar n) (EVar n t)
| x_group e x : xrel e x -> xrel (Compile.EGroup e) (EGroup x)
| x_neg e x : xrel e x -> xrel (Compile.EUn Compile.UMinus e) (EUn UMinus x)
| x_not e x : xrel e x -> xrel (Compile.EUn Compile.UBang e) (EUn UBang x)
| x_bin op op' lt rt t l r xl xr : trop op = Some op' -> xrel l xl -> xrel r xr ->
    xrel (Compile.EBin op lt rt l r) (EBin op' t xl xr)
| x_arr l xl t : xlrel l xl -> xrel (Compile.EArr l) (EArr t xl)
| x_index l i xl xi t : xrel l xl -> xrel i xi -> xrel (Compile.EIndex l i) (EIndex t xl xi)
with xlrel : Compile.elist -> list expr -> Prop :=
| xl_nil : xlrel Compile.ENil []
| xl_cons e t x xt : xrel e x -> xlrel t xt -> xlrel (Compile.ECons e t) (x :: xt).

Scheme xrel_mind := Minimality for xrel Sort Prop
  with xlrel_mind := Minimality for xlrel Sort Prop.
Combined Scheme xrel_xlrel_ind from xrel_mind, xlrel_mind.

Definition scalar (v : Vm.value) : Prop :=
  match v with Vm.VNum _ | Vm.VBool _ | Vm.VStr _ => True | _ => False end.

(* an expression whose value, when defined, is a number, a string or a bool whatever the
   variables hold: == and != are in the fragment when one operand is of this form (then a
   defined comparison has two scalar operands: value.Equals is undefined on mixed kinds) *)
Fixpoint scalar_valued (e : Compile.expr) : bool :=
  match e with
  | Compile.ENum _ | Compile.EBool _ | Compile.EStr _ => true
  | Compile.EGroup e1 => scalar_valued e1
  | Compile.EUn Compile.UMinus _ | Compile.EUn Compile.UBang _ => true
  | Compile.EBin op lt _ _ _ =>
      match op with
      | Compile.BPlus | Compile.BStar => match lt with Compile.TNum | Compile.TStr => true | _ => false end
      | _ => true
      end
  | _ => false
  end.

(* Sem.lookup, set_var and update_var return at once on `_`: it is never bound *)
Definition name_ok (n : str) : bool := negb (str_eqb n underscore).

(* the expression fragment of the tie *)
Fixpoint tfrag_e (e : Compile.expr) : bool :=
  match e with
  | Compile.ENum _ | Compile.EBool _ => true
  | Compile.EStr s => is_ascii s
  | Compile.EVar n => name_ok n
  | Compile.EGroup e1 => tfrag_e e1
  | Compile.EUn Compile.UMinus e1 | Compile.EUn Compile.UBang e1 => tfrag_e e1
  | Compile.EBin op lt rt l r =>
      match trop op with
      | Some _ =>
          tfrag_e l && tfrag_e r &&
          match op with
          | Compile.BEq | Compile.BNe => scalar_valued l || scalar_valued r
          | Compile.BStar => match lt with Compile.TArr => false | _ => true end   (* no repetition (deepCopy) *)
          | _ => true
          end
      | None => false
      end
  | Compile.EArr l => tfrag_el l
  | Compile.EIndex l i => tfrag_e l && tfrag_e i
  | _ => false
  end
with tfrag_el (l : Compile.elist) : bool :=
  match l with Compile.ENil => true | Compile.ECons e t => tfrag_e e && tfrag_el t end.

Lemma utf8_ascii s : is_ascii s = true -> Vm.utf8_encode s = s.
Proof.
  unfold is_ascii, Vm.utf8_encode. induction s as [|c t IH]; simpl; auto.
  intro H. apply andb_true_iff in H as [H1 H2]. rewrite IH by auto.
  unfold Vm.utf8_cp. rewrite H1. reflexivity.
Qed.
Lemma is_ascii_app a b : is_ascii a = true -> is_ascii b = true -> is_ascii (a ++ b) = true.
Proof. unfold is_ascii. intros. rewrite forallb_app. apply andb_true_iff; auto. Qed.
Lemma dec_ascii_fuel : forall s n, is_ascii s = true -> (List.length s <= n)%nat -> Vm.utf8_decode_fuel n s = s.
Proof.
  induction s as [|c t IH]; intros n A L; destruct n; simpl in *; auto; try lia.
  unfold is_ascii in A. simpl in A. apply andb_true_iff in A as [A1 A2].
  rewrite A1. simpl. f_equal. apply IH; auto. lia.
Qed.
Lemma dec_ascii s : is_ascii s = true -> Vm.utf8_decode s = s.
Proof. intro A. apply dec_ascii_fuel; auto. Qed.
Lemma is_ascii_nth s i c : is_ascii s = true -> nth_error s i = Some c -> is_ascii [c] = true.
Proof.
  unfold is_ascii. intros A H. apply nth_error_In in H. rewrite forallb_forall in A. simpl. rewrite (A c H). reflexivity.
Qed.

(* the cell l of heap h holds the plain value v (strings: ASCII, where UTF-8 bytes and code
   points coincide) *)
Inductive holds (h : heap) : loc -> Vm.value -> Prop :=
| h_num l f : hget h l = Some (HNum f) -> holds h l (Vm.VNum f)
| h_bool l b : hget h l = Some (HBool b) -> holds h l (Vm.VBool b)
| h_str l x : hget h l = Some (HStr x) -> is_ascii x = true -> holds h l (Vm.VStr x)
| h_arr l ls vs : hget h l = Some (HArr ls) -> Forall2 (holds h) ls vs -> holds h l (Vm.VArr vs).

Lemma holds_ext h h' : heap_extends h h' -> forall l v, holds h l v -> holds h' l v.
Proof.
  (* holds is nested through Forall2: the generated principle says nothing of the elements *)
  intros [_ E]. fix IH 3. intros l v H. destruct H as [l f G|l b G|l x G A|l ls vs G F].
  - apply h_num; auto.
  - apply h_bool; auto.
  - apply h_str; auto.
  - apply (h_arr h' l ls vs); [apply E; exact G|].
    clear G. revert ls vs F. fix IHF 3. intros ls vs F. destruct F; constructor; [apply IH; assumption | apply IHF; assumption].
Qed.

Lemma Forall2_holds_ext {h h' ls vs} : heap_extends h h' -> Forall2 (holds h) ls vs -> Forall2 (holds h') ls vs.
Proof. intros X F. eapply Forall2_impl; [|exact F]. intros; eapply holds_ext; eauto. Qed.

Lemma holds_cell {h l v} : holds h l v ->
  exists x, hget h l = Some x /\ (is_basic x = true \/ is_composite x = true).
Proof. intro H. destruct H; eauto. Qed.

Lemma holds_num {h l f} : holds h l (Vm.VNum f) -> hget h l = Some (HNum f).
Proof. intro H; inversion H; assumption. Qed.
Lemma holds_bool {h l b} : holds h l (Vm.VBool b) -> hget h l = Some (HBool b).
Proof. intro H; inversion H; assumption. Qed.
Lemma holds_str {h l x} : holds h l (Vm.VStr x) -> hget h l = Some (HStr x) /\ is_ascii x = true.
Proof. intro H; inversion H; auto. Qed.
Lemma holds_arr {h l vs} : holds h l (Vm.VArr vs) -> exists ls, hget h l = Some (HArr ls) /\ Forall2 (holds h) ls vs.
Proof. intro H; inversion H; eauto. Qed.

(* a frame of lx_l against a frame of Sem: the same names, related values *)
Definition frel_in (h : heap) (lf : CompileSem.frame) (sf : frame) : Prop :=
  forall n, match frame_get n sf with
            | Some l => exists v, CompileSem.alook n lf = Some v /\ holds h l v
            | None => CompileSem.alook n lf = None
            end.
(* the global frame of lx_l against the globals of Sem (which also hold err, errmsg, pi) *)
Definition frel_gl (h : heap) (gf : CompileSem.frame) (g : frame) : Prop :=
  forall n v, CompileSem.alook n gf = Some v -> exists l, frame_get n g = Some l /\ holds h l v.

(* lenv = inner frames ++ [globals] against (env, st_globals) *)
Definition envrel (lenv : CompileSem.senv) (E : env) (s : state) : Prop :=
  exists lfs gf, lenv = lfs ++ [gf] /\
                 Forall2 (frel_in (st_heap s)) lfs E /\ frel_gl (st_heap s) gf (st_globals s).

Lemma frel_in_ext h h' lf sf : heap_extends h h' -> frel_in h lf sf -> frel_in h' lf sf.
Proof.
  intros X F n. specialize (F n). destruct (frame_get n sf); auto.
  destruct F as (v & A & H). exists v; split; auto. eapply holds_ext; eauto.
Qed.
Lemma frel_gl_ext h h' gf g : heap_extends h h' -> frel_gl h gf g -> frel_gl h' gf g.
Proof.
  intros X F n v A. destruct (F n v A) as (l & G & H). exists l; split; auto. eapply holds_ext; eauto.
Qed.
Lemma envrel_ext lenv E s s' :
  heap_extends (st_heap s) (st_heap s') -> st_globals s' = st_globals s -> envrel lenv E s -> envrel lenv E s'.
Proof.
  intros X G (lfs & gf & -> & F & FG). exists lfs, gf. split; auto. split.
  - eapply Forall2_impl; [|exact F]. intros; eapply frel_in_ext; eauto.
  - rewrite G. eapply frel_gl_ext; eauto.
Qed.

Lemma not_underscore n : name_ok n = true -> str_eqb n underscore = false.
Proof. apply negb_true_iff. Qed.

Lemma lookup_tie lenv E s n v :
  envrel lenv E s -> name_ok n = true -> CompileSem.slook n lenv = Some v ->
  exists l, lookup n E s = (Ok (Some l), s) /\ holds (st_heap s) l v.
Proof.
  intros (lfs & gf & -> & F & FG) N H. unfold lookup. rewrite (not_underscore _ N).
  induction F as [|lf sf lt st Hf F IH]; simpl in *.
  - destruct (CompileSem.alook n gf) as [w|] eqn:A; [|discriminate]. inversion H; subst w.
    destruct (FG n v A) as (l & G & Hl). exists l. rewrite G. auto.
  - specialize (Hf n). destruct (frame_get n sf) as [l|].
    + destruct Hf as (w & A & Hl). rewrite A in H. inversion H; subst w. exists l. auto.
    + rewrite Hf in H. apply IH; auto.
Qed.

Definition good (s : state) : Prop := wf s /\ tick_ok s.

(* s' comes from s by allocations and yields only *)
Definition sext (s s' : state) : Prop :=
  heap_extends (st_heap s) (st_heap s') /\ good s' /\
  st_globals s' = st_globals s /\ st_trace s' = st_trace s /\
  st_total s' = st_total s /\ st_fails s' = st_fails s.

Lemma sext_refl s : good s -> sext s s.
Proof. intro G. repeat split; auto; try apply heap_extends_refl; apply G. Qed.
Lemma sext_trans a b c : sext a b -> sext b c -> sext a c.
Proof.
  intros (A1 & A2 & A3 & A4 & A5 & A6) (B1 & B2 & B3 & B4 & B5 & B6).
  split; [eapply heap_extends_trans; eauto|]. split; [exact B2|]. repeat split; congruence.
Qed.

Lemma sext_good {s s'} : sext s s' -> good s'.
Proof. intros (_ & G & _). exact G. Qed.
Lemma sext_heap {s s'} : sext s s' -> heap_extends (st_heap s) (st_heap s').
Proof. intros (H & _). exact H. Qed.
Lemma sext_globals {s s'} : sext s s' -> st_globals s' = st_globals s.
Proof. intros (_ & _ & H & _). exact H. Qed.

Definition tickst (s : state) : state := upd_yield (S (st_yields s)) false s.
Lemma sext_tickst s : good s -> sext s (tickst s).
Proof. intros [W T]. repeat split; simpl; auto; try apply heap_extends_refl; apply T. Qed.
Lemma good_tickst s : good s -> good (tickst s).
Proof. intro G. exact (sext_good (sext_tickst s G)). Qed.
Lemma envrel_sext {lenv E s s'} : sext s s' -> envrel lenv E s -> envrel lenv E s'.
Proof. intros X. apply envrel_ext; [apply (sext_heap X) | apply (sext_globals X)]. Qed.
Lemma envrel_tickst {lenv E s} : good s -> envrel lenv E s -> envrel lenv E (tickst s).
Proof. intro G. apply envrel_sext, sext_tickst, G. Qed.
Lemma sext_tick_trans s s' : good s -> sext (tickst s) s' -> sext s s'.
Proof. intros G X. eapply sext_trans; [apply sext_tickst, G | exact X]. Qed.

Definition allocst (s : state) (v : hval) : state := upd_heap (snd (halloc (st_heap s) v)) s.
Lemma sext_allocst s v : good s -> sext s (allocst s v).
Proof.
  intros [W T]. repeat split; simpl; auto; try apply T.
  - lia.
  - intros l x Hx. apply hget_halloc_old; auto.
  - apply fresh_ok_halloc; auto.
Qed.
Lemma good_allocst s v : good s -> good (allocst s v).
Proof. intro G. exact (sext_good (sext_allocst s v G)). Qed.
Lemma hget_allocst s v : hget (st_heap (allocst s v)) (hnext (st_heap s)) = Some v.
Proof. apply hget_halloc_new. Qed.

Lemma run_ok {A B} {m : M A} {k : A -> M B} {s a s'} : m s = (Ok a, s') -> bindM m k s = k a s'.
Proof. apply bindM_ok. Qed.
Lemma run_tick {A} {k : unit -> M A} {s} : good s -> bindM tick k s = k tt (tickst s).
Proof. intros [_ T]. exact (run_ok (tick_run s T)). Qed.
Lemma run_load {A} {k : hval -> M A} {s l v} : hget (st_heap s) l = Some v -> bindM (load l) k s = k v s.
Proof. intro H. exact (run_ok (load_hget l s v H)). Qed.
Lemma run_load_num {A} {k : float -> M A} {s l f} : hget (st_heap s) l = Some (HNum f) -> bindM (load_num l) k s = k f s.
Proof. intro H. unfold bindM, load_num, bindM, load. rewrite H. reflexivity. Qed.
Lemma run_load_str {A} {k : str -> M A} {s l f} : hget (st_heap s) l = Some (HStr f) -> bindM (load_str l) k s = k f s.
Proof. intro H. unfold bindM, load_str, bindM, load. rewrite H. reflexivity. Qed.
Lemma run_alloc {A} (k : loc -> M A) s v : bindM (alloc v) k s = k (hnext (st_heap s)) (allocst s v).
Proof. reflexivity. Qed.
Lemma run_depth {A} (k : nat -> M A) s : bindM depth_fuel k s = k value_depth s.
Proof. reflexivity. Qed.

(* a successful run is reproduced with more fuel: the components of SemOrder.fuel_mono *)
Section Mono.
  Context {P : program} {n m : nat} (L : (n <= m)%nat).

  Lemma expr_mono {E x s l s'} : eval_expr n P E x s = (Ok l, s') -> eval_expr m P E x s = (Ok l, s').
  Proof. intro H. destruct (fuel_mono n m L) as (M & _). eapply M; [exact H | discriminate]. Qed.
  Lemma exprs_mono {E x s l s'} : eval_exprs n P E x s = (Ok l, s') -> eval_exprs m P E x s = (Ok l, s').
  Proof. intro H. destruct (fuel_mono n m L) as (_ & M & _). eapply M; [exact H | discriminate]. Qed.
  Lemma stmt_mono {E x s r s'} : exec_stmt n P E x s = (Ok r, s') -> exec_stmt m P E x s = (Ok r, s').
  Proof. intro H. destruct (fuel_mono n m L) as (_ & _ & _ & M & _). eapply M; [exact H | discriminate]. Qed.
  Lemma stmts_mono {E x s r s'} : exec_stmts n P E x s = (Ok r, s') -> exec_stmts m P E x s = (Ok r, s').
  Proof. intro H. destruct (fuel_mono n m L) as (_ & _ & _ & _ & M & _). eapply M; [exact H | discriminate]. Qed.
  Lemma block_mono {E x s r s'} : exec_block n P E x s = (Ok r, s') -> exec_block m P E x s = (Ok r, s').
  Proof. intro H. destruct (fuel_mono n m L) as (_ & _ & _ & _ & _ & M & _). eapply M; [exact H | discriminate]. Qed.
  Lemma cond_mono {E c b s r s'} : exec_cond n P E c b s = (Ok r, s') -> exec_cond m P E c b s = (Ok r, s').
  Proof. intro H. destruct (fuel_mono n m L) as (_ & _ & _ & _ & _ & _ & M & _). eapply M; [exact H | discriminate]. Qed.
  Lemma while_mono {E c b s r s'} : exec_while n P E c b s = (Ok r, s') -> exec_while m P E c b s = (Ok r, s').
  Proof. intro H. destruct (fuel_mono n m L) as (_ & _ & _ & _ & _ & _ & _ & M & _). eapply M; [exact H | discriminate]. Qed.

  Lemma if_go_mono {els cl E s r s'} :
    SemStore.if_go (exec_cond n P) (exec_block n P) els cl E s = (Ok r, s') ->
    SemStore.if_go (exec_cond m P) (exec_block m P) els cl E s = (Ok r, s').
  Proof.
    revert E s r s'. induction cl as [|[c b] t IH]; intros E s r s' H; simpl in H |- *.
    - destruct els as [body|]; [|exact H].
      unfold bindM in *. destruct (exec_block n P ([] :: E) body s) as [[[sig e1]|er] s1] eqn:Q; [|discriminate].
      rewrite (block_mono Q). exact H.
    - unfold bindM in *. destruct (exec_cond n P E c b s) as [[[o e1]|er] s1] eqn:Q; [|discriminate].
      rewrite (cond_mono Q). destruct o; [exact H | apply IH; exact H].
  Qed.
End Mono.

Lemma alloc_tie s hv v : good s -> (forall h l, hget h l = Some hv -> holds h l v) ->
  exists l s', alloc hv s = (Ok l, s') /\ holds (st_heap s') l v /\ sext s s'.
Proof.
  intros G Hh. exists (hnext (st_heap s)), (allocst s hv).
  split; [reflexivity|]. split; [apply Hh, hget_allocst | apply sext_allocst, G].
Qed.

Lemma alloc_arr_tie s ls vs : good s -> Forall2 (holds (st_heap s)) ls vs ->
  exists l s', alloc (HArr ls) s = (Ok l, s') /\ holds (st_heap s') l (Vm.VArr vs) /\ sext s s'.
Proof.
  intros G F. pose proof (sext_allocst s (HArr ls) G) as X.
  exists (hnext (st_heap s)), (allocst s (HArr ls)). split; [reflexivity|]. split; [|exact X].
  apply (h_arr _ _ ls vs); [apply hget_allocst | exact (Forall2_holds_ext (sext_heap X) F)].
Qed.

(* math.Mod: the VM model's and the evaluator model's definitions agree *)
Lemma is_nan_spec x : is_nan x = match Prim2SF x with SpecFloat.S754_nan => true | _ => false end.
Proof.
  unfold is_nan. rewrite FloatAxioms.eqb_spec. unfold SpecFloat.SFeqb, SpecFloat.SFcompare.
  destruct (Prim2SF x) as [s|s| |s m e]; try reflexivity.
  - destruct s; reflexivity.
  - rewrite Z.compare_refl, Pos.compare_cont_refl. destruct s; reflexivity.
Qed.
Lemma float_mod_fmod x y : Vm.float_mod x y = fmod x y.
Proof.
  unfold Vm.float_mod, fmod. rewrite !is_nan_spec.
  destruct (Prim2SF x) as [sx|sx| |sx mx ex], (Prim2SF y) as [sy|sy| |sy my ey]; try reflexivity.
Qed.

Lemma holds_of_cell h h' l c v hv :
  heap_extends h h' -> holds h l v -> hget h l = Some hv -> hget h' c = Some hv -> holds h' c v.
Proof.
  intros X H G G'. destruct H as [l f G0|l b G0|l x G0 A|l ls vs G0 F]; rewrite G in G0; inversion G0; subst.
  - apply h_num; auto.
  - apply h_bool; auto.
  - apply h_str; auto.
  - apply (h_arr h' c ls vs); [exact G' | exact (Forall2_holds_ext X F)].
Qed.

(* copyOrRef of a held cell: a fresh cell for a basic value, the same cell for an array *)
Lemma copy_tie d s l v : good s -> holds (st_heap s) l v ->
  exists c s', copy_or_ref (S d) l s = (Ok c, s') /\ holds (st_heap s') c v /\ sext s s'.
Proof.
  intros G H. destruct (holds_cell H) as (hv & Gl & [B|Cc]).
  - exists (hnext (st_heap s)), (allocst s hv). split; [apply (basic_copied d l s hv Gl B)|].
    split; [|apply sext_allocst; auto].
    eapply holds_of_cell; [apply (sext_heap (sext_allocst s hv G)) | exact H | exact Gl | apply hget_allocst].
  - exists l, s. split; [apply (composite_shared d l s hv Gl Cc)|]. split; [exact H | apply sext_refl; auto].
Qed.

Lemma copy_list_tie d : forall ls vs s, good s -> Forall2 (holds (st_heap s)) ls vs ->
  exists ls' s', mapM (copy_or_ref (S d)) ls s = (Ok ls', s') /\ Forall2 (holds (st_heap s')) ls' vs /\ sext s s'.
Proof.
  induction ls as [|l t IH]; intros vs s G F; inversion F as [|? v ? vt Hl Ft]; subst.
  - exists [], s. split; [reflexivity|]. split; [constructor | apply sext_refl; auto].
  - destruct (copy_tie d s l v G Hl) as (c & s1 & Hc & Hh & X1).
    destruct (IH vt s1 (sext_good X1) (Forall2_holds_ext (sext_heap X1) Ft)) as (t' & s2 & Ht & Hh2 & X2).
    exists (c :: t'), s2. split.
    + cbn [mapM]. rewrite (run_ok Hc), (run_ok Ht). reflexivity.
    + split; [|eapply sext_trans; eauto]. constructor; auto.
      eapply holds_ext; [apply (sext_heap X2) | exact Hh].
Qed.

(* value.Equals on two cells that hold plain values, one of them a scalar *)
Lemma equals_tie d s la lb a b t :
  holds (st_heap s) la a -> holds (st_heap s) lb b -> scalar a \/ scalar b -> Vm.val_equals a b = Some t ->
  equals (S d) la lb s = (Ok t, s).
Proof.
  intros Ha Hb Sc Hv.
  destruct Ha as [la x Ga|la x Ga|la x Ga Aa|la xs vxs Ga Fa], Hb as [lb y Gb|lb y Gb|lb y Gb Ab|lb ys vys Gb Fb];
    try discriminate Hv; try (destruct Sc as [[]|[]]; fail);
    cbn [equals]; rewrite (run_load Ga), (run_load Gb); inversion Hv; reflexivity.
Qed.

(* Outside == and !=, Compile.eval_binop is defined on four combinations of operands only. *)
Lemma eval_binop_kind op lt rt a b v :
  op <> Compile.BEq -> op <> Compile.BNe -> Compile.eval_binop op lt rt a b = Some v ->
  (exists x y, a = Vm.VNum x /\ b = Vm.VNum y /\ lt = Compile.TNum /\ rt = Compile.TNum) \/
  (exists x y, a = Vm.VStr x /\ b = Vm.VStr y /\ lt = Compile.TStr /\ rt = Compile.TStr) \/
  (exists x y, a = Vm.VArr x /\ b = Vm.VArr y /\ op = Compile.BPlus /\ v = Vm.VArr (x ++ y)) \/
  (op = Compile.BStar /\ lt = Compile.TArr).
Proof.
  intros N1 N2 H.
  assert (K : match lt, rt, a, b with
              | Compile.TNum, Compile.TNum, Vm.VNum _, Vm.VNum _ | Compile.TStr, Compile.TStr, Vm.VStr _, Vm.VStr _
              | Compile.TArr, Compile.TArr, Vm.VArr _, Vm.VArr _ | Compile.TArr, Compile.TNum, Vm.VArr _, Vm.VNum _ => True
              | _, _, _, _ => False
              end).
  { destruct op; try congruence; unfold Compile.eval_binop in H;
      destruct lt; try discriminate H; destruct rt; try discriminate H;
      destruct a; try discriminate H; destruct b; try discriminate H; exact I. }
  destruct lt; try contradiction; destruct rt; try contradiction; destruct a; try contradiction; destruct b; try contradiction.
  - left. eauto 7.
  - right; left. eauto 7.
  - right; right; right. destruct op; try discriminate H; auto; congruence.
  - right; right; left. destruct op; try discriminate H; try congruence. inversion H. eauto 7.
Qed.

Lemma bin_num_tie op op' x y v s :
  trop op = Some op' -> good s -> Compile.eval_binop op Compile.TNum Compile.TNum (Vm.VNum x) (Vm.VNum y) = Some v ->
  op <> Compile.BEq -> op <> Compile.BNe ->
  exists l s', bin_num op' x y s = (Ok l, s') /\ holds (st_heap s') l v /\ sext s s'.
Proof.
  intros T G Hv N1 N2. destruct op; try congruence; inversion T; subst op'; simpl in Hv;
    try (destruct (PrimFloat.eqb y 0); [discriminate Hv|]); inversion Hv; subst v;
    try rewrite float_mod_fmod; apply alloc_tie; auto; intros; constructor; assumption.
Qed.

Lemma bin_str_tie op op' x y v s :
  trop op = Some op' -> good s -> is_ascii x = true -> is_ascii y = true ->
  Compile.eval_binop op Compile.TStr Compile.TStr (Vm.VStr x) (Vm.VStr y) = Some v ->
  op <> Compile.BEq -> op <> Compile.BNe ->
  exists l s', bin_str op' x y s = (Ok l, s') /\ holds (st_heap s') l v /\ sext s s'.
Proof.
  intros T G Ax Ay Hv N1 N2. destruct op; try congruence; inversion T; subst op'; try discriminate Hv;
    inversion Hv; subst v; apply alloc_tie; auto; intros; constructor; auto using is_ascii_app.
Qed.

(* array + array: both operands' elements are copied (copyOrRef), left to right *)
Lemma bin_arr_tie s lb xs vxs ys vys :
  good s -> Forall2 (holds (st_heap s)) xs vxs -> hget (st_heap s) lb = Some (HArr ys) ->
  Forall2 (holds (st_heap s)) ys vys ->
  exists l s', bin_arr BPlus xs lb s = (Ok l, s') /\ holds (st_heap s') l (Vm.VArr (vxs ++ vys)) /\ sext s s'.
Proof.
  intros G Fa Gb Fb. unfold bin_arr. rewrite (run_load Gb), run_depth.
  destruct value_depth_S as [d Hd]. rewrite Hd.
  destruct (copy_list_tie d xs vxs s G Fa) as (xs' & s1 & Hx & Hhx & X1).
  destruct (copy_list_tie d ys vys s1 (sext_good X1) (Forall2_holds_ext (sext_heap X1) Fb))
    as (ys' & s2 & Hy & Hhy & X2).
  rewrite (run_ok Hx), (run_ok Hy).
  destruct (alloc_arr_tie s2 (xs' ++ ys') (vxs ++ vys) (sext_good X2)) as (l & s3 & Al & Hl & X3).
  { apply Forall2_app; [exact (Forall2_holds_ext (sext_heap X2) Hhx) | exact Hhy]. }
  exists l, s3. split; [exact Al|]. split; [exact Hl|]. eapply sext_trans; [exact X1|]. eapply sext_trans; eauto.
Qed.

Lemma dispatch_tie op op' lt rt s la lb a b v :
  trop op = Some op' -> op <> Compile.BEq -> op <> Compile.BNe -> (op = Compile.BStar -> lt <> Compile.TArr) -> good s ->
  holds (st_heap s) la a -> holds (st_heap s) lb b -> Compile.eval_binop op lt rt a b = Some v ->
  exists l s', bin_dispatch op' la lb s = (Ok l, s') /\ holds (st_heap s') l v /\ sext s s'.
Proof.
  intros T N1 N2 NR G Ha Hb Hv. unfold bin_dispatch.
  destruct (eval_binop_kind _ _ _ _ _ _ N1 N2 Hv)
    as [(x & y & -> & -> & -> & ->)|[(x & y & -> & -> & -> & ->)|[(x & y & -> & -> & -> & ->)|[-> Q]]]];
    [..|destruct (NR eq_refl Q)].
  - rewrite (run_load (holds_num Ha)), (run_load_num (holds_num Hb)).
    apply (bin_num_tie _ _ _ _ _ _ T G Hv N1 N2).
  - destruct (holds_str Ha) as [Ga Ax], (holds_str Hb) as [Gb Ay].
    rewrite (run_load Ga), (run_load_str Gb). apply (bin_str_tie _ _ _ _ _ _ T G Ax Ay Hv N1 N2).
  - destruct (holds_arr Ha) as (xs & Ga & Fa), (holds_arr Hb) as (ys & Gb & Fb).
    inversion T; subst op'. rewrite (run_load Ga). apply (bin_arr_tie s lb xs x ys y G Fa Gb Fb).
Qed.

Lemma short_of_trop op op' v : trop op = Some op' -> short_of op' v = false.
Proof. destruct op; simpl; intro T; inversion T; subst; reflexivity. Qed.

(* a manifestly scalar expression has a scalar value whenever it has one *)
Lemma scalar_valued_sound env : forall e v, scalar_valued e = true -> Compile.eval_expr env e = Some v -> scalar v.
Proof.
  fix IH 1. intros e v S Ev. destruct e; simpl in S; try discriminate; simpl in Ev.
  - inversion Ev; exact I.
  - inversion Ev; exact I.
  - inversion Ev; exact I.
  - destruct op; try discriminate;
      destruct (Compile.eval_expr env e) as [[]|]; try discriminate; inversion Ev; exact I.
  - destruct (Compile.eval_expr env e1) as [a|]; [|discriminate]. destruct (Compile.eval_expr env e2) as [b|]; [|discriminate].
    unfold Compile.eval_binop in Ev.
    destruct op; try discriminate;
      try (destruct (Vm.val_equals a b); [inversion Ev; exact I | discriminate]);
      destruct lt; try discriminate; destruct rt; try discriminate;
      destruct a; try discriminate; destruct b; try discriminate;
      try (destruct (PrimFloat.eqb _ 0); try discriminate); inversion Ev; exact I.
  - apply (IH e v S Ev).
Qed.

Lemma norm_idx_eq f n b i : Vm.normalize_index f n b = Vm.IOk i -> normalize_index f n b = Ok i.
Proof.
  unfold Vm.normalize_index, normalize_index.
  change (Vm.go_int_exact f) with (Num.go_int_exact f).
  destruct (go_int_exact f) as [z|]; [|discriminate].
  destruct ((z <? - Z.of_nat n) || ((if b then Z.of_nat n else Z.of_nat n - 1) <? z))%Z; [discriminate|].
  destruct (z <? 0)%Z; intro H; inversion H; reflexivity.
Qed.
Lemma norm_idx_lt f n i : Vm.normalize_index f n false = Vm.IOk i -> (i < n)%nat.
Proof.
  unfold Vm.normalize_index. destruct (Vm.go_int_exact f) as [z|]; [|discriminate].
  destruct ((z <? - Z.of_nat n) || (Z.of_nat n - 1 <? z))%Z eqn:Q; [discriminate|].
  apply orb_false_iff in Q as [Q1 Q2]. apply Z.ltb_ge in Q1, Q2.
  destruct (z <? 0)%Z eqn:Q3; intro H; inversion H; subst.
  - apply Z.ltb_lt in Q3. lia.
  - apply Z.ltb_ge in Q3. lia.
Qed.
Lemma Forall2_nth_holds h ls vs i v :
  Forall2 (holds h) ls vs -> nth_error vs i = Some v -> exists l, nth_error ls i = Some l /\ holds h l v.
Proof.
  intro F. revert i. induction F as [|l w lt vt Hl F IH]; intros [|i] H; simpl in *; try discriminate.
  - inversion H; subst. eauto.
  - apply IH; auto.
Qed.
Lemma Forall2_len_holds h ls vs : Forall2 (holds h) ls vs -> List.length ls = List.length vs.
Proof. induction 1; simpl; auto. Qed.
Lemma nth_first_skip {A} (l : list A) i c : nth_error l i = Some c -> firstn 1 (skipn i l) = [c].
Proof. revert i. induction l as [|a t IH]; intros [|i] H; simpl in *; try discriminate; [inversion H; auto | auto]. Qed.

(* at some fuel the run succeeds, in cells that hold the values, having only allocated and yielded *)
Definition ev_ok (P : program) (E : env) (x : expr) (s : state) (v : Vm.value) : Prop :=
  exists N l s', eval_expr N P E x s = (Ok l, s') /\ holds (st_heap s') l v /\ sext s s'.
Definition evs_ok (P : program) (E : env) (xs : list expr) (s : state) (vs : list Vm.value) : Prop :=
  exists N ls s', eval_exprs N P E xs s = (Ok ls, s') /\ Forall2 (holds (st_heap s')) ls vs /\ sext s s'.

Lemma ev_lit P E x s hv v :
  good s -> (forall n, eval_expr (S n) P E x = (let* _ := tick in alloc hv)) ->
  (forall h l, hget h l = Some hv -> holds h l v) -> ev_ok P E x s v.
Proof.
  intros G Hx Hh. destruct (alloc_tie (tickst s) hv v (good_tickst s G) Hh) as (l & s' & Al & Hl & X).
  exists 1%nat, l, s'. rewrite Hx, (run_tick G). split; [exact Al|]. split; [exact Hl | exact (sext_tick_trans s s' G X)].
Qed.

Lemma ev_var P lenv E s n t v :
  good s -> envrel lenv E s -> name_ok n = true -> CompileSem.slook n lenv = Some v -> ev_ok P E (EVar n t) s v.
Proof.
  intros G R Fr Ev. destruct (lookup_tie _ _ _ _ _ (envrel_tickst G R) Fr Ev) as (l & L & Hl).
  exists 1%nat, l, (tickst s). split; [|split; [exact Hl | apply sext_tickst, G]].
  cbn [eval_expr]. rewrite (run_tick G), (run_ok L). reflexivity.
Qed.

(* a run of y that ends in a state reached from s2, itself reached from s *)
Lemma ev_ok_via P E y s s2 N v :
  sext s s2 ->
  (exists l s', eval_expr N P E y s = (Ok l, s') /\ holds (st_heap s') l v /\ sext s2 s') -> ev_ok P E y s v.
Proof.
  intros X (l & s' & Hx & Hl & X'). exists N, l, s'. split; [exact Hx | split; [exact Hl | eapply sext_trans; eauto]].
Qed.

(* a node y that yields, runs its one operand x and goes on with k from the cell reached *)
Lemma ev_step P E x y s a v (k : loc -> M loc) :
  good s -> (forall n, eval_expr (S n) P E y = (let* _ := tick in let* l := eval_expr n P E x in k l)) ->
  ev_ok P E x (tickst s) a ->
  (forall l s1, good s1 -> holds (st_heap s1) l a ->
     exists c s2, k l s1 = (Ok c, s2) /\ holds (st_heap s2) c v /\ sext s1 s2) ->
  ev_ok P E y s v.
Proof.
  intros G Hy (N & l & s1 & Hx & Hl & X1) Hk.
  apply (ev_ok_via P E y s s1 (S N) v (sext_tick_trans _ _ G X1)).
  rewrite Hy, (run_tick G), (run_ok Hx). exact (Hk l s1 (sext_good X1) Hl).
Qed.

Lemma ev_group P E x s v : good s -> ev_ok P E x (tickst s) v -> ev_ok P E (EGroup x) s v.
Proof.
  intros G (N & l & s' & Hx & Hl & X). exists (S N), l, s'.
  split; [|split; [exact Hl | apply sext_tick_trans; assumption]].
  cbn [eval_expr]. rewrite (run_tick G). exact Hx.
Qed.
Lemma ev_neg P E x s f : good s -> ev_ok P E x (tickst s) (Vm.VNum f) -> ev_ok P E (EUn UMinus x) s (Vm.VNum (- f)).
Proof.
  intros G Hx. eapply (ev_step P E x _ s _ _ _ G); [reflexivity | exact Hx|].
  intros l s1 G1 Hl. cbv beta. rewrite (run_load (holds_num Hl)).
  apply alloc_tie; [exact G1 | intros; apply h_num; assumption].
Qed.
Lemma ev_not P E x s b : good s -> ev_ok P E x (tickst s) (Vm.VBool b) -> ev_ok P E (EUn UBang x) s (Vm.VBool (negb b)).
Proof.
  intros G Hx. eapply (ev_step P E x _ s _ _ _ G); [reflexivity | exact Hx|].
  intros l s1 G1 Hl. cbv beta. rewrite (run_load (holds_bool Hl)).
  apply alloc_tie; [exact G1 | intros; apply h_bool; assumption].
Qed.

(* a node with two operands: both runs at one fuel; the left cell still holds its value afterwards *)
Lemma two_runs P E xa xb s a b :
  good s -> ev_ok P E xa (tickst s) a -> (forall s1, sext (tickst s) s1 -> ev_ok P E xb s1 b) ->
  exists N la s1 lb s2, eval_expr N P E xa (tickst s) = (Ok la, s1) /\ eval_expr N P E xb s1 = (Ok lb, s2) /\
    holds (st_heap s1) la a /\ holds (st_heap s2) la a /\ holds (st_heap s2) lb b /\ sext s s2.
Proof.
  intros G (N1 & la & s1 & Hx1 & Hl1 & X1) Hb. destruct (Hb s1 X1) as (N2 & lb & s2 & Hx2 & Hl2 & X2).
  exists (Nat.max N1 N2), la, s1, lb, s2.
  split; [exact (expr_mono (Nat.le_max_l N1 N2) Hx1)|].
  split; [exact (expr_mono (Nat.le_max_r N1 N2) Hx2)|].
  split; [exact Hl1|]. split; [exact (holds_ext _ _ (sext_heap X2) _ _ Hl1)|]. split; [exact Hl2|].
  apply sext_tick_trans; [exact G | eapply sext_trans; eauto].
Qed.

(* == and != through value.Equals; g is the identity or negb *)
Lemma eq_tie (g : bool -> bool) s la lb a b tb :
  good s -> holds (st_heap s) la a -> holds (st_heap s) lb b -> scalar a \/ scalar b -> Vm.val_equals a b = Some tb ->
  exists l s', (let* d := depth_fuel in let* r := equals d la lb in alloc (HBool (g r))) s = (Ok l, s') /\
               holds (st_heap s') l (Vm.VBool (g tb)) /\ sext s s'.
Proof.
  intros G Ha Hb Sc Q. destruct value_depth_S as [d Hd].
  rewrite run_depth, Hd, (run_ok (equals_tie d s la lb a b tb Ha Hb Sc Q)).
  apply alloc_tie; [exact G | intros; apply h_bool; assumption].
Qed.

Lemma ev_bin P E op op' lt rt t xl xr s a b v :
  trop op = Some op' -> good s ->
  ev_ok P E xl (tickst s) a -> (forall s1, sext (tickst s) s1 -> ev_ok P E xr s1 b) ->
  match op with
  | Compile.BEq | Compile.BNe => scalar a \/ scalar b
  | Compile.BStar => lt <> Compile.TArr
  | _ => True
  end ->
  Compile.eval_binop op lt rt a b = Some v -> ev_ok P E (EBin op' t xl xr) s v.
Proof.
  intros T G Ha Hb Side Hv.
  destruct (two_runs P E xl xr s a b G Ha Hb) as (N & la & s1 & lb & s2 & Hx1 & Hx2 & Hl1 & Hl1' & Hl2 & X02).
  destruct (holds_cell Hl1) as (hva & Ga & _). pose proof (sext_good X02) as G2.
  apply (ev_ok_via P E _ s s2 (S N) v X02).
  rewrite eval_expr_EBin, (run_tick G), (run_ok Hx1), (run_load Ga).
  rewrite (short_of_trop _ _ hva T), (run_ok Hx2).
  assert (C : op = Compile.BEq \/ op = Compile.BNe \/ op <> Compile.BEq /\ op <> Compile.BNe)
    by (destruct op; auto; right; right; split; discriminate).
  destruct C as [-> | [-> | [N1 N2]]].
  - injection T as <-. simpl in Hv. destruct (Vm.val_equals a b) as [tb|] eqn:Q; [|discriminate]. injection Hv as <-.
    exact (eq_tie (fun r => r) s2 la lb a b tb G2 Hl1' Hl2 Side Q).
  - injection T as <-. simpl in Hv. destruct (Vm.val_equals a b) as [tb|] eqn:Q; [|discriminate]. injection Hv as <-.
    exact (eq_tie negb s2 la lb a b tb G2 Hl1' Hl2 Side Q).
  - destruct op; try congruence; inversion T; subst op';
      apply (dispatch_tie _ _ lt rt s2 la lb a b v T N1 N2); try assumption; intro Q; try discriminate Q; exact Side.
Qed.

Lemma ev_arr P E t xl s vs : good s -> evs_ok P E xl (tickst s) vs -> ev_ok P E (EArr t xl) s (Vm.VArr vs).
Proof.
  intros G (N & ls & s1 & Hx & Hh & X1).
  apply (ev_ok_via P E _ s s1 (S N) _ (sext_tick_trans _ _ G X1)).
  cbn [eval_expr]. rewrite (run_tick G), (run_ok Hx).
  exact (alloc_arr_tie s1 ls vs (sext_good X1) Hh).
Qed.

(* a[i]: the element cell itself of an array, a fresh one-character string of a string *)
Lemma ev_index P E t xl xi s a b v :
  good s -> ev_ok P E xl (tickst s) a -> (forall s1, sext (tickst s) s1 -> ev_ok P E xi s1 b) ->
  Vm.index_value a b = Vm.POk v -> ev_ok P E (EIndex t xl xi) s v.
Proof.
  intros G Ha Hb Iv.
  destruct (two_runs P E xl xi s a b G Ha Hb) as (N & la & s1 & li & s2 & Hx1 & Hx2 & _ & Hl1 & Hl2 & X02).
  pose proof (sext_good X02) as G2.
  apply (ev_ok_via P E _ s s2 (S N) v X02). cbn [eval_expr]. rewrite (run_tick G), (run_ok Hx1), (run_ok Hx2).
  unfold Vm.index_value in Iv.
  destruct Hl1 as [la x Ga|la x Ga|la x Ga Aa|la ls vs Ga Fa]; try discriminate;
    destruct Hl2 as [li f Gi|li y Gi|li y Gi Ai|li ys vys Gi Fi']; try discriminate;
    rewrite (run_load Ga), (run_load_num Gi); unfold lift at 1; unfold bindM at 1.
  - rewrite (dec_ascii _ Aa) in Iv.
    destruct (Vm.normalize_index f (List.length x) false) as [k|] eqn:Nk; [|discriminate]. inversion Iv; subst v.
    pose proof (norm_idx_lt _ _ _ Nk) as Lk.
    destruct (nth_error x k) as [c|] eqn:Nc; [|apply nth_error_None in Nc; lia].
    change (match skipn k x with [] => [] | a0 :: _ => [a0] end) with (firstn 1 (skipn k x)).
    rewrite (nth_first_skip _ _ _ Nc). pose proof (is_ascii_nth _ _ _ Aa Nc) as Ac.
    rewrite (utf8_ascii _ Ac), (norm_idx_eq _ _ _ _ Nk), Nc.
    apply alloc_tie; [exact G2 | intros; apply h_str; assumption].
  - destruct (Vm.normalize_index f (List.length vs) false) as [k|] eqn:Nk; [|discriminate].
    destruct (nth_error vs k) as [w|] eqn:Nw; [|discriminate]. inversion Iv; subst w.
    destruct (Forall2_nth_holds _ _ _ _ _ Fa Nw) as (le & Nl & Hle).
    rewrite (Forall2_len_holds _ _ _ Fa), (norm_idx_eq _ _ _ _ Nk), Nl.
    exists le, s2. split; [reflexivity|]. split; [exact Hle | apply sext_refl, G2].
Qed.

(* the elements of an array literal: each is evaluated and copied (copyOrRef) in turn *)
Lemma evs_cons P E x xt s w ws :
  ev_ok P E x s w -> (forall s1, sext s s1 -> evs_ok P E xt s1 ws) -> evs_ok P E (x :: xt) s (w :: ws).
Proof.
  intros (N1 & l & s1 & Hx1 & Hl1 & X1) Ht. destruct value_depth_S as [d Hd].
  destruct (copy_tie d s1 l w (sext_good X1) Hl1) as (c & s2 & Hc & Hhc & X2).
  assert (X12 : sext s s2) by (eapply sext_trans; eauto).
  destruct (Ht s2 X12) as (N2 & ls & s3 & Hx3 & Hl3 & X3).
  exists (S (Nat.max N1 N2)), (c :: ls), s3. split; [|split].
  - cbn [eval_exprs]. rewrite (run_ok (expr_mono (Nat.le_max_l N1 N2) Hx1)).
    rewrite run_depth, Hd, (run_ok Hc).
    rewrite (run_ok (exprs_mono (Nat.le_max_r N1 N2) Hx3)). reflexivity.
  - constructor; [exact (holds_ext _ _ (sext_heap X3) _ _ Hhc) | exact Hl3].
  - eapply sext_trans; eauto.
Qed.

Theorem tie_expr_all P :
  (forall e x, xrel e x -> forall lenv E s v,
     tfrag_e e = true -> Compile.eval_expr (fun n => CompileSem.slook n lenv) e = Some v ->
     envrel lenv E s -> good s -> ev_ok P E x s v) /\
  (forall l xl, xlrel l xl -> forall lenv E s vs,
     tfrag_el l = true -> Compile.eval_list (fun n => CompileSem.slook n lenv) l = Some vs ->
     envrel lenv E s -> good s -> evs_ok P E xl s vs).
Proof.
  apply xrel_xlrel_ind;
    [ intros f | intros b | intros str0 | intros n t | intros e x Hx0 IH | intros e x Hx0 IH | intros e x Hx0 IH
    | intros op op' lt rt t l r xl xr H Hxl IHl Hxr IHr
    | intros l xl t Hl IHl | intros l i xl xi t Hxl IHl Hxi IHi
    | | intros e t x xt Hx0 IHx Hxt IHt ];
    intros lenv E s v Fr Ev R G; simpl in Fr, Ev; pose proof (envrel_tickst G R) as R1; pose proof (good_tickst s G) as G1.
  - inversion Ev; subst. apply ev_lit with (hv := HNum f); auto. intros; apply h_num; auto.
  - inversion Ev; subst. apply ev_lit with (hv := HBool b); auto. intros; apply h_bool; auto.
  - inversion Ev; subst. rewrite (utf8_ascii _ Fr). apply ev_lit with (hv := HStr str0); auto.
    intros; apply h_str; auto.
  - exact (ev_var P lenv E s n t v G R Fr Ev).
  - exact (ev_group P E x s v G (IH _ _ _ _ Fr Ev R1 G1)).
  - destruct (Compile.eval_expr _ e) as [[f| | | | | |]|] eqn:Ee; try discriminate. inversion Ev; subst v.
    exact (ev_neg P E x s f G (IH _ _ _ _ Fr Ee R1 G1)).
  - destruct (Compile.eval_expr _ e) as [[| b | | | | |]|] eqn:Ee; try discriminate. inversion Ev; subst v.
    exact (ev_not P E x s b G (IH _ _ _ _ Fr Ee R1 G1)).
  - rewrite H in Fr. apply andb_true_iff in Fr as [Fr Fx]. apply andb_true_iff in Fr as [Fl Fr].
    destruct (Compile.eval_expr _ l) as [a|] eqn:El; [|discriminate].
    destruct (Compile.eval_expr _ r) as [b|] eqn:Er; [|discriminate].
    apply (ev_bin P E op op' lt rt t xl xr s a b v H G (IHl _ _ _ _ Fl El R1 G1)); [| |exact Ev].
    + intros s1 X1. exact (IHr _ _ _ _ Fr Er (envrel_sext X1 R1) (sext_good X1)).
    + destruct op; try exact I; [intro Q; subst lt; discriminate Fx | |];
        (apply orb_true_iff in Fx as [Fx|Fx]; [left | right]; eapply scalar_valued_sound; eauto).
  - destruct (Compile.eval_list _ l) as [vs|] eqn:El; [|discriminate]. inversion Ev; subst v.
    exact (ev_arr P E t xl s vs G (IHl _ _ _ _ Fr El R1 G1)).
  - apply andb_true_iff in Fr as [Fl Fi].
    destruct (Compile.eval_expr _ l) as [a|] eqn:El; [|discriminate].
    destruct (Compile.eval_expr _ i) as [b|] eqn:Ei; [|discriminate].
    destruct (Vm.index_value a b) as [w| |] eqn:Iv; try discriminate. inversion Ev; subst w.
    apply (ev_index P E t xl xi s a b v G (IHl _ _ _ _ Fl El R1 G1)); [|exact Iv].
    intros s1 X1. exact (IHi _ _ _ _ Fi Ei (envrel_sext X1 R1) (sext_good X1)).
  - inversion Ev; subst. exists 1%nat, [], s. split; [reflexivity|]. split; [constructor | apply sext_refl; auto].
  - apply andb_true_iff in Fr as [Fe Ft].
    destruct (Compile.eval_expr _ e) as [w|] eqn:Ee; [|discriminate].
    destruct (Compile.eval_list _ t) as [ws|] eqn:Et; [|discriminate]. inversion Ev; subst v.
    apply (evs_cons P E x xt s w ws (IHx _ _ _ _ Fe Ee R G)).
    intros s1 X1. exact (IHt _ _ _ _ Ft Et (envrel_sext X1 R) (sext_good X1)).
Qed.

Definition tie_expr P := proj1 (tie_expr_all P).

Inductive srel : Compile.stmt -> stmt -> Prop :=
| s_decl n t e x : xrel e x -> srel (Compile.SDecl n e) (SDecl n t x)
| s_assign n t e x : xrel e x -> srel (Compile.SAssign (Compile.EVar n) e) (SAssign (EVar n t) x)
| s_empty : srel Compile.SEmpty SNop
| s_break : srel Compile.SBreak SBreak
| s_if c b elifs els xc xb xelifs xels :
    xrel c xc -> lrel b xb -> crel elifs xelifs -> orel els xels ->
    srel (Compile.SIf c b elifs els) (SIf ((xc, xb) :: xelifs) xels)
| s_while c b xc xb : xrel c xc -> lrel b xb -> srel (Compile.SWhile c b) (SWhile xc xb)
with lrel : Compile.slist -> list stmt -> Prop :=
| l_nil : lrel Compile.SNil []
| l_cons s t x xt : srel s x -> lrel t xt -> lrel (Compile.SCons s t) (x :: xt)
with crel : Compile.clist -> list (expr * list stmt) -> Prop :=
| c_nil : crel Compile.CNil []
| c_cons c b t xc xb xt : xrel c xc -> lrel b xb -> crel t xt -> crel (Compile.CCons c b t) ((xc, xb) :: xt)
with orel : Compile.oslist -> option (list stmt) -> Prop :=
| o_none : orel Compile.NoElse None
| o_some b xb : lrel b xb -> orel (Compile.Else b) (Some xb).

Fixpoint tfrag_s (s : Compile.stmt) : bool :=
  match s with
  | Compile.SDecl n e => name_ok n && tfrag_e e
  | Compile.SAssign (Compile.EVar n) e => name_ok n && tfrag_e e
  | Compile.SEmpty | Compile.SBreak => true
  | Compile.SIf c b elifs els =>
      tfrag_e c && tfrag_l b && tfrag_c elifs && match els with Compile.NoElse => true | Compile.Else eb => tfrag_l eb end
  | Compile.SWhile c b => tfrag_e c && tfrag_l b
  | _ => false
  end
with tfrag_l (l : Compile.slist) : bool :=
  match l with Compile.SNil => true | Compile.SCons s t => tfrag_s s && tfrag_l t end
with tfrag_c (l : Compile.clist) : bool :=
  match l with Compile.CNil => true | Compile.CCons c b t => tfrag_e c && tfrag_l b && tfrag_c t end.

Lemma alook_cons n m v lf : CompileSem.alook m ((n, v) :: lf) = if str_eqb n m then Some v else CompileSem.alook m lf.
Proof. reflexivity. Qed.

(* binding n in a frame, by any update sf' of sf that sets n and nothing else *)
Lemma frel_in_upd h n v c lf sf sf' :
  frel_in h lf sf -> holds h c v -> frame_get n sf' = Some c ->
  (forall m, m <> n -> frame_get m sf' = frame_get m sf) -> frel_in h ((n, v) :: lf) sf'.
Proof.
  intros F H Gn Go m. rewrite alook_cons. destruct (str_eqb n m) eqn:Q.
  - apply str_eqb_eq in Q; subst m. rewrite Gn. eauto.
  - apply str_eqb_neq in Q. rewrite Go by congruence. apply F.
Qed.
Lemma frel_gl_upd h n v c gf g g' :
  frel_gl h gf g -> holds h c v -> frame_get n g' = Some c ->
  (forall m, m <> n -> frame_get m g' = frame_get m g) -> frel_gl h ((n, v) :: gf) g'.
Proof.
  intros F H Gn Go m w. rewrite alook_cons. destruct (str_eqb n m) eqn:Q.
  - apply str_eqb_eq in Q; subst m. intro A; inversion A; subst w. rewrite Gn. eauto.
  - apply str_eqb_neq in Q. rewrite Go by congruence. apply F.
Qed.

(* sext without the globals clause: what a statement may do to the state *)
Definition gext (s s' : state) : Prop :=
  heap_extends (st_heap s) (st_heap s') /\ good s' /\
  st_trace s' = st_trace s /\ st_total s' = st_total s /\ st_fails s' = st_fails s.
Lemma gext_refl s : good s -> gext s s.
Proof. intro G. split; [apply heap_extends_refl|]. split; [exact G|]. auto. Qed.
Lemma gext_trans a b c : gext a b -> gext b c -> gext a c.
Proof.
  intros (A1 & A2 & A3 & A4 & A5) (B1 & B2 & B3 & B4 & B5).
  split; [eapply heap_extends_trans; eauto|]. split; [exact B2|]. repeat split; congruence.
Qed.
Lemma sext_gext s s' : sext s s' -> gext s s'.
Proof. intros (A1 & A2 & A3 & A4 & A5 & A6). split; [exact A1|]. split; [exact A2|]. auto. Qed.
Lemma gext_good {s s'} : gext s s' -> good s'.
Proof. intros (_ & G & _). exact G. Qed.
Lemma gext_tick_trans s s' : good s -> gext (tickst s) s' -> gext s s'.
Proof. intros G X. eapply gext_trans; [apply sext_gext, sext_tickst, G | exact X]. Qed.
Lemma gext_same_heap s s' : good s -> st_heap s' = st_heap s ->
  (st_trace s' = st_trace s /\ st_stopped s' = st_stopped s /\ st_stop_at s' = st_stop_at s /\
   st_total s' = st_total s /\ st_fails s' = st_fails s) -> gext s s'.
Proof.
  intros [W [T1 T2]] Hh (A & B & C0 & D & F). split; [rewrite Hh; apply heap_extends_refl|].
  split; [|auto]. split; [unfold wf; rewrite Hh; exact W | split; congruence].
Qed.

(* x := e *)
Lemma decl_tie lenv E s n v c :
  envrel lenv E s -> good s -> name_ok n = true -> holds (st_heap s) c v ->
  exists E' s', set_var n c E s = (Ok E', s') /\ envrel (CompileSem.sdecl n v lenv) E' s' /\
                gext s s' /\ List.length E' = List.length E.
Proof.
  intros (lfs & gf & -> & F & FG) G N H. unfold set_var. rewrite (not_underscore _ N).
  inversion F as [|lf sf lt st Hf F']; subst.
  - eexists [], _. split; [reflexivity|]. split; [|split; [apply gext_same_heap; [exact G | reflexivity | repeat split] | reflexivity]].
    exists [], ((n, v) :: gf). split; [reflexivity|]. split; [constructor|].
    apply (frel_gl_upd _ _ _ c _ (st_globals s) _ FG H); [apply frame_get_set_same | intros m Qm; apply frame_get_set_other, Qm].
  - eexists _, s. split; [reflexivity|]. split; [|split; [apply gext_refl, G | reflexivity]].
    exists (((n, v) :: lf) :: lt), gf. split; [reflexivity|]. split; [|exact FG].
    constructor; [|exact F']. apply (frel_in_upd _ _ _ c _ sf _ Hf H); [apply frame_get_set_same | intros m Qm; apply frame_get_set_other, Qm].
Qed.

(* x = e *)
Lemma assign_tie lenv E s n v c lenv' :
  envrel lenv E s -> good s -> name_ok n = true -> holds (st_heap s) c v -> CompileSem.sassign n v lenv = Some lenv' ->
  exists E' s', update_var n c E s = (Ok E', s') /\ envrel lenv' E' s' /\
                gext s s' /\ List.length E' = List.length E.
Proof.
  intros (lfs & gf & -> & F & FG) G N H A. unfold update_var. rewrite (not_underscore _ N).
  revert lenv' A. induction F as [|lf sf lt st Hf F IH]; intros lenv' A; simpl in A |- *.
  - destruct (CompileSem.alook n gf) as [w|] eqn:Q; [|discriminate]. inversion A; subst lenv'.
    destruct (FG n w Q) as (l0 & G0 & _). rewrite G0.
    eexists [], _. split; [reflexivity|]. split; [|split; [apply gext_same_heap; [exact G | reflexivity | repeat split] | reflexivity]].
    exists [], ((n, v) :: gf). split; [reflexivity|]. split; [constructor|].
    apply (frel_gl_upd _ _ _ c _ (st_globals s) _ FG H); [apply frame_get_replace_same; congruence | intros m Qm; apply frame_get_replace_other, Qm].
  - pose proof (Hf n) as Hn. destruct (frame_get n sf) as [l0|] eqn:G0.
    + destruct Hn as (w & Q & _). rewrite Q in A. inversion A; subst lenv'.
      eexists _, s. split; [reflexivity|]. split; [|split; [apply gext_refl, G | reflexivity]].
      exists (((n, v) :: lf) :: lt), gf. split; [reflexivity|]. split; [|exact FG].
      constructor; [|exact F]. apply (frel_in_upd _ _ _ c _ sf _ Hf H); [apply frame_get_replace_same; congruence | intros m Qm; apply frame_get_replace_other, Qm].
    + rewrite Hn in A. destruct (CompileSem.sassign n v (lt ++ [gf])) as [r|] eqn:Q; [|discriminate].
      inversion A; subst lenv'. destruct (IH _ eq_refl) as (E' & s' & U & (lfs' & gf' & Eq & F' & FG') & X & Hlen).
      assert (R' : envrel (lf :: r) (sf :: E') s').
      { exists (lf :: lfs'), gf'. split; [simpl; rewrite Eq; reflexivity|]. split; [|exact FG'].
        constructor; [|exact F']. exact (frel_in_ext _ _ _ _ (proj1 X) Hf). }
      destruct (env_update n c st) as [st'|] eqn:U'; [|destruct (frame_get n (st_globals s))];
        inversion U; subst; eexists _, _; (split; [reflexivity|]); (split; [exact R'|]); (split; [exact X|]);
        simpl; f_equal; exact Hlen.
Qed.

(* the signal of Sem.v against the break flag of lx *)
Definition sigbr (sig : signal) (br : bool) : Prop :=
  match sig, br with SigNone, false => True | SigBreak, true => True | _, _ => False end.

Lemma envrel_push lenv E s : envrel lenv E s -> envrel ([] :: lenv) ([] :: E) s.
Proof.
  intros (lfs & gf & -> & F & FG). exists ([] :: lfs), gf. split; [reflexivity|]. split; [|exact FG].
  constructor; auto. intro n. reflexivity.
Qed.
Lemma envrel_pop lenv E s : envrel lenv E s -> E <> [] -> envrel (tl lenv) (tl E) s.
Proof.
  intros (lfs & gf & -> & F & FG) N. inversion F; subst; [congruence|].
  exists l, gf. auto.
Qed.
Lemma envrel_gext lenv E s s' :
  heap_extends (st_heap s) (st_heap s') -> frel_gl (st_heap s') (last lenv []) (st_globals s') ->
  envrel lenv E s -> envrel lenv E s'.
Proof.
  intros X FG (lfs & gf & -> & F & _). exists lfs, gf. split; auto. split.
  - eapply Forall2_impl; [|exact F]. intros; eapply frel_in_ext; eauto.
  - rewrite last_last in FG. exact FG.
Qed.

Section Stmts.
  Variable P : program.

  (* the statement list part of the induction, at a given fuel of lx *)
  Definition list_tie (f : nat) : Prop :=
    forall l xl lenv E s lenv' br,
      CompileSem.lx_l f l lenv = Some (lenv', br) -> lrel l xl -> tfrag_l l = true -> envrel lenv E s -> good s ->
      exists N sig E' s', exec_stmts N P E xl s = (Ok (sig, E'), s') /\ sigbr sig br /\
                          envrel lenv' E' s' /\ gext s s' /\ List.length E' = List.length E.

  (* a block: push, run, pop *)
  Lemma block_tie f b xb lenv E s lenv1 br :
    list_tie f -> CompileSem.leave (CompileSem.lx_l f b ([] :: lenv)) = Some (lenv1, br) ->
    lrel b xb -> tfrag_l b = true -> envrel lenv E s -> good s ->
    exists N sig E2 s', exec_block N P ([] :: E) xb s = (Ok (sig, E2), s') /\ sigbr sig br /\
                        envrel lenv1 (tl E2) s' /\ gext s s' /\ List.length (tl E2) = List.length E.
  Proof.
    intros HL Hl Rb Fb R G. unfold CompileSem.leave in Hl.
    destruct (CompileSem.lx_l f b ([] :: lenv)) as [[lenv2 br2]|] eqn:Q; [|discriminate]. inversion Hl; subst.
    pose proof (envrel_tickst G (envrel_push _ _ _ R)) as R1.
    destruct (HL _ _ _ _ _ _ _ Q Rb Fb R1 (good_tickst s G)) as (N & sig & E2 & s' & Hx & Hs & R2 & X & Hlen).
    exists (S N), sig, E2, s'. split; [cbn [exec_block]; rewrite (run_tick G); exact Hx|].
    split; [exact Hs|]. simpl in Hlen.
    split; [apply envrel_pop; auto; destruct E2; [discriminate | congruence]|].
    split; [apply gext_tick_trans; [exact G | exact X]|].
    destruct E2; simpl in *; [discriminate | lia].
  Qed.

  Lemma cond_true_tie f c b xc xb lenv E s lenv1 br :
    list_tie f -> Compile.eval_expr (fun n => CompileSem.slook n lenv) c = Some (Vm.VBool true) ->
    CompileSem.leave (CompileSem.lx_l f b ([] :: lenv)) = Some (lenv1, br) ->
    xrel c xc -> lrel b xb -> tfrag_e c = true -> tfrag_l b = true -> envrel lenv E s -> good s ->
    exists N sig E1 s', exec_cond N P E xc xb s = (Ok (Some sig, E1), s') /\ sigbr sig br /\
                        envrel lenv1 E1 s' /\ gext s s' /\ List.length E1 = List.length E.
  Proof.
    intros HL Ec Hl Rc Rb Fc Fb R G.
    destruct (tie_expr P c xc Rc ([] :: lenv) ([] :: E) s _ Fc Ec (envrel_push _ _ _ R) G)
      as (N1 & l & s1 & Hx & Hh & X1).
    destruct (block_tie f b xb lenv E s1 lenv1 br HL Hl Rb Fb (envrel_sext X1 R) (sext_good X1))
      as (N2 & sig & E2 & s' & Hb & Hs & R2 & X2 & Hlen).
    exists (S (Nat.max N1 N2)), sig, (tl E2), s'.
    split.
    - cbn [exec_cond]. rewrite (run_ok (expr_mono (Nat.le_max_l N1 N2) Hx)).
      rewrite (run_load (holds_bool Hh)). rewrite (run_ok (block_mono (Nat.le_max_r N1 N2) Hb)).
      reflexivity.
    - split; [exact Hs|]. split; [exact R2|]. split; [|exact Hlen].
      eapply gext_trans; [apply sext_gext; exact X1 | exact X2].
  Qed.

  Lemma cond_false_tie c xc xb lenv E s :
    Compile.eval_expr (fun n => CompileSem.slook n lenv) c = Some (Vm.VBool false) ->
    xrel c xc -> tfrag_e c = true -> envrel lenv E s -> good s ->
    exists N s', exec_cond N P E xc xb s = (Ok (None, E), s') /\ envrel lenv E s' /\ gext s s'.
  Proof.
    intros Ec Rc Fc R G.
    destruct (tie_expr P c xc Rc ([] :: lenv) ([] :: E) s _ Fc Ec (envrel_push _ _ _ R) G)
      as (N1 & l & s1 & Hx & Hh & X1).
    exists (S N1), s1. split.
    - cbn [exec_cond]. rewrite (run_ok Hx), (run_load (holds_bool Hh)). reflexivity.
    - split; [eapply envrel_sext; eauto | apply sext_gext; exact X1].
  Qed.
End Stmts.

Section Main.
  Variable P : program.

  (* the other parts: a statement, an else-if chain with its else block, a while loop *)
  Definition stmt_tie (f : nat) : Prop :=
    forall st x lenv E s lenv' br,
      CompileSem.lx_s f st lenv = Some (lenv', br) -> srel st x -> tfrag_s st = true -> envrel lenv E s -> good s ->
      exists N sig E' s', exec_stmt N P E x s = (Ok (sig, E'), s') /\ sigbr sig br /\
                          envrel lenv' E' s' /\ gext s s' /\ List.length E' = List.length E.
  Definition conds_tie (f : nat) : Prop :=
    forall cl els xcl xels lenv E s lenv' br,
      CompileSem.lx_c f cl els lenv = Some (lenv', br) -> crel cl xcl -> orel els xels -> tfrag_c cl = true ->
      match els with Compile.NoElse => true | Compile.Else eb => tfrag_l eb end = true -> envrel lenv E s -> good s ->
      exists N sig E' s',
        SemStore.if_go (exec_cond N P) (exec_block N P) xels xcl E s = (Ok (sig, E'), s') /\ sigbr sig br /\
        envrel lenv' E' s' /\ gext s s' /\ List.length E' = List.length E.
  Definition while_tie (f : nat) : Prop :=
    forall c b xc xb lenv E s lenv' br,
      CompileSem.lx_s f (Compile.SWhile c b) lenv = Some (lenv', br) -> xrel c xc -> lrel b xb ->
      tfrag_e c = true -> tfrag_l b = true -> envrel lenv E s -> good s ->
      exists N E' s', exec_while N P E xc xb s = (Ok (SigNone, E'), s') /\ br = false /\
                      envrel lenv' E' s' /\ gext s s' /\ List.length E' = List.length E.

  (* a declaration or an assignment: evaluate, copy, bind (set_var n or update_var n) *)
  Lemma store_tie (bind : loc -> env -> M env) e x lenv lenv' E s v :
    xrel e x -> tfrag_e e = true -> Compile.eval_expr (fun n => CompileSem.slook n lenv) e = Some v ->
    envrel lenv E s -> good s ->
    (forall c s2, envrel lenv E s2 -> good s2 -> holds (st_heap s2) c v ->
       exists E' s', bind c E s2 = (Ok E', s') /\ envrel lenv' E' s' /\ gext s2 s' /\ List.length E' = List.length E) ->
    exists N E' s',
      (let* _ := tick in let* v0 := eval_expr N P E x in let* d := depth_fuel in let* c := copy_or_ref d v0 in
       let* e' := bind c E in ret (SigNone, e')) s = (Ok (SigNone, E'), s') /\
      envrel lenv' E' s' /\ gext s s' /\ List.length E' = List.length E.
  Proof.
    intros Rx Fx Ev R G Hb.
    destruct (tie_expr P e x Rx lenv E (tickst s) v Fx Ev (envrel_tickst G R) (good_tickst s G))
      as (N & l & s1 & Hx & Hh & X1).
    destruct value_depth_S as [d Hd].
    destruct (copy_tie d s1 l v (sext_good X1) Hh) as (c & s2 & Hc & Hhc & X2).
    assert (X02 : sext s s2) by (apply sext_tick_trans; [exact G | eapply sext_trans; eauto]).
    destruct (Hb c s2 (envrel_sext X02 R) (sext_good X02) Hhc) as (E' & s3 & Hd3 & R3 & X3 & Hlen).
    exists N, E', s3. split; [|split; [exact R3 | split; [eapply gext_trans; [apply sext_gext, X02 | exact X3] | exact Hlen]]].
    rewrite (run_tick G), (run_ok Hx), run_depth, Hd, (run_ok Hc), (run_ok Hd3).
    reflexivity.
  Qed.

  Lemma while_step f : list_tie P f -> while_tie f -> while_tie (S f).
  Proof.
    intros IL IW c b xc xb lenv E s lenv' br H Rc Rb Fc Fb R G. cbn [CompileSem.lx_s] in H.
    destruct (Compile.eval_expr (fun x => CompileSem.slook x lenv) c) as [[| [|] | | | | |]|] eqn:Ec; try discriminate.
    - (* the condition holds *)
      destruct (CompileSem.leave (CompileSem.lx_l f b ([] :: lenv))) as [[env1 br1]|] eqn:Hl; [|discriminate H].
      destruct (cond_true_tie P f c b xc xb lenv E s env1 br1 IL Ec Hl Rc Rb Fc Fb R G)
        as (N1 & sig & E1 & s1 & Hc & Hs & R1 & X1 & Hlen1).
      destruct br1.
      + (* break *)
        inversion H; subst. destruct sig; simpl in Hs; try contradiction.
        exists (S N1), E1, s1. split; [cbn [exec_while]; rewrite (run_ok Hc); reflexivity|]. auto.
      + destruct sig; simpl in Hs; try contradiction.
        destruct (IW c b xc xb env1 E1 s1 lenv' br H Rc Rb Fc Fb R1 (gext_good X1))
          as (N2 & E2 & s2 & Hw & Hbr & R2 & X2 & Hlen2).
        exists (S (Nat.max N1 N2)), E2, s2. split.
        * cbn [exec_while]. rewrite (run_ok (cond_mono (Nat.le_max_l N1 N2) Hc)).
          exact (while_mono (Nat.le_max_r N1 N2) Hw).
        * split; [exact Hbr|]. split; [exact R2|]. split; [eapply gext_trans; eauto | congruence].
    - (* the condition fails *)
      inversion H; subst.
      destruct (cond_false_tie P c xc xb lenv' E s Ec Rc Fc R G) as (N1 & s1 & Hc & R1 & X1).
      exists (S N1), E, s1. split; [cbn [exec_while]; rewrite (run_ok Hc); reflexivity|]. auto.
  Qed.

  Lemma conds_step f : list_tie P f -> conds_tie f -> conds_tie (S f).
  Proof.
    intros IL IC cl els xcl xels lenv E s lenv' br H Rc Ro Fc Fo R G. cbn [CompileSem.lx_c] in H.
    inversion Rc as [|c b t xc xb xt Rc1 Rb1 Rt1]; subst.
    - (* no condition left: the else block, if any *)
      inversion Ro as [|eb xeb Reb]; subst.
      + inversion H; subst. exists 0%nat, SigNone, E, s. simpl. repeat split; auto; try apply G; apply heap_extends_refl.
      + destruct (block_tie P f eb xeb lenv E s lenv' br IL H Reb Fo R G) as (N & sig & E2 & s' & Hb & Hs & R2 & X & Hlen).
        exists N, sig, (tl E2), s'. simpl. rewrite (run_ok Hb). auto.
    - simpl in Fc. apply andb_true_iff in Fc as [Fc Ft]. apply andb_true_iff in Fc as [Fc1 Fb1].
      destruct (Compile.eval_expr (fun x => CompileSem.slook x lenv) c) as [[| [|] | | | | |]|] eqn:Ec; try discriminate.
      + destruct (cond_true_tie P f c b xc xb lenv E s lenv' br IL Ec H Rc1 Rb1 Fc1 Fb1 R G)
          as (N1 & sig & E1 & s1 & Hc & Hs & R1 & X1 & Hlen1).
        exists N1, sig, E1, s1. simpl. rewrite (run_ok Hc). auto.
      + destruct (cond_false_tie P c xc xb lenv E s Ec Rc1 Fc1 R G) as (N1 & s1 & Hc & R1 & X1).
        destruct (IC t els xt xels lenv E s1 lenv' br H Rt1 Ro Ft Fo R1 (gext_good X1))
          as (N2 & sig & E2 & s2 & Hi & Hs & R2 & X2 & Hlen2).
        exists (Nat.max N1 N2), sig, E2, s2. simpl.
        rewrite (run_ok (cond_mono (Nat.le_max_l N1 N2) Hc)).
        split; [exact (if_go_mono (Nat.le_max_r N1 N2) Hi)|].
        split; [exact Hs|]. split; [exact R2|]. split; [eapply gext_trans; eauto | exact Hlen2].
  Qed.
  Lemma stmt_step f : conds_tie f -> while_tie (S f) -> stmt_tie (S f).
  Proof.
    intros IC IW st x lenv E s lenv' br H Rs Fs R G.
    inversion Rs as [n t e xe Rx|n t e xe Rx| | |c b elifs els xc xb xelifs xels Rc Rb Rl Ro|c b xc xb Rc Rb];
      subst; cbn [CompileSem.lx_s] in H; simpl in Fs.
    - (* x := e *)
      apply andb_true_iff in Fs as [Fn Fe].
      destruct (Compile.eval_expr (fun x0 => CompileSem.slook x0 lenv) e) as [v|] eqn:Ev; [|discriminate]. inversion H; subst.
      destruct (store_tie (set_var n) e xe lenv (CompileSem.sdecl n v lenv) E s v Rx Fe Ev R G) as (N & E' & s' & Hr & Rest).
      { intros c s2 R2 G2 Hh. exact (decl_tie lenv E s2 n v c R2 G2 Fn Hh). }
      exists (S N), SigNone, E', s'. split; [exact Hr|]. split; [exact I | exact Rest].
    - (* x = e *)
      apply andb_true_iff in Fs as [Fn Fe].
      destruct (Compile.eval_expr (fun x0 => CompileSem.slook x0 lenv) e) as [v|] eqn:Ev; [|discriminate].
      destruct (CompileSem.sassign n v lenv) as [lenv1|] eqn:Ha; [|discriminate]. inversion H; subst.
      destruct (store_tie (update_var n) e xe lenv lenv' E s v Rx Fe Ev R G) as (N & E' & s' & Hr & Rest).
      { intros c s2 R2 G2 Hh. exact (assign_tie lenv E s2 n v c lenv' R2 G2 Fn Hh Ha). }
      exists (S N), SigNone, E', s'. split; [exact Hr|]. split; [exact I | exact Rest].
    - (* empty statement *)
      inversion H; subst. exists 1%nat, SigNone, E, (tickst s).
      split; [cbn [exec_stmt]; rewrite (run_tick G); reflexivity|].
      split; [exact I|]. split; [exact (envrel_tickst G R)|].
      split; [apply sext_gext, sext_tickst; auto | reflexivity].
    - (* break *)
      inversion H; subst. exists 1%nat, SigBreak, E, (tickst s).
      split; [cbn [exec_stmt]; rewrite (run_tick G); reflexivity|].
      split; [exact I|]. split; [exact (envrel_tickst G R)|].
      split; [apply sext_gext, sext_tickst; auto | reflexivity].
    - (* if *)
      apply andb_true_iff in Fs as [Fs Fo]. apply andb_true_iff in Fs as [Fs Fl]. apply andb_true_iff in Fs as [Fc Fb].
      destruct (IC (Compile.CCons c b elifs) els ((xc, xb) :: xelifs) xels lenv E (tickst s) lenv' br H
                   (c_cons _ _ _ _ _ _ Rc Rb Rl) Ro)
        as (N & sig & E' & s' & Hi & Hs & R' & X & Hlen).
      { simpl. rewrite Fc, Fb, Fl. reflexivity. }
      { exact Fo. }
      { exact (envrel_tickst G R). }
      { apply good_tickst; auto. }
      exists (S N), sig, E', s'. split; [rewrite SemStore.exec_stmt_SIf, (run_tick G); exact Hi|].
      split; [exact Hs|]. split; [exact R'|]. split; [|exact Hlen].
      apply gext_tick_trans; [exact G | exact X].
    - (* while *)
      apply andb_true_iff in Fs as [Fc Fb].
      destruct (IW c b xc xb lenv E (tickst s) lenv' br H Rc Rb Fc Fb
                   (envrel_tickst G R) (good_tickst s G))
        as (N & E' & s' & Hw & Hbr & R' & X & Hlen).
      subst br. exists (S N), SigNone, E', s'.
      split; [cbn [exec_stmt]; rewrite (run_tick G); exact Hw|].
      split; [exact I|]. split; [exact R'|]. split; [|exact Hlen].
      apply gext_tick_trans; [exact G | exact X].
  Qed.

  Lemma list_step f : stmt_tie f -> list_tie P f -> list_tie P (S f).
  Proof.
    intros IS IL l xl lenv E s lenv' br H Rl Fl R G. cbn [CompileSem.lx_l] in H.
    inversion Rl as [|st t x xt Rs Rt]; subst.
    - inversion H; subst. exists 1%nat, SigNone, E, s. split; [reflexivity|].
      split; [exact I|]. split; [exact R|]. split; [apply gext_refl; auto | reflexivity].
    - simpl in Fl. apply andb_true_iff in Fl as [Fs Ft].
      destruct (CompileSem.lx_s f st lenv) as [[env1 br1]|] eqn:Hs; [|discriminate H].
      destruct (IS st x lenv E s env1 br1 Hs Rs Fs R G) as (N1 & sig & E1 & s1 & Hx & Hsig & R1 & X1 & Hlen1).
      destruct br1.
      + inversion H; subst. destruct sig; simpl in Hsig; try contradiction.
        exists (S N1), SigBreak, E1, s1. split; [cbn [exec_stmts]; rewrite (run_ok Hx); reflexivity|]. auto.
      + destruct sig; simpl in Hsig; try contradiction.
        destruct (IL t xt env1 E1 s1 lenv' br H Rt Ft R1 (gext_good X1)) as (N2 & sig & E2 & s2 & Hl & Hsig2 & R2 & X2 & Hlen2).
        exists (S (Nat.max N1 N2)), sig, E2, s2. split.
        * cbn [exec_stmts]. rewrite (run_ok (stmt_mono (Nat.le_max_l N1 N2) Hx)).
          exact (stmts_mono (Nat.le_max_r N1 N2) Hl).
        * split; [exact Hsig2|]. split; [exact R2|]. split; [eapply gext_trans; eauto | congruence].
  Qed.

  Theorem tie_all : forall f, stmt_tie f /\ list_tie P f /\ conds_tie f /\ while_tie f.
  Proof.
    induction f as [|f (IS & IL & IC & IW)].
    - repeat split; intro; intros; discriminate.
    - (* while_tie (S f) is the while case of stmt_tie (S f): both speak of lx_s (S f), which runs
         blocks and else-if chains at fuel f *)
      pose proof (while_step f IL IW) as W.
      split; [apply stmt_step; auto|]. split; [apply list_step; auto|]. split; [apply conds_step; auto | exact W].
  Qed.
End Main.

(* reading a basic cell back as a plain value; arrays are read back by the relation [holds] *)
Definition reify (h : heap) (l : loc) : option Vm.value :=
  match hget h l with
  | Some (HNum f) => Some (Vm.VNum f)
  | Some (HBool b) => Some (Vm.VBool b)
  | Some (HStr x) => if is_ascii x then Some (Vm.VStr (Vm.utf8_encode x)) else None
  | _ => None
  end.
Lemma reify_holds h l v : reify h l = Some v -> holds h l v.
Proof.
  unfold reify. destruct (hget h l) as [[f|x|b| | | |]|] eqn:G; try discriminate.
  - intro Q; inversion Q; apply h_num; auto.
  - destruct (is_ascii x) eqn:A; [|discriminate]. rewrite (utf8_ascii _ A).
    intro Q; inversion Q; apply h_str; auto.
  - intro Q; inversion Q; apply h_bool; auto.
Qed.
Lemma holds_reify h l v : scalar v -> holds h l v -> reify h l = Some v.
Proof.
  unfold reify. intros S H. destruct H; try contradiction; rewrite H; auto.
  rewrite H0, (utf8_ascii _ H0). reflexivity.
Qed.

(* the global n of the Sem state reads back as v *)
Definition sem_global (s : state) (n : str) (v : Vm.value) : Prop :=
  exists l, frame_get n (st_globals s) = Some l /\ holds (st_heap s) l v.

Lemma envrel_nil s : envrel [[]] [] s.
Proof. exists [], []. split; [reflexivity|]. split; [constructor|]. intros n v A; discriminate. Qed.

(* run_program ends with the test report: hence st_total and st_fails *)
Theorem tie_program (P : program) (p : Compile.slist) fuel lenv env' s0 :
  CompileSem.lx_l fuel p lenv = Some (env', false) ->
  lrel p (p_stmts P) -> tfrag_l p = true ->
  envrel lenv [] s0 -> good s0 -> st_total s0 = 0%nat -> st_fails s0 = 0%nat ->
  exists N s1, (forall n, (N <= n)%nat -> run_program n P s0 = (ODone, s1)) /\
               st_trace s1 = st_trace s0 /\
               forall n v, CompileSem.slook n env' = Some v -> sem_global s1 n v.
Proof.
  intros H Rl Fl R0 G T0 F0.
  destruct (tie_all P fuel) as (_ & IL & _ & _).
  destruct (IL p (p_stmts P) lenv [] (tickst s0) env' false H Rl Fl (envrel_tickst G R0) (good_tickst s0 G))
    as (N & sig & E' & s1 & Hx & _ & R1 & X & Hlen).
  destruct E'; [|discriminate].
  exists N, s1. split; [|split].
  - intros n Ln. unfold run_program. rewrite (run_tick G).
    rewrite (run_ok (stmts_mono Ln Hx)). cbn [ret].
    destruct X as (_ & _ & Xt & Xtot & Xf). simpl in Xtot, Xf.
    unfold test_report. rewrite Xtot, T0. simpl. rewrite Xf, F0. reflexivity.
  - destruct X as (_ & _ & Xt & _). exact Xt.
  - intros n v A. destruct R1 as (lfs & gf & Eq & F & FG).
    inversion F; subst. simpl in A.
    destruct (CompileSem.alook n gf) as [w|] eqn:Q; [|discriminate]. inversion A; subst w.
    destruct (FG n v Q) as (l & Gl & Hl). exists l. auto.
Qed.

Lemma good_init input ff ay : good (init_state None input ff ay).
Proof. split; [apply SemStore.wf_init | split; reflexivity]. Qed.

(* the translation, with every type annotation TNone: Sem.v does not look at them here *)
Fixpoint tr_e (e : Compile.expr) : expr :=
  match e with
  | Compile.ENum f => ENum f
  | Compile.EBool b => EBool b
  | Compile.EStr s => EStr s
  | Compile.EVar n => EVar n TNone
  | Compile.EGroup e1 => EGroup (tr_e e1)
  | Compile.EUn Compile.UMinus e1 => EUn UMinus (tr_e e1)
  | Compile.EUn _ e1 => EUn UBang (tr_e e1)
  | Compile.EBin op _ _ l r => EBin (match trop op with Some o => o | None => BPlus end) TNone (tr_e l) (tr_e r)
  | Compile.EArr l => EArr TNone (tr_el l)
  | Compile.EIndex l i => EIndex TNone (tr_e l) (tr_e i)
  | _ => ENum 0%float
  end
with tr_el (l : Compile.elist) : list expr :=
  match l with Compile.ENil => [] | Compile.ECons e t => tr_e e :: tr_el t end.

Fixpoint tr_s (s : Compile.stmt) : stmt :=
  match s with
  | Compile.SDecl n e => SDecl n TNone (tr_e e)
  | Compile.SAssign (Compile.EVar n) e => SAssign (EVar n TNone) (tr_e e)
  | Compile.SBreak => SBreak
  | Compile.SIf c b elifs els =>
      SIf ((tr_e c, tr_l b) :: tr_c elifs) (match els with Compile.NoElse => None | Compile.Else eb => Some (tr_l eb) end)
  | Compile.SWhile c b => SWhile (tr_e c) (tr_l b)
  | _ => SNop
  end
with tr_l (l : Compile.slist) : list stmt :=
  match l with Compile.SNil => [] | Compile.SCons s t => tr_s s :: tr_l t end
with tr_c (l : Compile.clist) : list (expr * list stmt) :=
  match l with Compile.CNil => [] | Compile.CCons c b t => (tr_e c, tr_l b) :: tr_c t end.

Lemma tr_e_rel : forall e, tfrag_e e = true -> xrel e (tr_e e).
Proof.
  fix IH 1 with (IHl (l : Compile.elist) : tfrag_el l = true -> xlrel l (tr_el l)).
  - intros e F. destruct e; simpl in F; try discriminate.
    + constructor.
    + constructor.
    + constructor.
    + constructor.
    + simpl. constructor. apply IHl; exact F.
    + destruct op; try discriminate; simpl; constructor; apply IH; exact F.
    + simpl. destruct (trop op) as [o|] eqn:T; [|discriminate]. apply andb_true_iff in F as [F F3].
      apply andb_true_iff in F as [F1 F2].
      apply x_bin; [exact T | apply IH; exact F1 | apply IH; exact F2].
    + simpl. apply andb_true_iff in F as [F1 F2]. constructor; apply IH; assumption.
    + simpl. constructor. apply IH; exact F.
  - intros l F. destruct l; simpl in F |- *; [constructor|].
    apply andb_true_iff in F as [F1 F2]. constructor; [apply IH; exact F1 | apply IHl; exact F2].
Qed.

Lemma tr_s_rel s : tfrag_s s = true -> srel s (tr_s s)
with tr_l_rel l : tfrag_l l = true -> lrel l (tr_l l)
with tr_c_rel l : tfrag_c l = true -> crel l (tr_c l).
Proof.
  - intro F. destruct s; simpl in F; try discriminate; simpl.
    + apply andb_true_iff in F as [F1 F2]. constructor. apply tr_e_rel, F2.
    + destruct target; try discriminate. apply andb_true_iff in F as [F1 F2]. constructor. apply tr_e_rel, F2.
    + apply andb_true_iff in F as [F F4]. apply andb_true_iff in F as [F F3]. apply andb_true_iff in F as [F1 F2].
      constructor; auto using tr_e_rel. destruct els; constructor; auto.
    + apply andb_true_iff in F as [F1 F2]. constructor; auto using tr_e_rel.
    + constructor.
    + constructor.
  - intro F. destruct l; simpl in F |- *; [constructor|].
    apply andb_true_iff in F as [F1 F2]. constructor; auto.
  - intro F. destruct l; simpl in F |- *; [constructor|].
    apply andb_true_iff in F as [F1 F3]. apply andb_true_iff in F1 as [F1 F2]. constructor; auto using tr_e_rel.
Qed.

