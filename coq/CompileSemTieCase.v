(* CompileSemTieCase.v — the syntactic hypothesis of the C16 tie as an executable check:
   [lrelb p xs] decides (soundly: lrelb_sound) whether the Ast.v statements xs are the
   Compile.v statements p with arbitrary type annotations — the relation lrel of
   CompileSemTie.v.  Entry point tie_case for the harness: both exported ASTs of one source
   program go in, the answer says whether the tie theorem applies to that pair. *)
From Coq Require Import ZArith NArith List String Bool Floats.
From EvyV Require Import Base Num Ast Omap Sem CompileSemTie.
From EvyV Require Vm Compile CompileSem.
Import ListNotations.

Definition binop_eqb (a b : binop) : bool :=
  match a, b with
  | BPlus, BPlus | BMinus, BMinus | BSlash, BSlash | BAsterisk, BAsterisk | BPercent, BPercent
  | BOr, BOr | BAnd, BAnd | BEq, BEq | BNotEq, BNotEq | BLt, BLt | BGt, BGt | BLtEq, BLtEq | BGtEq, BGtEq => true
  | _, _ => false
  end.

Fixpoint xrelb (e : Compile.expr) (x : expr) {struct e} : bool :=
  match e, x with
  | Compile.ENum f, ENum g => PrimFloat.Leibniz.eqb f g
  | Compile.EBool b, EBool c => Bool.eqb b c
  | Compile.EStr s, EStr t => str_eqb s t
  | Compile.EVar n, EVar m _ => str_eqb n m
  | Compile.EGroup e1, EGroup x1 => xrelb e1 x1
  | Compile.EUn Compile.UMinus e1, EUn UMinus x1 => xrelb e1 x1
  | Compile.EUn Compile.UBang e1, EUn UBang x1 => xrelb e1 x1
  | Compile.EBin op _ _ l r, EBin op' _ xl xr =>
      match trop op with Some o => binop_eqb o op' && xrelb l xl && xrelb r xr | None => false end
  | Compile.EArr l, EArr _ xl => xlrelb l xl
  | Compile.EIndex l i, EIndex _ xl xi => xrelb l xl && xrelb i xi
  | _, _ => false
  end
with xlrelb (l : Compile.elist) (xl : list expr) {struct l} : bool :=
  match l, xl with
  | Compile.ENil, [] => true
  | Compile.ECons e t, x :: xt => xrelb e x && xlrelb t xt
  | _, _ => false
  end.

Fixpoint srelb (s : Compile.stmt) (x : stmt) {struct s} : bool :=
  match s, x with
  | Compile.SDecl n e, SDecl m _ xe => str_eqb n m && xrelb e xe
  | Compile.SAssign (Compile.EVar n) e, SAssign (EVar m _) xe => str_eqb n m && xrelb e xe
  | Compile.SEmpty, SNop => true
  | Compile.SBreak, SBreak => true
  | Compile.SIf c b elifs els, SIf ((xc, xb) :: xelifs) xels =>
      xrelb c xc && lrelb b xb && crelb elifs xelifs &&
      match els, xels with
      | Compile.NoElse, None => true
      | Compile.Else eb, Some xeb => lrelb eb xeb
      | _, _ => false
      end
  | Compile.SWhile c b, SWhile xc xb => xrelb c xc && lrelb b xb
  | _, _ => false
  end
with lrelb (l : Compile.slist) (xl : list stmt) {struct l} : bool :=
  match l, xl with
  | Compile.SNil, [] => true
  | Compile.SCons s t, x :: xt => srelb s x && lrelb t xt
  | _, _ => false
  end
with crelb (l : Compile.clist) (xl : list (expr * list stmt)) {struct l} : bool :=
  match l, xl with
  | Compile.CNil, [] => true
  | Compile.CCons c b t, (xc, xb) :: xt => xrelb c xc && lrelb b xb && crelb t xt
  | _, _ => false
  end.

Lemma binop_eqb_eq a b : binop_eqb a b = true -> a = b.
Proof. destruct a, b; simpl; intro H; try discriminate; reflexivity. Qed.

Lemma xrelb_sound : forall e x, xrelb e x = true -> xrel e x.
Proof.
  fix IH 1 with (IHl (l : Compile.elist) : forall xl, xlrelb l xl = true -> xlrel l xl).
  - intros e x H.
    destruct e as [f|b|s|n|l|kvs np|uop e1|bop lt rt l r|l i|l a b|e1|w]; try destruct uop;
      destruct x; simpl in H; try discriminate H.
    + apply FloatAxioms.Leibniz.eqb_spec in H. subst. constructor.
    + apply Bool.eqb_prop in H. subst. constructor.
    + apply str_eqb_eq in H. subst. constructor.
    + apply str_eqb_eq in H. subst. constructor.
    + constructor. apply IHl; exact H.
    + destruct op; try discriminate H. constructor. apply IH; exact H.
    + destruct op; try discriminate H. constructor. apply IH; exact H.
    + destruct (trop bop) as [o|] eqn:T; [|discriminate].
      apply andb_true_iff in H as [H H3]. apply andb_true_iff in H as [H1 H2].
      apply binop_eqb_eq in H1. subst. apply x_bin; [exact T | apply IH; exact H2 | apply IH; exact H3].
    + apply andb_true_iff in H as [H1 H2]. constructor; apply IH; assumption.
    + constructor. apply IH; exact H.
  - intros l xl H. destruct l; destruct xl; simpl in H; try discriminate; [constructor|].
    apply andb_true_iff in H as [H1 H2]. constructor; [apply IH; exact H1 | apply IHl; exact H2].
Qed.

Lemma lrelb_sound : forall l xl, lrelb l xl = true -> lrel l xl.
Proof.
  fix IHl 1 with (IHs (s : Compile.stmt) : forall x, srelb s x = true -> srel s x)
                 (IHc (l : Compile.clist) : forall xl, crelb l xl = true -> crel l xl).
  - intros l xl H. destruct l; destruct xl; simpl in H; try discriminate; [constructor|].
    apply andb_true_iff in H as [H1 H2]. constructor; [apply IHs; exact H1 | apply IHl; exact H2].
  - intros s x H.
    destruct s as [n e|target e|c b elifs els|c b|lv start stop step b|lv t e b| | |b|w]; try destruct target;
      destruct x as [? ? ?|xt xe|? ?|?| |conds xels|? ?|? ? ? ?|]; simpl in H; try discriminate H.
    + apply andb_true_iff in H as [H1 H2]. apply str_eqb_eq in H1. subst. constructor. apply xrelb_sound; exact H2.
    + destruct xt; try discriminate H.
      apply andb_true_iff in H as [H1 H2]. apply str_eqb_eq in H1. subst. constructor. apply xrelb_sound; exact H2.
    + destruct conds as [|[xc xb] xelifs]; [discriminate|].
      apply andb_true_iff in H as [H H4]. apply andb_true_iff in H as [H H3]. apply andb_true_iff in H as [H1 H2].
      constructor; [apply xrelb_sound; exact H1 | apply IHl; exact H2 | apply IHc; exact H3|].
      destruct els, xels; try discriminate; constructor. apply IHl; exact H4.
    + apply andb_true_iff in H as [H1 H2]. constructor; [apply xrelb_sound; exact H1 | apply IHl; exact H2].
    + constructor.
    + constructor.
  - intros l xl H. destruct l; destruct xl as [|[xc xb] xt]; simpl in H; try discriminate; [constructor|].
    apply andb_true_iff in H as [H H3]. apply andb_true_iff in H as [H1 H2].
    constructor; [apply xrelb_sound; exact H1 | apply IHl; exact H2 | apply IHc; exact H3].
Qed.

(* (tie (stmt…) <program>) ↦ (tie outside)   the compile-side program is not in tfrag_l
                            | (tie related)   lrelb holds: the tie theorems apply to this pair
                            | (tie unrelated) the two exports of one source do not correspond
   (decoder fuel 400 as at Compile.v's own entry points) *)
Definition tie_case (x : sx) : sx :=
  match x with
  | Lst [Sym t; Lst stmts; prog] =>
      if str_eqb t (s_ "tie") then
        match Compile.dec_program 400 stmts, dec_program prog with
        | Some p, Some P =>
            if negb (tfrag_l p) then Lst [Sym (s_ "tie"); Sym (s_ "outside")]
            else if lrelb p (p_stmts P) then Lst [Sym (s_ "tie"); Sym (s_ "related")]
            else Lst [Sym (s_ "tie"); Sym (s_ "unrelated")]
        | _, _ => Sym (s_ "decode-error")
        end
      else Sym (s_ "decode-error")
  | _ => Sym (s_ "decode-error")
  end.
