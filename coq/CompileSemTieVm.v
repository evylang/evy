(* CompileSemTieVm.v — compile_correct (C16) composed with the tie of its source semantics to
   the evaluator model: on the fragment of CompileSemTie.v the VM model run of the compiled
   program ends with every global equal to what the global of the Sem.v run reads back as. *)
From Coq Require Import ZArith NArith List String Bool Floats.
From EvyV Require Import Base Num Ast Omap Sem CompileSemTie.
From EvyV Require Bytecode SymTab Vm VmProofs Compile CompileSem CompileStmtProofs CompileLocProofs.
Require EvyV.Gen.Opcodes.
Import ListNotations.

Theorem vm_equals_evaluator_model_partial :
  forall (P : program) (p : Compile.slist) (st : Compile.cstate) (fuel : nat) (env' : CompileSem.senv) (s0 : state),
  tfrag_l p = true -> lrel p (p_stmts P) ->
  CompileSem.lpfrag p = true -> Compile.compile p = Compile.COk st ->
  CompileSem.lx_l fuel p [[]] = Some (env', false) ->
  (SymTab.st_local_count (Compile.csym st) + CompileSem.ldepth p <= Gen.Opcodes.StackSize)%N ->
  good s0 -> st_total s0 = 0%nat -> st_fails s0 = 0%nat ->
  let prog := Compile.program_of (Compile.bytecode_of st) in
  exists sv N s1,
    CompileStmtProofs.reaches prog (Vm.vm_init prog) sv /\ Vm.vm_step prog sv = Vm.Halted sv /\
    Vm.ostack sv = [] /\
    (forall n, (N <= n)%nat -> run_program n P s0 = (ODone, s1)) /\
    st_trace s1 = st_trace s0 /\
    forall n y v, SymTab.st_resolve n (Compile.csym st) = Some y -> CompileSem.slook n env' = Some v ->
                  nth_error (Vm.globals sv) (N.to_nat (SymTab.sidx y)) = Some v /\
                  sem_global s1 n v.
Proof.
  intros P p st fuel env' s0 Ft Rl Fl Hc Hx Hd G T0 F0 prog.
  destruct (CompileLocProofs.compile_correct_locals p st fuel env' Fl Hc Hx Hd) as (sv & Hr & Hh & Ho & Hg).
  destruct (tie_program P p fuel [[]] env' s0 Hx Rl Ft (envrel_nil s0) G T0 F0) as (N & s1 & Hrun & Htr & Hsem).
  exists sv, N, s1. split; [exact Hr|]. split; [exact Hh|]. split; [exact Ho|]. split; [exact Hrun|].
  split; [exact Htr|]. intros n y v Hy Hv. split; [apply (Hg n y v Hy Hv) | apply Hsem; exact Hv].
Qed.

(* from the initial state, with the canonical translation of the program *)
Corollary vm_equals_evaluator_model_tr_partial :
  forall (p : Compile.slist) (st : Compile.cstate) (fuel : nat) (env' : CompileSem.senv) input ff ay,
  tfrag_l p = true -> CompileSem.lpfrag p = true -> Compile.compile p = Compile.COk st ->
  CompileSem.lx_l fuel p [[]] = Some (env', false) ->
  (SymTab.st_local_count (Compile.csym st) + CompileSem.ldepth p <= Gen.Opcodes.StackSize)%N ->
  let prog := Compile.program_of (Compile.bytecode_of st) in
  let P := {| p_funcs := []; p_handlers := []; p_stmts := tr_l p |} in
  exists sv N s1,
    CompileStmtProofs.reaches prog (Vm.vm_init prog) sv /\ Vm.vm_step prog sv = Vm.Halted sv /\
    Vm.ostack sv = [] /\
    (forall n, (N <= n)%nat -> run_program n P (init_state None input ff ay) = (ODone, s1)) /\
    st_trace s1 = [] /\
    forall n y v, SymTab.st_resolve n (Compile.csym st) = Some y -> CompileSem.slook n env' = Some v ->
                  nth_error (Vm.globals sv) (N.to_nat (SymTab.sidx y)) = Some v /\
                  sem_global s1 n v.
Proof.
  intros p st fuel env' input ff ay Ft Fl Hc Hx Hd prog P.
  exact (vm_equals_evaluator_model_partial P p st fuel env' _ Ft (tr_l_rel p Ft) Fl Hc Hx Hd (good_init input ff ay) eq_refl eq_refl).
Qed.
