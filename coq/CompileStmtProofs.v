(* CompileStmtProofs.v — compile_correct for straight-line programs:
   top-level declarations and assignments of global variables whose right-hand
   sides are in the expression fragment.  Running the VM model on the whole
   compiled program reaches the end of the code with an empty operand stack
   and every global slot holding the value a direct big-step semantics of the
   statements gives. *)
From Coq Require Import ZArith NArith List Bool Lia ZifyBool ZifyNat ZifyN Floats.
From EvyV Require Import Base Bytecode BytecodeProofs SymTab SymTabProofs Vm VmProofs Compile CompileSem CompileProofs CompileWfProofs CompileSymProofs.
Require Import EvyV.Gen.Opcodes.
Import ListNotations.
Open Scope N_scope.

Definition exec_stmt (env : genv) (s : stmt) : option genv :=
  match s with
  | SDecl n e => option_map (upd env n) (eval_expr env e)
  | SAssign (EVar n) e => option_map (upd env n) (eval_expr env e)
  | SEmpty => Some env
  | _ => None
  end.
Fixpoint exec_slist (env : genv) (p : slist) : option genv :=
  match p with
  | SNil => Some env
  | SCons s t => match exec_stmt env s with Some env1 => exec_slist env1 t | None => None end
  end.

Definition stmt_depth (s : stmt) : N :=
  match s with SDecl _ e | SAssign _ e => edepth e | _ => 0 end.
Fixpoint prog_depth (p : slist) : N :=
  match p with SNil => 0 | SCons s t => N.max (stmt_depth s) (prog_depth t) end.

Lemma exec_setglobal p s arg next v rest :
  ostack s = v :: rest -> (N.to_nat arg < List.length (globals s))%nat ->
  exec p s SetGlobal arg next =
  Running {| ip := next; ostack := rest; locals := locals s; globals := set_nth (N.to_nat arg) v (globals s) |}.
Proof.
  intros HS HL. unfold exec. cbn [simple_effect]. change (N.to_nat 1) with 1%nat. rewrite HS. cbn [List.length Nat.ltb Nat.leb firstn skipn hd].
  unfold set_nth_opt. destruct (N.to_nat arg <? List.length (globals s))%nat eqn:E; [reflexivity|apply Nat.ltb_ge in E; lia].
Qed.

Lemma top_distinct sym n1 n2 y1 y2 : outers sym = [] -> Inv sym ->
  st_resolve n1 sym = Some y1 -> st_resolve n2 sym = Some y2 -> sidx y1 = sidx y2 -> n1 = n2.
Proof.
  intros HO HI H1 H2 HE. apply (visible_no_sharing sym n1 n2 y1 y2 HI H1 H2); [|exact HE].
  rewrite (proj1 (sym_top_globals _ HO HI _ _ H1)), (proj1 (sym_top_globals _ HO HI _ _ H2)). reflexivity.
Qed.

Definition reaches (p : program) (s s' : vmstate) : Prop := exists n, vm_steps n p s = Running s'.

Lemma reaches_trans p s1 s2 s3 : reaches p s1 s2 -> reaches p s2 s3 -> reaches p s1 s3.
Proof. intros (n & H1) (m & H2). exists (n + m)%nat. eapply vm_steps_trans; eauto. Qed.

(* From st to st' the compiler appended code that, started on an empty stack
   with the globals holding env, runs to its end with the stack empty again and
   the globals holding env1, using at most dep stack slots. *)
Definition runs_env (env env1 : genv) (st st' : cstate) (dep : N) : Prop :=
  exists seg newc,
    ccode st' = ccode st ++ seg /\ cconsts st' = cconsts st ++ newc /\
    forall p vs more pre post,
      pcode p = pre ++ seg ++ post ->
      pconsts p = map const_value (cconsts st') ++ more ->
      ip vs = N.of_nat (List.length pre) -> ostack vs = [] ->
      index (cur (csym st')) <= N.of_nat (List.length (globals vs)) ->
      globals_hold env (csym st) (globals vs) ->
      N.of_nat (List.length (locals vs)) + dep <= StackSize ->
      exists s', reaches p vs s' /\ ip s' = ip vs + N.of_nat (List.length seg) /\ ostack s' = [] /\
                 locals s' = locals vs /\ List.length (globals s') = List.length (globals vs) /\
                 globals_hold env1 (csym st') (globals s').

Lemma runs_env_refl env st dep : runs_env env env st st dep.
Proof.
  exists [], []. split; [rewrite app_nil_r; reflexivity|]. split; [rewrite app_nil_r; reflexivity|].
  intros p s more pre post H1 H2 H3 H4 H5 H6 H7. exists s. split; [exists 0%nat; reflexivity|].
  simpl. repeat split; auto. lia.
Qed.

Lemma runs_env_seq env env1 env2 st st1 st2 d1 d2 :
  runs_env env env1 st st1 d1 -> runs_env env1 env2 st1 st2 d2 ->
  index (cur (csym st1)) <= index (cur (csym st2)) ->
  runs_env env env2 st st2 (N.max d1 d2).
Proof.
  intros (seg1 & newc1 & B1 & C1 & D1) (seg2 & newc2 & B2 & C2 & D2) M2.
  exists (seg1 ++ seg2), (newc1 ++ newc2).
  split; [rewrite B2, B1, app_assoc; reflexivity|]. split; [rewrite C2, C1, app_assoc; reflexivity|].
  intros pr s0 more pre post H1 H2 H3 H4 H5 H6 H7.
  destruct (D1 pr s0 (map const_value newc2 ++ more) pre (seg2 ++ post)) as (s1 & R1 & I1 & O1 & L1 & G1 & GH1).
  { rewrite H1, <- !app_assoc. reflexivity. }
  { rewrite H2, C2, map_app, <- app_assoc. reflexivity. }
  { exact H3. } { exact H4. } { lia. } { exact H6. }
  { pose proof (N.le_max_l d1 d2). lia. }
  destruct (D2 pr s1 more (pre ++ seg1) post) as (s2 & R2 & I2 & O2 & L2 & G2 & GH2).
  { rewrite H1, <- !app_assoc. reflexivity. }
  { exact H2. }
  { rewrite I1, H3, app_length. lia. } { exact O1. } { rewrite G1. exact H5. } { exact GH1. }
  { rewrite L1. pose proof (N.le_max_r d1 d2). lia. }
  exists s2. split; [eapply reaches_trans; eauto|]. split; [rewrite I2, I1, app_length; lia|].
  split; [exact O2|]. split; [congruence|]. split; [congruence|exact GH2].
Qed.

Definition stmt_ok (s : stmt) : Prop :=
  forall env env1 st st',
    sfrag_stmt s = true -> compile_stmt true s st = COk st' -> top_ok st -> exec_stmt env s = Some env1 ->
    top_ok st' /\ index (cur (csym st)) <= index (cur (csym st')) /\ runs_env env env1 st st' (stmt_depth s).

(* the common part of `x := e` and `x = e`: the value is on the stack, y is the
   slot of n in the (possibly extended) table sym' *)
Lemma store_global env n v y sym sym' (g : list value) :
  outers sym' = [] -> Inv sym' ->
  st_resolve n sym' = Some y ->
  (forall m, str_eqb n m = false -> st_resolve m sym' = st_resolve m sym) ->
  (N.to_nat (sidx y) < List.length g)%nat ->
  globals_hold env sym g ->
  globals_hold (upd env n v) sym' (set_nth (N.to_nat (sidx y)) v g).
Proof.
  intros HO HI HR HOther HL HG m ym vm HRm HEm. unfold upd in HEm.
  destruct (str_eqb m n) eqn:E.
  - apply str_eqb_eq in E. subst m. rewrite HR in HRm. inversion HRm; subst ym. inversion HEm; subst vm.
    apply nth_error_set_nth_same. exact HL.
  - assert (E' : str_eqb n m = false).
    { destruct (str_eqb n m) eqn:E2; [apply str_eqb_eq in E2; subst; rewrite str_eqb_refl in E; discriminate|reflexivity]. }
    rewrite nth_error_set_nth_other.
    + apply (HG m ym vm); [rewrite <- (HOther m E'); exact HRm|exact HEm].
    + intro EQ. assert (sidx y = sidx ym) by lia.
      pose proof (top_distinct sym' n m y ym HO HI HR HRm H) as ->. rewrite str_eqb_refl in E. discriminate.
Qed.

Lemma emit_setglobal_run y st0 st' :
  emit_set_var true y st0 = COk st' -> sscp y = GlobalScope ->
  csym st' = csym st0 /\ cconsts st' = cconsts st0 /\
  exists hi lo, ccode st' = ccode st0 ++ [N_of_opc SetGlobal; hi; lo] /\ hi * 256 + lo = sidx y.
Proof.
  unfold emit_set_var. intros H HS. rewrite HS in H. apply emit_ok in H. destruct H as (ins & HM & ->).
  pose proof (make_some_range SetGlobal _ _ eq_refl HM) as HR.
  destruct (make_arg_bytes SetGlobal (Z.of_N (sidx y)) eq_refl HR) as (hi & lo & HM' & E).
  rewrite HM in HM'. inversion HM'; subst ins. cbn [csym cconsts ccode].
  split; [reflexivity|]. split; [reflexivity|]. exists hi, lo. split; [reflexivity|]. rewrite E. lia.
Qed.

Lemma assign_runs e n env v st st0 st' y :
  efrag e = true -> compile_expr true e st = COk st0 -> eval_expr env e = Some v ->
  top_ok st ->
  emit_set_var true y (with_sym (csym st') st0) = COk st' ->   (* csym st' is the table in force after the statement *)
  outers (csym st') = [] -> Inv (csym st') -> st_resolve n (csym st') = Some y ->
  (forall m, str_eqb n m = false -> st_resolve m (csym st') = st_resolve m (csym st)) ->
  runs_env env (upd env n v) st st' (edepth e).
Proof.
  intros HF HC HE HT HS HO' HI' HR HOther. pose proof HT as (HO & HI & _).
  assert (HSS : sym_static (csym st)) by (intros m ym Hm; apply (sym_top_globals _ HO HI m ym Hm)).
  destruct (compile_expr_correct e HF env st st0 v HC HE HSS) as (A & seg & newc & B & C & D).
  destruct (sym_top_globals _ HO' HI' n y HR) as [SG SI].
  destruct (emit_setglobal_run y _ _ HS SG) as (E1 & E2 & hi & lo & E3 & E4).
  cbn [with_sym csym cconsts ccode] in E1, E2, E3.
  exists (seg ++ [N_of_opc SetGlobal; hi; lo]), newc.
  split; [rewrite E3, B, app_assoc; reflexivity|]. split; [rewrite E2; exact C|].
  intros p s more pre post H1 H2 H3 H4 H5 H6 H7.
  destruct (D p s more pre ([N_of_opc SetGlobal; hi; lo] ++ post)) as (n1 & R1).
  { rewrite H1, <- !app_assoc. reflexivity. }
  { rewrite H2, E2. reflexivity. }
  { exact H3. }
  { exact H6. }
  { rewrite H4. simpl. lia. }
  set (s1 := {| ip := ip s + N.of_nat (List.length seg); ostack := v :: ostack s; locals := locals s; globals := globals s |}) in *.
  assert (HL : (N.to_nat (sidx y) < List.length (globals s))%nat) by lia.
  eexists. split; [|split; [|split; [|split; [|split]]]].
  - eapply reaches_trans; [exists n1; exact R1|]. exists 1%nat. cbn [vm_steps].
    rewrite (fetch_arg p s1 SetGlobal hi lo (pre ++ seg) post);
      [|rewrite H1, <- !app_assoc; reflexivity|unfold s1; simpl; rewrite H3, app_length; lia|reflexivity].
    rewrite (exec_setglobal p s1 _ _ v (ostack s)); [reflexivity|reflexivity|unfold s1; simpl; rewrite E4; exact HL].
  - unfold s1; simpl. rewrite app_length. simpl. lia.
  - simpl. exact H4.
  - reflexivity.
  - simpl. apply set_nth_length.
  - simpl. rewrite E4. unfold s1; simpl. eapply store_global; eauto.
Qed.

Lemma stmt_frag_ok s : stmt_ok s.
Proof.
  unfold stmt_ok. intros env env1 st st' HF HC HT HX. pose proof HT as (HO & HI & HN).
  destruct s; try discriminate HF.
  - (* SDecl *)
    simpl in HF, HC, HX. bind_inv HC.
    destruct (eval_expr env e) as [v|] eqn:HE; [|discriminate]. inversion HX; subst env1.
    destruct (efrag_sl e HF _ _ H) as (A & _).
    destruct (st_define n (csym st0)) as [sym' y] eqn:ED.
    assert (HD1 : fst (st_define n (csym st)) = sym') by (rewrite <- A, ED; reflexivity).
    assert (HD2 : snd (st_define n (csym st)) = y) by (rewrite <- A, ED; reflexivity).
    destruct (define_frame n (csym st)) as (F1 & F2 & F3). rewrite HD1 in F1, F2, F3.
    pose proof (inv_define n (csym st) HI) as HI'. rewrite HD1 in HI'.
    pose proof (define_then_resolve (csym st) n) as DR. rewrite HD1, HD2 in DR.
    assert (HO' : outers sym' = []) by congruence.
    assert (ES : csym st' = sym').
    { unfold emit_set_var in HC. destruct (sscp y); apply emit_ok in HC; destruct HC as (? & _ & ->); reflexivity. }
    assert (HS' : emit_set_var true y (with_sym (csym st') st0) = COk st') by (rewrite ES; exact HC).
    split; [unfold top_ok; rewrite ES; split; [exact HO'|split; [exact HI'|congruence]]|]. split; [rewrite ES; exact F3|].
    apply (assign_runs e n env v st st0 st' y HF H HE HT HS'); try (rewrite ES; assumption).
    intros m Hm. rewrite ES, <- HD1. apply define_resolve_other. intros ->. rewrite str_eqb_refl in Hm. discriminate Hm.
  - (* SAssign (EVar n) e *)
    destruct target; try discriminate HF. simpl in HF, HC, HX. bind_inv HC.
    destruct (eval_expr env e) as [v|] eqn:HE; [|discriminate]. inversion HX; subst env1.
    destruct (efrag_sl e HF _ _ H) as (A & _).
    destruct (st_resolve n (csym st0)) as [y|] eqn:ER; [|discriminate]. rewrite A in ER.
    assert (ES : csym st' = csym st).
    { unfold emit_set_var in HC. destruct (sscp y); apply emit_ok in HC; destruct HC as (? & _ & ->); exact A. }
    assert (HS' : emit_set_var true y (with_sym (csym st') st0) = COk st').
    { rewrite ES, <- A. destruct st0; exact HC. }
    split; [unfold top_ok; rewrite ES; exact HT|]. split; [rewrite ES; lia|].
    apply (assign_runs e n env v st st0 st' y HF H HE HT HS'); try (rewrite ES; assumption).
    intros m _. rewrite ES. reflexivity.
  - (* SEmpty *)
    simpl in HC, HX. inversion HC; subst st'. inversion HX; subst env1.
    split; [exact HT|]. split; [lia|apply runs_env_refl].
Qed.

Lemma slist_frag_ok p : forall env env' st st',
  sfrag p = true -> compile_slist true p st = COk st' -> top_ok st -> exec_slist env p = Some env' ->
  top_ok st' /\ index (cur (csym st)) <= index (cur (csym st')) /\ runs_env env env' st st' (prog_depth p).
Proof.
  induction p as [|s t IH]; intros env env' st st' HF HC HT HX.
  - simpl in HC, HX. inversion HC; subst st'. inversion HX; subst env'.
    split; [exact HT|]. split; [lia|apply runs_env_refl].
  - simpl in HF. apply andb_true_iff in HF. destruct HF as [HF1 HF2]. simpl in HC. bind_inv HC.
    simpl in HX. destruct (exec_stmt env s) as [env1|] eqn:HX1; [|discriminate].
    destruct (stmt_frag_ok s env env1 st st0 HF1 H HT HX1) as (T1 & M1 & R1).
    destruct (IH env1 env' st0 st' HF2 HC T1 HX) as (T2 & M2 & R2).
    split; [exact T2|]. split; [lia|]. exact (runs_env_seq _ _ _ _ _ _ _ _ R1 R2 M2).
Qed.

(* compile_correct for straight-line programs, from NewCompiler and NewVM *)
Theorem compile_correct_straightline : forall (p : slist) (st : cstate) (env' : genv),
  sfrag p = true -> compile p = COk st -> exec_slist (fun _ => None) p = Some env' ->
  prog_depth p <= StackSize ->
  let prog := program_of (bytecode_of st) in
  exists s, reaches prog (vm_init prog) s /\
            vm_step prog s = Halted s /\ ostack s = [] /\
            forall n y v, st_resolve n (csym st) = Some y -> env' n = Some v ->
                          nth_error (globals s) (N.to_nat (sidx y)) = Some v.
Proof.
  intros p st env' HF HC HX HD prog. unfold compile, compile_program in HC.
  assert (HT : top_ok cinit) by (split; [reflexivity|split; [apply inv_new|reflexivity]]).
  destruct (slist_frag_ok p _ _ _ _ HF HC HT HX) as ((T1 & T2 & T3) & _ & seg & newc & B & C & D).
  simpl in B, C.
  destruct (D prog (vm_init prog) [] [] []) as (s & R & I & O & L & G & GH).
  - unfold prog, program_of, bytecode_of. cbn [pcode out_code]. rewrite B, app_nil_r. reflexivity.
  - unfold prog, program_of, bytecode_of. cbn [pconsts out_consts]. rewrite app_nil_r. reflexivity.
  - reflexivity.
  - reflexivity.
  - unfold prog, program_of, bytecode_of, vm_init, st_global_count. cbn [globals pgcount out_gcount]. rewrite repeat_length. lia.
  - intros n y v HR. discriminate.
  - unfold prog, program_of, bytecode_of, vm_init, st_local_count. cbn [locals plcount out_lcount]. rewrite T3. simpl. lia.
  - exists s. split; [exact R|]. split; [|split; [exact O|exact GH]].
    apply vm_step_end. rewrite I. unfold prog, program_of, bytecode_of. cbn [pcode out_code vm_init ip]. rewrite B. cbn. lia.
Qed.
