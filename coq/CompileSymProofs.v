(* CompileSymProofs.v — what a compiled statement may do to the compiler's
   symbol table: the relation SX (a preorder) that replaces `the symbol table
   is unchanged` once blocks declare locals; the bound on local slots
   (SymTabProofs.bound, the LocalCount the table will end with) only grows. *)
From Coq Require Import ZArith NArith List Bool Lia ZifyBool ZifyNat ZifyN.
From EvyV Require Import Base SymTab SymTabProofs Bytecode Compile CompileSem CompileWfProofs.
Import ListNotations.
Open Scope N_scope.

Record SX (s s' : symtab) : Prop := {
  sx_out : outers s' = outers s;
  sx_inv : Inv s -> Inv s';
  sx_bound : bound s <= bound s';
  sx_gbw : forall gc, gbw s gc -> gbw s' gc;
  sx_top : outers s = [] -> store (cur s') = store (cur s) /\ index (cur s') = index (cur s)
}.

Lemma SX_refl s : SX s s.
Proof. constructor; auto. lia. Qed.

Lemma SX_eq s s' : s' = s -> SX s s'.
Proof. intros ->. apply SX_refl. Qed.

Lemma SX_trans s1 s2 s3 : SX s1 s2 -> SX s2 s3 -> SX s1 s3.
Proof.
  intros A B. constructor.
  - rewrite (sx_out _ _ B). apply (sx_out _ _ A).
  - intro H. apply (sx_inv _ _ B), (sx_inv _ _ A), H.
  - pose proof (sx_bound _ _ A). pose proof (sx_bound _ _ B). lia.
  - intros gc H. apply (sx_gbw _ _ B), (sx_gbw _ _ A), H.
  - intro H. destruct (sx_top _ _ A H) as [E1 E2].
    assert (H2 : outers s2 = []) by (rewrite (sx_out _ _ A); exact H).
    destruct (sx_top _ _ B H2) as [F1 F2]. split; congruence.
Qed.

(* a block: enterScope; body; leaveScope *)
Lemma SX_block s s3 : SX (st_push s) s3 -> SX s (st_pop s3).
Proof.
  intro A. pose proof (sx_out _ _ A) as HO. cbn [st_push outers] in HO.
  assert (EP : st_pop s3 = {| cur := {| store := store (cur s); index := index (cur s);
                                         nmax := N.max (nmax (cur s)) (nmax (cur s3) + index (cur s3)) |};
                              outers := outers s |}).
  { unfold st_pop. rewrite HO. reflexivity. }
  constructor.
  - rewrite EP. reflexivity.
  - intro H. apply inv_pop, (sx_inv _ _ A), inv_push, H.
  - pose proof (bound_step SPush s) as B1. pose proof (sx_bound _ _ A) as B2. pose proof (bound_step SPop s3) as B3.
    cbn [st_step fst] in B1, B3. lia.
  - intros gc H n y HR. apply (H n y). rewrite EP in HR. unfold st_resolve in *. cbn [cur outers resolve_in store] in *. exact HR.
  - intros _. rewrite EP. cbn [cur store index]. auto.
Qed.

Lemma resolve_push' n s : st_resolve n (st_push s) = st_resolve n s.
Proof. unfold st_resolve, st_push. reflexivity. Qed.

Lemma gbw_push s gc : gbw s gc -> gbw (st_push s) gc.
Proof. intros H n y HR. rewrite resolve_push' in HR. apply (H n y HR). Qed.

(* a declaration inside a block defines a local *)
Lemma define_resolve_other n m s : m <> n -> st_resolve m (fst (st_define n s)) = st_resolve m s.
Proof.
  intro NE. unfold st_define, st_resolve. destruct (slookup n (store (cur s))); cbn [fst cur outers resolve_in store slookup]; [reflexivity|].
  destruct (str_eqb n m) eqn:E; [apply str_eqb_eq in E; congruence|reflexivity].
Qed.

Lemma define_local n s : outers s <> [] -> Inv s -> sscp (snd (st_define n s)) = LocalScope.
Proof.
  intros HO HI. unfold st_define. destruct (slookup n (store (cur s))) as [y|] eqn:E; cbn [snd].
  - unfold Inv in HI. apply chain_ok_cons in HI; [|exact HO]. destruct HI as [(_ & B & _) _]. apply (B n y E).
  - cbn [sscp]. destruct (outers s); [congruence|reflexivity].
Qed.

Lemma SX_define n s : outers s <> [] -> Inv s -> SX s (fst (st_define n s)).
Proof.
  intros HO HI. constructor.
  - apply define_frame.
  - intros _. apply inv_define. exact HI.
  - pose proof (bound_step (SDefine n) s) as B. cbn [st_step] in B. destruct (st_define n s); exact B.
  - intros gc H m y HR HS. destruct (str_eqb m n) eqn:E.
    + apply str_eqb_eq in E. subst m. rewrite define_then_resolve in HR. inversion HR; subst y.
      rewrite (define_local n s HO HI) in HS. discriminate.
    + rewrite define_resolve_other in HR; [apply (H m y HR HS)|]. intros ->. rewrite str_eqb_refl in E. discriminate.
  - intro H. congruence.
Qed.

Lemma resolve_local_below s n y : Inv s -> st_resolve n s = Some y -> sscp y = LocalScope -> sidx y < bound s.
Proof.
  intros HI HR HS. pose proof (resolve_innermost s n) as RI. rewrite HR in RI. destruct RI as (d & L & _).
  apply (live_below_bound s HI d n y L HS).
Qed.

Lemma inv_lbw s lc : Inv s -> bound s <= lc -> lbw s lc.
Proof. intros HI HB n y HR HS. pose proof (resolve_local_below s n y HI HR HS). lia. Qed.

Lemma define_below n s : Inv s -> sscp (snd (st_define n s)) = LocalScope -> sidx (snd (st_define n s)) < bound (fst (st_define n s)).
Proof.
  intros HI HS. apply (resolve_local_below _ n); [apply inv_define; exact HI|apply define_then_resolve|exact HS].
Qed.

Lemma bound_top s : outers s = [] -> bound s = nmax (cur s).
Proof. intro H. unfold bound. rewrite H. reflexivity. Qed.

(* two names that resolve at the same moment never share (scope, slot) *)
Theorem visible_no_sharing s n1 n2 y1 y2 : Inv s ->
  st_resolve n1 s = Some y1 -> st_resolve n2 s = Some y2 -> sscp y1 = sscp y2 -> sidx y1 = sidx y2 -> n1 = n2.
Proof.
  intros HI R1 R2 ES EI.
  pose proof (resolve_innermost s n1) as A. rewrite R1 in A. destruct A as (d1 & L1 & _).
  pose proof (resolve_innermost s n2) as B. rewrite R2 in B. destruct B as (d2 & L2 & _).
  apply (chain_no_sharing _ HI d1 d2 n1 n2 y1 y2 L1 L2 ES EI).
Qed.
