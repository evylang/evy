(* CompileWfProofs.v — code as a list of (opcode, operand); a linear pass over
   such a list that establishes the judgment WF of Bytecode.v (Section Pass);
   the expression compiler emits straight-line code (efrag_sl2_all), and so
   compile_wf_partial: the compiler's output is well formed for top-level
   declarations and assignments of fragment expressions.  Jumps (if / while /
   for, back-patching) are the subject of CompileJumpProofs.v and
   CompileCtlProofs.v. *)
From Coq Require Import ZArith NArith List Bool Lia ZifyBool ZifyNat ZifyN Floats.
From EvyV Require Import Base Bytecode BytecodeProofs SymTab SymTabProofs Vm VmProofs Compile CompileSem CompileProofs.
Require Import EvyV.Gen.Opcodes.
Import ListNotations.
Open Scope N_scope.

Definition sop := (opc * N)%type.

Definition enc1 (x : sop) : list N :=
  match make (N_of_opc (fst x)) (if has_operand (fst x) then [Z.of_N (snd x)] else []) with
  | Some bs => bs
  | None => []
  end.
Definition encode (ops : list sop) : list N := flat_map enc1 ops.

Definition ilen_of (x : sop) : N := if has_operand (fst x) then 3 else 1.
Definition instr_of (x : sop) : instr :=
  {| iop := N_of_opc (fst x); iargs := if has_operand (fst x) then [snd x] else []; ilen := ilen_of x |}.

Definition is_sl (o : opc) : bool :=
  match o with
  | Jump | JumpOnFalse | StepRange | IterRange => false
  | _ => true
  end.

(* the operand of a local access is below lc (checked apart from the heights:
   the heights of this file are counted from LocalCount, see WFg_shift) *)
Definition is_local (o : opc) : bool := match o with GetLocal | SetLocal => true | _ => false end.
Definition lopk (lc : N) (x : sop) : Prop := is_local (fst x) = true -> snd x < lc.

(* one instruction is fine at height k above the locals; the operand of
   OpGetLocal / OpSetLocal is not checked here (lopk) *)
Definition sop_ok (nc gc : N) (x : sop) (k : N) : option N :=
  let (o, arg) := x in
  if negb (is_sl o) then None
  else if negb (arg <? 65536) then None
  else if negb (has_operand o) && negb (arg =? 0) then None
  else match simple_effect o arg with
       | None => None
       | Some (pn, q) =>
           if k <? pn then None
           else if match o with
                   | Constant => arg <? nc
                   | GetGlobal | SetGlobal => arg <? gc
                   | _ => true
                   end then Some (k - pn + q) else None
       end.

Fixpoint runs (nc gc : N) (ops : list sop) (k : N) : option N :=
  match ops with
  | [] => Some k
  | x :: t => match sop_ok nc gc x k with Some k' => runs nc gc t k' | None => None end
  end.

Lemma runs_app nc gc a : forall b k k1 k2,
  runs nc gc a k = Some k1 -> runs nc gc b k1 = Some k2 -> runs nc gc (a ++ b) k = Some k2.
Proof.
  induction a as [|x t IH]; simpl; intros b k k1 k2 H1 H2.
  - inversion H1; subst; exact H2.
  - destruct (sop_ok nc gc x k); [|discriminate]. eauto.
Qed.

(* an instruction of the straight-line subset whose operand (if any) passes its
   check pops pn values and pushes q *)
Lemma sop_ok_effect nc gc o arg pn q k :
  is_sl o = true -> arg < 65536 -> (has_operand o = false -> arg = 0) -> simple_effect o arg = Some (pn, q) ->
  match o with Constant => arg <? nc | GetGlobal | SetGlobal => arg <? gc | _ => true end = true ->
  sop_ok nc gc (o, arg) (k + pn) = Some (k + q).
Proof.
  intros HS HA H0 HE HC. unfold sop_ok. rewrite HS, HE, HC. cbn [negb].
  destruct (arg <? 65536) eqn:E; [|apply N.ltb_ge in E; lia]. cbn [negb].
  destruct (negb (has_operand o) && negb (arg =? 0)) eqn:EZ.
  { apply andb_true_iff in EZ. destruct EZ as [Z1 Z2]. apply negb_true_iff in Z1, Z2. rewrite (H0 Z1) in Z2. discriminate Z2. }
  destruct (k + pn <? pn) eqn:EK; [apply N.ltb_lt in EK; lia|]. f_equal. lia.
Qed.

(* what sop_ok has checked when it succeeds (the converse is sop_ok_effect) *)
Lemma sop_ok_inv nc gc o arg k k' : sop_ok nc gc (o, arg) k = Some k' ->
  is_sl o = true /\ arg < 65536 /\ (has_operand o = false -> arg = 0) /\
  exists pn q, simple_effect o arg = Some (pn, q) /\ pn <= k /\ k' = k - pn + q /\
    match o with Constant => arg <? nc | GetGlobal | SetGlobal => arg <? gc | _ => true end = true.
Proof.
  unfold sop_ok. destruct (is_sl o); [|discriminate]. cbn [negb].
  destruct (arg <? 65536) eqn:EA; [|discriminate]. cbn [negb]. apply N.ltb_lt in EA.
  destruct (negb (has_operand o) && negb (arg =? 0)) eqn:EZ; [discriminate|].
  destruct (simple_effect o arg) as [[pn q]|]; [|discriminate].
  destruct (k <? pn) eqn:EK; [discriminate|]. apply N.ltb_ge in EK.
  match goal with |- (if ?c then _ else _) = _ -> _ => destruct c eqn:EC; [|discriminate] end.
  intro H; inversion H; subst k'. split; [reflexivity|]. split; [exact EA|]. split.
  - intro HO. rewrite HO in EZ. cbn [negb andb] in EZ. apply negb_false_iff, N.eqb_eq in EZ. exact EZ.
  - exists pn, q. auto.
Qed.

Lemma sop_ok_mono nc gc nc' gc' x k k' : nc <= nc' -> gc <= gc' ->
  sop_ok nc gc x k = Some k' -> sop_ok nc' gc' x k = Some k'.
Proof.
  intros Hn Hg H. destruct x as [o arg].
  destruct (sop_ok_inv _ _ _ _ _ _ H) as (SL & LT & H0 & pn & q & SE & LE & -> & EC).
  replace k with (k - pn + pn) at 1 by lia.
  apply (sop_ok_effect nc' gc' o arg pn q (k - pn) SL LT H0 SE).
  destruct o; try exact EC; apply N.ltb_lt in EC; apply N.ltb_lt; lia.
Qed.

Lemma runs_mono nc gc nc' gc' ops : forall k k', nc <= nc' -> gc <= gc' ->
  runs nc gc ops k = Some k' -> runs nc' gc' ops k = Some k'.
Proof.
  induction ops as [|x t IH]; simpl; intros k k' Hn Hg H; [exact H|].
  destruct (sop_ok nc gc x k) as [k1|] eqn:E; [|discriminate].
  rewrite (sop_ok_mono _ _ _ _ _ _ _ Hn Hg E). eauto.
Qed.

Lemma sop_ok_sl nc gc x k k' : sop_ok nc gc x k = Some k' -> is_sl (fst x) = true /\ snd x < 65536.
Proof. destruct x as [o arg]. intro H. destruct (sop_ok_inv _ _ _ _ _ _ H) as (SL & LT & _). split; assumption. Qed.

Lemma decode1_enc1' x rest : snd x < 65536 ->
  decode1 (enc1 x ++ rest) = Some (instr_of x, rest) /\ N.of_nat (List.length (enc1 x)) = ilen_of x.
Proof.
  destruct x as [o arg]. cbn [fst snd]. intros EA.
  unfold enc1, instr_of, ilen_of. cbn [fst snd].
  destruct (has_operand o) eqn:HO.
  - destruct (make_arg_bytes o (Z.of_N arg) HO) as (hi & lo & HM & E); [lia|]. rewrite HM, N2Z.id in *.
    split; [rewrite <- E; exact (decode1_raw3 o hi lo rest HO)|reflexivity].
  - rewrite (make_noarg_bytes o HO). split; [exact (decode1_raw1 o rest HO)|reflexivity].
Qed.

Lemma decode1_enc1 x rest nc gc k k' : sop_ok nc gc x k = Some k' ->
  decode1 (enc1 x ++ rest) = Some (instr_of x, rest) /\ N.of_nat (List.length (enc1 x)) = ilen_of x.
Proof. intro H. apply decode1_enc1'. apply (sop_ok_sl _ _ _ _ _ H). Qed.

Lemma runs_encode_nil nc gc ops k k' : runs nc gc ops k = Some k' -> encode ops = [] -> ops = [].
Proof.
  destruct ops as [|x t]; [reflexivity|]. cbn [runs]. destruct (sop_ok nc gc x k) as [k1|] eqn:E; [|discriminate].
  intros _ EN. change (encode (x :: t)) with (enc1 x ++ encode t) in EN. apply app_eq_nil in EN. destruct EN as [EN _].
  destruct (decode1_enc1 x [] _ _ _ _ E) as [_ HL]. rewrite EN in HL. unfold ilen_of in HL. destruct (has_operand (fst x)); discriminate HL.
Qed.

Fixpoint instrs_of (ops : list sop) (pc : N) : list (N * instr) :=
  match ops with
  | [] => []
  | x :: t => (pc, instr_of x) :: instrs_of t (pc + ilen_of x)
  end.

Lemma ilen_pos x : 1 <= ilen_of x.
Proof. unfold ilen_of. destruct (has_operand (fst x)); lia. Qed.

Definition total_len (ops : list sop) : N := fold_right (fun x a => ilen_of x + a) 0 ops.

(* WFg chk lb code: the judgment WF of Bytecode.v with the operand check chk
   and the heights counted from lb.  WF bc is WFg (operand_ok bc) (lcount bc). *)
Definition WFg (chk : instr -> bool) (lb : N) (code : list N) : Prop :=
  exists (instrs : list (N * instr)) (h : N -> option ast),
    decode_all code = Some instrs /\
    (forall pc i, In (pc, i) instrs ->
       chk i = true /\
       forall t, jump_target i = Some t -> t = N.of_nat (List.length code) \/ In t (map fst instrs)) /\
    (instrs <> [] -> h 0 = Some (AH lb)) /\
    (forall pc a, h pc = Some a ->
       exists i succs, In (pc, i) instrs /\ xfer lb pc i a = Some succs /\
         forall t a', In (t, a') succs ->
           (t = N.of_nat (List.length code) /\ a' = AH lb) \/ (t < N.of_nat (List.length code) /\ h t = Some a')).

Lemma WF_WFg bc : WF bc <-> WFg (operand_ok bc) (lcount bc) (bcode bc).
Proof. unfold WF, WFg, codelen. tauto. Qed.

(* the transfer function does not depend on where the heights are counted from *)
Definition ashift (lb : N) (a : ast) : ast := match a with AH k => AH (lb + k) | ACond k => ACond (lb + k) end.

Lemma sl_no_jump o : is_sl o = true -> jump_op o = false.
Proof. destruct o; try discriminate; reflexivity. Qed.

Lemma xfer_shift lb pc i a succs : xfer 0 pc i a = Some succs ->
  xfer lb pc i (ashift lb a) = Some (map (fun ta => (fst ta, ashift lb (snd ta))) succs).
Proof.
  destruct (opc_of_N (iop i)) as [o|] eqn:Ho; [|unfold xfer; rewrite Ho; discriminate].
  destruct (is_sl o) eqn:HS.
  - rewrite !(xfer_simple _ _ _ o _ Ho (sl_no_jump o HS)). destruct a as [k|k]; [|discriminate]. cbn [ashift].
    destruct (simple_effect o (arg0 i)) as [[p q]|]; [|discriminate].
    destruct (0 + p <=? k) eqn:E; [|discriminate]. intro H; inversion H; subst succs.
    destruct (lb + p <=? lb + k) eqn:E2; [|lia]. cbn [map fst snd ashift]. do 4 f_equal. lia.
  - unfold xfer. rewrite Ho.
    destruct o; try discriminate HS; destruct a as [k|k]; cbn [ashift]; try discriminate;
      repeat match goal with
      | |- (if ?c then _ else _) = _ -> _ => let E := fresh "E" in destruct c eqn:E; [|discriminate]
      end;
      intro H; inversion H; subst succs; clear H;
      repeat match goal with
      | |- context [?x <=? ?y] => let E2 := fresh "E2" in destruct (x <=? y) eqn:E2; [|lia]
      end; cbn [map fst snd ashift];
      try (destruct (arg0 i =? 0); cbn [ashift]);
      repeat first [reflexivity | lia | progress f_equal].
Qed.

Lemma WFg_shift chk lb code : WFg chk 0 code -> WFg chk lb code.
Proof.
  intros (instrs & h & D & O & E & F).
  exists instrs, (fun pc => option_map (ashift lb) (h pc)). split; [exact D|]. split; [exact O|]. split.
  - intro NE. rewrite (E NE). cbn [option_map ashift]. rewrite N.add_0_r. reflexivity.
  - intros pc a Ha. destruct (h pc) as [a0|] eqn:EH; [|discriminate]. cbn [option_map] in Ha. inversion Ha; subst a.
    destruct (F pc a0 EH) as (i & succs & HI & HX & HS).
    exists i, (map (fun ta => (fst ta, ashift lb (snd ta))) succs). split; [exact HI|]. split; [apply xfer_shift; exact HX|].
    intros t a' Hin. apply in_map_iff in Hin. destruct Hin as ([t0 a0'] & Eq & Hin). cbn [fst snd] in Eq. inversion Eq; subst t a'.
    destruct (HS _ _ Hin) as [[E1 E2]|[E1 E2]].
    + left. split; [exact E1|]. subst a0'. cbn [ashift]. rewrite N.add_0_r. reflexivity.
    + right. split; [exact E1|]. rewrite E2. reflexivity.
Qed.

(* the operand check without the locals *)
Definition chk_nl (nc gc : N) (i : instr) : bool :=
  match opc_of_N (iop i) with
  | Some Constant => arg0 i <? nc
  | Some GetGlobal | Some SetGlobal => arg0 i <? gc
  | Some _ => true
  | None => false
  end.

Lemma WFg_WF nc gc lc code : WFg (chk_nl nc gc) 0 code ->
  (forall instrs pc i, decode_all code = Some instrs -> In (pc, i) instrs ->
     match opc_of_N (iop i) with Some GetLocal | Some SetLocal => arg0 i < lc | _ => True end) ->
  WF {| bcode := code; nconsts := nc; gcount := gc; lcount := lc |}.
Proof.
  intros HW HL. apply (WFg_shift _ lc) in HW. apply WF_WFg. cbn [bcode lcount].
  destruct HW as (instrs & h & D & O & E & F). exists instrs, h. split; [exact D|]. split; [|split; assumption].
  intros pc i HI. destruct (O pc i HI) as [C J]. split; [|exact J].
  specialize (HL instrs pc i D HI). unfold chk_nl in C. unfold operand_ok. cbn [nconsts gcount lcount].
  destruct (opc_of_N (iop i)) as [o|]; [|discriminate]. destruct o; try exact C; apply N.ltb_lt; exact HL.
Qed.

Lemma instrs_of_in ops : forall pc0 pc i, In (pc, i) (instrs_of ops pc0) -> exists x, In x ops /\ i = instr_of x.
Proof.
  induction ops as [|x t IH]; simpl; intros pc0 pc i H; [destruct H|].
  destruct H as [E|H]; [inversion E; subst; eauto|]. destruct (IH _ _ _ H) as (y & Hy & ->). eauto.
Qed.

Lemma lopk_instr lc x : lopk lc x ->
  match opc_of_N (iop (instr_of x)) with Some GetLocal | Some SetLocal => arg0 (instr_of x) < lc | _ => True end.
Proof.
  unfold lopk, instr_of, arg0. destruct x as [o arg]. cbn [fst snd iop iargs]. rewrite opc_of_N_of_opc.
  intro H. destruct o; try exact I; cbn [has_operand nth]; apply H; reflexivity.
Qed.

Lemma sop_ok_chk nc gc x k k' : sop_ok nc gc x k = Some k' ->
  chk_nl nc gc (instr_of x) = true /\ jump_target (instr_of x) = None.
Proof.
  destruct x as [o arg]. intro H. destruct (sop_ok_inv _ _ _ _ _ _ H) as (SL & _ & _ & pn & q & _ & _ & _ & EC).
  unfold chk_nl, jump_target, instr_of, arg0. cbn [iop iargs fst snd].
  rewrite opc_of_N_of_opc.
  destruct o; try discriminate SL; cbn [has_operand nth] in *; split; auto.
Qed.

Lemma sop_ok_xfer nc gc x k k' pc : sop_ok nc gc x k = Some k' ->
  xfer 0 pc (instr_of x) (AH k) = Some [(pc + ilen_of x, AH k')].
Proof.
  destruct x as [o arg]. intro H. destruct (sop_ok_inv _ _ _ _ _ _ H) as (SL & _ & H0 & pn & q & SE & LE & -> & _).
  rewrite (xfer_simple 0 pc (instr_of (o, arg)) o (AH k) (opc_of_N_of_opc o) (sl_no_jump o SL)).
  assert (HA : arg0 (instr_of (o, arg)) = arg).
  { unfold arg0, instr_of. cbn [iargs fst snd]. destruct (has_operand o); [reflexivity|]. rewrite (H0 eq_refl). reflexivity. }
  rewrite HA, SE. destruct (0 + pn <=? k) eqn:E2; [|apply N.leb_gt in E2; lia]. reflexivity.
Qed.

Fixpoint alookupA (pc : N) (l : list (N * ast)) : option ast :=
  match l with
  | [] => None
  | (p, a) :: t => if p =? pc then Some a else alookupA pc t
  end.

Lemma alookupA_some pc l a : alookupA pc l = Some a -> In (pc, a) l.
Proof.
  induction l as [|[p a0] t IH]; simpl; [discriminate|].
  destruct (p =? pc) eqn:E; intro H.
  - apply N.eqb_eq in E. inversion H; subst. left; reflexivity.
  - right; auto.
Qed.

(* step x a: the state behind instruction x when it is entered in state a;
   req x a: the target of x, if it jumps, with the state it requires there.
   An OpJump does not fall through, but the pass goes on behind it in the state
   step gives (that instruction is only reachable through other jumps — in
   structured code always at the same height).  The code is well formed if the
   pass succeeds and every jump finds the state it requires at its target. *)
Section Pass.
Variables (nc gc : N) (step : sop -> ast -> option ast) (req : sop -> ast -> option (N * ast)).

Fixpoint pruns (ops : list sop) (a : ast) : option ast :=
  match ops with
  | [] => Some a
  | x :: t => match step x a with Some a' => pruns t a' | None => None end
  end.

Fixpoint pannot (ops : list sop) (pc : N) (a : ast) : list (N * ast) :=
  match ops with
  | [] => []
  | x :: t => (pc, a) :: match step x a with
                         | Some a' => pannot t (pc + ilen_of x) a'
                         | None => []
                         end
  end.

(* every jump of ops (run from state a) finds its required state at its
   target: in the annotation A, or at the end E with state aend *)
Fixpoint ptargets (A : list (N * ast)) (E : N) (aend : ast) (ops : list sop) (a : ast) : Prop :=
  match ops with
  | [] => True
  | x :: t =>
      match req x a with
      | Some (T, ra) => (T = E /\ ra = aend) \/ In (T, ra) A
      | None => True
      end /\
      match step x a with
      | Some a' => ptargets A E aend t a'
      | None => True
      end
  end.

Definition psuccs (x : sop) (a a' : ast) (pc : N) : list (N * ast) :=
  match req x a with
  | Some tr => match fst x with Jump => [tr] | _ => [(pc + ilen_of x, a'); tr] end
  | None => [(pc + ilen_of x, a')]
  end.

Hypothesis step_arg : forall x a a', step x a = Some a' -> snd x < 65536.
Hypothesis step_xfer : forall x a a' pc, step x a = Some a' -> xfer 0 pc (instr_of x) a = Some (psuccs x a a' pc).
Hypothesis step_chk : forall x a a', step x a = Some a' -> chk_nl nc gc (instr_of x) = true.
Hypothesis step_target : forall x a a' T,
  step x a = Some a' -> jump_target (instr_of x) = Some T -> exists ra, req x a = Some (T, ra).

Lemma pdecode ops : forall pc a a' fuel,
  pruns ops a = Some a' -> (List.length (encode ops) <= fuel)%nat ->
  decode_from fuel pc (encode ops) = Some (instrs_of ops pc) /\
  N.of_nat (List.length (encode ops)) = total_len ops.
Proof.
  induction ops as [|x t IH]; intros pc a a' fuel H HF; simpl.
  - split; [destruct fuel; reflexivity|reflexivity].
  - simpl in H. destruct (step x a) as [a1|] eqn:E; [|discriminate].
    pose proof (step_arg _ _ _ E) as HA.
    destruct (decode1_enc1' x (encode t) HA) as [HD HL].
    assert (HP : (1 <= List.length (enc1 x))%nat) by (unfold ilen_of in HL; destruct (has_operand (fst x)); lia).
    simpl in HF. rewrite app_length in HF.
    destruct (enc1 x ++ encode t) as [|b r] eqn:EL; [apply (f_equal (@List.length N)) in EL; rewrite app_length in EL; simpl in EL; lia|].
    destruct fuel as [|f]; [lia|]. cbn [decode_from]. rewrite <- EL in *. rewrite HD.
    cbn [ilen instr_of].
    destruct (IH (pc + ilen_of x) a1 a' f H) as [IH1 IH2]; [lia|]. rewrite IH1. split; [reflexivity|].
    rewrite app_length, Nat2N.inj_add, HL, IH2. reflexivity.
Qed.

Lemma pannot_ge ops : forall pc0 a0 pc a, In (pc, a) (pannot ops pc0 a0) -> pc0 <= pc.
Proof.
  induction ops as [|x t IH]; simpl; intros pc0 a0 pc a H; [destruct H|].
  destruct H as [E|H]; [inversion E; lia|].
  destruct (step x a0); [|destruct H]. apply IH in H. pose proof (ilen_pos x). lia.
Qed.

Lemma alookupA_in ops : forall pc0 a0 pc a,
  In (pc, a) (pannot ops pc0 a0) -> alookupA pc (pannot ops pc0 a0) = Some a.
Proof.
  induction ops as [|x t IH]; simpl; intros pc0 a0 pc a H; [destruct H|].
  destruct H as [E|H].
  - inversion E; subst. rewrite N.eqb_refl. reflexivity.
  - destruct (step x a0) eqn:ES; [|destruct H].
    pose proof (pannot_ge _ _ _ _ _ H). pose proof (ilen_pos x).
    destruct (pc0 =? pc) eqn:EQ; [apply N.eqb_eq in EQ; lia|]. apply IH; exact H.
Qed.

(* every annotated point: its instruction, its transfer, its successors *)
Lemma pflow A E aend ops : forall pc0 a0,
  pruns ops a0 = Some aend -> ptargets A E aend ops a0 ->
  forall pc a, In (pc, a) (pannot ops pc0 a0) ->
    pc < pc0 + total_len ops /\
    exists x a', In (pc, instr_of x) (instrs_of ops pc0) /\ step x a = Some a' /\
      ((pc + ilen_of x = pc0 + total_len ops /\ a' = aend) \/
       In (pc + ilen_of x, a') (pannot ops pc0 a0)) /\
      match req x a with
      | Some (T, ra) => (T = E /\ ra = aend) \/ In (T, ra) A
      | None => True
      end.
Proof.
  induction ops as [|x t IH]; simpl; intros pc0 a0 HR HT pc a H; [destruct H|].
  destruct (step x a0) as [a1|] eqn:ES; [|discriminate].
  destruct HT as [HT0 HT1]. pose proof (ilen_pos x) as HP.
  destruct H as [Eq|H].
  - inversion Eq; subst pc a. split; [unfold total_len; simpl; lia|].
    exists x, a1. split; [left; reflexivity|]. split; [exact ES|]. split; [|exact HT0].
    destruct t as [|y t'].
    + left. simpl in HR. inversion HR; subst. unfold total_len; simpl. split; [lia|reflexivity].
    + right. right. simpl. left. reflexivity.
  - destruct (IH (pc0 + ilen_of x) a1 HR HT1 pc a H) as (HB & y & a' & HI & HS & HN & HQ).
    split; [unfold total_len in *; simpl; lia|].
    exists y, a'. split; [right; exact HI|]. split; [exact HS|]. split; [|exact HQ].
    destruct HN as [[HE HK]|HN].
    + left. unfold total_len in *. simpl. split; [lia|exact HK].
    + right. right. exact HN.
Qed.

(* every instruction of the decode: its state, its step, its target clause *)
Lemma pinstr_annot A E ops : forall pc0 a0 aend,
  pruns ops a0 = Some aend -> ptargets A E aend ops a0 ->
  forall pc i, In (pc, i) (instrs_of ops pc0) ->
    exists x a a', i = instr_of x /\ step x a = Some a' /\
      match req x a with
      | Some (T, ra) => (T = E /\ ra = aend) \/ In (T, ra) A
      | None => True
      end.
Proof.
  induction ops as [|x t IH]; simpl; intros pc0 a0 aend HR HT pc i H; [destruct H|].
  destruct (step x a0) as [a1|] eqn:ES; [|discriminate]. destruct HT as [HT0 HT1].
  destruct H as [Eq|H].
  - inversion Eq; subst pc i. exists x, a0, a1. split; [reflexivity|]. split; [exact ES|exact HT0].
  - apply (IH _ _ _ HR HT1 _ _ H).
Qed.

Lemma pannot_pcs ops : forall pc0 a0 pc a,
  In (pc, a) (pannot ops pc0 a0) -> In pc (map fst (instrs_of ops pc0)).
Proof.
  induction ops as [|x t IH]; simpl; intros pc0 a0 pc a H; [destruct H|].
  destruct H as [Eq|H]; [inversion Eq; left; reflexivity|].
  destruct (step x a0); [|destruct H]. right. eapply IH; eauto.
Qed.

Theorem pass_WFg : forall ops,
  pruns ops (AH 0) = Some (AH 0) ->
  ptargets (pannot ops 0 (AH 0)) (total_len ops) (AH 0) ops (AH 0) ->
  WFg (chk_nl nc gc) 0 (encode ops).
Proof.
  intros ops HR HT.
  set (A := pannot ops 0 (AH 0)).
  destruct (pdecode ops 0 (AH 0) (AH 0) (List.length (encode ops)) HR (le_n _)) as [HD HLEN].
  exists (instrs_of ops 0), (fun pc => alookupA pc A).
  split; [exact HD|]. split; [|split].
  - intros pc i HI.
    destruct (pinstr_annot A (total_len ops) ops 0 (AH 0) (AH 0) HR HT pc i HI) as (x & a & a' & -> & HS & HQ).
    split; [apply (step_chk _ _ _ HS)|].
    intros T HJ. destruct (step_target _ _ _ _ HS HJ) as (ra & HQ'). rewrite HQ' in HQ.
    destruct HQ as [[E1 _]|HQ]; [left; rewrite HLEN; exact E1|right].
    apply (pannot_pcs _ _ _ _ _ HQ).
  - intro NE. destruct ops as [|x t]; [simpl in NE; congruence|]. unfold A. simpl. reflexivity.
  - intros pc a Ha. apply alookupA_some in Ha.
    destruct (pflow A (total_len ops) (AH 0) ops 0 (AH 0) HR HT pc a Ha) as (HB & x & a' & HI & HS & HN & HQ).
    exists (instr_of x), (psuccs x a a' pc). split; [exact HI|]. split; [apply (step_xfer _ _ _ pc HS)|].
    intros t b Hin. rewrite HLEN.
    assert (NEXT : (pc + ilen_of x = total_len ops /\ a' = AH 0) \/ (pc + ilen_of x < total_len ops /\ alookupA (pc + ilen_of x) A = Some a')).
    { destruct HN as [[HE HK]|HN]; [left; split; [lia|exact HK]|right].
      destruct (pflow A (total_len ops) (AH 0) ops 0 (AH 0) HR HT _ _ HN) as (HB' & _).
      split; [lia|apply alookupA_in; exact HN]. }
    assert (TGT : forall T ra, req x a = Some (T, ra) ->
                  (T = total_len ops /\ ra = AH 0) \/ (T < total_len ops /\ alookupA T A = Some ra)).
    { intros T ra HQ'. rewrite HQ' in HQ. destruct HQ as [[E1 E2]|HQ]; [left; auto|right].
      destruct (pflow A (total_len ops) (AH 0) ops 0 (AH 0) HR HT _ _ HQ) as (HB' & _).
      split; [lia|apply alookupA_in; exact HQ]. }
    unfold psuccs in Hin. destruct (req x a) as [[T ra]|] eqn:EQ.
    + assert (Hcases : (pc + ilen_of x, a') = (t, b) \/ (T, ra) = (t, b)).
      { clear - Hin. destruct (fst x); simpl in Hin; tauto. }
      destruct Hcases as [Eq|Eq]; inversion Eq; subst; [apply NEXT|apply (TGT _ _ eq_refl)].
    + simpl in Hin. destruct Hin as [Hin|[]]. inversion Hin; subst. apply NEXT.
Qed.

Theorem pass_WF : forall lc ops,
  pruns ops (AH 0) = Some (AH 0) ->
  ptargets (pannot ops 0 (AH 0)) (total_len ops) (AH 0) ops (AH 0) ->
  Forall (lopk lc) ops ->
  WF {| bcode := encode ops; nconsts := nc; gcount := gc; lcount := lc |}.
Proof.
  intros lc ops HR HT HL. apply WFg_WF; [apply pass_WFg; assumption|].
  intros instrs pc i HD HI.
  destruct (pdecode ops 0 (AH 0) (AH 0) (List.length (encode ops)) HR (le_n _)) as [HD' _].
  unfold decode_all in HD. assert (instrs = instrs_of ops 0) by congruence. subst instrs.
  destruct (instrs_of_in _ _ _ _ HI) as (x & Hx & ->). apply lopk_instr.
  rewrite Forall_forall in HL. apply HL. exact Hx.
Qed.
End Pass.

(* straight-line code: the pass without jumps *)
Definition sl_step (nc gc : N) (x : sop) (a : ast) : option ast :=
  match a with AH k => option_map AH (sop_ok nc gc x k) | ACond _ => None end.

Lemma runs_pruns nc gc : forall ops k k',
  runs nc gc ops k = Some k' -> pruns (sl_step nc gc) ops (AH k) = Some (AH k').
Proof.
  induction ops as [|x t IH]; cbn [runs pruns sl_step]; intros k k' H; [congruence|].
  destruct (sop_ok nc gc x k); [|discriminate]. exact (IH _ _ H).
Qed.

Lemma ptargets_nojump step A E aend : forall ops a, ptargets step (fun _ _ => None) A E aend ops a.
Proof.
  induction ops as [|x t IH]; intro a; cbn [ptargets]; [exact I|]. split; [exact I|]. destruct (step x a); [apply IH|exact I].
Qed.

Theorem runs_WF : forall nc gc lc ops,
  runs nc gc ops 0 = Some 0 -> Forall (lopk lc) ops ->
  WF {| bcode := encode ops; nconsts := nc; gcount := gc; lcount := lc |}.
Proof.
  intros nc gc lc ops HR HL.
  apply (pass_WF nc gc (sl_step nc gc) (fun _ _ => None));
    [| | | |exact (runs_pruns _ _ _ _ _ HR)|apply ptargets_nojump|exact HL];
    intros x [k|k] a'; try discriminate; cbn [sl_step];
    destruct (sop_ok nc gc x k) as [k1|] eqn:ES; try discriminate.
  - intros _. apply (sop_ok_sl _ _ _ _ _ ES).
  - intros pc H. inversion H; subst a'. apply (sop_ok_xfer _ _ _ _ _ pc ES).
  - intros _. apply (sop_ok_chk _ _ _ _ _ ES).
  - intros T _ HJ. rewrite (proj2 (sop_ok_chk _ _ _ _ _ ES)) in HJ. discriminate HJ.
Qed.

Lemma emit_enc0 o st st' : has_operand o = false -> emit true o [] st = COk st' ->
  st' = {| ccode := ccode st ++ enc1 (o, 0); cconsts := cconsts st; csym := csym st; cbreaks := cbreaks st |}.
Proof.
  intros HO H. apply emit_ok in H. destruct H as (ins & HM & ->).
  unfold enc1. cbn [fst snd]. rewrite HO, HM. reflexivity.
Qed.

Lemma emit_enc1 o z st st' : has_operand o = true -> emit true o [z] st = COk st' ->
  (0 <= z < 65536)%Z /\
  st' = {| ccode := ccode st ++ enc1 (o, Z.to_N z); cconsts := cconsts st; csym := csym st; cbreaks := cbreaks st |}.
Proof.
  intros HO H. apply emit_ok in H. destruct H as (ins & HM & ->).
  pose proof (make_some_range o z ins HO HM) as HR. split; [exact HR|].
  unfold enc1. cbn [fst snd]. rewrite HO, Z2N.id, HM by lia. reflexivity.
Qed.

Lemma sop_ok_const nc gc idx k : idx < nc -> idx < 65536 -> sop_ok nc gc (Constant, idx) k = Some (k + 1).
Proof.
  intros H1 H2. rewrite <- (N.add_0_r k) at 1. apply sop_ok_effect; try reflexivity; [exact H2|discriminate|apply N.ltb_lt; exact H1].
Qed.

Lemma sop_ok_setglobal nc gc idx k : idx < gc -> idx < 65536 -> sop_ok nc gc (SetGlobal, idx) (k + 1) = Some k.
Proof.
  intros H1 H2. rewrite <- (N.add_0_r k) at 2. apply sop_ok_effect; try reflexivity; [exact H2|discriminate|apply N.ltb_lt; exact H1].
Qed.

Definition globals_below (sym : symtab) (gc : N) : Prop :=
  forall n y, st_resolve n sym = Some y -> sscp y = GlobalScope /\ sidx y < gc.

Definition expr_sl (e : expr) : Prop :=
  forall st st', compile_expr true e st = COk st' ->
    csym st' = csym st /\
    exists ops newc,
      ccode st' = ccode st ++ encode ops /\ cconsts st' = cconsts st ++ newc /\
      forall nc gc k,
        N.of_nat (List.length (cconsts st')) <= nc ->
        globals_below (csym st) gc ->
        runs nc gc ops k = Some (k + 1).

Lemma encode_one x : encode [x] = enc1 x.
Proof. unfold encode. cbn [flat_map]. apply app_nil_r. Qed.

Lemma const_sl k0 st st' : emit_const true k0 st = COk st' ->
  N.of_nat (List.length (cconsts st)) < 65536 /\
  csym st' = csym st /\
  ccode st' = ccode st ++ encode [(Constant, N.of_nat (List.length (cconsts st)))] /\
  cconsts st' = cconsts st ++ [k0].
Proof.
  unfold emit_const. intro H. apply emit_enc1 in H; [|reflexivity]. destruct H as [HR ->]. cbn [csym ccode cconsts].
  split; [lia|]. split; [reflexivity|]. split; [|reflexivity]. rewrite encode_one.
  replace (Z.to_N (Z.of_nat (List.length (cconsts st)))) with (N.of_nat (List.length (cconsts st))) by lia. reflexivity.
Qed.

Lemma encode_app a b : encode (a ++ b) = encode a ++ encode b.
Proof. unfold encode. apply flat_map_app. Qed.

Lemma binop_opc op lt rt st2 st' : compile_binop true op lt rt st2 = COk st' ->
  exists o, emit true o [] st2 = COk st' /\ has_operand o = false /\ is_sl o = true /\ simple_effect o 0 = Some (2, 1).
Proof.
  unfold compile_binop. intro H.
  destruct op; try (eexists; split; [exact H|]; repeat split);
    destruct lt, rt; try discriminate; cbn [num_binop str_binop] in H; try discriminate;
    (eexists; split; [exact H|]; repeat split).
Qed.

(* the weak forms: locals may be visible *)
Definition gbw (sym : symtab) (gc : N) : Prop :=
  forall n y, st_resolve n sym = Some y -> sscp y = GlobalScope -> sidx y < gc.
Definition lbw (sym : symtab) (lc : N) : Prop :=
  forall n y, st_resolve n sym = Some y -> sscp y = LocalScope -> sidx y < lc.

Lemma globals_below_gbw sym gc : globals_below sym gc -> gbw sym gc.
Proof. intros H n y HR _. apply (H n y HR). Qed.

Lemma lopk_nonlocal lc o a : is_local o = false -> lopk lc (o, a).
Proof. intros H X. cbn [fst] in X. congruence. Qed.

(* From st to st' the compiler appended straight-line code that leaves n values
   more on the stack than it found.  expr_sl2 & co. below say this of what
   compile_expr & co. append. *)
Definition grows (st st' : cstate) (n : N) : Prop :=
  csym st' = csym st /\
  exists ops newc,
    ccode st' = ccode st ++ encode ops /\ cconsts st' = cconsts st ++ newc /\
    (forall nc gc k,
      N.of_nat (List.length (cconsts st')) <= nc ->
      gbw (csym st) gc ->
      runs nc gc ops k = Some (k + n)) /\
    (forall lc, lbw (csym st) lc -> Forall (lopk lc) ops).

Lemma grows_nil st : grows st st 0.
Proof.
  split; [reflexivity|]. exists [], []. split; [symmetry; apply app_nil_r|]. split; [symmetry; apply app_nil_r|].
  split; [intros nc gc k _ _; cbn [runs]; rewrite N.add_0_r; reflexivity|intros; constructor].
Qed.

Lemma grows_app st st1 st2 n m : grows st st1 n -> grows st1 st2 m -> grows st st2 (n + m).
Proof.
  intros (A1 & ops1 & newc1 & B1 & C1 & D1 & L1) (A2 & ops2 & newc2 & B2 & C2 & D2 & L2).
  split; [congruence|]. exists (ops1 ++ ops2), (newc1 ++ newc2).
  split; [rewrite encode_app, B2, B1, app_assoc; reflexivity|].
  split; [rewrite C2, C1, app_assoc; reflexivity|]. split.
  - intros nc gc k H1 HG. rewrite N.add_assoc.
    eapply runs_app; [apply (D1 nc gc k); [rewrite C2, app_length in H1; lia|exact HG]|].
    apply (D2 nc gc (k + n) H1). rewrite A1. exact HG.
  - intros lc HL. apply Forall_app. split; [apply L1; exact HL|apply L2; rewrite A1; exact HL].
Qed.

Lemma grows_const k0 st st' : emit_const true k0 st = COk st' -> grows st st' 1.
Proof.
  intro HC. destruct (const_sl _ _ _ HC) as (R0 & A & B & C).
  split; [exact A|]. eexists _, _. split; [exact B|]. split; [exact C|]. split.
  - intros nc gc k H1 _. rewrite C, app_length in H1. cbn [List.length] in H1. cbn [runs].
    rewrite sop_ok_const by lia. reflexivity.
  - intros lc _. constructor; [apply lopk_nonlocal; reflexivity|constructor].
Qed.

(* the code of pn operands, then an instruction that pops them and pushes one value *)
Lemma grows_op st st0 st' o arg pn :
  grows st st0 pn ->
  st' = {| ccode := ccode st0 ++ enc1 (o, arg); cconsts := cconsts st0; csym := csym st0; cbreaks := cbreaks st0 |} ->
  is_sl o = true -> arg < 65536 -> (has_operand o = false -> arg = 0) -> simple_effect o arg = Some (pn, 1) ->
  (forall nc gc, gbw (csym st) gc ->
     match o with Constant => arg <? nc | GetGlobal | SetGlobal => arg <? gc | _ => true end = true) ->
  (forall lc, lbw (csym st) lc -> lopk lc (o, arg)) ->
  grows st st' 1.
Proof.
  intros (A & ops & newc & B & C & D & L) -> HS HA H0 HE HC HL. cbn [csym ccode cconsts].
  split; [exact A|]. exists (ops ++ [(o, arg)]), newc.
  split; [rewrite encode_app, encode_one, B, app_assoc; reflexivity|]. split; [exact C|]. split.
  - intros nc gc k H1 HG. eapply runs_app; [apply (D nc gc k H1 HG)|]. cbn [runs].
    rewrite (sop_ok_effect nc gc o arg pn 1 k HS HA H0 HE (HC nc gc HG)). reflexivity.
  - intros lc Hlc. apply Forall_app. split; [apply L; exact Hlc|]. constructor; [apply HL; exact Hlc|constructor].
Qed.

Lemma noarg_unchecked o : has_operand o = false ->
  is_local o = false /\
  forall a nc gc, match o with Constant => a <? nc | GetGlobal | SetGlobal => a <? gc | _ => true end = true.
Proof. destruct o; try discriminate; split; reflexivity. Qed.

Lemma grows_noarg st st0 st' o pn :
  grows st st0 pn -> emit true o [] st0 = COk st' ->
  has_operand o = false -> is_sl o = true -> simple_effect o 0 = Some (pn, 1) -> grows st st' 1.
Proof.
  intros G HC HO HS HE. destruct (noarg_unchecked o HO) as [NL NC].
  apply (grows_op st st0 st' o 0 pn G (emit_enc0 _ _ _ HO HC) HS); [reflexivity|reflexivity|exact HE|intros; apply NC|].
  intros lc _. apply lopk_nonlocal. exact NL.
Qed.

Definition expr_sl2 (e : expr) : Prop :=
  forall st st', compile_expr true e st = COk st' ->
    csym st' = csym st /\
    exists ops newc,
      ccode st' = ccode st ++ encode ops /\ cconsts st' = cconsts st ++ newc /\
      (forall nc gc k,
        N.of_nat (List.length (cconsts st')) <= nc ->
        gbw (csym st) gc ->
        runs nc gc ops k = Some (k + 1)) /\
      (forall lc, lbw (csym st) lc -> Forall (lopk lc) ops).

Fixpoint elen (l : elist) : N := match l with ENil => 0 | ECons _ t => 1 + elen t end.
Lemma elen_len l : elist_len l = Z.of_N (elen l).
Proof. induction l as [|e t IH]; cbn [elist_len elen]; lia. Qed.

Definition elist_sl2 (l : elist) : Prop :=
  forall st st', compile_elist true l st = COk st' ->
    csym st' = csym st /\
    exists ops newc,
      ccode st' = ccode st ++ encode ops /\ cconsts st' = cconsts st ++ newc /\
      (forall nc gc k,
        N.of_nat (List.length (cconsts st')) <= nc ->
        gbw (csym st) gc ->
        runs nc gc ops k = Some (k + elen l)) /\
      (forall lc, lbw (csym st) lc -> Forall (lopk lc) ops).

Fixpoint plen (l : eplist) : N := match l with PNil => 0 | PCons _ _ t => 1 + plen t end.
Lemma plen_len l : pairs_len l = Z.of_N (plen l).
Proof. induction l as [|k e t IH]; cbn [pairs_len plen]; lia. Qed.

Definition pairs_sl2 (l : eplist) : Prop :=
  forall st st', compile_pairs true l st = COk st' ->
    csym st' = csym st /\
    exists ops newc,
      ccode st' = ccode st ++ encode ops /\ cconsts st' = cconsts st ++ newc /\
      (forall nc gc k,
        N.of_nat (List.length (cconsts st')) <= nc ->
        gbw (csym st) gc ->
        runs nc gc ops k = Some (k + 2 * plen l)) /\
      (forall lc, lbw (csym st) lc -> Forall (lopk lc) ops).

Definition oexpr_sl2 (o : oexpr) : Prop :=
  forall st st', compile_oexpr true o st = COk st' ->
    csym st' = csym st /\
    exists ops newc,
      ccode st' = ccode st ++ encode ops /\ cconsts st' = cconsts st ++ newc /\
      (forall nc gc k,
        N.of_nat (List.length (cconsts st')) <= nc ->
        gbw (csym st) gc ->
        runs nc gc ops k = Some (k + 1)) /\
      (forall lc, lbw (csym st) lc -> Forall (lopk lc) ops).

Theorem efrag_sl2_all :
  (forall e, efrag e = true -> expr_sl2 e) /\
  (forall l, efrag_list l = true -> elist_sl2 l) /\
  (forall l, efrag_pairs l = true -> pairs_sl2 l) /\
  (forall o, efrag_o o = true -> oexpr_sl2 o).
Proof.
  apply expr_mutind; try (intros; exact I).
  - (* ENum *) intros f _ st st' HC. exact (grows_const (KNum f) st st' HC).
  - (* EBool *) intros b _ st st' HC.
    apply (grows_noarg st st st' (if b then OTrue else OFalse) 0 (grows_nil st) HC); destruct b; reflexivity.
  - (* EStr *) intros s _ st st' HC. exact (grows_const (KStr s) st st' HC).
  - (* EVar *) intros n _ st st' HC. cbn [compile_expr] in HC. unfold compile_var in HC.
    destruct (st_resolve n (csym st)) as [y|] eqn:ER; [|discriminate].
    destruct (sscp y) eqn:ES; apply emit_enc1 in HC; try reflexivity; destruct HC as [HRng HC]; rewrite N2Z.id in HC.
    + apply (grows_op st st st' GetGlobal (sidx y) 0 (grows_nil st) HC); try reflexivity; [lia|discriminate| |].
      * intros nc gc HG. apply N.ltb_lt. exact (HG n y ER ES).
      * intros lc _. apply lopk_nonlocal. reflexivity.
    + apply (grows_op st st st' GetLocal (sidx y) 0 (grows_nil st) HC); try reflexivity; [lia|discriminate|].
      intros lc HL _. exact (HL n y ER ES).
  - (* EArr *) intros l IHl HF st st' HC. cbn [compile_expr] in HC. bind_inv HC.
    apply emit_enc1 in HC; [|reflexivity]. destruct HC as [HRng HC]. rewrite elen_len, N2Z.id in *.
    apply (grows_op st st0 st' Array (elen l) (elen l) (IHl HF st st0 H) HC); try reflexivity; [lia|discriminate|].
    intros lc _. apply lopk_nonlocal. reflexivity.
  - (* EMap *) intros kvs IHl np HF st st' HC.
    cbn [efrag] in HF. apply andb_true_iff in HF. destruct HF as [HNP HF]. apply Z.eqb_eq in HNP. subst np.
    cbn [compile_expr] in HC. bind_inv HC.
    apply emit_enc1 in HC; [|reflexivity]. destruct HC as [HRng HC]. rewrite plen_len, N2Z.id in *.
    apply (grows_op st st0 st' Map (plen kvs) (2 * plen kvs) (IHl HF st st0 H) HC); try reflexivity; [lia|discriminate|].
    intros lc _. apply lopk_nonlocal. reflexivity.
  - (* EUn *) intros op e IHe HF st st' HC. cbn [compile_expr] in HC. bind_inv HC.
    destruct op; try discriminate HF; exact (grows_noarg st st0 st' _ 1 (IHe HF st st0 H) HC eq_refl eq_refl eq_refl).
  - (* EBin *) intros op lt rt e1 IHe1 e2 IHe2 HF st st' HC.
    cbn [efrag] in HF. apply andb_true_iff in HF. destruct HF as [HF1 HF2]. cbn [compile_expr] in HC. bind_inv HC. bind_inv H.
    destruct (binop_opc _ _ _ _ _ HC) as (o & HEm & HO & HS & HE).
    exact (grows_noarg st st0 st' o 2 (grows_app st st1 st0 1 1 (IHe1 HF1 st st1 H0) (IHe2 HF2 st1 st0 H)) HEm HO HS HE).
  - (* EIndex *) intros e1 IHe1 e2 IHe2 HF st st' HC.
    cbn [efrag] in HF. apply andb_true_iff in HF. destruct HF as [HF1 HF2]. cbn [compile_expr] in HC. bind_inv HC. bind_inv H.
    exact (grows_noarg st st0 st' Index 2 (grows_app st st1 st0 1 1 (IHe1 HF1 st st1 H0) (IHe2 HF2 st1 st0 H)) HC eq_refl eq_refl eq_refl).
  - (* ESlice *) intros l IHl a IHa b IHb HF st st' HC.
    cbn [efrag] in HF. apply andb_true_iff in HF. destruct HF as [HF HF3]. apply andb_true_iff in HF. destruct HF as [HF1 HF2].
    cbn [compile_expr] in HC.
    apply bind_ok in HC; destruct HC as (c3 & HC3 & HC). apply bind_ok in HC3; destruct HC3 as (c2 & HC2 & HCb).
    apply bind_ok in HC2; destruct HC2 as (c1 & HCl & HCa).
    pose proof (grows_app st c1 c2 1 1 (IHl HF1 st c1 HCl) (IHa HF2 c1 c2 HCa)) as G2.
    exact (grows_noarg st c3 st' Slice 3 (grows_app st c2 c3 2 1 G2 (IHb HF3 c2 c3 HCb)) HC eq_refl eq_refl eq_refl).
  - (* EGroup *) intros e IHe HF. exact (IHe HF).
  - (* EUnsupported *) intros w HF. discriminate HF.
  - (* ENil *) intros _ st st' HC. inversion HC; subst st'. apply grows_nil.
  - (* ECons *) intros e IHe t IHt HF st st' HC.
    cbn [efrag_list] in HF. apply andb_true_iff in HF. destruct HF as [HF1 HF2]. cbn [compile_elist] in HC. bind_inv HC.
    exact (grows_app st st0 st' 1 (elen t) (IHe HF1 st st0 H) (IHt HF2 st0 st' HC)).
  - (* PNil *) intros _ st st' HC. inversion HC; subst st'. apply grows_nil.
  - (* PCons *) intros k0 e IHe t IHt HF st st' HC.
    cbn [efrag_pairs] in HF. apply andb_true_iff in HF. destruct HF as [HF1 HF2]. cbn [compile_pairs] in HC. bind_inv HC. bind_inv H.
    change (grows st st' (2 * plen (PCons k0 e t))).
    replace (2 * plen (PCons k0 e t)) with (1 + (1 + 2 * plen t)) by (cbn [plen]; lia).
    exact (grows_app st st1 st' _ _ (grows_const _ _ _ H0) (grows_app st1 st0 st' _ _ (IHe HF1 st1 st0 H) (IHt HF2 st0 st' HC))).
  - (* ONoneE *) intros _ st st' HC. exact (grows_noarg st st st' ONone 0 (grows_nil st) HC eq_refl eq_refl eq_refl).
  - (* OSome *) intros e IHe HF. exact (IHe HF).
Qed.

Theorem efrag_sl2 : forall e, efrag e = true -> expr_sl2 e.
Proof. exact (proj1 efrag_sl2_all). Qed.

Theorem efrag_sl : forall e, efrag e = true -> expr_sl e.
Proof.
  intros e HF st st' HC. destruct (efrag_sl2 e HF st st' HC) as (A & ops & newc & B & C & D & _).
  split; [exact A|]. exists ops, newc. split; [exact B|]. split; [exact C|].
  intros nc gc k H1 HG. apply (D nc gc k H1). apply globals_below_gbw. exact HG.
Qed.

Definition sfrag_stmt (s : stmt) : bool :=
  match s with
  | SDecl _ e => efrag e
  | SAssign (EVar _) e => efrag e
  | SEmpty => true
  | _ => false
  end.
Fixpoint sfrag (p : slist) : bool :=
  match p with SNil => true | SCons s t => sfrag_stmt s && sfrag t end.

Definition top_ok (st : cstate) : Prop :=
  outers (csym st) = [] /\ Inv (csym st) /\ nmax (cur (csym st)) = 0.

Lemma sym_top_globals sym : outers sym = [] -> Inv sym ->
  forall n y, st_resolve n sym = Some y -> sscp y = GlobalScope /\ sidx y < index (cur sym).
Proof.
  intros HO HI n y HR. unfold st_resolve in HR. rewrite HO in HR. simpl in HR.
  destruct (slookup n (store (cur sym))) as [y'|] eqn:E; [|discriminate]. inversion HR; subst y'.
  unfold Inv in HI. rewrite HO in HI. simpl in HI. destruct HI as (_ & B & _).
  destruct (B _ _ E) as (_ & S & R). split; [exact S|lia].
Qed.

Lemma top_globals st : top_ok st -> globals_below (csym st) (index (cur (csym st))).
Proof. intros (HO & HI & _) n y HR. apply (sym_top_globals _ HO HI n y HR). Qed.

Lemma define_frame n s :
  outers (fst (st_define n s)) = outers s /\ nmax (cur (fst (st_define n s))) = nmax (cur s) /\
  index (cur s) <= index (cur (fst (st_define n s))).
Proof.
  unfold st_define. destruct (slookup n (store (cur s))); cbn [fst cur outers nmax index]; repeat split; lia.
Qed.

Definition stmt_sl (st st' : cstate) : Prop :=
  top_ok st' /\ index (cur (csym st)) <= index (cur (csym st')) /\
  exists ops newc,
    ccode st' = ccode st ++ encode ops /\ cconsts st' = cconsts st ++ newc /\
    forall nc gc,
      N.of_nat (List.length (cconsts st')) <= nc ->
      index (cur (csym st')) <= gc ->
      runs nc gc ops 0 = Some 0 /\ Forall (lopk 0) ops.

Lemma stmt_sl_refl st : top_ok st -> stmt_sl st st.
Proof.
  intro HT. split; [exact HT|]. split; [lia|].
  exists [], []. split; [simpl; rewrite app_nil_r; reflexivity|]. split; [rewrite app_nil_r; reflexivity|].
  intros; split; [reflexivity|constructor].
Qed.

Lemma stmt_sl_trans st st0 st' : stmt_sl st st0 -> stmt_sl st0 st' -> stmt_sl st st'.
Proof.
  intros (T1 & M1 & ops1 & newc1 & B1 & C1 & D1) (T2 & M2 & ops2 & newc2 & B2 & C2 & D2).
  split; [exact T2|]. split; [lia|]. exists (ops1 ++ ops2), (newc1 ++ newc2).
  split; [rewrite encode_app, B2, B1, app_assoc; reflexivity|].
  split; [rewrite C2, C1, app_assoc; reflexivity|].
  intros nc gc H1 H3.
  destruct (D1 nc gc) as [R1 L1]; auto; [rewrite C2, app_length in H1; lia|lia|].
  destruct (D2 nc gc) as [R2 L2]; auto.
  split; [eapply runs_app; eauto|apply Forall_app; auto].
Qed.

Lemma top_lbw st : top_ok st -> lbw (csym st) 0.
Proof. intros (HO & HI & _) n y HR HS. destruct (sym_top_globals _ HO HI n y HR) as [S _]. congruence. Qed.

(* the code of an expression, then the store into the global y (st1 is st0 with
   the table in force after the statement) *)
Lemma store_global_sl st st0 st1 st' y :
  top_ok st -> grows st st0 1 -> ccode st1 = ccode st0 -> cconsts st1 = cconsts st0 ->
  emit_set_var true y st1 = COk st' -> sscp y = GlobalScope -> sidx y < index (cur (csym st1)) ->
  index (cur (csym st)) <= index (cur (csym st1)) ->
  csym st' = csym st1 /\
  exists ops newc,
    ccode st' = ccode st ++ encode ops /\ cconsts st' = cconsts st ++ newc /\
    forall nc gc, N.of_nat (List.length (cconsts st')) <= nc -> index (cur (csym st1)) <= gc ->
      runs nc gc ops 0 = Some 0 /\ Forall (lopk 0) ops.
Proof.
  intros HT (A & ops & newc & B & C & D & L) E3 E2 H HS HI HM.
  unfold emit_set_var in H. rewrite HS in H. apply emit_enc1 in H; [|reflexivity]. destruct H as [HRng ->].
  cbn [csym ccode cconsts]. rewrite N2Z.id. split; [reflexivity|].
  exists (ops ++ [(SetGlobal, sidx y)]), newc.
  split; [rewrite encode_app, encode_one, E3, B, app_assoc; reflexivity|]. split; [rewrite E2; exact C|].
  intros nc gc H1 H3. split.
  - eapply runs_app.
    + apply (D nc gc 0); [rewrite <- E2; exact H1|].
      intros m ym HR _. destruct (top_globals st HT m ym HR) as [S R]. lia.
    + cbn [runs]. rewrite sop_ok_setglobal by lia. reflexivity.
  - apply Forall_app. split; [apply L; apply top_lbw; exact HT|]. constructor; [apply lopk_nonlocal; reflexivity|constructor].
Qed.

Lemma stmt_frag_sl s st st' :
  sfrag_stmt s = true -> compile_stmt true s st = COk st' -> top_ok st -> stmt_sl st st'.
Proof.
  intros HF HC HT. pose proof HT as (HO & HI & HN). unfold stmt_sl, top_ok.
  destruct s; try discriminate HF.
  - (* SDecl *)
    simpl in HF, HC. bind_inv HC. pose proof (efrag_sl2 e HF _ _ H) as G. pose proof (proj1 G) as A.
    destruct (st_define n (csym st0)) as [sym' y] eqn:ED.
    assert (HD : fst (st_define n (csym st0)) = sym' /\ snd (st_define n (csym st0)) = y) by (rewrite ED; auto).
    destruct HD as [HD1 HD2].
    assert (TOP' : outers sym' = [] /\ Inv sym' /\ nmax (cur sym') = 0 /\ index (cur (csym st)) <= index (cur sym') /\
                   sscp y = GlobalScope /\ sidx y < index (cur sym')).
    { rewrite <- HD1, <- HD2. rewrite A.
      destruct (define_frame n (csym st)) as (F1 & F2 & F3).
      pose proof (inv_define n (csym st) HI) as HI'.
      pose proof (define_then_resolve (csym st) n) as DR.
      assert (FO : outers (fst (st_define n (csym st))) = []) by congruence.
      destruct (sym_top_globals _ FO HI' _ _ DR) as [S R].
      repeat split; auto; congruence. }
    destruct TOP' as (T1 & T2 & T3 & T4 & T5 & T6).
    destruct (store_global_sl st st0 (with_sym sym' st0) st' y HT G eq_refl eq_refl HC T5 T6 T4) as (E1 & X).
    cbn [with_sym csym] in E1, X. rewrite E1. repeat split; auto.
  - (* SAssign (EVar n) e *)
    destruct target; try discriminate HF. simpl in HF, HC. bind_inv HC.
    pose proof (efrag_sl2 e HF _ _ H) as G. pose proof (proj1 G) as A.
    destruct (st_resolve n (csym st0)) as [y|] eqn:ER; [|discriminate].
    rewrite A in ER. destruct (top_globals st HT n y ER) as [S R].
    destruct (store_global_sl st st0 st0 st' y HT G eq_refl eq_refl HC S) as (E1 & X); [rewrite A; exact R|rewrite A; lia|].
    rewrite A in E1, X. rewrite E1. repeat split; auto. lia.
  - (* SEmpty *)
    simpl in HC. inversion HC; subst st'. exact (stmt_sl_refl st HT).
Qed.

Lemma slist_frag_sl p : forall st st',
  sfrag p = true -> compile_slist true p st = COk st' -> top_ok st -> stmt_sl st st'.
Proof.
  induction p as [|s t IH]; intros st st' HF HC HT.
  - simpl in HC. inversion HC; subst st'. exact (stmt_sl_refl st HT).
  - simpl in HF. apply andb_true_iff in HF. destruct HF as [HF1 HF2]. simpl in HC. bind_inv HC.
    pose proof (stmt_frag_sl s st st0 HF1 H HT) as S1.
    exact (stmt_sl_trans st st0 st' S1 (IH st0 st' HF2 HC (proj1 S1))).
Qed.

Lemma slist_ind_plain : forall (P : slist -> Prop), P SNil -> (forall s t, P t -> P (SCons s t)) -> forall l, P l.
Proof. intros P H0 H1. fix F 1. intros [|s t]; [exact H0|apply H1; apply F]. Qed.

(* compile_wf_partial: for every top-level program of declarations and
   assignments of fragment expressions, if the compiler succeeds its output is
   well formed.  No size guard: an operand that does not fit 16 bits makes the
   compiler at HEAD fail (ErrOperandRange) instead of emitting code. *)
Theorem compile_wf_partial : forall (p : slist) (st : cstate),
  sfrag p = true -> compile p = COk st ->
  WF {| bcode := out_code (bytecode_of st); nconsts := N.of_nat (List.length (out_consts (bytecode_of st)));
        gcount := out_gcount (bytecode_of st); lcount := out_lcount (bytecode_of st) |}.
Proof.
  intros p st HF HC. unfold compile, compile_program in HC.
  assert (HT : top_ok cinit) by (split; [reflexivity|split; [apply inv_new|reflexivity]]).
  destruct (slist_frag_sl p cinit st HF HC HT) as ((T1 & T2 & T3) & _ & ops & newc & B & C & D).
  unfold bytecode_of. cbn [out_code out_consts out_gcount out_lcount]. unfold st_local_count, st_global_count in *.
  rewrite T3. simpl in B. rewrite B.
  destruct (D (N.of_nat (List.length (cconsts st))) (index (cur (csym st)))) as [R L]; [lia|lia|].
  apply runs_WF; assumption.
Qed.
