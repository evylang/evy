(* FmtCheckProofs.v — what `evy fmt --check` (Format.fmt_check) can accept, on the BYTES of the text:
   an accepted text is the formatter's output, hence has the shape of C07; in particular no white
   space of any kind (blank, tab, CR of a CRLF line ending, FF, VT, NBSP ...) directly before a newline. *)
From Coq Require Import ZArith NArith List Bool.
From EvyV Require Import Base FmtAst Format FormatShapeProofs.
Import ListNotations.
Open Scope N_scope.

Lemma fmt_check_iff parse fx t :
  fmt_check parse fx t = true <-> exists p, parse t = Some p /\ t = format fx p.
Proof.
  unfold fmt_check. destruct (parse t) as [p|].
  - destruct (str_eq_dec t (format fx p)) as [E|E]; split.
    + intros _. exists p. auto.
    + reflexivity.
    + discriminate.
    + intros (p' & Hp & Ht). injection Hp as <-. contradiction.
  - split; [discriminate | intros (p & Hp & _); discriminate].
Qed.

Lemma check_accepted_is_shaped (parse : str -> option fprog) (fx : fixes) (t : str) :
  (forall p, parse t = Some p -> wf_prog p = true) ->
  fmt_check parse fx t = true -> shape_lines t = true.
Proof.
  intros Hwf H. apply fmt_check_iff in H. destruct H as (p & Hp & Ht).
  rewrite Ht. apply format_shape. apply Hwf. exact Hp.
Qed.

Lemma shape_scan_space_nl (w : N) (a : str) : is_space w = true -> w <> 10 ->
  forall st b, shape_scan st (a ++ w :: 10 :: b) = false.
Proof.
  intros Hw Hn. apply N.eqb_neq in Hn.
  induction a as [|c a IH]; intros st b.
  - cbn [app shape_scan]. rewrite Hn. destruct (at_bol st).
    + destruct (w =? 32).
      * cbn. reflexivity.
      * rewrite Hw. reflexivity.
    + cbn. rewrite Hw. reflexivity.
  - cbn [app shape_scan].
    destruct (c =? 10), (at_bol st), (c =? 32); rewrite ?IH, ?andb_false_r; reflexivity.
Qed.

Lemma check_rejects_space_before_newline (parse : str -> option fprog) (fx : fixes) (a b : str) (w : N) :
  (forall p, parse (a ++ w :: 10 :: b) = Some p -> wf_prog p = true) ->
  is_space w = true -> w <> 10 ->
  fmt_check parse fx (a ++ w :: 10 :: b) = false.
Proof.
  intros Hwf Hw Hn. destruct (fmt_check parse fx (a ++ w :: 10 :: b)) eqn:E; [|reflexivity].
  apply check_accepted_is_shaped in E; [|exact Hwf].
  unfold shape_lines in E. rewrite (shape_scan_space_nl w a Hw Hn) in E. discriminate.
Qed.

Lemma check_rejects_crlf (parse : str -> option fprog) (fx : fixes) (a b : str) :
  (forall p, parse (a ++ 13 :: 10 :: b) = Some p -> wf_prog p = true) ->
  fmt_check parse fx (a ++ 13 :: 10 :: b) = false.
Proof. intro Hwf. apply check_rejects_space_before_newline; [exact Hwf | reflexivity | discriminate]. Qed.
