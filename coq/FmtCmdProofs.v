(* FmtCmdProofs.v — lemmas about FmtCmd.v: every run of `evy fmt` on one file,
   for every adversary schedule (any number of failing / short calls) and every
   kill point. *)
From Coq Require Import ZArith NArith List Bool Arith Lia.
From EvyV Require Import Base FmtCmd.
Import ListNotations.
Local Open Scope nat_scope.

Lemma upd_same fs p v : files (upd fs p v) p = v.
Proof. unfold upd; simpl. now rewrite str_eqb_refl. Qed.

Lemma upd_other fs p v q : q <> p -> files (upd fs p v) q = files fs q.
Proof. intro H. unfold upd; simpl. apply str_eqb_neq in H. now rewrite H. Qed.

Lemma dirw_upd fs p v : dirw (upd fs p v) = dirw fs.
Proof. reflexivity. Qed.

(* what one system call can do to the file system *)
Definition call_effect (fs : fsys) (c : call) (fs' : fsys) (r : ret) : Prop :=
  match c with
  | CCreateTemp p m =>
      (is_ok r = false /\ fs' = fs) \/
      (r = ROk /\ files fs p = None /\ fs' = upd fs p (Some {| f_data := []; f_mode := m |}))
  | CWrite p d =>
      (is_ok r = false /\ fs' = fs) \/
      (exists f n, files fs p = Some f /\ n <= List.length d /\ r = RCount n /\
                   fs' = upd fs p (Some {| f_data := f_data f ++ firstn n d; f_mode := f_mode f |}))
  | CFchmod p m =>
      (is_ok r = false /\ fs' = fs) \/
      (exists f, files fs p = Some f /\ r = ROk /\ fs' = upd fs p (Some {| f_data := f_data f; f_mode := m |}))
  | CRename a b =>
      (is_ok r = false /\ fs' = fs) \/
      (exists f, files fs a = Some f /\ r = ROk /\
                 ((a = b /\ fs' = fs) \/ (a <> b /\ fs' = upd (upd fs b (Some f)) a None)))
  | CUnlink p =>
      (is_ok r = false /\ fs' = fs) \/ (r = ROk /\ fs' = upd fs p None)
  | CStat p | CFstat p | CLstat p =>
      fs' = fs /\ (forall m, r = RMode m -> exists f, files fs p = Some f /\ f_mode f = m)
  | COpenR p => fs' = fs /\ (is_ok r = true -> exists f, files fs p = Some f)
  | _ => fs' = fs
  end.

Lemma call_effect_err fs c e : call_effect fs c fs (RErr e).
Proof. destruct c; simpl; auto; split; auto; intros; discriminate. Qed.

Lemma sys_exec_effect fs c o fs' r : sys_exec fs c o = (fs', r) -> call_effect fs c fs' r.
Proof.
  unfold sys_exec.
  destruct c as [p|p|p off|p|p|p m|p d|p m|p|p|a b|p|p];
    (destruct o as [|n|e]; [| |intros [= <- <-]; apply call_effect_err]); cbn [call_effect].
  (* call by call, a complete and a short transfer alike *)
  1-2: (* open *) destruct (files fs p) as [f|] eqn:Ef; intros [= <- <-]; (split; [reflexivity|]); [eauto | discriminate].
  1-2: (* fstat *) destruct (files fs p) as [f|] eqn:Ef; intros [= <- <-]; (split; [reflexivity|]); intros m0 [= <-]; eauto.
  1-2: (* read *) destruct (files fs p); intros [= <- <-]; reflexivity.
  1-2: (* close *) intros [= <- <-]; reflexivity.
  1-2: (* stat *) destruct (files fs p) as [f|] eqn:Ef; intros [= <- <-]; (split; [reflexivity|]); intros m0 [= <-]; eauto.
  1-2: (* create *) destruct (negb (dirw fs)); [|destruct (files fs p) eqn:Ef]; intros [= <- <-]; auto.
  1-2: (* write: the count is at most what was asked for *)
       destruct (files fs p) as [f|] eqn:Ef; intros [= <- <-]; [right; exists f | auto];
       eexists; (split; [reflexivity|]); (split; [|split; reflexivity]); auto using Nat.le_min_r.
  1-2: (* fchmod *) destruct (files fs p) as [f|] eqn:Ef; intros [= <- <-]; [right; exists f|]; auto.
  1-2: (* close *) intros [= <- <-]; reflexivity.
  1-2: (* lstat *) destruct (files fs p) as [f|] eqn:Ef; intros [= <- <-]; (split; [reflexivity|]); intros m0 [= <-]; eauto.
  1-2: (* rename, onto itself or not *)
       destruct (files fs a) as [f|] eqn:Ef; [destruct (negb (dirw fs)); [|destruct (str_eqb a b) eqn:E]|];
       intros [= <- <-]; auto; right; exists f; (split; [reflexivity|]); (split; [reflexivity|]);
       [left; split; [apply str_eqb_eq, E | reflexivity] | right; split; [apply str_eqb_neq, E | reflexivity]].
  1-2: (* unlink *) destruct (files fs p); [destruct (negb (dirw fs))|]; intros [= <- <-]; auto.
  1-2: (* rmdir *) destruct (files fs p); intros [= <- <-]; reflexivity.
Qed.

(* a small program logic for [world -> step A]: [Q] is what holds if the step goes on ([Go]),
   [K] what holds if it ends the run ([Stop]) *)
Definition post {A} (m : world -> step A) (w : world)
           (Q : A -> world -> Prop) (K : status -> world -> Prop) : Prop :=
  match m w with Go a w' => Q a w' | Stop s w' => K s w' end.

Lemma post_bind {A B} (m : world -> step A) (k : A -> world -> step B) w (Q : B -> world -> Prop) (K : status -> world -> Prop) :
  post m w (fun a w' => post (k a) w' Q K) K -> post (bind m k) w Q K.
Proof. unfold post, bind. destruct (m w); auto. Qed.

Lemma post_ret {A} (a : A) w (Q : A -> world -> Prop) (K : status -> world -> Prop) : Q a w -> post (ret_ a) w Q K.
Proof. auto. Qed.

Lemma post_weaken {A} (m : world -> step A) w (Q Q' : A -> world -> Prop) (K K' : status -> world -> Prop) :
  post m w Q K -> (forall a w', Q a w' -> Q' a w') -> (forall s w', K s w' -> K' s w') -> post m w Q' K'.
Proof. unfold post. destruct (m w); auto. Qed.

Lemma post_syscall c w (Q : ret -> world -> Prop) (K : status -> world -> Prop) :
  (w_left w = 0 -> K Killed w) ->
  (forall k fs' r, w_left w = S k -> call_effect (w_fs w) c fs' r ->
     Q r {| w_fs := fs'; w_sched := tl (w_sched w); w_left := k; w_trace := (c, r) :: w_trace w |}) ->
  post (syscall c) w Q K.
Proof.
  intros HK HQ. unfold post, syscall. destruct (w_left w) as [|k] eqn:E.
  - auto.
  - cbv zeta. apply HQ; auto. apply sys_exec_effect with (o := hd OOk (w_sched w)).
    now destruct (sys_exec (w_fs w) c (hd OOk (w_sched w))).
Qed.

Definition is_read_call (p : path) (c : call) : Prop :=
  match c with
  | COpenR q | CFstat q | CCloseR q => q = p
  | CRead q _ => q = p
  | _ => False
  end.

(* the trace of w' extends the trace of w by calls that satisfy P only *)
Definition trace_ext (P : call -> Prop) (w w' : world) : Prop :=
  exists evs, w_trace w' = evs ++ w_trace w /\ Forall (fun e => P (fst e)) evs.

Lemma trace_ext_refl P w : trace_ext P w w.
Proof. exists []. split; auto. Qed.

Lemma trace_ext_step (P : call -> Prop) w c fs' r sch k :
  P c -> trace_ext P w {| w_fs := fs'; w_sched := sch; w_left := k; w_trace := (c, r) :: w_trace w |}.
Proof. intro H. exists [(c, r)]. split; auto. Qed.

Lemma trace_ext_trans P w1 w2 w3 : trace_ext P w1 w2 -> trace_ext P w2 w3 -> trace_ext P w1 w3.
Proof.
  intros [e1 [H1 F1]] [e2 [H2 F2]]. exists (e2 ++ e1). split.
  - rewrite H2, H1. now rewrite app_assoc.
  - apply Forall_app; auto.
Qed.

Lemma trace_ext_weaken (P Q : call -> Prop) w w' : (forall c, P c -> Q c) -> trace_ext P w w' -> trace_ext Q w w'.
Proof. intros HPQ [evs [He Hf]]. exists evs. split; auto. eapply Forall_impl; [|exact Hf]. auto. Qed.

Lemma firstn_nil_inv {A} n (l : list A) : firstn n l = [] -> n = 0 \/ l = [].
Proof. destruct n, l; simpl; auto; discriminate. Qed.

Lemma sys_exec_read fs p off o f :
  files fs p = Some f ->
  exists r, sys_exec fs (CRead p off) o = (fs, r) /\
    ((exists e, r = RErr e) \/
     (exists d d', r = RData d /\ skipn off (f_data f) = d ++ d' /\ (d = [] -> d' = []))).
Proof.
  intro Hf. unfold sys_exec. destruct o as [|n|e]; cbv beta iota; try rewrite Hf.
  - eexists. split; [reflexivity|]. right. exists (skipn off (f_data f)), []. rewrite firstn_all, app_nil_r. auto.
  - eexists. split; [reflexivity|]. right.
    set (rest := skipn off (f_data f)). set (m := Nat.max 1 (Nat.min n (List.length rest))).
    exists (firstn m rest), (skipn m rest). rewrite firstn_skipn. repeat split; auto.
    intro E. apply firstn_nil_inv in E. destruct E as [E|E]; [unfold m in E; lia|]. rewrite E. now destruct m.
  - eexists. split; [reflexivity|]. left. eauto.
Qed.

(* the two loops match on [syscall] themselves instead of going through [bind], so [post_syscall]
   does not apply to them *)
Lemma syscall_go c w k :
  w_left w = S k ->
  syscall c w = Go (snd (sys_exec (w_fs w) c (hd OOk (w_sched w))))
                   {| w_fs := fst (sys_exec (w_fs w) c (hd OOk (w_sched w))); w_sched := tl (w_sched w); w_left := k;
                      w_trace := (c, snd (sys_exec (w_fs w) c (hd OOk (w_sched w)))) :: w_trace w |}.
Proof. intro H. unfold syscall. now rewrite H. Qed.

Lemma read_loop_post fuel p acc w f rest :
  files (w_fs w) p = Some f -> f_data f = acc ++ rest -> List.length rest < fuel ->
  post (read_loop fuel p acc) w
       (fun r w' => w_fs w' = w_fs w /\ trace_ext (is_read_call p) w w' /\ (forall d, r = Some d -> d = f_data f))
       (fun s w' => s = Killed /\ w_fs w' = w_fs w /\ trace_ext (is_read_call p) w w').
Proof.
  revert acc w rest. induction fuel as [|fuel IH]; intros acc w rest Hf Hd Hl; [lia|].
  unfold post. simpl.
  destruct (w_left w) as [|k] eqn:El.
  - unfold syscall. rewrite El. repeat split; auto using trace_ext_refl.
  - rewrite (syscall_go _ _ _ El).
    destruct (sys_exec_read (w_fs w) p (List.length acc) (hd OOk (w_sched w)) f Hf) as [r [Er Hr]].
    rewrite Er. simpl.
    assert (Hsk : skipn (List.length acc) (f_data f) = rest) by (rewrite Hd, skipn_app, skipn_all, Nat.sub_diag; reflexivity).
    rewrite Hsk in Hr.
    destruct Hr as [[e ->] | [d [d' [-> [Hs Hn]]]]].
    + repeat split; auto. { apply trace_ext_step; simpl; auto. } intros; discriminate.
    + destruct d as [|x d].
      * specialize (Hn eq_refl). subst d'. simpl in Hs. subst rest.
        repeat split; auto. { apply trace_ext_step; simpl; auto. }
        intros d0 Hd0. inversion Hd0; subst. now rewrite Hd, app_nil_r.
      * match goal with |- match read_loop fuel p ?a ?w0 with _ => _ end =>
          specialize (IH a w0 d') end.
        simpl in IH. unfold post in IH.
        assert (Hl' : List.length d' < fuel).
        { subst rest. rewrite app_length in Hl. simpl in Hl. lia. }
        assert (Hd' : f_data f = (acc ++ x :: d) ++ d') by (rewrite <- app_assoc, <- Hs; exact Hd).
        specialize (IH Hf Hd' Hl').
        match goal with |- match ?X with _ => _ end => destruct X eqn:E end.
        -- destruct IH as [H1 [H2 H3]].
           repeat split; auto. eapply trace_ext_trans; [|exact H2]. apply trace_ext_step; simpl; auto.
        -- destruct IH as [H1 [H2 H3]].
           repeat split; auto. eapply trace_ext_trans; [|exact H3]. apply trace_ext_step; simpl; auto.
Qed.

Lemma read_file_post p w :
  post (read_file p) w
       (fun r w' => w_fs w' = w_fs w /\ trace_ext (is_read_call p) w w' /\
                    (forall d, r = Some d -> exists f, files (w_fs w) p = Some f /\ d = f_data f))
       (fun s w' => s = Killed /\ w_fs w' = w_fs w /\ trace_ext (is_read_call p) w w').
Proof.
  unfold read_file. apply post_bind, post_syscall.
  - intros _. repeat split; auto using trace_ext_refl.
  - intros k fs' r El [-> Hop]. destruct (is_ok r) eqn:Eok.
    + destruct (Hop eq_refl) as [f Hf].
      apply post_bind, post_syscall.
      * intros _. simpl. repeat split; auto. apply trace_ext_step; simpl; auto.
      * intros k2 fs2 r2 El2 [-> _]. cbn [w_fs w_left w_sched w_trace]. cbv beta.
        apply post_bind.
        match goal with |- post _ ?w2 _ _ => set (w2' := w2) end.
        assert (R2 : trace_ext (is_read_call p) w w2').
        { exists [(CFstat p, r2); (COpenR p, r)]. split; [reflexivity|]. repeat constructor; simpl; auto. }
        eapply post_weaken.
        { apply (read_loop_post _ p [] w2' f (f_data f)); auto.
          unfold file_len. simpl. rewrite Hf. lia. }
        -- intros a w3 [H1 [H2 H3]]. apply post_bind, post_syscall.
           ++ intros _. repeat split; auto. eapply trace_ext_trans; eauto.
           ++ intros k4 fs4 r4 El4 Hfs4. simpl in Hfs4. subst fs4. apply post_ret. simpl.
              repeat split; auto.
              ** eapply trace_ext_trans; [exact R2|]. eapply trace_ext_trans; [exact H2|].
                 apply trace_ext_step; simpl; auto.
              ** intros d Hd. exists f. split; auto.
        -- intros s w3 [H1 [H2 H3]]. repeat split; auto. eapply trace_ext_trans; eauto.
    + apply post_ret. simpl. repeat split; auto. { apply trace_ext_step; simpl; auto. } intros; discriminate.
Qed.

Definition same_fs (fs0 fs : fsys) : Prop :=
  (forall q, files fs q = files fs0 q) /\ dirw fs = dirw fs0.

(* a temp file holding [written] (a prefix of [out]) exists beside an untouched rest *)
Definition tstate (fs0 : fsys) (tmp : path) (out : bytes) (m : N) (fs : fsys) (written : bytes) : Prop :=
  files fs tmp = Some {| f_data := written; f_mode := m |} /\
  (exists rest, out = written ++ rest) /\
  (forall q, q <> tmp -> files fs q = files fs0 q) /\ dirw fs = dirw fs0.

(* the three shapes the file system can have during / after writeAtomically *)
Inductive wstate (fs0 : fsys) (target tmp : path) (out : bytes) (fm : N) (fs : fsys) : Prop :=
| WSame : same_fs fs0 fs -> wstate fs0 target tmp out fm fs
| WTemp written m : tmp <> target -> files fs0 tmp = None ->
    tstate fs0 tmp out m fs written -> wstate fs0 target tmp out fm fs
| WDone : tmp <> target -> files fs0 tmp = None ->
    files fs target = Some {| f_data := out; f_mode := fm |} -> files fs tmp = None ->
    (forall q, q <> tmp -> q <> target -> files fs q = files fs0 q) -> dirw fs = dirw fs0 ->
    wstate fs0 target tmp out fm fs.

Lemma same_fs_refl fs : same_fs fs fs.
Proof. split; auto. Qed.

Lemma is_ok_false r : is_ok r = false -> exists e, r = RErr e.
Proof. destruct r; simpl; try discriminate. eauto. Qed.

Lemma write_loop_post fuel fs0 tmp out m rest w written :
  tstate fs0 tmp out m (w_fs w) written -> out = written ++ rest -> List.length rest < fuel ->
  post (write_loop fuel tmp rest) w
       (fun b w' => exists written', tstate fs0 tmp out m (w_fs w') written' /\ (b = true -> written' = out))
       (fun s w' => s = Killed /\ exists written', tstate fs0 tmp out m (w_fs w') written').
Proof.
  revert rest w written. induction fuel as [|fuel IH]; intros rest w written Ht Ho Hl; [lia|].
  unfold post. simpl.
  destruct (w_left w) as [|k] eqn:El.
  - unfold syscall. rewrite El. split; eauto.
  - rewrite (syscall_go _ _ _ El).
    destruct (sys_exec (w_fs w) (CWrite tmp rest) (hd OOk (w_sched w))) as [fs' r] eqn:Ex.
    apply sys_exec_effect in Ex. simpl in Ex. simpl.
    destruct Ex as [[Hr ->] | [f [n [Hf [Hn [-> ->]]]]]].
    + apply is_ok_false in Hr. destruct Hr as [e ->]. exists written. split; auto. discriminate.
    + destruct Ht as [Ht1 [Ht2 [Ht3 Ht4]]]. rewrite Ht1 in Hf. inversion Hf; subst f; clear Hf. simpl.
      assert (Hnew : tstate fs0 tmp (written ++ rest) m
                       (upd (w_fs w) tmp (Some {| f_data := written ++ firstn n rest; f_mode := m |}))
                       (written ++ firstn n rest)).
      { repeat split.
        - apply upd_same.
        - exists (skipn n rest). now rewrite <- app_assoc, firstn_skipn.
        - intros q Hq. rewrite upd_other; auto.
        - auto. }
      destruct (Nat.eqb n (List.length rest)) eqn:E1.
      * apply Nat.eqb_eq in E1. subst n. rewrite firstn_all in *. subst out. exists (written ++ rest). split; auto.
      * destruct (Nat.eqb n 0) eqn:E2.
        -- subst out. eexists. split; [exact Hnew|]. discriminate.
        -- apply Nat.eqb_neq in E1. apply Nat.eqb_neq in E2.
           match goal with |- match write_loop fuel tmp ?r ?w0 with _ => _ end =>
             specialize (IH r w0 (written ++ firstn n rest)) end.
           unfold post in IH. simpl in IH. subst out.
           apply IH; auto.
           ++ now rewrite <- app_assoc, firstn_skipn.
           ++ rewrite skipn_length. lia.
Qed.

(* the temp path is empty, or the clean-up unlink itself has failed *)
Definition tmp_gone (tmp : path) (w' : world) : Prop :=
  files (w_fs w') tmp = None \/ exists e, In (CUnlink tmp, RErr e) (w_trace w').

(* the clean-up of the protocol in force: the temp file disappears, or (failed unlink) stays *)
Lemma remove_temp_post fs0 target tmp out fm m w written :
  tmp <> target -> files fs0 tmp = None -> tstate fs0 tmp out m (w_fs w) written ->
  post (remove_temp tmp) w
       (fun b w' => b = false /\ wstate fs0 target tmp out fm (w_fs w') /\ tmp_gone tmp w')
       (fun s w' => s = Killed /\ wstate fs0 target tmp out fm (w_fs w')).
Proof.
  intros Hne H0 Ht. unfold remove_temp. apply post_bind, post_syscall.
  - intros _. split; auto. eapply WTemp; eauto.
  - intros k fs' r El Heff. simpl in Heff. cbn [w_fs].
    destruct Heff as [[Hr ->] | [-> ->]].
    + rewrite Hr. apply is_ok_false in Hr. destruct Hr as [e ->].
      apply post_bind, post_syscall; cbn [w_fs].
      * intros _. split; auto. eapply WTemp; eauto.
      * intros k2 fs2 r2 El2 Hfs2. simpl in Hfs2. subst fs2. apply post_ret.
        repeat split; [eapply WTemp; eauto | right; exists e; simpl; auto].
    + simpl. apply post_ret. repeat split; [|left; apply upd_same]. apply WSame.
      destruct Ht as [Ht1 [Ht2 [Ht3 Ht4]]]. split; auto.
      intro q. cbn [w_fs]. destruct (str_eq_dec q tmp) as [->|Hq].
      * now rewrite upd_same, H0.
      * rewrite upd_other; auto.
Qed.

Lemma close_remove_temp_post fs0 target tmp out fm m w written :
  tmp <> target -> files fs0 tmp = None -> tstate fs0 tmp out m (w_fs w) written ->
  post (close_remove_temp tmp) w
       (fun b w' => b = false /\ wstate fs0 target tmp out fm (w_fs w') /\ tmp_gone tmp w')
       (fun s w' => s = Killed /\ wstate fs0 target tmp out fm (w_fs w')).
Proof.
  intros Hne H0 Ht. unfold close_remove_temp. apply post_bind, post_syscall.
  - intros _. split; auto. eapply WTemp; eauto.
  - intros k fs' r El Hfs. simpl in Hfs. subst fs'. eapply remove_temp_post; eauto.
Qed.

Lemma rename_effect fs0 fs target tmp out m fs' r f0 :
  tmp <> target -> files fs0 tmp = None -> files fs0 target = Some f0 ->
  tstate fs0 tmp out m fs out ->
  call_effect fs (CRename tmp target) fs' r ->
  (is_ok r = false /\ fs' = fs) \/
  (r = ROk /\ files fs' target = Some {| f_data := out; f_mode := m |} /\ files fs' tmp = None /\
   (forall q, q <> tmp -> q <> target -> files fs' q = files fs0 q) /\ dirw fs' = dirw fs0).
Proof.
  intros Hne H0 Hf0 [Ht1 [Ht2 [Ht3 Ht4]]] Heff. simpl in Heff.
  destruct Heff as [H|[f [Hf [-> [[E _]|[_ ->]]]]]]; auto; [contradiction|].
  right. rewrite Ht1 in Hf. inversion Hf; subst f. repeat split; auto.
  - rewrite upd_other; auto. apply upd_same.
  - apply upd_same.
  - intros q Hq1 Hq2. rewrite upd_other; auto. rewrite upd_other; auto.
Qed.

Lemma tstate_created fs0 tmp out m :
  tstate fs0 tmp out m (upd fs0 tmp (Some {| f_data := []; f_mode := m |})) [].
Proof.
  repeat split; [apply upd_same | exists out; reflexivity | intros q Hq; apply upd_other, Hq].
Qed.

(* close, lstat and rename of a complete temp file: [fail] runs when the close fails, [k] on the
   rename's answer *)
Lemma close_rename_post fs0 target tmp out m f0 w (fail : world -> step bool) (k : ret -> world -> step bool)
      (Q : bool -> world -> Prop) (K : status -> world -> Prop) :
  tmp <> target -> files fs0 tmp = None -> files fs0 target = Some f0 ->
  tstate fs0 tmp out m (w_fs w) out ->
  (forall w', tstate fs0 tmp out m (w_fs w') out -> K Killed w') ->
  (forall w', tstate fs0 tmp out m (w_fs w') out -> post fail w' Q K) ->
  (forall r w', is_ok r = false -> tstate fs0 tmp out m (w_fs w') out -> post (k r) w' Q K) ->
  (forall w', files (w_fs w') target = Some {| f_data := out; f_mode := m |} -> files (w_fs w') tmp = None ->
     (forall q, q <> tmp -> q <> target -> files (w_fs w') q = files fs0 q) -> dirw (w_fs w') = dirw fs0 ->
     post (k ROk) w' Q K) ->
  post (r3 <- syscall (CCloseW tmp) ;;
        if is_ok r3 then (_ <- syscall (CLstat target) ;; r4 <- syscall (CRename tmp target) ;; k r4) else fail) w Q K.
Proof.
  intros Hne H0 Hf0 Ht HK Hfail Hk Hdone.
  apply post_bind, post_syscall; [intros _; apply HK, Ht|].
  intros k3 fs3 r3 El3 Hfs3. simpl in Hfs3. subst fs3. destruct (is_ok r3); [|apply Hfail, Ht].
  apply post_bind, post_syscall; [intros _; apply HK, Ht|].
  intros k4 fs4 r4 El4 [-> _].
  apply post_bind, post_syscall; [intros _; apply HK, Ht|].
  intros k5 fs5 r5 El5 Heff5. cbn [w_fs] in Heff5.
  destruct (rename_effect fs0 _ target tmp out m fs5 r5 f0 Hne H0 Hf0 Ht Heff5) as [[Hr5 ->] | (-> & H1 & H2 & H3 & H4)].
  - apply Hk; [exact Hr5 | exact Ht].
  - apply Hdone; assumption.
Qed.

Lemma write_atomically_before_fix_post out target tmp w f0 :
  files (w_fs w) target = Some f0 ->
  post (write_atomically_before_fix out target tmp) w
       (fun b w' => wstate (w_fs w) target tmp out mode0600 (w_fs w') /\
                    (b = true -> files (w_fs w') target = Some {| f_data := out; f_mode := mode0600 |}))
       (fun s w' => s = Killed /\ wstate (w_fs w) target tmp out mode0600 (w_fs w')).
Proof.
  intro Hf0. set (fs0 := w_fs w). unfold write_atomically_before_fix.
  apply post_bind, post_syscall.
  - intros _. split; auto. apply WSame, same_fs_refl.
  - intros k fs1 r1 El1 Heff. simpl in Heff. fold fs0 in Heff.
    destruct Heff as [[Hr ->] | [-> [H0 ->]]].
    + rewrite Hr. apply post_ret. split; [apply WSame, same_fs_refl | discriminate].
    + simpl is_ok. cbv iota.
      assert (Hne : tmp <> target) by (intro E; subst tmp; unfold fs0 in *; congruence).
      apply post_bind.
      eapply post_weaken.
      { apply (write_loop_post _ fs0 tmp out mode0600 out _ []); simpl; auto. apply tstate_created. }
      * intros b w2 [written [Ht Hb]]. destruct b.
        -- specialize (Hb eq_refl). subst written.
           apply (close_rename_post fs0 target tmp out mode0600 f0 w2 (ret_ false) (fun r4 => ret_ (is_ok r4))); auto.
           ++ intros w' Ht'. split; auto. eapply WTemp; eauto.
           ++ intros w' Ht'. apply post_ret. split; [eapply WTemp; eauto | discriminate].
           ++ intros r w' Hr Ht'. apply post_ret. rewrite Hr. split; [eapply WTemp; eauto | discriminate].
           ++ intros w' H1 H2 H3 H4. apply post_ret. split; [apply WDone; auto | auto].
        -- apply post_ret. split; [eapply WTemp; eauto | discriminate].
      * intros s w2 [-> [written Ht]]. split; auto. eapply WTemp; eauto.
Qed.

(* [cleaned w w']: nothing has happened to the file system, or the temp path, empty at the start,
   is empty again unless the clean-up unlink itself has failed *)
Definition cleaned (tmp : path) (w w' : world) : Prop :=
  w_fs w' = w_fs w \/ (files (w_fs w) tmp = None /\ tmp_gone tmp w').

Lemma write_atomically_current_post out target tmp w f0 :
  files (w_fs w) target = Some f0 ->
  post (write_atomically out target tmp) w
       (fun b w' => wstate (w_fs w) target tmp out (f_mode f0) (w_fs w') /\
                    (b = true -> files (w_fs w') target = Some {| f_data := out; f_mode := f_mode f0 |}) /\
                    cleaned tmp w w')
       (fun s w' => s = Killed /\ wstate (w_fs w) target tmp out (f_mode f0) (w_fs w')).
Proof.
  intro Hf0. set (fs0 := w_fs w). set (fm := f_mode f0). unfold write_atomically, cleaned. fold fs0.
  (* the two ways to fail: behind the clean-up of the temp file (Wk), before it exists (Same) *)
  assert (Wk : forall (b : bool) w', files fs0 tmp = None ->
               (b = false /\ wstate fs0 target tmp out fm (w_fs w') /\ tmp_gone tmp w') ->
               wstate fs0 target tmp out fm (w_fs w') /\
               (b = true -> files (w_fs w') target = Some {| f_data := out; f_mode := fm |}) /\
               (w_fs w' = fs0 \/ (files fs0 tmp = None /\ tmp_gone tmp w'))).
  { intros b w' H0 (-> & H & Hg). repeat split; auto. discriminate. }
  assert (Same : forall w', w_fs w' = fs0 ->
               wstate fs0 target tmp out fm (w_fs w') /\
               (false = true -> files (w_fs w') target = Some {| f_data := out; f_mode := fm |}) /\
               (w_fs w' = fs0 \/ (files fs0 tmp = None /\ tmp_gone tmp w'))).
  { intros w' ->. repeat split; [apply WSame, same_fs_refl | discriminate | left; reflexivity]. }
  apply post_bind, post_syscall.
  - intros _. split; auto. apply WSame, same_fs_refl.
  - intros k0 fs' r0 El0 [-> Hm]. cbn [w_fs]. fold fs0.
    destruct r0 as [| | |m|]; try (apply post_ret, Same; reflexivity).
    destruct (Hm m eq_refl) as [f [Hf Hfm]]. fold fs0 in Hf. unfold fs0 in Hf. rewrite Hf0 in Hf.
    inversion Hf; subst f; clear Hf. fold fm in Hfm. subst m.
    apply post_bind, post_syscall.
    + intros _. split; auto. apply WSame, same_fs_refl.
    + intros k fs1 r1 El1 Heff. simpl in Heff.
      destruct Heff as [[Hr ->] | [-> [H0 ->]]].
      * rewrite Hr. apply post_ret, Same. reflexivity.
      * simpl is_ok. cbv iota. fold fs0 in H0. pose proof (fun b w' => Wk b w' H0) as Wk'.
        assert (Hne : tmp <> target) by (intro E; subst tmp; unfold fs0 in *; congruence).
        apply post_bind.
        eapply post_weaken.
        { apply (write_loop_post _ fs0 tmp out mode0600 out _ []); simpl; auto. apply tstate_created. }
        -- intros b w2 [written [Ht Hb]]. destruct b.
           ++ specialize (Hb eq_refl). subst written.
              apply post_bind, post_syscall.
              ** intros _. split; auto. eapply WTemp; eauto.
              ** intros k2 fs2 r2 El2 Heff2. simpl in Heff2. cbn [w_fs].
                 destruct Heff2 as [[Hr2 ->] | [f [Hf [-> ->]]]].
                 --- rewrite Hr2. eapply post_weaken; [eapply (close_remove_temp_post fs0 target tmp out fm); eauto | exact Wk' | auto].
                 --- simpl is_ok. cbv iota.
                     assert (Ht' : tstate fs0 tmp out fm
                                     (upd (w_fs w2) tmp (Some {| f_data := f_data f; f_mode := fm |})) out).
                     { destruct Ht as [Ht1 [Ht2 [Ht3 Ht4]]]. rewrite Ht1 in Hf. inversion Hf; subst f. simpl.
                       repeat split; auto.
                       - apply upd_same.
                       - intros q Hq. rewrite upd_other; auto. }
                     apply (close_rename_post fs0 target tmp out fm f0 _ (remove_temp tmp)
                              (fun r4 => if is_ok r4 then ret_ true else remove_temp tmp)); auto.
                     +++ intros w' Ht2. split; auto. eapply WTemp; eauto.
                     +++ intros w' Ht2. eapply post_weaken; [eapply (remove_temp_post fs0 target tmp out fm); eauto | exact Wk' | auto].
                     +++ intros r w' Hr Ht2. cbv beta. rewrite Hr.
                         eapply post_weaken; [eapply (remove_temp_post fs0 target tmp out fm); eauto | exact Wk' | auto].
                     +++ intros w' H1 H2 H3 H4. apply post_ret.
                         repeat split; [apply WDone; auto | auto | right; split; auto; left; exact H2].
           ++ eapply post_weaken; [eapply (close_remove_temp_post fs0 target tmp out fm); eauto | exact Wk' | auto].
        -- intros s w2 [-> [written Ht]]. split; auto. eapply WTemp; eauto.
Qed.

Definition final_mode (v : variant) (f0 : file) : N :=
  match v with BeforeFix => mode0600 | Current => f_mode f0 end.

Lemma write_atomically_of_post v out target tmp w f0 :
  files (w_fs w) target = Some f0 ->
  post (write_atomically_of v out target tmp) w
       (fun b w' => wstate (w_fs w) target tmp out (final_mode v f0) (w_fs w') /\
                    (b = true -> files (w_fs w') target = Some {| f_data := out; f_mode := final_mode v f0 |}) /\
                    (v = Current -> cleaned tmp w w'))
       (fun s w' => s = Killed /\ wstate (w_fs w) target tmp out (final_mode v f0) (w_fs w')).
Proof.
  intro Hf0. destruct v; simpl.
  - eapply post_weaken; [apply (write_atomically_before_fix_post out target tmp w f0 Hf0) | | auto].
    intros b w' [H1 H2]. repeat split; auto. discriminate.
  - eapply post_weaken; [apply (write_atomically_current_post out target tmp w f0 Hf0) | | auto].
    intros b w' (H1 & H2 & H3). auto.
Qed.

(* 5 calls: open, fstat, read, the read that finds the end, close *)
Lemma read_file_nofault p fs k tr f :
  files fs p = Some f ->
  exists w', read_file p {| w_fs := fs; w_sched := []; w_left := 5 + k; w_trace := tr |} = Go (Some (f_data f)) w' /\
             w_fs w' = fs /\ w_sched w' = [] /\ k <= w_left w'.
Proof.
  intro Hf. unfold read_file, bind, syscall, ret_, file_len. simpl. rewrite Hf. simpl. rewrite Hf. simpl.
  rewrite Hf. destruct (f_data f) as [|x l] eqn:Ed.
  - simpl. eexists. repeat split; simpl; lia.
  - cbn [skipn List.length firstn]. rewrite firstn_all.
    cbn [read_loop app List.length]. unfold syscall. cbn [w_left w_sched w_fs hd tl fst snd sys_exec].
    rewrite Hf, Ed. cbn [List.length skipn]. rewrite skipn_all.
    simpl. eexists. repeat split; simpl; lia.
Qed.

Section Formatter.
  Variable fmt1 : bytes -> option bytes.
  Variable parts : bytes -> list bytes.
  Variable join : bytes -> list bytes -> bytes.
  Notation fmtall := (fmt_all fmt1 parts join).
  Notation checkok := (check_ok fmt1 parts).

  Lemma check_ok_fmt_parts ps : forallb (part_ok fmt1) ps = true -> fmt_parts fmt1 ps = Some ps.
  Proof.
    induction ps as [|p t IH]; simpl; auto. intro H. apply andb_true_iff in H as [H1 H2].
    unfold part_ok in H1. destruct (fmt1 p) as [o|] eqn:E; [|discriminate].
    apply str_eqb_eq in H1. subst o. now rewrite IH.
  Qed.

  Lemma check_ok_parses src : checkok src = true -> fmtall src = Some (join src (parts src)).
  Proof. unfold check_ok, fmt_all. intro H. now rewrite check_ok_fmt_parts. Qed.

  (* outcome of fmt_file: b = Some true/false is the nil / non-nil error, None = killed *)
  Definition fout (v : variant) (c : cmd) (target tmp : path) (w : world) (b : option bool) (w' : world) : Prop :=
    (w_fs w' = w_fs w /\ trace_ext (is_read_call target) w w' /\
     (b = Some true -> exists f0, files (w_fs w) target = Some f0 /\
        match c with
        | CmdCheck => checkok (f_data f0) = true
        | CmdPlain => fmtall (f_data f0) <> None
        | CmdWrite => False
        end))
    \/
    (c = CmdWrite /\ exists f0 out, files (w_fs w) target = Some f0 /\ fmtall (f_data f0) = Some out /\
       wstate (w_fs w) target tmp out (final_mode v f0) (w_fs w') /\
       (b = Some true -> files (w_fs w') target = Some {| f_data := out; f_mode := final_mode v f0 |}) /\
       (v = Current -> b <> None -> cleaned tmp w w')).

  Lemma fmt_file_post v c target tmp w :
    post (fmt_file fmt1 parts join v c target tmp) w
         (fun b w' => fout v c target tmp w (Some b) w')
         (fun s w' => s = Killed /\ fout v c target tmp w None w').
  Proof.
    unfold fmt_file. apply post_bind. eapply post_weaken; [apply read_file_post | |].
    - intros r w1 [H1 [H2 H3]]. destruct r as [src|].
      + destruct (H3 src eq_refl) as [f0 [Hf0 ->]].
        destruct c.
        * destruct (fmtall (f_data f0)) as [out|] eqn:Ef.
          -- eapply post_weaken; [apply (write_atomically_of_post v out target tmp w1 f0); now rewrite H1 | |].
             ++ intros b w2 (Hw & Hb & Hc). right. split; auto. exists f0, out. unfold cleaned in *. rewrite H1 in *.
                repeat split; auto. intro E. inversion E; subst. auto.
             ++ intros s w2 [-> Hw]. split; auto. right. split; auto. exists f0, out. rewrite H1 in *.
                repeat split; auto; [discriminate | intros _ E; contradiction].
          -- apply post_ret. left. repeat split; auto. discriminate.
        * apply post_ret. left. repeat split; auto. intro E. inversion E. exists f0. split; auto.
        * apply post_ret. left. repeat split; auto. intro E. inversion E. exists f0. split; auto.
          destruct (fmtall (f_data f0)); [discriminate | discriminate].
      + apply post_ret. left. repeat split; auto. discriminate.
    - intros s w1 [-> [H1 H2]]. split; auto. left. repeat split; auto. discriminate.
  Qed.

  Definition w0 (fs : fsys) (sched : list outcome) (kill : nat) : world :=
    {| w_fs := fs; w_sched := sched; w_left := kill; w_trace := [] |}.

  Definition status_of (b : option bool) : status :=
    match b with Some true => Exit 0 | Some false => Exit 1 | None => Killed end.

  Lemma run_post v c target tmp fs sched kill :
    let r := run fmt1 parts join v c target tmp fs sched kill in
    exists b w', r_status r = status_of b /\ r_fs r = w_fs w' /\ r_trace r = rev (w_trace w') /\
                 fout v c target tmp (w0 fs sched kill) b w'.
  Proof.
    cbv zeta. unfold run. fold (w0 fs sched kill).
    pose proof (fmt_file_post v c target tmp (w0 fs sched kill)) as H. unfold post in H.
    destruct (fmt_file fmt1 parts join v c target tmp (w0 fs sched kill)) as [[|] w'|s w'].
    - exists (Some true), w'. auto.
    - exists (Some false), w'. auto.
    - destruct H as [-> H]. exists None, w'. auto.
  Qed.

  Lemma status_of_exit0 b : status_of b = Exit 0 -> b = Some true.
  Proof. destruct b as [[|]|]; simpl; intro H; try discriminate; auto. Qed.

  Lemma status_of_fuel b : status_of b <> OutOfFuel.
  Proof. destruct b as [[|]|]; simpl; discriminate. Qed.

  (* target t held f0 in fs and holds the complete formatted text, with the protocol's final mode, in fs' *)
  Definition formatted_to (v : variant) (fs fs' : fsys) (t : path) : Prop :=
    exists f0 out, files fs t = Some f0 /\ fmtall (f_data f0) = Some out /\
                   files fs' t = Some {| f_data := out; f_mode := final_mode v f0 |}.

  (* what a run on one file does, path by path: the target, the temp path, every other path *)
  Lemma fout_by_path v c target tmp w b w' :
    fout v c target tmp w b w' ->
    (forall q, q <> target -> q <> tmp -> files (w_fs w') q = files (w_fs w) q) /\
    (files (w_fs w') target = files (w_fs w) target \/ formatted_to v (w_fs w) (w_fs w') target) /\
    (b = Some true -> c = CmdWrite -> formatted_to v (w_fs w) (w_fs w') target) /\
    (files (w_fs w') tmp = files (w_fs w) tmp \/
     (files (w_fs w) tmp = None /\
      exists f0 out f rest, files (w_fs w) target = Some f0 /\ fmtall (f_data f0) = Some out /\
                            files (w_fs w') tmp = Some f /\ out = f_data f ++ rest)).
  Proof.
    intros [[H1 [_ H3]] | [Hc [f0 [out [Hf0 [Hfmt [Hw [Hb _]]]]]]]].
    - rewrite H1. repeat split; auto. intros E ->. destruct (H3 E) as [? [_ []]].
    - destruct Hw as [[Hq _] | written m Hne H0 [Ht1 [[rest Ht2] [Ht3 Ht4]]] | Hne H0 Ht Htmp Hq Hd].
      + repeat split; auto. intros E _. exists f0, out. auto.
      + repeat split; auto. { intros E _. exists f0, out. auto. }
        right. split; auto. exists f0, out, {| f_data := written; f_mode := m |}, rest. auto.
      + repeat split; auto.
        * right. exists f0, out. auto.
        * intros _ _. exists f0, out. auto.
        * left. now rewrite Htmp, H0.
  Qed.

  Lemma run_no_fuel v c target tmp fs sched kill :
    r_status (run fmt1 parts join v c target tmp fs sched kill) <> OutOfFuel.
  Proof.
    destruct (run_post v c target tmp fs sched kill) as [b [w' [Hs _]]]. rewrite Hs. apply status_of_fuel.
  Qed.

  Lemma fmt_w_atomic v target tmp fs sched kill :
    let r := run fmt1 parts join v CmdWrite target tmp fs sched kill in
    (files (r_fs r) target = files fs target \/
     exists f0 out m, files fs target = Some f0 /\ fmtall (f_data f0) = Some out /\
                      files (r_fs r) target = Some {| f_data := out; f_mode := m |}) /\
    (r_status r = Exit 0 ->
     exists f0 out m, files fs target = Some f0 /\ fmtall (f_data f0) = Some out /\
                      files (r_fs r) target = Some {| f_data := out; f_mode := m |}).
  Proof.
    cbv zeta. destruct (run_post v CmdWrite target tmp fs sched kill) as [b [w' [Hs [Hfs [_ Ho]]]]].
    rewrite Hs, Hfs. apply fout_by_path in Ho. cbn [w0 w_fs] in Ho. destruct Ho as (_ & H2 & H3 & _).
    assert (Hf : formatted_to v fs (w_fs w') target ->
                 exists f0 out m, files fs target = Some f0 /\ fmtall (f_data f0) = Some out /\
                                  files (w_fs w') target = Some {| f_data := out; f_mode := m |}).
    { intros (f0 & out & A & B & C). exists f0, out, (final_mode v f0). auto. }
    split; [destruct H2; auto | intro E; apply status_of_exit0 in E; auto].
  Qed.

  Lemma fmt_w_leftover v target tmp fs sched kill q :
    let r := run fmt1 parts join v CmdWrite target tmp fs sched kill in
    q <> target ->
    files (r_fs r) q = files fs q \/
    (q = tmp /\ files fs tmp = None /\
     exists f0 out f rest, files fs target = Some f0 /\ fmtall (f_data f0) = Some out /\
                           files (r_fs r) tmp = Some f /\ out = f_data f ++ rest).
  Proof.
    cbv zeta. intro Hq. destruct (run_post v CmdWrite target tmp fs sched kill) as [b [w' [Hs [Hfs [_ Ho]]]]].
    rewrite Hfs. apply fout_by_path in Ho. cbn [w0 w_fs] in Ho. destruct Ho as (H1 & _ & _ & H4).
    destruct (str_eq_dec q tmp) as [->|Hqt]; [|left; auto].
    destruct H4 as [H4|H4]; [left; exact H4 | right; split; [reflexivity | exact H4]].
  Qed.

  (* whatever happens, the target's mode is its old mode or the protocol's final mode, which is
     the old mode for the protocol in force *)
  Lemma fmt_w_mode v target tmp fs sched kill f :
    let r := run fmt1 parts join v CmdWrite target tmp fs sched kill in
    files (r_fs r) target = Some f ->
    exists f0, files fs target = Some f0 /\ (f_mode f = f_mode f0 \/ f_mode f = final_mode v f0).
  Proof.
    cbv zeta. destruct (run_post v CmdWrite target tmp fs sched kill) as [b [w' [Hs [Hfs [_ Ho]]]]].
    rewrite Hfs. intro Hf. apply fout_by_path in Ho. cbn [w0 w_fs] in Ho.
    destruct Ho as (_ & [H2 | (f0 & out & A & B & C)] & _).
    - rewrite H2 in Hf. exists f. auto.
    - rewrite C in Hf. inversion Hf; subst f. exists f0. auto.
  Qed.

  Lemma fmt_w_mode_preserved target tmp fs sched kill f :
    files (r_fs (run fmt1 parts join Current CmdWrite target tmp fs sched kill)) target = Some f ->
    exists f0, files fs target = Some f0 /\ f_mode f = f_mode f0.
  Proof.
    intro H. apply fmt_w_mode in H. destruct H as [f0 [H0 [H|H]]]; eauto.
  Qed.

  (* the protocol before the fix preserves the mode when it already was 0600 ... *)
  Lemma fmt_w_mode_preserved_before_fix_guarded target tmp fs sched kill f f0 :
    files fs target = Some f0 -> f_mode f0 = mode0600 ->
    files (r_fs (run fmt1 parts join BeforeFix CmdWrite target tmp fs sched kill)) target = Some f ->
    f_mode f = f_mode f0.
  Proof.
    intros H0 Hm H. apply fmt_w_mode in H. destruct H as [f0' [H0' [H|H]]]; rewrite H0 in H0'; inversion H0'; subst f0'; auto.
    simpl in H. congruence.
  Qed.

  (* ... and every successful run of it leaves the mode 0600, whatever it was *)
  Lemma fmt_w_before_fix_success_mode target tmp fs sched kill :
    let r := run fmt1 parts join BeforeFix CmdWrite target tmp fs sched kill in
    r_status r = Exit 0 -> exists f, files (r_fs r) target = Some f /\ f_mode f = mode0600.
  Proof.
    cbv zeta. destruct (run_post BeforeFix CmdWrite target tmp fs sched kill) as [b [w' [Hs [Hfs [_ Ho]]]]].
    rewrite Hfs, Hs. intro E. apply status_of_exit0 in E. apply fout_by_path in Ho. destruct Ho as (_ & _ & H3 & _).
    destruct (H3 E eq_refl) as (f0 & out & _ & _ & C). eexists. split; [exact C | reflexivity].
  Qed.

  Lemma only_reads (P : call -> Prop) fs sched kill w' :
    trace_ext P (w0 fs sched kill) w' -> Forall (fun e => P (fst e)) (rev (w_trace w')).
  Proof.
    intros [evs [He Hf]]. simpl in He. rewrite app_nil_r in He. rewrite He. now apply Forall_rev.
  Qed.

  (* input that does not parse: only read calls on the target, nothing changes, never status 0 *)
  Lemma unparsable_untouched v c target tmp fs sched kill f0 :
    files fs target = Some f0 -> fmtall (f_data f0) = None ->
    let r := run fmt1 parts join v c target tmp fs sched kill in
    r_fs r = fs /\ Forall (fun e => is_read_call target (fst e)) (r_trace r) /\ r_status r <> Exit 0.
  Proof.
    intros Hf0 Hn. cbv zeta. destruct (run_post v c target tmp fs sched kill) as [b [w' [Hs [Hfs [Htr Ho]]]]].
    rewrite Hfs, Hs, Htr. unfold fout in Ho. cbn [w0 w_fs] in Ho.
    destruct Ho as [[H1 [H2 H3]] | [_ [f0' [out [Hf0' [Hfmt _]]]]]].
    - repeat split; auto. { eapply only_reads; eauto. }
      intro E. apply status_of_exit0 in E. destruct (H3 E) as [f0' [Hf0' Hc]].
      rewrite Hf0 in Hf0'. inversion Hf0'; subst f0'.
      destruct c; auto.
      apply check_ok_parses in Hc. congruence.
    - rewrite Hf0 in Hf0'. inversion Hf0'; subst f0'. congruence.
  Qed.

  Lemma check_no_write v target tmp fs sched kill :
    let r := run fmt1 parts join v CmdCheck target tmp fs sched kill in
    r_fs r = fs /\ Forall (fun e => is_read_call target (fst e)) (r_trace r) /\
    (r_status r = Exit 0 -> exists f0, files fs target = Some f0 /\ checkok (f_data f0) = true).
  Proof.
    cbv zeta. destruct (run_post v CmdCheck target tmp fs sched kill) as [b [w' [Hs [Hfs [Htr Ho]]]]].
    rewrite Hfs, Hs, Htr. unfold fout in Ho. cbn [w0 w_fs] in Ho.
    destruct Ho as [[H1 [H2 H3]] | [Hc _]]; [|discriminate].
    repeat split; auto. { eapply only_reads; eauto. }
    intro E. apply status_of_exit0 in E. apply H3; auto.
  Qed.

  Lemma check_truth_nofault v target tmp fs k f0 :
    files fs target = Some f0 ->
    r_status (run fmt1 parts join v CmdCheck target tmp fs [] (5 + k)) =
    if check_ok fmt1 parts (f_data f0) then Exit 0 else Exit 1.
  Proof.
    intro Hf. unfold run, fmt_file, bind.
    destruct (read_file_nofault target fs k [] f0 Hf) as [w' [-> _]].
    unfold ret_. now destruct (check_ok fmt1 parts (f_data f0)).
  Qed.

  (* a run of the protocol in force that exits (is not killed) leaves nothing at the temp
     path that was not there before, unless the clean-up unlink failed *)
  Lemma fmt_w_no_temp_left target tmp fs sched kill n :
    let r := run fmt1 parts join Current CmdWrite target tmp fs sched kill in
    r_status r = Exit n ->
    files (r_fs r) tmp = files fs tmp \/ exists e, In (CUnlink tmp, RErr e) (r_trace r).
  Proof.
    cbv zeta. destruct (run_post Current CmdWrite target tmp fs sched kill) as [b [w' [Hs [Hfs [Htr Ho]]]]].
    rewrite Hs, Hfs, Htr. intro E. unfold fout, w0 in Ho; cbn [w_fs] in Ho.
    destruct Ho as [[H1 _] | [_ [f0 [out [_ [_ [_ [_ Hc]]]]]]]]; [left; now rewrite H1|].
    assert (Hb : b <> None) by (intros ->; discriminate E).
    specialize (Hc eq_refl Hb). unfold cleaned in Hc. cbn [w_fs] in Hc.
    destruct Hc as [-> | [H0 [Hg | [e He]]]]; auto.
    - left. now rewrite Hg, H0.
    - right. exists e. now apply in_rev in He.
  Qed.

  (* several files in one invocation.  How far the run got: a prefix of the targets is formatted, then at most one target is
     "old or formatted", all later ones are untouched *)
  Inductive progress (v : variant) (fs fs' : fsys) : list path -> Prop :=
  | PNil : progress v fs fs' []
  | PDone t ts : formatted_to v fs fs' t -> progress v fs fs' ts -> progress v fs fs' (t :: ts)
  | PStop t ts : (files fs' t = files fs t \/ formatted_to v fs fs' t) ->
                 (forall t', In t' ts -> files fs' t' = files fs t') -> progress v fs fs' (t :: ts).

  Definition frame (fl : list (path * path)) (fs fs' : fsys) : Prop :=
    forall q, ~ In q (map fst fl) -> ~ In q (map snd fl) -> files fs' q = files fs q.

  Lemma formatted_to_transport v fs fs1 fs' t :
    files fs1 t = files fs t -> formatted_to v fs1 fs' t -> formatted_to v fs fs' t.
  Proof. intros E [f0 [out [H1 [H2 H3]]]]. exists f0, out. rewrite <- E. auto. Qed.

  Lemma progress_transport v fs fs1 fs' ts :
    (forall t, In t ts -> files fs1 t = files fs t) -> progress v fs1 fs' ts -> progress v fs fs' ts.
  Proof.
    intros E P. induction P as [|t ts Hf P IH|t ts Hf Hr].
    - constructor.
    - apply PDone.
      + eapply formatted_to_transport; [|exact Hf]. apply E. left; auto.
      + apply IH. intros t' Ht'. apply E. right; auto.
    - apply PStop.
      + destruct Hf as [Hf|Hf].
        * left. rewrite Hf. apply E. left; auto.
        * right. eapply formatted_to_transport; [|exact Hf]. apply E. left; auto.
      + intros t' Ht'. rewrite Hr; auto. apply E. right; auto.
  Qed.

  Lemma fmt_files_write_post v fl : forall w,
    NoDup (map fst fl) -> (forall p, In p fl -> ~ In (snd p) (map fst fl)) ->
    post (fmt_files fmt1 parts join v CmdWrite fl) w
         (fun b w' => frame fl (w_fs w) (w_fs w') /\ progress v (w_fs w) (w_fs w') (map fst fl) /\
                      (b = true -> Forall (formatted_to v (w_fs w) (w_fs w')) (map fst fl)))
         (fun s w' => s = Killed /\ frame fl (w_fs w) (w_fs w') /\ progress v (w_fs w) (w_fs w') (map fst fl)).
  Proof.
    induction fl as [|[t tmp] rest IH]; intros w Hnd Htmp.
    - simpl. apply post_ret. repeat split; auto; try (intros q _ _; reflexivity); constructor.
    - simpl in Hnd. inversion Hnd as [|? ? Hnotin Hnd']; subst.
      assert (Htmp_t : ~ In tmp (t :: map fst rest)) by (apply (Htmp (t, tmp)); left; auto).
      assert (Htmp' : forall p, In p rest -> ~ In (snd p) (map fst rest)).
      { intros p Hp Hin. apply (Htmp p); [right; auto | right; auto]. }
      assert (Hrest_t : forall p, In p rest -> snd p <> t).
      { intros p Hp E. apply (Htmp p); [right; auto | left; auto]. }
      (* the run on the first file touches neither the other paths nor the later targets *)
      assert (Hhead : forall w1, (forall q, q <> t -> q <> tmp -> files (w_fs w1) q = files (w_fs w) q) ->
                frame ((t, tmp) :: rest) (w_fs w) (w_fs w1) /\
                forall t', In t' (map fst rest) -> files (w_fs w1) t' = files (w_fs w) t').
      { intros w1 F1. split.
        - intros q Hq1 Hq2. apply F1; intro E; subst; [apply Hq1 | apply Hq2]; left; auto.
        - intros t' Ht'. apply F1; intro E; subst; [contradiction | apply Htmp_t; right; auto]. }
      simpl fmt_files. apply post_bind.
      eapply post_weaken; [apply fmt_file_post | |].
      + intros b w1 Ho. apply fout_by_path in Ho. destruct Ho as [F1 [F2 [F3 _]]].
        destruct (Hhead w1 F1) as [Hframe1 Hunt].
        destruct b.
        * specialize (F3 eq_refl eq_refl).
          assert (Hcons : forall w', frame rest (w_fs w1) (w_fs w') -> progress v (w_fs w1) (w_fs w') (map fst rest) ->
                    frame ((t, tmp) :: rest) (w_fs w) (w_fs w') /\
                    progress v (w_fs w) (w_fs w') (map fst ((t, tmp) :: rest)) /\
                    formatted_to v (w_fs w) (w_fs w') t).
          { intros w' Fr Pr.
            assert (Ht_keep : files (w_fs w') t = files (w_fs w1) t).
            { apply Fr; auto. intro Hin. apply in_map_iff in Hin. destruct Hin as [p [Ep Hp]].
              apply (Hrest_t p Hp). auto. }
            assert (Hdone : formatted_to v (w_fs w) (w_fs w') t).
            { destruct F3 as [f0 [out [A [B C]]]]. exists f0, out. rewrite Ht_keep. auto. }
            repeat split; auto.
            - intros q Hq1 Hq2. rewrite Fr.
              + apply Hframe1; auto.
              + intro Hin. apply Hq1. right; auto.
              + intro Hin. apply Hq2. right; auto.
            - simpl. apply PDone; auto. eapply progress_transport; [|exact Pr]. auto. }
          eapply post_weaken; [apply (IH w1 Hnd' Htmp') | |].
          -- intros b' w' [Fr [Pr Hall]]. destruct (Hcons w' Fr Pr) as (A & B & C). repeat split; auto.
             intro E. simpl. constructor; auto.
             specialize (Hall E). rewrite Forall_forall in *. intros t' Ht'.
             eapply formatted_to_transport; [|apply Hall; auto]. auto.
          -- intros s w' [-> [Fr Pr]]. destruct (Hcons w' Fr Pr) as (A & B & _). auto.
        * apply post_ret. repeat split; auto.
          -- simpl. apply PStop; auto.
          -- discriminate.
      + intros s w1 [-> Ho]. apply fout_by_path in Ho. destruct Ho as [F1 [F2 [F3 _]]].
        destruct (Hhead w1 F1) as [Hframe1 Hunt].
        split; auto. split; [exact Hframe1 | simpl; apply PStop; auto].
  Qed.

  Lemma progress_each v fs fs' ts t :
    progress v fs fs' ts -> In t ts -> files fs' t = files fs t \/ formatted_to v fs fs' t.
  Proof.
    intro P. induction P as [|x ts Hf P IH|x ts Hf Hr]; intro Hin.
    - destruct Hin.
    - destruct Hin as [->|Hin]; auto.
    - destruct Hin as [->|Hin]; auto.
  Qed.

  Lemma progress_unparsable v fs fs' pre t post f0 :
    progress v fs fs' (pre ++ t :: post) -> files fs t = Some f0 -> fmtall (f_data f0) = None ->
    files fs' t = files fs t /\ forall t', In t' post -> files fs' t' = files fs t'.
  Proof.
    intros P Hf0 Hn.
    assert (Hnot : ~ formatted_to v fs fs' t).
    { intros [f0' [out [A [B _]]]]. rewrite Hf0 in A. inversion A; subst. congruence. }
    revert P. induction pre as [|x pre IH]; simpl; intro P.
    - inversion P as [|? ? Hf _|? ? Hf Hr]; subst; [contradiction|].
      split; auto. destruct Hf; [auto | contradiction].
    - inversion P as [|? ? _ P'|? ? _ Hr]; subst; auto.
      split; [apply Hr; apply in_or_app; right; left; auto|].
      intros t' Ht'. apply Hr. apply in_or_app. right. right. auto.
  Qed.

  Lemma fmt_w_multi_atomic v fl fs sched kill :
    NoDup (map fst fl) -> (forall p, In p fl -> ~ In (snd p) (map fst fl)) ->
    let r := run_files fmt1 parts join v CmdWrite fl fs sched kill in
    progress v fs (r_fs r) (map fst fl) /\ frame fl fs (r_fs r) /\
    (r_status r = Exit 0 -> Forall (formatted_to v fs (r_fs r)) (map fst fl)) /\
    r_status r <> OutOfFuel.
  Proof.
    intros Hnd Htmp. cbv zeta. unfold run_files.
    pose proof (fmt_files_write_post v fl (w0 fs sched kill) Hnd Htmp) as H. unfold post, w0 in H.
    destruct (fmt_files fmt1 parts join v CmdWrite fl {| w_fs := fs; w_sched := sched; w_left := kill; w_trace := [] |})
      as [[|] w'|s w']; cbn [w_fs] in H; cbn [r_fs r_status].
    - destruct H as [Fr [Pr Hall]]. repeat split; auto. discriminate.
    - destruct H as [Fr [Pr Hall]]. repeat split; auto; discriminate.
    - destruct H as [-> [Fr Pr]]. repeat split; auto; discriminate.
  Qed.

  Definition reads_ext (fl : list (path * path)) : world -> world -> Prop :=
    trace_ext (fun c => exists t, In t (map fst fl) /\ is_read_call t c).

  Lemma reads_ext_cons t tmp (rest : list (path * path)) w w1 w' :
    trace_ext (is_read_call t) w w1 -> reads_ext rest w1 w' -> reads_ext ((t, tmp) :: rest) w w'.
  Proof.
    unfold reads_ext. intros R1 R2. eapply trace_ext_trans; [eapply trace_ext_weaken; [|exact R1] | eapply trace_ext_weaken; [|exact R2]].
    - intros c Hc. exists t. split; auto. left; auto.
    - intros c [t' [Ht' Hc]]. exists t'. split; auto. right; auto.
  Qed.

  Lemma fmt_files_check_post v fl : forall w,
    post (fmt_files fmt1 parts join v CmdCheck fl) w
         (fun b w' => w_fs w' = w_fs w /\ reads_ext fl w w' /\
                      (b = true -> Forall (fun t => exists f0, files (w_fs w) t = Some f0 /\ checkok (f_data f0) = true)
                                          (map fst fl)))
         (fun s w' => s = Killed /\ w_fs w' = w_fs w /\ reads_ext fl w w').
  Proof.
    induction fl as [|[t tmp] rest IH]; intro w.
    - simpl. apply post_ret. repeat split; auto. apply trace_ext_refl.
    - simpl fmt_files. apply post_bind. eapply post_weaken; [apply fmt_file_post | |].
      + intros b w1 [[H1 [R1 H3]] | [Hc _]]; [|discriminate].
        destruct b.
        * eapply post_weaken; [apply (IH w1) | |].
          -- intros b' w' [E [R' Hall]]. rewrite E, H1. repeat split; auto.
             ++ eapply reads_ext_cons; eauto.
             ++ intro Eb. simpl. constructor.
                ** destruct (H3 eq_refl) as [f0 [A B]]. exists f0. auto.
                ** specialize (Hall Eb). rewrite H1 in Hall. exact Hall.
          -- intros s w' [-> [E R']]. rewrite E, H1. repeat split; auto. eapply reads_ext_cons; eauto.
        * apply post_ret. repeat split; auto; [|discriminate].
          eapply reads_ext_cons; [exact R1 | apply trace_ext_refl].
      + intros s w1 [-> [[H1 [R1 _]] | [Hc _]]]; [|discriminate].
        repeat split; auto. eapply reads_ext_cons; [exact R1 | apply trace_ext_refl].
  Qed.

  Lemma check_multi_no_write v fl fs sched kill :
    let r := run_files fmt1 parts join v CmdCheck fl fs sched kill in
    r_fs r = fs /\
    Forall (fun e => exists t, In t (map fst fl) /\ is_read_call t (fst e)) (r_trace r) /\
    (r_status r = Exit 0 ->
     Forall (fun t => exists f0, files fs t = Some f0 /\ checkok (f_data f0) = true) (map fst fl)).
  Proof.
    cbv zeta. unfold run_files.
    pose proof (fmt_files_check_post v fl (w0 fs sched kill)) as H. unfold post in H. fold (w0 fs sched kill).
    destruct (fmt_files fmt1 parts join v CmdCheck fl (w0 fs sched kill)) as [[|] w'|s w']; cbn [r_fs r_status r_trace].
    - destruct H as [E [R Hall]]. apply only_reads in R. auto.
    - destruct H as [E [R Hall]]. apply only_reads in R. repeat split; auto. discriminate.
    - destruct H as [-> [E R]]. apply only_reads in R. repeat split; auto. discriminate.
  Qed.

  Definition all_ok (fs : fsys) (fl : list (path * path)) : bool :=
    forallb (fun t => match files fs t with Some f => checkok (f_data f) | None => false end) (map fst fl).

  Lemma check_files_nofault v fl : forall fs k tr,
    (forall t, In t (map fst fl) -> files fs t <> None) ->
    exists w', fmt_files fmt1 parts join v CmdCheck fl
                 {| w_fs := fs; w_sched := []; w_left := 5 * List.length fl + k; w_trace := tr |} = Go (all_ok fs fl) w'.
  Proof.
    induction fl as [|[t tmp] rest IH]; intros fs k tr Hex.
    - simpl. eexists. reflexivity.
    - destruct (files fs t) as [f|] eqn:Hf; [|exfalso; apply (Hex t); [left; auto | auto]].
      replace (5 * List.length ((t, tmp) :: rest) + k) with (5 + (5 * List.length rest + k)) by (simpl; lia).
      destruct (read_file_nofault t fs (5 * List.length rest + k) tr f Hf) as [w1 [Hr [Hfs [Hs Hl]]]].
      unfold all_ok. cbn [map fst forallb fmt_files]. rewrite Hf. unfold fmt_file, bind. rewrite Hr. unfold ret_.
      destruct (checkok (f_data f)) eqn:Eok; cbn [andb].
      + destruct w1 as [fs1 s1 l1 t1]. simpl in *. subst fs1 s1.
        replace l1 with (5 * List.length rest + (l1 - 5 * List.length rest)) by lia.
        apply IH. intros t' Ht'. apply Hex. right; auto.
      + eexists. reflexivity.
  Qed.

  Lemma check_truth_multi v fl fs k :
    (forall t, In t (map fst fl) -> files fs t <> None) ->
    r_status (run_files fmt1 parts join v CmdCheck fl fs [] (5 * List.length fl + k)) =
    if all_ok fs fl then Exit 0 else Exit 1.
  Proof.
    intro Hex. unfold run_files. destruct (check_files_nofault v fl fs k [] Hex) as [w' ->].
    now destruct (all_ok fs fl).
  Qed.
End Formatter.

Lemma stdin_truth fmt1 c input :
  (fst (fmt_stdin fmt1 c input) = Exit 0 <->
   match c with
   | CmdWrite => False
   | CmdCheck => fmt1 input = Some input
   | CmdPlain => fmt1 input <> None
   end) /\
  (c = CmdPlain -> forall o, fmt1 input = Some o -> snd (fmt_stdin fmt1 c input) = o).
Proof.
  unfold fmt_stdin, part_ok. destruct c; simpl.
  - split; [split; [discriminate | tauto] | discriminate].
  - split; [|discriminate]. destruct (fmt1 input) as [o|]; simpl.
    + destruct (str_eqb input o) eqn:E; simpl.
      * apply str_eqb_eq in E. subst. tauto.
      * apply str_eqb_neq in E. split; [discriminate|]. intro H. inversion H. subst. contradiction.
    + split; discriminate.
  - split.
    + destruct (fmt1 input); simpl; split; auto; try discriminate. intro H. contradiction.
    + intros _ o Ho. rewrite Ho. reflexivity.
Qed.

Lemma evy_check_ok_iff fmt1 src :
  check_ok fmt1 evy_parts src = true <-> fmt_all fmt1 evy_parts evy_join src = Some src.
Proof.
  unfold check_ok, fmt_all, evy_parts, part_ok. simpl.
  destruct (fmt1 src) as [o|]; simpl.
  - rewrite andb_true_r. rewrite str_eqb_eq. split; intro H; [now subst | now inversion H].
  - split; discriminate.
Qed.
