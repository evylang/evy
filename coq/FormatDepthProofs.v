(* FormatDepthProofs.v — C07: exact indentation depth.  Every non-blank statement nested at
   block depth d of a program is written at the beginning of a line, behind exactly 4*d
   spaces, and its own text starts with a non-blank character.  At the end: what a second
   formatting pass writes at top level. *)
From Coq Require Import ZArith NArith List Bool Lia Arith.
From EvyV Require Import Base FmtAst Format FormatProofs FormatNlProofs FormatShapeProofs.
Import ListNotations.
Open Scope N_scope.

(* the statement lists directly inside a statement *)
Definition cb_body (cb : cblock) : list fstmt := match cb with CBlock _ _ b => b end.

Definition bodies (s : fstmt) : list (list fstmt) :=
  match s with
  | SIf ifb elifs els _ =>
      cb_body ifb :: map cb_body elifs ++ match els with Some (_, b) => [b] | None => [] end
  | SWhile _ _ b _ | SFor _ _ _ b _ | SFunc _ _ _ _ _ b _ | SOn _ _ _ b _ => [b]
  | _ => []
  end.

(* [nested d s d' s']: s' occurs strictly inside s (which is at depth d), at depth d' *)
Inductive nested : nat -> fstmt -> nat -> fstmt -> Prop :=
| nested_direct d s b t : In b (bodies s) -> In t b -> nested d s (S d) t
| nested_step d s b t d' s' : In b (bodies s) -> In t b -> nested (S d) t d' s' -> nested d s d' s'.

(* [at_depth p d s]: s occurs in program p at block depth d *)
Definition at_depth (p : fprog) (d : nat) (s : fstmt) : Prop :=
  (In s p /\ d = 0%nat) \/ exists t, In t p /\ nested 0 t d s.

Definition bol (pre : list piece) : Prop := pre = [] \/ exists q, pre = q ++ [NL].

Lemma nested_not_blank d t d' s' : nested d t d' s' -> is_blank t = false.
Proof. destruct 1; destruct s; try reflexivity; contradiction. Qed.

Section Depth.
  Variable fx : fixes.

  Definition wstmts (lvl : nat) (b : list fstmt) : list piece :=
    stmts_loop (S lvl) false (map (fun x => (is_blank x, fmt_stmt fx (S lvl) x)) b).

  (* [ps] holds the body [b], written right after a newline *)
  Definition has_body (lvl : nat) (b : list fstmt) (ps : list piece) : Prop :=
    exists A B, ps = A ++ [NL] ++ wstmts lvl b ++ B.

  Lemma has_body_l lvl b ps qs : has_body lvl b ps -> has_body lvl b (ps ++ qs).
  Proof. intros (A & B & ->). exists A, (B ++ qs). rewrite <- !app_assoc. reflexivity. Qed.

  Lemma has_body_r lvl b ps qs : has_body lvl b qs -> has_body lvl b (ps ++ qs).
  Proof. intros (A & B & ->). exists (ps ++ A), B. rewrite <- !app_assoc. reflexivity. Qed.

  Lemma has_body_here lvl b B : has_body lvl b ([NL] ++ wstmts lvl b ++ B).
  Proof. exists [], B. reflexivity. Qed.

  Lemma has_body_last lvl b : has_body lvl b ([NL] ++ wstmts lvl b).
  Proof. exists [], []. rewrite app_nil_r. reflexivity. Qed.

  Lemma has_body_flat_map {A} lvl b (f : A -> list piece) l x :
    In x l -> has_body lvl b (f x) -> has_body lvl b (flat_map f l).
  Proof.
    intros Hin H. apply in_split in Hin as (l1 & l2 & ->). rewrite flat_map_app. cbn [flat_map].
    apply has_body_r, has_body_l, H.
  Qed.

  Lemma body_in_stmt s lvl b : In b (bodies s) -> has_body lvl b (fmt_stmt fx lvl s).
  Proof.
    destruct s as [c|n t c|n v c|t v c|n a c|v c|c|ifb elifs els cend
                   |cond ch body ce|lv r ch body ce|n rt ps v ch body ce|n ps ch body ce];
      cbn [bodies]; intro Hin; try contradiction; cbn [fmt_stmt].
    - destruct ifb as [cond c body]. cbn [cb_body] in Hin. destruct Hin as [<-|Hin].
      + apply has_body_l. do 3 apply has_body_r. apply has_body_last.
      + apply has_body_r. apply in_app_or in Hin as [Hin|Hin].
        * apply has_body_l. apply in_map_iff in Hin as ([cond0 c0 body0] & <- & Hcb).
          apply (has_body_flat_map _ _ _ _ _ Hcb). do 3 apply has_body_r. apply has_body_last.
        * apply has_body_r, has_body_l. destruct els as [[c0 body0]|]; [|contradiction]. destruct Hin as [<-|[]].
          do 2 apply has_body_r. apply has_body_last.
    - destruct Hin as [<-|[]]. do 3 apply has_body_r. apply has_body_here.
    - destruct Hin as [<-|[]]. do 5 apply has_body_r. apply has_body_here.
    - destruct Hin as [<-|[]]. do 5 apply has_body_r. apply has_body_here.
    - destruct Hin as [<-|[]]. do 3 apply has_body_r. apply has_body_here.
  Qed.

  Lemma lines_occ lvl nl lvl' body : forall i e t, In t body -> is_blank t = false ->
    exists pre post,
      lines_loop lvl nl i e (map (fun x => (is_blank x, fmt_stmt fx lvl' x)) body)
      = pre ++ [Ind lvl] ++ fmt_stmt fx lvl' t ++ [NL] ++ post /\ bol pre.
  Proof.
    induction body as [|s body IH]; intros i e t Hin Hnb; [contradiction|].
    cbn [map lines_loop]. destruct Hin as [->|Hin].
    - rewrite Hnb. eexists [], _. split; [reflexivity | left; reflexivity].
    - destruct (is_blank s).
      + destruct (IH (S i) true t Hin Hnb) as (pre & post & -> & Hb).
        exists ((if e then [] else [NL]) ++ pre), post. split; [rewrite <- !app_assoc; reflexivity|].
        destruct Hb as [->|(q & ->)].
        * destruct e; [left; reflexivity | right; exists []; reflexivity].
        * right. exists ((if e then [] else [NL]) ++ q). rewrite <- app_assoc. reflexivity.
      + destruct (IH (S i) false t Hin Hnb) as (pre & post & -> & Hb).
        exists (([Ind lvl] ++ fmt_stmt fx lvl' s ++ [NL] ++ (if mem_nat i nl then [NL] else [])) ++ pre), post.
        split; [rewrite <- !app_assoc; reflexivity|]. right.
        destruct Hb as [->|(q & ->)].
        * destruct (mem_nat i nl).
          -- exists ([Ind lvl] ++ fmt_stmt fx lvl' s ++ [NL]). rewrite app_nil_r, <- !app_assoc. reflexivity.
          -- exists ([Ind lvl] ++ fmt_stmt fx lvl' s). rewrite !app_nil_r, <- !app_assoc. reflexivity.
        * exists (([Ind lvl] ++ fmt_stmt fx lvl' s ++ [NL] ++ (if mem_nat i nl then [NL] else [])) ++ q).
          rewrite <- !app_assoc. reflexivity.
  Qed.

  (* [occ ps d t]: t is written in ps right after a newline, behind Ind d, followed by a newline *)
  Definition occ (ps : list piece) (d : nat) (t : fstmt) : Prop :=
    exists pre post, ps = pre ++ [NL; Ind d] ++ fmt_stmt fx d t ++ [NL] ++ post.

  Lemma occ_direct lvl s b t : In b (bodies s) -> In t b -> is_blank t = false ->
    occ (fmt_stmt fx lvl s) (S lvl) t.
  Proof.
    intros Hb Ht Hnb. destruct (body_in_stmt s lvl b Hb) as (A & B & ->).
    unfold wstmts. rewrite (stmts_loop_lines _ _ 0%nat).
    destruct (lines_occ (S lvl) [] (S lvl) b 0%nat false t Ht Hnb) as (pre & post & -> & Hbol).
    destruct Hbol as [->|(q & ->)].
    - exists A, (post ++ B). rewrite <- !app_assoc. reflexivity.
    - exists (A ++ [NL] ++ q), (post ++ B). rewrite <- !app_assoc. reflexivity.
  Qed.

  Theorem nested_occ d s d' s' : nested d s d' s' -> is_blank s' = false -> occ (fmt_stmt fx d s) d' s'.
  Proof.
    induction 1 as [d s b t Hb Ht | d s b t d' s' Hb Ht Hn IH]; intro Hnb.
    - apply (occ_direct d s b t); auto.
    - specialize (IH Hnb). destruct IH as (pre & post & Heq).
      destruct (occ_direct d s b t Hb Ht (nested_not_blank _ _ _ _ Hn)) as (pre0 & post0 & ->).
      rewrite Heq. exists (pre0 ++ [NL; Ind (S d)] ++ pre), (post ++ [NL] ++ post0).
      rewrite <- !app_assoc. reflexivity.
  Qed.

  Theorem at_depth_occ p d s : at_depth p d s -> is_blank s = false ->
    exists pre post, fmt_prog fx p = pre ++ [Ind d] ++ fmt_stmt fx d s ++ [NL] ++ post /\ bol pre.
  Proof.
    intros [[Hin ->]|(t & Hin & Hn)] Hnb; unfold fmt_prog.
    - destruct p as [|s0 p0]; [contradiction|]. rewrite prog_loop_lines. apply lines_occ; auto.
    - destruct p as [|s0 p0]; [contradiction|].
      pose proof (nested_not_blank _ _ _ _ Hn) as Et. rewrite prog_loop_lines.
      destruct (lines_occ 0 (nl_after (fix_nl fx) (map stmt_kind (s0 :: p0))) 0 (s0 :: p0) 0%nat false t Hin Et)
        as (pre & post & -> & _).
      destruct (nested_occ 0 t d s Hn Hnb) as (pre1 & post1 & ->).
      exists ((pre ++ [Ind 0] ++ pre1) ++ [NL]), (post1 ++ [NL] ++ post).
      split; [rewrite <- !app_assoc; reflexivity | right; eexists; reflexivity].
  Qed.

  (* the text of a non-blank statement starts with a non-blank character *)
  Definition head_tok (ps : list piece) : Prop :=
    exists s rest, (ps = T s :: rest \/ ps = Q s :: rest \/ ps = Cm s :: rest) /\ tok_shape s = true.

  Lemma head_tok_app a b : head_tok a -> head_tok (a ++ b).
  Proof.
    intros (s & rest & [ -> | [ -> | -> ] ] & H); exists s, (rest ++ b); (split; [|exact H]); auto.
  Qed.

  Lemma head_tok_T s ps : tok_shape s = true -> head_tok (T s :: ps).
  Proof. intro H. exists s, ps. auto. Qed.

  Lemma head_tok_expr e lvl : wf_expr e = true -> head_tok (fmt_expr fx lvl e).
  Proof.
    intro Hwf. destruct (head_ok_expr fx e lvl Hwf) as ([s|q|s| | |n] & rest & -> & Hp); try contradiction.
    - apply head_tok_T, plain_tok_shape, Hp.
    - exists q, rest. split; [auto | apply quoted_tok_shape, Hp].
  Qed.

  Lemma head_tok_stmt s lvl : wf_stmt s = true -> is_blank s = false -> head_tok (fmt_stmt fx lvl s).
  Proof.
    destruct s as [c|n t c|n v c|t v c|n a c|v c|c|ifb elifs els cend
                   |cond ch body ce|lv r ch body ce|n rt ps v ch body ce|n ps ch body ce];
      intros Hwf Hnb; cbn [fmt_stmt]; cbn [wf_stmt] in Hwf; try (apply head_tok_T; reflexivity).
    - cbn [is_blank] in Hnb. unfold write_comment_empty. rewrite Hnb.
      exists (trim c), []. split; [auto | apply comment_ok_shape; auto].
    - apply andb_true_iff in Hwf as [Hn _]. unfold write_decl. cbn [app]. apply head_tok_T, plain_tok_shape, Hn.
    - apply andb_true_iff in Hwf as [Hwf _]. apply andb_true_iff in Hwf as [Hn _]. apply head_tok_T, plain_tok_shape, Hn.
    - apply andb_true_iff in Hwf as [Hwf _]. apply andb_true_iff in Hwf as [Ht _]. apply head_tok_app, head_tok_expr, Ht.
    - apply andb_true_iff in Hwf as [Hwf _]. apply andb_true_iff in Hwf as [Hn _]. unfold fmt_call. cbn [app].
      apply head_tok_T, plain_tok_shape, Hn.
    - destruct ifb. apply head_tok_T; reflexivity.
  Qed.

  Lemma head_tok_char ps : head_tok ps -> exists c r, render ps = c :: r /\ is_space c = false.
  Proof.
    intros (s & rest & Hps & Hs). destruct (tok_shape_spec s Hs) as (c & s' & -> & Hc & _).
    exists c, (s' ++ render rest). split; [|exact Hc]. destruct Hps as [ -> | [ -> | -> ] ]; reflexivity.
  Qed.

  Lemma render_bol pre : bol pre -> render pre = [] \/ exists q, render pre = q ++ [10].
  Proof.
    intros [->|(q & ->)]; [left; reflexivity|]. right. exists (render q). rewrite render_app. reflexivity.
  Qed.

  (* C07: exact indentation.  A non-blank statement at block depth d is written at the beginning
     of a line, behind exactly 4*d spaces, its own text starting with a non-blank character. *)
  Theorem stmt_at_exact_depth p d s :
    at_depth p d s -> is_blank s = false -> wf_stmt s = true ->
    exists pre post,
      format fx p = pre ++ spaces (4 * d) ++ render (fmt_stmt fx d s) ++ [10] ++ post
      /\ (pre = [] \/ exists q, pre = q ++ [10])
      /\ exists c r, render (fmt_stmt fx d s) = c :: r /\ is_space c = false.
  Proof.
    intros Hat Hnb Hwf. destruct (at_depth_occ p d s Hat Hnb) as (pre & post & Heq & Hbol).
    exists (render pre), (render post). split; [|split].
    - unfold format. rewrite Heq, !render_app.
      change (render [Ind d]) with (spaces (4 * d) ++ []). change (render [NL]) with [10]. rewrite app_nil_r. reflexivity.
    - apply render_bol, Hbol.
    - apply head_tok_char, head_tok_stmt; auto.
  Qed.
End Depth.

Section SecondPass.
  Variable fx : fixes.

  (* what formatProgram does when nothing is marked and no two blank lines are adjacent:
     it writes the statements one by one, nothing inserted, nothing squeezed *)
  Definition plain_line (s : fstmt) : list piece :=
    if is_blank s then [NL] else [Ind 0] ++ fmt_stmt fx 0 s ++ [NL].

  Lemma prog_loop_plain l : forall i e,
    no_adj_empty (map stmt_kind l) = true ->
    (e = true -> match l with s :: _ => is_blank s = false | [] => True end) ->
    prog_loop fx [] i e l = flat_map plain_line l.
  Proof.
    induction l as [|s l IH]; intros i e Hna He; [reflexivity|].
    cbn [prog_loop flat_map]. cbn [map no_adj_empty] in Hna. apply andb_true_iff in Hna as [H1 Hna].
    unfold plain_line at 1. destruct (is_blank s) eqn:Eb.
    - destruct e; [specialize (He eq_refl); simpl in He; congruence|]. cbn [app]. f_equal.
      apply IH; auto. intros _. destruct l as [|s2 l']; [exact I|].
      apply is_blank_kind in Eb. unfold is_emptyk in H1. rewrite Eb in H1. cbn [map skind_eqb andb] in H1.
      apply negb_true_iff in H1. destruct (is_blank s2) eqn:E2; [|reflexivity].
      apply is_blank_kind in E2. rewrite E2 in H1. discriminate.
    - cbn [mem_nat app]. rewrite <- !app_assoc. cbn [app]. do 3 f_equal.
      apply IH; auto. intro; discriminate.
  Qed.

  (* C07: a tree whose top-level skeleton is the skeleton of a formatter output (of the repaired
     nlAfter) is written statement by statement: the second pass inserts and removes no blank line *)
  Theorem second_pass_is_plain p ks : fix_nl fx = true ->
    map stmt_kind p = skel_step true ks -> fmt_prog fx p = flat_map plain_line p.
  Proof.
    intros Hfx Hk. unfold fmt_prog. destruct p as [|s p]; [exfalso; apply (skel_step_nonempty ks); symmetry; exact Hk|].
    rewrite Hfx, Hk, skel_step_fixed_stable. apply prog_loop_plain.
    - rewrite Hk. apply skel_step_no_adj_empty.
    - intro; discriminate.
  Qed.
End SecondPass.
