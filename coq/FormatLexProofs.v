(* FormatLexProofs.v — C06: the lexer model reads the formatter's text back as the token view.

   lex_reads_pieces: if every piece, in front of the text that follows it, is read by Lexer.Next
   as one token of the piece's type spanning exactly the piece ([pieces_ok], a decidable, local
   condition evaluated by the harness on every formatted input), then
       lex (render ps) = toks_of_pieces ps ++ [EOF]       (types; literals except for strings).
   The proof is the decomposition of the rune-by-rune loop lex_go along the pieces: the skip
   counter set by a token of k runes is exhausted exactly at the end of the piece, and the
   positions do not influence types or literals.
   piece_ok_nl / piece_ok_sp / piece_ok_ind / ...: the local condition holds outright for the layout
   pieces, brackets and operators, and for words in front of a rune that ends a word. *)
From Coq Require Import List String NArith ZArith Bool Arith Lia.
From EvyV Require Import Base FmtAst Format Pratt Lexer FormatParse FormatLex.
From EvyV.Gen Require Prec TokenTypes.
Import ListNotations.
Local Open Scope nat_scope.

Section P.
  Variable ul ud : N -> bool.
  Notation go := (lex_go ul ud false).

  (* positions play no part in the types and literals *)
  Lemma lex_go_pos : forall l k o li c o' li' c',
    map lview (go k o li c l) = map lview (go k o' li' c' l).
  Proof.
    induction l as [|x l IH]; intros k o li c o' li' c'; cbn [lex_go]; [reflexivity|].
    destruct k as [|k]; [|apply IH].
    destruct (next_token ul ud false x l) as [[ty lit] len].
    destruct (TokenTypes.token_type_beq ty TokenTypes.T_EOF); cbn [map]; [reflexivity|].
    f_equal. apply IH.
  Qed.

  (* a skip counter of |w| is exhausted exactly after w *)
  Lemma lex_go_skip : forall w z o li c,
    map lview (go (List.length w) o li c (w ++ z)) = map lview (go 0 o li c z).
  Proof.
    induction w as [|x w IH]; intros z o li c; [reflexivity|].
    cbn [List.length app lex_go]. rewrite IH. apply lex_go_pos.
  Qed.

  Lemma view_eqb_eq a b : view_eqb a b = true -> a = b.
  Proof.
    destruct a as [t1 l1], b as [t2 l2]. unfold view_eqb. cbn [fst snd]. intro H. apply andb_true_iff in H as [H1 H2].
    apply TokenTypes.internal_token_type_dec_bl in H1. apply str_eqb_eq in H2. subst. reflexivity.
  Qed.

  Theorem lex_go_pieces : forall ps, pieces_ok ul ud ps = true -> forall o li c,
    map lview (go 0 o li c (render ps)) = map pview (toks_of_pieces ps) ++ [(TokenTypes.T_EOF, [])].
  Proof.
    induction ps as [|p r IH]; intros H o li c; [reflexivity|].
    cbn [pieces_ok] in H. apply andb_true_iff in H as [Hp Hr]. specialize (IH Hr).
    unfold render, toks_of_pieces. cbn [flat_map]. fold (render r). fold (toks_of_pieces r).
    unfold piece_ok in Hp.
    destruct (render1 p) as [|x w] eqn:R; destruct (tok_of_piece p) as [|t [|t' ts]] eqn:Tk; try discriminate Hp.
    - cbn [app map]. apply IH.
    - cbn [app map lex_go].
      destruct (next_token ul ud false x (w ++ render r)) as [[ty lit] len].
      apply andb_true_iff in Hp as [Hp Hv]. apply andb_true_iff in Hp as [Hl He].
      apply Nat.eqb_eq in Hl. apply negb_true_iff in He. rewrite He. cbn [map]. subst len. cbn [Nat.pred].
      rewrite lex_go_skip. rewrite (lex_go_pos _ 0 _ _ _ o li c). rewrite IH.
      apply view_eqb_eq in Hv. unfold lview. cbn [t_type t_lit]. rewrite Hv. reflexivity.
  Qed.

  Theorem lex_reads_pieces ps : pieces_ok ul ud ps = true ->
    map lview (lex ul ud (render ps)) = map pview (toks_of_pieces ps) ++ [(TokenTypes.T_EOF, [])].
  Proof. intro H. unfold lex, lex_gen. apply lex_go_pieces. exact H. Qed.

  (* the local condition, for the layout pieces and in general for a piece of one rune *)
  Lemma piece_ok_nl z : piece_ok ul ud NL z = true.
  Proof. reflexivity. Qed.

  Definition not_blank (z : str) : bool := match z with c :: _ => negb (is_hws c) | [] => true end.

  Lemma span_blank z : not_blank z = true -> span_len is_hws z = 0.
  Proof. destruct z as [|c z]; [reflexivity|]. cbn [not_blank span_len]. intro H. apply negb_true_iff in H. rewrite H. reflexivity. Qed.

  Lemma piece_ok_sp z : not_blank z = true -> piece_ok ul ud Sp z = true.
  Proof.
    intro H. unfold piece_ok. cbn [render1 tok_of_piece app]. unfold next_token. cbn [N.eqb Pos.eqb orb].
    rewrite (span_blank z H). reflexivity.
  Qed.

  Lemma span_spaces n z : not_blank z = true -> span_len is_hws (spaces n ++ z) = n.
  Proof.
    intro H. induction n as [|n IH]; [exact (span_blank z H)|]. cbn [spaces repeat app span_len].
    change (is_hws 32) with true. cbv beta iota. f_equal. exact IH.
  Qed.

  Lemma piece_ok_ind n z : not_blank z = true -> piece_ok ul ud (Ind n) z = true.
  Proof.
    intro H. destruct n as [|n]; [reflexivity|]. unfold piece_ok. cbn [render1 tok_of_piece].
    replace (4 * S n) with (S (4 * n + 3)) by lia. cbn [spaces repeat]. fold (spaces (4 * n + 3)).
    unfold next_token. cbn [N.eqb Pos.eqb orb]. rewrite (span_spaces _ z H).
    unfold spaces. rewrite repeat_length, Nat.eqb_refl. reflexivity.
  Qed.

  (* brackets and the one-rune operators that are no prefix of another token *)
  Lemma piece_ok_bracket t z :
    In t [k_lbr; k_rbr; k_lcu; k_rcu; k_lpa; k_rpa; s_ "+"%string; s_ "-"%string; s_ "*"%string; s_ "%"%string] ->
    piece_ok ul ud (T t) z = true.
  Proof. intro H. cbn [In] in H. repeat (destruct H as [<-|H]; [reflexivity|]). contradiction. Qed.

  (* the operators that are a prefix of a two-rune token, in front of anything but "=" *)
  Lemma piece_ok_eq_prefix t z :
    In t [k_assign; k_colon; s_ "<"%string; s_ ">"%string; s_ "!"%string] ->
    (match z with c :: _ => negb (N.eqb c 61) | [] => true end) = true ->
    piece_ok ul ud (T t) z = true.
  Proof.
    intros H Hz. destruct z as [|c z'].
    - cbn [In] in H. repeat (destruct H as [<-|H]; [reflexivity|]). contradiction.
    - apply negb_true_iff in Hz. cbn [In] in H.
      repeat (destruct H as [<-|H]; [cbn; unfold with_eq; cbn [peek]; rewrite Hz; reflexivity|]). contradiction.
  Qed.

  (* the two-rune operators *)
  Lemma piece_ok_two t z :
    In t [k_declare; s_ "=="%string; s_ "!="%string; s_ "<="%string; s_ ">="%string] -> piece_ok ul ud (T t) z = true.
  Proof. intro H. cbn [In] in H. repeat (destruct H as [<-|H]; [reflexivity|]). contradiction. Qed.
End P.

Section Words.
  Variable ul ud : N -> bool.

  (* the runes Lexer.Next tests before it asks whether the rune is a letter *)
  Definition special (c : N) : bool :=
    (N.eqb c 32 || N.eqb c 9 || N.eqb c 61 || N.eqb c 43 || N.eqb c 45 || N.eqb c 33 || N.eqb c 47 || N.eqb c 42 || N.eqb c 37
     || N.eqb c 60 || N.eqb c 62 || N.eqb c 58 || N.eqb c 123 || N.eqb c 125 || N.eqb c 40 || N.eqb c 41 || N.eqb c 91 || N.eqb c 93
     || N.eqb c 10 || N.eqb c 46 || N.eqb c 34)%bool.

  (* a word: a letter (or "_") that is none of those runes, followed by letters / digits / "_" *)
  Definition word (s : str) : bool :=
    match s with
    | c :: w => is_letter ul c && negb (special c) && forallb (ident_char ul ud) w
    | [] => false
    end.
  Definition ends_word (z : str) : bool := match z with c :: _ => negb (ident_char ul ud c) | [] => true end.

  Lemma span_word w z : forallb (ident_char ul ud) w = true -> ends_word z = true ->
    span_len (ident_char ul ud) (w ++ z) = List.length w /\ firstn (List.length w) (w ++ z) = w.
  Proof.
    intros Hw Hz. induction w as [|c w IH]; cbn [app List.length firstn].
    - split; [|reflexivity]. destruct z as [|c z]; [reflexivity|]. cbn [span_len]. cbn [ends_word] in Hz. apply negb_true_iff in Hz. rewrite Hz. reflexivity.
    - cbn [forallb] in Hw. apply andb_true_iff in Hw as [Hc Hw]. destruct (IH Hw) as [I1 I2]. cbn [span_len]. rewrite Hc, I1, I2. auto.
  Qed.

  Lemma next_token_word c w z : word (c :: w) = true -> ends_word z = true ->
    next_token ul ud false c (w ++ z) =
    match lookup_keyword Keywords.keywords (c :: w) with
    | Some kw => (kw, [], S (List.length w))
    | None => (TokenTypes.T_IDENT, c :: w, S (List.length w))
    end.
  Proof.
    intros Hw Hz. cbn [word] in Hw. apply andb_true_iff in Hw as [Hw Hall]. apply andb_true_iff in Hw as [Hl Hs].
    apply negb_true_iff in Hs. unfold special in Hs.
    repeat (apply orb_false_iff in Hs; destruct Hs as [Hs ?]).
    destruct (span_word w z Hall Hz) as [S1 S2].
    unfold next_token.
    repeat match goal with H : N.eqb c _ = false |- _ => rewrite H; clear H end.
    cbn [orb]. unfold is_end. cbn [andb]. rewrite Hl, S1, S2. reflexivity.
  Qed.
End Words.

(* the two generated keyword tables (lexer: Keywords.keywords; token view: FormatParse.keyword_table) agree *)
Definition kw_agree (s : str) : bool :=
  match lookup_keyword Keywords.keywords s, assoc_tt s keyword_table with
  | Some a, Some b => TokenTypes.token_type_beq a (tt_conv b)
  | None, None => true
  | _, _ => false
  end.
Definition kw_keys : list str := map fst Keywords.keywords ++ map fst keyword_table.

Lemma kw_keys_agree : forallb kw_agree kw_keys = true.
Proof. vm_compute. reflexivity. Qed.

Lemma lookup_keyword_none kws s : mem_str s (map fst kws) = false -> lookup_keyword kws s = None.
Proof.
  induction kws as [|[k t] r IH]; [reflexivity|]. cbn [map fst mem_str lookup_keyword]. intro H. apply orb_false_iff in H as [H1 H2].
  rewrite H1. exact (IH H2).
Qed.
Lemma assoc_tt_none l s : mem_str s (map fst l) = false -> assoc_tt s l = None.
Proof.
  induction l as [|[k t] r IH]; [reflexivity|]. cbn [map fst mem_str assoc_tt]. intro H. apply orb_false_iff in H as [H1 H2].
  rewrite H1. exact (IH H2).
Qed.
Lemma mem_str_app s a b : mem_str s (a ++ b) = mem_str s a || mem_str s b.
Proof. induction a as [|x a IH]; [reflexivity|]. cbn [app mem_str]. rewrite IH, orb_assoc. reflexivity. Qed.

Lemma kw_agree_all s : kw_agree s = true.
Proof.
  destruct (mem_str s kw_keys) eqn:M.
  - pose proof kw_keys_agree as H. rewrite forallb_forall in H. apply H, mem_str_In, M.
  - unfold kw_keys in M. rewrite mem_str_app in M. apply orb_false_iff in M as [M1 M2].
    unfold kw_agree. rewrite (lookup_keyword_none _ _ M1), (assoc_tt_none _ _ M2). reflexivity.
Qed.

Lemma ident_text_tok s : ident_text s = true -> tok_of_text s = {| ttype := Prec.T_IDENT; tlit := s |}.
Proof.
  unfold ident_text. destruct (tok_of_text s) as [t l]. destruct t; try discriminate.
  intro H. apply str_eqb_eq in H. subst. reflexivity.
Qed.

Section WordPieces.
  Variable ul ud : N -> bool.

  (* an identifier piece *)
  Lemma piece_ok_ident s z : ident_text s = true -> word ul ud s = true -> ends_word ul ud z = true ->
    piece_ok ul ud (T s) z = true.
  Proof.
    intros Hi Hw Hz. destruct s as [|c w]; [discriminate Hw|].
    unfold piece_ok. cbn [render1 tok_of_piece]. rewrite (next_token_word ul ud c w z Hw Hz).
    (* not a keyword: tok_of_text gave an identifier with this literal *)
    pose proof (kw_agree_all (c :: w)) as Ha. unfold kw_agree in Ha.
    assert (Hk : assoc_tt (c :: w) keyword_table = None).
    { unfold ident_text, tok_of_text in Hi. destruct (assoc_tt (c :: w) punct_table) as [t0|]; [destruct t0; cbn in Hi; discriminate Hi|].
      destruct (assoc_tt (c :: w) keyword_table) as [t0|]; [destruct t0; cbn in Hi; discriminate Hi | reflexivity]. }
    rewrite Hk in Ha. destruct (lookup_keyword Keywords.keywords (c :: w)); [discriminate Ha|].
    rewrite (ident_text_tok _ Hi). cbn [List.length]. rewrite Nat.eqb_refl. cbn [negb TokenTypes.token_type_beq andb].
    unfold view_eqb, pview. cbn [ttype tlit tt_conv view_lit fst snd TokenTypes.token_type_beq andb]. apply str_eqb_refl.
  Qed.

  (* a keyword piece: any text of the keyword table *)
  Lemma piece_ok_keyword s t z : assoc_tt s punct_table = None -> assoc_tt s keyword_table = Some t ->
    word ul ud s = true -> ends_word ul ud z = true -> piece_ok ul ud (T s) z = true.
  Proof.
    intros Hp Hk Hw Hz. destruct s as [|c w]; [discriminate Hw|].
    unfold piece_ok. cbn [render1 tok_of_piece]. rewrite (next_token_word ul ud c w z Hw Hz).
    pose proof (kw_agree_all (c :: w)) as Ha. unfold kw_agree in Ha. rewrite Hk in Ha.
    destruct (lookup_keyword Keywords.keywords (c :: w)) as [a|]; [|discriminate Ha].
    apply TokenTypes.internal_token_type_dec_bl in Ha. subst a.
    unfold tok_of_text. rewrite Hp, Hk. cbn [List.length]. rewrite Nat.eqb_refl. cbn [andb].
    unfold view_eqb, pview. cbn [ttype tlit mk fst snd].
    assert (He : TokenTypes.token_type_beq (tt_conv t) TokenTypes.T_EOF = false).
    { clear - Hk. destruct t; try reflexivity. exfalso. revert Hk. generalize (c :: w). intro s.
      assert (H : forallb (fun kt => negb (match snd kt with Prec.T_EOF => true | _ => false end)) keyword_table = true) by (vm_compute; reflexivity).
      intro Hk. clear - H Hk. induction keyword_table as [|[k v] r IH]; [discriminate Hk|]. cbn [assoc_tt] in Hk. cbn [forallb snd] in H. apply andb_true_iff in H as [H1 H2].
      destruct (str_eqb k s); [injection Hk as ->; discriminate H1 | exact (IH H2 Hk)]. }
    rewrite He. cbn [negb andb].
    assert (Hr : TokenTypes.token_type_beq (tt_conv t) (tt_conv t) = true) by (apply TokenTypes.internal_token_type_dec_lb; reflexivity).
    rewrite Hr. cbn [andb]. destruct (tt_conv t); apply str_eqb_refl.
  Qed.
End WordPieces.
