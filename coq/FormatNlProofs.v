(* FormatNlProofs.v — C07: nlAfter / newAccumulations on the statement-kind skeleton, through a
   run-length view of the skeleton. *)
From Coq Require Import ZArith NArith List Bool Lia Arith.
From EvyV Require Import Base FmtAst Format.
Import ListNotations.
Local Open Scope nat_scope.

(* a run (k, m): the kind k repeated m+1 times *)
Notation run := (skind * nat)%type (only parsing).

Definition expand1 (r : run) : list skind := repeat (fst r) (S (snd r)).
Definition expand (rs : list run) : list skind := flat_map expand1 rs.

Definition is_func (k : skind) : bool := skind_eqb k KFunc.
Definition is_emptyk (k : skind) : bool := skind_eqb k KEmpty.

Lemma skind_eqb_eq a b : skind_eqb a b = true <-> a = b.
Proof. destruct a, b; simpl; split; intro H; try reflexivity; try discriminate. Qed.

Lemma skind_eqb_refl a : skind_eqb a a = true.
Proof. destruct a; reflexivity. Qed.

(* canonical run lists: func runs have length 1; adjacent runs differ in kind unless the first is a func *)
Fixpoint canon (rs : list run) : bool :=
  match rs with
  | [] => true
  | (k1, m1) :: t =>
      (if is_func k1 then Nat.eqb m1 0 else true)
      && match t with
         | (k2, _) :: _ => negb (skind_eqb k1 k2) || is_func k1
         | [] => true
         end
      && canon t
  end.

(* run-length encoding, mirroring newAccumulations' grouping *)
Fixpoint rle (ks : list skind) : list run :=
  match ks with
  | [] => []
  | k :: t =>
      match rle t with
      | (k', m) :: r => if skind_eqb k k' && negb (is_func k) then (k, S m) :: r else (k, 0) :: (k', m) :: r
      | [] => [(k, 0)]
      end
  end.

Lemma expand_rle ks : expand (rle ks) = ks.
Proof.
  induction ks as [|k t IH]; [reflexivity|]. cbn [rle].
  destruct (rle t) as [|[k' m] r] eqn:E.
  - simpl in IH. subst t. reflexivity.
  - destruct (skind_eqb k k' && negb (is_func k)) eqn:C.
    + apply andb_true_iff in C as [C _]. apply skind_eqb_eq in C. subst k'.
      rewrite <- IH. reflexivity.
    + rewrite <- IH. reflexivity.
Qed.

Lemma canon_rle ks : canon (rle ks) = true.
Proof.
  induction ks as [|k t IH]; [reflexivity|]. cbn [rle].
  destruct (rle t) as [|[k' m] r] eqn:E.
  - simpl. destruct (is_func k); reflexivity.
  - destruct (skind_eqb k k' && negb (is_func k)) eqn:C.
    + apply andb_true_iff in C as [C1 C2]. apply skind_eqb_eq in C1. subst k'. apply negb_true_iff in C2.
      cbn [canon] in IH |- *. rewrite C2 in *. exact IH.
    + cbn [canon] in IH |- *. rewrite IH.
      destruct (is_func k) eqn:F; simpl.
      * rewrite orb_true_r. reflexivity.
      * simpl in C. rewrite andb_true_r in C. rewrite C. reflexivity.
Qed.

Lemma expand_cons k m t : expand ((k, m) :: t) = repeat k (S m) ++ expand t.
Proof. reflexivity. Qed.

Lemma expand_head k m t : exists r, expand ((k, m) :: t) = k :: r.
Proof. exists (repeat k m ++ expand t). reflexivity. Qed.

Fixpoint offsets (i : nat) (rs : list run) : list (skind * nat) :=
  match rs with
  | [] => []
  | (k, m) :: t => (k, i) :: offsets (i + S m) t
  end.

(* the rest of a run after its first element does not open a new accumulation *)
Lemma nal_same k : is_func k = false -> forall m i rest,
  new_accumulations_loop (Some k) i (repeat k m ++ rest) = new_accumulations_loop (Some k) (i + m) rest.
Proof.
  intros Hf. induction m as [|m IH]; intros i rest; simpl.
  - rewrite Nat.add_0_r. reflexivity.
  - rewrite skind_eqb_refl. unfold is_func in Hf. rewrite Hf. simpl. rewrite IH. f_equal. lia.
Qed.

(* the first run opens a new accumulation behind a statement of kind [last] *)
Definition head_differs (last : option skind) (rs : list run) : Prop :=
  match last, rs with
  | Some l, (k, _) :: _ => skind_eqb k l = false \/ is_func k = true
  | _, _ => True
  end.

Lemma nal_runs rs : forall last i, canon rs = true -> head_differs last rs ->
  new_accumulations_loop last i (expand rs) = offsets i rs.
Proof.
  induction rs as [|[k m] t IH]; intros last i Hc Hd; [reflexivity|].
  cbn [canon] in Hc. apply andb_true_iff in Hc as [Hc Hct]. apply andb_true_iff in Hc as [Hm Hadj].
  rewrite expand_cons. cbn [repeat app new_accumulations_loop].
  assert (Hopen : negb (match last with Some l => skind_eqb k l | None => false end) || skind_eqb k KFunc = true).
  { destruct last as [l|]; [|reflexivity]. cbn [head_differs] in Hd. destruct Hd as [Hd|Hd].
    - rewrite Hd. reflexivity.
    - unfold is_func in Hd. rewrite Hd. apply orb_true_r. }
  rewrite Hopen. cbn [offsets]. f_equal.
  assert (Hrest : head_differs (Some k) t).
  { destruct t as [|[k2 m2] t']; [exact I|]. cbn [head_differs].
    apply orb_true_iff in Hadj as [Hx|Hx].
    - left. apply negb_true_iff in Hx. destruct k, k2; simpl in *; congruence.
    - destruct (skind_eqb k2 k) eqn:E; [|left; reflexivity]. apply skind_eqb_eq in E. subst k2. right. exact Hx. }
  destruct (is_func k) eqn:F.
  - apply Nat.eqb_eq in Hm. subst m. cbn [repeat app]. rewrite (IH (Some k) (S i) Hct Hrest).
    f_equal. lia.
  - rewrite nal_same by exact F. rewrite (IH (Some k) (S i + m) Hct Hrest). f_equal. lia.
Qed.

Lemma new_accumulations_runs rs : canon rs = true -> new_accumulations (expand rs) = offsets 0 rs.
Proof. intro H. apply nal_runs; [exact H | exact I]. Qed.

(* the marking rule on three consecutive run kinds *)
Definition marked (k1 : skind) (k2 : option skind) (k3 : option skind) : bool :=
  match k1 with
  | KEmpty | KComment => false
  | _ =>
      match k2 with
      | None => false
      | Some k2 =>
          (is_func k1 && skind_eqb k2 KStmt) || is_func k2
          || (skind_eqb k2 KComment && match k3 with Some k3 => is_func k3 | None => false end)
      end
  end.

Definition kind_of (rs : list run) : option skind := match rs with (k, _) :: _ => Some k | [] => None end.

(* nlAfter over runs: which index each marked run contributes *)
Fixpoint marks (fixed : bool) (i : nat) (rs : list run) : list nat :=
  match rs with
  | [] => []
  | (k1, m1) :: t =>
      (if marked k1 (kind_of t) (kind_of (tl t)) then
         [match t with
          | (k2, _) :: _ =>
              if (is_func k1 && skind_eqb k2 KStmt) || is_func k2 then (i + m1)%nat
              else if fixed then (i + m1)%nat else i
          | [] => i
          end]
       else [])
      ++ marks fixed (i + S m1) t
  end.

Lemma nl_after_loop_cons2 fixed a b rest' :
  nl_after_loop fixed (a :: b :: rest') =
  (match fst a with
   | KEmpty | KComment => []
   | _ =>
       if skind_eqb (fst a) KFunc && skind_eqb (fst b) KStmt then [snd a]
       else if skind_eqb (fst b) KFunc then [(snd b - 1)%nat]
       else if skind_eqb (fst b) KComment
               && match rest' with c :: _ => skind_eqb (fst c) KFunc | [] => false end
            then [if fixed then (snd b - 1)%nat else snd a]
       else []
   end) ++ nl_after_loop fixed (b :: rest').
Proof. reflexivity. Qed.

Lemma nl_after_loop_runs fixed rs : forall i, canon rs = true ->
  nl_after_loop fixed (offsets i rs) = marks fixed i rs.
Proof.
  induction rs as [|[k1 m1] t IH]; intros i Hc; [reflexivity|].
  cbn [canon] in Hc. apply andb_true_iff in Hc as [Hc Hct]. apply andb_true_iff in Hc as [Hm Hadj].
  destruct t as [|[k2 m2] t'].
  - cbn [offsets nl_after_loop marks kind_of marked]. destruct k1; reflexivity.
  - change (offsets i ((k1, m1) :: (k2, m2) :: t')) with ((k1, i) :: (k2, i + S m1) :: offsets (i + S m1 + S m2) t').
    rewrite nl_after_loop_cons2.
    change ((k2, i + S m1) :: offsets (i + S m1 + S m2) t') with (offsets (i + S m1) ((k2, m2) :: t')).
    rewrite IH by exact Hct.
    cbn [marks kind_of tl fst snd]. f_equal.
    assert (Hsub : (i + S m1 - 1 = i + m1)%nat) by lia. rewrite Hsub.
    destruct k1; cbn [marked is_func skind_eqb andb orb]; try reflexivity.
    + (* KStmt *)
      destruct k2; cbn [skind_eqb is_func andb orb]; try reflexivity.
      destruct t' as [|[k3 m3] t'']; cbn [offsets kind_of fst]; [reflexivity|]. destruct k3; reflexivity.
    + (* KFunc: m1 = 0 *)
      cbn [is_func skind_eqb] in Hm. apply Nat.eqb_eq in Hm. subst m1. rewrite Nat.add_0_r.
      destruct k2; cbn [skind_eqb is_func andb orb]; try reflexivity.
      destruct t' as [|[k3 m3] t'']; cbn [offsets kind_of fst]; [reflexivity|]. destruct k3; destruct fixed; reflexivity.
Qed.

Lemma nl_after_runs fixed rs : canon rs = true -> nl_after fixed (expand rs) = marks fixed 0 rs.
Proof. intro H. unfold nl_after. rewrite new_accumulations_runs by exact H. apply nl_after_loop_runs, H. Qed.

Lemma mem_nat_In n l : mem_nat n l = true <-> In n l.
Proof.
  induction l as [|x t IH]; simpl; [split; [discriminate | tauto]|].
  rewrite orb_true_iff, IH, Nat.eqb_eq. tauto.
Qed.

Lemma marked_k2 k1 k2 k3 : marked k1 (Some k2) k3 = true -> k2 <> KEmpty /\ k1 <> KEmpty /\ k1 <> KComment.
Proof. destruct k1, k2; simpl; try discriminate; intros _; repeat split; discriminate. Qed.

Lemma marks_next_nonblank fixed rs : forall i j, canon rs = true -> In j (marks fixed i rs) ->
  i <= j /\ exists k, nth_error (expand rs) (S j - i) = Some k /\ k <> KEmpty.
Proof.
  induction rs as [|[k1 m1] t IH]; intros i j Hc Hin; [contradiction|].
  cbn [canon] in Hc. apply andb_true_iff in Hc as [Hc Hct].
  cbn [marks] in Hin. apply in_app_or in Hin as [Hin|Hin].
  - destruct (marked k1 (kind_of t) (kind_of (tl t))) eqn:Em; [|contradiction].
    destruct t as [|[k2 m2] t']; [destruct k1; discriminate|].
    cbn [kind_of] in Em. destruct (marked_k2 _ _ _ Em) as (Hk2 & Hk1 & Hk1c).
    destruct Hin as [Hj|[]].
    assert (Hlast : forall jj, jj = i + m1 -> i <= jj /\ exists k, nth_error (expand ((k1, m1) :: (k2, m2) :: t')) (S jj - i) = Some k /\ k <> KEmpty).
    { intros jj ->. split; [lia|]. exists k2. split; [|exact Hk2].
      rewrite expand_cons. rewrite nth_error_app2 by (rewrite repeat_length; lia).
      rewrite repeat_length. replace (S (i + m1) - i - S m1) with 0 by lia.
      destruct (expand_head k2 m2 t') as (r & ->). reflexivity. }
    destruct ((is_func k1 && skind_eqb k2 KStmt) || is_func k2); [apply Hlast; auto|].
    destruct fixed; [apply Hlast; auto|]. subst j.
    destruct m1 as [|m1']; [apply Hlast; lia|].
    split; [lia|]. exists k1. split; [|exact Hk1].
    replace (S i - i) with 1 by lia. reflexivity.
  - destruct (IH (i + S m1) j Hct Hin) as (Hle & k & Hk & Hne).
    split; [lia|]. exists k. split; [|exact Hne].
    rewrite expand_cons. rewrite nth_error_app2 by (rewrite repeat_length; lia).
    rewrite repeat_length. replace (S j - i - S m1) with (S j - (i + S m1)) by lia. exact Hk.
Qed.

Lemma marks_lower fixed rs : forall i j, canon rs = true -> In j (marks fixed i rs) -> i <= j.
Proof. intros i j Hc Hin. apply (marks_next_nonblank fixed rs i j Hc Hin). Qed.

Lemma mem_marks_below fixed rs i j : canon rs = true -> j < i -> mem_nat j (marks fixed i rs) = false.
Proof.
  intros Hc Hj. destruct (mem_nat j (marks fixed i rs)) eqn:E; [|reflexivity].
  apply mem_nat_In, marks_lower in E; [lia | exact Hc].
Qed.

(* under the repaired rule a marked run marks its last statement *)
Lemma marks_true_cons i k m t :
  marks true i ((k, m) :: t)
  = (if marked k (kind_of t) (kind_of (tl t)) then [i + m] else []) ++ marks true (i + S m) t.
Proof.
  cbn [marks]. f_equal. destruct t as [|[k2 m2] t']; [destruct k; reflexivity|].
  destruct ((is_func k && skind_eqb k2 KStmt) || is_func k2); reflexivity.
Qed.

Lemma mem_marks_true_cons i k m t j : canon t = true ->
  mem_nat j (marks true i ((k, m) :: t))
  = if j =? i + m then marked k (kind_of t) (kind_of (tl t)) else mem_nat j (marks true (i + S m) t).
Proof.
  intro Hc. rewrite marks_true_cons. destruct (Nat.eqb_spec j (i + m)) as [->|Hne].
  - destruct (marked k (kind_of t) (kind_of (tl t))); cbn [app mem_nat].
    + rewrite Nat.eqb_refl. reflexivity.
    + apply mem_marks_below; [exact Hc | lia].
  - destruct (marked k (kind_of t) (kind_of (tl t))); cbn [app mem_nat]; [|reflexivity].
    destruct (Nat.eqb_spec (i + m) j); [congruence | reflexivity].
Qed.

Theorem nl_after_next_nonblank fixed ks i :
  mem_nat i (nl_after fixed ks) = true ->
  exists k, nth_error ks (S i) = Some k /\ k <> KEmpty.
Proof.
  intro H. apply mem_nat_In in H.
  rewrite <- (expand_rle ks) in H. rewrite nl_after_runs in H by apply canon_rle.
  destruct (marks_next_nonblank fixed (rle ks) 0 i (canon_rle ks) H) as (_ & k & Hk & Hne).
  rewrite expand_rle, Nat.sub_0_r in Hk. exists k. auto.
Qed.

(* one formatting pass on the skeleton, in terms of runs (nlAfter as repaired in 6dbe4ed) *)
Fixpoint step_runs (rs : list run) : list run :=
  match rs with
  | [] => []
  | (k1, m1) :: t =>
      (if is_emptyk k1 then [(KEmpty, 0)]
       else (k1, m1) :: (if marked k1 (kind_of t) (kind_of (tl t)) then [(KEmpty, 0)] else []))
      ++ step_runs t
  end.

Section Skel.
  Variable nl : list nat.

  Lemma skip_unmarked k : is_emptyk k = false -> forall m i e rest,
    (forall j, i <= j < i + m -> mem_nat j nl = false) ->
    skel_step_loop nl i e (repeat k m ++ rest)
    = repeat k m ++ skel_step_loop nl (i + m) (if Nat.eqb m 0 then e else false) rest.
  Proof.
    intros Hk. induction m as [|m IH]; intros i e rest Hnl.
    - simpl. rewrite Nat.add_0_r. reflexivity.
    - cbn [repeat app skel_step_loop]. unfold is_emptyk in Hk. rewrite Hk.
      rewrite (Hnl i) by lia. cbn [app]. f_equal.
      rewrite IH by (intros j Hj; apply Hnl; lia).
      replace (S i + m) with (i + S m) by lia.
      destruct m; reflexivity.
  Qed.

  Lemma skip_empty : forall m i rest,
    skel_step_loop nl i true (repeat KEmpty m ++ rest) = skel_step_loop nl (i + m) true rest.
  Proof.
    induction m as [|m IH]; intros i rest; simpl.
    - rewrite Nat.add_0_r. reflexivity.
    - rewrite IH. f_equal. lia.
  Qed.
End Skel.

Lemma skel_step_loop_runs nl rs : forall i e,
  canon rs = true ->
  (e = true -> kind_of rs <> Some KEmpty) ->
  (forall j, i <= j -> mem_nat j nl = mem_nat j (marks true i rs)) ->
  skel_step_loop nl i e (expand rs) = expand (step_runs rs).
Proof.
  induction rs as [|[k1 m1] t IH]; intros i e Hc He Hnl; [reflexivity|].
  assert (Hc' := Hc). cbn [canon] in Hc'. apply andb_true_iff in Hc' as [Hc1 Hct]. apply andb_true_iff in Hc1 as [Hm Hadj].
  assert (Hnl1 : forall j, i <= j ->
            mem_nat j nl = if j =? i + m1 then marked k1 (kind_of t) (kind_of (tl t))
                           else mem_nat j (marks true (i + S m1) t)).
  { intros j Hj. rewrite Hnl, mem_marks_true_cons by assumption. reflexivity. }
  assert (Hnl_t : forall j, i + S m1 <= j -> mem_nat j nl = mem_nat j (marks true (i + S m1) t)).
  { intros j Hj. rewrite Hnl1 by lia. destruct (Nat.eqb_spec j (i + m1)); [lia | reflexivity]. }
  rewrite expand_cons. cbn [step_runs].
  destruct (is_emptyk k1) eqn:Ek.
  - (* a run of blank lines: squeezed to one *)
    unfold is_emptyk in Ek. apply skind_eqb_eq in Ek. subst k1.
    assert (e = false) by (destruct e; [exfalso; apply (He eq_refl); reflexivity | reflexivity]). subst e.
    cbn [repeat app skel_step_loop skind_eqb]. cbn [app]. rewrite skip_empty.
    cbn [app]. rewrite (expand_cons KEmpty 0 (step_runs t)). cbn [repeat app]. f_equal.
    replace (S i + m1) with (i + S m1) by lia.
    apply IH; auto.
    intros _. destruct t as [|[k2 m2] t']; [discriminate|]. cbn [kind_of]. intro Hx. injection Hx as ->.
    cbn [is_func skind_eqb orb negb] in Hadj. discriminate.
  - (* a run of statements / comments / one func *)
    change (repeat k1 (S m1)) with (k1 :: repeat k1 m1). rewrite repeat_cons. rewrite <- app_assoc. rewrite skip_unmarked; [|exact Ek|].
    2:{ intros j Hj. rewrite Hnl1 by lia. destruct (Nat.eqb_spec j (i + m1)); [lia|].
        apply mem_marks_below; [exact Hct | lia]. }
    cbn [app skel_step_loop]. unfold is_emptyk in Ek. rewrite Ek.
    rewrite (Hnl1 (i + m1)), Nat.eqb_refl by lia.
    replace (S (i + m1)) with (i + S m1) by lia.
    rewrite (IH (i + S m1) false Hct) by (auto; intro; discriminate).
    cbn [app]. rewrite (expand_cons k1 m1). change (repeat k1 (S m1)) with (k1 :: repeat k1 m1).
    rewrite repeat_cons. rewrite <- !app_assoc. f_equal. cbn [app]. f_equal.
    unfold expand. rewrite flat_map_app. f_equal.
    destruct (marked k1 (kind_of t) (kind_of (tl t))); reflexivity.
Qed.

Lemma expand_nonempty rs : rs <> [] -> expand rs <> [].
Proof. destruct rs as [|[k m] t]; [contradiction|]. intros _. rewrite expand_cons. discriminate. Qed.

Lemma skel_step_runs rs : rs <> [] -> canon rs = true -> skel_step true (expand rs) = expand (step_runs rs).
Proof.
  intros Hne Hc. unfold skel_step. destruct (expand rs) eqn:E; [exfalso; apply (expand_nonempty rs Hne E)|].
  rewrite <- E. apply skel_step_loop_runs; auto; try (intro; discriminate).
  intros j _. rewrite nl_after_runs by exact Hc. reflexivity.
Qed.

Fixpoint unmarked (rs : list run) : bool :=
  match rs with
  | [] => true
  | (k1, _) :: t => negb (marked k1 (kind_of t) (kind_of (tl t))) && unmarked t
  end.

Fixpoint single_blanks (rs : list run) : bool :=
  match rs with
  | [] => true
  | (k1, m1) :: t => (if is_emptyk k1 then Nat.eqb m1 0 else true) && single_blanks t
  end.

Lemma step_runs_fix rs : unmarked rs = true -> single_blanks rs = true -> step_runs rs = rs.
Proof.
  induction rs as [|[k1 m1] t IH]; [reflexivity|]. cbn [unmarked single_blanks step_runs].
  intros Hu He. apply andb_true_iff in Hu as [Hu Hut]. apply andb_true_iff in He as [He Het].
  apply negb_true_iff in Hu. rewrite Hu, (IH Hut Het).
  destruct (is_emptyk k1) eqn:Ek; [|reflexivity].
  apply Nat.eqb_eq in He. subst m1. unfold is_emptyk in Ek. apply skind_eqb_eq in Ek. subst k1. reflexivity.
Qed.

Lemma kind_of_step rs : kind_of (step_runs rs) = kind_of rs.
Proof.
  destruct rs as [|[k1 m1] t]; [reflexivity|]. cbn [step_runs].
  destruct (is_emptyk k1) eqn:Ek; [|reflexivity].
  unfold is_emptyk in Ek. apply skind_eqb_eq in Ek. subst. reflexivity.
Qed.

Lemma marked_empty_next k1 k3 : marked k1 (Some KEmpty) k3 = false.
Proof. destruct k1; reflexivity. Qed.

Lemma marked_empty k2 k3 : marked KEmpty k2 k3 = false.
Proof. reflexivity. Qed.

(* the kind two runs ahead matters only behind a comment run, and comment runs are never marked *)
Lemma marked_k3_irrelevant k1 k2 k3 k3' : k2 <> KComment -> marked k1 (Some k2) k3 = marked k1 (Some k2) k3'.
Proof. intro H. destruct k1, k2; try reflexivity; contradiction. Qed.

Lemma second_kind_step k2 m2 t' :
  kind_of (tl (step_runs ((k2, m2) :: t'))) =
  if negb (is_emptyk k2) && marked k2 (kind_of t') (kind_of (tl t')) then Some KEmpty else kind_of t'.
Proof.
  cbn [step_runs]. destruct (is_emptyk k2) eqn:Ek; cbn [negb andb app tl].
  - apply kind_of_step.
  - remember (marked k2 (kind_of t') (kind_of (tl t'))) as mk eqn:Em.
    destruct mk; cbn [app tl kind_of]; [reflexivity | apply kind_of_step].
Qed.

Lemma step_runs_unmarked rs : unmarked (step_runs rs) = true.
Proof.
  induction rs as [|[k1 m1] t IH]; [reflexivity|]. cbn [step_runs].
  destruct (is_emptyk k1) eqn:Ek.
  - cbn [app unmarked]. rewrite marked_empty. exact IH.
  - destruct (marked k1 (kind_of t) (kind_of (tl t))) eqn:Em; cbn [app unmarked kind_of tl].
    + rewrite marked_empty_next, marked_empty. exact IH.
    + rewrite IH, andb_true_r. apply negb_true_iff. rewrite kind_of_step.
      destruct t as [|[k2 m2] t']; [destruct k1; reflexivity|].
      rewrite second_kind_step. cbn [kind_of tl] in Em |- *.
      destruct (skind_eqb k2 KComment) eqn:Ec.
      * apply skind_eqb_eq in Ec. subst k2. cbn [is_emptyk skind_eqb negb andb marked]. exact Em.
      * rewrite (marked_k3_irrelevant k1 k2 _ (kind_of t')); [exact Em|].
        intro Hx. subst k2. discriminate.
Qed.

Lemma step_runs_single_blanks rs : single_blanks (step_runs rs) = true.
Proof.
  induction rs as [|[k1 m1] t IH]; [reflexivity|]. cbn [step_runs].
  destruct (is_emptyk k1) eqn:Ek; cbn [app single_blanks].
  - exact IH.
  - rewrite Ek. destruct (marked k1 (kind_of t) (kind_of (tl t))); cbn [app single_blanks]; exact IH.
Qed.

Lemma canon_cons k m r :
  canon ((k, m) :: r) = (if is_func k then Nat.eqb m 0 else true)
                        && match kind_of r with Some k2 => negb (skind_eqb k k2) || is_func k | None => true end
                        && canon r.
Proof. destruct r as [|[k2 m2] r]; reflexivity. Qed.

Lemma step_runs_canon rs : canon rs = true -> canon (step_runs rs) = true.
Proof.
  induction rs as [|[k1 m1] t IH]; [reflexivity|]. rewrite canon_cons. intro Hc.
  apply andb_true_iff in Hc as [Hc Hct]. apply andb_true_iff in Hc as [Hm Hadj].
  specialize (IH Hct). cbn [step_runs].
  destruct (is_emptyk k1) eqn:Ek.
  - unfold is_emptyk in Ek. apply skind_eqb_eq in Ek. subst k1. cbn [app].
    rewrite canon_cons, kind_of_step, IH, Hadj. reflexivity.
  - destruct (marked k1 (kind_of t) (kind_of (tl t))) eqn:Em; cbn [app].
    + (* the inserted blank line stands between two runs that are not blank *)
      rewrite !canon_cons, kind_of_step, IH, Hm. cbn [kind_of]. unfold is_emptyk in Ek. rewrite Ek.
      destruct (kind_of t) as [k2|]; [|destruct k1; discriminate Em].
      destruct (marked_k2 _ _ _ Em) as [Hk2 _]. destruct k2; [contradiction | reflexivity..].
    + rewrite canon_cons, kind_of_step, IH, Hm, Hadj. reflexivity.
Qed.

Lemma rle_nonempty k t : rle (k :: t) <> [].
Proof. cbn [rle]. destruct (rle t) as [|[k' m] r]; [discriminate|]. destruct (_ && _); discriminate. Qed.

Lemma step_runs_nonempty rs : rs <> [] -> step_runs rs <> [].
Proof. destruct rs as [|[k m] t]; [contradiction|]. intros _. cbn [step_runs]. destruct (is_emptyk k); discriminate. Qed.

(* the skeleton that one pass writes is the expansion of runs that are canonical, hold no marked
   statement and no two blank lines in a row *)
Lemma skel_step_as_runs ks : exists rs,
  skel_step true ks = expand rs /\ rs <> [] /\ canon rs = true /\ unmarked rs = true /\ single_blanks rs = true.
Proof.
  destruct ks as [|k t].
  - exists [(KEmpty, 0)]. repeat split; discriminate.
  - exists (step_runs (rle (k :: t))). rewrite <- (expand_rle (k :: t)) at 1.
    rewrite skel_step_runs by (auto using rle_nonempty, canon_rle).
    auto using step_runs_nonempty, rle_nonempty, step_runs_canon, canon_rle, step_runs_unmarked, step_runs_single_blanks.
Qed.

(* C07: with the repaired nlAfter the blank-line logic is idempotent on every skeleton *)
Theorem skel_step_fixed_idempotent ks : skel_step true (skel_step true ks) = skel_step true ks.
Proof.
  destruct (skel_step_as_runs ks) as (rs & -> & Hne & Hc & Hu & He).
  rewrite skel_step_runs, step_runs_fix by assumption. reflexivity.
Qed.

Lemma marks_unmarked rs : forall i, unmarked rs = true -> marks true i rs = [].
Proof.
  induction rs as [|[k1 m1] r IH]; intros i Hu; [reflexivity|]. cbn [unmarked] in Hu.
  apply andb_true_iff in Hu as [Hu Hr]. apply negb_true_iff in Hu. cbn [marks]. rewrite Hu. apply IH, Hr.
Qed.

Theorem skel_step_fixed_stable ks : nl_after true (skel_step true ks) = [].
Proof.
  destruct (skel_step_as_runs ks) as (rs & -> & Hne & Hc & Hu & He).
  rewrite nl_after_runs by exact Hc. apply marks_unmarked, Hu.
Qed.

Fixpoint no_adj_empty (ks : list skind) : bool :=
  match ks with
  | [] => true
  | k :: t => negb (is_emptyk k && match t with k2 :: _ => is_emptyk k2 | [] => false end) && no_adj_empty t
  end.

Lemma no_adj_empty_runs rs : canon rs = true -> single_blanks rs = true -> no_adj_empty (expand rs) = true.
Proof.
  induction rs as [|[k1 m1] t IH]; intros Hc He; [reflexivity|].
  cbn [canon] in Hc. apply andb_true_iff in Hc as [Hc Hct]. apply andb_true_iff in Hc as [Hm Hadj].
  cbn [single_blanks] in He. apply andb_true_iff in He as [He Het]. specialize (IH Hct Het).
  rewrite expand_cons. destruct (is_emptyk k1) eqn:Ek.
  - apply Nat.eqb_eq in He. subst m1. cbn [repeat app no_adj_empty]. rewrite Ek, IH, andb_true_r. cbn [andb].
    apply negb_true_iff. destruct t as [|[k2 m2] t']; [reflexivity|]. rewrite expand_cons. cbn [repeat app].
    unfold is_emptyk in Ek. apply skind_eqb_eq in Ek. subst k1.
    cbn [is_func skind_eqb orb] in Hadj. rewrite orb_false_r in Hadj. apply negb_true_iff in Hadj.
    unfold is_emptyk. destruct k2; simpl in *; congruence.
  - clear He Hm Hadj. induction m1 as [|m IHm].
    + cbn [repeat app no_adj_empty]. rewrite Ek. cbn [andb negb]. exact IH.
    + change (repeat k1 (S (S m)) ++ expand t) with (k1 :: (repeat k1 (S m) ++ expand t)).
      cbn [no_adj_empty]. rewrite Ek. cbn [andb negb]. exact IHm.
Qed.

Theorem skel_step_no_adj_empty ks : no_adj_empty (skel_step true ks) = true.
Proof.
  destruct (skel_step_as_runs ks) as (rs & -> & Hne & Hc & Hu & He). apply no_adj_empty_runs; assumption.
Qed.

Lemma skel_step_nonempty ks : skel_step true ks <> [].
Proof. destruct (skel_step_as_runs ks) as (rs & -> & Hne & _). apply expand_nonempty, Hne. Qed.
