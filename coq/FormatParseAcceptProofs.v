(* FormatParseAcceptProofs.v — C06 round trip: the scoping and control side conditions of the
   statement / program theorems ([sok], [poks] of FormatParseBlockProofs.v) derived from the two
   declarative judgements proved of every accepted program:
     - the scope checker of ParserScope.v passes        (C05_scope_accept_scoped), and
     - the structure rules of ParserRules.v hold         (break / return placement, no dead code).
   What remains a hypothesis is per expression: [eok] asks, at every expression position, that the
   expression is in the round-trip fragment ([top_ok] of FormatParseStmtProofs.v / [item_ok] of
   FormatParseListProofs.v; Props/C06_roundtrip.v) in the context
   the scope checker computes for that position, and that names are identifiers. *)
From Coq Require Import List String NArith ZArith Bool Arith Lia.
From EvyV Require Import Base FmtAst Format FormatProofs Pratt PrattProofs Parser ParserProofs ParserRules ParserScope ParserCursor
  FormatParse FormatParseProofs FormatParseListProofs FormatParseStmtProofs FormatParseTargetProofs FormatParseBlockProofs FormatParseProgProofs.
From EvyV.Gen Require Import Prec.
Import ListNotations.
Local Open Scope nat_scope.

(* the alwaysTerms flags of formatter trees are the declarative notion *)
Lemma existsb_ext {X} (f g : X -> bool) l : Forall (fun x => f x = g x) l -> existsb f l = existsb g l.
Proof. induction 1 as [|x l H _ IH]; [reflexivity|]. cbn [existsb]. rewrite H, IH. reflexivity. Qed.

Lemma body_trees_all (P : stmt -> Prop) : P Parser.SEmpty -> forall body, Forall (fun st => P (stmt_tree st)) body ->
  forall e, Forall P (body_trees e body).
Proof.
  intros H0. induction 1 as [|x l Hx _ IH]; intro e; [constructor|]. cbn [body_trees].
  destruct (is_blank x); [destruct e; [apply IH | constructor; [exact H0|apply IH]] | constructor; [exact Hx|apply IH]].
Qed.

Lemma blk_term body e : Forall (fun st => always_terms (stmt_tree st) = stmt_term (stmt_tree st)) body ->
  block_terms (blk_of (body_trees e body)) = block_term (blk_of (body_trees e body)).
Proof.
  intro H. unfold blk_of. cbn [block_terms block_term]. apply existsb_ext.
  apply (body_trees_all (fun t => always_terms t = stmt_term t)); [reflexivity | exact H].
Qed.

Lemma at_st : forall st, always_terms (stmt_tree st) = stmt_term (stmt_tree st).
Proof.
  induction st using fstmt_ind'; try reflexivity.
  destruct ifb as [c ch b]. rewrite stmt_tree_if. cbn [always_terms stmt_term]. cbn [Pblock] in H.
  assert (Hbrs : forallb (fun cb => block_terms (snd cb)) (cb_tree (CBlock c ch b) :: map cb_tree elifs)
                 = forallb (fun cb => block_term (snd cb)) (cb_tree (CBlock c ch b) :: map cb_tree elifs)).
  { cbn [forallb cb_tree snd]. rewrite (blk_term b false H). f_equal.
    induction H0 as [|[c' ch' b'] r Hx _ IH]; [reflexivity|]. cbn [map forallb cb_tree snd]. cbn [Pblock] in Hx.
    rewrite (blk_term b' false Hx), IH. reflexivity. }
  destruct els as [[ce eb]|]; [|reflexivity]. rewrite Hbrs. rewrite (blk_term eb false (H1 ce eb eq_refl)). reflexivity.
Qed.

Section Acc.
  Variable B : benv.
  Variable F : list (str * finfo).
  Let TB := tabs_of B F.

  (* the scope checker on one conditional block *)
  Definition branch_out (G : ctx) (c : fexpr) (b : list fstmt) : option ctx :=
    obind (use_vars (tvars (fexpr_tree c)) ([] :: G)) (scope_block TB (blk_of (body_trees false b))).

  (* the per-expression conditions, in the checker's contexts *)
  Fixpoint eok (G : ctx) (st : fstmt) {struct st} : Prop :=
    let body := fix body (G : ctx) (l : list fstmt) {struct l} : Prop :=
      match l with
      | [] => True
      | x :: t => if is_blank x then body G t
                  else eok G x /\ match scope_stmt TB (stmt_tree x) G with Some G' => body G' t | None => False end
      end in
    let branch := fun (G : ctx) (c : fexpr) (b : list fstmt) =>
      top_ok (envG B F G) c /\ b <> [] /\
      match use_vars (tvars (fexpr_tree c)) ([] :: G) with Some G1 => body G1 b | None => False end in
    match st with
    | FmtAst.STypedDecl x t [] => ident_text x = true /\ fty_ty t <> None
    | FmtAst.SInferredDecl x v [] => ident_text x = true /\ top_ok (envG B F G) v
    | FmtAst.SAssign t v [] =>
        match tgt_split t with
        | Some (x, steps) => ident_text x = true /\ mem_str x (map fst F) = false /\
                             Forall (step_ok (envG B F G)) steps /\ top_ok (envG B F G) v
        | None => False
        end
    | FmtAst.SCall n args [] =>
        ident_text n = true /\ Forall (item_ok (envG B F G) true) args
    | FmtAst.SReturn (Some v) [] => top_ok (envG B F G) v
    | FmtAst.SReturn None [] => True
    | FmtAst.SBreak [] => True
    | FmtAst.SWhile c [] b [] => branch G c b
    | FmtAst.SFor lv r [] b [] =>
        match lv with Some x => ident_text x = true | None => True end /\ b <> [] /\
        match (match lv with Some n => declare TB false n ([] :: G) | None => Some ([] :: G) end) with
        | Some Gd => Forall (item_ok (envG B F Gd) true) (range_exprs r) /\
                     match use_vars (lvars (map fexpr_tree (range_exprs r))) Gd with Some G1 => body G1 b | None => False end
        | None => False
        end
    | FmtAst.SIf (CBlock c [] b) elifs els [] =>
        branch G c b /\
        match branch_out G c b with
        | None => False
        | Some Gn =>
          (fix chain (G : ctx) (l : list cblock) {struct l} : Prop :=
             match l with
             | [] => match els with
                     | None => True
                     | Some ([], eb) => eb <> [] /\ body ([] :: G) eb
                     | Some _ => False
                     end
             | CBlock c' [] b' :: r =>
                 branch G c' b' /\ match branch_out G c' b' with Some Gn => chain Gn r | None => False end
             | _ => False
             end) Gn elifs
        end
    | _ => False
    end.

  Fixpoint eokb (G : ctx) (l : list fstmt) : Prop :=
    match l with
    | [] => True
    | x :: t => if is_blank x then eokb G t
                else eok G x /\ match scope_stmt TB (stmt_tree x) G with Some G' => eokb G' t | None => False end
    end.
  Definition eok_branch (G : ctx) (c : fexpr) (b : list fstmt) : Prop :=
    top_ok (envG B F G) c /\ b <> [] /\
    match use_vars (tvars (fexpr_tree c)) ([] :: G) with Some G1 => eokb G1 b | None => False end.
  Definition eok_chain (els : option (str * list fstmt)) : ctx -> list cblock -> Prop :=
    fix chain (G : ctx) (l : list cblock) {struct l} : Prop :=
    match l with
    | [] => match els with
            | None => True
            | Some ([], eb) => eb <> [] /\ eokb ([] :: G) eb
            | Some _ => False
            end
    | CBlock c' [] b' :: r =>
        eok_branch G c' b' /\ match branch_out G c' b' with Some Gn => chain Gn r | None => False end
    | _ => False
    end.

  Lemma eok_while G c b : eok G (FmtAst.SWhile c [] b []) = eok_branch G c b.
  Proof. reflexivity. Qed.
  Lemma eok_for G lv r b : eok G (FmtAst.SFor lv r [] b []) =
    (match lv with Some x => ident_text x = true | None => True end /\ b <> [] /\
     match (match lv with Some n => declare TB false n ([] :: G) | None => Some ([] :: G) end) with
     | Some Gd => Forall (item_ok (envG B F Gd) true) (range_exprs r) /\
                  match use_vars (lvars (map fexpr_tree (range_exprs r))) Gd with Some G1 => eokb G1 b | None => False end
     | None => False
     end).
  Proof. reflexivity. Qed.
  Lemma eok_if G c b elifs els :
    eok G (FmtAst.SIf (CBlock c [] b) elifs els [])
    = (eok_branch G c b /\ match branch_out G c b with None => False | Some Gn => eok_chain els Gn elifs end).
  Proof. reflexivity. Qed.

  Definition kf (k : fkind) (inl : bool) (fr : frs) : Prop :=
    fr_ret fr = negb (is_top k) /\ fr_retv fr = (match k with KFun => true | _ => false end) /\ fr_loop fr = inl.

  Lemma kf_push k inl fr l : kf k inl fr -> kf k (l || inl) (fr_push l fr).
  Proof. intros (H1 & H2 & H3). unfold kf, fr_push. cbn [fr_ret fr_retv]. unfold fr_loop in *. cbn [existsb snd]. rewrite H3. auto. Qed.

  Definition dead_ok (t : bool) (l : list stmt) : bool := (if t then forallb is_empty_stmt l else true) && no_dead l.

  Lemma is_blank_empty x : is_blank x = true -> x = FmtAst.SEmpty [].
  Proof. destruct x; try discriminate. cbn [is_blank]. destruct c; [reflexivity|discriminate]. Qed.

  (* marking variables as used changes neither the chain's length nor the names of its frames *)
  Definition hd_has (n : str) (G : ctx) : bool := match G with f :: _ => fhas n f | [] => false end.
  Lemma cmark_hd n m G : hd_has n (cmark m G) = hd_has n G /\ (G <> [] -> cmark m G <> []).
  Proof.
    destruct G as [|f r]; [split; [reflexivity|intro H; contradiction]|]. cbn [cmark]. destruct (fhas m f).
    - split; [cbn [hd_has]; apply fhas_fmark | discriminate].
    - split; [reflexivity | discriminate].
  Qed.
  Lemma fold_cmark_hd n vs : forall G, hd_has n (fold_left (fun G n => cmark n G) vs G) = hd_has n G /\
                                       (G <> [] -> fold_left (fun G n => cmark n G) vs G <> []).
  Proof.
    induction vs as [|m vs IH]; intro G; [split; [reflexivity|auto]|]. cbn [fold_left].
    destruct (IH (cmark m G)) as [H1 H2]. destruct (cmark_hd n m G) as [H3 H4]. split; [rewrite H1; exact H3 | intro N; apply H2, H4, N].
  Qed.

  Lemma declare_some_iff a n G : declare TB a n G <> None <->
    G <> [] /\ (mem_str n (t_globals TB) || hd_has n G || mem_str n (t_funcs TB) || (negb a && str_eqb n (s_ "_"%string))) = false.
  Proof.
    unfold declare. destruct G as [|f r]; [split; [intro H; contradiction | intros [H _]; contradiction]|]. cbn [hd_has].
    destruct (_ || _ || _ || _); split; intro H; try (split; [discriminate|reflexivity]); try discriminate; try contradiction.
    destruct H as [_ H]. discriminate.
  Qed.

  Lemma declare_after_use a n vs G G2 G' : use_vars vs G = Some G2 -> declare TB a n G2 = Some G' -> declare TB a n G <> None.
  Proof.
    unfold use_vars. destruct (forallb _ vs); [|discriminate]. intro E. injection E as <-. intro D.
    assert (D' : declare TB a n (fold_left (fun G n => cmark n G) vs G) <> None) by (rewrite D; discriminate).
    apply declare_some_iff in D' as [N Hc]. destruct (fold_cmark_hd n vs G) as [H1 H2]. rewrite H1 in Hc.
    apply declare_some_iff. split; [|exact Hc]. intro E. subst G. apply N. clear. induction vs; [reflexivity|assumption].
  Qed.

  Lemma use_in vs G G2 x : use_vars vs G = Some G2 -> In x vs -> cvisible x G = true.
  Proof.
    unfold use_vars. destruct (forallb (fun n => cvisible n G) vs) eqn:E; [|discriminate]. intros _ Hin.
    rewrite forallb_forall in E. exact (E x Hin).
  Qed.
  Lemma use_one x G G2 : use_vars [x] G = Some G2 -> cvisible x G = true.
  Proof. unfold use_vars. cbn [forallb]. destruct (cvisible x G); [reflexivity|discriminate]. Qed.

  Definition P (st : fstmt) : Prop :=
    forall k inl fr G G', kf k inl fr -> eok G st -> stmt_ok k inl (stmt_tree st) = true ->
      stmt_sok B F (stmt_tree st) -> scope_stmt TB (stmt_tree st) G = Some G' -> sok B F fr G st.

  (* the function table is consistent: a function without parameters takes no argument *)
  Definition tbl_ok : Prop := forall n fi, lookup_fn n F = Some fi -> fi_nil fi = true -> fi_arity fi = Some 0.
  Hypothesis TOK : tbl_ok.

  Lemma func_of_mk vs n : func_of (mkenv B F vs) n = match lookup_fn n F with Some fi => Some (fi_nil fi) | None => None end.
  Proof.
    unfold func_of, mkenv. cbn [e_funcs]. induction F as [|[m f] l IH]; [reflexivity|]. cbn [map lookup_func lookup_fn fst snd].
    destruct (str_eqb m n); [reflexivity|exact IH].
  Qed.
  Lemma arity_mk vs n k : arity_wrong (mkenv B F vs) n k =
    match lookup_fn n F with Some fi => match fi_arity fi with Some a => negb (Nat.eqb a k) | None => false end | None => false end.
  Proof.
    unfold arity_wrong, mkenv. cbn [e_arity]. induction F as [|[m f] l IH]; [reflexivity|]. cbn [map lookup_arity lookup_fn fst snd].
    destruct (str_eqb m n); [reflexivity|exact IH].
  Qed.

  (* the call rules of an accepted call statement give what the round trip needs of the table *)
  Lemma call_table G n (args : list fexpr) : expr_sok B F (TCall n (map fexpr_tree args)) ->
    exists fi, lookup_fn n F = Some fi /\ arity_wrong (envG B F G) n (List.length args) = false.
  Proof.
    intros [vs H]. cbn [tree_ok] in H. destruct H as (Hf & _ & Ha). rewrite func_of_mk in Hf, Ha.
    destruct (lookup_fn n F) as [fi|] eqn:L; [|contradiction]. exists fi. split; [reflexivity|].
    unfold envG. rewrite arity_mk, L. destruct Ha as [[Ha _]|[Hnil Hn]].
    - rewrite arity_mk, L, map_length in Ha. exact Ha.
    - injection Hn as Hn. rewrite (TOK n fi L Hn). destruct args; [reflexivity|discriminate Hnil].
  Qed.

  Lemma eok_not_empty G st : eok G st -> is_empty_stmt (stmt_tree st) = false.
  Proof. destruct st; try reflexivity; [intro H; exact (match H with end) | destruct ifb; reflexivity]. Qed.

  Lemma close_used Gend Gn : close_scope Gend = Some Gn -> frame_used Gend /\ Gn = tl Gend.
  Proof.
    unfold close_scope, frame_used. destruct Gend as [|f r]; [discriminate|]. destruct (forallb snd f); [|discriminate].
    intro H. injection H as <-. auto.
  Qed.

  Lemma body_derive : forall body, Forall P body -> forall k inl fr G e t Gend, kf k inl fr -> eokb G body ->
    forallb (stmt_ok k inl) (body_trees e body) = true -> dead_ok t (body_trees e body) = true ->
    Forall (stmt_sok B F) (body_trees e body) ->
    scope_stmts TB (body_trees e body) G = Some Gend -> frame_used Gend -> boks B F fr G t e body.
  Proof.
    induction 1 as [|x rest Hx _ IH]; intros k inl fr G e t Gend Hk He Hok Hd Hso Hs Hu.
    - cbn in Hs. injection Hs as <-. apply boks_nil. exact Hu.
    - cbn [eokb] in He. cbn [body_trees] in Hok, Hd, Hs, Hso. destruct (is_blank x) eqn:Hb.
      + rewrite (is_blank_empty x Hb). apply boks_blank. destruct e.
        * eapply IH; eassumption.
        * cbn [forallb stmt_ok andb] in Hok. cbn [scope_stmts scope_stmt obind] in Hs. inversion Hso; subst.
          eapply IH; eassumption.
      + destruct He as [Hex He]. cbn [forallb] in Hok. apply andb_true_iff in Hok as [Hok1 Hok2]. inversion Hso as [|? ? Hso1 Hso2]; subst.
        cbn [scope_stmts] in Hs. destruct (scope_stmt TB (stmt_tree x) G) as [G'|] eqn:Hsc; [|discriminate Hs]. cbn [obind] in Hs.
        unfold dead_ok in Hd. cbn [forallb no_dead] in Hd. rewrite (eok_not_empty G x Hex) in Hd.
        destruct t; [cbn in Hd; discriminate Hd|]. cbn [andb] in Hd.
        eapply boks_cons; [exact Hb | eapply Hx; eassumption | exact Hsc |].
        eapply IH; try eassumption. unfold dead_ok. rewrite at_st. exact Hd.
  Qed.

  Lemma body_trees_ne b : b <> [] -> body_trees false b <> [].
  Proof. destruct b as [|x r]; [contradiction|]. intros _. cbn [body_trees]. destruct (is_blank x); discriminate. Qed.

  Lemma block_derive b : Forall P b -> forall k inl fr l G1 Gn, kf k inl fr -> eokb G1 b ->
    block_ok k (l || inl) (blk_of (body_trees false b)) = true -> block_sok B F (blk_of (body_trees false b)) ->
    scope_block TB (blk_of (body_trees false b)) G1 = Some Gn -> boks B F (fr_push l fr) G1 false false b.
  Proof.
    intros Hb k inl fr l G1 Gn Hk He Hok Hbs Ho.
    unfold blk_of in Hbs, Ho, Hok. cbn [block_sok] in Hbs. apply stmts_sok_fix in Hbs. rewrite scope_block_eq in Ho.
    destruct (scope_stmts TB (body_trees false b) G1) as [Gend|] eqn:Hs; [|discriminate Ho]. cbn [obind] in Ho.
    destruct (close_used _ _ Ho) as [Hu' _]. cbn [block_ok] in Hok. apply andb_true_iff in Hok as [Hok1 Hok2].
    apply (body_derive b Hb k (l || inl) (fr_push l fr) G1 false false Gend (kf_push k inl fr l Hk) He Hok1 Hok2 Hbs Hs Hu').
  Qed.

  Lemma branch_derive b : Forall P b -> forall k inl fr l G c Gn, kf k inl fr -> eok_branch G c b ->
    block_ok k (l || inl) (blk_of (body_trees false b)) = true -> block_sok B F (blk_of (body_trees false b)) ->
    branch_out G c b = Some Gn ->
    exists G1, top_ok (envG B F G) c /\ body_trees false b <> [] /\ use_vars (tvars (fexpr_tree c)) ([] :: G) = Some G1 /\
               boks B F (fr_push l fr) G1 false false b /\ scope_block TB (blk_of (body_trees false b)) G1 = Some Gn.
  Proof.
    intros Hb k inl fr l G c Gn Hk (Hc & Hne & He) Hok Hbs Ho. unfold branch_out in Ho.
    destruct (use_vars (tvars (fexpr_tree c)) ([] :: G)) as [G1|] eqn:Hu; [|discriminate Ho]. cbn [obind] in Ho.
    exists G1. split; [exact Hc|]. split; [apply body_trees_ne, Hne|]. split; [reflexivity|]. split; [|exact Ho].
    exact (block_derive b Hb k inl fr l G1 Gn Hk He Hok Hbs Ho).
  Qed.

  Lemma chain_derive els : forall elifs, Forall (Pblock P) elifs -> forall k inl fr G Gm, kf k inl fr ->
    eok_chain els G elifs -> forallb (fun cb => block_ok k inl (snd cb)) (map cb_tree elifs) = true ->
    Forall (fun cb => block_sok B F (snd cb)) (map cb_tree elifs) ->
    scope_brs TB (map cb_tree elifs) G = Some Gm -> coks B F fr G elifs Gm /\ eok_chain els Gm [].
  Proof.
    induction 1 as [|[c ch b] r Hx _ IH]; intros k inl fr G Gm Hk He Hok Hbs Hs.
    - cbn in Hs. injection Hs as <-. split; [constructor | exact He].
    - cbn [eok_chain] in He. destruct ch; [|contradiction]. destruct He as [Hbr He].
      cbn [map forallb cb_tree snd] in Hok. apply andb_true_iff in Hok as [Hok1 Hok2].
      cbn [map scope_brs cb_tree fst snd otv'] in Hs. fold (branch_out G c b) in Hs.
      destruct (branch_out G c b) as [Gn|] eqn:Hbo; [|contradiction]. cbn [obind] in Hs.
      cbn [map cb_tree snd] in Hbs. inversion Hbs as [|? ? Hbs1 Hbs2]; subst.
      destruct (branch_derive b Hx k inl fr false G c Gn Hk Hbr Hok1 Hbs1 Hbo) as (G1 & H1 & H2 & H3 & H4 & H5).
      destruct (IH k inl fr Gn Gm Hk He Hok2 Hbs2 Hs) as [Hco Hel].
      split; [|exact Hel]. eapply coks_cons; eassumption.
  Qed.

  Lemma kf_ret k inl fr : kf k inl fr -> is_top k = false -> fr_ret fr = true.
  Proof. intros (H & _) E. rewrite H, E. reflexivity. Qed.

  Theorem derive_all : forall st, P st.
  Proof.
    induction st using fstmt_ind'; intros k inl fr G G' Hk He Hok Hso Hs.
    - exact (match He with end).
    - (* typed declaration *)
      destruct c; [|exact (match He with end)]. cbn [eok] in He. destruct He as [Hx Ht].
      cbn [stmt_tree scope_stmt] in Hs. destruct (fty_ty t) as [ty|] eqn:Ety; [|contradiction].
      eapply sok_typed; [exact Hx | exact Ety | fold TB; rewrite Hs; discriminate].
    - (* inferred declaration *)
      destruct c; [|exact (match He with end)]. cbn [eok] in He. destruct He as [Hx Hv].
      cbn [stmt_tree scope_stmt] in Hs. destruct (use_vars (tvars (fexpr_tree v)) G) as [G2|] eqn:Hu; [|discriminate Hs]. cbn [obind] in Hs.
      apply sok_decl; [exact Hx | exact (declare_after_use false n _ G G2 G' Hu Hs) | exact Hv].
    - (* assignment *)
      destruct c; [|exact (match He with end)]. cbn [eok] in He.
      destruct (tgt_split t) as [[x steps]|] eqn:Hsp; [|contradiction]. destruct He as (Hx & Hnf & Hst & Hv).
      cbn [stmt_tree scope_stmt] in Hs. destruct (use_vars (tvars (fexpr_tree t)) G) as [G2|] eqn:Hu; [|discriminate Hs].
      eapply sok_assign; try eassumption.
      apply (use_in _ G G2 x Hu). rewrite (tgt_tree t x steps Hsp).
      assert (Hg : forall st n1, In x (tvars n1) -> In x (tvars (fold_left step_tree st n1))).
      { induction st as [|s0 r IH]; intros n1 H1; [exact H1|]. cbn [fold_left]. apply IH. destruct s0; cbn [step_tree tvars]; [apply in_or_app; left; exact H1 | exact H1]. }
      apply Hg. left. reflexivity.
    - (* call *)
      destruct c; [|exact (match He with end)]. cbn [eok] in He. destruct He as (Hn & Hall).
      cbn [stmt_tree stmt_sok] in Hso. destruct (call_table G n a Hso) as (fi & Hl & Ha). eapply sok_call; eassumption.
    - (* return *)
      destruct c; [|destruct v; exact (match He with end)]. cbn [stmt_tree stmt_ok] in Hok.
      destruct v as [v|]; cbn [eok] in He.
      + apply sok_retv; [|exact He]. apply (kf_ret k inl fr Hk). destruct k; [discriminate Hok|reflexivity|reflexivity].
      + destruct k; try discriminate Hok. destruct Hk as (H1 & H2 & _). apply sok_ret; [rewrite H1 | rewrite H2]; reflexivity.
    - (* break *)
      destruct c; [|exact (match He with end)]. cbn [stmt_tree stmt_ok] in Hok. destruct Hk as (_ & _ & H3).
      apply sok_break. rewrite H3. exact Hok.
    - (* if *)
      destruct ifb as [c ch b]. destruct ch; [|exact (match He with end)]. destruct cend; [|destruct els as [[? ?]|]; exact (match He with end)].
      rewrite eok_if in He. destruct He as [Hbr He]. destruct (branch_out G c b) as [Gn|] eqn:Hbo; [|contradiction].
      rewrite stmt_tree_if in Hok, Hs. cbn [stmt_ok forallb cb_tree snd] in Hok.
      apply andb_true_iff in Hok as [Hok Hoke]. apply andb_true_iff in Hok as [Hok1 Hok2].
      rewrite scope_if_eq in Hs. cbn [scope_brs cb_tree fst snd otv'] in Hs. fold TB in Hs. fold (branch_out G c b) in Hs. rewrite Hbo in Hs. cbn [obind] in Hs.
      destruct (scope_brs TB (map cb_tree elifs) Gn) as [Gm|] eqn:Hsb; [|discriminate Hs]. cbn [obind] in Hs.
      cbn [Pblock] in H.
      rewrite stmt_tree_if in Hso. cbn [stmt_sok] in Hso. destruct Hso as [Hsb1 Hse]. destruct Hsb1 as (_ & Hcb1 & Hcbs). apply (brs_sok_fix B F) in Hcbs. cbn [cb_tree snd] in Hcb1.
      assert (Hcbs' : Forall (fun cb => block_sok B F (snd cb)) (map cb_tree elifs)) by (eapply Forall_impl; [|exact Hcbs]; intros a Ha; exact (proj2 Ha)).
      destruct (branch_derive b H k inl fr false G c Gn Hk Hbr Hok1 Hcb1 Hbo) as (G1 & B1 & B2 & B3 & B4 & B5).
      destruct (chain_derive els elifs H0 k inl fr Gn Gm Hk He Hok2 Hcbs' Hsb) as [Hco Hel].
      cbn [eok_chain] in Hel. destruct els as [[ce eb]|].
      + destruct ce; [|contradiction]. destruct Hel as [Hne Heb].
        eapply sok_if_else; try eassumption; [apply body_trees_ne, Hne|].
        exact (block_derive eb (H1 [] eb eq_refl) k inl fr false ([] :: Gm) G' Hk Heb Hoke Hse Hs).
      + eapply sok_if; eassumption.
    - (* while *)
      destruct ch; [|exact (match He with end)]. destruct ce; [|exact (match He with end)].
      rewrite eok_while in He. rewrite stmt_tree_while in Hok, Hs. cbn [stmt_ok] in Hok.
      cbn [scope_stmt otv'] in Hs. fold TB in Hs. fold (branch_out G cond body) in Hs.
      rewrite stmt_tree_while in Hso. cbn [stmt_sok] in Hso. destruct Hso as [_ Hso].
      destruct (branch_derive body H k inl fr true G cond G' Hk He Hok Hso Hs) as (G1 & B1 & B2 & B3 & B4 & B5).
      eapply sok_while; eassumption.
    - (* for *)
      destruct ch; [|exact (match He with end)]. destruct ce; [|exact (match He with end)].
      rewrite eok_for in He. destruct He as (Hlv & Hne & He).
      rewrite stmt_tree_for, range_trees_eq in Hok, Hs. cbn [stmt_ok] in Hok. cbn [scope_stmt] in Hs. fold TB in Hs.
      destruct (match lv with Some n => declare TB false n ([] :: G) | None => Some ([] :: G) end) as [Gd|] eqn:Hd; [|contradiction].
      destruct He as [Hall He]. cbn [obind] in Hs.
      destruct (use_vars (lvars (map fexpr_tree (range_exprs r))) Gd) as [G1|] eqn:Hu; [|contradiction]. cbn [obind] in Hs.
      eapply (sok_for B F fr G lv r body Gd G1); [| exact Hall | exact Hu | apply body_trees_ne, Hne |].
      + destruct lv as [x|]; [split; [exact Hlv|exact Hd] | injection Hd as <-; reflexivity].
      + rewrite stmt_tree_for in Hso. cbn [stmt_sok] in Hso. destruct Hso as (_ & _ & Hso).
        exact (block_derive body H k inl fr true G1 G' Hk He Hok Hso Hs).
    - exact (match He with end).
    - exact (match He with end).
  Qed.

  (* at top level no statement that passes the structure rules always terminates *)
  Lemma top_no_term : forall st, stmt_ok KTop false (stmt_tree st) = true -> stmt_term (stmt_tree st) = false.
  Proof.
    induction st using fstmt_ind'; try reflexivity; try (intro H; discriminate H).
    destruct ifb as [c ch b]. rewrite stmt_tree_if. destruct els as [[ce eb]|]; [|reflexivity].
    cbn [stmt_ok stmt_term]. intro Hok. apply andb_true_iff in Hok as [_ Hok]. unfold blk_of in *. cbn [block_ok block_term] in *.
    apply andb_true_iff in Hok as [Hok _].
    assert (E : existsb stmt_term (body_trees false eb) = false).
    { pose proof (body_trees_all (fun t => stmt_ok KTop false t = true -> stmt_term t = false) (fun _ => eq_refl) eb (H1 ce eb eq_refl) false) as HA.
      clear - HA Hok. induction HA as [|t l Ht _ IH]; [reflexivity|]. cbn [forallb existsb] in *. apply andb_true_iff in Hok as [H1 H2].
      rewrite (Ht H1), (IH H2). reflexivity. }
    rewrite E. reflexivity.
  Qed.

  Lemma kf_top : kf KTop false top_fr.
  Proof. repeat split. Qed.

  Lemma poks_derive : forall body G e Gout, eokb G body ->
    forallb (stmt_ok KTop false) (body_trees e body) = true -> Forall (stmt_sok B F) (body_trees e body) ->
    scope_stmts TB (body_trees e body) G = Some Gout -> poks B F G e body Gout.
  Proof.
    induction body as [|x rest IH]; intros G e Gout He Hok Hso Hs.
    - cbn in Hs. injection Hs as <-. constructor.
    - cbn [eokb] in He. cbn [body_trees] in Hok, Hs, Hso. destruct (is_blank x) eqn:Hb.
      + rewrite (is_blank_empty x Hb). apply poks_blank. destruct e; [|inversion Hso; subst]; eapply IH; eassumption.
      + destruct He as [Hex He]. cbn [forallb] in Hok. apply andb_true_iff in Hok as [Hok1 Hok2]. inversion Hso as [|? ? Hso1 Hso2]; subst.
        cbn [scope_stmts] in Hs. destruct (scope_stmt TB (stmt_tree x) G) as [G'|] eqn:Hsc; [|discriminate Hs]. cbn [obind] in Hs.
        eapply poks_cons; [exact Hb | exact (derive_all x KTop false top_fr G G' kf_top Hex Hok1 Hso1 Hsc) | | exact Hsc | eapply IH; eassumption].
        rewrite at_st. apply top_no_term, Hok1.
  Qed.
End Acc.

(* the program theorem with the judgements of an accepted parse *)
Section AccProg.
  Variable B : benv.
  Hypothesis BT : forall s t n, b_tyerr B s t n = false.
  Variable fx : fixes.

  (* the builtin table is consistent: a builtin without parameters has arity 0 *)
  Hypothesis TOK : tbl_ok (builtin_table B).

  Theorem program_roundtrip_judged p poss eof :
    p <> [] -> eokb B (builtin_table B) (G0 B) p ->
    structure_ok (body_trees false p) = true ->
    stmts_sok B (builtin_table B) (body_trees false p) ->
    scope_prog (tabs_of B (builtin_table B)) (body_trees false p) = true ->
    List.length poss = List.length (toks_of_pieces (fmt_prog fx p)) ->
    parse B (combine (toks_of_pieces (fmt_prog fx p)) poss) eof = Accept (body_trees false p).
  Proof.
    intros Hne He Hst Hso Hsc Hlen.
    unfold structure_ok in Hst. apply andb_true_iff in Hst as [Hst _].
    unfold scope_prog in Hsc. cbn [t_globals tabs_of] in Hsc. fold (G0 B) in Hsc.
    destruct (scope_stmts (tabs_of B (builtin_table B)) (body_trees false p) (G0 B)) as [Gout|] eqn:Hs; [|discriminate Hsc]. cbn [obind] in Hsc.
    destruct (close_scope Gout) as [Gn|] eqn:Hc; [|discriminate Hsc].
    destruct (close_used _ _ Hc) as [Hu _].
    apply (program_roundtrip B BT fx p Gout poss eof Hne (poks_derive B (builtin_table B) TOK p (G0 B) false Gout He Hst Hso Hs) Hu Hlen).
  Qed.

  (* ... which hold whenever some token list (the source, say) is accepted with p's tree and without
     user-defined functions *)
  Theorem program_roundtrip_accepted p raw eof0 poss eof :
    parse B raw eof0 = Accept (body_trees false p) -> fn_table B raw = builtin_table B ->
    p <> [] -> eokb B (builtin_table B) (G0 B) p ->
    List.length poss = List.length (toks_of_pieces (fmt_prog fx p)) ->
    parse B (combine (toks_of_pieces (fmt_prog fx p)) poss) eof = Accept (body_trees false p).
  Proof.
    intros Hacc Hfn Hne He Hlen.
    apply program_roundtrip_judged; try assumption.
    - exact (accept_structure B raw eof0 _ Hacc).
    - rewrite <- Hfn. exact (accept_static B raw eof0 _ Hacc).
    - rewrite <- Hfn. exact (accept_scoped B raw eof0 _ Hacc).
  Qed.
End AccProg.
