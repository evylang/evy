(* FormatParseBlockProofs.v — C06 round trip, block level, against Parser.v (parser.go):
   the tokens the formatter writes for a statement — a one-line statement or a while / if /
   for statement with its nested blocks — parse back, through parseStatement, to the statement's
   tree.  The scoping side conditions of the one-line theorems (FormatParseStmtProofs.v) are not
   hypotheses on parser states here: they are read off the declarative scope checker of
   ParserScope.v (scope_stmt on the TREE) — after each statement the round trip gives an
   error-free parse, and the simulation theorem ParserScope.stmt_sim then says that the parser's scope
   chain is the checker's context, which is where the next statement's conditions are stated. *)
From Coq Require Import List String NArith ZArith Bool Arith Lia.
From EvyV Require Import Base FmtAst Format FormatProofs Pratt PrattProofs Parser ParserEqProofs ParserProofs ParserRules ParserScope
  FormatParse FormatParseProofs FormatParseListProofs FormatParseStmtProofs FormatParseTargetProofs.
From EvyV.Gen Require Import Prec.
Import ListNotations.
Local Open Scope nat_scope.

(* the tree of a formatter statement (comments dropped; blank lines as the formatter
   squeezes them: a run of blank statements is one empty statement) *)
Definition blk_of (l : list stmt) : block := Block l (existsb always_terms l).

Definition range_trees (r : frange) : list tree :=
  match r with
  | RStep a b c => (match a with Some x => [fexpr_tree x] | None => [] end) ++ [fexpr_tree b]
                   ++ (match c with Some x => [fexpr_tree x] | None => [] end)
  | RExpr e => [fexpr_tree e]
  end.

Fixpoint stmt_tree (st : fstmt) : stmt :=
  let body := fix body (emp : bool) (l : list fstmt) : list stmt :=
    match l with
    | [] => []
    | x :: t => if is_blank x then (if emp then body true t else Parser.SEmpty :: body true t)
                else stmt_tree x :: body false t
    end in
  match st with
  | FmtAst.SEmpty _ => Parser.SEmpty
  | FmtAst.STypedDecl n t _ => Parser.STypedDecl n (fty_ty t)
  | FmtAst.SInferredDecl n v _ => Parser.SInferredDecl n (fexpr_tree v)
  | FmtAst.SAssign t v _ => Parser.SAssign (fexpr_tree t) (fexpr_tree v)
  | FmtAst.SCall n args _ => Parser.SCallStmt (TCall n (map fexpr_tree args))
  | FmtAst.SReturn v _ => Parser.SReturn (match v with Some e => Some (fexpr_tree e) | None => None end)
  | FmtAst.SBreak _ => Parser.SBreak
  | FmtAst.SIf (CBlock c _ b) elifs els _ =>
      Parser.SIf ((Some (fexpr_tree c), blk_of (body false b))
                  :: (fix go (l : list cblock) : list (option tree * block) :=
                        match l with
                        | [] => []
                        | CBlock c _ b :: r => (Some (fexpr_tree c), blk_of (body false b)) :: go r
                        end) elifs)
                 (match els with Some (_, b) => Some (blk_of (body false b)) | None => None end)
  | FmtAst.SWhile c _ b _ => Parser.SWhile (Some (fexpr_tree c)) (blk_of (body false b))
  | FmtAst.SFor lv r _ b _ => Parser.SFor lv (range_trees r) (blk_of (body false b))
  | FmtAst.SFunc n rt ps v _ b _ =>
      Parser.SFunc n (match rt with Some _ => true | None => false end)
                   (map fst ps ++ match v with Some p => [fst p] | None => [] end) (blk_of (body false b))
  | FmtAst.SOn n ps _ b _ => Parser.SOn n (map fst ps) (blk_of (body false b))
  end.

Fixpoint body_trees (emp : bool) (l : list fstmt) : list stmt :=
  match l with
  | [] => []
  | x :: t => if is_blank x then (if emp then body_trees true t else Parser.SEmpty :: body_trees true t)
              else stmt_tree x :: body_trees false t
  end.

Definition cb_tree (cb : cblock) : option tree * block :=
  match cb with CBlock c _ b => (Some (fexpr_tree c), blk_of (body_trees false b)) end.

(* fuel: parseStatement at fuel f handles a statement of size <= f.  A blank statement that the
   formatter squeezes away costs nothing (it produces no token and no turn of a parser loop). *)
Fixpoint sz (st : fstmt) : nat :=
  let szb := fix szb (e : bool) (l : list fstmt) : nat :=
    match l with
    | [] => 0
    | x :: t => if is_blank x then (if e then szb true t else S (szb true t)) else S (sz x + szb false t)
    end in
  match st with
  | FmtAst.SIf (CBlock _ _ b) elifs els _ =>
      S (S (szb false b + (fix go (l : list cblock) : nat := match l with [] => 0 | CBlock _ _ b :: r => S (szb false b + go r) end) elifs
            + match els with Some (_, b) => S (szb false b) | None => 0 end))
  | FmtAst.SWhile _ _ b _ | FmtAst.SFor _ _ _ b _ | FmtAst.SFunc _ _ _ _ _ b _ | FmtAst.SOn _ _ _ b _ => S (S (szb false b))
  | _ => 1
  end.
Fixpoint szb (e : bool) (l : list fstmt) : nat :=
  match l with
  | [] => 0
  | x :: t => if is_blank x then (if e then szb true t else S (szb true t)) else S (sz x + szb false t)
  end.
Notation szl := (szb false).

Lemma stmt_tree_while c ch b ce : stmt_tree (FmtAst.SWhile c ch b ce) = Parser.SWhile (Some (fexpr_tree c)) (blk_of (body_trees false b)).
Proof. reflexivity. Qed.
Lemma sz_while c ch b ce : sz (FmtAst.SWhile c ch b ce) = S (S (szl b)).
Proof. reflexivity. Qed.

Definition range_exprs (r : frange) : list fexpr :=
  match r with
  | RStep a b c => (match a with Some x => [x] | None => [] end) ++ [b] ++ (match c with Some x => [x] | None => [] end)
  | RExpr e => [e]
  end.
Lemma range_trees_eq r : range_trees r = map fexpr_tree (range_exprs r).
Proof. destruct r as [[a|] b [c|]|e]; reflexivity. Qed.
Lemma stmt_tree_for lv r ch b ce : stmt_tree (FmtAst.SFor lv r ch b ce) = Parser.SFor lv (range_trees r) (blk_of (body_trees false b)).
Proof. reflexivity. Qed.
Lemma sz_for lv r ch b ce : sz (FmtAst.SFor lv r ch b ce) = S (S (szl b)).
Proof. reflexivity. Qed.

Definition frs := list (bool * bool * bool).           (* ParserRules.frames: (returns, returns a value, loop) *)
Definition fr_ret (fr : frs) : bool := match fr with (r, _, _) :: _ => r | [] => false end.
Definition fr_retv (fr : frs) : bool := match fr with (_, v, _) :: _ => v | [] => false end.
Definition fr_push (loop : bool) (fr : frs) : frs := (fr_ret fr, fr_retv fr, loop) :: fr.

Lemma visible_abs l : visible l = flat_map (map fst) (map absf l).
Proof.
  unfold visible. induction l as [|sc r IH]; [reflexivity|]. cbn [flat_map map]. rewrite IH. f_equal.
  unfold absf. rewrite map_map. reflexivity.
Qed.

Section Blocks.
  Variable B : benv.
  Hypothesis BT : forall s t n, b_tyerr B s t n = false.
  Variable fx : fixes.
  Variable F : list (str * finfo).          (* p.funcs: fixed by the signature pre-pass *)
  Let TB := tabs_of B F.

  (* the expression parser's environment as a function of the checker's context *)
  Definition envG (G : ctx) : env := mkenv B F (flat_map (map fst) G).
  Lemma env_of_abs s : fns s = F -> env_of B s = envG (abs s).
  Proof. intro H. rewrite env_of_mkenv, H. unfold envG, abs. rewrite visible_abs. reflexivity. Qed.

  (* the first token of an expression that parses is not  = . : :=  (parsePrefix has no case for them):
     a call statement's first argument cannot be mistaken for the rest of a declaration / assignment *)
  Lemma rt_head_not_assign E w toks t t0 ts : RT E w toks t -> toks = t0 :: ts ->
    match ttype t0 with T_ASSIGN | T_DOT | T_COLON | T_DECLARE => False | _ => True end.
  Proof.
    intros H ->. 
    destruct (H {| prev := tEOF; rest := (t0 :: ts) ++ [mk T_NL]; peek := tEOF; wss := [w]; errs := []; used := [] |}
                [mk T_NL] (S (2 * List.length (t0 :: ts))) eq_refl eq_refl (fun _ => eq_refl)
                (or_intror (or_introl eq_refl)) ltac:(lia)) as (st' & P & _).
    rewrite parse_expr_S in P. unfold parse_prefix in P. unfold cur_t, cur in P. cbn [rest app look0 hd] in P.
    destruct (ttype t0); try exact I; discriminate P.
  Qed.

  (* the side conditions, on the checker's context *)
  Inductive sok : frs -> ctx -> fstmt -> Prop :=
  | sok_typed fr G x t ty : ident_text x = true -> fty_ty t = Some ty -> declare TB false x G <> None ->
      sok fr G (FmtAst.STypedDecl x t [])
  | sok_decl fr G x v : ident_text x = true -> declare TB false x G <> None -> top_ok (envG G) v ->
      sok fr G (FmtAst.SInferredDecl x v [])
  | sok_assign fr G t x steps v : tgt_split t = Some (x, steps) ->
      ident_text x = true -> mem_str x (map fst F) = false -> cvisible x G = true ->
      Forall (step_ok (envG G)) steps -> top_ok (envG G) v ->
      sok fr G (FmtAst.SAssign t v [])
  | sok_call fr G n args fi : ident_text n = true -> lookup_fn n F = Some fi ->
      arity_wrong (envG G) n (List.length args) = false -> Forall (item_ok (envG G) true) args ->
      sok fr G (FmtAst.SCall n args [])
  | sok_retv fr G v : fr_ret fr = true -> top_ok (envG G) v -> sok fr G (FmtAst.SReturn (Some v) [])
  | sok_ret fr G : fr_ret fr = true -> fr_retv fr = false -> sok fr G (FmtAst.SReturn None [])
  | sok_break fr G : fr_loop fr = true -> sok fr G (FmtAst.SBreak [])
  | sok_while fr G c body G1 : top_ok (envG G) c -> body_trees false body <> [] ->
      use_vars (tvars (fexpr_tree c)) ([] :: G) = Some G1 -> boks (fr_push true fr) G1 false false body ->
      sok fr G (FmtAst.SWhile c [] body [])
  | sok_for fr G lv r body Gd G1 :
      match lv with Some x => ident_text x = true /\ declare TB false x ([] :: G) = Some Gd | None => Gd = [] :: G end ->
      Forall (item_ok (envG Gd) true) (range_exprs r) ->
      use_vars (lvars (map fexpr_tree (range_exprs r))) Gd = Some G1 ->
      body_trees false body <> [] -> boks (fr_push true fr) G1 false false body ->
      sok fr G (FmtAst.SFor lv r [] body [])
  | sok_if fr G c body elifs G1 Gn Gm : top_ok (envG G) c -> body_trees false body <> [] ->
      use_vars (tvars (fexpr_tree c)) ([] :: G) = Some G1 -> boks (fr_push false fr) G1 false false body ->
      scope_block TB (blk_of (body_trees false body)) G1 = Some Gn -> coks fr Gn elifs Gm ->
      sok fr G (FmtAst.SIf (CBlock c [] body) elifs None [])
  | sok_if_else fr G c body elifs G1 Gn Gm eb : top_ok (envG G) c -> body_trees false body <> [] ->
      use_vars (tvars (fexpr_tree c)) ([] :: G) = Some G1 -> boks (fr_push false fr) G1 false false body ->
      scope_block TB (blk_of (body_trees false body)) G1 = Some Gn -> coks fr Gn elifs Gm ->
      body_trees false eb <> [] -> boks (fr_push false fr) ([] :: Gm) false false eb ->
      sok fr G (FmtAst.SIf (CBlock c [] body) elifs (Some ([], eb)) [])
  (* the "else if" branches: the context after each branch is the one the scope checker computes *)
  with coks : frs -> ctx -> list cblock -> ctx -> Prop :=
  | coks_nil fr G : coks fr G [] G
  | coks_cons fr G c body rest G1 Gn Gout : top_ok (envG G) c -> body_trees false body <> [] ->
      use_vars (tvars (fexpr_tree c)) ([] :: G) = Some G1 -> boks (fr_push false fr) G1 false false body ->
      scope_block TB (blk_of (body_trees false body)) G1 = Some Gn -> coks fr Gn rest Gout ->
      coks fr G (CBlock c [] body :: rest) Gout
  (* the statements of a block: [terms] = a statement before always terminates, [emp] = the formatter
     has just written a blank line *)
  with boks : frs -> ctx -> bool -> bool -> list fstmt -> Prop :=
  | boks_nil fr G t e : match G with f :: _ => forallb snd f = true | [] => False end -> boks fr G t e []
  | boks_blank fr G t e rest : boks fr G t true rest -> boks fr G t e (FmtAst.SEmpty [] :: rest)
  | boks_cons fr G e st rest G' : is_blank st = false -> sok fr G st ->
      scope_stmt TB (stmt_tree st) G = Some G' -> boks fr G' (always_terms (stmt_tree st)) false rest ->
      boks fr G false e (st :: rest).

  Scheme sok_mind := Minimality for sok Sort Prop
  with coks_mind := Minimality for coks Sort Prop
  with boks_mind := Minimality for boks Sort Prop.
  Combined Scheme sok_mutind from sok_mind, coks_mind, boks_mind.

  (* the parser state between statements *)
  Definition ST (s : pst) (q : list token) (G : ctx) (fr : frs) : Prop :=
    at_toks s q [] /\ peek_ok s q /\ scs s <> [] /\ sused s = [] /\ abs s = G /\ frames s = fr /\ fns s = F.

  (* the part of ST that is about the scopes: the scope chain is the checker's context G with frames fr,
     no read is pending, the function table is F *)
  Definition SS (s : pst) (G : ctx) (fr : frs) : Prop :=
    scs s <> [] /\ sused s = [] /\ abs s = G /\ frames s = fr /\ fns s = F.

  Lemma ST_at s q G fr : ST s q G fr -> at_toks s q []. Proof. intros (H & _). exact H. Qed.
  Lemma ST_ss s q G fr : ST s q G fr -> SS s G fr. Proof. intros (_ & _ & H). exact H. Qed.
  Lemma ss_ST s q G fr : at_toks s q [] -> peek_ok s q -> SS s G fr -> ST s q G fr.
  Proof. intros A P H. exact (conj A (conj P H)). Qed.

  Lemma SS_adv s G fr : SS s G fr -> SS (adv s) G fr.
  Proof. intros (N & U & H). split; [exact N|]. split; [rewrite sused_adv; exact U | exact H]. Qed.
  Lemma SS_apnl s G fr : SS s G fr -> SS (apnl s) G fr.
  Proof. intros (N & U & H). split; [exact N|]. split; [rewrite sused_apnl; exact U | exact H]. Qed.

  Lemma frames_push_inherit_fr l s : frames (push_inherit l s) = fr_push l (frames s).
  Proof. unfold push_inherit, push_scope, frames, fr_push, fr_ret, fr_retv. cbn [with_scs scs map frame_of sc_ret sc_retval sc_loop]. destruct (scs s) as [|sc t]; reflexivity. Qed.

  Lemma SS_push_scope a b c s G fr : SS s G fr -> SS (push_scope a b c s) ([] :: G) ((a, b, c) :: fr).
  Proof.
    intros (N & U & A & Fr & Fn). split; [discriminate|]. split; [exact U|].
    split; [rewrite abs_push_scope, A; reflexivity|]. split; [rewrite frames_push_scope, Fr; reflexivity | exact Fn].
  Qed.

  Lemma SS_push l s G fr : SS s G fr -> SS (push_inherit l s) ([] :: G) (fr_push l fr).
  Proof.
    intros (N & U & A & Fr & Fn). split; [discriminate|]. split; [exact U|].
    split; [rewrite abs_push_inherit, A; reflexivity|]. split; [rewrite frames_push_inherit_fr, Fr; reflexivity | exact Fn].
  Qed.

  Lemma ST_ct s t q G fr : ST s (t :: q) G fr -> ct s = ttype t.
  Proof. intros (Hat & _). exact (at_ct s t q [] Hat). Qed.

  Lemma ST_cur s t q G fr : ST s (t :: q) G fr -> cur (cs s) = t.
  Proof. intros ((Hr & _) & _). unfold cur. rewrite Hr. reflexivity. Qed.

  Lemma ST_env s q G fr : ST s q G fr -> env_of B s = envG G.
  Proof. intros (_ & _ & _ & _ & A & _ & Fn). rewrite <- A. apply env_of_abs, Fn. Qed.

  (* ST after a statement, from what the parser's soundness and scope-simulation theorems give *)
  Lemma ST_next s q G fr st s' q' :
    ST s q G fr -> frames s' = frames s -> sused s' = [] -> fns s' = fns s ->
    scope_stmt (tabs_of B (fns s)) st (abs s) = Some (abs s') -> at_toks s' q' [] -> peek_ok s' q' ->
    exists G', scope_stmt TB st G = Some G' /\ ST s' q' G' fr.
  Proof.
    intros (_ & _ & N & _ & A & Fr & Fn) Fr' U' Fn' Sc A1 P1.
    exists (abs s'). rewrite Fn, A in Sc. split; [exact Sc|].
    split; [exact A1|]. split; [exact P1|]. split; [exact (scs_of_frames s s' Fr' N)|]. split; [exact U'|].
    split; [reflexivity|]. split; [rewrite Fr'; exact Fr | rewrite Fn'; exact Fn].
  Qed.

  Lemma ST_post f s q G fr st s' q' :
    ST s q G fr -> parse_statement B f s = Ok (Some st) s' -> at_toks s' q' [] -> peek_ok s' q' ->
    exists G', scope_stmt TB st G = Some G' /\ ST s' q' G' fr.
  Proof.
    intros HST P A1 P1. pose proof HST as (_ & _ & N & U & _).
    assert (Q : serrs s' = []) by (destruct A1 as (_ & _ & E); exact E).
    destruct (stmt_sound B f s (Some st) s' P Q) as (_ & Fr' & _).
    destruct (stmt_sim B f s (Some st) s' P Q (conj N U)) as (U' & Fn' & _ & Sc).
    exact (ST_next s q G fr st s' q' HST Fr' U' Fn' Sc A1 P1).
  Qed.

  Lemma declare_decl_ok x s G : abs s = G -> fns s = F -> declare TB false x G <> None -> decl_ok B x s.
  Proof.
    intros A Fn H. unfold declare in H. destruct G as [|f r]; [contradiction|].
    destruct (mem_str x (t_globals TB)) eqn:E1; [contradiction|].
    destruct (fhas x f) eqn:E2; [contradiction|].
    destruct (mem_str x (t_funcs TB)) eqn:E3; [contradiction|].
    cbn [negb andb orb] in H. destruct (str_eqb x (s_ "_"%string)) eqn:E4; [contradiction|].
    unfold decl_ok. repeat split; auto.
    - rewrite in_local_abs, A. exact E2.
    - rewrite is_func_tabs, Fn. exact E3.
  Qed.

  Definition P_sok (fr : frs) (G : ctx) (st : fstmt) : Prop :=
    forall lvl f s r, sz st <= f ->
      ST s (toks_of_pieces (fmt_stmt fx lvl st) ++ mk T_NL :: r) G fr ->
      exists s', parse_statement B f s = Ok (Some (stmt_tree st)) s' /\ at_toks s' (skip1 r) [] /\ peek_ok s' (skip1 r).

  Lemma is_func_F s n : fns s = F -> is_func n s = mem_str n (map fst F).
  Proof. intro H. rewrite is_func_tabs, H. reflexivity. Qed.

  Lemma lookup_is_func s n fi : fns s = F -> lookup_fn n F = Some fi -> is_func n s = true.
  Proof. intros H L. unfold is_func. rewrite H, L. reflexivity. Qed.

  Lemma P_typed fr G x t ty : ident_text x = true -> fty_ty t = Some ty -> declare TB false x G <> None ->
    P_sok fr G (FmtAst.STypedDecl x t []).
  Proof.
    intros Hx Hty Hd lvl f s r Hf HST. destruct f as [|f]; [cbn in Hf; lia|].
    pose proof HST as (Hat & Hpk & N & U & A & Fr & Fn).
    destruct (typed_decl_roundtrip B fx lvl s x t ty r [] Hx Hty (declare_decl_ok x s G A Fn Hd) Hat) as (s' & P & A1 & P1).
    exists s'. split; [|split; assumption]. cbn [stmt_tree]. rewrite Hty, <- P.
    rewrite (typed_toks fx lvl x t ty Hx Hty) in HST. cbn [app] in HST.
    cbn [parse_statement]. unfold parse_statement_body. rewrite (ST_ct _ _ _ _ _ HST). cbn [ident_tok ttype].
    destruct HST as (_ & Hp & _). unfold peek_ok in Hp. rewrite Hp. reflexivity.
  Qed.

  Lemma P_decl fr G x v : ident_text x = true -> declare TB false x G <> None -> top_ok (envG G) v ->
    P_sok fr G (FmtAst.SInferredDecl x v []).
  Proof.
    intros Hx Hd Hv lvl f s r Hf HST. destruct f as [|f]; [cbn in Hf; lia|].
    pose proof HST as (Hat & Hpk & N & U & A & Fr & Fn).
    rewrite <- (ST_env _ _ _ _ HST) in Hv.
    destruct (inferred_decl_roundtrip B BT fx lvl s x v r [] Hx (declare_decl_ok x s G A Fn Hd) Hv Hat) as (s' & P & A1 & P1).
    exists s'. split; [|split; assumption]. cbn [stmt_tree]. rewrite <- P.
    rewrite (inferred_toks fx lvl x v Hx) in HST. cbn [app] in HST.
    cbn [parse_statement]. unfold parse_statement_body. rewrite (ST_ct _ _ _ _ _ HST). cbn [ident_tok ttype].
    destruct HST as (_ & Hp & _). unfold peek_ok in Hp. rewrite Hp. reflexivity.
  Qed.

  Lemma P_assign fr G t x steps v : tgt_split t = Some (x, steps) ->
    ident_text x = true -> mem_str x (map fst F) = false -> cvisible x G = true ->
    Forall (step_ok (envG G)) steps -> top_ok (envG G) v ->
    P_sok fr G (FmtAst.SAssign t v []).
  Proof.
    intros Hsp Hx Hnf Hvis Hst Hv lvl f s r Hf HST. destruct f as [|f]; [cbn in Hf; lia|].
    pose proof HST as (Hat & Hpk & N & U & A & Fr & Fn).
    rewrite <- (ST_env _ _ _ _ HST) in Hv, Hst.
    assert (H1 : is_func x s = false) by (rewrite (is_func_F s x Fn); exact Hnf).
    assert (H2 : scope_get x s = true) by (rewrite scope_get_abs, A; exact Hvis).
    destruct (assign_target_roundtrip B BT fx lvl s t x steps v r [] Hsp Hx H1 H2 Hst Hv Hat) as (s' & P & A1 & P1).
    exists s'. split; [|split; assumption]. cbn [stmt_tree]. rewrite <- P.
    rewrite (assign_toks fx lvl t x steps v r Hsp Hx) in HST.
    cbn [parse_statement]. unfold parse_statement_body. rewrite (ST_ct _ _ _ _ _ HST), (ST_cur _ _ _ _ _ HST). cbn [ident_tok ttype tlit].
    rewrite H1. destruct HST as (_ & Hp & _). unfold peek_ok in Hp. rewrite Hp. clear Hp.
    unfold tail_toks. destruct steps as [|[i|k] r0]; cbn [flat_map step_toks app]; reflexivity.
  Qed.

  Lemma P_retv fr G v : fr_ret fr = true -> top_ok (envG G) v -> P_sok fr G (FmtAst.SReturn (Some v) []).
  Proof.
    intros Hret Hv lvl f s r Hf HST. destruct f as [|f]; [cbn in Hf; lia|].
    pose proof HST as (Hat & Hpk & N & U & A & Fr & Fn).
    rewrite <- (ST_env _ _ _ _ HST) in Hv.
    assert (H1 : has_ret s = true).
    { unfold has_ret. unfold frames in Fr. destruct (scs s) as [|sc l]; [contradiction|]. rewrite <- Fr in Hret. exact Hret. }
    destruct (return_value_roundtrip B BT fx lvl s v r [] H1 Hv Hat) as (s' & P & A1 & P1).
    exists s'. split; [|split; assumption]. cbn [stmt_tree]. rewrite <- P.
    rewrite (return_toks fx lvl v) in HST. cbn [app] in HST.
    cbn [parse_statement]. unfold parse_statement_body. rewrite (ST_ct _ _ _ _ _ HST). reflexivity.
  Qed.

  Lemma P_ret fr G : fr_ret fr = true -> fr_retv fr = false -> P_sok fr G (FmtAst.SReturn None []).
  Proof.
    intros Hret Hrv lvl f s r Hf HST. destruct f as [|f]; [cbn in Hf; lia|].
    pose proof HST as (Hat & Hpk & N & U & A & Fr & Fn).
    assert (H1 : has_ret s = true /\ ret_value s = false).
    { unfold has_ret, ret_value. unfold frames in Fr. destruct (scs s) as [|sc l]; [contradiction|]. rewrite <- Fr in Hret, Hrv. split; assumption. }
    destruct (return_bare_roundtrip B fx lvl s r [] (proj1 H1) (proj2 H1) Hat) as (s' & P & A1 & P1).
    exists s'. split; [|split; assumption]. cbn [stmt_tree]. rewrite <- P.
    change (toks_of_pieces (fmt_stmt fx lvl (FmtAst.SReturn None [])) ++ mk T_NL :: r) with (mk T_RETURN :: mk T_NL :: r) in HST.
    cbn [parse_statement]. unfold parse_statement_body. rewrite (ST_ct _ _ _ _ _ HST). reflexivity.
  Qed.

  Lemma P_break fr G : fr_loop fr = true -> P_sok fr G (FmtAst.SBreak []).
  Proof.
    intros Hl lvl f s r Hf HST. destruct f as [|f]; [cbn in Hf; lia|].
    pose proof HST as (Hat & Hpk & N & U & A & Fr & Fn).
    assert (H1 : in_loop s = true) by (rewrite in_loop_frames, Fr; exact Hl).
    destruct (break_roundtrip fx lvl s r [] H1 Hat) as (s' & P & A1 & P1).
    exists s'. split; [|split; assumption]. cbn [stmt_tree]. rewrite <- P.
    change (toks_of_pieces (fmt_stmt fx lvl (FmtAst.SBreak [])) ++ mk T_NL :: r) with (mk T_BREAK :: mk T_NL :: r) in HST.
    cbn [parse_statement]. unfold parse_statement_body. rewrite (ST_ct _ _ _ _ _ HST). reflexivity.
  Qed.

  Lemma P_call fr G n args fi : ident_text n = true -> lookup_fn n F = Some fi ->
    arity_wrong (envG G) n (List.length args) = false -> Forall (item_ok (envG G) true) args ->
    P_sok fr G (FmtAst.SCall n args []).
  Proof.
    intros Hx Hfi Har Hall lvl f s r Hf HST. destruct f as [|f]; [cbn in Hf; lia|].
    pose proof HST as (Hat & Hpk & N & U & A & Fr & Fn).
    rewrite <- (ST_env _ _ _ _ HST) in Har, Hall.
    assert (Hfi' : lookup_fn n (fns s) = Some fi) by (rewrite Fn; exact Hfi).
    destruct (call_stmt_roundtrip B BT fx lvl s n args fi r [] Hx Hfi' Har Hall Hat) as (s' & P & A1 & P1).
    exists s'. split; [|split; assumption]. cbn [stmt_tree]. rewrite <- P.
    rewrite (call_toks fx lvl n args Hx) in HST.
    cbn [parse_statement]. unfold parse_statement_body. cbn [app] in HST. rewrite (ST_ct _ _ _ _ _ HST), (ST_cur _ _ _ _ _ HST). cbn [ident_tok ttype tlit].
    rewrite (lookup_is_func s n fi Fn Hfi).
    destruct HST as (_ & Hp & _). unfold peek_ok in Hp. rewrite Hp. clear Hp.
    destruct args as [|a args']; [reflexivity|].
    inversion Hall as [|? ? Ha _]; subst.
    destruct (item_rt (env_of B s) (env_no_tyerr B BT s) eq_refl fx true lvl a Ha) as [Hrt Hh].
    cbn [map more_args flat_map app]. destruct (toks_of_pieces (fmt_expr fx lvl a)) as [|t0 ts] eqn:Eh; [contradiction|].
    pose proof (rt_head_not_assign _ _ _ _ t0 ts Hrt eq_refl) as Hhd.
    cbn [app]. unfold peek_of. cbn [look1 look2 tl hd is_ws ttype mk].
    destruct (ttype t0); try contradiction; reflexivity.
  Qed.

  Definition body_toks (L : nat) (e : bool) (body : list fstmt) : list token :=
    toks_of_pieces (stmts_loop L e (map (fun x => (is_blank x, fmt_stmt fx L x)) body)).

  Lemma body_toks_blank L e rest :
    body_toks L e (FmtAst.SEmpty [] :: rest) = (if e then [] else [mk T_NL]) ++ body_toks L true rest.
  Proof. unfold body_toks. cbn [map is_blank is_empty stmts_loop]. rewrite toks_app. destruct e; reflexivity. Qed.

  Lemma body_toks_cons L e st rest : is_blank st = false ->
    body_toks (S L) e (st :: rest) = mk T_WS :: toks_of_pieces (fmt_stmt fx (S L) st) ++ mk T_NL :: body_toks (S L) false rest.
  Proof.
    intro Hb. unfold body_toks. cbn [map stmts_loop]. rewrite Hb.
    rewrite !toks_app. cbn [toks_of_pieces flat_map tok_of_piece app]. reflexivity.
  Qed.

  Definition start_tok (t : token) : Prop :=
    match ttype t with T_IDENT | T_RETURN | T_BREAK | T_WHILE | T_IF | T_FOR => True | _ => False end.

  Lemma start_nws t : start_tok t -> is_ws t = false.
  Proof. unfold start_tok, is_ws. destruct (ttype t); try contradiction; reflexivity. Qed.

  Lemma sok_head fr G st lvl : sok fr G st -> exists t0 ts, toks_of_pieces (fmt_stmt fx lvl st) = t0 :: ts /\ start_tok t0.
  Proof.
    intro H. destruct H;
      try (cbn [fmt_stmt]; rewrite toks_app, (tgt_toks fx lvl _ _ _ H), (ident_text_spec _ H0); eexists; eexists; (split; [reflexivity|exact I]));
      cbn [fmt_stmt fmt_expr fmt_call write_decl app]; cbn [toks_of_pieces flat_map tok_of_piece app];
      try rewrite (ident_text_spec _ H); eexists; eexists; (split; [reflexivity|exact I]).
  Qed.

  Definition frame_used (G : ctx) : Prop := match G with f :: _ => forallb snd f = true | [] => False end.
  Definition at_end (els : bool) (t : toktype) : bool := match t with T_END | T_EOF => true | T_ELSE => els | _ => false end.

  Definition P_boks (fr : frs) (G : ctx) (t e : bool) (body : list fstmt) : Prop :=
    forall lvl f fuel els acc s endq tk r',
      szb e body <= f -> szb e body < fuel ->
      skip1 endq = tk :: r' -> at_end els (ttype tk) = true ->
      ST s (skip1 (body_toks (S lvl) e body ++ endq)) G fr ->
      exists s' G', block_loop (parse_statement B f) fuel els acc t s
                    = Ok (Block (rev acc ++ body_trees e body) (t || existsb always_terms (body_trees e body))) s'
                    /\ ST s' (tk :: r') G' fr /\ frame_used G'.

  Lemma ST_adv s t q G fr : ST s (t :: q) G fr -> ST (adv s) (skip1 q) G fr.
  Proof.
    intro HST. pose proof (ST_at _ _ _ _ HST) as Hat.
    exact (ss_ST _ _ _ _ (adv_at s t q [] Hat) (adv_peek s t q [] Hat) (SS_adv _ _ _ (ST_ss _ _ _ _ HST))).
  Qed.

  Lemma P_boks_nil fr G t e : frame_used G -> P_boks fr G t e [].
  Proof.
    intros Hu lvl f fuel els acc s endq tk r' Hf Hfu Hend Hat HST. destruct fuel as [|fuel]; [cbn in Hfu; lia|].
    change (body_toks (S lvl) e [] ++ endq) with endq in HST. rewrite Hend in HST.
    exists s, G. cbn [block_loop body_trees existsb]. rewrite (ST_ct _ _ _ _ _ HST). fold (at_end els (ttype tk)). rewrite Hat.
    rewrite app_nil_r, orb_false_r. auto.
  Qed.

  Lemma parse_statement_nl f s : 1 <= f -> ct s = T_NL -> parse_statement B f s = Ok (Some Parser.SEmpty) (adv s).
  Proof.
    intros Hf Hc. destruct f as [|f]; [lia|]. cbn [parse_statement]. unfold parse_statement_body. rewrite Hc.
    unfold parse_empty_stmt. rewrite Hc. reflexivity.
  Qed.

  Lemma P_boks_blank fr G t e rest : boks fr G t true rest -> P_boks fr G t true rest -> P_boks fr G t e (FmtAst.SEmpty [] :: rest).
  Proof.
    intros Hb IH lvl f fuel els acc s endq tk r' Hf Hfu Hend Hat HST.
    rewrite body_toks_blank in HST. cbn [szb is_blank is_empty] in Hf, Hfu.
    destruct e.
    - (* the formatter writes nothing *)
      cbn [app] in HST. cbn [body_trees is_blank is_empty].
      destruct (IH lvl f fuel els acc s endq tk r' Hf Hfu Hend Hat HST) as (s' & G' & P & Q). exists s', G'. split; [exact P|exact Q].
    - cbn [app skip1 is_ws ttype mk] in HST. cbn [body_trees is_blank is_empty].
      destruct fuel as [|fuel]; [lia|].
      cbn [block_loop]. rewrite (ST_ct _ _ _ _ _ HST). cbn [ttype mk].
      rewrite (parse_statement_nl f s ltac:(lia) (ST_ct _ _ _ _ _ HST)). cbn [is_empty_stmt negb andb].
      rewrite andb_false_r.
      pose proof (ST_adv _ _ _ _ _ HST) as HST'.
      destruct (IH lvl f fuel els (Parser.SEmpty :: acc) (adv s) endq tk r' ltac:(lia) ltac:(lia) Hend Hat HST') as (s' & G' & P & Q).
      exists s', G'. split; [|exact Q]. cbn [always_terms]. rewrite orb_false_r. rewrite P. cbn [rev existsb always_terms orb].
      rewrite <- app_assoc. reflexivity.
  Qed.

  Lemma P_boks_cons fr G e st rest G' : is_blank st = false -> sok fr G st -> P_sok fr G st ->
    scope_stmt TB (stmt_tree st) G = Some G' -> boks fr G' (always_terms (stmt_tree st)) false rest ->
    P_boks fr G' (always_terms (stmt_tree st)) false rest ->
    P_boks fr G false e (st :: rest).
  Proof.
    intros Hbl Hso Hst Hsc Hb IH lvl f fuel els acc s endq tk r' Hf Hfu Hend Hat HST.
    rewrite (body_toks_cons lvl e st rest Hbl) in HST. cbn [app skip1 is_ws ttype mk] in HST.
    rewrite <- app_assoc in HST. cbn [app] in HST.
    cbn [szb] in Hf, Hfu. rewrite Hbl in Hf, Hfu.
    set (X' := body_toks (S lvl) false rest ++ endq) in *.
    destruct (Hst (S lvl) f s X' ltac:(lia) HST) as (s1 & P & A1 & P1).
    destruct (ST_post f s _ G fr (stmt_tree st) s1 (skip1 X') HST P A1 P1) as (G'' & Hsc' & HST1).
    rewrite Hsc in Hsc'. injection Hsc' as <-.
    destruct fuel as [|fuel]; [lia|]. cbn [block_loop].
    destruct (sok_head fr G st (S lvl) Hso) as (t0 & ts & Ht & Hs). rewrite Ht in HST. cbn [app] in HST.
    rewrite (ST_ct _ _ _ _ _ HST).
    assert (Hne : match ttype t0 with T_END | T_EOF => true | T_ELSE => els | _ => false end = false).
    { unfold start_tok in Hs. destruct (ttype t0); try contradiction; reflexivity. }
    rewrite Hne. rewrite P. cbn [andb orb].
    destruct (IH lvl f fuel els (stmt_tree st :: acc) s1 endq tk r' ltac:(lia) ltac:(lia) Hend Hat HST1) as (s' & G2 & P2 & Q).
    exists s', G2. split; [|exact Q]. rewrite P2. cbn [body_trees]. rewrite Hbl. cbn [rev existsb]. rewrite <- app_assoc. reflexivity.
  Qed.

  Lemma cond_line_rt lvl s1 c q G fr G1 :
    at_toks s1 (toks_of_pieces (fmt_expr fx lvl c) ++ mk T_NL :: q) [] -> SS s1 G fr -> top_ok (envG G) c ->
    use_vars (tvars (fexpr_tree c)) G = Some G1 ->
    exists s2, parse_condition B s1 = Ok (Some (fexpr_tree c)) s2 /\ ST (apnl s2) (skip1 q) G1 fr.
  Proof.
    intros Hat (N & U & A & Fr & Fn) Hv HG1.
    assert (Hv' : top_ok (env_of B s1) c) by (rewrite (env_of_abs s1 Fn), A; exact Hv).
    destruct (p_toplevel_value B BT fx lvl s1 c q [] Hv' Hat) as (s2 & P & A3 & _ & _).
    assert (PC : parse_condition B s1 = Ok (Some (fexpr_tree c)) s2).
    { unfold parse_condition. rewrite P. cbn. rewrite (assert_eol_nl s2 q [] A3). unfold tyerr_s. rewrite BT. reflexivity. }
    assert (Q : serrs s2 = []) by (destruct A3 as (_ & _ & E); exact E).
    (* the scopes after the condition are the checker's *)
    destruct (condition_sim B s1 _ s2 PC Q U) as (c' & Ec & _ & _ & Hu & Fn' & U').
    injection Ec as <-. rewrite A, HG1 in Hu. injection Hu as Hu.
    destruct (condition_sn B s1 _ s2 PC Q) as (_ & Fr').
    exists s2. split; [exact PC|]. apply ss_ST; [exact (apnl_nl s2 q [] A3) | exact (apnl_peek s2 q [] A3) | apply SS_apnl].
    split; [eapply scs_of_frames; [exact Fr'|exact N]|]. split; [exact U'|]. split; [symmetry; exact Hu|].
    split; [rewrite Fr'; exact Fr | rewrite Fn'; exact Fn].
  Qed.

  Lemma filter_unused_nil vars : forallb snd (map (fun v => (v_name v, v_used v)) vars) = true -> filter (fun v => negb (v_used v)) vars = [].
  Proof.
    induction vars as [|v r IH]; [reflexivity|]. cbn [map forallb snd filter]. intro H. apply andb_true_iff in H as [H1 H2].
    rewrite H1. cbn [negb]. exact (IH H2).
  Qed.

  Lemma validate_scope_id s : frame_used (abs s) -> validate_scope s = s.
  Proof.
    unfold frame_used, abs, validate_scope. destruct (scs s) as [|sc l]; [contradiction|]. cbn [map]. unfold absf.
    intro H. rewrite (filter_unused_nil _ H). reflexivity.
  Qed.

  Lemma block_rt lvl f els s body endq tk r' G fr :
    boks fr G false false body -> P_boks fr G false false body -> body_trees false body <> [] ->
    S (szl body) <= f -> skip1 endq = tk :: r' -> at_end els (ttype tk) = true ->
    ST s (skip1 (body_toks (S lvl) false body ++ endq)) G fr ->
    exists s3 G', parse_block_with (parse_statement B f) f els s = Ok (blk_of (body_trees false body)) s3 /\
                  ST s3 (tk :: r') G' fr /\ frame_used G'.
  Proof.
    intros Hb IH Hne Hf Hend Hat HST.
    destruct (IH lvl f f els [] s endq tk r' ltac:(lia) ltac:(lia) Hend Hat HST) as (s3 & G' & P & HST3 & Hu).
    exists s3, G'. unfold parse_block_with. rewrite P. cbn [rev app orb].
    destruct (body_trees false body) as [|t0 ts] eqn:Et; [contradiction|].
    pose proof HST3 as (_ & _ & _ & _ & A3 & _). rewrite <- A3 in Hu. rewrite (validate_scope_id s3 Hu).
    split; [reflexivity|]. split; [exact HST3 | rewrite A3 in Hu; exact Hu].
  Qed.

  Lemma finish_end_rt s r G fr : ST s (mk T_END :: mk T_NL :: r) G fr ->
    at_toks (finish_end s) (skip1 r) [] /\ peek_ok (finish_end s) (skip1 r).
  Proof.
    intro HST. unfold finish_end. rewrite (passert_ok T_END s (ST_ct _ _ _ _ _ HST)). cbn [snd].
    pose proof (ST_at _ _ _ _ (ST_adv s (mk T_END) (mk T_NL :: r) G fr HST)) as A1. cbn [skip1 is_ws ttype mk] in A1.
    rewrite (assert_eol_nl (adv s) r [] A1).
    split; [exact (apnl_nl _ r [] A1) | exact (apnl_peek _ r [] A1)].
  Qed.

  (* the same of the state while / for return, whose scope is popped after "end": stated apart so that
     the callers' goals match it without unfolding finish_end *)
  Lemma finish_pop_rt s r G fr : ST s (mk T_END :: mk T_NL :: r) G fr ->
    at_toks (pop_scope (finish_end s)) (skip1 r) [] /\ peek_ok (pop_scope (finish_end s)) (skip1 r).
  Proof. intro HST. generalize (finish_end s) (finish_end_rt s r G fr HST). intros x H. exact H. Qed.

  Lemma end_toks lvl r : skip1 (toks_of_pieces [Ind lvl] ++ mk T_END :: r) = mk T_END :: r.
  Proof. destruct lvl; reflexivity. Qed.

  Lemma while_toks lvl c body r :
    toks_of_pieces (fmt_stmt fx lvl (FmtAst.SWhile c [] body [])) ++ mk T_NL :: r
    = mk T_WHILE :: mk T_WS :: toks_of_pieces (fmt_expr fx lvl c) ++ mk T_NL :: body_toks (S lvl) false body
      ++ toks_of_pieces [Ind lvl] ++ mk T_END :: mk T_NL :: r.
  Proof.
    cbn [fmt_stmt]. unfold write_comment. cbn [is_empty app]. unfold body_toks.
    repeat (rewrite tp_cons || rewrite toks_app). cbn [tok_of_piece app toks_of_pieces flat_map].
    change (tok_of_text k_while) with (mk T_WHILE). change (tok_of_text k_end) with (mk T_END).
    rewrite <- ?app_assoc. cbn [app]. rewrite <- ?app_assoc. cbn [app]. rewrite ?app_nil_r. destruct lvl; reflexivity.
  Qed.

  Lemma envG_no_tyerr G : no_tyerr (envG G).
  Proof. intros a b c. apply BT. Qed.

  (* while c ... end *)
  Lemma P_while fr G c body G1 : top_ok (envG G) c -> body_trees false body <> [] ->
    use_vars (tvars (fexpr_tree c)) ([] :: G) = Some G1 -> boks (fr_push true fr) G1 false false body ->
    P_boks (fr_push true fr) G1 false false body ->
    P_sok fr G (FmtAst.SWhile c [] body []).
  Proof.
    intros Hc Hne Hu Hb IH lvl f s r Hf HST. rewrite sz_while in Hf. destruct f as [|f]; [lia|].
    rewrite while_toks in HST. rewrite stmt_tree_while.
    pose proof HST as (Hat & Hpk & N & U & A & Fr & Fn).
    cbn [parse_statement]. unfold parse_statement_body. rewrite (ST_ct _ _ _ _ _ HST). cbn [ttype mk].
    unfold parse_while_stmt.
    set (q := body_toks (S lvl) false body ++ toks_of_pieces [Ind lvl] ++ mk T_END :: mk T_NL :: r) in *.
    pose proof (adv_at s (mk T_WHILE) (mk T_WS :: toks_of_pieces (fmt_expr fx lvl c) ++ mk T_NL :: q) [] Hat) as A1.
    set (s1 := push_inherit true (adv s)).
    assert (A1' : at_toks s1 (toks_of_pieces (fmt_expr fx lvl c) ++ mk T_NL :: q) []) by exact A1.
    destruct (cond_line_rt lvl s1 c q ([] :: G) (fr_push true fr) G1 A1' (SS_push _ _ _ _ (SS_adv _ _ _ (ST_ss _ _ _ _ HST))) Hc Hu)
      as (s2 & PC & HST2).
    rewrite PC. cbv beta iota.
    destruct (block_rt lvl f false (apnl s2) body (toks_of_pieces [Ind lvl] ++ mk T_END :: mk T_NL :: r) (mk T_END) (mk T_NL :: r) G1 (fr_push true fr)
                Hb IH Hne ltac:(lia) (end_toks lvl _) eq_refl HST2) as (s3 & G' & PB & HST3 & _).
    rewrite PB. cbv beta iota.
    destruct (finish_pop_rt s3 r G' _ HST3) as (A4 & P4).
    eexists. split; [reflexivity|]. split; [exact A4 | exact P4].
  Qed.

  Lemma ST_fr_ne s q G fr : ST s q G fr -> fr <> [].
  Proof. intros (_ & _ & N & _ & _ & Fr & _) E. subst fr. unfold frames in E. destruct (scs s); [contradiction|discriminate]. Qed.

  Lemma ST_pop s q G x fr : ST s q G (x :: fr) -> fr <> [] -> ST (pop_scope s) q (tl G) fr.
  Proof.
    intros (Hat & Hp & N & U & A & Fr & Fn) Hne.
    assert (Fr' : frames (pop_scope s) = fr) by (rewrite frames_pop_scope, Fr; reflexivity).
    split; [exact Hat|]. split; [exact Hp|]. split.
    { intro E. unfold frames in Fr'. rewrite E in Fr'. cbn in Fr'. symmetry in Fr'. contradiction. }
    split; [exact U|]. split; [rewrite abs_pop_scope, A; reflexivity|]. split; [exact Fr' | exact Fn].
  Qed.

  Lemma ind_skip lvl t r : is_ws t = false -> skip1 (toks_of_pieces [Ind lvl] ++ t :: r) = t :: r.
  Proof. intro H. destruct lvl; cbn [toks_of_pieces flat_map tok_of_piece app skip1]; [rewrite H|]; reflexivity. Qed.

  (* one branch: "if" condition, block, up to (not including) else / end *)
  Lemma cond_block_rt lvl f s c body endq tk r' G fr G1 Gn :
    top_ok (envG G) c -> body_trees false body <> [] ->
    use_vars (tvars (fexpr_tree c)) ([] :: G) = Some G1 -> boks (fr_push false fr) G1 false false body ->
    P_boks (fr_push false fr) G1 false false body ->
    scope_block TB (blk_of (body_trees false body)) G1 = Some Gn ->
    S (szl body) <= f -> skip1 endq = tk :: r' -> at_end true (ttype tk) = true ->
    ST s (mk T_IF :: mk T_WS :: toks_of_pieces (fmt_expr fx lvl c) ++ mk T_NL :: body_toks (S lvl) false body ++ endq) G fr ->
    exists s3, parse_if_cond_block B (parse_statement B f) f s = Ok (Some (fexpr_tree c), blk_of (body_trees false body)) s3 /\
               ST s3 (tk :: r') Gn fr.
  Proof.
    intros Hc Hne Hu Hb IH Hsb Hf Hend Hat HST.
    pose proof HST as (Hat0 & Hpk & N & U & A & Fr & Fn).
    unfold parse_if_cond_block.
    set (q := body_toks (S lvl) false body ++ endq) in *.
    set (s0 := push_inherit false s).
    assert (A0 : at_toks s0 (mk T_IF :: mk T_WS :: toks_of_pieces (fmt_expr fx lvl c) ++ mk T_NL :: q) []) by exact Hat0.
    pose proof (adv_at s0 (mk T_IF) (mk T_WS :: toks_of_pieces (fmt_expr fx lvl c) ++ mk T_NL :: q) [] A0) as A1.
    destruct (cond_line_rt lvl (adv s0) c q ([] :: G) (fr_push false fr) G1 A1 (SS_adv _ _ _ (SS_push _ _ _ _ (ST_ss _ _ _ _ HST))) Hc Hu)
      as (s2 & PC & HST2).
    rewrite PC. cbv beta iota.
    destruct (block_rt lvl f true (apnl s2) body endq tk r' G1 (fr_push false fr) Hb IH Hne Hf Hend Hat HST2) as (s3 & G' & PB & HST3 & _).
    rewrite PB. cbv beta iota.
    (* the context after the block is the checker's *)
    pose proof HST2 as (_ & _ & N2' & U2' & A2' & _ & Fn2').
    pose proof HST3 as ((_ & _ & E3) & _ & _ & _ & A3 & _).
    destruct (block_with_sim B (parse_statement B f) (stmt_sound B f) (stmt_sim B f) f true (apnl s2) _ s3 PB E3 (conj N2' U2')) as (_ & _ & _ & Hs).
    rewrite Fn2', A2', A3 in Hs. fold TB in Hs. rewrite Hsb in Hs. injection Hs as ->.
    eexists. split; [reflexivity|]. apply (ST_pop s3 _ G' _ fr HST3 (ST_fr_ne _ _ _ _ HST)).
  Qed.

  Definition elif_toks (lvl : nat) (cbs : list cblock) : list token :=
    flat_map (fun cb => match cb with
                        | CBlock c _ body => toks_of_pieces [Ind lvl] ++ mk T_ELSE :: mk T_WS :: mk T_IF :: mk T_WS
                                             :: toks_of_pieces (fmt_expr fx lvl c) ++ mk T_NL :: body_toks (S lvl) false body
                        end) cbs.

  Fixpoint szc (cbs : list cblock) : nat :=
    match cbs with [] => 0 | CBlock _ _ b :: r => S (szl b + szc r) end.

  Lemma elif_next lvl rest endq tk r' : skip1 endq = tk :: r' -> at_end true (ttype tk) = true ->
    exists tk' r'', skip1 (elif_toks lvl rest ++ endq) = tk' :: r'' /\ at_end true (ttype tk') = true.
  Proof.
    intros He Ha. destruct rest as [|[c ch body] rest]; [exists tk, r'; auto|].
    cbn [elif_toks flat_map]. rewrite <- !app_assoc. cbn [app]. rewrite (ind_skip lvl (mk T_ELSE) _ eq_refl).
    eexists; eexists. split; reflexivity.
  Qed.

  Definition P_coks (fr : frs) (G : ctx) (cbs : list cblock) (Gout : ctx) : Prop :=
    forall lvl f fuel acc s endq tk r',
      S (szc cbs) <= f -> List.length cbs < fuel ->
      skip1 endq = tk :: r' -> at_end true (ttype tk) = true ->
      (ttype tk = T_ELSE -> ttype (peek_of (tk :: r')) <> T_IF) ->
      ST s (skip1 (elif_toks lvl cbs ++ endq)) G fr ->
      exists s', else_if_loop B (parse_statement B f) fuel f acc s = Ok (rev acc ++ map cb_tree cbs) s' /\ ST s' (tk :: r') Gout fr.

  Lemma P_coks_nil fr G : P_coks fr G [] G.
  Proof.
    intros lvl f fuel acc s endq tk r' Hf Hfu Hend Hat Hnif HST. destruct fuel as [|fuel]; [cbn in Hfu; lia|].
    cbn [elif_toks flat_map app] in HST. rewrite Hend in HST.
    exists s. cbn [else_if_loop map]. rewrite app_nil_r. split; [|exact HST].
    rewrite (ST_ct _ _ _ _ _ HST). destruct HST as (_ & Hp & _). unfold peek_ok in Hp. rewrite Hp.
    destruct (ttype tk) eqn:Et; try reflexivity.
    specialize (Hnif eq_refl). destruct (ttype (peek_of (tk :: r'))); try reflexivity. contradiction.
  Qed.

  Lemma P_coks_cons fr G c body rest G1 Gn Gout : top_ok (envG G) c -> body_trees false body <> [] ->
    use_vars (tvars (fexpr_tree c)) ([] :: G) = Some G1 -> boks (fr_push false fr) G1 false false body ->
    P_boks (fr_push false fr) G1 false false body ->
    scope_block TB (blk_of (body_trees false body)) G1 = Some Gn -> coks fr Gn rest Gout -> P_coks fr Gn rest Gout ->
    P_coks fr G (CBlock c [] body :: rest) Gout.
  Proof.
    intros Hc Hne Hu Hb IHb Hsb _ IH lvl f fuel acc s endq tk r' Hf Hfu Hend Hat Hnif HST.
    destruct fuel as [|fuel]; [cbn in Hfu; lia|]. cbn [szc] in Hf. cbn [List.length] in Hfu.
    cbn [elif_toks flat_map] in HST. fold (elif_toks lvl rest) in HST. rewrite <- !app_assoc in HST. cbn [app] in HST.
    rewrite (ind_skip lvl (mk T_ELSE) _ eq_refl) in HST. rewrite <- app_assoc in HST. cbn [app] in HST.
    cbn [else_if_loop]. rewrite (ST_ct _ _ _ _ _ HST).
    pose proof HST as (_ & Hp & _). unfold peek_ok in Hp. rewrite Hp. cbn [ttype mk peek_of look1 look2 tl hd is_ws].
    pose proof (ST_adv _ _ _ _ _ HST) as HST1. cbn [skip1 is_ws ttype mk] in HST1.
    destruct (elif_next lvl rest endq tk r' Hend Hat) as (tk' & r'' & Hn1 & Hn2).
    destruct (cond_block_rt lvl f (adv s) c body (elif_toks lvl rest ++ endq) tk' r'' G fr G1 Gn Hc Hne Hu Hb IHb Hsb ltac:(lia) Hn1 Hn2 HST1) as (s3 & PB & HST3).
    rewrite PB. cbv beta iota. rewrite <- Hn1 in HST3.
    destruct (IH lvl f fuel (cb_tree (CBlock c [] body) :: acc) s3 endq tk r' ltac:(lia) ltac:(lia) Hend Hat Hnif HST3) as (s' & P & Q).
    exists s'. split; [|exact Q]. cbn [cb_tree] in P. rewrite P. cbn [rev map cb_tree]. rewrite <- app_assoc. reflexivity.
  Qed.

  Lemma elifs_toks lvl fr G elifs Gm : coks fr G elifs Gm ->
    toks_of_pieces (flat_map (fun cb => match cb with
                               | CBlock cond c body =>
                                   [Ind lvl; T k_else; Sp; T k_if; Sp] ++ fmt_expr fx lvl cond ++ write_comment c ++ [NL]
                                   ++ stmts_loop (S lvl) false (map (fun x => (is_blank x, fmt_stmt fx (S lvl) x)) body)
                               end) elifs) = elif_toks lvl elifs.
  Proof.
    induction 1 as [|fr G c body rest G1 Gn Gout _ _ _ _ _ _ IH]; [reflexivity|].
    cbn [flat_map elif_toks]. rewrite toks_app, IH. f_equal.
    unfold write_comment. cbn [is_empty app]. unfold body_toks.
    repeat (rewrite tp_cons || rewrite toks_app). cbn [tok_of_piece app toks_of_pieces flat_map].
    change (tok_of_text k_else) with (mk T_ELSE). change (tok_of_text k_if) with (mk T_IF).
    rewrite <- ?app_assoc. cbn [app]. rewrite ?app_nil_r. destruct lvl; reflexivity.
  Qed.

  Definition else_toks (lvl : nat) (els : option (str * list fstmt)) : list token :=
    match els with
    | Some (_, eb) => toks_of_pieces [Ind lvl] ++ mk T_ELSE :: mk T_NL :: body_toks (S lvl) false eb
    | None => []
    end.

  Lemma if_toks lvl fr G c body elifs Gm (els : option (str * list fstmt)) r : coks fr G elifs Gm ->
    match els with Some (ch, _) => ch = [] | None => True end ->
    toks_of_pieces (fmt_stmt fx lvl (FmtAst.SIf (CBlock c [] body) elifs els [])) ++ mk T_NL :: r
    = mk T_IF :: mk T_WS :: toks_of_pieces (fmt_expr fx lvl c) ++ mk T_NL :: body_toks (S lvl) false body
      ++ (elif_toks lvl elifs ++ else_toks lvl els ++ toks_of_pieces [Ind lvl] ++ mk T_END :: mk T_NL :: r).
  Proof.
    intros Hk He. cbn [fmt_stmt]. unfold body_toks.
    repeat (rewrite tp_cons || rewrite toks_app). rewrite (elifs_toks lvl fr G elifs Gm Hk).
    cbn [tok_of_piece]. change (tok_of_text k_if) with (mk T_IF).
    destruct els as [[ch eb]|]; [subst ch|]; unfold write_comment; cbn [is_empty else_toks app]; unfold body_toks;
      repeat (rewrite tp_cons || rewrite toks_app); cbn [tok_of_piece app toks_of_pieces flat_map];
      change (tok_of_text k_else) with (mk T_ELSE); change (tok_of_text k_end) with (mk T_END);
      rewrite <- ?app_assoc; cbn [app]; rewrite <- ?app_assoc; cbn [app]; rewrite ?app_nil_r; destruct lvl; reflexivity.
  Qed.

  Lemma stmt_tree_if c ch b elifs els ce :
    stmt_tree (FmtAst.SIf (CBlock c ch b) elifs els ce)
    = Parser.SIf (cb_tree (CBlock c ch b) :: map cb_tree elifs)
                 (match els with Some (_, eb) => Some (blk_of (body_trees false eb)) | None => None end).
  Proof.
    cbn [stmt_tree cb_tree]. f_equal. f_equal.
    induction elifs as [|[c' ch' b'] rest IH]; [reflexivity|]. cbn [map cb_tree]. rewrite <- IH. reflexivity.
  Qed.

  Lemma sz_if c ch b elifs els ce :
    sz (FmtAst.SIf (CBlock c ch b) elifs els ce) = S (S (szl b + szc elifs + match els with Some (_, eb) => S (szl eb) | None => 0 end)).
  Proof.
    assert (H : (fix go (l : list cblock) : nat := match l with [] => 0 | CBlock _ _ b0 :: r => S (szl b0 + go r) end) elifs = szc elifs).
    { induction elifs as [|[c' ch' b'] rest IH]; [reflexivity|]. cbn [szc]. rewrite <- IH. reflexivity. }
    rewrite <- H. destruct els as [[? ?]|]; reflexivity.
  Qed.

  Lemma elif_len lvl cbs : 2 * List.length cbs <= List.length (elif_toks lvl cbs).
  Proof.
    induction cbs as [|[c ch b] rest IH]; [cbn; lia|]. cbn [elif_toks flat_map List.length]. fold (elif_toks lvl rest).
    rewrite !app_length. cbn [List.length]. lia.
  Qed.

  (* the common part: the if branch and the else-if branches *)
  Lemma if_head lvl f s c body elifs endq tk r' fr G G1 Gn Gm :
    top_ok (envG G) c -> body_trees false body <> [] ->
    use_vars (tvars (fexpr_tree c)) ([] :: G) = Some G1 -> boks (fr_push false fr) G1 false false body ->
    P_boks (fr_push false fr) G1 false false body ->
    scope_block TB (blk_of (body_trees false body)) G1 = Some Gn -> coks fr Gn elifs Gm -> P_coks fr Gn elifs Gm ->
    S (szl body + szc elifs) <= f ->
    skip1 endq = tk :: r' -> at_end true (ttype tk) = true -> (ttype tk = T_ELSE -> ttype (peek_of (tk :: r')) <> T_IF) ->
    ST s (mk T_IF :: mk T_WS :: toks_of_pieces (fmt_expr fx lvl c) ++ mk T_NL :: body_toks (S lvl) false body ++ (elif_toks lvl elifs ++ endq)) G fr ->
    exists s1 s2, parse_if_cond_block B (parse_statement B f) f s = Ok (cb_tree (CBlock c [] body)) s1 /\
                  else_if_loop B (parse_statement B f) (S (pos s1)) f [cb_tree (CBlock c [] body)] s1
                  = Ok (cb_tree (CBlock c [] body) :: map cb_tree elifs) s2 /\ ST s2 (tk :: r') Gm fr.
  Proof.
    intros Hc Hne Hu Hb IHb Hsb Hk IHk Hf Hend Hat Hnif HST.
    destruct (elif_next lvl elifs endq tk r' Hend Hat) as (tk' & r'' & Hn1 & Hn2).
    destruct (cond_block_rt lvl f s c body (elif_toks lvl elifs ++ endq) tk' r'' G fr G1 Gn Hc Hne Hu Hb IHb Hsb ltac:(lia) Hn1 Hn2 HST) as (s1 & PB & HST1).
    rewrite <- Hn1 in HST1.
    assert (Hfu : List.length elifs < S (pos s1)).
    { destruct HST1 as ((R1 & _) & _). unfold pos, here. rewrite R1.
      pose proof (skip1_len (elif_toks lvl elifs ++ endq)). pose proof (elif_len lvl elifs). rewrite app_length in H.
      assert (1 <= List.length endq). { destruct endq; [discriminate Hend|cbn; lia]. } lia. }
    destruct (IHk lvl f (S (pos s1)) [cb_tree (CBlock c [] body)] s1 endq tk r' ltac:(lia) Hfu Hend Hat Hnif HST1) as (s2 & P2 & HST2).
    exists s1, s2. split; [exact PB|]. split; [|exact HST2]. rewrite P2. reflexivity.
  Qed.

  Lemma P_if fr G c body elifs G1 Gn Gm : top_ok (envG G) c -> body_trees false body <> [] ->
    use_vars (tvars (fexpr_tree c)) ([] :: G) = Some G1 -> boks (fr_push false fr) G1 false false body ->
    P_boks (fr_push false fr) G1 false false body ->
    scope_block TB (blk_of (body_trees false body)) G1 = Some Gn -> coks fr Gn elifs Gm -> P_coks fr Gn elifs Gm ->
    P_sok fr G (FmtAst.SIf (CBlock c [] body) elifs None []).
  Proof.
    intros Hc Hne Hu Hb IHb Hsb Hk IHk lvl f s r Hf HST. rewrite sz_if in Hf. destruct f as [|f]; [lia|].
    rewrite (if_toks lvl fr Gn c body elifs Gm None r Hk I) in HST. rewrite stmt_tree_if.
    cbn [parse_statement]. unfold parse_statement_body. rewrite (ST_ct _ _ _ _ _ HST). cbn [ttype mk].
    unfold parse_if_stmt. cbn [else_toks app] in HST.
    destruct (if_head lvl f s c body elifs (toks_of_pieces [Ind lvl] ++ mk T_END :: mk T_NL :: r) (mk T_END) (mk T_NL :: r) fr G G1 Gn Gm
                Hc Hne Hu Hb IHb Hsb Hk IHk ltac:(lia) (end_toks lvl _) eq_refl ltac:(discriminate) HST) as (s1 & s2 & P1 & P2 & HST2).
    rewrite P1. cbv beta iota. rewrite P2. cbv beta iota. rewrite (ST_ct _ _ _ _ _ HST2). cbn [ttype mk]. cbv beta iota.
    destruct (finish_end_rt s2 r Gm _ HST2) as (A4 & P4).
    eexists. split; [reflexivity|]. split; [exact A4 | exact P4].
  Qed.

  Lemma P_if_else fr G c body elifs G1 Gn Gm eb : top_ok (envG G) c -> body_trees false body <> [] ->
    use_vars (tvars (fexpr_tree c)) ([] :: G) = Some G1 -> boks (fr_push false fr) G1 false false body ->
    P_boks (fr_push false fr) G1 false false body ->
    scope_block TB (blk_of (body_trees false body)) G1 = Some Gn -> coks fr Gn elifs Gm -> P_coks fr Gn elifs Gm ->
    body_trees false eb <> [] -> boks (fr_push false fr) ([] :: Gm) false false eb ->
    P_boks (fr_push false fr) ([] :: Gm) false false eb ->
    P_sok fr G (FmtAst.SIf (CBlock c [] body) elifs (Some ([], eb)) []).
  Proof.
    intros Hc Hne Hu Hb IHb Hsb Hk IHk Hnee Hbe IHe lvl f s r Hf HST. rewrite sz_if in Hf. destruct f as [|f]; [lia|].
    rewrite (if_toks lvl fr Gn c body elifs Gm (Some ([], eb)) r Hk eq_refl) in HST. rewrite stmt_tree_if.
    cbn [parse_statement]. unfold parse_statement_body. rewrite (ST_ct _ _ _ _ _ HST). cbn [ttype mk].
    unfold parse_if_stmt. cbn [else_toks] in HST.
    set (endq2 := toks_of_pieces [Ind lvl] ++ mk T_END :: mk T_NL :: r) in *.
    set (q := body_toks (S lvl) false eb ++ endq2) in *.
    destruct (if_head lvl f s c body elifs ((toks_of_pieces [Ind lvl] ++ mk T_ELSE :: mk T_NL :: body_toks (S lvl) false eb) ++ endq2)
                (mk T_ELSE) (mk T_NL :: q) fr G G1 Gn Gm
                Hc Hne Hu Hb IHb Hsb Hk IHk ltac:(lia)) as (s1 & s2 & P1 & P2 & HST2).
    { rewrite <- app_assoc. cbn [app]. rewrite (ind_skip lvl (mk T_ELSE) _ eq_refl). reflexivity. }
    { reflexivity. }
    { intros _. cbn. discriminate. }
    { exact HST. }
    rewrite P1. cbv beta iota. rewrite P2. cbv beta iota. rewrite (ST_ct _ _ _ _ _ HST2). cbn [ttype mk]. cbv beta iota.
    (* else: NL, then the block in a new scope *)
    pose proof (ST_adv s2 (mk T_ELSE) (mk T_NL :: q) Gm fr HST2) as H1. cbn [skip1 is_ws ttype mk] in H1.
    rewrite (assert_eol_nl (adv s2) q [] (ST_at _ _ _ _ H1)).
    pose proof (ST_at _ _ _ _ H1) as Hat1.
    set (s3 := push_inherit false (apnl (adv s2))).
    assert (HST3 : ST s3 (skip1 q) ([] :: Gm) (fr_push false fr)).
    { apply ss_ST; [exact (apnl_nl (adv s2) q [] Hat1) | exact (apnl_peek (adv s2) q [] Hat1)|].
      apply SS_push, SS_apnl, (ST_ss _ _ _ _ H1). }
    destruct (block_rt lvl f false s3 eb endq2 (mk T_END) (mk T_NL :: r) ([] :: Gm) (fr_push false fr) Hbe IHe Hnee ltac:(lia) (end_toks lvl _) eq_refl HST3)
      as (s4 & G' & PB & HST4 & _).
    rewrite PB. cbv beta iota.
    pose proof (ST_pop s4 _ G' _ fr HST4 (ST_fr_ne _ _ _ _ HST)) as HST5.
    destruct (finish_end_rt (pop_scope s4) r (tl G') _ HST5) as (A4 & P4).
    eexists. split; [reflexivity|]. split; [exact A4 | exact P4].
  Qed.

  Definition list_toks (lvl : nat) (es : list fexpr) : list token :=
    match map (fun a => toks_of_pieces (fmt_expr fx lvl a)) es with [] => [] | a :: r => a ++ more_args r end.

  Lemma range_toks lvl r : toks_of_pieces (fmt_range fx lvl r) = list_toks lvl (range_exprs r).
  Proof.
    destruct r as [[a|] b [c|]|e]; unfold list_toks; cbn [fmt_range range_exprs app map more_args flat_map];
      repeat (rewrite tp_cons || rewrite toks_app); cbn [tok_of_piece toks_of_pieces flat_map app]; rewrite ?app_nil_r; rewrite <- ?app_assoc; reflexivity.
  Qed.

  (* parseExprList on the formatted range expressions, up to the end of the line *)
  Lemma p_expr_list_value lvl s es r e :
    es <> [] -> Forall (item_ok (env_of B s) true) es ->
    at_toks s (list_toks lvl es ++ mk T_NL :: r) e ->
    exists s', p_expr_list B s = Ok (Some (map fexpr_tree es)) s' /\ at_toks s' (mk T_NL :: r) e.
  Proof.
    intros Hne Hall (Hr & Hw & He). unfold p_expr_list, expr_call.
    set (E := env_of B s). set (fuel := efuel (cs s)). unfold list_toks in Hr.
    set (ats := map (fun a => toks_of_pieces (fmt_expr fx lvl a)) es) in *.
    assert (H2 : Forall2 (fun a t => RT E true a t /\ head_ok a) ats (map fexpr_tree es)).
    { unfold ats. clear - Hall BT. induction es as [|a r0 IH]; [constructor|]. inversion Hall; subst. cbn [map].
      constructor; [apply (item_rt E (env_no_tyerr B BT s) eq_refl fx true lvl a); assumption | apply IH; assumption]. }
    assert (Hlen : forall a, In a ats -> List.length a <= List.length (match ats with [] => [] | a :: r => a ++ more_args r end)).
    { clear. destruct ats as [|x r0]; [contradiction|]. intros a [<-|H]; [rewrite app_length; lia|]. rewrite app_length.
      assert (List.length a <= List.length (more_args r0)); [|lia]. clear x. induction r0 as [|y r1 IH]; [contradiction|].
      cbn [more_args flat_map]. fold (more_args r1). simpl. rewrite app_length. destruct H as [->|H]; [lia|]. specialize (IH H). lia. }
    assert (Hnn : List.length ats <= S (List.length (match ats with [] => [] | a :: r => a ++ more_args r end))).
    { clear. destruct ats as [|x r0]; [simpl; lia|]. rewrite app_length. cbn [List.length].
      assert (List.length r0 <= List.length (more_args r0)); [|lia]. induction r0 as [|y r1 IH]; [simpl; lia|].
      cbn [more_args flat_map]. fold (more_args r1). simpl. rewrite app_length. lia. }
    assert (Hfu : 2 * S (List.length (match ats with [] => [] | a :: r => a ++ more_args r end)) <= fuel).
    { unfold fuel, efuel, here. rewrite Hr, app_length. cbn [List.length]. lia. }
    destruct (expr_list_loop E fuel ats (map fexpr_tree es) [] (cs s) (mk T_NL :: r) fuel [] H2 Hr Hw I) as (c & P & Q1 & Q2 & Q3).
    { intros a Ha. specialize (Hlen a Ha). lia. }
    { lia. }
    rewrite P. cbn [rev app]. eexists. split; [reflexivity|]. apply collect_at; auto; [rewrite Q2; exact Hw | rewrite Q3; exact He].
  Qed.

  Lemma for_toks lvl lv r body q :
    toks_of_pieces (fmt_stmt fx lvl (FmtAst.SFor lv r [] body [])) ++ mk T_NL :: q
    = mk T_FOR :: mk T_WS :: (match lv with Some n => [tok_of_text n; mk T_WS; mk T_DECLARE; mk T_WS] | None => [] end)
      ++ mk T_RANGE :: mk T_WS :: list_toks lvl (range_exprs r) ++ mk T_NL :: body_toks (S lvl) false body
      ++ toks_of_pieces [Ind lvl] ++ mk T_END :: mk T_NL :: q.
  Proof.
    cbn [fmt_stmt]. unfold write_comment. cbn [is_empty]. unfold body_toks. rewrite <- range_toks.
    destruct lv as [n|]; repeat (rewrite tp_cons || rewrite toks_app); cbn [tok_of_piece app toks_of_pieces flat_map];
      change (tok_of_text k_for) with (mk T_FOR); change (tok_of_text k_range) with (mk T_RANGE);
      change (tok_of_text k_declare) with (mk T_DECLARE); change (tok_of_text k_end) with (mk T_END);
      rewrite <- ?app_assoc; cbn [app]; rewrite <- ?app_assoc; cbn [app]; rewrite ?app_nil_r; destruct lvl; reflexivity.
  Qed.

  Lemma range_exprs_ne r : range_exprs r <> [].
  Proof. destruct r as [[a|] b [c|]|e]; discriminate. Qed.

  Lemma P_for fr G lv r body Gd G1 :
    match lv with Some x => ident_text x = true /\ declare TB false x ([] :: G) = Some Gd | None => Gd = [] :: G end ->
    Forall (item_ok (envG Gd) true) (range_exprs r) ->
    use_vars (lvars (map fexpr_tree (range_exprs r))) Gd = Some G1 ->
    body_trees false body <> [] -> boks (fr_push true fr) G1 false false body ->
    P_boks (fr_push true fr) G1 false false body ->
    P_sok fr G (FmtAst.SFor lv r [] body []).
  Proof.
    intros Hlv Hall Hu Hne Hb IH lvl f s r0 Hf HST. rewrite sz_for in Hf. destruct f as [|f]; [lia|].
    rewrite for_toks in HST. rewrite stmt_tree_for, range_trees_eq.
    pose proof HST as (Hat & Hpk & N & U & A & Fr & Fn).
    cbn [parse_statement]. unfold parse_statement_body. rewrite (ST_ct _ _ _ _ _ HST). cbn [ttype mk].
    rewrite parse_for_stmt_eq.
    set (q := body_toks (S lvl) false body ++ toks_of_pieces [Ind lvl] ++ mk T_END :: mk T_NL :: r0) in *.
    set (rt := list_toks lvl (range_exprs r)) in *.
    set (s0 := push_inherit true s).
    pose proof (SS_adv _ _ _ (SS_push true _ _ _ (ST_ss _ _ _ _ HST))) as S1. fold s0 in S1.
    (* the state that stands on "range", with the loop variable declared *)
    assert (H4 : exists s4, for_loop_var B (adv s0) = (Some lv, s4) /\
                at_toks s4 (mk T_RANGE :: mk T_WS :: rt ++ mk T_NL :: q) [] /\ SS s4 Gd (fr_push true fr)).
    { unfold for_loop_var. destruct lv as [x|].
      - destruct Hlv as [Hx Hd]. rewrite (ident_text_spec x Hx) in HST. cbn [app] in HST.
        destruct HST as (Hat' & _).
        pose proof (adv_at s0 (mk T_FOR) (mk T_WS :: ident_tok x :: mk T_WS :: mk T_DECLARE :: mk T_WS :: mk T_RANGE :: mk T_WS :: rt ++ mk T_NL :: q) [] Hat') as A1.
        cbn [skip1 is_ws ttype mk] in A1.
        set (s1 := adv s0) in *. destruct S1 as (N1 & U1 & Ab1 & Fr1 & Fn1).
        assert (C1 : ct s1 = T_IDENT) by (exact (at_ct _ _ _ _ A1)).
        assert (Cu : tlit (cur (cs s1)) = x) by (destruct A1 as (R1 & _); unfold cur; rewrite R1; reflexivity).
        rewrite C1, Cu. cbv zeta. change (toktype_beq T_IDENT T_IDENT) with true. cbv iota.
        assert (Hdne : declare TB false x ([] :: G) <> None) by (rewrite Hd; discriminate).
        destruct (declare_decl_ok x s1 ([] :: G) Ab1 Fn1 Hdne) as (D1 & D2 & D3 & D4).
        assert (Hvd : validate_var_decl B x (pos s1) false s1 = (true, s1)).
        { unfold validate_var_decl. rewrite D1, D2, D3. cbn [negb andb]. rewrite D4. reflexivity. }
        rewrite Hvd.
        pose proof (declare_sim B x (pos s1) false s1 ltac:(rewrite Hvd; reflexivity) N1) as Hds.
        rewrite Fn1, Ab1 in Hds. fold TB in Hds. rewrite Hd in Hds. injection Hds as Hds.
        set (s2 := scope_set x (pos s1) s1) in *.
        assert (A2 : at_toks s2 (ident_tok x :: mk T_WS :: mk T_DECLARE :: mk T_WS :: mk T_RANGE :: mk T_WS :: rt ++ mk T_NL :: q) []).
        { unfold s2, scope_set. rewrite D4. destruct (scs s1); [exact A1|]. exact A1. }
        pose proof (adv_at s2 _ _ [] A2) as A3. cbn [skip1 is_ws ttype mk ident_tok] in A3.
        rewrite (passert_ok T_DECLARE (adv s2)); [|exact (at_ct _ _ _ _ A3)]. cbn [snd].
        eexists. split; [reflexivity|]. split; [exact (adv_at (adv s2) _ _ [] A3)|].
        apply SS_adv, SS_adv. unfold s2.
        split; [eapply scs_of_frames; [apply frames_scope_set | exact N1]|]. split; [rewrite sused_scope_set; exact U1|].
        split; [symmetry; exact Hds|]. split; [rewrite frames_scope_set; exact Fr1 | rewrite fns_scope_set; exact Fn1].
      - subst Gd. cbn [app] in HST. destruct HST as (Hat' & _).
        pose proof (adv_at s0 (mk T_FOR) (mk T_WS :: mk T_RANGE :: mk T_WS :: rt ++ mk T_NL :: q) [] Hat') as A1.
        cbn [skip1 is_ws ttype mk] in A1.
        assert (C1 : ct (adv s0) = T_RANGE) by (exact (at_ct _ _ _ _ A1)).
        rewrite C1. eexists. split; [reflexivity|]. split; [exact A1 | exact S1]. }
    destruct H4 as (s4 & E4 & A4 & N4 & U4 & Ab4 & Fr4 & Fn4).
    fold s0. rewrite E4. cbv beta iota zeta.
    rewrite (passert_ok T_RANGE s4); [|exact (at_ct _ _ _ _ A4)]. cbv beta iota. cbn [negb].
    pose proof (adv_at s4 _ _ [] A4) as A6. cbn [skip1 is_ws ttype mk] in A6.
    assert (Hall' : Forall (item_ok (env_of B (adv s4)) true) (range_exprs r)).
    { rewrite (env_of_abs (adv s4)); [|rewrite fns_adv; exact Fn4]. rewrite abs_adv, Ab4. exact Hall. }
    destruct (p_expr_list_value lvl (adv s4) (range_exprs r) q [] (range_exprs_ne r) Hall' A6) as (s7 & PL & A7).
    rewrite PL. cbv beta iota.
    assert (Q7 : serrs s7 = []) by (destruct A7 as (_ & _ & E7); exact E7).
    destruct (p_expr_list_full B (adv s4) _ s7 PL Q7 ltac:(rewrite sused_adv; exact U4)) as (_ & Hu7 & Fn7 & U7).
    destruct (p_expr_list_sn B (adv s4) _ s7 PL Q7) as (_ & Fr7).
    rewrite abs_adv, Ab4, Hu in Hu7. injection Hu7 as HG1.
    destruct (map fexpr_tree (range_exprs r)) as [|n more] eqn:En.
    { exfalso. destruct (range_exprs r) eqn:Er; [exact (range_exprs_ne r Er)|discriminate En]. }
    unfold tyerr_s. rewrite !BT. rewrite andb_false_r. rewrite (assert_eol_nl s7 q [] A7).
    assert (HST2 : ST (apnl s7) (skip1 q) G1 (fr_push true fr)).
    { split; [exact (apnl_nl s7 q [] A7)|]. split; [exact (apnl_peek s7 q [] A7)|].
      split; [eapply scs_of_frames; [exact Fr7|]; unfold adv, upd; cbn [with_cs scs]; exact N4|]. split; [rewrite sused_apnl; exact U7|].
      split; [rewrite abs_apnl; symmetry; exact HG1|].
      split; [rewrite frames_apnl, Fr7, frames_adv; exact Fr4 | rewrite fns_apnl, Fn7, fns_adv; exact Fn4]. }
    destruct (block_rt lvl f false (apnl s7) body (toks_of_pieces [Ind lvl] ++ mk T_END :: mk T_NL :: r0) (mk T_END) (mk T_NL :: r0) G1 (fr_push true fr)
                Hb IH Hne ltac:(lia) (end_toks lvl _) eq_refl HST2) as (s3 & G' & PB & HST3 & _).
    rewrite PB. cbv beta iota.
    destruct (finish_pop_rt s3 r0 G' _ HST3) as (A9 & P9).
    eexists. split; [reflexivity|]. split; [exact A9 | exact P9].
  Qed.

  Lemma roundtrip_mutual :
    (forall fr G st, sok fr G st -> P_sok fr G st) /\
    (forall fr G cbs Gout, coks fr G cbs Gout -> P_coks fr G cbs Gout) /\
    (forall fr G t e body, boks fr G t e body -> P_boks fr G t e body).
  Proof.
    exact (sok_mutind P_sok P_coks P_boks P_typed P_decl P_assign P_call P_retv P_ret P_break P_while P_for P_if P_if_else
             P_coks_nil P_coks_cons P_boks_nil P_boks_blank P_boks_cons).
  Qed.

  Theorem stmt_roundtrip : forall fr G st, sok fr G st -> P_sok fr G st.
  Proof. exact (proj1 roundtrip_mutual). Qed.

  Theorem branches_roundtrip : forall fr G cbs Gout, coks fr G cbs Gout -> P_coks fr G cbs Gout.
  Proof. exact (proj1 (proj2 roundtrip_mutual)). Qed.

  Theorem body_roundtrip : forall fr G t e body, boks fr G t e body -> P_boks fr G t e body.
  Proof. exact (proj2 (proj2 roundtrip_mutual)). Qed.

  (* the statements of a program (parseProgram's loop), without func / on *)
  Definition top_fr : frs := [(false, false, false)].

  (* like boks, at indentation 0 and with parseProgram's stricter rule: nothing at all may follow a
     statement that always terminates, so no top-level statement does *)
  Inductive poks : ctx -> bool -> list fstmt -> ctx -> Prop :=
  | poks_nil G e : poks G e [] G
  | poks_blank G e rest Gout : poks G true rest Gout -> poks G e (FmtAst.SEmpty [] :: rest) Gout
  | poks_cons G e st rest G' Gout : is_blank st = false -> sok top_fr G st -> always_terms (stmt_tree st) = false ->
      scope_stmt TB (stmt_tree st) G = Some G' -> poks G' false rest Gout -> poks G e (st :: rest) Gout.

  Lemma body_toks_cons0 e st rest : is_blank st = false ->
    body_toks 0 e (st :: rest) = toks_of_pieces (fmt_stmt fx 0 st) ++ mk T_NL :: body_toks 0 false rest.
  Proof.
    intro Hb. unfold body_toks. cbn [map stmts_loop]. rewrite Hb.
    rewrite !toks_app. cbn [toks_of_pieces flat_map tok_of_piece app]. reflexivity.
  Qed.

  Lemma skip1_start t l : start_tok t -> skip1 (t :: l) = t :: l.
  Proof. intro Hs. cbn [skip1]. rewrite (start_nws t Hs). reflexivity. Qed.

  (* parseProgram's loop on a token that is neither EOF nor opens a func / on declaration *)
  Definition stmt_first (t : toktype) : bool := match t with T_EOF | T_FUNC | T_ON => false | _ => true end.
  Lemma start_first t : start_tok t -> stmt_first (ttype t) = true.
  Proof. unfold start_tok, stmt_first. destruct (ttype t); try contradiction; reflexivity. Qed.

  Lemma program_loop_stmt f acc s r s1 : stmt_first (ct s) = true -> parse_statement B f s = Ok r s1 ->
    program_loop B (S f) acc false s =
    match r with None => program_loop B f acc false s1 | Some st => program_loop B f (st :: acc) (always_terms st) s1 end.
  Proof. intros Ht P. cbn [program_loop]. rewrite P. destruct (ct s); try discriminate Ht; reflexivity. Qed.

  Lemma program_loop_eof f acc t s : ct s = T_EOF -> program_loop B (S f) acc t s = Ok (rev acc) s.
  Proof. intro Hc. cbn [program_loop]. rewrite Hc. reflexivity. Qed.
End Blocks.
