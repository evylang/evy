(* FormatParseFuncProofs.v — C06 round trip for `func` declarations and `on` handlers, against
   Parser.parse_func / parse_event_handler / program_loop (parser.go: parseFunc, parseEventHandler,
   parseProgram) and the signature pre-pass (parseFuncSignatures).
   The formatter writes blank lines around func / on (nlAfter): the tree a re-parse gives has one
   empty statement after every index of nlAfter ([prog_trees]). *)
From Coq Require Import List String NArith ZArith Bool Arith Lia.
From EvyV Require Import Base FmtAst Format FormatProofs Pratt PrattProofs Parser ParserEqProofs ParserProofs ParserRules ParserScope ParserCursor
  FormatParse FormatParseProofs FormatParseListProofs FormatParseStmtProofs FormatParseTargetProofs FormatParseBlockProofs
  FormatParsePlainProofs.
From EvyV Require FormatNlProofs.
From EvyV.Gen Require Import Prec.
Import ListNotations.
Local Open Scope nat_scope.

(* parseStatement and its callees never touch p.funcs' bodies / p.eventHandlers *)

Definition kb (s : pst) : list str * list str := (bodies s, hds s).
Definition KB {A} (s : pst) (r : PR A) : Prop := forall a s', r = Ok a s' -> kb s' = kb s.

Lemma kb_with_cs s c : kb (with_cs s c) = kb s. Proof. reflexivity. Qed.
Lemma kb_with_scs s l : kb (with_scs s l) = kb s. Proof. reflexivity. Qed.
Lemma kb_upd f s : kb (upd f s) = kb s. Proof. reflexivity. Qed.
Lemma kb_adv s : kb (adv s) = kb s. Proof. reflexivity. Qed.
Lemma kb_apnl s : kb (apnl s) = kb s. Proof. reflexivity. Qed.
Lemma kb_serr_at k n s : kb (serr_at k n s) = kb s. Proof. reflexivity. Qed.
Lemma kb_serr k s : kb (serr k s) = kb s. Proof. reflexivity. Qed.
Lemma kb_ty_err_here t s : kb (ty_err_here t s) = kb s. Proof. reflexivity. Qed.
Lemma kb_assert_eol s : kb (assert_eol s) = kb s. Proof. unfold assert_eol. destruct (is_at_eol _); reflexivity. Qed.
Lemma kb_passert t s : kb (snd (passert t s)) = kb s. Proof. unfold passert. destruct (assert_token t (cs s)); reflexivity. Qed.
Lemma kb_scope_set n p s : kb (scope_set n p s) = kb s.
Proof. unfold scope_set. destruct (str_eqb _ _); [reflexivity|]. destruct (scs s); reflexivity. Qed.
Lemma kb_mark n s : kb (mark n s) = kb s. Proof. reflexivity. Qed.
Lemma kb_fold_mark l s : kb (fold_right mark s l) = kb s.
Proof. induction l as [|n l IH]; [reflexivity|]. cbn [fold_right]. rewrite kb_mark. exact IH. Qed.
Lemma kb_collect s c : kb (collect s c) = kb s.
Proof. unfold collect. rewrite kb_upd, kb_fold_mark. reflexivity. Qed.
Lemma kb_push_scope a b c s : kb (push_scope a b c s) = kb s. Proof. reflexivity. Qed.
Lemma kb_push_inherit b s : kb (push_inherit b s) = kb s. Proof. reflexivity. Qed.
Lemma kb_pop_scope s : kb (pop_scope s) = kb s. Proof. reflexivity. Qed.
Lemma kb_validate_scope s : kb (validate_scope s) = kb s.
Proof. apply (validate_scope_steps (fun s' => kb s' = kb s)); [intros k n s1 K; exact K | reflexivity]. Qed.
Lemma kb_validate_var_decl B n p a s : kb (snd (validate_var_decl B n p a s)) = kb s.
Proof. unfold validate_var_decl. repeat (destruct (_ : bool); try reflexivity). Qed.
Lemma kb_finish_end s : kb (finish_end s) = kb s.
Proof. unfold finish_end. rewrite kb_apnl, kb_assert_eol, kb_adv, kb_passert. reflexivity. Qed.
Lemma kb_upd_err e n s : kb (upd (add_err_at e n) s) = kb s. Proof. reflexivity. Qed.

#[local] Hint Rewrite kb_with_cs kb_with_scs kb_upd kb_adv kb_apnl kb_serr_at kb_serr kb_ty_err_here kb_assert_eol kb_passert
  kb_scope_set kb_mark kb_collect kb_push_scope kb_push_inherit kb_pop_scope kb_validate_scope kb_validate_var_decl
  kb_finish_end kb_upd_err : kb.

Lemma passert_kb t s ok s' : passert t s = (ok, s') -> kb s' = kb s.
Proof. intro H. pose proof (kb_passert t s) as X. rewrite H in X. exact X. Qed.
Lemma vvd_kb B n p a s ok s' : validate_var_decl B n p a s = (ok, s') -> kb s' = kb s.
Proof. intro H. pose proof (kb_validate_var_decl B n p a s) as X. rewrite H in X. exact X. Qed.
Lemma expr_call_kb B {A} (f : env -> nat -> pstate -> res A) s : KB s (expr_call B f s).
Proof.
  intros a s' H. unfold expr_call in H. destruct (f _ _ _) as [[x c]|]; [|discriminate H].
  apply Ok_inj in H as [-> ->]. apply kb_collect.
Qed.

Ltac kb_fin H :=
  apply Ok_inj in H; destruct H; subst; autorewrite with kb;
  repeat match goal with Hf : kb ?x = kb _ |- _ => rewrite Hf; clear Hf; autorewrite with kb end;
  try reflexivity; try congruence.

Section Keep.
  Variable B : benv.

  Lemma p_type_kb s : KB s (p_type B s). Proof. apply expr_call_kb. Qed.
  Lemma p_toplevel_kb s : KB s (p_toplevel B s). Proof. apply expr_call_kb. Qed.
  Lemma p_expr_list_kb s : KB s (p_expr_list B s). Proof. apply expr_call_kb. Qed.
  Lemma p_func_call_kb n s : KB s (p_func_call B n s). Proof. apply expr_call_kb. Qed.
  Lemma p_index_kb l s : KB s (p_index B l s). Proof. apply expr_call_kb. Qed.
  Lemma p_dot_kb l s : KB s (p_dot B l s). Proof. apply expr_call_kb. Qed.

  (* These three split on the sub-parser's result in the goal, not in a hypothesis: a hypothesis keeps its folded
     type in the proof term, and checking it against the unfolded `match` unfolds the Pratt parser. *)
  Lemma typed_decl_kb s : KB s (parse_typed_decl B s).
  Proof.
    unfold KB, parse_typed_decl.
    destruct (p_type B _) as [t s2| |] eqn:P; try discriminate. apply p_type_kb in P.
    intros a s' H. destruct t; kb_fin H.
  Qed.

  Lemma typed_decl_stmt_kb s : KB s (parse_typed_decl_stmt B s).
  Proof.
    unfold KB, parse_typed_decl_stmt.
    destruct (parse_typed_decl B s) as [[[n p] t] s1| |] eqn:P; try discriminate. apply typed_decl_kb in P.
    intros a s' H. destruct t as [t|]; [|kb_fin H].
    destruct (validate_var_decl B n p false s1) as [ok s2] eqn:V. apply vvd_kb in V. destruct ok; kb_fin H.
  Qed.

  Lemma inferred_decl_stmt_kb s : KB s (parse_inferred_decl_stmt B s).
  Proof.
    unfold KB, parse_inferred_decl_stmt.
    destruct (p_toplevel B _) as [v s2| |] eqn:P; try discriminate. apply p_toplevel_kb in P.
    intros a s' H. destruct v as [t|]; [|kb_fin H].
    destruct (tyerr_s B _ _ _); [kb_fin H|].
    destruct (validate_var_decl B _ _ false s2) as [ok s3] eqn:V. apply vvd_kb in V. destruct ok; kb_fin H.
  Qed.

  Lemma assign_target_loop_kb : forall fuel tok n s, KB s (assign_target_loop B fuel tok n s).
  Proof.
    induction fuel as [|f IH]; intros tok n s a s' H; [discriminate|]. rewrite assign_target_loop_eq in H.
    destruct (toktype_beq (ct s) T_LBRACKET); [|destruct (toktype_beq (ct s) T_DOT); [|kb_fin H]].
    - destruct (tyerr_s B _ _ _); [kb_fin H|].
      destruct (p_index B n s) as [r s1| |] eqn:P; try discriminate H. apply p_index_kb in P.
      destruct r as [n'|]; [apply IH in H; congruence|kb_fin H].
    - destruct (p_dot B n s) as [r s1| |] eqn:P; try discriminate H. apply p_dot_kb in P.
      destruct r as [n'|]; [apply IH in H; congruence|kb_fin H].
  Qed.

  Lemma assign_target_kb s : KB s (parse_assign_target B s).
  Proof.
    intros a s' H. unfold parse_assign_target in H.
    destruct (str_eqb _ _); [kb_fin H|]. destruct (negb _); [kb_fin H|].
    apply assign_target_loop_kb in H. rewrite H. reflexivity.
  Qed.

  Lemma assign_stmt_kb s : KB s (parse_assign_stmt B s).
  Proof.
    intros a s' H. unfold parse_assign_stmt in H.
    destruct (is_func _ s); [kb_fin H|].
    destruct (parse_assign_target B s) as [tg s1| |] eqn:P; try discriminate H. apply assign_target_kb in P.
    destruct tg as [target|]; [|kb_fin H].
    destruct (p_toplevel B _) as [v s3| |] eqn:P2; try discriminate H. apply p_toplevel_kb in P2.
    destruct v as [value|]; [|kb_fin H].
    destruct (tyerr_s B _ _ _); kb_fin H.
  Qed.

  Lemma call_stmt_kb s : KB s (parse_call_stmt B s).
  Proof.
    intros a s' H. unfold parse_call_stmt in H.
    destruct (lookup_fn _ _) as [fi|]; [|discriminate H].
    destruct (p_func_call B (fi_nil fi) s) as [x s1| |] eqn:P; try discriminate H. apply p_func_call_kb in P.
    destruct x; [|discriminate H]. kb_fin H.
  Qed.

  Lemma return_stmt_kb s : KB s (parse_return_stmt B s).
  Proof.
    intros a s' H. unfold parse_return_stmt in H. cbv zeta in H.
    destruct (is_at_eol (cs (adv s))).
    - apply Ok_inj in H as [_ ->]. autorewrite with kb.
      destruct (negb _); [reflexivity|]. destruct (ret_value _); reflexivity.
    - destruct (p_toplevel B (adv s)) as [r s2| |] eqn:P; try discriminate H. apply p_toplevel_kb in P.
      destruct r as [t|]; apply Ok_inj in H as [_ ->]; autorewrite with kb.
      + destruct (negb _); [autorewrite with kb; exact P|]. destruct (tyerr_s B _ _ _); autorewrite with kb; exact P.
      + destruct (negb _); autorewrite with kb; exact P.
  Qed.

  Lemma break_stmt_kb s : KB s (parse_break_stmt s).
  Proof. intros a s' H. unfold parse_break_stmt in H. apply Ok_inj in H as [_ ->]. destruct (in_loop s); reflexivity || (autorewrite with kb; reflexivity). Qed.

  Lemma condition_kb s : KB s (parse_condition B s).
  Proof.
    intros a s' H. unfold parse_condition in H.
    destruct (p_toplevel B s) as [c s1| |] eqn:P; try discriminate H. apply p_toplevel_kb in P.
    destruct c as [t|]; [|kb_fin H]. destruct (tyerr_s B _ _ _); kb_fin H.
  Qed.

  Lemma empty_stmt_kb s : KB s (parse_empty_stmt s).
  Proof. intros a s' H. unfold parse_empty_stmt in H. destruct (ct s); try discriminate H; kb_fin H. Qed.

  Section KOpen.
    Variable ps : pst -> PR (option stmt).
    Hypothesis Hps : forall s, KB s (ps s).

    Lemma block_loop_kb : forall fuel els acc terms s, KB s (block_loop ps fuel els acc terms s).
    Proof.
      induction fuel as [|f IH]; intros els acc terms s a s' H; [discriminate|]. cbn [block_loop] in H.
      destruct (match ct s with T_END | T_EOF => true | T_ELSE => els | _ => false end); [kb_fin H|].
      destruct (ps s) as [r s1| |] eqn:P; try discriminate H. apply Hps in P.
      destruct r as [st|]; [|apply IH in H; congruence].
      destruct (terms && negb (is_empty_stmt st)); apply IH in H; autorewrite with kb in H; congruence.
    Qed.

    Lemma block_with_kb fuel els s : KB s (parse_block_with ps fuel els s).
    Proof.
      intros a s' H. unfold parse_block_with in H.
      destruct (block_loop ps fuel els [] false s) as [b s1| |] eqn:P; try discriminate H. apply block_loop_kb in P.
      apply Ok_inj in H as [_ ->]. rewrite kb_validate_scope. destruct b as [[|? ?] ?]; autorewrite with kb; exact P.
    Qed.

    Lemma for_stmt_kb fuel s : KB s (parse_for_stmt B ps fuel s).
    Proof.
      intros a s' H. rewrite parse_for_stmt_eq in H.
      set (s1 := adv (push_inherit true s)) in *.
      assert (K1 : kb s1 = kb s) by reflexivity.
      destruct (for_loop_var B s1) as [o s4] eqn:LV. unfold for_loop_var in LV.
      assert (K4 : kb s4 = kb s).
      { destruct (toktype_beq (ct s1) T_IDENT); [|injection LV as _ <-; exact K1].
        destruct (validate_var_decl B _ _ false s1) as [ok s2] eqn:V. apply vvd_kb in V.
        destruct ok; injection LV as _ <-; autorewrite with kb; congruence. }
      destruct o as [v|]; [|kb_fin H].
      destruct (passert T_RANGE s4) as [ok s5] eqn:A. apply passert_kb in A.
      destruct ok; cbn [negb] in H; [|kb_fin H].
      destruct (p_expr_list B (adv s5)) as [ns s7| |] eqn:P; try discriminate H. apply p_expr_list_kb in P. autorewrite with kb in P.
      destruct (match ns with Some l => l | None => [] end) as [|n more]; [kb_fin H|].
      destruct (_ && _); [kb_fin H|].
      match type of H with (pdo (b, s10) <- ?m; _) = _ => destruct m as [b s10| |] eqn:PB end; try discriminate H.
      apply block_with_kb in PB. autorewrite with kb in PB.
      match type of PB with kb _ = kb (if ?c then _ else _) => destruct c end; autorewrite with kb in PB; kb_fin H.
    Qed.

    Lemma while_stmt_kb fuel s : KB s (parse_while_stmt B ps fuel s).
    Proof.
      intros a s' H. unfold parse_while_stmt in H.
      destruct (parse_condition B _) as [c s2| |] eqn:P; try discriminate H. apply condition_kb in P.
      destruct (parse_block_with ps fuel false (apnl s2)) as [b s3| |] eqn:PB; try discriminate H. apply block_with_kb in PB.
      autorewrite with kb in *. kb_fin H.
    Qed.

    Lemma if_cond_block_kb fuel s : KB s (parse_if_cond_block B ps fuel s).
    Proof.
      intros a s' H. unfold parse_if_cond_block in H.
      destruct (parse_condition B _) as [c s2| |] eqn:P; try discriminate H. apply condition_kb in P.
      destruct (parse_block_with ps fuel true (apnl s2)) as [b s3| |] eqn:PB; try discriminate H. apply block_with_kb in PB.
      autorewrite with kb in *. kb_fin H.
    Qed.

    Lemma else_if_loop_kb : forall fuel bfuel acc s, KB s (else_if_loop B ps fuel bfuel acc s).
    Proof.
      induction fuel as [|f IH]; intros bfuel acc s a s' H; [discriminate|]. rewrite else_if_loop_eq in H.
      destruct (_ && _); [|kb_fin H].
      destruct (parse_if_cond_block B ps bfuel (adv s)) as [cb s1| |] eqn:P; try discriminate H. apply if_cond_block_kb in P.
      apply IH in H. autorewrite with kb in P. congruence.
    Qed.

    Lemma if_stmt_kb fuel s : KB s (parse_if_stmt B ps fuel s).
    Proof.
      intros a s' H. unfold parse_if_stmt in H.
      destruct (parse_if_cond_block B ps fuel s) as [cb s1| |] eqn:P1; try discriminate H. apply if_cond_block_kb in P1.
      destruct (else_if_loop B ps (S (pos s1)) fuel [cb] s1) as [brs s2| |] eqn:P2; try discriminate H. apply else_if_loop_kb in P2.
      match type of H with (pdo (els, s3) <- ?m; _) = _ => destruct m as [els s3| |] eqn:P3 end; try discriminate H.
      assert (K3 : kb s3 = kb s2).
      { destruct (ct s2); try (apply Ok_inj in P3 as [_ ->]; reflexivity).
        destruct (parse_block_with ps fuel false _) as [b s4| |] eqn:PB; try discriminate P3. apply block_with_kb in PB.
        autorewrite with kb in PB. apply Ok_inj in P3 as [_ ->]. autorewrite with kb. exact PB. }
      kb_fin H.
    Qed.

    Lemma statement_body_kb fuel s : KB s (parse_statement_body B ps fuel s).
    Proof.
      assert (E : forall s1, kb s1 = kb s -> KB s (Ok (@None stmt) s1)) by (intros s1 K a s' H; apply Ok_inj in H as [_ <-]; exact K).
      apply statement_body_cases; intros.
      - apply E, kb_adv.
      - apply empty_stmt_kb.
      - apply assign_stmt_kb.
      - apply typed_decl_stmt_kb.
      - apply inferred_decl_stmt_kb.
      - apply call_stmt_kb.
      - apply E. reflexivity.
      - apply return_stmt_kb.
      - apply break_stmt_kb.
      - apply for_stmt_kb.
      - apply while_stmt_kb.
      - apply if_stmt_kb.
      - apply E. reflexivity.
    Qed.
  End KOpen.

  Theorem stmt_kb : forall fuel s, KB s (parse_statement B fuel s).
  Proof.
    induction fuel as [|f IH]; intros s a s' H; [discriminate|]. cbn [parse_statement] in H.
    exact (statement_body_kb (parse_statement B f) IH f s a s' H).
  Qed.

  Lemma parse_block_kb fuel s : KB s (parse_block B fuel s).
  Proof. unfold parse_block. apply block_with_kb. apply stmt_kb. Qed.

  Lemma on_params_loop_kb : forall fuel acc s, KB s (on_params_loop B fuel acc s).
  Proof.
    induction fuel as [|f IH]; intros acc s a s' H; [discriminate|]. cbn [on_params_loop] in H.
    destruct (is_at_eol (cs s)); [apply Ok_inj in H as [_ ->]; reflexivity|].
    destruct (parse_typed_decl B (snd (passert T_IDENT s))) as [d s1| |] eqn:P; try discriminate H.
    apply typed_decl_kb in P. apply IH in H. rewrite kb_passert in P. congruence.
  Qed.
End Keep.

(* advancePastNL over the rest of a header line: [hdr_ok] is what it has to skip *)
Definition solid (t : token) : bool := match ttype t with T_WS | T_NL | T_EOF => false | _ => true end.
(* no NL / EOF, and every blank is followed by a token that is neither *)
Fixpoint hdr_ok (l : list token) : bool :=
  match l with
  | [] => true
  | t :: r => match ttype t with
              | T_NL | T_EOF => false
              | T_WS => match r with t2 :: _ => solid t2 | [] => false end && hdr_ok r
              | _ => hdr_ok r
              end
  end.

Lemma hdr_ok_solid w l : forallb solid w = true -> hdr_ok (w ++ l) = hdr_ok l.
Proof.
  induction w as [|t w IH]; intro H; [reflexivity|]. cbn [forallb] in H. apply andb_true_iff in H as [H1 H2].
  cbn [app hdr_ok]. unfold solid in H1. destruct (ttype t); try discriminate H1; exact (IH H2).
Qed.
Lemma hdr_ok_ws t w l : solid t = true -> forallb solid w = true -> hdr_ok (mk T_WS :: t :: w ++ l) = hdr_ok l.
Proof.
  intros H1 H2.
  assert (E : hdr_ok (mk T_WS :: t :: w ++ l) = hdr_ok ((t :: w) ++ l)).
  { change (hdr_ok (mk T_WS :: t :: w ++ l)) with (solid t && hdr_ok ((t :: w) ++ l)). rewrite H1. reflexivity. }
  rewrite E. apply hdr_ok_solid. cbn [forallb]. rewrite H1, H2. reflexivity.
Qed.

Lemma hdr_step t l' q : hdr_ok (t :: l') = true ->
  exists l'', skip1 (l' ++ mk T_NL :: q) = l'' ++ mk T_NL :: q /\ hdr_ok l'' = true /\ List.length l'' <= List.length l'.
Proof.
  intro H.
  assert (H' : hdr_ok l' = true /\ (is_ws t = true -> match l' with t2 :: _ => solid t2 = true | [] => False end)).
  { cbn [hdr_ok] in H. unfold is_ws. destruct (ttype t); try discriminate H; try (split; [exact H|intro X; discriminate X]).
    apply andb_true_iff in H as [H1 H2]. split; [exact H2|]. intros _. destruct l'; [discriminate H1|exact H1]. }
  destruct H' as [Hl _]. destruct l' as [|t2 r2].
  - exists []. cbn. auto.
  - cbn [app skip1]. destruct (is_ws t2) eqn:W.
    + cbn [hdr_ok] in Hl. unfold is_ws in W. destruct (ttype t2); try discriminate W.
      apply andb_true_iff in Hl as [H1 H2]. destruct r2 as [|t3 r3]; [discriminate H1|].
      exists (t3 :: r3). split; [reflexivity|]. split; [exact H2|]. cbn; lia.
    + exists (t2 :: r2). split; [reflexivity|]. split; [exact Hl|]. lia.
Qed.

Lemma apnl_loop_hdr : forall n l c q, List.length l < n -> hdr_ok l = true ->
  rest c = l ++ mk T_NL :: q -> wss c = [false] ->
  rest (apnl_loop n c) = skip1 q /\ wss (apnl_loop n c) = [false] /\ errs (apnl_loop n c) = errs c /\
  peek (apnl_loop n c) = peek_of (skip1 q).
Proof.
  induction n as [|n IH]; intros l c q Hn Hh Hr Hw; [lia|].
  assert (Hw' : is_wss c = false) by (unfold is_wss; rewrite Hw; reflexivity).
  destruct l as [|t l'].
  - cbn [app] in Hr. cbn [apnl_loop]. unfold cur_t, cur. rewrite Hr. cbn [look0 hd ttype mk].
    destruct (advance_skip1 c (mk T_NL) q Hw' Hr) as (A1 & A2 & A3). rewrite A1, A2, A3.
    repeat split; auto. exact (advance_peek c (mk T_NL) q Hw' Hr).
  - cbn [app] in Hr. destruct (hdr_step t l' q Hh) as (l'' & E & Hh'' & Hlen).
    destruct (advance_skip1 c t (l' ++ mk T_NL :: q) Hw' Hr) as (A1 & A2 & A3).
    assert (Hstep : apnl_loop (S n) c = apnl_loop n (advance c)).
    { cbn [apnl_loop]. unfold cur_t, cur. rewrite Hr. cbn [look0 hd]. cbn [hdr_ok] in Hh.
      destruct (ttype t); try reflexivity; discriminate Hh. }
    rewrite Hstep. rewrite E in A1. rewrite Hw in A2.
    destruct (IH l'' (advance c) q ltac:(cbn [List.length] in Hn; lia) Hh'' A1 A2) as (R1 & R2 & R3 & R4).
    rewrite R1, R2, R3, R4, A3. auto.
Qed.

Lemma apnl_loop_line : forall n l c q, List.length l < n -> hdr_ok l = true ->
  rest c = l ++ mk T_NL :: q -> wss c = [false] -> is_ws (look0 (skip1 q)) = false ->
  rest (apnl_loop n c) = skip1 q /\ wss (apnl_loop n c) = [false] /\ errs (apnl_loop n c) = errs c /\
  peek (apnl_loop n c) = peek_of (skip1 q).
Proof. intros n l c q Hn Hh Hr Hw _. exact (apnl_loop_hdr n l c q Hn Hh Hr Hw). Qed.

Section Funcs.
  Variable B : benv.
  Hypothesis BT : forall s t n, b_tyerr B s t n = false.
  Variable fx : fixes.
  Variable F : list (str * finfo).
  Let TB := tabs_of B F.

  Lemma apnl_line s l q e : at_toks s (l ++ mk T_NL :: q) e -> hdr_ok l = true ->
    at_toks (apnl s) (skip1 q) e /\ peek_ok (apnl s) (skip1 q).
  Proof.
    intros (Hr & Hw & He) Hh. unfold apnl, upd, at_toks, peek_ok. cbn [with_cs cs].
    destruct (apnl_loop_hdr (S (here (cs s))) l (cs s) q) as (R1 & R2 & R3 & R4); auto.
    { unfold here. rewrite Hr, app_length. cbn [List.length]. lia. }
    rewrite R1, R2, R3, R4. auto.
  Qed.

  Definition param_okb (p : str * fty) : bool :=
    ident_text (fst p) && match fty_ty (snd p) with Some _ => true | None => false end.
  Definition ty_toks (t : fty) : list token := match fty_ty t with Some ty => render_ty ty | None => [] end.
  Definition param_toks (p : str * fty) : list token := ident_tok (fst p) :: mk T_COLON :: ty_toks (snd p).
  Definition params_toks (ps : list (str * fty)) : list token := flat_map (fun p => mk T_WS :: param_toks p) ps.

  Lemma render_ty_solid ty : forallb solid (render_ty ty) = true.
  Proof. induction ty; cbn [render_ty forallb]; try reflexivity; exact IHty. Qed.
  Lemma ty_toks_solid t : forallb solid (ty_toks t) = true.
  Proof. unfold ty_toks. destruct (fty_ty t); [apply render_ty_solid|reflexivity]. Qed.

  Lemma toks_decl p : param_okb p = true -> toks_of_pieces (write_decl (fst p) (snd p)) = param_toks p.
  Proof.
    unfold param_okb. intro H. apply andb_true_iff in H as [H1 H2]. destruct (fty_ty (snd p)) as [ty|] eqn:E; [|discriminate H2].
    unfold write_decl, param_toks, ty_toks. rewrite toks_app. cbn [toks_of_pieces flat_map tok_of_piece app].
    rewrite (ident_text_spec _ H1). change (tok_of_text k_colon) with (mk T_COLON). rewrite E.
    fold (toks_of_pieces (fmt_type (snd p))). rewrite (toks_fmt_type _ ty E). reflexivity.
  Qed.

  Lemma toks_params ps : forallb param_okb ps = true -> toks_of_pieces (fmt_params ps) = params_toks ps.
  Proof.
    induction ps as [|p ps IH]; intro H; [reflexivity|]. cbn [forallb] in H. apply andb_true_iff in H as [H1 H2].
    unfold fmt_params, params_toks. cbn [flat_map]. rewrite toks_app. fold (fmt_params ps). fold (params_toks ps). rewrite (IH H2).
    change (Sp :: write_decl (fst p) (snd p)) with ([Sp] ++ write_decl (fst p) (snd p)). rewrite toks_app, (toks_decl p H1). reflexivity.
  Qed.

  Lemma hdr_ok_params ps l : hdr_ok (params_toks ps ++ l) = hdr_ok l.
  Proof.
    induction ps as [|p ps IH]; [reflexivity|]. unfold params_toks. cbn [flat_map]. fold (params_toks ps).
    rewrite <- app_assoc. unfold param_toks. cbn [app]. rewrite <- IH.
    change (mk T_COLON :: ty_toks (snd p) ++ params_toks ps ++ l) with ((mk T_COLON :: ty_toks (snd p)) ++ params_toks ps ++ l).
    apply hdr_ok_ws; [reflexivity|]. cbn [forallb]. apply ty_toks_solid.
  Qed.

  Definition rt_toks (rt : option fty) : list token := match rt with Some t => mk T_COLON :: ty_toks t | None => [] end.
  Definition var_toks (v : option (str * fty)) : list token :=
    match v with Some p => mk T_WS :: param_toks p ++ [mk T_DOT3] | None => [] end.
  Definition hdr_toks (rt : option fty) (ps : list (str * fty)) (v : option (str * fty)) : list token :=
    rt_toks rt ++ params_toks ps ++ var_toks v.

  Lemma hdr_ok_hdr n rt ps v : hdr_ok (ident_tok n :: hdr_toks rt ps v) = true.
  Proof.
    unfold hdr_toks. change (ident_tok n :: rt_toks rt ++ params_toks ps ++ var_toks v) with ((ident_tok n :: rt_toks rt) ++ params_toks ps ++ var_toks v).
    rewrite hdr_ok_solid; [|cbn [forallb]; destruct rt; [cbn [rt_toks forallb]; apply ty_toks_solid|reflexivity]].
    rewrite hdr_ok_params. destruct v as [p|]; [|reflexivity]. unfold var_toks, param_toks. cbn [app].
    pose proof (hdr_ok_ws (ident_tok (fst p)) (mk T_COLON :: ty_toks (snd p) ++ [mk T_DOT3]) [] eq_refl) as X.
    rewrite app_nil_r in X. apply X. cbn [forallb]. rewrite forallb_app, ty_toks_solid. reflexivity.
  Qed.

  Definition opt_okb {X} (f : X -> bool) (o : option X) : bool := match o with Some x => f x | None => true end.
  Definition rt_okb (t : fty) : bool := match fty_ty t with Some _ => true | None => false end.

  Lemma func_toks n rt ps v body r :
    ident_text n = true -> opt_okb rt_okb rt = true -> forallb param_okb ps = true -> opt_okb param_okb v = true ->
    toks_of_pieces (fmt_stmt fx 0 (FmtAst.SFunc n rt ps v [] body [])) ++ mk T_NL :: r
    = mk T_FUNC :: mk T_WS :: ident_tok n :: hdr_toks rt ps v ++ mk T_NL :: body_toks fx 1 false body ++ mk T_END :: mk T_NL :: r.
  Proof.
    intros Hn Hrt Hps Hv. cbn [fmt_stmt]. unfold write_comment. cbn [is_empty app]. unfold body_toks, hdr_toks.
    repeat (rewrite tp_cons || rewrite toks_app). rewrite (toks_params ps Hps).
    cbn [tok_of_piece app]. rewrite (ident_text_spec n Hn). change (tok_of_text k_func) with (mk T_FUNC).
    assert (E1 : toks_of_pieces (match rt with Some t => T k_colon :: fmt_type t | None => [] end) = rt_toks rt).
    { destruct rt as [t|]; [|reflexivity]. cbn [opt_okb] in Hrt. unfold rt_okb in Hrt. unfold rt_toks, ty_toks.
      destruct (fty_ty t) as [ty|] eqn:E; [|discriminate Hrt]. rewrite tp_cons. cbn [tok_of_piece app].
      change (tok_of_text k_colon) with (mk T_COLON). rewrite (toks_fmt_type t ty E). reflexivity. }
    assert (E2 : toks_of_pieces (match v with Some p => Sp :: write_decl (fst p) (snd p) ++ [T k_dot3] | None => [] end) = var_toks v).
    { destruct v as [p|]; [|reflexivity]. cbn [opt_okb] in Hv. unfold var_toks. rewrite tp_cons, toks_app, (toks_decl p Hv). reflexivity. }
    rewrite E1, E2. cbn [toks_of_pieces flat_map tok_of_piece app]. change (tok_of_text k_end) with (mk T_END).
    rewrite <- ?app_assoc. cbn [app]. rewrite <- ?app_assoc. cbn [app]. rewrite ?app_nil_r. reflexivity.
  Qed.

  Lemma on_toks n ps body r :
    ident_text n = true -> forallb param_okb ps = true ->
    toks_of_pieces (fmt_stmt fx 0 (FmtAst.SOn n ps [] body [])) ++ mk T_NL :: r
    = mk T_ON :: mk T_WS :: ident_tok n :: params_toks ps ++ mk T_NL :: body_toks fx 1 false body ++ mk T_END :: mk T_NL :: r.
  Proof.
    intros Hn Hps. cbn [fmt_stmt]. unfold write_comment. cbn [is_empty app]. unfold body_toks.
    repeat (rewrite tp_cons || rewrite toks_app). rewrite (toks_params ps Hps).
    cbn [tok_of_piece app]. rewrite (ident_text_spec n Hn). change (tok_of_text k_on) with (mk T_ON).
    cbn [toks_of_pieces flat_map tok_of_piece app]. change (tok_of_text k_end) with (mk T_END).
    rewrite <- ?app_assoc. cbn [app]. rewrite <- ?app_assoc. cbn [app]. rewrite ?app_nil_r. reflexivity.
  Qed.

  (* addParamsToScope on a parameter list the scope checker accepts *)
  Lemma cs_scope_set n p s : cs (scope_set n p s) = cs s.
  Proof. unfold scope_set. destruct (str_eqb _ _); [reflexivity|]. destruct (scs s); reflexivity. Qed.

  Lemma vvd_param n p s G' : fns s = F -> declare TB true n (abs s) = Some G' -> validate_var_decl B n p true s = (true, s).
  Proof.
    intros Fn H. unfold declare in H. destruct (abs s) as [|f r] eqn:A; [discriminate H|].
    destruct (mem_str n (t_globals TB)) eqn:E1; [discriminate H|].
    destruct (fhas n f) eqn:E2; [discriminate H|].
    destruct (mem_str n (t_funcs TB)) eqn:E3; [discriminate H|].
    unfold validate_var_decl. cbn [t_globals TB tabs_of] in E1. rewrite E1.
    rewrite in_local_abs, A, E2. rewrite is_func_tabs, Fn. cbn [t_funcs TB tabs_of] in E3. rewrite E3. reflexivity.
  Qed.

  (* declaring a parameter the scope checker accepts *)
  Lemma param_declared n p s G G' fr : SS F s G fr -> declare TB true n G = Some G' ->
    validate_var_decl B n p true s = (true, s) /\ SS F (scope_set n p s) G' fr.
  Proof.
    intros (N & U & A & Fr & Fn) D. rewrite <- A in D. pose proof (vvd_param n p s G' Fn D) as V. split; [exact V|].
    pose proof (declare_sim B n p true s ltac:(rewrite V; reflexivity) N) as Ds. rewrite Fn in Ds. fold TB in Ds. rewrite D in Ds. injection Ds as Ds.
    split; [eapply scs_of_frames; [apply frames_scope_set|exact N]|]. split; [rewrite sused_scope_set; exact U|].
    split; [symmetry; exact Ds|]. split; [rewrite frames_scope_set; exact Fr | rewrite fns_scope_set; exact Fn].
  Qed.

  Lemma add_params_ok : forall l s G G1 fr, SS F s G fr -> declare_all TB (map fst l) G = Some G1 ->
    cs (add_params B l s) = cs s /\ kb (add_params B l s) = kb s /\ SS F (add_params B l s) G1 fr.
  Proof.
    induction l as [|[n p] l IH]; intros s G G1 fr HS H.
    - cbn [map declare_all] in H. injection H as <-. unfold add_params. cbn [fold_left]. auto.
    - cbn [map fst declare_all] in H. destruct (declare TB true n G) as [G'|] eqn:D; [|discriminate H].
      change (add_params B ((n, p) :: l) s) with (add_params B l (scope_set n p (snd (validate_var_decl B n p true s)))).
      destruct (param_declared n p s G G' fr HS D) as [V HS']. rewrite V. cbn [snd].
      destruct (IH (scope_set n p s) G' G1 fr HS' H) as (C & K & HS1).
      rewrite C, cs_scope_set, K, kb_scope_set. auto.
  Qed.

  Definition pnames (ps : list (str * fty)) (v : option (str * fty)) : list str :=
    map fst ps ++ match v with Some p => [fst p] | None => [] end.
  Definition is_some {X} (o : option X) : bool := match o with Some _ => true | None => false end.

  (* the entry of p.funcs agrees with the declaration *)
  Definition sig_ok (n : str) (rt : option fty) (ps : list (str * fty)) (v : option (str * fty)) (fi : finfo) : Prop :=
    lookup_fn n F = Some fi /\ fi_ret fi = is_some rt /\ map fst (fi_params fi) = pnames ps v.

  Definition fn_fr (retv : bool) : frs := (true, retv, false) :: top_fr.

  Lemma stmt_tree_func n rt ps v ch b ce :
    stmt_tree (FmtAst.SFunc n rt ps v ch b ce) = Parser.SFunc n (is_some rt) (pnames ps v) (blk_of (body_trees false b)).
  Proof. destruct rt; reflexivity. Qed.
  Lemma stmt_tree_on n ps ch b ce :
    stmt_tree (FmtAst.SOn n ps ch b ce) = Parser.SOn n (map fst ps) (blk_of (body_trees false b)).
  Proof. reflexivity. Qed.

  Lemma sz_func n rt ps v ch b ce : sz (FmtAst.SFunc n rt ps v ch b ce) = S (S (szl b)).
  Proof. reflexivity. Qed.
  Lemma sz_on n ps ch b ce : sz (FmtAst.SOn n ps ch b ce) = S (S (szl b)).
  Proof. reflexivity. Qed.

  Lemma ST_wf s q G fr : ST F s q G fr -> WF s.
  Proof. intros (_ & _ & N & U & _). split; assumption. Qed.

  Lemma func_rt f s n rt ps v body r G fi G1 :
    ident_text n = true -> opt_okb rt_okb rt = true -> forallb param_okb ps = true -> opt_okb param_okb v = true ->
    sig_ok n rt ps v fi -> mem_str n (bodies s) = false ->
    declare_all TB (map fst (fi_params fi)) ([] :: G) = Some G1 ->
    boks B F (fn_fr (fi_ret fi)) G1 false false body -> body_trees false body <> [] ->
    (fi_ret fi = true -> existsb always_terms (body_trees false body) = true) ->
    S (szl body) <= f ->
    ST F s (toks_of_pieces (fmt_stmt fx 0 (FmtAst.SFunc n rt ps v [] body [])) ++ mk T_NL :: r) G top_fr ->
    exists s', parse_func B f s = Ok (Some (stmt_tree (FmtAst.SFunc n rt ps v [] body []))) s' /\ at_toks s' (skip1 r) [] /\ peek_ok s' (skip1 r) /\ kb s' = (n :: bodies s, hds s).
  Proof.
    intros Hn Hrt Hps Hv (Hfi & Hret & Hpn) Hbd Hdecl Hb Hne Hterm Hf HST.
    rewrite (func_toks n rt ps v body r Hn Hrt Hps Hv) in HST. rewrite stmt_tree_func.
    pose proof HST as (Hat & Hpk & N & U & A & Fr & Fn).
    unfold parse_func. cbv zeta.
    (* func -> name *)
    assert (A1 : at_toks (adv s) (ident_tok n :: hdr_toks rt ps v ++ mk T_NL :: body_toks fx 1 false body ++ mk T_END :: mk T_NL :: r) [])
      by exact (adv_at s (mk T_FUNC) _ [] Hat).
    assert (C1 : ct (adv s) = T_IDENT) by (exact (at_ct _ _ _ _ A1)).
    assert (Cu : tlit (cur (cs (adv s))) = n) by (destruct A1 as (R1 & _); unfold cur; rewrite R1; reflexivity).
    rewrite C1, Cu. cbv beta iota.
    set (q := body_toks fx 1 false body ++ mk T_END :: mk T_NL :: r) in *.
    destruct (apnl_line (adv s) (ident_tok n :: hdr_toks rt ps v) q [] A1 (hdr_ok_hdr n rt ps v)) as (A2 & P2).
    change (fns (apnl (adv s))) with (fns s). rewrite Fn, Hfi.
    set (s2 := push_scope true (fi_ret fi) false (apnl (adv s))).
    destruct (add_params_ok (fi_params fi) s2 ([] :: G) G1 (fn_fr (fi_ret fi))) as (C3 & K3 & S3); [|exact Hdecl|].
    { apply SS_push_scope, SS_apnl, SS_adv, (ST_ss F _ _ _ _ HST). }
    set (s3 := add_params B (fi_params fi) s2) in *.
    assert (HST3 : ST F s3 (skip1 q) G1 (fn_fr (fi_ret fi))).
    { apply ss_ST; [unfold at_toks; rewrite C3; exact A2 | unfold peek_ok; rewrite C3; exact P2 | exact S3]. }
    destruct (block_rt B fx F 0 f false s3 body (mk T_END :: mk T_NL :: r) (mk T_END) (mk T_NL :: r) G1 (fn_fr (fi_ret fi))
                Hb (body_roundtrip B BT fx F _ _ _ _ _ Hb) Hne Hf eq_refl eq_refl HST3) as (s4 & G' & PB & HST4 & _).
    unfold parse_block. rewrite PB. cbv beta iota.
    assert (K4 : kb s4 = kb s).
    { rewrite (block_with_kb (parse_statement B f) (stmt_kb B f) f false s3 _ s4 PB), K3. reflexivity. }
    assert (Hb4 : bodies s4 = bodies s) by (injection K4 as X _; exact X).
    rewrite Hb4, Hbd. cbn [negb]. cbv beta iota.
    assert (MR : fi_ret fi && negb (block_terms (blk_of (body_trees false body))) = false).
    { destruct (fi_ret fi); [|reflexivity]. cbn [blk_of block_terms andb]. rewrite (Hterm eq_refl). reflexivity. }
    rewrite MR.
    destruct (finish_end_rt F s4 r G' _ HST4) as (A5 & P5).
    eexists. split; [rewrite Hret, Hpn; reflexivity|]. split; [exact A5|]. split; [exact P5|].
    unfold kb. cbn [pop_scope with_scs bodies hds]. f_equal; [f_equal|].
    - change (bodies (finish_end s4)) with (fst (kb (finish_end s4))). rewrite kb_finish_end, K4. reflexivity.
    - change (hds (finish_end s4)) with (snd (kb (finish_end s4))). rewrite kb_finish_end, K4. reflexivity.
  Qed.

  Lemma ty_eqb_rfl t : ty_eqb t t = true.
  Proof. induction t; cbn [ty_eqb]; auto. Qed.

  (* name:type  as parseTypedDecl reads it (a parameter of an event handler) *)
  Lemma typed_decl_rt s x ty w rest0 e :
    at_toks s (ident_tok x :: mk T_COLON :: render_ty ty ++ wsl w ++ rest0) e -> is_ws (look0 rest0) = false ->
    exists s', parse_typed_decl B s = Ok (x, pos s, Some ty) s' /\ at_toks s' rest0 e.
  Proof.
    intros Hat Hn. destruct (typed_decl_at B s x ty w rest0 e Hat Hn) as (s' & P & A & _). exists s'. split; assumption.
  Qed.

  Definition param_ty (p : str * fty) : option ty := fty_ty (snd p).

  Lemma params_split ps q : exists w, params_toks ps ++ mk T_NL :: q = wsl w ++ skip1 (params_toks ps ++ mk T_NL :: q) /\
    is_ws (look0 (skip1 (params_toks ps ++ mk T_NL :: q))) = false.
  Proof.
    destruct ps as [|p ps]; [exists false; split; reflexivity|]. exists true. split; reflexivity.
  Qed.

  Lemma on_params_rt q : forall ps fuel acc s, forallb param_okb ps = true -> List.length ps < fuel ->
    at_toks s (skip1 (params_toks ps ++ mk T_NL :: q)) [] ->
    exists params s', on_params_loop B fuel acc s = Ok (rev acc ++ params) s' /\
      map (fun d : str * nat * option ty => fst (fst d)) params = map fst ps /\ map snd params = map param_ty ps /\
      at_toks s' (mk T_NL :: q) [].
  Proof.
    induction ps as [|p ps IH]; intros fuel acc s Hok Hfu Hat; (destruct fuel as [|fuel]; [cbn in Hfu; lia|]).
    - cbn [params_toks flat_map app skip1 is_ws ttype mk] in Hat. exists [], s. cbn [on_params_loop].
      assert (E : is_at_eol (cs s) = true) by (destruct Hat as (R & _); unfold is_at_eol, cur_t, cur; rewrite R; reflexivity).
      rewrite E, app_nil_r. auto.
    - cbn [forallb] in Hok. apply andb_true_iff in Hok as [Hp Hok]. unfold param_okb in Hp. apply andb_true_iff in Hp as [Hx Hty].
      destruct (fty_ty (snd p)) as [ty|] eqn:Ety; [|discriminate Hty].
      unfold params_toks in Hat. cbn [flat_map] in Hat. fold (params_toks ps) in Hat. rewrite <- app_assoc in Hat.
      unfold param_toks, ty_toks in Hat. rewrite Ety in Hat. cbn [app skip1 is_ws ttype mk] in Hat. rewrite <- ?app_assoc in Hat.
      destruct (params_split ps q) as (w & Ew & Hnw). rewrite Ew in Hat.
      destruct (typed_decl_rt s (fst p) ty w _ [] Hat Hnw) as (s1 & P & A1).
      cbn [on_params_loop].
      assert (E : is_at_eol (cs s) = false) by (destruct Hat as (R & _); unfold is_at_eol, cur_t, cur; rewrite R; reflexivity).
      rewrite E. rewrite (passert_ok T_IDENT s) by (exact (at_ct _ _ _ _ Hat)).
      cbn [snd]. rewrite P.
      destruct (IH fuel ((fst p, pos s, Some ty) :: acc) s1 Hok ltac:(cbn [List.length] in Hfu; lia) A1) as (params & s' & PL & M1 & M2 & A').
      exists ((fst p, pos s, Some ty) :: params), s'. split; [rewrite PL; cbn [rev]; rewrite <- app_assoc; reflexivity|].
      cbn [map fst snd]. unfold param_ty at 1. rewrite Ety, M1, M2. auto.
  Qed.

  Lemma add_event_params_ok : forall params ex s G G1 fr, SS F s G fr ->
    map snd params = map Some ex ->
    declare_all TB (map (fun d : str * nat * option ty => fst (fst d)) params) G = Some G1 ->
    cs (add_event_params B params ex s) = cs s /\ kb (add_event_params B params ex s) = kb s /\
    SS F (add_event_params B params ex s) G1 fr.
  Proof.
    induction params as [|[[n p] t] l IH]; intros ex s G G1 fr HS Hty H.
    - cbn [map declare_all] in H. injection H as <-. cbn [add_event_params]. auto.
    - destruct ex as [|e ex]; [discriminate Hty|]. cbn [map snd] in Hty. injection Hty as Ht Hty. subst t.
      cbn [map fst declare_all] in H. destruct (declare TB true n G) as [G'|] eqn:D; [|discriminate H].
      cbn [add_event_params]. destruct (param_declared n p s G G' fr HS D) as [V HS']. rewrite V. cbn [snd]. rewrite ty_eqb_rfl.
      destruct (IH ex (scope_set n p s) G' G1 fr HS' Hty H) as (C & K & HS1).
      rewrite C, cs_scope_set, K, kb_scope_set. auto.
  Qed.

  Definition hd_fr : frs := (true, false, false) :: top_fr.

  Lemma on_rt f s n ps body r G ex G1 :
    ident_text n = true -> forallb param_okb ps = true ->
    lookup_ev n (b_events B) = Some ex -> (ps = [] \/ map param_ty ps = map Some ex) -> mem_str n (hds s) = false ->
    declare_all TB (map fst ps) ([] :: G) = Some G1 ->
    boks B F hd_fr G1 false false body -> body_trees false body <> [] ->
    S (szl body) <= f ->
    ST F s (toks_of_pieces (fmt_stmt fx 0 (FmtAst.SOn n ps [] body [])) ++ mk T_NL :: r) G top_fr ->
    exists s', parse_event_handler B f s = Ok (Some (stmt_tree (FmtAst.SOn n ps [] body []))) s' /\
               at_toks s' (skip1 r) [] /\ peek_ok s' (skip1 r) /\ kb s' = (bodies s, n :: hds s).
  Proof.
    intros Hn Hps Hev Hex Hhd Hdecl Hb Hne Hf HST.
    rewrite (on_toks n ps body r Hn Hps) in HST. rewrite stmt_tree_on.
    pose proof HST as (Hat & Hpk & N & U & A & Fr & Fn).
    unfold parse_event_handler. cbv zeta.
    set (q := body_toks fx 1 false body ++ mk T_END :: mk T_NL :: r) in *.
    assert (A1 : at_toks (adv s) (ident_tok n :: params_toks ps ++ mk T_NL :: q) []) by exact (adv_at s (mk T_ON) _ [] Hat).
    rewrite (passert_ok T_IDENT (adv s)) by (exact (at_ct _ _ _ _ A1)).
    cbn [negb]. cbv beta iota.
    assert (Cu : tlit (cur (cs (adv s))) = n) by (destruct A1 as (R1 & _); unfold cur; rewrite R1; reflexivity).
    rewrite Cu. change (mem_str n (hds (adv s))) with (mem_str n (hds s)). rewrite Hhd, Hev. cbv beta iota.
    match goal with |- context[on_params_loop B _ [] (adv ?x)] => set (s3 := x) end.
    assert (E3 : cs s3 = cs (adv s) /\ kb s3 = (bodies s, n :: hds s) /\ abs s3 = abs s /\ fns s3 = fns s /\ sused s3 = sused (adv s) /\ frames s3 = frames s).
    { unfold s3. repeat split; reflexivity. }
    destruct E3 as (C3 & K3 & Ab3 & Fn3 & U3 & Fr3).
    assert (A3 : at_toks (adv s3) (skip1 (params_toks ps ++ mk T_NL :: q)) []).
    { apply (adv_at s3 (ident_tok n) _ []). unfold at_toks. rewrite C3. exact A1. }
    assert (Hlen : List.length ps < S (pos s3)).
    { unfold pos, here. rewrite C3. destruct A1 as (R1 & _). rewrite R1. cbn [List.length]. rewrite app_length.
      unfold params_toks. clear. induction ps as [|p l IH]; [cbn; lia|]. cbn [flat_map List.length]. rewrite app_length. cbn [List.length] in *. lia. }
    destruct (on_params_rt q ps (S (pos s3)) [] (adv s3) Hps Hlen A3) as (params & s4 & PL & M1 & M2 & A4).
    rewrite PL. cbn [rev app]. cbv beta iota.
    assert (Q4 : serrs s4 = []) by (destruct A4 as (_ & _ & E); exact E).
    destruct (on_params_loop_sim B _ _ _ _ _ PL Q4 ltac:(rewrite sused_adv, U3, sused_adv; exact U)) as (Ab4 & Fn4 & U4).
    destruct (on_params_loop_sn B _ _ _ _ _ PL Q4) as (_ & Fr4).
    pose proof (on_params_loop_kb B _ _ _ _ _ PL) as K4.
    set (s5 := push_scope true false false (apnl s4)).
    assert (S4 : SS F s4 G top_fr).
    { split; [eapply scs_of_frames; [exact Fr4 | exact N]|]. split; [exact U4|]. split; [rewrite Ab4; exact A|].
      split; [rewrite Fr4; exact Fr | rewrite Fn4; exact Fn]. }
    pose proof (SS_push_scope F true false false _ _ _ (SS_apnl F _ _ _ S4)) as S5. fold s5 in S5.
    assert (K5 : kb s5 = (bodies s, n :: hds s)) by (unfold s5; rewrite kb_push_scope, kb_apnl, K4, kb_adv; exact K3).
    (* the parameters *)
    set (s6 := match params, Some ex with
               | _ :: _, Some ex0 => add_event_params B params ex0 (if Nat.eqb (List.length params) (List.length ex0) then s5 else serr K_event_param_count s5)
               | _, _ => s5
               end).
    assert (H6 : cs s6 = cs s5 /\ kb s6 = kb s5 /\ SS F s6 G1 hd_fr).
    { unfold s6. destruct params as [|d ds] eqn:Ep.
      - destruct ps as [|p0 ps0]; [|discriminate M1]. cbn [map declare_all] in Hdecl. injection Hdecl as <-. auto.
      - rewrite <- Ep in *. destruct Hex as [->|Hex]; [rewrite Ep in M1; discriminate M1|].
        assert (Hl : Nat.eqb (List.length params) (List.length ex) = true).
        { apply Nat.eqb_eq. rewrite <- (map_length snd params), M2, Hex, map_length. reflexivity. }
        rewrite Hl. apply (add_event_params_ok params ex s5 ([] :: G)); [exact S5 | rewrite M2; exact Hex | rewrite M1; exact Hdecl]. }
    destruct H6 as (C6 & K6 & S6).
    assert (HST6 : ST F s6 (skip1 q) G1 hd_fr).
    { apply ss_ST; [unfold at_toks; rewrite C6; exact (apnl_nl s4 q [] A4) | unfold peek_ok; rewrite C6; exact (apnl_peek s4 q [] A4) | exact S6]. }
    destruct (block_rt B fx F 0 f false s6 body (mk T_END :: mk T_NL :: r) (mk T_END) (mk T_NL :: r) G1 hd_fr
                Hb (body_roundtrip B BT fx F _ _ _ _ _ Hb) Hne Hf eq_refl eq_refl HST6) as (s7 & G' & PB & HST7 & _).
    fold s5. fold s6. unfold parse_block. rewrite PB. cbv beta iota.
    destruct (finish_pop_rt F s7 r G' _ HST7) as (A8 & P8).
    eexists. split; [rewrite M1; reflexivity|]. split; [exact A8|]. split; [exact P8|].
    rewrite kb_pop_scope, kb_finish_end, (block_with_kb (parse_statement B f) (stmt_kb B f) f false s6 _ s7 PB), K6. exact K5.
  Qed.

  (* the tree of the re-parse: blank statements squeezed as the formatter squeezes them, and one empty
     statement where formatProgram inserts a blank line (after the statements whose index is in nlAfter) *)
  Fixpoint prog_trees (nl : list nat) (i : nat) (e : bool) (l : list fstmt) : list stmt :=
    match l with
    | [] => []
    | x :: t => if is_blank x then (if e then prog_trees nl (S i) true t else Parser.SEmpty :: prog_trees nl (S i) true t)
                else stmt_tree x :: (if mem_nat i nl then [Parser.SEmpty] else []) ++ prog_trees nl (S i) false t
    end.
  Definition ptoks (nl : list nat) (i : nat) (e : bool) (l : list fstmt) : list token := toks_of_pieces (prog_loop fx nl i e l).
  Fixpoint psz (nl : list nat) (i : nat) (e : bool) (l : list fstmt) : nat :=
    match l with
    | [] => 0
    | x :: t => if is_blank x then (if e then psz nl (S i) true t else S (psz nl (S i) true t))
                else S (sz x + (if mem_nat i nl then 1 else 0) + psz nl (S i) false t)
    end.

  Lemma prog_trees_plain : forall l i e, prog_trees [] i e l = body_trees e l.
  Proof.
    induction l as [|x l IH]; intros i e; [reflexivity|]. cbn [prog_trees body_trees mem_nat app].
    destruct (is_blank x); [destruct e|]; rewrite IH; reflexivity.
  Qed.

  Definition nl_toks (nl : list nat) (i : nat) : list token := if mem_nat i nl then [mk T_NL] else [].

  Lemma ptoks_blank nl i e rest : ptoks nl i e (FmtAst.SEmpty [] :: rest) = (if e then [] else [mk T_NL]) ++ ptoks nl (S i) true rest.
  Proof. unfold ptoks. cbn [prog_loop is_blank is_empty]. rewrite toks_app. destruct e; reflexivity. Qed.
  Lemma ptoks_cons nl i e st rest : is_blank st = false ->
    ptoks nl i e (st :: rest) = toks_of_pieces (fmt_stmt fx 0 st) ++ mk T_NL :: nl_toks nl i ++ ptoks nl (S i) false rest.
  Proof.
    intro Hb. unfold ptoks, nl_toks. cbn [prog_loop]. rewrite Hb. rewrite !toks_app. cbn [toks_of_pieces flat_map tok_of_piece app].
    destruct (mem_nat i nl); reflexivity.
  Qed.

  Inductive fpoks (nl : list nat) : nat -> list str -> list str -> ctx -> bool -> list fstmt -> ctx -> Prop :=
  | fp_nil i bd hs G e : fpoks nl i bd hs G e [] G
  | fp_blank i bd hs G e rest Gout : fpoks nl (S i) bd hs G true rest Gout -> fpoks nl i bd hs G e (FmtAst.SEmpty [] :: rest) Gout
  | fp_stmt i bd hs G e st rest G' Gout : is_blank st = false -> sok B F top_fr G st -> always_terms (stmt_tree st) = false ->
      scope_stmt TB (stmt_tree st) G = Some G' -> fpoks nl (S i) bd hs G' false rest Gout -> fpoks nl i bd hs G e (st :: rest) Gout
  | fp_func i bd hs G e n rt ps v body fi G1 rest G' Gout :
      ident_text n = true -> opt_okb rt_okb rt = true -> forallb param_okb ps = true -> opt_okb param_okb v = true ->
      sig_ok n rt ps v fi -> mem_str n bd = false ->
      declare_all TB (map fst (fi_params fi)) ([] :: G) = Some G1 ->
      boks B F (fn_fr (fi_ret fi)) G1 false false body -> body_trees false body <> [] ->
      (fi_ret fi = true -> existsb always_terms (body_trees false body) = true) ->
      scope_stmt TB (stmt_tree (FmtAst.SFunc n rt ps v [] body [])) G = Some G' ->
      fpoks nl (S i) (n :: bd) hs G' false rest Gout ->
      fpoks nl i bd hs G e (FmtAst.SFunc n rt ps v [] body [] :: rest) Gout
  | fp_on i bd hs G e n ps body ex G1 rest G' Gout :
      ident_text n = true -> forallb param_okb ps = true ->
      lookup_ev n (b_events B) = Some ex -> (ps = [] \/ map param_ty ps = map Some ex) -> mem_str n hs = false ->
      declare_all TB (map fst ps) ([] :: G) = Some G1 ->
      boks B F hd_fr G1 false false body -> body_trees false body <> [] ->
      scope_stmt TB (stmt_tree (FmtAst.SOn n ps [] body [])) G = Some G' ->
      fpoks nl (S i) bd (n :: hs) G' false rest Gout ->
      fpoks nl i bd hs G e (FmtAst.SOn n ps [] body [] :: rest) Gout.

  (* what remains of a program starts with a statement keyword, an identifier or a newline, or is empty *)
  Lemma ptoks_skip nl : forall i bd hs G e body Gout, fpoks nl i bd hs G e body Gout ->
    skip1 (ptoks nl i e body) = ptoks nl i e body.
  Proof.
    induction 1 as [i bd hs G e | i bd hs G e rest Gout Hp IH | i bd hs G e st rest G' Gout Hbl Hso Hat Hsc Hp IH
                   | i bd hs G e n rt ps v body fi G1 rest G' Gout Hn Hrt Hps Hv Hsig Hbd Hd Hb Hne Hterm Hsc Hp IH
                   | i bd hs G e n ps body ex G1 rest G' Gout Hn Hps Hev Hex Hhd Hd Hb Hne Hsc Hp IH].
    - reflexivity.
    - rewrite ptoks_blank. destruct e; [exact IH | reflexivity].
    - rewrite (ptoks_cons nl i e st rest Hbl). destruct (sok_head B fx F _ _ _ 0 Hso) as (t0 & ts & -> & Hs).
      cbn [app skip1]. rewrite (start_nws t0 Hs). reflexivity.
    - rewrite (ptoks_cons nl i e (FmtAst.SFunc n rt ps v [] body []) rest eq_refl), (func_toks n rt ps v body _ Hn Hrt Hps Hv). reflexivity.
    - rewrite (ptoks_cons nl i e (FmtAst.SOn n ps [] body []) rest eq_refl), (on_toks n ps body _ Hn Hps). reflexivity.
  Qed.

  (* the blank line formatProgram inserts is one empty statement *)
  Lemma nl_turn fuel acc s q G :
    ST F s (mk T_NL :: q) G top_fr ->
    program_loop B (S (S fuel)) acc false s = program_loop B (S fuel) (Parser.SEmpty :: acc) false (adv s) /\
    ST F (adv s) (skip1 q) G top_fr /\ kb (adv s) = kb s.
  Proof.
    intro HST. split; [|split; [exact (ST_adv F _ _ _ _ _ HST)|reflexivity]].
    pose proof (ST_ct F _ _ _ _ _ HST) as Hc.
    exact (program_loop_stmt B _ acc s _ _ ltac:(rewrite Hc; reflexivity) (parse_statement_nl B (S fuel) s ltac:(lia) Hc)).
  Qed.

  Lemma program_loop_func f acc t s st s1 : ct s = T_FUNC -> parse_func B f s = Ok (Some st) s1 ->
    program_loop B (S f) acc t s = program_loop B f (st :: acc) t s1.
  Proof. intros Hc P. cbn [program_loop]. rewrite Hc, P. reflexivity. Qed.
  Lemma program_loop_on f acc t s st s1 : ct s = T_ON -> parse_event_handler B f s = Ok (Some st) s1 ->
    program_loop B (S f) acc t s = program_loop B f (st :: acc) t s1.
  Proof. intros Hc P. cbn [program_loop]. rewrite Hc, P. reflexivity. Qed.

  Lemma ST_post_func f s q G st s' q' :
    ST F s q G top_fr -> parse_func B f s = Ok (Some st) s' -> at_toks s' q' [] -> peek_ok s' q' ->
    exists G', scope_stmt TB st G = Some G' /\ ST F s' q' G' top_fr.
  Proof.
    intros HST P A1 P1. pose proof HST as (_ & _ & N & U & _).
    assert (Q : serrs s' = []) by (destruct A1 as (_ & _ & E); exact E).
    destruct (func_sound B f s (Some st) s' P Q) as (_ & Fr' & _).
    destruct (func_sim' B f s (Some st) s' P Q (conj N U)) as (U' & Fn' & _ & Sc).
    exact (ST_next B F s q G top_fr st s' q' HST Fr' U' Fn' Sc A1 P1).
  Qed.

  Lemma ST_post_on f s q G st s' q' :
    ST F s q G top_fr -> parse_event_handler B f s = Ok (Some st) s' -> at_toks s' q' [] -> peek_ok s' q' ->
    exists G', scope_stmt TB st G = Some G' /\ ST F s' q' G' top_fr.
  Proof.
    intros HST P A1 P1. pose proof HST as (_ & _ & N & U & _).
    assert (Q : serrs s' = []) by (destruct A1 as (_ & _ & E); exact E).
    destruct (event_handler_sound B f s (Some st) s' P Q) as (_ & Fr' & _).
    destruct (event_handler_sim B f s (Some st) s' P Q (conj N U)) as (U' & Fn' & _ & Sc).
    exact (ST_next B F s q G top_fr st s' q' HST Fr' U' Fn' Sc A1 P1).
  Qed.

  Definition loops nl i bd hs G e body Gout : Prop := forall fuel acc s,
    psz nl i e body < fuel -> ST F s (ptoks nl i e body) G top_fr -> kb s = (bd, hs) ->
    exists s', program_loop B fuel acc false s = Ok (rev acc ++ prog_trees nl i e body) s' /\ ST F s' [] Gout top_fr.

  Lemma next_skip nl i bd hs G rest Gout : fpoks nl (S i) bd hs G false rest Gout ->
    let r := nl_toks nl i ++ ptoks nl (S i) false rest in skip1 r = r.
  Proof.
    intro Hp. unfold nl_toks. destruct (mem_nat i nl); [reflexivity|]. exact (ptoks_skip nl _ _ _ _ _ _ _ Hp).
  Qed.

  (* after a statement that is not blank: the blank line of nlAfter, if one is due, then the rest *)
  Lemma loop_after nl i bd hs G rest Gout st : fpoks nl (S i) bd hs G false rest Gout -> loops nl (S i) bd hs G false rest Gout ->
    forall fuel acc s, (if mem_nat i nl then 1 else 0) + psz nl (S i) false rest < fuel ->
    ST F s (nl_toks nl i ++ ptoks nl (S i) false rest) G top_fr -> kb s = (bd, hs) ->
    exists s', program_loop B fuel (st :: acc) false s
               = Ok (rev acc ++ st :: (if mem_nat i nl then [Parser.SEmpty] else []) ++ prog_trees nl (S i) false rest) s' /\
               ST F s' [] Gout top_fr.
  Proof.
    intros Hp IH fuel acc s Hfu HST HK. pose proof (ptoks_skip nl _ _ _ _ _ _ _ Hp) as Sk. unfold nl_toks in HST.
    destruct (mem_nat i nl); cbn [app] in HST.
    - destruct fuel as [|[|fuel]]; try lia.
      destruct (nl_turn fuel (st :: acc) s _ G HST) as (E & HST' & K'). rewrite Sk in HST'.
      destruct (IH (S fuel) (Parser.SEmpty :: st :: acc) (adv s) ltac:(lia) HST' ltac:(rewrite K'; exact HK)) as (s' & P2 & Q).
      exists s'. split; [|exact Q]. rewrite E, P2. cbn [rev app]. rewrite <- !app_assoc. reflexivity.
    - destruct (IH fuel (st :: acc) s ltac:(lia) HST HK) as (s' & P2 & Q).
      exists s'. split; [|exact Q]. rewrite P2. cbn [rev app]. rewrite <- !app_assoc. reflexivity.
  Qed.

  Theorem program_loop_funcs nl : forall i bd hs G e body Gout, fpoks nl i bd hs G e body Gout ->
    forall fuel acc s, psz nl i e body < fuel -> ST F s (ptoks nl i e body) G top_fr -> kb s = (bd, hs) ->
    exists s', program_loop B fuel acc false s = Ok (rev acc ++ prog_trees nl i e body) s' /\ ST F s' [] Gout top_fr.
  Proof.
    induction 1 as [i bd hs G e | i bd hs G e rest Gout Hp IH | i bd hs G e st rest G' Gout Hbl Hso Hat Hsc Hp IH
                   | i bd hs G e n rt ps v body fi G1 rest G' Gout Hn Hrt Hps Hv Hsig Hbd Hd Hb Hne Hterm Hsc Hp IH
                   | i bd hs G e n ps body ex G1 rest G' Gout Hn Hps Hev Hex Hhd Hd Hb Hne Hsc Hp IH];
      intros fuel acc s Hfu HST HK.
    - destruct fuel as [|fuel]; [lia|]. change (ptoks nl i e []) with (@nil token) in HST.
      exists s. cbn [prog_trees]. rewrite app_nil_r.
      rewrite program_loop_eof by (destruct HST as ((Hr & _) & _); unfold ct, cur_t, cur; rewrite Hr; reflexivity).
      split; [reflexivity|exact HST].
    - rewrite ptoks_blank in HST. cbn [psz is_blank is_empty] in Hfu. cbn [prog_trees is_blank is_empty]. destruct e.
      + exact (IH fuel acc s Hfu HST HK).
      + cbn [app] in HST. destruct fuel as [|[|fuel]]; try lia.
        pose proof (ptoks_skip nl _ _ _ _ _ _ _ Hp) as Sk.
        destruct (nl_turn fuel acc s _ G HST) as (E & HST' & K'). rewrite Sk in HST'.
        destruct (IH (S fuel) (Parser.SEmpty :: acc) (adv s) ltac:(lia) HST' ltac:(rewrite K'; exact HK)) as (s' & P & Q).
        exists s'. split; [|exact Q]. rewrite E, P. cbn [rev]. rewrite <- app_assoc. reflexivity.
    - rewrite (ptoks_cons nl i e st rest Hbl) in HST. cbn [psz] in Hfu. rewrite Hbl in Hfu. cbn [prog_trees]. rewrite Hbl.
      destruct fuel as [|fuel]; [lia|]. pose proof (next_skip nl i _ _ _ _ _ Hp) as Hr2. cbv zeta in Hr2.
      destruct (stmt_roundtrip B BT fx F top_fr G st Hso 0 fuel s _ ltac:(lia) HST) as (s1 & P & A1 & P1).
      destruct (ST_post B F fuel s _ G top_fr (stmt_tree st) s1 _ HST P A1 P1) as (G'' & Hsc' & HST1).
      fold TB in Hsc'. rewrite Hsc in Hsc'. injection Hsc' as <-. rewrite Hr2 in HST1.
      assert (K1 : kb s1 = (bd, hs)) by (rewrite (stmt_kb B fuel s _ s1 P); exact HK).
      destruct (sok_head B fx F top_fr G st 0 Hso) as (t0 & ts & Ht & Hs). rewrite Ht in HST. cbn [app] in HST.
      rewrite (program_loop_stmt B fuel acc s _ _ ltac:(rewrite (ST_ct F _ _ _ _ _ HST); exact (start_first t0 Hs)) P), Hat.
      apply (loop_after nl i bd hs G' rest Gout _ Hp IH); [lia | exact HST1 | exact K1].
    - set (st := FmtAst.SFunc n rt ps v [] body []) in *.
      rewrite (ptoks_cons nl i e st rest eq_refl) in HST. cbn [psz] in Hfu. cbn [prog_trees]. change (is_blank st) with false in *. cbv iota in Hfu |- *.
      destruct fuel as [|fuel]; [lia|]. pose proof (next_skip nl i _ _ _ _ _ Hp) as Hr2. cbv zeta in Hr2.
      assert (Hbd' : mem_str n (bodies s) = false) by (injection HK as -> _; exact Hbd).
      assert (Hsz : S (szl body) <= fuel) by (unfold st in Hfu; rewrite sz_func in Hfu; lia).
      destruct (func_rt fuel s n rt ps v body _ G fi G1 Hn Hrt Hps Hv Hsig Hbd' Hd Hb Hne Hterm Hsz HST) as (s1 & P & A1 & P1 & K1).
      destruct (ST_post_func fuel s _ G (stmt_tree st) s1 _ HST P A1 P1) as (G'' & Hsc' & HST1).
      rewrite Hsc in Hsc'. injection Hsc' as <-. rewrite Hr2 in HST1.
      assert (K1' : kb s1 = (n :: bd, hs)) by (rewrite K1; injection HK as -> ->; reflexivity).
      unfold st in HST. rewrite (func_toks n rt ps v body _ Hn Hrt Hps Hv) in HST.
      rewrite (program_loop_func fuel acc false s (stmt_tree st) s1 (ST_ct F _ _ _ _ _ HST) P).
      apply (loop_after nl i _ hs G' rest Gout _ Hp IH); [lia | exact HST1 | exact K1'].
    - set (st := FmtAst.SOn n ps [] body []) in *.
      rewrite (ptoks_cons nl i e st rest eq_refl) in HST. cbn [psz] in Hfu. cbn [prog_trees]. change (is_blank st) with false in *. cbv iota in Hfu |- *.
      destruct fuel as [|fuel]; [lia|]. pose proof (next_skip nl i _ _ _ _ _ Hp) as Hr2. cbv zeta in Hr2.
      assert (Hhd' : mem_str n (hds s) = false) by (injection HK as _ ->; exact Hhd).
      assert (Hsz : S (szl body) <= fuel) by (unfold st in Hfu; rewrite sz_on in Hfu; lia).
      destruct (on_rt fuel s n ps body _ G ex G1 Hn Hps Hev Hex Hhd' Hd Hb Hne Hsz HST) as (s1 & P & A1 & P1 & K1).
      destruct (ST_post_on fuel s _ G (stmt_tree st) s1 _ HST P A1 P1) as (G'' & Hsc' & HST1).
      rewrite Hsc in Hsc'. injection Hsc' as <-. rewrite Hr2 in HST1.
      assert (K1' : kb s1 = (bd, n :: hs)) by (rewrite K1; injection HK as -> ->; reflexivity).
      unfold st in HST. rewrite (on_toks n ps body _ Hn Hps) in HST.
      rewrite (program_loop_on fuel acc false s (stmt_tree st) s1 (ST_ct F _ _ _ _ _ HST) P).
      apply (loop_after nl i bd _ G' rest Gout _ Hp IH); [lia | exact HST1 | exact K1'].
  Qed.
End Funcs.

(* The statement kinds of the re-parsed tree are one step of the blank-line logic (C07) *)
Definition pkind (s : stmt) : skind :=
  match s with Parser.SEmpty => KEmpty | Parser.SFunc _ _ _ _ | Parser.SOn _ _ _ => KFunc | _ => KStmt end.

Lemma kind_blank x : stmt_kind x <> KComment -> is_blank x = skind_eqb (stmt_kind x) KEmpty.
Proof. destruct x; try reflexivity. cbn [stmt_kind is_blank]. destruct (is_empty c); [reflexivity|]. intro H. contradiction H. reflexivity. Qed.

Lemma kind_tree x : is_blank x = false -> stmt_kind x <> KComment -> pkind (stmt_tree x) = stmt_kind x.
Proof.
  destruct x; try reflexivity.
  - cbn [is_blank stmt_kind]. destruct (is_empty c); [discriminate|]. intros _ H. contradiction H. reflexivity.
  - intros _ _. destruct ifb. reflexivity.
Qed.

Lemma prog_trees_skeleton nl : forall l i e, Forall (fun x => stmt_kind x <> KComment) l ->
  map pkind (prog_trees nl i e l) = skel_step_loop nl i e (map stmt_kind l).
Proof.
  induction l as [|x l IH]; intros i e H; [reflexivity|]. inversion H as [|? ? Hx Hl]; subst.
  cbn [prog_trees map skel_step_loop]. rewrite <- (kind_blank x Hx). destruct (is_blank x) eqn:Eb.
  - destruct e; cbn [map app]; rewrite (IH _ _ Hl); reflexivity.
  - cbn [map]. rewrite map_app, (IH _ _ Hl), (kind_tree x Eb Hx). destruct (mem_nat i nl); reflexivity.
Qed.

Lemma reparse_skeleton_step (p : fprog) : p <> [] -> Forall (fun x => stmt_kind x <> KComment) p ->
  let nl := nl_after (fix_nl current_fixes) (map stmt_kind p) in
  let ks' := map pkind (prog_trees nl 0 false p) in
  ks' = skel_step (fix_nl current_fixes) (map stmt_kind p) /\
  nl_after (fix_nl current_fixes) ks' = [] /\
  skel_step (fix_nl current_fixes) ks' = ks'.
Proof.
  intros Hne Hc nl ks'.
  assert (E : ks' = skel_step (fix_nl current_fixes) (map stmt_kind p)).
  { unfold ks', nl, skel_step. rewrite (prog_trees_skeleton _ p 0 false Hc). destruct p; [contradiction|reflexivity]. }
  split; [exact E|]. rewrite E. split; [apply FormatNlProofs.skel_step_fixed_stable | apply FormatNlProofs.skel_step_fixed_idempotent].
Qed.

Lemma stmt_keeps_tables B fuel s r s' : parse_statement B fuel s = Ok r s' -> bodies s' = bodies s /\ hds s' = hds s.
Proof. intro H. pose proof (stmt_kb B fuel s r s' H) as K. unfold kb in K. injection K as K1 K2. auto. Qed.
