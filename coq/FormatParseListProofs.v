(* FormatParseListProofs.v — C06 round trip, list level: array literals (single- and multi-line,
   with the comments and blank lines the formatter re-emits), map literals and call argument
   lists, proved directly against Pratt.parse_array_literal / parse_map_literal /
   parse_expr_list.  The items are parsed by parseExprWSS; what is proved here is the list
   step: brackets, separators, and the newline / indentation / comment tokens between items. *)
From Coq Require Import List String NArith ZArith Bool Arith Lia.
From EvyV Require Import Base FmtAst Format FormatProofs Pratt PrattProofs FormatParse FormatParseProofs ParserEqProofs.
From EvyV.Gen Require Import Prec.
Import ListNotations.
Local Open Scope nat_scope.

(* WS / NL tokens and comments, every comment directly followed by its newline *)
Fixpoint wsrun (l : list token) : bool :=
  match l with
  | [] => true
  | t :: r =>
      match ttype t with
      | T_WS | T_NL => wsrun r
      | T_COMMENT => match r with n :: r' => toktype_beq (ttype n) T_NL && wsrun r' | [] => false end
      | _ => false
      end
  end.

Lemma wsrun_app a b : wsrun a = true -> wsrun b = true -> wsrun (a ++ b) = true.
Proof.
  revert b. induction a as [a IH] using (well_founded_induction (Wf_nat.well_founded_ltof _ (@List.length token))).
  intros b Ha Hb. destruct a as [|t r]; [exact Hb|].
  cbn [wsrun app] in *. destruct (ttype t); try discriminate Ha.
  - destruct r as [|n r']; [discriminate|]. cbn [app]. apply andb_true_iff in Ha as [H1 H2]. rewrite H1. cbn [andb].
    apply IH; auto. unfold ltof. simpl. lia.
  - apply IH; auto. unfold ltof. simpl. lia.
  - apply IH; auto. unfold ltof. simpl. lia.
Qed.

Lemma rest_advance_wss st : rest (advance_wss st) = tl (rest st).
Proof. reflexivity. Qed.

(* advance drops the current token and, outside a whitespace-sensitive context, one blank after it *)
Lemma advance_keeps st : wss (advance st) = wss st /\ errs (advance st) = errs st.
Proof.
  unfold advance, advance_if_ws. destruct (is_wss (advance_wss st)); [auto|].
  destruct (is_ws (cur (advance_wss st))); destruct (is_ws (peek _)); auto.
Qed.
Lemma rest_advance st t r : rest st = t :: r ->
  rest (advance st) = if is_wss st then r else if is_ws (look0 r) then tl r else r.
Proof.
  intro Hr. assert (R1 : rest (advance_wss st) = r) by (cbn [advance_wss rest]; rewrite Hr; reflexivity).
  unfold advance, advance_if_ws, cur. change (is_wss (advance_wss st)) with (is_wss st).
  destruct (is_wss st); [exact R1|]. rewrite R1.
  destruct (is_ws (look0 r)); destruct (is_ws (peek _)); cbn [advance_wss rest]; rewrite Hr; reflexivity.
Qed.
Lemma advance_exact st t rest' :
  rest st = t :: rest' -> (is_wss st = true \/ is_ws (look0 rest') = false) ->
  rest (advance st) = rest' /\ wss (advance st) = wss st /\ errs (advance st) = errs st.
Proof.
  intros Hr Hc. split; [|exact (advance_keeps st)]. rewrite (rest_advance st t _ Hr).
  destruct Hc as [->| ->]; [reflexivity|]. destruct (is_wss st); reflexivity.
Qed.
Lemma wsish_is_ws t : wsish t = false -> is_ws t = false.
Proof. unfold wsish, is_ws. destruct (ttype t); try discriminate; reflexivity. Qed.

(* the three fields of the parser state the list level is about; the same proposition as PrattProofs.reaches *)
Definition same3 (st st' : pstate) (r : list token) : Prop :=
  rest st' = r /\ wss st' = wss st /\ errs st' = errs st.

Section Lists.
  Variable E : env.
  Hypothesis NT : no_tyerr E.

  (* parseMulitlineWS consumes a run *)
  Lemma pmw_run : forall fuel run st rest',
    wsrun run = true -> rest st = run ++ rest' -> wsish (look0 rest') = false ->
    List.length run < fuel ->
    exists st', parse_multiline_ws fuel st = Some st' /\ same3 st st' rest'.
  Proof.
    induction fuel as [|f IH]; intros run st rest' Hrun Hr Hn Hf; [lia|].
    destruct run as [|t r].
    - cbn [app] in Hr. cbn [parse_multiline_ws]. unfold cur_t, cur. rewrite Hr.
      unfold wsish in Hn. destruct (ttype (look0 rest')) eqn:T; try discriminate Hn;
        (exists st; split; [reflexivity | repeat split; exact Hr]).
    - cbn [wsrun] in Hrun. cbn [app] in Hr. cbn [parse_multiline_ws]. unfold cur_t, cur. rewrite Hr. cbn [look0 hd].
      destruct (ttype t) eqn:T; try discriminate Hrun.
      + (* comment, then its newline *)
        destruct r as [|n r']; [discriminate|]. apply andb_true_iff in Hrun as [Hn1 Hrun].
        apply toktype_beq_eq in Hn1.
        set (st1 := advance_wss st).
        assert (R1 : rest st1 = n :: r' ++ rest') by (unfold st1; rewrite rest_advance_wss, Hr; reflexivity).
        assert (A : assert_token T_NL st1 = (true, st1)).
        { unfold assert_token, cur_t, cur. rewrite R1. cbn [look0 hd]. rewrite Hn1. reflexivity. }
        rewrite A. cbn [snd].
        destruct (IH r' (advance_wss st1) rest') as (st' & P & Q1 & Q2 & Q3); auto.
        * rewrite rest_advance_wss, R1. reflexivity.
        * simpl in Hf. lia.
        * exists st'. split; [exact P|]. repeat split; auto.
      + destruct (IH r (advance_wss st) rest') as (st' & P & Q1 & Q2 & Q3); auto.
        * rewrite rest_advance_wss, Hr. reflexivity.
        * simpl in Hf. lia.
        * exists st'. split; [exact P|]. repeat split; auto.
      + destruct (IH r (advance_wss st) rest') as (st' & P & Q1 & Q2 & Q3); auto.
        * rewrite rest_advance_wss, Hr. reflexivity.
        * simpl in Hf. lia.
        * exists st'. split; [exact P|]. repeat split; auto.
  Qed.

  Lemma wsrun_tl t r : ttype t = T_WS -> wsrun (t :: r) = true -> wsrun r = true.
  Proof. intros T H. cbn [wsrun] in H. rewrite T in H. exact H. Qed.

  (* [advance] over a token that is followed by a run: what is left is a shorter run *)
  Lemma advance_run st t run rest' :
    rest st = t :: run ++ rest' -> wsrun run = true -> wsish (look0 rest') = false ->
    exists run', rest (advance st) = run' ++ rest' /\ wsrun run' = true /\ List.length run' <= List.length run
                 /\ wss (advance st) = wss st /\ errs (advance st) = errs st.
  Proof.
    intros Hr Hrun Hn. rewrite (rest_advance st t _ Hr). destruct (advance_keeps st) as [Kw Ke].
    destruct (is_wss st); [exists run; auto|]. destruct run as [|w r].
    - exists []. cbn [app]. rewrite (wsish_is_ws _ Hn). auto.
    - cbn [app look0 hd tl]. destruct (is_ws w) eqn:C; [|exists (w :: r); auto].
      exists r. repeat split; auto; [|cbn [List.length]; lia].
      apply (wsrun_tl w); [|exact Hrun]. unfold is_ws in C. destruct (ttype w); try discriminate; reflexivity.
  Qed.

  (* popWSS in front of a run *)
  Lemma pop_wss_run st b w run rest' :
    rest st = run ++ rest' -> wss st = b :: w -> wsrun run = true -> wsish (look0 rest') = false ->
    exists run', rest (pop_wss st) = run' ++ rest' /\ wsrun run' = true /\ List.length run' <= List.length run
                 /\ wss (pop_wss st) = w /\ errs (pop_wss st) = errs st.
  Proof.
    intros Hr Hw Hrun Hn. rewrite (pop_wss_eq st b w Hw). cbv zeta.
    set (st1 := {| prev := prev st; rest := rest st; peek := peek st; wss := w; errs := errs st; used := used st |}).
    destruct (negb (hd false w) && is_ws (look0 (rest st))) eqn:C; [|exists run; auto].
    apply andb_true_iff in C as [_ C]. rewrite Hr in C.
    destruct run as [|t r]; cbn [app] in C; [rewrite (wsish_is_ws _ Hn) in C; discriminate C|]. cbn [look0 hd] in C.
    destruct (advance_run st1 t r rest') as (run' & A1 & A2 & A3 & A4 & A5); auto.
    - apply (wsrun_tl t); [|exact Hrun]. unfold is_ws in C. destruct (ttype t); try discriminate; reflexivity.
    - exists run'. rewrite A4, A5. repeat split; auto. simpl. lia.
  Qed.

  Lemma pop_wss_nop st b w :
    wss st = b :: w -> (hd false w = false -> is_ws (look0 (rest st)) = false) ->
    rest (pop_wss st) = rest st /\ wss (pop_wss st) = w /\ errs (pop_wss st) = errs st.
  Proof.
    intros Hw Hc. rewrite (pop_wss_eq st b w Hw). cbv zeta.
    destruct (hd false w); cbn [negb andb]; [|rewrite (Hc eq_refl)]; auto.
  Qed.

  (* parseExpr in a whitespace-sensitive context on the item's tokens returns tree t *)
  Definition RT (w : bool) (toks : list token) (t : tree) : Prop :=
    forall st rest0 fuel,
      is_wss st = w -> rest st = toks ++ rest0 ->
      (w = false -> is_ws (look0 rest0) = false) ->
      stop_tok w lowestPrec (look0 rest0) ->
      2 * List.length toks <= fuel ->
      exists st', parse_expr E fuel lowestPrec st = Some (Some t, st') /\ same3 st st' rest0.

  (* a prefix form that ends in front of a token which stops the operator loop is the whole expression *)
  Lemma expr_loop_done k t w st s1 rest0 :
    is_wss st = w -> same3 st s1 rest0 -> stop_tok w lowestPrec (look0 rest0) ->
    exists st', expr_loop E (S k) lowestPrec t s1 = Some (Some t, st') /\ same3 st st' rest0.
  Proof.
    intros Hw Q Hstop. exists s1. split; [|exact Q]. destruct Q as (Q1 & Q2 & _). apply expr_loop_stop.
    unfold cur, is_wss in *. rewrite Q1, Q2, Hw. exact Hstop.
  Qed.

  (* so RT holds of tokens that parsePrefix alone consumes *)
  Lemma prefix_RT w toks t : 1 <= List.length toks ->
    (forall st rest0 f, is_wss st = w -> rest st = toks ++ rest0 -> (w = false -> is_ws (look0 rest0) = false) ->
       2 * List.length toks <= S f ->
       exists s1, parse_prefix E (parse_expr E f) f st = Some (Some t, s1) /\ same3 st s1 rest0) ->
    RT w toks t.
  Proof.
    intros Hne H st rest0 fuel Hw Hr Hws Hstop Hfuel. destruct fuel as [|[|k]]; try lia. rewrite parse_expr_S.
    destruct (H st rest0 (S k) Hw Hr Hws Hfuel) as (s1 & P & Q). rewrite P.
    exact (expr_loop_done k t w st s1 rest0 Hw Q Hstop).
  Qed.

  (* the closing token of a form that was opened with pushWSS(false) *)
  Lemma close_pushed w st s c rest0 :
    is_wss st = w -> (w = false -> is_ws (look0 rest0) = false) ->
    rest s = c :: rest0 -> wss s = false :: wss st -> errs s = errs st ->
    same3 st (pop_wss (advance_wss s)) rest0.
  Proof.
    intros Hw Hws Hr Hs He.
    destruct (pop_wss_nop (advance_wss s) false (wss st)) as (D1 & D2 & D3).
    { cbn. rewrite Hs. reflexivity. }
    { rewrite rest_advance_wss, Hr. intro Hh. apply Hws. unfold is_wss in Hw. rewrite Hh in Hw. symmetry. exact Hw. }
    repeat split; [rewrite D1, rest_advance_wss, Hr; reflexivity | exact D2 | rewrite D3; exact He].
  Qed.

  (* the first token of an item starts an expression *)
  Definition head_ok (toks : list token) : Prop :=
    match toks with
    | t :: _ => match ttype t with T_RBRACKET | T_RCURLY | T_RPAREN | T_EOF | T_WS | T_NL | T_COMMENT => False | _ => True end
    | [] => False
    end.

  (* items (of any kind) with the run that follows each; only the last run may be empty *)
  Fixpoint seps_ok {A} (segs : list (A * list token)) : Prop :=
    match segs with
    | [] => True
    | (_, sep) :: rest => wsrun sep = true /\ (rest <> [] -> sep <> []) /\ seps_ok rest
    end.

  Definition seg_toks (segs : list (list token * list token)) : list token :=
    flat_map (fun s => fst s ++ snd s) segs.

  Lemma stop_after_item sep r : wsrun sep = true -> (sep = [] -> precedences (ttype (look0 r)) <= lowestPrec) ->
    stop_tok true lowestPrec (look0 (sep ++ r)).
  Proof.
    intros Hs He. destruct sep as [|t s]; [right; right; apply He; reflexivity|].
    cbn [app look0 hd]. cbn [wsrun] in Hs. unfold stop_tok, is_ws, is_eol.
    destruct (ttype t); try discriminate Hs; auto.
  Qed.

  Lemma wsrun_head_wsish t r : wsrun (t :: r) = true -> wsish t = true.
  Proof. cbn [wsrun]. unfold wsish. destruct (ttype t); try discriminate; reflexivity. Qed.

  Lemma head_ok_nws toks r : head_ok toks -> wsish (look0 (toks ++ r)) = false.
  Proof. destruct toks as [|t l]; [contradiction|]. cbn [head_ok app look0 hd]. unfold wsish. destruct (ttype t); try contradiction; reflexivity. Qed.

  Lemma seg_toks_head segs trees r :
    Forall2 (fun s t => RT true (fst s) t /\ head_ok (fst s)) segs trees -> wsish (look0 r) = false ->
    wsish (look0 (seg_toks segs ++ r)) = false.
  Proof.
    intros HF Hr. destruct HF as [|[it sep] t segs' trees' [_ Hh] _]; [exact Hr|].
    cbn [seg_toks flat_map fst snd]. rewrite <- !app_assoc. apply head_ok_nws, Hh.
  Qed.

  (* parseExprWSS on an item that is followed by a run, then parseMultilineWS over the run *)
  Lemma item_run f fuel it t sep next st :
    RT true it t -> wsrun sep = true -> wsish (look0 next) = false ->
    (sep = [] -> precedences (ttype (look0 next)) <= lowestPrec) ->
    rest st = it ++ sep ++ next -> 2 * List.length it <= f -> List.length sep < fuel ->
    exists st1 st2, parse_expr_wss (parse_expr E f) st = Some (Some t, st1) /\
                    parse_multiline_ws fuel st1 = Some st2 /\ same3 st st2 next.
  Proof.
    intros Hrt Hsep Hnext Hlow Hr Hf Hfuel.
    destruct (Hrt (push_wss true st) (sep ++ next) f) as (st' & P1 & Q1 & Q2 & Q3); auto.
    { intro; discriminate. }
    { apply stop_after_item; assumption. }
    destruct (pop_wss_run st' true (wss st) sep next) as (run' & A1 & A2 & A3 & A4 & A5); auto.
    destruct (pmw_run fuel run' (pop_wss st') next) as (st2 & P2 & B1 & B2 & B3); auto; [lia|].
    exists (pop_wss st'), st2. unfold parse_expr_wss. rewrite P1. split; [reflexivity|]. split; [exact P2|].
    repeat split; auto; [rewrite B2, A4 | rewrite B3, A5, Q3]; reflexivity.
  Qed.

  (* the element loop of parseArrayLiteral *)
  Lemma array_elems_loop f : forall segs trees acc st rest0 fuel,
    Forall2 (fun s t => RT true (fst s) t /\ head_ok (fst s)) segs trees ->
    seps_ok segs ->
    rest st = seg_toks segs ++ mk T_RBRACKET :: rest0 ->
    (forall s, In s segs -> 2 * List.length (fst s) <= f) ->
    List.length (seg_toks segs) < fuel ->
    exists st', parse_array_elems E (parse_expr E f) fuel acc st = Some (Some (rev acc ++ trees), st')
                /\ same3 st st' (mk T_RBRACKET :: rest0).
  Proof.
    induction segs as [|[it sep] segs IH]; intros trees acc st rest0 fuel HF Hseps Hr Hf Hfuel.
    - inversion HF; subst. cbn [seg_toks flat_map app] in Hr.
      destruct fuel as [|fu]; [simpl in Hfuel; lia|]. rewrite parse_array_elems_eq. unfold cur_t, cur. rewrite Hr. cbn.
      exists st. rewrite app_nil_r. split; [reflexivity | repeat split; exact Hr].
    - inversion HF as [|? t ? trees' [Hrt Hhd] HF']; subst. cbn [fst] in Hrt, Hhd.
      cbn [seps_ok] in Hseps. destruct Hseps as (Hsep & Hne & Hseps').
      cbn [seg_toks flat_map fst snd] in Hr, Hfuel. fold (seg_toks segs) in Hr, Hfuel. rewrite <- !app_assoc in Hr. rewrite !app_length in Hfuel.
      destruct fuel as [|fu]; [lia|]. rewrite parse_array_elems_eq.
      assert (Hin : tt_in [T_RBRACKET; T_EOF] (cur_t st) = false /\ 1 <= List.length it).
      { unfold cur_t, cur. rewrite Hr. destruct it as [|t0 it']; [contradiction|]. cbn [app look0 hd head_ok List.length] in *.
        split; [destruct (ttype t0); try contradiction; reflexivity | lia]. }
      destruct Hin as [-> Hlen].
      destruct (item_run f (S fu) it t sep (seg_toks segs ++ mk T_RBRACKET :: rest0) st) as (st1 & st2 & P1 & P2 & B1 & B2 & B3); auto.
      { apply (seg_toks_head segs trees'); [exact HF' | reflexivity]. }
      { intros ->. destruct segs as [|s2 segs2]; [cbn [seg_toks flat_map app look0 hd]; change (ttype (mk T_RBRACKET)) with T_RBRACKET; rewrite rbracket_lowest; apply Nat.le_refl | exfalso; apply Hne; [discriminate | reflexivity]]. }
      { apply (Hf (it, sep)). left. reflexivity. }
      { lia. }
      rewrite P1. cbn [ret]. unfold tyerr. rewrite NT, P2.
      destruct (IH trees' (t :: acc) st2 rest0 fu HF' Hseps' B1) as (st' & P3 & C1 & C2 & C3).
      { intros s Hs. apply Hf. right. exact Hs. }
      { lia. }
      exists st'. split.
      + rewrite P3. cbn [rev]. rewrite <- app_assoc. reflexivity.
      + repeat split; auto; [rewrite C2, B2 | rewrite C3, B3]; reflexivity.
  Qed.

  Lemma seg_toks_len_item segs s : In s segs -> List.length (fst s) <= List.length (seg_toks segs).
  Proof.
    induction segs as [|x segs IH]; intro H; [contradiction|]. cbn [seg_toks flat_map]. rewrite !app_length.
    destruct H as [->|H]; [lia|]. specialize (IH H). unfold seg_toks in IH. lia.
  Qed.

  (* an array literal "[" w0 item sep item sep ... "]" as a whole expression, in either mode *)
  Theorem array_literal_rt w w0 segs trees :
    wsrun w0 = true ->
    Forall2 (fun s t => RT true (fst s) t /\ head_ok (fst s)) segs trees ->
    seps_ok segs ->
    RT w (mk T_LBRACKET :: w0 ++ seg_toks segs ++ [mk T_RBRACKET]) (TArr trees).
  Proof.
    intros Hw0 HF Hseps. apply prefix_RT; [cbn; lia|]. intros st rest0 f Hw Hr Hws Hfuel.
    set (body := seg_toks segs) in *.
    assert (Hlen : List.length (mk T_LBRACKET :: w0 ++ body ++ [mk T_RBRACKET]) = S (List.length w0 + List.length body + 1)).
    { cbn [List.length]. rewrite !app_length. simpl. lia. }
    rewrite Hlen in Hfuel.
    assert (Hr2 : rest st = mk T_LBRACKET :: w0 ++ (body ++ mk T_RBRACKET :: rest0)).
    { rewrite Hr. cbn [app]. rewrite <- !app_assoc. reflexivity. }
    assert (Hcur : cur_t st = T_LBRACKET) by (unfold cur_t, cur; rewrite Hr2; reflexivity).
    unfold parse_prefix. rewrite Hcur. unfold parse_literal, cur. rewrite Hr2. cbn [look0 hd ttype mk].
    unfold parse_array_literal.
    assert (Hnext : wsish (look0 (body ++ mk T_RBRACKET :: rest0)) = false) by (apply (seg_toks_head segs trees); [exact HF | reflexivity]).
    destruct (advance_run st (mk T_LBRACKET) w0 (body ++ mk T_RBRACKET :: rest0) Hr2 Hw0 Hnext) as (run' & A1 & A2 & A3 & A4 & A5).
    destruct (pmw_run f run' (advance st) (body ++ mk T_RBRACKET :: rest0)) as (st2 & P2 & B1 & B2 & B3); auto; [lia|].
    rewrite P2.
    destruct (array_elems_loop f segs trees [] st2 rest0 f HF Hseps B1) as (st3 & P3 & C1 & C2 & C3).
    { intros s Hs. pose proof (seg_toks_len_item segs s Hs). fold body in H. lia. }
    { fold body. lia. }
    rewrite P3. cbn [rev app].
    assert (A : assert_token T_RBRACKET st3 = (true, st3)).
    { unfold assert_token, cur_t, cur. rewrite C1. reflexivity. }
    rewrite A.
    destruct (advance_exact st3 (mk T_RBRACKET) rest0 C1) as (D1 & D2 & D3).
    { unfold is_wss. rewrite C2, B2, A4. fold (is_wss st). rewrite Hw. destruct w; [left; reflexivity | right; apply Hws; reflexivity]. }
    exists (advance st3). split; [reflexivity|]. repeat split; [exact D1 | rewrite D2, C2, B2, A4 | rewrite D3, C3, B3, A5]; reflexivity.
  Qed.
End Lists.

Definition ind_tok (b : bool) : list token := if b then [mk T_WS] else [].

Lemma raw_item_wsrun m : item_ws_ok m = true -> wsrun (toks_of_pieces (raw_item m)) = true.
Proof.
  unfold item_ws_ok, raw_item. intro H. destruct (item_is_nl m); [reflexivity|].
  simpl in H. apply andb_true_iff in H as [He _]. rewrite He. reflexivity.
Qed.

Lemma raw_item_nonempty m : toks_of_pieces (raw_item m) <> [].
Proof. unfold raw_item. destruct (item_is_nl m); [discriminate|]. destruct (ends_with_nl m); discriminate. Qed.

Lemma ind_tok_wsrun b : wsrun (ind_tok b) = true.
Proof. destruct b; reflexivity. Qed.

(* The shape of what formatArrayLiteral / formatMapLiteral write between the brackets, read off the
   multi-line item list: (leading run, items with the run that follows each).  [closing] is what is
   written before the closing bracket; an entry m with [is_item m] stands for the item [take m st]
   gives (elements are taken in order, map values are looked up by key), any other entry is a
   newline or comment and goes into the run. *)
Section Segs.
  Context {A S : Type} (is_item : str -> bool) (take : str -> S -> A * S).

  Fixpoint gsegs (closing : list token) (multi : list str) (st : S) : list token * list (A * list token) :=
    match multi with
    | [] => (closing, [])
    | m :: r =>
        if is_item m then
          let '(a, st') := take m st in
          let '(run, ss) := gsegs closing r st' in
          ([], (a, ind_tok (next_not_nl r) ++ run) :: ss)
        else
          let '(run, ss) := gsegs closing r st in
          (toks_of_pieces (raw_item m) ++ ind_tok (next_not_nl r) ++ run, ss)
    end.

  Lemma gsegs_ok closing multi : (forall m, item_is_nl m = true -> is_item m = false) -> forall st,
    wsrun closing = true ->
    Forall (fun m => is_item m = true \/ item_ws_ok m = true) multi ->
    let '(lead, ss) := gsegs closing multi st in
    wsrun lead = true /\ seps_ok ss /\
    (* a run that follows an item and precedes another item is not empty *)
    (ss <> [] -> match multi with m :: _ => is_item m = false -> lead <> [] | [] => True end).
  Proof.
    intro Hnl. induction multi as [|m r IH]; intros st Hc Hm.
    - cbn [gsegs]. repeat split; auto.
    - inversion Hm as [|? ? Hm1 Hm2]; subst. cbn [gsegs]. destruct (is_item m) eqn:Eel.
      + destruct (take m st) as [a st']. specialize (IH st' Hc Hm2). destruct (gsegs closing r st') as [run ss] eqn:Es.
        destruct IH as (I1 & I2 & I3). split; [reflexivity|]. split.
        * cbn [seps_ok]. split; [apply wsrun_app; [apply ind_tok_wsrun | exact I1]|]. split; [|exact I2].
          intros Hne Hsep. apply app_eq_nil in Hsep as [Hi Hrun].
          destruct r as [|m2 r2]; [cbn [gsegs] in Es; inversion Es; subst; contradiction|].
          cbn [next_not_nl] in Hi. destruct (item_is_nl m2) eqn:En; [|discriminate Hi].
          apply (I3 Hne); [|exact Hrun]. apply Hnl, En.
        * intros _ H. discriminate H.
      + destruct Hm1 as [Hm1|Hm1]; [congruence|].
        specialize (IH st Hc Hm2). destruct (gsegs closing r st) as [run ss].
        destruct IH as (I1 & I2 & I3). split; [|split; [exact I2|]].
        * apply wsrun_app; [apply raw_item_wsrun, Hm1|]. apply wsrun_app; [apply ind_tok_wsrun | exact I1].
        * intros _ _ H. apply app_eq_nil in H as [H _]. exact (raw_item_nonempty m H).
  Qed.
End Segs.

Definition segs_of : list token -> list str -> list (list token) -> list token * list (list token * list token) :=
  gsegs item_is_el (fun _ els => (hd [] els, tl els)).

Lemma segs_of_ok closing multi : forall els,
  wsrun closing = true ->
  Forall (fun m => item_is_el m = true \/ item_ws_ok m = true) multi ->
  let '(lead, ss) := segs_of closing multi els in
  wsrun lead = true /\ seps_ok ss /\
  (ss <> [] -> match multi with m :: _ => item_is_el m = false -> lead <> [] | [] => True end).
Proof. apply gsegs_ok, item_nl_not_el. Qed.

Lemma arr_loop_toks lvl closingP multi : forall elsP,
  (List.length (filter item_is_el multi) <= List.length elsP) ->
  toks_of_pieces (arr_loop (S lvl) multi elsP ++ closingP) =
  (let '(lead, ss) := segs_of (toks_of_pieces closingP) multi (map toks_of_pieces elsP) in lead ++ seg_toks ss).
Proof.
  unfold segs_of. induction multi as [|m r IH]; intros elsP Hlen.
  - cbn [arr_loop app gsegs seg_toks flat_map]. rewrite app_nil_r. reflexivity.
  - cbn [arr_loop gsegs]. cbn [filter] in Hlen. destruct (item_is_el m) eqn:Eel.
    + destruct elsP as [|e elsP']; [simpl in Hlen; lia|]. cbn [map tl hd].
      specialize (IH elsP'). destruct (gsegs _ _ (toks_of_pieces closingP) r (map toks_of_pieces elsP')) as [run ss] eqn:Es.
      cbn [app seg_toks flat_map fst snd]. fold (seg_toks ss).
      rewrite <- !app_assoc. rewrite (toks_app e), (toks_app (if next_not_nl r then [Sp] else [])). rewrite IH by (simpl in Hlen; lia).
      destruct (next_not_nl r); cbn [ind_tok toks_of_pieces flat_map tok_of_piece app]; rewrite <- ?app_assoc; reflexivity.
    + specialize (IH elsP). destruct (gsegs _ _ (toks_of_pieces closingP) r (map toks_of_pieces elsP)) as [run ss] eqn:Es.
      rewrite <- !app_assoc. rewrite (toks_app (raw_item m)), (toks_app (if next_not_nl r then [Ind (S lvl)] else [])). rewrite IH by exact Hlen.
      destruct (next_not_nl r); cbn [ind_tok toks_of_pieces flat_map tok_of_piece app]; rewrite <- ?app_assoc; reflexivity.
Qed.

Lemma segs_of_items closing multi : forall els,
  List.length (filter item_is_el multi) = List.length els ->
  map fst (snd (segs_of closing multi els)) = els.
Proof.
  unfold segs_of. induction multi as [|m r IH]; intros els Hlen.
  - destruct els; [reflexivity | discriminate].
  - cbn [gsegs]. cbn [filter] in Hlen. destruct (item_is_el m).
    + destruct els as [|e els']; [discriminate|]. cbn [tl hd]. specialize (IH els').
      destruct (gsegs _ _ closing r els') as [run ss]. cbn [snd map fst] in *. f_equal. apply IH. simpl in Hlen. lia.
    + specialize (IH els Hlen). destruct (gsegs _ _ closing r els) as [run ss]. exact IH.
Qed.

Section ArrayExpr.
  Variable E : env.
  Hypothesis NT : no_tyerr E.
  Variable fx : fixes.

  (* an array literal whose elements round-trip as list items round-trips as a whole *)
  Theorem array_expr_rt w lvl items els :
    wf_expr (FArr items els) = true ->
    Forall (fun e => RT E true (toks_of_pieces (fmt_expr fx (S lvl) e)) (fexpr_tree e)
                     /\ head_ok (toks_of_pieces (fmt_expr fx (S lvl) e))) els ->
    RT E w (toks_of_pieces (fmt_expr fx lvl (FArr items els))) (fexpr_tree (FArr items els)).
  Proof.
    intros Hwf Hels. cbn [wf_expr] in Hwf. apply andb_true_iff in Hwf as [Hwf _]. apply andb_true_iff in Hwf as [Hit Hlen].
    apply Nat.eqb_eq in Hlen. cbn [fmt_expr fexpr_tree]. unfold fmt_array.
    set (multi := format_multiline items).
    assert (Hit' : Forall (fun m => item_is_el m = true \/ item_ws_ok m = true) multi).
    { apply fm_loop_Forall. apply forallb_Forall in Hit. eapply Forall_impl; [|exact Hit]. intros m Hm. simpl in Hm. apply orb_true_iff in Hm. exact Hm. }
    assert (Hlen' : List.length (filter item_is_el multi) = List.length (map (fmt_expr fx (S lvl)) els)).
    { unfold multi, format_multiline. rewrite fm_loop_filter by apply item_nl_not_el. rewrite map_length. exact Hlen. }
    destruct multi as [|m0 multi'] eqn:Em.
    - (* "[]" *)
      destruct els as [|e els']; [|simpl in Hlen'; discriminate].
      change (toks_of_pieces [T k_lbr; T k_rbr]) with (mk T_LBRACKET :: [] ++ seg_toks [] ++ [mk T_RBRACKET]).
      apply (array_literal_rt E NT w [] [] []); [reflexivity | constructor | exact I].
    - rewrite <- Em in *. clear Em.
      set (closingP := if (if fix_br fx then last_is_nl_or_comment multi else last_is_nl multi) then [Ind lvl] else []).
      set (elsP := map (fmt_expr fx (S lvl)) els) in *.
      assert (Hshape : toks_of_pieces ([T k_lbr] ++ (if first_is_comment multi then [Sp] else []) ++ arr_loop (S lvl) multi elsP ++ closingP ++ [T k_rbr])
                       = mk T_LBRACKET :: (ind_tok (first_is_comment multi) ++ fst (segs_of (toks_of_pieces closingP) multi (map toks_of_pieces elsP)))
                         ++ seg_toks (snd (segs_of (toks_of_pieces closingP) multi (map toks_of_pieces elsP))) ++ [mk T_RBRACKET]).
      { rewrite app_assoc with (l := arr_loop (S lvl) multi elsP). rewrite !toks_app.
        rewrite <- (toks_app (arr_loop (S lvl) multi elsP) closingP). rewrite (arr_loop_toks lvl closingP multi elsP) by lia.
        destruct (segs_of (toks_of_pieces closingP) multi (map toks_of_pieces elsP)) as [lead ss]. cbn [fst snd].
        destruct (first_is_comment multi); cbn [ind_tok toks_of_pieces flat_map tok_of_piece app]; rewrite <- ?app_assoc; reflexivity. }
      rewrite Hshape.
      assert (Hcl : wsrun (toks_of_pieces closingP) = true).
      { unfold closingP. destruct (if fix_br fx then _ else _); [destruct lvl|]; reflexivity. }
      pose proof (segs_of_ok (toks_of_pieces closingP) multi (map toks_of_pieces elsP) Hcl Hit') as Hok.
      pose proof (segs_of_items (toks_of_pieces closingP) multi (map toks_of_pieces elsP)) as Hitems.
      rewrite map_length in Hitems. specialize (Hitems Hlen').
      destruct (segs_of (toks_of_pieces closingP) multi (map toks_of_pieces elsP)) as [lead ss]. cbn [fst snd] in *.
      destruct Hok as (O1 & O2 & _).
      apply (array_literal_rt E NT w _ ss (map fexpr_tree els)).
      + apply wsrun_app; [apply ind_tok_wsrun | exact O1].
      + (* the items are the formatted elements, in order *)
        clear - Hitems Hels. unfold elsP in Hitems. revert ss Hitems.
        induction els as [|e els IH]; intros ss Hitems.
        * destruct ss; [constructor | discriminate].
        * destruct ss as [|[it sep] ss']; [discriminate|]. cbn [map fst] in Hitems. injection Hitems as Hi Hrest.
          inversion Hels as [|? ? [H1 H2] Hels']; subst. constructor; [split; assumption|]. apply IH; auto.
      + exact O2.
  Qed.
End ArrayExpr.

Section Maps.
  Variable E : env.
  Hypothesis NT : no_tyerr E.

  (* a key token: as_ident turns it into the identifier [k] (identifiers and keywords) *)
  Definition key_tok_ok (kt : token) (k : str) : Prop :=
    ttype (as_ident kt) = T_IDENT /\ tlit (as_ident kt) = k /\ wsish kt = false /\
    ttype kt <> T_RCURLY /\ ttype kt <> T_EOF.

  Definition pair_toks (p : token * list token * list token) : list token :=
    let '(kt, v, sep) := p in kt :: mk T_COLON :: v ++ sep.
  Definition pairs_toks (ps : list (token * list token * list token)) : list token := flat_map pair_toks ps.

  Lemma tt_in_not l t : (forall x, In x l -> t <> x) -> tt_in l t = false.
  Proof. intro H. destruct (tt_in l t) eqn:X; [|reflexivity]. apply tt_in_true in X. destruct (H t X eq_refl). Qed.

  Lemma has_key_In k (acc : list (str * tree)) : has_key k acc = true -> In k (map fst acc).
  Proof.
    induction acc as [|[k' v] t IH]; simpl; [discriminate|]. intro H. apply orb_true_iff in H as [H|H].
    - left. apply str_eqb_eq in H. exact H.
    - right. auto.
  Qed.

  (* advance over a token that is directly followed by a non-blank token, outside a whitespace-sensitive context or not *)
  Lemma advance_plain st t rest' :
    rest st = t :: rest' -> wsish (look0 rest') = false ->
    rest (advance st) = rest' /\ wss (advance st) = wss st /\ errs (advance st) = errs st.
  Proof.
    intros Hr Hn. split; [|exact (advance_keeps st)].
    rewrite (rest_advance st t _ Hr), (wsish_is_ws _ Hn). destruct (is_wss st); reflexivity.
  Qed.

  Lemma pairs_toks_head ps trees r :
    Forall2 (fun p t => let '(kt, v, _) := p in RT E true v (snd t) /\ head_ok v /\ key_tok_ok kt (fst t)) ps trees ->
    wsish (look0 r) = false -> wsish (look0 (pairs_toks ps ++ r)) = false.
  Proof. intros HF Hr. destruct HF as [|[[kt v] sep] t ps' trees' (_ & _ & _ & _ & Hw & _) _]; [exact Hr | exact Hw]. Qed.

  Lemma map_pairs_loop f : forall ps trees acc st rest0 fuel outer,
    Forall2 (fun p t => let '(kt, v, _) := p in RT E true v (snd t) /\ head_ok v /\ key_tok_ok kt (fst t)) ps trees ->
    seps_ok ps ->
    NoDup (map fst acc ++ map fst trees) ->
    rest st = pairs_toks ps ++ mk T_RCURLY :: rest0 ->
    wss st = false :: outer ->
    (forall p, In p ps -> 2 * List.length (snd (fst p)) <= f) ->
    List.length (pairs_toks ps) < fuel ->
    exists st', parse_map_pairs E (parse_expr E f) fuel acc st = Some (Some (rev acc ++ trees), st')
                /\ same3 st st' (mk T_RCURLY :: rest0).
  Proof.
    induction ps as [|[[kt v] sep] ps IH]; intros trees acc st rest0 fuel outer HF Hseps Hnd Hr Hw Hf Hfuel.
    - inversion HF; subst. cbn [pairs_toks flat_map app] in Hr.
      destruct fuel as [|fu]; [simpl in Hfuel; lia|]. rewrite parse_map_pairs_eq. unfold cur_t, cur. rewrite Hr. cbn.
      exists st. rewrite app_nil_r. split; [reflexivity | repeat split; exact Hr].
    - inversion HF as [|? kt' ? trees' Hp HF']; subst. destruct kt' as [k t]. cbn [fst snd] in Hp.
      unfold key_tok_ok in Hp. destruct Hp as (Hrt & Hhd & Hk1 & Hk2 & Hk3 & Hk4 & Hk5). cbn [fst snd] in *.
      cbn [seps_ok] in Hseps. destruct Hseps as (Hsep & Hne & Hseps').
      set (next := pairs_toks ps ++ mk T_RCURLY :: rest0).
      assert (Hr1 : rest st = kt :: mk T_COLON :: v ++ sep ++ next).
      { rewrite Hr. unfold next. cbn [pairs_toks flat_map pair_toks app]. rewrite <- !app_assoc. reflexivity. }
      unfold pairs_toks in Hfuel. cbn [flat_map pair_toks app List.length] in Hfuel. fold (pairs_toks ps) in Hfuel. rewrite !app_length in Hfuel.
      destruct fuel as [|fu]; [lia|]. rewrite parse_map_pairs_eq.
      assert (Hcur : cur st = kt) by (unfold cur; rewrite Hr1; reflexivity).
      assert (Hct : cur_t st = ttype kt) by (unfold cur_t; rewrite Hcur; reflexivity).
      rewrite Hct, (tt_in_not [T_RCURLY; T_EOF] (ttype kt)) by (intros x [<-|[<-|[]]]; assumption).
      cbv zeta. unfold map_key_state. rewrite Hcur, Hk1, Hk2. cbn [toktype_beq].
      destruct (advance_plain st kt (mk T_COLON :: v ++ sep ++ next) Hr1 eq_refl) as (A1 & A2 & A3).
      (* the key is new *)
      assert (Hnew : has_key k acc = false).
      { destruct (has_key k acc) eqn:Hh; [|reflexivity]. apply has_key_In in Hh.
        exfalso. cbn [map fst] in Hnd. apply NoDup_remove_2 in Hnd. apply Hnd. apply in_or_app. left. exact Hh. }
      rewrite Hnew.
      assert (Ac : assert_token T_COLON (advance st) = (true, advance st)).
      { unfold assert_token, cur_t, cur. rewrite A1. reflexivity. }
      rewrite Ac. cbn [snd].
      destruct (advance_plain (advance st) (mk T_COLON) (v ++ sep ++ next) A1 (head_ok_nws v _ Hhd)) as (B1 & B2 & B3).
      destruct (item_run E f (S fu) v t sep next (advance (advance st))) as (st4 & st5 & P1 & P2 & D1 & D2 & D3); auto.
      { apply (pairs_toks_head ps trees'); [exact HF' | reflexivity]. }
      { intros ->. destruct ps as [|p2 ps2]; [apply Nat.le_refl | exfalso; apply Hne; [discriminate | reflexivity]]. }
      { apply (Hf (kt, v, sep)). left. reflexivity. }
      { lia. }
      rewrite P1. cbn [ret]. unfold tyerr. rewrite NT, P2.
      destruct (IH trees' ((k, t) :: acc) st5 rest0 fu outer HF' Hseps') as (st' & P3 & F1 & F2 & F3); auto.
      { cbn [map fst]. cbn [map fst] in Hnd. apply NoDup_cons.
        - apply NoDup_remove_2 in Hnd. intro Hin. apply Hnd. apply in_app_or in Hin as [Hin|Hin]; apply in_or_app; auto.
        - apply NoDup_remove_1 in Hnd. exact Hnd. }
      { rewrite D2, B2, A2. exact Hw. }
      { intros p Hp. apply Hf. right. exact Hp. }
      { lia. }
      exists st'. split.
      + rewrite P3. cbn [rev]. rewrite <- app_assoc. reflexivity.
      + repeat split; auto; [rewrite F2, D2, B2, A2 | rewrite F3, D3, B3, A3]; reflexivity.
  Qed.

  Lemma pairs_toks_len_item ps p : In p ps -> List.length (snd (fst p)) <= List.length (pairs_toks ps).
  Proof.
    induction ps as [|x ps IH]; intro H; [contradiction|]. unfold pairs_toks. cbn [flat_map]. rewrite app_length.
    destruct H as [->|H].
    - destruct p as [[kt v] sep]. cbn [pair_toks fst snd]. simpl. rewrite app_length. lia.
    - specialize (IH H). unfold pairs_toks in IH. lia.
  Qed.

  (* a map literal "{" w0 key ":" value sep ... "}" as a whole expression, in either mode *)
  Theorem map_literal_rt w w0 ps trees :
    wsrun w0 = true ->
    Forall2 (fun p t => let '(kt, v, _) := p in RT E true v (snd t) /\ head_ok v /\ key_tok_ok kt (fst t)) ps trees ->
    seps_ok ps -> NoDup (map fst trees) ->
    RT E w (mk T_LCURLY :: w0 ++ pairs_toks ps ++ [mk T_RCURLY]) (TMap trees).
  Proof.
    intros Hw0 HF Hseps Hnd. apply prefix_RT; [cbn; lia|]. intros st rest0 f Hw Hr Hws Hfuel.
    set (body := pairs_toks ps) in *.
    assert (Hlen : List.length (mk T_LCURLY :: w0 ++ body ++ [mk T_RCURLY]) = S (List.length w0 + List.length body + 1)).
    { cbn [List.length]. rewrite !app_length. simpl. lia. }
    rewrite Hlen in Hfuel.
    assert (Hr2 : rest st = mk T_LCURLY :: w0 ++ (body ++ mk T_RCURLY :: rest0)).
    { rewrite Hr. cbn [app]. rewrite <- !app_assoc. reflexivity. }
    assert (Hcur : cur_t st = T_LCURLY) by (unfold cur_t, cur; rewrite Hr2; reflexivity).
    unfold parse_prefix. rewrite Hcur. unfold parse_literal, cur. rewrite Hr2. cbn [look0 hd ttype mk].
    unfold parse_map_literal.
    assert (Hnext : wsish (look0 (body ++ mk T_RCURLY :: rest0)) = false) by (apply (pairs_toks_head ps trees); [exact HF | reflexivity]).
    assert (Hr3 : rest (push_wss false st) = mk T_LCURLY :: w0 ++ (body ++ mk T_RCURLY :: rest0)) by exact Hr2.
    destruct (advance_run (push_wss false st) (mk T_LCURLY) w0 _ Hr3 Hw0 Hnext) as (run' & A1 & A2 & A3 & A4 & A5).
    destruct (pmw_run f run' (advance (push_wss false st)) (body ++ mk T_RCURLY :: rest0)) as (st2 & P2 & B1 & B2 & B3); auto; [lia|].
    rewrite P2.
    destruct (map_pairs_loop f ps trees [] st2 rest0 f (wss st) HF Hseps) as (st3 & P3 & C1 & C2 & C3); auto.
    { rewrite B2, A4. reflexivity. }
    { intros p Hp. pose proof (pairs_toks_len_item ps p Hp). fold body in H. lia. }
    { fold body. lia. }
    rewrite P3. cbn [rev app].
    assert (A : assert_token T_RCURLY st3 = (true, st3)).
    { unfold assert_token, cur_t, cur. rewrite C1. reflexivity. }
    rewrite A.
    eexists. split; [reflexivity|].
    apply (close_pushed w st st3 (mk T_RCURLY)); auto; [rewrite C2, B2, A4 | rewrite C3, B3, A5]; reflexivity.
  Qed.
End Maps.

Definition psegs_of : list token -> list str -> list (str * list piece) -> list token * list (token * list token * list token) :=
  gsegs item_is_key (fun m kvs => ((tok_of_text m, toks_of_pieces (lookup_pieces m kvs)), kvs)).

Lemma psegs_of_ok closing kvs multi :
  wsrun closing = true ->
  Forall (fun m => item_is_key m = true \/ item_ws_ok m = true) multi ->
  let '(lead, ss) := psegs_of closing multi kvs in
  wsrun lead = true /\ seps_ok ss /\
  (ss <> [] -> match multi with m :: _ => item_is_key m = false -> lead <> [] | [] => True end).
Proof. apply gsegs_ok, item_nl_not_key. Qed.

Lemma map_loop_toks lvl closingP kvs multi :
  toks_of_pieces (map_loop (S lvl) multi kvs ++ closingP) =
  (let '(lead, ss) := psegs_of (toks_of_pieces closingP) multi kvs in lead ++ pairs_toks ss).
Proof.
  unfold psegs_of. induction multi as [|m r IH].
  - cbn [map_loop app gsegs pairs_toks flat_map]. rewrite app_nil_r. reflexivity.
  - cbn [map_loop gsegs]. destruct (gsegs _ _ (toks_of_pieces closingP) r kvs) as [run ss] eqn:Es.
    destruct (item_is_key m) eqn:Ek.
    + unfold pairs_toks. cbn [app flat_map pair_toks]. fold (pairs_toks ss).
      rewrite <- !app_assoc. cbn [app].
      change (T m :: T k_colon :: lookup_pieces m kvs ++ (if next_not_nl r then [Sp] else []) ++ map_loop (S lvl) r kvs ++ closingP)
        with ([T m; T k_colon] ++ lookup_pieces m kvs ++ (if next_not_nl r then [Sp] else []) ++ (map_loop (S lvl) r kvs ++ closingP)).
      rewrite (toks_app [T m; T k_colon]), (toks_app (lookup_pieces m kvs)), (toks_app (if next_not_nl r then [Sp] else [])), IH.
      destruct (next_not_nl r); cbn [ind_tok toks_of_pieces flat_map tok_of_piece app]; rewrite <- ?app_assoc; reflexivity.
    + rewrite <- !app_assoc. rewrite (toks_app (raw_item m)), (toks_app (if next_not_nl r then [Ind (S lvl)] else [])), IH.
      destruct (next_not_nl r); cbn [ind_tok toks_of_pieces flat_map tok_of_piece app]; rewrite <- ?app_assoc; reflexivity.
Qed.

Lemma psegs_of_keys closing kvs multi :
  map (fun p => (fst (fst p), snd (fst p))) (snd (psegs_of closing multi kvs))
  = map (fun k => (tok_of_text k, toks_of_pieces (lookup_pieces k kvs))) (filter item_is_key multi).
Proof.
  unfold psegs_of. induction multi as [|m r IH]; [reflexivity|]. cbn [gsegs filter].
  destruct (gsegs _ _ closing r kvs) as [run ss]. cbn [snd] in IH. destruct (item_is_key m); cbn [snd map fst]; [f_equal|]; exact IH.
Qed.

Lemma lookup_pieces_combine k keys : forall (vals : list (list piece)) i v,
  NoDup keys -> nth_error keys i = Some k -> nth_error vals i = Some v ->
  lookup_pieces k (combine keys vals) = v.
Proof.
  induction keys as [|k0 keys IH]; intros vals i v Hnd Hk Hv; [destruct i; discriminate|].
  destruct vals as [|v0 vals]; [destruct i; discriminate|]. cbn [combine lookup_pieces].
  destruct i as [|i]; cbn [nth_error] in Hk, Hv.
  - inversion Hk; inversion Hv; subst. rewrite str_eqb_refl. reflexivity.
  - inversion Hnd as [|? ? Hnot Hnd']; subst.
    destruct (str_eqb k0 k) eqn:Ee.
    + apply str_eqb_eq in Ee. subst. exfalso. apply Hnot. eapply nth_error_In; eauto.
    + eapply IH; eauto.
Qed.

Lemma key_text_spec k : key_text k = true -> key_tok_ok (tok_of_text k) k.
Proof.
  unfold key_text, key_tok_ok. intro H.
  apply andb_true_iff in H as [H _]. apply andb_true_iff in H as [H He]. apply andb_true_iff in H as [H Hc].
  apply andb_true_iff in H as [H Hw]. apply andb_true_iff in H as [Hi Hl].
  apply negb_true_iff in He, Hc, Hw.
  split; [apply toktype_beq_eq, Hi|]. split; [apply str_eqb_eq, Hl|]. split; [exact Hw|].
  split; intro Hx; rewrite Hx in *; discriminate.
Qed.

Lemma nodup_str_NoDup l : nodup_str l = true -> NoDup l.
Proof.
  induction l as [|x t IH]; simpl; intro H; [constructor|]. apply andb_true_iff in H as [H1 H2].
  constructor; auto. intro Hin. apply mem_str_In in Hin. rewrite Hin in H1. discriminate.
Qed.

Section MapExpr.
  Variable E : env.
  Hypothesis NT : no_tyerr E.
  Variable fx : fixes.

  (* a map literal whose values round-trip as list items round-trips as a whole *)
  Theorem map_expr_rt w lvl items keys vals :
    wf_expr (FMap items keys vals) = true -> forallb key_text keys = true ->
    Forall (fun e => RT E true (toks_of_pieces (fmt_expr fx (S lvl) e)) (fexpr_tree e)
                     /\ head_ok (toks_of_pieces (fmt_expr fx (S lvl) e))) vals ->
    RT E w (toks_of_pieces (fmt_expr fx lvl (FMap items keys vals))) (fexpr_tree (FMap items keys vals)).
  Proof.
    intros Hwf Hkt Hvals. cbn [wf_expr] in Hwf.
    apply andb_true_iff in Hwf as [Hwf _]. apply andb_true_iff in Hwf as [Hwf Hlen]. apply andb_true_iff in Hwf as [Hwf Hnd].
    apply andb_true_iff in Hwf as [Hwf Hk]. apply Nat.eqb_eq in Hlen. apply nodup_str_NoDup in Hnd. revert Hk.
    destruct (list_eq_dec str_eq_dec (filter item_is_key items) keys) as [Hk|]; [intros _|discriminate].
    cbn [fmt_expr fexpr_tree]. unfold fmt_map.
    set (multi := format_multiline items).
    set (kvs := combine keys (map (fmt_expr fx (S lvl)) vals)).
    assert (Hit' : Forall (fun m => item_is_key m = true \/ item_ws_ok m = true) multi).
    { apply fm_loop_Forall. apply forallb_Forall in Hwf. eapply Forall_impl; [|exact Hwf]. intros m Hm. simpl in Hm.
      apply orb_true_iff in Hm as [Hm|Hm]; [left; apply andb_true_iff in Hm; tauto | right; exact Hm]. }
    assert (Hkeys : filter item_is_key multi = keys).
    { unfold multi, format_multiline. rewrite fm_loop_filter by apply item_nl_not_key. exact Hk. }
    destruct multi as [|m0 multi'] eqn:Em.
    - destruct keys as [|k keys']; [|discriminate Hkeys]. destruct vals; [|discriminate Hlen].
      change (toks_of_pieces [T k_lcu; T k_rcu]) with (mk T_LCURLY :: [] ++ pairs_toks [] ++ [mk T_RCURLY]).
      apply (map_literal_rt E NT w [] [] []); [reflexivity | constructor | exact I | constructor].
    - rewrite <- Em in *. clear Em.
      set (closingP := if (if fix_br fx then last_is_nl_or_comment multi else last_is_nl multi) then [Ind lvl] else []).
      assert (Hshape : toks_of_pieces ([T k_lcu] ++ (if first_is_comment multi then [Sp] else []) ++ map_loop (S lvl) multi kvs ++ closingP ++ [T k_rcu])
                       = mk T_LCURLY :: (ind_tok (first_is_comment multi) ++ fst (psegs_of (toks_of_pieces closingP) multi kvs))
                         ++ pairs_toks (snd (psegs_of (toks_of_pieces closingP) multi kvs)) ++ [mk T_RCURLY]).
      { rewrite app_assoc with (l := map_loop (S lvl) multi kvs). rewrite !toks_app.
        rewrite <- (toks_app (map_loop (S lvl) multi kvs) closingP). rewrite (map_loop_toks lvl closingP kvs multi).
        destruct (psegs_of (toks_of_pieces closingP) multi kvs) as [lead ss]. cbn [fst snd].
        destruct (first_is_comment multi); cbn [ind_tok toks_of_pieces flat_map tok_of_piece app]; rewrite <- ?app_assoc; reflexivity. }
      rewrite Hshape.
      assert (Hcl : wsrun (toks_of_pieces closingP) = true).
      { unfold closingP. destruct (if fix_br fx then _ else _); [destruct lvl|]; reflexivity. }
      pose proof (psegs_of_ok (toks_of_pieces closingP) kvs multi Hcl Hit') as Hok.
      pose proof (psegs_of_keys (toks_of_pieces closingP) kvs multi) as Hpk. rewrite Hkeys in Hpk.
      destruct (psegs_of (toks_of_pieces closingP) multi kvs) as [lead ss]. cbn [fst snd] in *.
      destruct Hok as (O1 & O2 & _).
      apply (map_literal_rt E NT w _ ss (combine keys (map fexpr_tree vals))).
      + apply wsrun_app; [apply ind_tok_wsrun | exact O1].
      + (* the pairs are the keys with their formatted values, in order *)
        assert (Hgen : forall i k, nth_error keys i = Some k ->
                  exists e, nth_error vals i = Some e /\ lookup_pieces k kvs = fmt_expr fx (S lvl) e).
        { intros i k Hi. assert (Hlt : (i < List.length vals)%nat) by (rewrite <- Hlen; apply nth_error_Some; congruence).
          destruct (nth_error vals i) as [e|] eqn:Ev; [|apply nth_error_None in Ev; lia].
          exists e. split; [reflexivity|]. unfold kvs. eapply lookup_pieces_combine; eauto. rewrite nth_error_map, Ev. reflexivity. }
        clearbody kvs. clear - Hpk Hgen Hvals Hkt Hlen. revert ss vals Hpk Hgen Hvals Hlen.
        induction keys as [|k keys IH]; intros ss vals Hpk Hgen Hvals Hlen.
        * destruct ss; [constructor | discriminate].
        * destruct ss as [|[[kt v] sep] ss']; [discriminate|]. cbn [map fst snd] in Hpk. injection Hpk as Hkt1 Hv1 Hrest.
          destruct vals as [|e vals']; [discriminate|].
          cbn [forallb] in Hkt. apply andb_true_iff in Hkt as [Hk1 Hk2].
          inversion Hvals as [|? ? [H1 H2] Hvals']; subst.
          destruct (Hgen 0%nat k eq_refl) as (e0 & He0 & Hl0). cbn [nth_error] in He0. inversion He0; subst e0.
          cbn [combine map]. constructor.
          -- cbn [fst snd]. rewrite Hl0. split; [exact H1|]. split; [exact H2|]. apply key_text_spec, Hk1.
          -- apply (IH Hk2 ss' vals'); auto.
             intros i k' Hi. destruct (Hgen (S i) k' Hi) as (e' & He' & Hl'). exists e'. split; auto.
      + exact O2.
      + rewrite map_fst_combine by (rewrite map_length; exact Hlen). exact Hnd.
  Qed.
End MapExpr.

Lemma Forall2_len {A B} (R : A -> B -> Prop) l l' : Forall2 R l l' -> List.length l = List.length l'.
Proof. induction 1; simpl; congruence. Qed.

Section Calls.
  Variable E : env.
  Hypothesis NT : no_tyerr E.

  (* what ends an argument list: ")" "]" end of line / input *)
  Definition list_end (t : token) : Prop :=
    match ttype t with T_RPAREN | T_RBRACKET | T_EOF | T_NL | T_COMMENT => True | _ => False end.

  Lemma list_end_stop t : list_end t -> stop_tok true lowestPrec t.
  Proof.
    unfold list_end, stop_tok. destruct (ttype t) eqn:T; try contradiction; intros _;
      first [right; left; reflexivity | right; right; rewrite ?rparen_lowest, ?rbracket_lowest; apply Nat.le_refl].
  Qed.

  Lemma list_end_nws t : list_end t -> is_ws t = false.
  Proof. unfold list_end, is_ws. destruct (ttype t); try contradiction; reflexivity. Qed.

  Definition more_args (r : list (list token)) : list token := flat_map (fun x => mk T_WS :: x) r.

  Lemma more_args_len args :
    List.length args <= List.length (more_args args) /\ forall a, In a args -> List.length a <= List.length (more_args args).
  Proof.
    induction args as [|x r [IH1 IH2]]; [split; [apply Nat.le_refl | contradiction]|].
    cbn [more_args flat_map app]. fold (more_args r). cbn [List.length]. rewrite app_length.
    split; [lia|]. intros a [->|H]; [lia|]. specialize (IH2 a H). lia.
  Qed.

  Lemma pop_wss_ws st b w' rest' :
    rest st = mk T_WS :: rest' -> wss st = b :: false :: w' -> wsish (look0 rest') = false ->
    rest (pop_wss st) = rest' /\ wss (pop_wss st) = false :: w' /\ errs (pop_wss st) = errs st.
  Proof.
    intros Hr Hw Hn. rewrite (pop_wss_eq st b _ Hw), Hr. cbv zeta. cbn [hd negb andb look0 is_ws ttype mk].
    destruct (advance_plain {| prev := prev st; rest := mk T_WS :: rest'; peek := peek st; wss := false :: w'; errs := errs st; used := used st |}
                (mk T_WS) rest') as (A1 & A2 & A3); auto.
  Qed.

  (* parseExprList: the cursor is at the first argument (or at the end) *)
  Lemma expr_list_loop f : forall args trees acc st rest0 fuel outer,
    Forall2 (fun a t => RT E true a t /\ head_ok a) args trees ->
    rest st = (match args with [] => [] | a :: r => a ++ more_args r end) ++ rest0 ->
    wss st = false :: outer ->
    list_end (look0 rest0) ->
    (forall a, In a args -> 2 * List.length a <= f) ->
    List.length args < fuel ->
    exists st', parse_expr_list (parse_expr E f) fuel acc st = Some (Some (rev acc ++ trees), st') /\ same3 st st' rest0.
  Proof.
    induction args as [|a r IH]; intros trees acc st rest0 fuel outer HF Hr Hw Hend Hf Hfuel.
    - inversion HF; subst. cbn [app] in Hr. destruct fuel as [|fu]; [simpl in Hfuel; lia|]. rewrite parse_expr_list_eq.
      unfold cur_t, cur, is_at_eol, cur_t, cur. rewrite Hr. unfold list_end in Hend.
      exists st. rewrite app_nil_r.
      destruct (ttype (look0 rest0)) eqn:T; try contradiction; cbn [is_eol]; (split; [reflexivity | repeat split; exact Hr]).
    - inversion HF as [|? t ? trees' [Hrt Hhd] HF']; subst.
      destruct fuel as [|fu]; [simpl in Hfuel; lia|]. rewrite parse_expr_list_eq.
      destruct a as [|t0 a']; [contradiction|].
      set (tail := more_args r ++ rest0).
      assert (Hr1 : rest st = (t0 :: a') ++ tail) by (rewrite Hr; unfold tail; rewrite <- app_assoc; reflexivity).
      assert (Hcur : cur_t st = ttype t0) by (unfold cur_t, cur; rewrite Hr1; reflexivity).
      assert (Heol : is_at_eol st = false).
      { unfold is_at_eol. rewrite Hcur. cbn [head_ok] in Hhd. unfold is_eol. destruct (ttype t0); try contradiction; reflexivity. }
      assert (Hin : tt_in [T_RPAREN; T_RBRACKET; T_EOF] (ttype t0) = false).
      { cbn [head_ok] in Hhd. destruct (ttype t0); try contradiction; reflexivity. }
      rewrite Hcur, Hin, Heol. cbn [orb].
      assert (Hstop : stop_tok true lowestPrec (look0 tail)).
      { unfold tail. destruct r as [|a2 r2]; [cbn [more_args flat_map app]; apply list_end_stop, Hend|].
        cbn [more_args flat_map app look0 hd]. left. split; reflexivity. }
      destruct (Hrt (push_wss true st) tail f) as (st1 & P1 & Q1 & Q2 & Q3); auto.
      { intro; discriminate. }
      { apply (Hf (t0 :: a')). left. reflexivity. }
      unfold parse_expr_wss. rewrite P1. cbn [ret].
      (* back in the argument list: skip the separating blank *)
      assert (Hstep : exists st2, advance_if_ws (pop_wss st1) = st2 /\
                rest st2 = (match r with [] => [] | a2 :: r2 => a2 ++ more_args r2 end) ++ rest0 /\
                wss st2 = false :: outer /\ errs st2 = errs st).
      { destruct r as [|a2 r2].
        - unfold tail in Q1. cbn [more_args flat_map app] in Q1.
          destruct (pop_wss_nop st1 true (false :: outer)) as (A1 & A2 & A3).
          { rewrite Q2. cbn. rewrite Hw. reflexivity. }
          { intros _. rewrite Q1. exact (list_end_nws _ Hend). }
          exists (pop_wss st1). split.
          + unfold advance_if_ws, cur. rewrite A1, Q1, (list_end_nws _ Hend). reflexivity.
          + rewrite A1, A2, A3, Q1, Q3. auto.
        - inversion HF' as [|? ? ? ? [_ Hh2] _]; subst.
          unfold tail in Q1. cbn [more_args flat_map] in Q1. fold (more_args r2) in Q1. rewrite <- app_assoc in Q1. cbn [app] in Q1.
          assert (Hn2 : wsish (look0 ((a2 ++ more_args r2) ++ rest0)) = false) by (rewrite <- app_assoc; apply head_ok_nws, Hh2).
          destruct (pop_wss_ws st1 true outer ((a2 ++ more_args r2) ++ rest0)) as (A1 & A2 & A3); auto.
          { rewrite Q1. rewrite <- app_assoc. reflexivity. }
          { rewrite Q2. cbn. rewrite Hw. reflexivity. }
          exists (pop_wss st1). split.
          + unfold advance_if_ws, cur. rewrite A1, (wsish_is_ws _ Hn2). reflexivity.
          + rewrite A1, A2, A3, Q3. auto. }
      destruct Hstep as (st2 & <- & R2 & W2 & E2).
      destruct (IH trees' (t :: acc) (advance_if_ws (pop_wss st1)) rest0 fu outer HF' R2 W2 Hend) as (st' & P3 & F1 & F2 & F3).
      { intros x Hx. apply Hf. right. exact Hx. }
      { simpl in Hfuel. lia. }
      exists st'. split.
      + rewrite P3. cbn [rev]. rewrite <- app_assoc. reflexivity.
      + repeat split; auto; [rewrite F2, W2, Hw | rewrite F3, E2]; reflexivity.
  Qed.
  Lemma advance_skip_ws st t rest' :
    is_wss st = false -> rest st = t :: mk T_WS :: rest' ->
    rest (advance st) = rest' /\ wss (advance st) = wss st /\ errs (advance st) = errs st.
  Proof.
    intros W Hr. split; [|exact (advance_keeps st)]. rewrite (rest_advance st t _ Hr), W. reflexivity.
  Qed.

  (* parseFuncCall as the call statement uses it (isTopLevel = true): arguments are parsed whether or
     not the function is niladic *)
  Lemma func_call_stmt f fuel niladic name args trees st rest0 outer :
    arity_wrong E name (List.length args) = false ->
    Forall2 (fun a t => RT E true a t /\ head_ok a) args trees ->
    rest st = ident_tok name :: more_args args ++ rest0 ->
    wss st = false :: outer ->
    list_end (look0 rest0) ->
    (forall a, In a args -> 2 * List.length a <= f) ->
    List.length args < fuel ->
    exists st', parse_func_call E (parse_expr E f) fuel true niladic st = Some (Some (TCall name trees), st') /\ same3 st st' rest0.
  Proof.
    intros Har HF Hr Hw Hend Hf Hfuel.
    unfold parse_func_call. cbn [orb]. unfold cur. rewrite Hr. cbn [look0 hd tlit ident_tok].
    assert (Hlen : List.length trees = List.length args) by (symmetry; eapply Forall2_len; eauto).
    assert (Wf : is_wss st = false) by (unfold is_wss; rewrite Hw; reflexivity).
    assert (Hadv : rest (advance st) = (match args with [] => [] | a :: r => a ++ more_args r end) ++ rest0
                   /\ wss (advance st) = wss st /\ errs (advance st) = errs st).
    { destruct args as [|a r].
      - cbn [more_args flat_map app] in Hr |- *. apply (advance_exact st _ rest0 Hr). right. exact (list_end_nws _ Hend).
      - cbn [more_args flat_map] in Hr. fold (more_args r) in Hr.
        apply (advance_skip_ws st (ident_tok name) _ Wf). rewrite Hr. cbn [app]. rewrite <- !app_assoc. reflexivity. }
    destruct Hadv as (A1 & A2 & A3).
    destruct (expr_list_loop f args trees [] (advance st) rest0 fuel outer HF A1) as (st' & P & Q1 & Q2 & Q3); auto; try (rewrite A2; exact Hw).
    rewrite P. cbn [rev app]. rewrite Hlen, Har. unfold tyerr. rewrite NT.
    eexists. split; [reflexivity|]. repeat split; auto; [rewrite Q2 | rewrite Q3]; auto.
  Qed.

  (* parseFuncCall at top level: name arg arg ... up to the end of the list *)
  Lemma func_call_top f fuel name args trees st rest0 outer :
    func_of E name = Some false ->
    arity_wrong E name (List.length args) = false ->
    Forall2 (fun a t => RT E true a t /\ head_ok a) args trees ->
    rest st = ident_tok name :: more_args args ++ rest0 ->
    wss st = false :: outer ->
    list_end (look0 rest0) ->
    (forall a, In a args -> 2 * List.length a <= f) ->
    List.length args < fuel ->
    exists st', parse_toplevel E (parse_expr E f) fuel st = Some (Some (TCall name trees), st') /\ same3 st st' rest0.
  Proof.
    intros Hfn Har HF Hr Hw Hend Hf Hfuel.
    unfold parse_toplevel. unfold cur_t, cur. rewrite Hr. cbn [look0 hd ttype tlit ident_tok]. rewrite Hfn.
    apply (func_call_stmt f fuel false name args trees st rest0 outer); assumption.
  Qed.

  (* "(" name arg ... ")" as a whole expression *)
  Theorem group_call_rt w name args trees :
    func_of E name = Some false ->
    arity_wrong E name (List.length args) = false ->
    Forall2 (fun a t => RT E true a t /\ head_ok a) args trees ->
    RT E w (mk T_LPAREN :: ident_tok name :: more_args args ++ [mk T_RPAREN]) (TGroup (TCall name trees)).
  Proof.
    intros Hfn Har HF. apply prefix_RT; [cbn; lia|]. intros st rest0 f Hw Hr Hws Hfuel.
    destruct (more_args_len args) as [Hn Hargs].
    assert (Hlen : List.length (mk T_LPAREN :: ident_tok name :: more_args args ++ [mk T_RPAREN]) = S (S (List.length (more_args args) + 1))).
    { cbn [List.length]. rewrite app_length. simpl. lia. }
    rewrite Hlen in Hfuel.
    assert (Hr2 : rest st = mk T_LPAREN :: ident_tok name :: more_args args ++ mk T_RPAREN :: rest0).
    { rewrite Hr. cbn [app]. rewrite <- !app_assoc. reflexivity. }
    assert (Hcur : cur_t st = T_LPAREN) by (unfold cur_t, cur; rewrite Hr2; reflexivity).
    unfold parse_prefix. rewrite Hcur. unfold parse_grouped.
    destruct (advance_exact (push_wss false st) (mk T_LPAREN) (ident_tok name :: more_args args ++ mk T_RPAREN :: rest0)) as (A1 & A2 & A3); auto.
    destruct (func_call_top f f name args trees (advance (push_wss false st)) (mk T_RPAREN :: rest0) (wss st)) as (st2 & P & Q1 & Q2 & Q3); auto.
    { reflexivity. }
    { intros a Ha. specialize (Hargs a Ha). lia. }
    { lia. }
    rewrite P.
    assert (A : assert_token T_RPAREN st2 = (true, st2)).
    { unfold assert_token, cur_t, cur. rewrite Q1. reflexivity. }
    rewrite A.
    eexists. split; [reflexivity|].
    apply (close_pushed w st st2 (mk T_RPAREN)); auto; [rewrite Q2, A2 | rewrite Q3, A3]; reflexivity.
  Qed.

  (* a function without parameters, written as a bare name, as a whole expression *)
  Theorem niladic_call_rt w name :
    func_of E name = Some true ->
    RT E w [ident_tok name] (TCall name []).
  Proof.
    intro Hfn. apply prefix_RT; [apply Nat.le_refl|]. intros st rest0 f Hw Hr Hws _.
    assert (Hr2 : rest st = ident_tok name :: rest0) by exact Hr.
    unfold parse_prefix, cur_t, cur. rewrite Hr2. cbn [look0 hd ttype ident_tok].
    unfold parse_ident_expr, cur. rewrite Hr2. cbn [look0 hd tlit ident_tok]. rewrite Hfn.
    unfold parse_func_call. cbn [orb negb]. unfold cur. rewrite Hr2. cbn [look0 hd tlit ident_tok].
    destruct (advance_exact st (ident_tok name) rest0 Hr2) as (A1 & A2 & A3).
    { destruct w; [left; exact Hw | right; apply Hws; reflexivity]. }
    eexists. split; [reflexivity|]. repeat split; assumption.
  Qed.
End Calls.

(* closure: expressions built from the layered fragment, array / map literals, parenthesised calls and niladic calls *)
Section Closure.
  Variable E : env.
  Hypothesis NT : no_tyerr E.
  Hypothesis Hfix : e_fix_slice E = true.
  Variable fx : fixes.

  (* the fragment of the layered grammar, with its side conditions; [w]: in a whitespace-sensitive list *)
  Definition base_ok (w : bool) (e : fexpr) : Prop :=
    frag e = true /\ prec_ok e = true /\ lex_ok e = true /\ (w = true -> tight e = true) /\
    Forall (var_in_scope E) (vars_of e).

  (* An expression that is, as a whole,
       - an expression of the layered fragment, or
       - an array / map literal (single- or multi-line) whose items are such expressions, or
       - a parenthesised call  (f a b ...)  whose arguments are such expressions, or
       - a call of a function without parameters written as a bare name.
     Literals and calls are NOT allowed as operands of operators / index / dot here (the layered
     grammar of PrattProofs.v has no production for them). *)
  Fixpoint item_ok (w : bool) (e : fexpr) {struct e} : Prop :=
    let all := fix all (l : list fexpr) : Prop := match l with [] => True | x :: t => item_ok true x /\ all t end in
    match e with
    | FAny e' => item_ok w e'
    | FArr items els => wf_expr (FArr items els) = true /\ all els
    | FMap items keys vals => wf_expr (FMap items keys vals) = true /\ forallb key_text keys = true /\ all vals
    | FGroup (FCall n args) =>
        ident_text n = true /\ func_of E n = Some false /\ arity_wrong E n (List.length args) = false /\ all args
    | FCall n [] => ident_text n = true /\ func_of E n = Some true
    | _ => base_ok w e
    end.

  Definition RTH (w : bool) (lvl : nat) (e : fexpr) : Prop :=
    RT E w (toks_of_pieces (fmt_expr fx lvl e)) (fexpr_tree e) /\ head_ok (toks_of_pieces (fmt_expr fx lvl e)).

  Lemma all_Forall (P : fexpr -> Prop) l :
    (fix all (l : list fexpr) : Prop := match l with [] => True | x :: t => P x /\ all t end) l <-> Forall P l.
  Proof. induction l as [|x t IH]; split; intro H; [constructor | exact I | destruct H; constructor; tauto | inversion H; subst; tauto]. Qed.

  Lemma base_rt w lvl e : base_ok w e -> RTH w lvl e.
  Proof.
    intros (Hf & Hp & Hl & Ht & Hv). split.
    - intros st rest0 fuel Hw Hr Hws Hstop Hfuel.
      destruct (format_parse_roundtrip E fx lvl e st rest0 fuel Hf Hp Hl NT Hfix Hv Hr) as (st' & P & Q); auto.
      + rewrite Hw. exact Ht.
      + rewrite Hw. exact Hws.
      + rewrite Hw. exact Hstop.
      + exists st'. split; [exact P | exact Q].
    - pose proof (render_to_lexp fx e (frag_FR e Hf Hp Hl) false lvl) as Hren. cbn [wsl] in Hren. rewrite app_nil_r in Hren.
      rewrite <- Hren. destruct (render_first (to_lexp false e)) as [r ->]. cbn [head_ok].
      pose proof (first_tok_prefix (to_lexp false e)) as Hpt. unfold prefix_tt in Hpt.
      repeat (destruct Hpt as [H|Hpt]; [rewrite H; exact I|]). rewrite Hpt; exact I.
  Qed.

  Lemma toks_call lvl n args : ident_text n = true ->
    toks_of_pieces (fmt_expr fx lvl (FCall n args)) = ident_tok n :: more_args (map (fun a => toks_of_pieces (fmt_expr fx lvl a)) args).
  Proof.
    intro Hn. cbn [fmt_expr]. change (T n :: ?x) with ([T n] ++ x).
    cbn [toks_of_pieces flat_map tok_of_piece app]. rewrite (ident_text_spec n Hn). f_equal.
    induction args as [|a r IH]; [reflexivity|]. cbn [flat_map map more_args].
    fold (toks_of_pieces (flat_map (fun a0 => Sp :: fmt_expr fx lvl a0) r)).
    change (Sp :: fmt_expr fx lvl a) with ([Sp] ++ fmt_expr fx lvl a).
    rewrite <- app_assoc. unfold toks_of_pieces at 1. rewrite flat_map_app. cbn [flat_map tok_of_piece app].
    fold (toks_of_pieces (fmt_expr fx lvl a ++ flat_map (fun a0 => Sp :: fmt_expr fx lvl a0) r)).
    rewrite toks_app. unfold toks_of_pieces at 2. rewrite IH. reflexivity.
  Qed.

  (* item_ok as a derivation: the nested matches of the Fixpoint resolved once *)
  Inductive IT : bool -> fexpr -> Prop :=
  | IT_any w e : IT w e -> IT w (FAny e)
  | IT_arr w items els : wf_expr (FArr items els) = true -> (forall a, In a els -> IT true a) -> IT w (FArr items els)
  | IT_map w items keys vals : wf_expr (FMap items keys vals) = true -> forallb key_text keys = true ->
      (forall a, In a vals -> IT true a) -> IT w (FMap items keys vals)
  | IT_call w n args : ident_text n = true -> func_of E n = Some false -> arity_wrong E n (List.length args) = false ->
      (forall a, In a args -> IT true a) -> IT w (FGroup (FCall n args))
  | IT_nil w n : ident_text n = true -> func_of E n = Some true -> IT w (FCall n [])
  | IT_base w e : base_ok w e -> IT w e.

  (* the second component is the induction hypothesis a group needs for the arguments of the call inside it *)
  Lemma item_IT_aux e :
    (forall w, item_ok w e -> IT w e) /\
    match e with FCall _ args => forall a, In a args -> item_ok true a -> IT true a | _ => True end.
  Proof.
    induction e as [n|b t|v q|b|e IH|items els IH|items keys vals IH|n args IH|op r IH|op w0 l r IHl IHr|l i IHl IHi|l s e IHl IHs IHe|l k IHl|l t IHl|e IH] using fexpr_ind';
      (split; [|try exact I]); try (intros w Hok; apply IT_base; exact Hok).
    - intros w Hok. apply IT_any, (proj1 IH), Hok.
    - intros w [Hwf Hall]. apply all_Forall in Hall. rewrite Forall_forall in IH, Hall.
      apply IT_arr; [exact Hwf|]. intros a Ha. apply (proj1 (IH a Ha)), Hall, Ha.
    - intros w (Hwf & Hk & Hall). apply all_Forall in Hall. rewrite Forall_forall in IH, Hall.
      apply IT_map; [exact Hwf | exact Hk |]. intros a Ha. apply (proj1 (IH a Ha)), Hall, Ha.
    - intros w Hok. destruct args as [|a r]; [|apply IT_base; exact Hok]. destruct Hok as [Hn Hfn]. apply IT_nil; assumption.
    - rewrite Forall_forall in IH. intros a Ha Hok. apply (proj1 (IH a Ha)), Hok.
    - intros w Hok. destruct e as [| | | | | | |n args| | | | | | |]; try (apply IT_base; exact Hok).
      destruct Hok as (Hn & Hfn & Har & Hall). apply all_Forall in Hall. rewrite Forall_forall in Hall.
      apply IT_call; auto. intros a Ha. apply (proj2 IH a Ha), Hall, Ha.
  Qed.

  Lemma item_IT w e : item_ok w e -> IT w e.
  Proof. apply (proj1 (item_IT_aux e)). Qed.

  Lemma group_call_toks lvl n args : ident_text n = true ->
    toks_of_pieces (fmt_expr fx lvl (FGroup (FCall n args)))
    = mk T_LPAREN :: ident_tok n :: more_args (map (fun a => toks_of_pieces (fmt_expr fx lvl a)) args) ++ [mk T_RPAREN].
  Proof.
    intro Hn. cbn [fmt_expr]. rewrite !toks_app. change (T n :: flat_map (fun a => Sp :: fmt_expr fx lvl a) args) with (fmt_expr fx lvl (FCall n args)).
    rewrite (toks_call lvl n args Hn). reflexivity.
  Qed.

  Lemma IT_rt : forall w e, IT w e -> forall lvl, RTH w lvl e.
  Proof.
    induction 1 as [w e _ IH|w items els Hwf _ IH|w items keys vals Hwf Hk _ IH|w n args Hn Hfn Har _ IH|w n Hn Hfn|w e Hb]; intro lvl.
    - exact (IH lvl).
    - split.
      + apply (array_expr_rt E NT fx w lvl items els Hwf). apply Forall_forall. intros x Hx. exact (IH x Hx (S lvl)).
      + cbn [fmt_expr]. unfold fmt_array. destruct (format_multiline items); exact I.
    - split.
      + apply (map_expr_rt E NT fx w lvl items keys vals Hwf Hk). apply Forall_forall. intros x Hx. exact (IH x Hx (S lvl)).
      + cbn [fmt_expr]. unfold fmt_map. destruct (format_multiline items); exact I.
    - unfold RTH. rewrite (group_call_toks lvl n args Hn). split; [|exact I]. cbn [fexpr_tree].
      apply group_call_rt; auto; [rewrite map_length; exact Har|].
      clear - IH. induction args as [|a r IHr]; [constructor|]. cbn [map]. constructor.
      + apply IH. left. reflexivity.
      + apply IHr. intros x Hx. apply IH. right. exact Hx.
    - unfold RTH. rewrite (toks_call lvl n [] Hn). split; [|exact I]. cbn [map more_args flat_map fexpr_tree]. apply niladic_call_rt; auto.
    - apply base_rt, Hb.
  Qed.

  (* such an expression never starts with the name of a function that takes arguments *)
  Lemma base_head_not_call w lvl e t0 ts : base_ok w e ->
    toks_of_pieces (fmt_expr fx lvl e) = t0 :: ts -> ttype t0 = T_IDENT -> func_of E (tlit t0) <> Some false.
  Proof.
    intros (Hf & Hp & Hl & _ & Hv) Ht Hid. pose proof (frag_FR e Hf Hp Hl) as HF.
    pose proof (render_to_lexp fx e HF false lvl) as Hren. cbn [wsl] in Hren. rewrite app_nil_r in Hren.
    rewrite <- Hren in Ht. destruct (render_first (to_lexp false e)) as [r0 Hr0]. rewrite Hr0 in Ht. inversion Ht; subst t0.
    rewrite (first_tok_not_call E _ (atoms_to_lexp E e HF false Hv) Hid). discriminate.
  Qed.

  Lemma item_head_not_call e : forall w lvl t0 ts, item_ok w e ->
    toks_of_pieces (fmt_expr fx lvl e) = t0 :: ts -> ttype t0 = T_IDENT -> func_of E (tlit t0) <> Some false.
  Proof.
    intros w lvl t0 ts Hok. apply item_IT in Hok. revert lvl t0 ts.
    induction Hok as [w e _ IH|w items els _ _ _|w items keys vals _ _ _ _|w n args Hn _ _ _ _|w n Hn Hfn|w e Hb]; intros lvl t0 ts Ht Hid.
    - exact (IH lvl t0 ts Ht Hid).
    - cbn [fmt_expr] in Ht. unfold fmt_array in Ht. destruct (format_multiline items); inversion Ht; subst; discriminate Hid.
    - cbn [fmt_expr] in Ht. unfold fmt_map in Ht. destruct (format_multiline items); inversion Ht; subst; discriminate Hid.
    - rewrite (group_call_toks lvl n args Hn) in Ht. inversion Ht; subst. discriminate Hid.
    - rewrite (toks_call lvl n [] Hn) in Ht. inversion Ht; subst. cbn [tlit ident_tok]. rewrite Hfn. discriminate.
    - exact (base_head_not_call w lvl e t0 ts Hb Ht Hid).
  Qed.

  (* C06, list level: every such expression round-trips as a whole, as a list item (w = true) or not *)
  Theorem item_rt w lvl e : item_ok w e -> RTH w lvl e.
  Proof. intro H. exact (IT_rt w e (item_IT w e H) lvl). Qed.

  (* expression positions parsed by parseTopLevelExpr: additionally a call with arguments
     f a b ...  up to the end of the line (or a closing bracket) *)
  Theorem toplevel_call_rt lvl n args st rest0 fuel outer :
    ident_text n = true -> func_of E n = Some false -> arity_wrong E n (List.length args) = false ->
    Forall (item_ok true) args ->
    rest st = toks_of_pieces (fmt_expr fx lvl (FCall n args)) ++ rest0 ->
    wss st = false :: outer -> list_end (look0 rest0) ->
    2 * List.length (toks_of_pieces (fmt_expr fx lvl (FCall n args))) <= fuel ->
    exists st', parse_toplevel E (parse_expr E fuel) fuel st = Some (Some (fexpr_tree (FCall n args)), st') /\ same3 st st' rest0.
  Proof.
    intros Hn Hfn Har Hall Hr Hw Hend Hfuel. rewrite (toks_call lvl n args Hn) in Hr, Hfuel. cbn [fexpr_tree].
    set (ats := map (fun a => toks_of_pieces (fmt_expr fx lvl a)) args) in *.
    destruct (more_args_len ats) as [Hnn Hargs].
    cbn [List.length] in Hfuel.
    apply (func_call_top E NT fuel fuel n ats (map fexpr_tree args) st rest0 outer); auto.
    - unfold ats. rewrite map_length. exact Har.
    - unfold ats. clear - Hall NT Hfix. induction args as [|a r IH]; [constructor|]. inversion Hall; subst. cbn [map].
      constructor; [apply item_rt; assumption | apply IH; assumption].
    - intros a Ha. specialize (Hargs a Ha). lia.
    - lia.
  Qed.
End Closure.
