(* FormatParsePlainProofs.v — C06: no token the formatter writes for a statement of the round-trip
   fragment is ILLEGAL or the keyword func.  (Parser.parse drops ILLEGAL tokens and its signature
   pre-pass reacts to every `func` token of the raw list; this lemma is what lets the program
   theorem do without a lexical hypothesis.) *)
From Coq Require Import List String NArith ZArith Bool Arith Lia.
From EvyV Require Import Base FmtAst Format FormatProofs Pratt PrattProofs Parser ParserProofs ParserRules ParserScope
  FormatParse FormatParseProofs FormatParseListProofs FormatParseStmtProofs FormatParseTargetProofs FormatParseBlockProofs.
From EvyV.Gen Require Import Prec.
Import ListNotations.
Local Open Scope nat_scope.

Definition plainp (p : piece) : bool := match p with T s => tok_plain s | _ => true end.
Definition plain_tok (t : token) : Prop := ttype t <> T_ILLEGAL /\ ttype t <> T_FUNC.
Notation allp ps := (forallb plainp ps = true).

Lemma plain_toks ps : allp ps -> Forall plain_tok (toks_of_pieces ps).
Proof.
  induction ps as [|p r IH]; intro H; [constructor|]. cbn [forallb] in H. apply andb_true_iff in H as [Hp Hr].
  unfold toks_of_pieces. cbn [flat_map]. apply Forall_app. split; [|exact (IH Hr)].
  destruct p as [s|q|c| | |n]; cbn [tok_of_piece]; try (repeat constructor; discriminate).
  - constructor; [|constructor]. cbn [plainp] in Hp. unfold tok_plain in Hp. unfold plain_tok.
    destruct (ttype (tok_of_text s)); try discriminate Hp; split; discriminate.
  - destruct n; repeat constructor; discriminate.
Qed.

Lemma allp_app a b : allp a -> allp b -> allp (a ++ b).
Proof. intros Ha Hb. rewrite forallb_app, Ha, Hb. reflexivity. Qed.
Lemma allp_cons p a : plainp p = true -> allp a -> allp (p :: a).
Proof. intros Hp Ha. cbn [forallb]. rewrite Hp, Ha. reflexivity. Qed.

Lemma ident_plain s : ident_text s = true -> tok_plain s = true.
Proof. intro H. unfold tok_plain. rewrite (ident_text_spec s H). reflexivity. Qed.
Lemma num_plain s : num_text s = true -> tok_plain s = true.
Proof. intro H. destruct (num_text_spec s H) as [Ht _]. unfold tok_plain. rewrite Ht. reflexivity. Qed.
Lemma op_plain o : tok_plain (op_str o) = true.
Proof. destruct o; vm_compute; reflexivity. Qed.
Lemma key_plain k : key_text k = true -> tok_plain k = true.
Proof. unfold key_text. intro H. apply andb_true_iff in H as [_ H]. exact H. Qed.

Lemma fmt_type_plain : forall t, allp (fmt_type t).
Proof.
  fix IH 1. intros [n sub]. cbn [fmt_type]. apply allp_app; [destruct n; reflexivity|]. destruct sub as [s|]; [apply IH|reflexivity].
Qed.

Lemma raw_item_plain m : allp (raw_item m).
Proof. unfold raw_item. destruct (item_is_nl m); [reflexivity|]. destruct (ends_with_nl m); reflexivity. Qed.

Lemma arr_loop_plain l multi : forall els, Forall (fun e => allp e) els -> allp (arr_loop l multi els).
Proof.
  induction multi as [|m r IH]; intros els H; [reflexivity|]. cbn [arr_loop]. destruct (item_is_el m).
  - destruct els as [|e els']; [reflexivity|]. inversion H; subst.
    apply allp_app; [assumption|]. apply allp_app; [destruct (next_not_nl r); reflexivity | apply IH; assumption].
  - apply allp_app; [apply raw_item_plain|]. apply allp_app; [destruct (next_not_nl r); reflexivity | apply IH; assumption].
Qed.

Lemma lookup_pieces_plain k : forall kvs, Forall (fun kv => allp (snd kv)) kvs -> allp (lookup_pieces k kvs).
Proof.
  induction kvs as [|[k' v] r IH]; intro H; [reflexivity|]. inversion H; subst. cbn [lookup_pieces].
  destruct (str_eqb k' k); [assumption | apply IH; assumption].
Qed.

Lemma map_loop_plain l kvs : Forall (fun kv => allp (snd kv)) kvs -> forall multi,
  Forall (fun m => item_is_key m = true -> tok_plain m = true) multi -> allp (map_loop l multi kvs).
Proof.
  intros Hk. induction multi as [|m r IH]; intro H; [reflexivity|]. inversion H as [|? ? Hm Hr]; subst. cbn [map_loop].
  destruct (item_is_key m) eqn:E.
  - cbn [app]. apply allp_cons; [exact (Hm eq_refl)|]. apply allp_cons; [reflexivity|].
    apply allp_app; [apply lookup_pieces_plain, Hk|]. apply allp_app; [destruct (next_not_nl r); reflexivity | exact (IH Hr)].
  - apply allp_app; [apply raw_item_plain|]. apply allp_app; [destruct (next_not_nl r); reflexivity | exact (IH Hr)].
Qed.

Section Plain.
  Variable fx : fixes.

  Lemma base_plain e : FR e -> forall lvl, allp (fmt_expr fx lvl e).
  Proof.
    induction 1 as [n Hn|b t Ht|v q|b|e _ IH|e _ IH|op o r _ _ _ IH|op o w l r _ _ _ _ _ IHl _ IHr|l i _ _ IHl _ IHi
                   |l s e _ _ IHl _ IHs _ IHe|l k _ Hk _ IHl|l t ty _ _ _ _ IHl]; intro lvl; cbn [fmt_expr].
    - cbn [forallb plainp]. rewrite (ident_plain n Hn). reflexivity.
    - cbn [forallb plainp]. rewrite (num_plain t Ht). reflexivity.
    - reflexivity.
    - destruct b; reflexivity.
    - apply IH.
    - apply allp_cons; [reflexivity|]. apply allp_app; [apply IH | reflexivity].
    - apply allp_cons; [apply op_plain | apply IH].
    - apply allp_app; [apply IHl|]. apply allp_app; [destruct w; reflexivity|]. apply allp_app; [cbn [forallb plainp]; rewrite op_plain; reflexivity|].
      apply allp_app; [destruct w; reflexivity | apply IHr].
    - apply allp_app; [apply IHl|]. apply allp_app; [reflexivity|]. apply allp_app; [apply IHi | reflexivity].
    - apply allp_app; [apply IHl|]. apply allp_app; [reflexivity|].
      apply allp_app; [destruct s as [x|]; [apply (IHs x eq_refl) | reflexivity]|].
      apply allp_app; [reflexivity|]. apply allp_app; [destruct e as [x|]; [apply (IHe x eq_refl) | reflexivity] | reflexivity].
    - apply allp_app; [apply IHl|]. cbn [forallb plainp]. rewrite (ident_plain k Hk). reflexivity.
    - apply allp_app; [apply IHl|]. apply allp_app; [reflexivity|]. apply allp_app; [apply fmt_type_plain | reflexivity].
  Qed.

  Lemma args_plain lvl args : Forall (fun a => allp (fmt_expr fx lvl a)) args -> allp (flat_map (fun a => Sp :: fmt_expr fx lvl a) args).
  Proof. induction 1 as [|a r Ha _ IH]; [reflexivity|]. cbn [flat_map]. apply allp_cons; [reflexivity|]. apply allp_app; assumption. Qed.

  Lemma item_plain E e w lvl : item_ok E w e -> allp (fmt_expr fx lvl e).
  Proof.
    intro H. apply item_IT in H. revert lvl.
    induction H as [w e _ IH|w items els _ _ IH|w items keys vals Hwf Hk _ IH|w n args Hn _ _ _ IH|w n Hn _|w e (Hf & Hp & Hl & _)]; intro lvl.
    - exact (IH lvl).
    - (* array *)
      cbn [fmt_expr]. unfold fmt_array.
      destruct (format_multiline items) as [|m0 multi] eqn:Em; [reflexivity|].
      apply allp_cons; [reflexivity|]. apply allp_app; [destruct (first_is_comment _); reflexivity|].
      apply allp_app; [|apply allp_app; [destruct (if fix_br fx then _ else _); reflexivity | reflexivity]].
      apply arr_loop_plain. apply Forall_map. apply Forall_forall. intros a Ha. exact (IH a Ha (S lvl)).
    - (* map *)
      cbn [fmt_expr]. unfold fmt_map.
      destruct (format_multiline items) as [|m0 multi] eqn:Em; [reflexivity|].
      apply allp_cons; [reflexivity|]. apply allp_app; [destruct (first_is_comment _); reflexivity|].
      apply allp_app; [|apply allp_app; [destruct (if fix_br fx then _ else _); reflexivity | reflexivity]].
      apply map_loop_plain.
      + assert (Hv : Forall (fun v => allp v) (map (fmt_expr fx (S lvl)) vals)).
        { apply Forall_map. apply Forall_forall. intros a Ha. exact (IH a Ha (S lvl)). }
        clear - Hv. revert keys. induction Hv as [|v r Hv _ IHv]; intros [|k keys]; cbn [combine]; constructor; [exact Hv | apply IHv].
      + cbn [wf_expr] in Hwf. repeat (apply andb_true_iff in Hwf as [Hwf ?]).
        destruct (list_eq_dec str_eq_dec (filter item_is_key items) keys) as [Ek|]; [|discriminate].
        assert (Ef : filter item_is_key (m0 :: multi) = keys).
        { rewrite <- Em. unfold format_multiline. rewrite fm_loop_filter by apply item_nl_not_key. exact Ek. }
        apply Forall_forall. intros m Hm Hkey. apply key_plain. rewrite forallb_forall in Hk. apply Hk.
        rewrite <- Ef. apply filter_In. split; assumption.
    - (* a parenthesised call *)
      cbn [fmt_expr]. apply allp_cons; [reflexivity|].
      apply allp_app; [|reflexivity]. apply allp_cons; [apply ident_plain, Hn|]. apply args_plain.
      apply Forall_forall. intros a Ha. exact (IH a Ha lvl).
    - (* a bare niladic call *)
      cbn [fmt_expr flat_map forallb plainp]. rewrite (ident_plain n Hn). reflexivity.
    - apply base_plain, frag_FR; assumption.
  Qed.

  Lemma top_plain E v lvl : top_ok E v -> allp (fmt_expr fx lvl v).
  Proof.
    intros [H|(n & args & -> & Hn & _ & _ & Hall)]; [exact (item_plain E v false lvl H)|].
    cbn [fmt_expr]. apply allp_cons; [apply ident_plain, Hn|]. apply args_plain.
    rewrite Forall_forall in *. intros a Ha. exact (item_plain E a true lvl (Hall a Ha)).
  Qed.

  Variable B : benv.
  Variable F : list (str * finfo).

  Definition PL_sok (fr : frs) (G : ctx) (st : fstmt) : Prop := forall lvl, allp (fmt_stmt fx lvl st).
  Definition elif_pieces (lvl : nat) (cbs : list cblock) : list piece :=
    flat_map (fun cb => match cb with
                        | CBlock cond c body =>
                            [Ind lvl; T k_else; Sp; T k_if; Sp] ++ fmt_expr fx lvl cond ++ write_comment c ++ [NL]
                            ++ stmts_loop (S lvl) false (map (fun x => (is_blank x, fmt_stmt fx (S lvl) x)) body)
                        end) cbs.
  Definition PL_coks (fr : frs) (G : ctx) (cbs : list cblock) (Gout : ctx) : Prop := forall lvl, allp (elif_pieces lvl cbs).
  Definition PL_boks (fr : frs) (G : ctx) (t e : bool) (body : list fstmt) : Prop :=
    forall L e', allp (stmts_loop L e' (map (fun x => (is_blank x, fmt_stmt fx L x)) body)).

  (* takes a piece list apart along :: and ++ and closes the parts that are constants or hypotheses *)
  Ltac pl := repeat first [reflexivity | assumption | apply allp_cons | apply allp_app].

  Lemma range_plain E lvl r : Forall (item_ok E true) (range_exprs r) -> allp (fmt_range fx lvl r).
  Proof.
    intro H. destruct r as [[a|] b [c|]|e]; cbn [range_exprs app] in H; cbn [fmt_range];
      repeat match goal with H : Forall _ (_ :: _) |- _ => inversion H; clear H; subst end;
      pl; eapply item_plain; eassumption.
  Qed.

  Lemma sok_plain :
    (forall fr G st, sok B F fr G st -> PL_sok fr G st) /\
    (forall fr G cbs Gout, coks B F fr G cbs Gout -> PL_coks fr G cbs Gout) /\
    (forall fr G t e body, boks B F fr G t e body -> PL_boks fr G t e body).
  Proof.
    assert (C1 : forall fr G x t ty, ident_text x = true -> fty_ty t = Some ty -> declare (tabs_of B F) false x G <> None -> PL_sok fr G (FmtAst.STypedDecl x t [])).
    { intros fr G x t ty Hx _ _ lvl. cbn [fmt_stmt]. unfold write_decl, write_comment. cbn [is_empty]. pl; [apply ident_plain, Hx | apply fmt_type_plain]. }
    assert (C2 : forall fr G x v, ident_text x = true -> declare (tabs_of B F) false x G <> None -> top_ok (envG B F G) v -> PL_sok fr G (FmtAst.SInferredDecl x v [])).
    { intros fr G x v Hx _ Hv lvl. cbn [fmt_stmt]. unfold write_comment. cbn [is_empty]. pl; [apply ident_plain, Hx | eapply top_plain; eassumption]. }
    assert (Ctgt : forall G t x steps lvl, tgt_split t = Some (x, steps) -> ident_text x = true -> Forall (step_ok (envG B F G)) steps ->
                 allp (fmt_expr fx lvl t)).
    { intros G. induction t; intros x steps lvl Hsp Hx Hst; cbn [tgt_split] in Hsp; try discriminate Hsp.
      - injection Hsp as <- <-. cbn [fmt_expr forallb plainp]. rewrite (ident_plain _ Hx). reflexivity.
      - destruct (tgt_split t1) as [[x' st']|] eqn:E1; [|discriminate Hsp]. injection Hsp as <- <-.
        apply Forall_app in Hst as [Hst1 Hst2]. inversion Hst2 as [|? ? Hi _]; subst. cbn [step_ok] in Hi. cbn [fmt_expr].
        pl; [eapply IHt1; eauto | eapply top_plain; eassumption].
      - destruct (tgt_split t) as [[x' st']|] eqn:E1; [|discriminate Hsp]. injection Hsp as <- <-.
        apply Forall_app in Hst as [Hst1 Hst2]. inversion Hst2 as [|? ? Hk _]; subst. cbn [step_ok] in Hk. cbn [fmt_expr].
        pl; [eapply IHt; eauto | apply key_plain, Hk]. }
    assert (C3 : forall fr G t x steps v, tgt_split t = Some (x, steps) -> ident_text x = true -> mem_str x (map fst F) = false -> cvisible x G = true ->
                 Forall (step_ok (envG B F G)) steps -> top_ok (envG B F G) v -> PL_sok fr G (FmtAst.SAssign t v [])).
    { intros fr G t x steps v Hsp Hx _ _ Hst Hv lvl. cbn [fmt_stmt]. unfold write_comment. cbn [is_empty]. pl; [eapply Ctgt; eassumption | eapply top_plain; eassumption]. }
    assert (C4 : forall fr G n args fi, ident_text n = true -> lookup_fn n F = Some fi -> arity_wrong (envG B F G) n (List.length args) = false ->
                 Forall (item_ok (envG B F G) true) args -> PL_sok fr G (FmtAst.SCall n args [])).
    { intros fr G n args fi Hn _ _ Hall lvl. cbn [fmt_stmt]. unfold write_comment, fmt_call. cbn [is_empty]. pl; [apply ident_plain, Hn|].
      apply args_plain. rewrite Forall_forall in *. intros a Ha. eapply item_plain. exact (Hall a Ha). }
    assert (C5 : forall fr G v, fr_ret fr = true -> top_ok (envG B F G) v -> PL_sok fr G (FmtAst.SReturn (Some v) [])).
    { intros fr G v _ Hv lvl. cbn [fmt_stmt]. unfold write_comment. cbn [is_empty]. pl. eapply top_plain; eassumption. }
    assert (Cblock : forall (fr : frs) G t e body lvl, PL_boks fr G t e body ->
              allp (stmts_loop (S lvl) false (map (fun x => (is_blank x, fmt_stmt fx (S lvl) x)) body) ++ [Ind lvl; T k_end] ++ write_comment [])).
    { intros fr G t e body lvl IH. unfold write_comment. cbn [is_empty]. pl. apply IH. }
    assert (C6 : forall fr G c body G1, top_ok (envG B F G) c -> body_trees false body <> [] ->
                 use_vars (tvars (fexpr_tree c)) ([] :: G) = Some G1 -> boks B F (fr_push true fr) G1 false false body ->
                 PL_boks (fr_push true fr) G1 false false body -> PL_sok fr G (FmtAst.SWhile c [] body [])).
    { intros fr G c body G1 Hc _ _ _ IH lvl. cbn [fmt_stmt]. unfold write_comment at 1. cbn [is_empty].
      pl; [eapply top_plain; eassumption | apply IH]. }
    assert (C7 : forall fr G lv r body Gd G1,
                 match lv with Some x => ident_text x = true /\ declare (tabs_of B F) false x ([] :: G) = Some Gd | None => Gd = [] :: G end ->
                 Forall (item_ok (envG B F Gd) true) (range_exprs r) ->
                 PL_boks (fr_push true fr) G1 false false body -> PL_sok fr G (FmtAst.SFor lv r [] body [])).
    { intros fr G lv r body Gd G1 Hlv Hall IH lvl. cbn [fmt_stmt]. unfold write_comment at 1. cbn [is_empty].
      pl; [destruct lv as [x|]; [destruct Hlv as [Hx _]; pl; apply ident_plain, Hx | reflexivity]
          | eapply range_plain; eassumption | apply IH]. }
    assert (Cif : forall fr G c body elifs G1 Gn Gm (els : option (str * list fstmt)), top_ok (envG B F G) c ->
                 PL_boks (fr_push false fr) G1 false false body -> PL_coks fr Gn elifs Gm ->
                 match els with Some (ch, eb) => ch = [] /\ PL_boks (fr_push false fr) ([] :: Gm) false false eb | None => True end ->
                 PL_sok fr G (FmtAst.SIf (CBlock c [] body) elifs els [])).
    { intros fr G c body elifs G1 Gn Gm els Hc IHb IHk He lvl. cbn [fmt_stmt]. unfold write_comment at 1 3. cbn [is_empty].
      pl; [eapply top_plain; eassumption | apply IHb | apply (IHk lvl) |].
      destruct els as [[ch eb]|]; [|reflexivity]. destruct He as [-> He]. unfold write_comment. cbn [is_empty]. pl. apply He. }
    assert (Ck : forall fr G c body rest G1 Gn Gout, top_ok (envG B F G) c -> PL_boks (fr_push false fr) G1 false false body ->
                 PL_coks fr Gn rest Gout -> PL_coks fr G (CBlock c [] body :: rest) Gout).
    { intros fr G c body rest G1 Gn Gout Hc IHb IH lvl. unfold elif_pieces. cbn [flat_map]. fold (elif_pieces lvl rest). unfold write_comment. cbn [is_empty].
      pl; [eapply top_plain; eassumption | apply IHb | apply IH]. }
    assert (Cb1 : forall fr G t e rest, PL_boks fr G t true rest -> PL_boks fr G t e (FmtAst.SEmpty [] :: rest)).
    { intros fr G t e rest IH L e'. cbn [map is_blank is_empty stmts_loop]. pl; [destruct e'; reflexivity | apply IH]. }
    assert (Cb2 : forall fr G e st rest G', is_blank st = false -> PL_sok fr G st -> PL_boks fr G' (always_terms (stmt_tree st)) false rest ->
                 PL_boks fr G false e (st :: rest)).
    { intros fr G e st rest G' Hb IHs IH L e'. cbn [map stmts_loop]. rewrite Hb. pl; [apply IHs | apply IH]. }
    apply (sok_mutind B F PL_sok PL_coks PL_boks); intros.
    - eapply C1; eassumption.
    - eapply C2; eassumption.
    - eapply C3; eassumption.
    - eapply C4; eassumption.
    - eapply C5; eassumption.
    - intro; reflexivity.
    - intro; reflexivity.
    - eapply C6; eassumption.
    - eapply C7; eassumption.
    - eapply (Cif _ _ _ _ _ _ _ _ None); eauto.
    - eapply (Cif _ _ _ _ _ _ _ _ (Some ([], _))); eauto.
    - intro; reflexivity.
    - eapply Ck; eassumption.
    - intros ? ?; reflexivity.
    - eapply Cb1; eassumption.
    - eapply Cb2; eassumption.
  Qed.

  Lemma poks_plain G e body Gout : poks B F G e body Gout -> Forall plain_tok (body_toks fx 0 e body).
  Proof.
    intro H. unfold body_toks. apply plain_toks. induction H as [G e | G e rest Gout Hp IH | G e st rest G' Gout Hbl Hso Hat Hsc Hp IH].
    - reflexivity.
    - cbn [map is_blank is_empty stmts_loop]. apply allp_app; [destruct e; reflexivity | exact IH].
    - cbn [map stmts_loop]. rewrite Hbl. pl. apply (proj1 sok_plain _ _ _ Hso 0).
  Qed.
End Plain.
