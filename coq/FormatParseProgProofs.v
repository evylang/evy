(* FormatParseProgProofs.v — C06 round trip, program level, against Parser.parse (parser.Parse):
   the tokens the formatter writes for a program without func / on parse back — through the
   signature pre-pass, parseProgram's loop and the final validateScope — to the program's tree. *)
From Coq Require Import List String NArith ZArith Bool Arith Lia.
From EvyV Require Import Base FmtAst Format FormatProofs Pratt PrattProofs Parser ParserProofs ParserRules ParserScope ParserCursor
  FormatParse FormatParseProofs FormatParseListProofs FormatParseStmtProofs FormatParseBlockProofs FormatParsePlainProofs
  FormatParseFuncProofs.
From EvyV.Gen Require Import Prec.
Import ListNotations.
Local Open Scope nat_scope.

(* a program without func / on: formatProgram inserts no blank line, and parseProgram's loop is the
   loop of FormatParseFuncProofs.v with nlAfter empty *)
Section Loop.
  Variable B : benv.
  Hypothesis BT : forall s t n, b_tyerr B s t n = false.
  Variable fx : fixes.
  Variable F : list (str * finfo).

  Lemma poks_fpoks bd hs : forall G e body Gout, poks B F G e body Gout -> forall i, fpoks B F [] i bd hs G e body Gout.
  Proof. induction 1; intro i; [apply fp_nil | apply fp_blank; auto | eapply fp_stmt; eauto]. Qed.

  Lemma prog_loop_plain : forall l i e,
    prog_loop fx [] i e l = stmts_loop 0 e (map (fun x => (is_blank x, fmt_stmt fx 0 x)) l).
  Proof. intros l i e. rewrite prog_loop_lines. symmetry. apply stmts_loop_lines. Qed.

  Lemma psz_plain : forall l i e, psz [] i e l = szb e l.
  Proof.
    induction l as [|x l IH]; intros i e; [reflexivity|]. cbn [psz szb mem_nat]. rewrite !IH.
    destruct (is_blank x); [reflexivity | lia].
  Qed.

  Lemma prog_skip1 G e body Gout : poks B F G e body Gout -> skip1 (body_toks fx 0 e body) = body_toks fx 0 e body.
  Proof.
    intro Hp. pose proof (ptoks_skip B fx F [] 0 [] [] G e body Gout (poks_fpoks [] [] G e body Gout Hp 0)) as H.
    unfold ptoks in H. rewrite prog_loop_plain in H. exact H.
  Qed.

  Theorem program_loop_roundtrip : forall G e body Gout, poks B F G e body Gout ->
    forall fuel acc s, szb e body < fuel -> ST F s (skip1 (body_toks fx 0 e body)) G top_fr ->
    exists s', program_loop B fuel acc false s = Ok (rev acc ++ body_trees e body) s' /\ ST F s' [] Gout top_fr.
  Proof.
    intros G e body Gout Hp fuel acc s Hfu HST. rewrite (prog_skip1 G e body Gout Hp) in HST.
    rewrite <- (prog_trees_plain body 0 e).
    apply (program_loop_funcs B BT fx F [] 0 (bodies s) (hds s) G e body Gout (poks_fpoks _ _ G e body Gout Hp 0));
      [rewrite psz_plain; exact Hfu | unfold ptoks; rewrite prog_loop_plain; exact HST | reflexivity].
  Qed.
End Loop.

Section Prog.
  Variable B : benv.
  Hypothesis BT : forall s t n, b_tyerr B s t n = false.
  Variable fx : fixes.
  Let F := builtin_table B.

  (* fuel: the size of a statement is bounded by its tokens *)
  Definition L_sok (fr : frs) (G : ctx) (st : fstmt) : Prop := forall lvl, sz st <= List.length (toks_of_pieces (fmt_stmt fx lvl st)).
  Definition L_coks (fr : frs) (G : ctx) (cbs : list cblock) (Gout : ctx) : Prop := forall lvl, szc cbs <= List.length (elif_toks fx lvl cbs).
  Definition L_boks (fr : frs) (G : ctx) (t e : bool) (body : list fstmt) : Prop := forall L, szb e body <= List.length (body_toks fx L e body).

  Lemma simple_len fr G st lvl : sok B F fr G st -> 1 <= List.length (toks_of_pieces (fmt_stmt fx lvl st)).
  Proof. intro H. destruct (sok_head B fx F fr G st lvl H) as (t0 & ts & -> & _). cbn. lia. Qed.

  Lemma sizes :
    (forall fr G st, sok B F fr G st -> L_sok fr G st) /\
    (forall fr G cbs Gout, coks B F fr G cbs Gout -> L_coks fr G cbs Gout) /\
    (forall fr G t e body, boks B F fr G t e body -> L_boks fr G t e body).
  Proof.
    assert (S1 : forall fr G st, sok B F fr G st -> sz st = 1 -> L_sok fr G st).
    { intros fr G st H E lvl. rewrite E. exact (simple_len fr G st lvl H). }
    assert (Hwhile : forall fr G c body G1, top_ok (envG B F G) c -> body_trees false body <> [] ->
              use_vars (tvars (fexpr_tree c)) ([] :: G) = Some G1 -> boks B F (fr_push true fr) G1 false false body ->
              L_boks (fr_push true fr) G1 false false body -> L_sok fr G (FmtAst.SWhile c [] body [])).
    { intros fr G c body G1 _ _ _ _ IH lvl. rewrite sz_while. specialize (IH (S lvl)).
      pose proof (f_equal (@List.length token) (while_toks fx lvl c body [])) as E. repeat first [rewrite app_length in E | progress cbn [List.length] in E]. lia. }
    assert (Hfor : forall fr G lv r body, L_boks (fr_push true fr) G false false body -> L_sok fr G (FmtAst.SFor lv r [] body [])).
    { intros fr G lv r body IH lvl. rewrite sz_for. specialize (IH (S lvl)).
      pose proof (f_equal (@List.length token) (for_toks fx lvl lv r body [])) as E.
      repeat first [rewrite app_length in E | progress cbn [List.length] in E]. lia. }
    assert (Hif : forall fr G c body elifs G1 Gn Gm (els : option (str * list fstmt)),
              coks B F fr Gn elifs Gm -> L_boks (fr_push false fr) G1 false false body -> L_coks fr Gn elifs Gm ->
              match els with Some (ch, eb) => ch = [] /\ (forall L, szb false eb <= List.length (body_toks fx L false eb)) | None => True end ->
              L_sok fr G (FmtAst.SIf (CBlock c [] body) elifs els [])).
    { intros fr G c body elifs G1 Gn Gm els Hk IHb IHk He lvl. rewrite sz_if. specialize (IHb (S lvl)). specialize (IHk lvl).
      assert (Hc : match els with Some (ch, _) => ch = [] | None => True end) by (destruct els as [[? ?]|]; [exact (proj1 He)|exact I]).
      pose proof (f_equal (@List.length token) (if_toks B fx F lvl fr Gn c body elifs Gm els [] Hk Hc)) as E.
      destruct els as [[ch eb]|]; [destruct He as [-> He]; specialize (He (S lvl))|]; cbn [else_toks] in E;
        repeat first [rewrite app_length in E | progress cbn [List.length] in E]; lia. }
    assert (Hcons : forall fr G c body rest G1 Gn Gout, L_boks (fr_push false fr) G1 false false body -> L_coks fr Gn rest Gout ->
              L_coks fr G (CBlock c [] body :: rest) Gout).
    { intros fr G c body rest G1 Gn Gout IHb IH lvl. specialize (IHb (S lvl)). specialize (IH lvl).
      cbn [szc elif_toks flat_map]. fold (elif_toks fx lvl rest). rewrite !app_length. cbn [List.length]. rewrite !app_length. cbn [List.length]. lia. }
    assert (Hbl : forall fr G t e rest, L_boks fr G t true rest -> L_boks fr G t e (FmtAst.SEmpty [] :: rest)).
    { intros fr G t e rest IH L. rewrite body_toks_blank. cbn [szb is_blank is_empty]. specialize (IH L). rewrite app_length. destruct e; cbn [List.length]; lia. }
    assert (Hbc : forall fr G e st rest G', is_blank st = false -> L_sok fr G st -> L_boks fr G' (always_terms (stmt_tree st)) false rest ->
              L_boks fr G false e (st :: rest)).
    { intros fr G e st rest G' Hb IHs IH L. cbn [szb]. rewrite Hb. specialize (IHs L). specialize (IH L).
      unfold body_toks in *. cbn [map stmts_loop]. rewrite Hb. rewrite !toks_app. rewrite !app_length. cbn [toks_of_pieces flat_map tok_of_piece app List.length]. lia. }
    apply (sok_mutind B F L_sok L_coks L_boks); intros.
    1-7: apply S1; [econstructor; eassumption | reflexivity].
    - eapply Hwhile; eassumption.
    - eapply Hfor; eassumption.
    - eapply (Hif _ _ _ _ _ _ _ _ None); eauto.
    - eapply (Hif _ _ _ _ _ _ _ _ (Some ([], _))); eauto.
    - intro; cbn; lia.
    - eapply Hcons; eassumption.
    - intro; cbn; lia.
    - eapply Hbl; eassumption.
    - eapply Hbc; eassumption.
  Qed.

  Definition G0 : ctx := [map (fun n => (n, true)) (b_globals B)].

  Lemma poks_size : forall G e body Gout, poks B F G e body Gout -> szb e body <= List.length (body_toks fx 0 e body).
  Proof.
    induction 1 as [G e | G e rest Gout Hp IH | G e st rest G' Gout Hbl Hso Hat Hsc Hp IH].
    - cbn. lia.
    - rewrite body_toks_blank. cbn [szb is_blank is_empty]. rewrite app_length. destruct e; cbn [List.length]; lia.
    - rewrite (body_toks_cons0 fx e st rest Hbl). cbn [szb]. rewrite Hbl. rewrite app_length. cbn [List.length].
      pose proof (proj1 sizes _ _ _ Hso 0). lia.
  Qed.

  Lemma signatures_nofunc : forall toks pv s, Forall (fun t => ttype t <> T_FUNC) toks -> signatures B pv toks s = Ok tt s.
  Proof.
    induction toks as [|t r IH]; intros pv s H; [reflexivity|]. inversion H; subst. cbn [signatures].
    destruct (ttype t) eqn:E; try apply IH; try assumption. contradiction.
  Qed.

  Lemma filter_all {X} (f : X -> bool) l : Forall (fun x => f x = true) l -> filter f l = l.
  Proof. induction 1 as [|x l Hx _ IH]; [reflexivity|]. cbn [filter]. rewrite Hx, IH. reflexivity. Qed.
  Lemma filter_none {X} (f : X -> bool) l : Forall (fun x => f x = false) l -> filter f l = [].
  Proof. induction 1 as [|x l Hx _ IH]; [reflexivity|]. cbn [filter]. rewrite Hx. exact IH. Qed.

  Theorem parse_roundtrip p Gout poss eof :
    poks B F G0 false p Gout -> frame_used Gout ->
    List.length poss = List.length (body_toks fx 0 false p) ->
    parse B (combine (body_toks fx 0 false p) poss) eof = Accept (body_trees false p).
  Proof.
    intros Hp Hu Hlen. pose proof (poks_plain fx B F G0 false p Gout Hp) as Hlex. unfold plain_tok in Hlex. set (toks := body_toks fx 0 false p) in *. set (raw := combine toks poss).
    assert (Hill : Forall (fun tp : token * position => is_illegal (fst tp) = false) raw).
    { apply Forall_forall. intros [t q] Hin. apply in_combine_l in Hin. cbn [fst].
      rewrite Forall_forall in Hlex. destruct (Hlex t Hin) as [H _]. unfold is_illegal. destruct (ttype t); try reflexivity. contradiction. }
    assert (F1 : filter (fun tp : token * position => is_illegal (fst tp)) raw = []) by (apply filter_none; exact Hill).
    assert (F2 : filter (fun tp : token * position => negb (is_illegal (fst tp))) raw = raw).
    { apply filter_all. eapply Forall_impl; [|exact Hill]. cbv beta. intros a Ha. rewrite Ha. reflexivity. }
    assert (Hm : map fst raw = toks) by (apply map_fst_combine; symmetry; exact Hlen).
    unfold parse. cbv zeta. rewrite F1, F2, Hm.
    rewrite signatures_nofunc; [|eapply Forall_impl; [|exact Hlex]; cbv beta; intros a Ha; exact (proj2 Ha)].
    cbn [cs errs state_at rev map app fns].
    set (s2 := {| cs := state_at tEOF toks []; scs := _; fns := _; bodies := []; hds := [] |}).
    assert (HST : ST F s2 (skip1 toks) G0 top_fr).
    { unfold toks. rewrite (prog_skip1 B fx F G0 false p Gout Hp). fold toks.
      split; [repeat split|]. split; [reflexivity|]. split; [discriminate|]. split; [reflexivity|].
      split; [unfold abs, G0, s2, absf; cbn [scs map sc_vars]; rewrite map_map; reflexivity|]. split; reflexivity. }
    assert (Hfu : szb false p < fuel_of toks).
    { pose proof (poks_size _ _ _ _ Hp). fold toks in H. unfold fuel_of. lia. }
    destruct (program_loop_roundtrip B BT fx F G0 false p Gout Hp (fuel_of toks) [] s2 Hfu HST) as (s3 & P & HST3).
    rewrite P. cbn [rev app].
    pose proof HST3 as ((_ & _ & E3) & _ & _ & _ & A3 & _).
    rewrite (validate_scope_id s3); [|rewrite A3; exact Hu]. rewrite E3. reflexivity.
  Qed.

  Definition plain_kind (k : skind) : Prop := k = KEmpty \/ k = KStmt.

  Lemma accs_plain : forall ks last i, Forall plain_kind ks -> Forall (fun a => plain_kind (fst a)) (new_accumulations_loop last i ks).
  Proof.
    induction ks as [|k r IH]; intros last i H; [constructor|]. inversion H; subst. cbn [new_accumulations_loop].
    destruct (negb _ || skind_eqb k KFunc); [constructor; [assumption|]|]; apply IH; assumption.
  Qed.

  Lemma nl_loop_plain fixed : forall accs, Forall (fun a => plain_kind (fst a)) accs -> nl_after_loop fixed accs = [].
  Proof.
    induction accs as [|a accs IH]; intro H; [reflexivity|]. inversion H as [|? ? Ha Hr]; subst.
    destruct accs as [|b rest]; [reflexivity|].
    change (nl_after_loop fixed (a :: b :: rest)) with
      ((match fst a with
        | KEmpty | KComment => []
        | _ => if skind_eqb (fst a) KFunc && skind_eqb (fst b) KStmt then [snd a]
               else if skind_eqb (fst b) KFunc then [(snd b - 1)%nat]
               else if skind_eqb (fst b) KComment && match rest with c :: _ => skind_eqb (fst c) KFunc | [] => false end
                    then [if fixed then (snd b - 1)%nat else snd a]
               else []
        end) ++ nl_after_loop fixed (b :: rest)).
    rewrite (IH Hr). rewrite app_nil_r.
    inversion Hr as [|? ? Hb Hr2]; subst.
    destruct Ha as [Ea|Ea]; rewrite Ea; [reflexivity|]. destruct Hb as [Eb|Eb]; rewrite Eb; reflexivity.
  Qed.

  Lemma nl_after_plain fixed ks : Forall plain_kind ks -> nl_after fixed ks = [].
  Proof. intro H. unfold nl_after, new_accumulations. apply nl_loop_plain, accs_plain, H. Qed.

  Lemma poks_kinds : forall G e body Gout, poks B F G e body Gout -> Forall plain_kind (map stmt_kind body).
  Proof.
    induction 1 as [G e | G e rest Gout Hp IH | G e st rest G' Gout Hbl Hso Hat Hsc Hp IH]; cbn [map]; constructor; try assumption.
    - left. reflexivity.
    - right. destruct Hso; reflexivity.
  Qed.

  (* formatProgram writes the statement list like a block at indentation 0 when there is
     no func / on (nlAfter inserts blank lines only around those) *)
  Lemma fmt_prog_toks p G Gout : p <> [] -> poks B F G false p Gout ->
    toks_of_pieces (fmt_prog fx p) = body_toks fx 0 false p.
  Proof.
    intros Hne Hp. unfold fmt_prog. destruct p as [|x r]; [contradiction|].
    rewrite (nl_after_plain _ _ (poks_kinds _ _ _ _ Hp)). rewrite prog_loop_plain. reflexivity.
  Qed.

  Theorem program_roundtrip p Gout poss eof :
    p <> [] -> poks B F G0 false p Gout -> frame_used Gout ->
    List.length poss = List.length (toks_of_pieces (fmt_prog fx p)) ->
    parse B (combine (toks_of_pieces (fmt_prog fx p)) poss) eof = Accept (body_trees false p).
  Proof.
    intros Hne Hp Hu. rewrite (fmt_prog_toks p G0 Gout Hne Hp). apply (parse_roundtrip p Gout); assumption.
  Qed.
End Prog.
