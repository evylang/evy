(* FormatParseProofs.v — C06, "the result is accepted again and has the same syntax tree",
   expression level, on the models: the tokens the formatter writes for an expression are the
   rendering of a derivation of the layered grammar of PrattProofs.v whose tree is the
   expression's own tree; PrattProofs.pratt_layered_fixed then says the Pratt parser
   (expression.go) returns exactly that tree. *)
From Coq Require Import List String NArith ZArith Bool Arith Lia.
From EvyV Require Import Base FmtAst Format Pratt PrattProofs FormatParse.
From EvyV.Gen Require Import Prec.
Import ListNotations.
Local Open Scope nat_scope.

(* the derivation (with its layout) that the formatter writes *)
Definition fop_binop (o : fop) : option binop :=
  match o with
  | OpOr => Some BOr | OpAnd => Some BAnd | OpEq => Some BEq | OpNotEq => Some BNe
  | OpLt => Some BLt | OpLtEq => Some BLe | OpGt => Some BGt | OpGtEq => Some BGe
  | OpPlus => Some BAdd | OpMinus => Some BSub | OpAsterisk => Some BMul | OpSlash => Some BDiv | OpPercent => Some BMod
  | _ => None
  end.
Definition fop_unop (o : fop) : option unop :=
  match o with OpMinus => Some UNeg | OpBang => Some UNot | _ => None end.

Definition dflt (tr : bool) : lexp := LAtom (ABool true) tr.

(* [tr]: is the last token of the expression followed by a blank *)
Fixpoint to_lexp (tr : bool) (e : fexpr) : lexp :=
  match e with
  | FVar n => LAtom (AVar n) tr
  | FNum _ t => LAtom (ANum t) tr
  | FStr _ q => LAtom (AStr q) tr
  | FBool b => LAtom (ABool b) tr
  | FAny e => to_lexp tr e
  | FGroup e => LGroup false (to_lexp false e) tr
  | FUn op r => match fop_unop op with Some o => LUn o (to_lexp tr r) | None => dflt tr end
  | FBin op w l r =>
      match fop_binop op with
      | Some o => LBin o (to_lexp (negb w) l) (negb w) (to_lexp tr r)
      | None => dflt tr
      end
  | FIdx l i => LIndex (to_lexp false l) false (to_lexp false i) tr
  | FSlice l s e =>
      LSlice (to_lexp false l) false (option_map (to_lexp false) s) false (option_map (to_lexp false) e) tr
  | FDot l k => LDot (to_lexp false l) k tr
  | FAssert l t => match fty_ty t with Some ty => LAssert (to_lexp false l) false ty false tr | None => dflt tr end
  | FArr _ _ | FMap _ _ _ | FCall _ _ => dflt tr
  end.

Lemma toks_app a b : toks_of_pieces (a ++ b) = toks_of_pieces a ++ toks_of_pieces b.
Proof. apply flat_map_app. Qed.
Lemma tp_cons p l : toks_of_pieces (p :: l) = tok_of_piece p ++ toks_of_pieces l.
Proof. reflexivity. Qed.

Lemma ident_text_spec s : ident_text s = true -> tok_of_text s = ident_tok s.
Proof.
  unfold ident_text, ident_tok. destruct (tok_of_text s) as [t l]. destruct t; try discriminate.
  intro H. apply str_eqb_eq in H. subst. reflexivity.
Qed.

Lemma num_text_spec s : num_text s = true -> tok_of_text s = {| ttype := T_NUM_LIT; tlit := s |} /\ num_lit_ok s = true.
Proof.
  unfold num_text. destruct (tok_of_text s) as [t l]. destruct t; try discriminate.
  intro H. apply andb_true_iff in H as [H1 H2]. apply str_eqb_eq in H1. subst. auto.
Qed.

Lemma binop_tok_text op o : fop_binop op = Some o -> tok_of_text (op_str op) = mk (binop_tok o).
Proof. destruct op; simpl; intro H; inversion H; subst; reflexivity. Qed.

Lemma unop_tok_text op o : fop_unop op = Some o -> tok_of_text (op_str op) = mk (unop_tok o).
Proof. destruct op; simpl; intro H; inversion H; subst; reflexivity. Qed.

Lemma binop_tok_type op o : fop_binop op = Some o -> op_toktype op = binop_tok o.
Proof. destruct op; simpl; intro H; inversion H; subst; reflexivity. Qed.

Lemma unop_tok_type op o : fop_unop op = Some o -> op_toktype op = unop_tok o.
Proof. destruct op; simpl; intro H; inversion H; subst; reflexivity. Qed.

Lemma binop_rank_spec op k : binop_rank op = Some k -> exists o, fop_binop op = Some o /\ rank o = k.
Proof. destruct op; simpl; intro H; inversion H; subst; eexists; split; reflexivity. Qed.

Lemma is_unop_spec op : is_unop op = true -> exists o, fop_unop op = Some o.
Proof. destruct op; simpl; try discriminate; intros _; eexists; reflexivity. Qed.

Lemma toks_write_wss w : toks_of_pieces (write_wss w) = wsl (negb w).
Proof. destruct w; reflexivity. Qed.

Fixpoint toks_fmt_type (t : fty) : forall ty, fty_ty t = Some ty -> toks_of_pieces (fmt_type t) = render_ty ty.
Proof.
  destruct t as [n sub]. intros ty H. cbn [fmt_type]. rewrite toks_app.
  destruct n, sub as [s|]; cbn [fty_ty] in H; try discriminate; try (inversion H; subst; reflexivity).
  - destruct (fty_ty s) as [x|] eqn:E; [|discriminate]. inversion H; subst.
    rewrite (toks_fmt_type s x E). reflexivity.
  - destruct (fty_ty s) as [x|] eqn:E; [|discriminate]. inversion H; subst.
    rewrite (toks_fmt_type s x E). reflexivity.
Qed.

(* [fin]: both sides are the same token list once the keyword texts are read and ++ is reassociated *)
Ltac kw :=
  try change (tok_of_text k_lbr) with (mk T_LBRACKET); try change (tok_of_text k_rbr) with (mk T_RBRACKET);
  try change (tok_of_text k_lpa) with (mk T_LPAREN); try change (tok_of_text k_rpa) with (mk T_RPAREN);
  try change (tok_of_text k_colon) with (mk T_COLON); try change (tok_of_text k_dot) with (mk T_DOT).
Ltac fin := kw; repeat (rewrite <- ?app_assoc; cbn [app]); reflexivity.

Ltac split_and :=
  repeat match goal with H : _ && _ = true |- _ => apply andb_true_iff in H; destruct H end.

(* The three tests frag / prec_ok / lex_ok together, as a derivation: operators resolved, the rank
   conditions as inequalities.  The facts about [to_lexp] below go by induction on it. *)
Inductive FR : fexpr -> Prop :=
| FR_var n : ident_text n = true -> FR (FVar n)
| FR_num b t : num_text t = true -> FR (FNum b t)
| FR_str v q : FR (FStr v q)
| FR_bool b : FR (FBool b)
| FR_any e : FR e -> FR (FAny e)
| FR_group e : FR e -> FR (FGroup e)
| FR_un op o r : fop_unop op = Some o -> 7 <= rank_of r -> FR r -> FR (FUn op r)
| FR_bin op o w l r : fop_binop op = Some o -> binop_rank op = Some (rank o) ->
    rank o <= rank_of l -> rank o < rank_of r -> FR l -> FR r -> FR (FBin op w l r)
| FR_idx l i : 8 <= rank_of l -> FR l -> FR i -> FR (FIdx l i)
| FR_slice l s e : 8 <= rank_of l -> FR l -> (forall x, s = Some x -> FR x) -> (forall x, e = Some x -> FR x) -> FR (FSlice l s e)
| FR_dot l k : 8 <= rank_of l -> ident_text k = true -> FR l -> FR (FDot l k)
| FR_assert l t ty : 8 <= rank_of l -> fty_ty t = Some ty -> ty <> TyAny -> FR l -> FR (FAssert l t).

Lemma frag_FR e : frag e = true -> prec_ok e = true -> lex_ok e = true -> FR e.
Proof.
  induction e as [n|b t|v q|b|e IH|items els IH|items keys vals IH|n args IH|op r IH|op w l r IHl IHr|l i IHl IHi|l s e IHl IHs IHe|l k IHl|l t IHl|e IH] using fexpr_ind';
    intros Hf Hp Hl; cbn [frag prec_ok lex_ok] in Hf, Hp, Hl; try discriminate Hf.
  - apply FR_var, Hl.
  - apply FR_num, Hl.
  - apply FR_str.
  - apply FR_bool.
  - apply FR_any. auto.
  - split_and. destruct (is_unop_spec op) as [o Ho]; [assumption|].
    apply (FR_un op o); auto. apply Nat.leb_le. assumption.
  - destruct (binop_rank op) as [k|] eqn:Ek; [|discriminate]. split_and.
    destruct (binop_rank_spec op k Ek) as (o & Ho & <-).
    apply (FR_bin op o); auto; [apply Nat.leb_le | apply Nat.ltb_lt]; assumption.
  - split_and. apply FR_idx; auto. apply Nat.leb_le. assumption.
  - split_and. apply FR_slice; auto; [apply Nat.leb_le; assumption | intros x -> | intros x ->].
    + apply (IHs x eq_refl); assumption.
    + apply (IHe x eq_refl); assumption.
  - split_and. apply FR_dot; auto. apply Nat.leb_le. assumption.
  - split_and. destruct (fty_ty t) as [ty|] eqn:Et; [|discriminate].
    apply (FR_assert l t ty); auto; [apply Nat.leb_le; assumption | intros ->; discriminate].
  - apply FR_group. auto.
Qed.

Section RT.
  Variable fx : fixes.

  Lemma render_to_lexp e : FR e -> forall tr lvl, render (to_lexp tr e) = toks_of_pieces (fmt_expr fx lvl e) ++ wsl tr.
  Proof.
    induction 1 as [n Hn|b t Ht|v q|b|e _ IH|e _ IH|op o r Ho _ _ IH|op o w l r Ho _ _ _ _ IHl _ IHr|l i _ _ IHl _ IHi
                   |l s e _ _ IHl _ IHs _ IHe|l k _ Hk _ IHl|l t ty _ Et _ _ IHl]; intros tr lvl; cbn [to_lexp fmt_expr].
    - cbn [render atom_tok toks_of_pieces flat_map tok_of_piece app]. rewrite (ident_text_spec n Hn). reflexivity.
    - destruct (num_text_spec t Ht) as [Ht' _]. cbn [render atom_tok toks_of_pieces flat_map tok_of_piece app]. rewrite Ht'. reflexivity.
    - reflexivity.
    - destruct b; reflexivity.
    - apply IH.
    - cbn [render]. rewrite !toks_app. cbn [toks_of_pieces flat_map tok_of_piece app wsl].
      rewrite (IH false lvl). cbn [wsl]. rewrite !app_nil_r. fin.
    - rewrite Ho. cbn [render]. change (T (op_str op) :: fmt_expr fx lvl r) with ([T (op_str op)] ++ fmt_expr fx lvl r).
      rewrite toks_app. cbn [toks_of_pieces flat_map tok_of_piece app]. rewrite (unop_tok_text op o Ho), (IH tr lvl). reflexivity.
    - rewrite Ho. cbn [render]. rewrite !toks_app, !toks_write_wss. cbn [toks_of_pieces flat_map tok_of_piece app].
      rewrite (binop_tok_text op o Ho), (IHl (negb w) lvl), (IHr tr lvl).
      repeat (rewrite <- !app_assoc; cbn [app]). reflexivity.
    - cbn [render]. rewrite !toks_app. cbn [toks_of_pieces flat_map tok_of_piece app wsl].
      rewrite (IHl false lvl), (IHi false lvl). cbn [wsl]. rewrite !app_nil_r. fin.
    - cbn [render]. rewrite !toks_app. cbn [toks_of_pieces flat_map tok_of_piece app wsl].
      rewrite (IHl false lvl). cbn [wsl]. rewrite !app_nil_r.
      assert (Hs : match option_map (to_lexp false) s with Some x => render x | None => [] end
                   = toks_of_pieces (match s with Some x => fmt_expr fx lvl x | None => [] end)).
      { destruct s as [x|]; [|reflexivity]. cbn [option_map]. rewrite (IHs x eq_refl false lvl). apply app_nil_r. }
      assert (He : match option_map (to_lexp false) e with Some x => render x | None => [] end
                   = toks_of_pieces (match e with Some x => fmt_expr fx lvl x | None => [] end)).
      { destruct e as [x|]; [|reflexivity]. cbn [option_map]. rewrite (IHe x eq_refl false lvl). apply app_nil_r. }
      rewrite Hs, He. fin.
    - cbn [render]. rewrite !toks_app. cbn [toks_of_pieces flat_map tok_of_piece app].
      rewrite (IHl false lvl). cbn [wsl]. rewrite app_nil_r, (ident_text_spec k Hk). fin.
    - rewrite Et. cbn [render].
      rewrite !toks_app. rewrite (toks_fmt_type t ty Et). cbn [toks_of_pieces flat_map tok_of_piece app wsl].
      rewrite (IHl false lvl). cbn [wsl]. rewrite !app_nil_r. fin.
  Qed.
End RT.

Lemma toprank_FR e : FR e -> forall tr, toprank (to_lexp tr e) = rank_of e.
Proof.
  induction 1 as [| | | |e _ IH| |op o r Ho _ _ _|op o w l r Ho Hk _ _ _ _ _ _| | | |l t ty _ Et _ _ _]; intro tr; cbn [to_lexp rank_of]; try reflexivity.
  - apply IH.
  - rewrite Ho. reflexivity.
  - rewrite Ho, Hk. reflexivity.
  - rewrite Et. reflexivity.
Qed.

Lemma toprank_to_lexp e : forall tr, frag e = true -> prec_ok e = true -> lex_ok e = true ->
  toprank (to_lexp tr e) = rank_of e.
Proof. intros tr Hf Hp Hl. apply toprank_FR, frag_FR; assumption. Qed.

Lemma lay_to_lexp e : FR e -> forall tr, Lay (rank_of e) (to_lexp tr e).
Proof.
  induction 1 as [n Hn|b t Ht|v q|b|e _ IH|e _ IH|op o r Ho Hr _ IH|op o w l r Ho Hk Hl Hr _ IHl _ IHr|l i Hl _ IHl _ IHi
                 |l s e Hl _ IHl _ IHs _ IHe|l k Hl _ _ IHl|l t ty Hl Et _ _ IHl]; intro tr; cbn [to_lexp rank_of];
    try apply Lay_atom.
  - apply IH.
  - apply Lay_group. eapply Lay_le; [|apply IH]. lia.
  - rewrite Ho. apply Lay_un. eapply Lay_le; [exact Hr | apply IH].
  - rewrite Ho, Hk. apply Lay_bin; (eapply Lay_le; [|apply IHl || apply IHr]); assumption.
  - apply Lay_index; (eapply Lay_le; [|apply IHl || apply IHi]); [exact Hl | lia].
  - apply Lay_slice.
    + eapply Lay_le; [exact Hl | apply IHl].
    + intros x Hx. destruct s as [y|]; [|discriminate]. inversion Hx; subst. eapply Lay_le; [|apply (IHs y eq_refl)]. lia.
    + intros x Hx. destruct e as [y|]; [|discriminate]. inversion Hx; subst. eapply Lay_le; [|apply (IHe y eq_refl)]. lia.
  - apply Lay_dot. eapply Lay_le; [exact Hl | apply IHl].
  - rewrite Et. apply Lay_assert. eapply Lay_le; [exact Hl | apply IHl].
Qed.

Lemma last_ws_to_lexp e : FR e -> forall tr, last_ws (to_lexp tr e) = tr.
Proof.
  induction 1 as [| | | |e _ IH| |op o r Ho _ _ IH|op o w l r Ho _ _ _ _ _ _ IHr| | | |l t ty _ Et _ _ _]; intro tr; cbn [to_lexp]; try reflexivity.
  - apply IH.
  - rewrite Ho. apply IH.
  - rewrite Ho. apply IHr.
  - rewrite Et. reflexivity.
Qed.

Lemma layout_to_lexp e : FR e -> forall tr, layout_ok (to_lexp tr e) = true.
Proof.
  induction 1 as [n Hn|b t Ht|v q|b|e _ IH|e _ IH|op o r Ho _ _ IH|op o w l r Ho _ _ _ _ IHl _ IHr|l i _ Fl IHl _ IHi
                 |l s e _ Fl IHl _ IHs _ IHe|l k _ _ Fl IHl|l t ty _ Et _ Fl IHl]; intro tr; cbn [to_lexp]; try reflexivity.
  - apply IH.
  - cbn [layout_ok]. apply IH.
  - rewrite Ho. cbn [layout_ok]. apply IH.
  - rewrite Ho. cbn [layout_ok]. rewrite IHl, IHr. reflexivity.
  - cbn [layout_ok]. rewrite (last_ws_to_lexp l Fl), IHl, IHi. reflexivity.
  - cbn [layout_ok]. rewrite (last_ws_to_lexp l Fl), IHl. cbn [negb andb].
    destruct s as [x|], e as [y|]; cbn [option_map]; rewrite ?(IHs x eq_refl), ?(IHe y eq_refl); reflexivity.
  - cbn [layout_ok]. rewrite (last_ws_to_lexp l Fl), IHl. reflexivity.
  - rewrite Et. cbn [layout_ok]. rewrite (last_ws_to_lexp l Fl), IHl. reflexivity.
Qed.

Lemma tight_to_lexp e : FR e -> tight e = true -> tight_ok (to_lexp false e) = true.
Proof.
  induction 1 as [| | | |e _ IH| |op o r Ho _ _ IH|op o w l r Ho _ _ _ _ IHl _ IHr|l i _ _ IHl _ _
                 |l s e _ _ IHl _ _ _ _|l k _ _ _ IHl|l t ty _ Et _ _ IHl]; intro Ht; cbn [tight] in Ht; cbn [to_lexp]; try reflexivity.
  - apply IH, Ht.
  - rewrite Ho. cbn [tight_ok]. apply IH, Ht.
  - split_and. subst w. rewrite Ho. cbn [tight_ok negb andb]. rewrite IHl, IHr by assumption. reflexivity.
  - cbn [tight_ok negb andb]. apply IHl, Ht.
  - cbn [tight_ok negb andb]. apply IHl, Ht.
  - cbn [tight_ok negb andb]. apply IHl, Ht.
  - rewrite Et. cbn [tight_ok negb andb]. apply IHl, Ht.
Qed.

Lemma tree_to_lexp e : FR e -> forall tr, tree_of (to_lexp tr e) = fexpr_tree e.
Proof.
  induction 1 as [n Hn|b t Ht|v q|b|e _ IH|e _ IH|op o r Ho _ _ IH|op o w l r Ho _ _ _ _ IHl _ IHr|l i _ _ IHl _ IHi
                 |l s e _ _ IHl _ IHs _ IHe|l k _ _ _ IHl|l t ty _ Et _ _ IHl]; intro tr; cbn [to_lexp fexpr_tree]; try reflexivity.
  - apply IH.
  - cbn [tree_of]. rewrite IH. reflexivity.
  - rewrite Ho. cbn [tree_of]. rewrite (unop_tok_type op o Ho), IH. reflexivity.
  - rewrite Ho. cbn [tree_of]. rewrite (binop_tok_type op o Ho), IHl, IHr. reflexivity.
  - cbn [tree_of]. rewrite IHl, IHi. reflexivity.
  - cbn [tree_of]. rewrite IHl.
    destruct s as [x|], e as [y|]; cbn [option_map]; rewrite ?(IHs x eq_refl), ?(IHe y eq_refl); reflexivity.
  - cbn [tree_of]. rewrite IHl. reflexivity.
  - rewrite Et. cbn [tree_of]. rewrite IHl. reflexivity.
Qed.

Fixpoint vars_of (e : fexpr) : list str :=
  match e with
  | FVar n => [n]
  | FNum _ _ | FStr _ _ | FBool _ => []
  | FAny e | FGroup e | FUn _ e | FDot e _ | FAssert e _ => vars_of e
  | FArr _ els => flat_map vars_of els
  | FMap _ _ vals => flat_map vars_of vals
  | FCall _ args => flat_map vars_of args
  | FBin _ _ l r | FIdx l r => vars_of l ++ vars_of r
  | FSlice l s e => vars_of l ++ match s with Some x => vars_of x | None => [] end ++ match e with Some x => vars_of x | None => [] end
  end.

(* a variable that the re-parse can read: in scope, not "_", not the name of a function *)
Definition var_in_scope (E : env) (n : str) : Prop :=
  str_eqb n (s_ "_"%string) = false /\ mem_str n (e_vars E) = true /\ func_of E n = None.

Lemma atoms_to_lexp E e : FR e -> forall tr, Forall (var_in_scope E) (vars_of e) -> atoms_ok E (to_lexp tr e).
Proof.
  induction 1 as [n Hn|b t Ht|v q|b|e _ IH|e _ IH|op o r Ho _ _ IH|op o w l r Ho _ _ _ _ IHl _ IHr|l i _ _ IHl _ IHi
                 |l s e _ _ IHl _ IHs _ IHe|l k _ _ _ IHl|l t ty _ Et Hne _ IHl]; intros tr Hv; cbn [vars_of] in Hv; cbn [to_lexp atoms_ok]; auto.
  - inversion Hv; subst. assumption.
  - apply (num_text_spec t Ht).
  - rewrite Ho. cbn [atoms_ok]. auto.
  - rewrite Ho. cbn [atoms_ok]. apply Forall_app in Hv as [Hv1 Hv2]. split; auto.
  - apply Forall_app in Hv as [Hv1 Hv2]. split; auto.
  - apply Forall_app in Hv as [Hv1 Hv2]. apply Forall_app in Hv2 as [Hv2 Hv3].
    split; [auto|]. split.
    + destruct s as [x|]; cbn [option_map]; [apply (IHs x eq_refl); assumption | exact I].
    + destruct e as [y|]; cbn [option_map]; [apply (IHe y eq_refl); assumption | exact I].
  - rewrite Et. cbn [atoms_ok]. split; [auto | exact Hne].
Qed.

(* parseExpr on the tokens the formatter writes for e returns e's own tree (positions and
   parser.Any wrappers aside), consumes exactly those tokens and reports no error — in a
   whitespace-sensitive list (call arguments, array elements, map values) and outside. *)
Theorem format_parse_roundtrip E fx lvl e st rest0 fuel :
  frag e = true -> prec_ok e = true -> lex_ok e = true ->
  no_tyerr E -> e_fix_slice E = true -> Forall (var_in_scope E) (vars_of e) ->
  rest st = toks_of_pieces (fmt_expr fx lvl e) ++ rest0 ->
  (is_wss st = true -> tight e = true) ->
  (is_wss st = false -> is_ws (look0 rest0) = false) ->
  stop_tok (is_wss st) lowestPrec (look0 rest0) ->
  2 * List.length (toks_of_pieces (fmt_expr fx lvl e)) <= fuel ->
  exists st', parse_expr E fuel lowestPrec st = Some (Some (fexpr_tree e), st')
              /\ rest st' = rest0 /\ wss st' = wss st /\ errs st' = errs st.
Proof.
  intros Hf Hp Hl NT Hfix Hv Hr Ht Hws Hstop Hfuel. pose proof (frag_FR e Hf Hp Hl) as HF.
  pose proof (render_to_lexp fx e HF false lvl) as Hren. cbn [wsl] in Hren. rewrite app_nil_r in Hren.
  destruct (pratt_layered_fixed E (to_lexp false e) st rest0 fuel) as (P & Q & R & S); auto.
  - eapply Lay_le; [|apply lay_to_lexp; assumption]. lia.
  - apply atoms_to_lexp; assumption.
  - apply layout_to_lexp; assumption.
  - rewrite Hren. exact Hr.
  - intro Hw. apply tight_to_lexp; auto.
  - rewrite Hren. exact Hfuel.
  - exists (consume E (to_lexp false e) st). rewrite P, (tree_to_lexp e HF false). auto.
Qed.

(* the same through parseTopLevelExpr (declarations, assignments, conditions, return values, ...) *)
Theorem format_parse_roundtrip_toplevel E fx lvl e st rest0 fuel :
  frag e = true -> prec_ok e = true -> lex_ok e = true ->
  no_tyerr E -> e_fix_slice E = true -> Forall (var_in_scope E) (vars_of e) ->
  rest st = toks_of_pieces (fmt_expr fx lvl e) ++ rest0 ->
  (is_wss st = true -> tight e = true) ->
  (is_wss st = false -> is_ws (look0 rest0) = false) ->
  stop_tok (is_wss st) lowestPrec (look0 rest0) ->
  2 * List.length (toks_of_pieces (fmt_expr fx lvl e)) <= fuel ->
  exists st', parse_toplevel E (parse_expr E fuel) fuel st = Some (Some (fexpr_tree e), st')
              /\ rest st' = rest0 /\ wss st' = wss st /\ errs st' = errs st.
Proof.
  intros Hf Hp Hl NT Hfix Hv Hr Ht Hws Hstop Hfuel. pose proof (frag_FR e Hf Hp Hl) as HF.
  pose proof (render_to_lexp fx e HF false lvl) as Hren. cbn [wsl] in Hren. rewrite app_nil_r in Hren.
  rewrite (toplevel_is_expr E _ _ st (to_lexp false e) rest0).
  - eapply format_parse_roundtrip; eauto.
  - apply atoms_to_lexp; assumption.
  - rewrite Hren. exact Hr.
Qed.

(* the formatter never needs to add parentheses: it writes the tree as it is, and a tree that is
   not parser-shaped does NOT survive — (a + b) * c without its group node reads back as a + b * c *)
Lemma unparenthesised_tree_does_not_roundtrip :
  let v := fun n : string => FVar (s_ n) in
  let e := FBin OpAsterisk false (FBin OpPlus false (v "a"%string) (v "b"%string)) (v "c"%string) in
  let E := {| e_funcs := []; e_vars := [s_ "a"%string; s_ "b"%string; s_ "c"%string]; e_arity := []; e_tyerr := fun _ _ _ => false; e_fix_slice := true |} in
  let toks := toks_of_pieces (fmt_expr no_fixes 0 e) ++ [mk T_NL] in
  prec_ok e = false /\
  exists t st', parse_expr E 40 lowestPrec (init_state toks) = Some (Some t, st') /\ t <> fexpr_tree e.
Proof. vm_compute. split; [reflexivity|]. eexists; eexists; split; [reflexivity | discriminate]. Qed.
