(* FormatParseSqueezeProofs.v — C06: the judgements of an accepted parse do not depend on empty
   statements, so they transfer from the tree the parser returns for a source (one empty statement
   per blank line: [raw_tree]) to the tree of the formatted text (runs squeezed: [stmt_tree] /
   [body_trees]).  This lifts the accepted-program round trip from already squeezed sources to
   arbitrary comment-free ones. *)
From Coq Require Import List String NArith ZArith Bool Arith Lia.
From EvyV Require Import Base FmtAst Format FormatProofs Pratt PrattProofs Parser ParserProofs ParserRules ParserScope ParserCursor
  FormatParse FormatParseProofs FormatParseListProofs FormatParseStmtProofs FormatParseBlockProofs FormatParseProgProofs FormatParseAcceptProofs.
From EvyV.Gen Require Import Prec.
Import ListNotations.
Local Open Scope nat_scope.

(* the tree parser.Parse builds for the statement the formatter tree describes: every EmptyStmt kept *)
Fixpoint raw_tree (st : fstmt) : stmt :=
  let body := fix body (l : list fstmt) : list stmt := match l with [] => [] | x :: t => raw_tree x :: body t end in
  match st with
  | FmtAst.SEmpty _ => Parser.SEmpty
  | FmtAst.STypedDecl n t _ => Parser.STypedDecl n (fty_ty t)
  | FmtAst.SInferredDecl n v _ => Parser.SInferredDecl n (fexpr_tree v)
  | FmtAst.SAssign t v _ => Parser.SAssign (fexpr_tree t) (fexpr_tree v)
  | FmtAst.SCall n args _ => Parser.SCallStmt (TCall n (map fexpr_tree args))
  | FmtAst.SReturn v _ => Parser.SReturn (match v with Some e => Some (fexpr_tree e) | None => None end)
  | FmtAst.SBreak _ => Parser.SBreak
  | FmtAst.SIf (CBlock c _ b) elifs els _ =>
      Parser.SIf ((Some (fexpr_tree c), blk_of (body b))
                  :: (fix go (l : list cblock) : list (option tree * block) :=
                        match l with
                        | [] => []
                        | CBlock c _ b :: r => (Some (fexpr_tree c), blk_of (body b)) :: go r
                        end) elifs)
                 (match els with Some (_, b) => Some (blk_of (body b)) | None => None end)
  | FmtAst.SWhile c _ b _ => Parser.SWhile (Some (fexpr_tree c)) (blk_of (body b))
  | FmtAst.SFor lv r _ b _ => Parser.SFor lv (range_trees r) (blk_of (body b))
  | FmtAst.SFunc n rt ps v _ b _ =>
      Parser.SFunc n (match rt with Some _ => true | None => false end)
                   (map fst ps ++ match v with Some p => [fst p] | None => [] end) (blk_of (body b))
  | FmtAst.SOn n ps _ b _ => Parser.SOn n (map fst ps) (blk_of (body b))
  end.
Definition raw_trees (l : list fstmt) : list stmt := map raw_tree l.
Definition raw_cb (cb : cblock) : option tree * block :=
  match cb with CBlock c _ b => (Some (fexpr_tree c), blk_of (raw_trees b)) end.

Lemma raw_tree_if c ch b elifs els ce :
  raw_tree (FmtAst.SIf (CBlock c ch b) elifs els ce)
  = Parser.SIf (raw_cb (CBlock c ch b) :: map raw_cb elifs)
               (match els with Some (_, eb) => Some (blk_of (raw_trees eb)) | None => None end).
Proof.
  cbn [raw_tree raw_cb]. f_equal. f_equal.
  induction elifs as [|[c' ch' b'] rest IH]; [reflexivity|]. cbn [map raw_cb]. rewrite <- IH. reflexivity.
Qed.

(* what the judgements look at *)
Definition same_j (a b : stmt) : Prop :=
  (forall T G, scope_stmt T a G = scope_stmt T b G) /\
  (forall k inl, stmt_ok k inl a = stmt_ok k inl b) /\
  stmt_term a = stmt_term b /\ is_empty_stmt a = is_empty_stmt b /\ stmt_returns a = stmt_returns b.

(* lists: the raw list against the squeezed one *)
Lemma lists_same body : Forall (fun st => same_j (raw_tree st) (stmt_tree st)) body -> forall e,
  (forall T G, scope_stmts T (raw_trees body) G = scope_stmts T (body_trees e body) G) /\
  (forall k inl, forallb (stmt_ok k inl) (raw_trees body) = forallb (stmt_ok k inl) (body_trees e body)) /\
  no_dead (raw_trees body) = no_dead (body_trees e body) /\
  forallb is_empty_stmt (raw_trees body) = forallb is_empty_stmt (body_trees e body) /\
  existsb stmt_term (raw_trees body) = existsb stmt_term (body_trees e body) /\
  existsb stmt_returns (raw_trees body) = existsb stmt_returns (body_trees e body).
Proof.
  induction 1 as [|x l Hx _ IH]; intro e; [repeat split; reflexivity|].
  cbn [raw_trees map body_trees]. fold (raw_trees l). destruct (is_blank x) eqn:Hb.
  - rewrite (is_blank_empty x Hb). cbn [raw_tree].
    destruct (IH true) as (I1 & I2 & I3 & I4 & I5 & I6).
    destruct e; cbn [scope_stmts scope_stmt obind forallb stmt_ok no_dead stmt_term is_empty_stmt existsb stmt_returns andb orb];
      repeat split; intros; auto.
  - destruct Hx as (J1 & J2 & J3 & J4 & J5). destruct (IH false) as (I1 & I2 & I3 & I4 & I5 & I6).
    cbn [scope_stmts forallb no_dead existsb]. rewrite J3, J4, J5, I3, I4, I5, I6. repeat split; intros; auto.
    + rewrite J1. destruct (scope_stmt T (stmt_tree x) G); cbn [obind]; [apply I1|reflexivity].
    + rewrite J2, I2. reflexivity.
Qed.

Lemma blocks_same body : Forall (fun st => same_j (raw_tree st) (stmt_tree st)) body ->
  (forall T G, scope_block T (blk_of (raw_trees body)) G = scope_block T (blk_of (body_trees false body)) G) /\
  (forall k inl, block_ok k inl (blk_of (raw_trees body)) = block_ok k inl (blk_of (body_trees false body))) /\
  block_term (blk_of (raw_trees body)) = block_term (blk_of (body_trees false body)) /\
  block_returns (blk_of (raw_trees body)) = block_returns (blk_of (body_trees false body)).
Proof.
  intro H. destruct (lists_same body H false) as (I1 & I2 & I3 & I4 & I5 & I6). unfold blk_of.
  repeat split; intros.
  - rewrite !scope_block_eq, I1. reflexivity.
  - cbn [block_ok]. rewrite I2, I3. reflexivity.
  - exact I5.
  - exact I6.
Qed.

Lemma cbs_same cbs : Forall (Pblock (fun st => same_j (raw_tree st) (stmt_tree st))) cbs ->
  (forall T G, scope_brs T (map raw_cb cbs) G = scope_brs T (map cb_tree cbs) G) /\
  (forall k inl, forallb (fun cb => block_ok k inl (snd cb)) (map raw_cb cbs) = forallb (fun cb => block_ok k inl (snd cb)) (map cb_tree cbs)) /\
  forallb (fun cb => block_term (snd cb)) (map raw_cb cbs) = forallb (fun cb => block_term (snd cb)) (map cb_tree cbs) /\
  forallb (fun cb => block_returns (snd cb)) (map raw_cb cbs) = forallb (fun cb => block_returns (snd cb)) (map cb_tree cbs).
Proof.
  induction 1 as [|[c ch b] r Hx _ IH]; [repeat split; reflexivity|]. cbn [Pblock] in Hx.
  destruct (blocks_same b Hx) as (B1 & B2 & B3 & B4). destruct IH as (I1 & I2 & I3 & I4).
  cbn [map raw_cb cb_tree scope_brs forallb fst snd]. repeat split; intros.
  - destruct (use_vars _ _); cbn [obind]; [|reflexivity]. rewrite B1. destruct (scope_block _ _ _); cbn [obind]; [apply I1|reflexivity].
  - rewrite B2, I2. reflexivity.
  - rewrite B3, I3. reflexivity.
  - rewrite B4, I4. reflexivity.
Qed.

Theorem raw_same : forall st, same_j (raw_tree st) (stmt_tree st).
Proof.
  induction st using fstmt_ind'; try (repeat split; reflexivity).
  - (* if *)
    destruct ifb as [c ch b]. rewrite raw_tree_if, stmt_tree_if.
    assert (Hall : Forall (Pblock (fun st => same_j (raw_tree st) (stmt_tree st))) (CBlock c ch b :: elifs)) by (constructor; assumption).
    destruct (cbs_same _ Hall) as (C1 & C2 & C3 & C4). cbn [map] in C1, C2, C3, C4.
    assert (He : match els with Some (_, eb) => Forall (fun st => same_j (raw_tree st) (stmt_tree st)) eb | None => True end)
      by (destruct els as [[ce eb]|]; [exact (H1 ce eb eq_refl) | exact I]).
    repeat split; intros.
    + rewrite !scope_if_eq, C1. destruct (scope_brs T _ G); cbn [obind]; [|reflexivity].
      destruct els as [[ce eb]|]; [|reflexivity]. apply (proj1 (blocks_same eb He)).
    + cbn [stmt_ok]. rewrite C2. destruct els as [[ce eb]|]; [|reflexivity]. rewrite (proj1 (proj2 (blocks_same eb He))). reflexivity.
    + cbn [stmt_term]. destruct els as [[ce eb]|]; [|reflexivity]. rewrite C3, (proj1 (proj2 (proj2 (blocks_same eb He)))). reflexivity.
    + cbn [stmt_returns]. destruct els as [[ce eb]|]; [|reflexivity]. rewrite C4, (proj2 (proj2 (proj2 (blocks_same eb He)))). reflexivity.
  - (* while *)
    destruct (blocks_same body H) as (B1 & B2 & B3 & B4).
    change (raw_tree (FmtAst.SWhile cond ch body ce)) with (Parser.SWhile (Some (fexpr_tree cond)) (blk_of (raw_trees body))).
    rewrite stmt_tree_while. repeat split; intros; cbn [scope_stmt stmt_ok]; rewrite ?B2; try reflexivity.
    destruct (use_vars _ _); cbn [obind]; [apply B1|reflexivity].
  - (* for *)
    destruct (blocks_same body H) as (B1 & B2 & B3 & B4).
    change (raw_tree (FmtAst.SFor lv r ch body ce)) with (Parser.SFor lv (range_trees r) (blk_of (raw_trees body))).
    rewrite stmt_tree_for. repeat split; intros; cbn [stmt_ok]; rewrite ?B2; try reflexivity.
    rewrite !scope_for_eq. destruct (match lv with Some n => _ | None => _ end); cbn [obind]; [|reflexivity].
    destruct (use_vars _ _); cbn [obind]; [apply B1|reflexivity].
  - (* func *)
    destruct (blocks_same body H) as (B1 & B2 & B3 & B4).
    change (raw_tree (FmtAst.SFunc n rt ps v ch body ce)) with
      (Parser.SFunc n (match rt with Some _ => true | None => false end) (map fst ps ++ match v with Some p => [fst p] | None => [] end) (blk_of (raw_trees body))).
    change (stmt_tree (FmtAst.SFunc n rt ps v ch body ce)) with
      (Parser.SFunc n (match rt with Some _ => true | None => false end) (map fst ps ++ match v with Some p => [fst p] | None => [] end) (blk_of (body_trees false body))).
    repeat split; intros; cbn [scope_stmt stmt_ok]; rewrite ?B2, ?B4; try reflexivity.
    destruct (declare_all _ _ _); cbn [obind]; [apply B1|reflexivity].
  - (* on *)
    destruct (blocks_same body H) as (B1 & B2 & B3 & B4).
    change (raw_tree (FmtAst.SOn n ps ch body ce)) with (Parser.SOn n (map fst ps) (blk_of (raw_trees body))).
    change (stmt_tree (FmtAst.SOn n ps ch body ce)) with (Parser.SOn n (map fst ps) (blk_of (body_trees false body))).
    repeat split; intros; cbn [stmt_ok]; rewrite ?B2; try reflexivity.
    rewrite !scope_on_eq. destruct (lookup_evn _ _); [|reflexivity]. destruct (map fst ps); [apply B1|].
    destruct (Nat.eqb _ _); [|reflexivity]. destruct (declare_all _ _ _); cbn [obind]; [apply B1|reflexivity].
Qed.

(* the static rules (calls, typing sites) likewise *)
Definition same_s (a b : stmt) : Prop := forall B F, stmt_sok B F a <-> stmt_sok B F b.

Lemma lists_same_s body : Forall (fun st => same_s (raw_tree st) (stmt_tree st)) body -> forall e B F,
  Forall (stmt_sok B F) (raw_trees body) <-> Forall (stmt_sok B F) (body_trees e body).
Proof.
  induction 1 as [|x l Hx _ IH]; intros e B F; [split; intro; constructor|].
  cbn [raw_trees map body_trees]. fold (raw_trees l). destruct (is_blank x) eqn:Hb.
  - rewrite (is_blank_empty x Hb). cbn [raw_tree]. destruct e.
    + split; [intro H; inversion H; subst; apply IH; assumption | intro H; constructor; [exact I | apply (IH true); exact H]].
    + split; intro H; inversion H; subst; constructor; try exact I; [apply IH | apply (IH true)]; assumption.
  - split; intro H; inversion H; subst; constructor; try (apply (Hx B F); assumption); [apply IH | apply (IH false)]; assumption.
Qed.

Lemma blocks_same_s body : Forall (fun st => same_s (raw_tree st) (stmt_tree st)) body -> forall B F,
  block_sok B F (blk_of (raw_trees body)) <-> block_sok B F (blk_of (body_trees false body)).
Proof.
  intros H B F. unfold blk_of. cbn [block_sok]. rewrite !stmts_sok_fix. apply (lists_same_s body H false).
Qed.

Lemma cbs_same_s cbs : Forall (Pblock (fun st => same_s (raw_tree st) (stmt_tree st))) cbs -> forall B F,
  Forall (cb_sok B F) (map raw_cb cbs) <-> Forall (cb_sok B F) (map cb_tree cbs).
Proof.
  induction 1 as [|[c ch b] r Hx _ IH]; intros B F; [split; intro; constructor|]. cbn [Pblock] in Hx.
  cbn [map raw_cb cb_tree]. pose proof (blocks_same_s b Hx B F) as Hb.
  split; intro H; inversion H as [|? ? [H1 H2] H3]; subst; constructor; try (split; [exact H1|]; cbn [snd] in *; apply Hb; exact H2); apply IH; exact H3.
Qed.

Theorem raw_same_s : forall st, same_s (raw_tree st) (stmt_tree st).
Proof.
  induction st using fstmt_ind'; try (intros B F; reflexivity).
  - destruct ifb as [c ch b]. intros B F. rewrite raw_tree_if, stmt_tree_if. cbn [stmt_sok].
    pose proof (cbs_same_s elifs H0 B F) as Hc. cbn [Pblock] in H. pose proof (blocks_same_s b H B F) as Hb1.
    rewrite !(brs_sok_fix B F).
    assert (He : match els with Some (_, eb) => (block_sok B F (blk_of (raw_trees eb)) <-> block_sok B F (blk_of (body_trees false eb))) | None => True end)
      by (destruct els as [[ce eb]|]; [exact (blocks_same_s eb (H1 ce eb eq_refl) B F) | exact I]).
    cbn [raw_cb cb_tree fst snd]. destruct els as [[ce eb]|]; tauto.
  - intros B F. change (raw_tree (FmtAst.SWhile cond ch body ce)) with (Parser.SWhile (Some (fexpr_tree cond)) (blk_of (raw_trees body))).
    rewrite stmt_tree_while. cbn [stmt_sok]. pose proof (blocks_same_s body H B F). tauto.
  - intros B F. change (raw_tree (FmtAst.SFor lv r ch body ce)) with (Parser.SFor lv (range_trees r) (blk_of (raw_trees body))).
    rewrite stmt_tree_for. cbn [stmt_sok]. pose proof (blocks_same_s body H B F). tauto.
  - intros B F. pose proof (blocks_same_s body H B F) as Hb. exact Hb.
  - intros B F. pose proof (blocks_same_s body H B F) as Hb. exact Hb.
Qed.

Lemma prog_same p : structure_ok (raw_trees p) = structure_ok (body_trees false p) /\
                    (forall T, scope_prog T (raw_trees p) = scope_prog T (body_trees false p)) /\
                    (forall B F, stmts_sok B F (raw_trees p) <-> stmts_sok B F (body_trees false p)).
Proof.
  assert (H : Forall (fun st => same_j (raw_tree st) (stmt_tree st)) p) by (apply Forall_forall; intros; apply raw_same).
  assert (H' : Forall (fun st => same_s (raw_tree st) (stmt_tree st)) p) by (apply Forall_forall; intros; apply raw_same_s).
  destruct (lists_same p H false) as (I1 & I2 & I3 & _). split; [|split].
  - unfold structure_ok. rewrite I2, I3. reflexivity.
  - intro T. unfold scope_prog. rewrite I1. reflexivity.
  - intros B F. exact (lists_same_s p H' false B F).
Qed.

Section Lift.
  Variable B : benv.
  Hypothesis BT : forall s t n, b_tyerr B s t n = false.
  Variable fx : fixes.

  Hypothesis TOK : tbl_ok (builtin_table B).

  (* the source may contain any number of blank lines anywhere *)
  Theorem program_roundtrip_source p raw eof0 poss eof :
    parse B raw eof0 = Accept (raw_trees p) -> fn_table B raw = builtin_table B ->
    p <> [] -> eokb B (builtin_table B) (G0 B) p ->
    List.length poss = List.length (toks_of_pieces (fmt_prog fx p)) ->
    parse B (combine (toks_of_pieces (fmt_prog fx p)) poss) eof = Accept (body_trees false p).
  Proof.
    intros Hacc Hfn Hne He Hlen. destruct (prog_same p) as (S1 & S2 & S3).
    apply (program_roundtrip_judged B BT fx TOK p poss eof Hne He); [| | |exact Hlen].
    - rewrite <- S1. exact (accept_structure B raw eof0 _ Hacc).
    - apply S3. rewrite <- Hfn. exact (accept_static B raw eof0 _ Hacc).
    - rewrite <- S2, <- Hfn. exact (accept_scoped B raw eof0 _ Hacc).
  Qed.
End Lift.
