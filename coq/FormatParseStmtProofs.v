(* FormatParseStmtProofs.v — C06 round trip, statement level, against Parser.v (parser.go):
   the tokens the formatter writes for a one-line statement parse back to the statement's tree.
   Parser.v's statement trees carry no comments (like Pratt.v's expression trees carry no
   multiline items): the statements here are comment-free. *)
From Coq Require Import List String NArith ZArith Bool Arith Lia.
From EvyV Require Import Base FmtAst Format FormatProofs Pratt PrattProofs Parser FormatParse FormatParseProofs FormatParseListProofs.
From EvyV.Gen Require Import Prec.
Import ListNotations.
Local Open Scope nat_scope.

(* what one p.advance() outside a whitespace-sensitive context leaves: a blank after the token is skipped *)
Definition skip1 (l : list token) : list token :=
  match l with t :: r => if is_ws t then r else l | [] => [] end.

Lemma skip1_eq l : skip1 l = if is_ws (look0 l) then tl l else l.
Proof. destruct l; reflexivity. Qed.

Lemma skip1_len l : List.length l <= S (List.length (skip1 l)).
Proof. destruct l as [|t r]; [cbn; lia|]. cbn [skip1]. destruct (is_ws t); cbn [List.length]; lia. Qed.

Lemma advance_skip1 st t rest' :
  is_wss st = false -> rest st = t :: rest' ->
  rest (advance st) = skip1 rest' /\ wss (advance st) = wss st /\ errs (advance st) = errs st.
Proof.
  intros W Hr. split; [|exact (advance_keeps st)]. rewrite (rest_advance st t _ Hr), W, skip1_eq. reflexivity.
Qed.

(* p.peek after an advance outside a whitespace-sensitive context: the token after the current one, blanks skipped *)
Definition peek_of (q : list token) : token := if is_ws (look1 q) then look2 q else look1 q.

Lemma advance_peek st t rest' :
  is_wss st = false -> rest st = t :: rest' -> peek (advance st) = peek_of (skip1 rest').
Proof.
  intros W Hr. unfold advance. set (s1 := advance_wss st).
  assert (R1 : rest s1 = rest') by (unfold s1; rewrite rest_advance_wss, Hr; reflexivity).
  assert (P1 : peek s1 = look1 rest') by (unfold s1, advance_wss; cbn [peek]; rewrite Hr; reflexivity).
  assert (W1 : is_wss s1 = false) by exact W. rewrite W1.
  assert (H2 : rest (advance_if_ws s1) = skip1 rest' /\ peek (advance_if_ws s1) = look1 (skip1 rest')).
  { unfold advance_if_ws, cur. rewrite R1. unfold skip1. destruct rest' as [|t2 r2].
    - cbn [look0 hd]. change (is_ws tEOF) with false. auto.
    - cbn [look0 hd]. destruct (is_ws t2); [|auto]. split; [rewrite rest_advance_wss, R1; reflexivity|].
      unfold advance_wss. cbn [peek]. rewrite R1. reflexivity. }
  destruct H2 as [H2 H3]. unfold peek_of. rewrite H3.
  destruct (is_ws (look1 (skip1 rest'))); cbn [peek]; [rewrite H2; reflexivity | exact H3].
Qed.

Section Stmts.
  Variable B : benv.
  Hypothesis BT : forall s t n, b_tyerr B s t n = false.   (* the typing oracle is silent: types are not modelled *)
  Variable fx : fixes.

  Lemma env_no_tyerr s : no_tyerr (env_of B s).
  Proof. intros a b c. apply BT. Qed.

  Lemma env_of_with_cs s c : env_of B (with_cs s c) = env_of B s.
  Proof. reflexivity. Qed.

  (* between statements the whitespace-sensitivity stack is [false] (every push has been popped) *)
  Definition at_toks (s : pst) (r : list token) (e : list (perr * nat)) : Prop :=
    rest (cs s) = r /\ wss (cs s) = [false] /\ errs (cs s) = e.

  Lemma at_ct s t r e : at_toks s (t :: r) e -> ct s = ttype t.
  Proof. intros (Hr & _). unfold ct, cur_t, cur. rewrite Hr. reflexivity. Qed.

  Lemma with_cs_id s : with_cs s (cs s) = s.
  Proof. destruct s; reflexivity. Qed.

  Lemma passert_ok t s : ct s = t -> passert t s = (true, s).
  Proof.
    intro H. unfold passert, assert_token. unfold ct in H. rewrite H.
    assert (Hb : toktype_beq t t = true) by (apply toktype_beq_eq; reflexivity). rewrite Hb. rewrite with_cs_id. reflexivity.
  Qed.

  Lemma at_nwss s r e : at_toks s r e -> is_wss (cs s) = false.
  Proof. intros (_ & Hw & _). unfold is_wss. rewrite Hw. reflexivity. Qed.

  Lemma adv_at s t r e : at_toks s (t :: r) e -> at_toks (adv s) (skip1 r) e.
  Proof.
    intro Hat. pose proof (at_nwss _ _ _ Hat) as Hw'. destruct Hat as (Hr & Hw & He).
    destruct (advance_skip1 (cs s) t r Hw' Hr) as (A1 & A2 & A3).
    unfold at_toks, adv, upd. cbn [cs with_cs]. rewrite A1, A2, A3. auto.
  Qed.

  (* collect only touches the scopes and the read log *)
  Lemma cs_fold_mark l s : cs (fold_right mark s l) = cs s.
  Proof. induction l as [|n l IH]; [reflexivity|]. cbn [fold_right]. unfold mark at 1. cbn [with_scs cs]. exact IH. Qed.

  Lemma collect_at s c r e : rest c = r -> wss c = [false] -> errs c = e -> at_toks (collect s c) r e.
  Proof.
    intros Hr Hw He. unfold collect, upd, at_toks. cbn [with_cs cs]. rewrite cs_fold_mark. cbn [with_cs cs rest errs wss]. auto.
  Qed.

  Lemma fns_fold_mark l s : fns (fold_right mark s l) = fns s.
  Proof. induction l as [|n l IH]; [reflexivity|]. cbn [fold_right]. unfold mark at 1. cbn [with_scs fns]. exact IH. Qed.

  Lemma fns_collect s c : fns (collect s c) = fns s.
  Proof. unfold collect, upd. cbn [with_cs fns]. rewrite fns_fold_mark. reflexivity. Qed.

  Lemma has_var_mark_in n m l : has_var n (mark_in m l) = has_var n l.
  Proof.
    induction l as [|v r IH]; [reflexivity|]. cbn [mark_in]. destruct (str_eqb (v_name v) m); cbn [has_var v_name]; [reflexivity|].
    rewrite IH. reflexivity.
  Qed.

  (* marking a variable as read does not change which names the innermost scope declares *)
  Lemma in_local_scopes_mark n m l :
    match mark_scopes m l with [] => false | sc :: _ => has_var n (sc_vars sc) end
    = match l with [] => false | sc :: _ => has_var n (sc_vars sc) end.
  Proof.
    destruct l as [|sc r]; [reflexivity|]. cbn [mark_scopes]. destruct (has_var m (sc_vars sc)); cbn [sc_vars]; [apply has_var_mark_in | reflexivity].
  Qed.

  Lemma in_local_fold_mark n l s : in_local n (fold_right mark s l) = in_local n s.
  Proof.
    induction l as [|m l IH]; [reflexivity|]. cbn [fold_right]. unfold in_local, mark at 1. cbn [with_scs scs].
    rewrite in_local_scopes_mark. exact IH.
  Qed.

  Lemma in_local_collect n s c : in_local n (collect s c) = in_local n s.
  Proof. unfold collect, upd, in_local. cbn [with_cs scs]. apply (in_local_fold_mark n (used c) (with_cs s c)). Qed.

  (* a declaration of x is legal in state s (validateVarDecl) *)
  Definition decl_ok (x : str) (s : pst) : Prop :=
    mem_str x (b_globals B) = false /\ in_local x s = false /\ is_func x s = false /\ str_eqb x (s_ "_"%string) = false.

  (* the value of a declaration / assignment / return, a condition: what parseTopLevelExpr is applied to *)
  Definition top_ok (E : env) (v : fexpr) : Prop :=
    item_ok E false v \/
    exists n args, v = FCall n args /\ ident_text n = true /\ func_of E n = Some false /\
                   arity_wrong E n (List.length args) = false /\ Forall (item_ok E true) args.

  (* the tokens of a top-level value start with a token that is neither a blank nor an end of line *)
  Lemma top_head lvl E c : no_tyerr E -> e_fix_slice E = true -> top_ok E c ->
    exists t0 ts, toks_of_pieces (fmt_expr fx lvl c) = t0 :: ts /\ is_ws t0 = false /\ is_eol (ttype t0) = false.
  Proof.
    intros NT FS [Hit|(n & args & -> & Hn' & _)].
    - destruct (item_rt E NT FS fx false lvl c Hit) as [_ Hhd].
      destruct (toks_of_pieces (fmt_expr fx lvl c)) as [|t0 ts]; [contradiction|]. exists t0, ts. split; [reflexivity|].
      cbn [head_ok] in Hhd. unfold is_ws, is_eol. destruct (ttype t0); try contradiction; split; reflexivity.
    - rewrite (toks_call fx lvl n args Hn'). eexists; eexists. split; [reflexivity | split; reflexivity].
  Qed.

  (* parseTopLevelExpr on a formatted expression in front of any token that ends it *)
  Lemma toplevel_core lvl E v c rest0 fuel outer :
    no_tyerr E -> e_fix_slice E = true -> top_ok E v ->
    rest c = toks_of_pieces (fmt_expr fx lvl v) ++ rest0 -> wss c = false :: outer ->
    is_ws (look0 rest0) = false -> stop_tok false lowestPrec (look0 rest0) -> list_end (look0 rest0) ->
    2 * List.length (toks_of_pieces (fmt_expr fx lvl v)) <= fuel ->
    exists c', parse_toplevel E (parse_expr E fuel) fuel c = Some (Some (fexpr_tree v), c')
               /\ rest c' = rest0 /\ wss c' = wss c /\ errs c' = errs c.
  Proof.
    intros NT FS Hok Hr Hw Hws Hstop Hend Hfuel.
    assert (Hw' : is_wss c = false) by (unfold is_wss; rewrite Hw; reflexivity).
    destruct Hok as [Hit|(n & args & -> & Hn & Hfn & Har & Hall)].
    - destruct (item_rt E NT FS fx false lvl v Hit) as [Hrt Hhd].
      destruct (Hrt c rest0 fuel Hw' Hr (fun _ => Hws) Hstop Hfuel) as (c' & P & Q1 & Q2 & Q3).
      exists c'. split; [|auto].
      (* parseTopLevelExpr is parseExpr here: the first token does not name a function with parameters *)
      unfold parse_toplevel. destruct (toks_of_pieces (fmt_expr fx lvl v)) as [|t0 ts] eqn:Et; [contradiction|].
      unfold cur_t, cur. rewrite Hr. cbn [app look0 hd].
      destruct (ttype t0) eqn:T0; try exact P.
      destruct (func_of E (tlit t0)) as [[|]|] eqn:Fn; try exact P.
      exfalso. exact (item_head_not_call E fx v false lvl t0 ts Hit Et T0 Fn).
    - destruct (toplevel_call_rt E NT FS fx lvl n args c rest0 fuel outer Hn Hfn Har Hall Hr Hw Hend Hfuel) as (c' & P & Q).
      exists c'. split; [exact P | exact Q].
  Qed.

  (* parseTopLevelExpr on the formatted value, followed by the end of the line *)
  Lemma p_toplevel_value lvl s v r e :
    top_ok (env_of B s) v ->
    at_toks s (toks_of_pieces (fmt_expr fx lvl v) ++ mk T_NL :: r) e ->
    exists s', p_toplevel B s = Ok (Some (fexpr_tree v)) s' /\ at_toks s' (mk T_NL :: r) e /\
               fns s' = fns s /\ (forall n, in_local n s' = in_local n s).
  Proof.
    intros Hok (Hr & Hw & He). unfold p_toplevel, expr_call.
    destruct (toplevel_core lvl (env_of B s) v (cs s) (mk T_NL :: r) (efuel (cs s)) [] (env_no_tyerr s) eq_refl Hok Hr Hw eq_refl)
      as (c & P & Q1 & Q2 & Q3).
    { right; left. reflexivity. }
    { exact I. }
    { unfold efuel, here. rewrite Hr, app_length. lia. }
    rewrite P.
    exists (collect s c). split; [reflexivity|]. split; [|split; [apply fns_collect | intro; apply in_local_collect]].
    apply collect_at; auto; [rewrite Q2; exact Hw | rewrite Q3; exact He].
  Qed.

  (* assertEOL and advancePastNL at the end of the line *)
  Lemma assert_eol_nl s r e : at_toks s (mk T_NL :: r) e -> assert_eol s = s.
  Proof. intros (Hr & _). unfold assert_eol, is_at_eol, cur_t, cur. rewrite Hr. reflexivity. Qed.

  Definition peek_ok (s : pst) (r : list token) : Prop := peek (cs s) = peek_of r.

  Lemma adv_peek s t r e : at_toks s (t :: r) e -> peek_ok (adv s) (skip1 r).
  Proof. intro Hat. exact (advance_peek (cs s) t r (at_nwss _ _ _ Hat) (proj1 Hat)). Qed.

  (* on a newline advancePastNL is one advance *)
  Lemma apnl_adv s r e : at_toks s (mk T_NL :: r) e -> apnl s = adv s.
  Proof. intros (Hr & _). unfold apnl, adv, upd. cbn [apnl_loop]. unfold cur_t, cur. rewrite Hr. reflexivity. Qed.

  Lemma apnl_nl s r e : at_toks s (mk T_NL :: r) e -> at_toks (apnl s) (skip1 r) e.
  Proof. intro Hat. rewrite (apnl_adv s r e Hat). exact (adv_at s _ r e Hat). Qed.

  Lemma apnl_peek s r e : at_toks s (mk T_NL :: r) e -> peek_ok (apnl s) (skip1 r).
  Proof. intro Hat. rewrite (apnl_adv s r e Hat). exact (adv_peek s _ r e Hat). Qed.

  (* a statement ends with advancePastNL at the end of its line *)
  Lemma line_end {A} (x : A) s r e : at_toks s (mk T_NL :: r) e ->
    exists s', Ok x (apnl s) = Ok x s' /\ at_toks s' (skip1 r) e /\ peek_ok s' (skip1 r).
  Proof. intro Hat. exists (apnl s). split; [reflexivity|]. split; [exact (apnl_nl s r e Hat) | exact (apnl_peek s r e Hat)]. Qed.

  (* validateVarDecl accepts a name that may be declared, and the declaration leaves the cursor alone *)
  Lemma declare_at x s s2 p r e :
    decl_ok x s -> fns s2 = fns s -> in_local x s2 = in_local x s -> at_toks s2 (mk T_NL :: r) e ->
    validate_var_decl B x p false s2 = (true, s2) /\ forall v, at_toks (scope_set x v s2) (mk T_NL :: r) e.
  Proof.
    intros (D1 & D2 & D3 & D4) F3 L3 A3. split.
    - unfold validate_var_decl, is_func in *. rewrite D1, L3, D2, F3, D3. cbn [negb andb]. rewrite D4. reflexivity.
    - intro v. unfold scope_set. rewrite D4. destruct (scs s2); exact A3.
  Qed.

  (* the tokens of the one-line statements *)
  Lemma inferred_toks lvl x v : ident_text x = true ->
    toks_of_pieces (fmt_stmt fx lvl (FmtAst.SInferredDecl x v []))
    = ident_tok x :: mk T_WS :: mk T_DECLARE :: mk T_WS :: toks_of_pieces (fmt_expr fx lvl v).
  Proof.
    intro Hx. cbn [fmt_stmt]. unfold write_comment. cbn [is_empty app]. rewrite app_nil_r.
    change (T x :: Sp :: T k_declare :: Sp :: fmt_expr fx lvl v) with ([T x; Sp; T k_declare; Sp] ++ fmt_expr fx lvl v).
    rewrite toks_app. cbn [toks_of_pieces flat_map tok_of_piece app]. rewrite (ident_text_spec x Hx). reflexivity.
  Qed.

  Lemma typed_toks lvl x t ty : ident_text x = true -> fty_ty t = Some ty ->
    toks_of_pieces (fmt_stmt fx lvl (FmtAst.STypedDecl x t [])) = ident_tok x :: mk T_COLON :: render_ty ty.
  Proof.
    intros Hx Hty. cbn [fmt_stmt]. unfold write_comment, write_decl. cbn [is_empty]. rewrite app_nil_r.
    rewrite toks_app. cbn [toks_of_pieces flat_map tok_of_piece app]. rewrite (ident_text_spec x Hx).
    fold (toks_of_pieces (fmt_type t)). rewrite (toks_fmt_type t ty Hty). reflexivity.
  Qed.

  Lemma return_toks lvl v :
    toks_of_pieces (fmt_stmt fx lvl (FmtAst.SReturn (Some v) [])) = mk T_RETURN :: mk T_WS :: toks_of_pieces (fmt_expr fx lvl v).
  Proof.
    cbn [fmt_stmt]. unfold write_comment. cbn [is_empty app]. rewrite app_nil_r.
    change (T k_return :: Sp :: fmt_expr fx lvl v) with ([T k_return; Sp] ++ fmt_expr fx lvl v). rewrite toks_app. reflexivity.
  Qed.

  Lemma call_toks lvl n args : ident_text n = true ->
    toks_of_pieces (fmt_stmt fx lvl (FmtAst.SCall n args []))
    = ident_tok n :: more_args (map (fun a => toks_of_pieces (fmt_expr fx lvl a)) args).
  Proof.
    intro Hn. cbn [fmt_stmt]. unfold write_comment. cbn [is_empty]. rewrite app_nil_r.
    exact (toks_call fx lvl n args Hn).
  Qed.

  (* x := v *)
  Theorem inferred_decl_roundtrip lvl s x v r e :
    ident_text x = true -> decl_ok x s -> top_ok (env_of B s) v ->
    at_toks s (toks_of_pieces (fmt_stmt fx lvl (FmtAst.SInferredDecl x v [])) ++ mk T_NL :: r) e ->
    exists s', parse_inferred_decl_stmt B s = Ok (Some (Parser.SInferredDecl x (fexpr_tree v))) s' /\ at_toks s' (skip1 r) e /\ peek_ok s' (skip1 r).
  Proof.
    intros Hx Hd Hv Hat.
    rewrite (inferred_toks lvl x v Hx) in Hat. cbn [app] in Hat.
    set (vt := toks_of_pieces (fmt_expr fx lvl v)) in *.
    unfold parse_inferred_decl_stmt. rewrite (passert_ok T_IDENT s) by (exact (at_ct _ _ _ _ Hat)).
    cbn [snd]. unfold cur. rewrite (proj1 Hat). cbn [look0 hd tlit ident_tok].
    pose proof (adv_at s (ident_tok x) (mk T_WS :: mk T_DECLARE :: mk T_WS :: vt ++ mk T_NL :: r) e Hat) as A1.
    pose proof (adv_at (adv s) (mk T_DECLARE) (mk T_WS :: vt ++ mk T_NL :: r) e A1) as A2.
    destruct (p_toplevel_value lvl (adv (adv s)) v r e Hv A2) as (s2 & P & A3 & F3 & L3). rewrite P.
    unfold tyerr_s. rewrite BT.
    destruct (declare_at x s s2 (pos s) r e Hd F3 (L3 x) A3) as [Hvd A4].
    rewrite Hvd, (assert_eol_nl _ r e (A4 _)). exact (line_end _ _ r e (A4 _)).
  Qed.

  (* break *)
  Theorem break_roundtrip lvl s r e :
    in_loop s = true ->
    at_toks s (toks_of_pieces (fmt_stmt fx lvl (FmtAst.SBreak [])) ++ mk T_NL :: r) e ->
    exists s', parse_break_stmt s = Ok (Some Parser.SBreak) s' /\ at_toks s' (skip1 r) e /\ peek_ok s' (skip1 r).
  Proof.
    intros Hl Hat. change (toks_of_pieces (fmt_stmt fx lvl (FmtAst.SBreak [])) ++ mk T_NL :: r) with (mk T_BREAK :: mk T_NL :: r) in Hat.
    unfold parse_break_stmt. rewrite Hl.
    pose proof (adv_at s (mk T_BREAK) (mk T_NL :: r) e Hat) as A1.
    rewrite (assert_eol_nl (adv s) r e A1). exact (line_end _ _ r e A1).
  Qed.

  Lemma sc_ret_mark m l :
    match mark_scopes m l with sc :: _ => (sc_ret sc, sc_retval sc) | [] => (false, false) end
    = match l with sc :: _ => (sc_ret sc, sc_retval sc) | [] => (false, false) end.
  Proof. destruct l as [|sc r]; [reflexivity|]. cbn [mark_scopes]. destruct (has_var m (sc_vars sc)); reflexivity. Qed.

  Lemma ret_fold_mark l s :
    match scs (fold_right mark s l) with sc :: _ => (sc_ret sc, sc_retval sc) | [] => (false, false) end
    = match scs s with sc :: _ => (sc_ret sc, sc_retval sc) | [] => (false, false) end.
  Proof.
    induction l as [|m l IH]; [reflexivity|]. cbn [fold_right]. unfold mark at 1. cbn [with_scs scs]. rewrite sc_ret_mark. exact IH.
  Qed.

  Lemma ret_collect s c : has_ret (collect s c) = has_ret s /\ ret_value (collect s c) = ret_value s.
  Proof.
    unfold has_ret, ret_value, collect, upd. cbn [with_cs scs].
    pose proof (ret_fold_mark (used c) (with_cs s c)) as H. cbn [with_cs scs] in H.
    destruct (scs (fold_right mark (with_cs s c) (used c))) as [|a ?], (scs s) as [|b ?]; inversion H; auto.
  Qed.

  (* return v   inside a function or handler body (has_ret) *)
  Theorem return_value_roundtrip lvl s v r e :
    has_ret s = true -> top_ok (env_of B s) v ->
    at_toks s (toks_of_pieces (fmt_stmt fx lvl (FmtAst.SReturn (Some v) [])) ++ mk T_NL :: r) e ->
    exists s', parse_return_stmt B s = Ok (Some (Parser.SReturn (Some (fexpr_tree v)))) s' /\ at_toks s' (skip1 r) e /\ peek_ok s' (skip1 r).
  Proof.
    intros Hret Hv Hat.
    rewrite (return_toks lvl v) in Hat. cbn [app] in Hat.
    set (vt := toks_of_pieces (fmt_expr fx lvl v)) in *.
    destruct (top_head lvl _ v (env_no_tyerr s) eq_refl Hv) as (t0 & ts & Hvt & _ & Heol0). fold vt in Hvt.
    unfold parse_return_stmt.
    pose proof (adv_at s (mk T_RETURN) (mk T_WS :: vt ++ mk T_NL :: r) e Hat) as A1.
    assert (Hbare : is_at_eol (cs (adv s)) = false).
    { destruct A1 as (R1 & _). unfold is_at_eol, cur_t, cur. rewrite R1, Hvt. exact Heol0. }
    rewrite Hbare.
    destruct (p_toplevel_value lvl (adv s) v r e Hv A1) as (s2 & P & A3 & F3 & L3). rewrite P.
    rewrite (assert_eol_nl s2 r e A3).
    (* s2 = collect (adv s) c: the return type of the scope is untouched *)
    assert (Hs2 : has_ret s2 = true).
    { unfold p_toplevel, expr_call in P. destruct (parse_toplevel _ _ _ _) as [[a c]|]; [|discriminate]. inversion P; subst.
      rewrite (proj1 (ret_collect (adv s) c)). exact Hret. }
    rewrite Hs2. cbn [negb]. unfold tyerr_s. rewrite BT.
    exact (line_end _ _ r e A3).
  Qed.

  (* a bare return inside a procedure or handler *)
  Theorem return_bare_roundtrip lvl s r e :
    has_ret s = true -> ret_value s = false ->
    at_toks s (toks_of_pieces (fmt_stmt fx lvl (FmtAst.SReturn None [])) ++ mk T_NL :: r) e ->
    exists s', parse_return_stmt B s = Ok (Some (Parser.SReturn None)) s' /\ at_toks s' (skip1 r) e /\ peek_ok s' (skip1 r).
  Proof.
    intros Hret Hrv Hat.
    change (toks_of_pieces (fmt_stmt fx lvl (FmtAst.SReturn None [])) ++ mk T_NL :: r) with (mk T_RETURN :: mk T_NL :: r) in Hat.
    unfold parse_return_stmt.
    pose proof (adv_at s (mk T_RETURN) (mk T_NL :: r) e Hat) as A1.
    assert (Hbare : is_at_eol (cs (adv s)) = true).
    { destruct A1 as (R1 & _). unfold is_at_eol, cur_t, cur. rewrite R1. reflexivity. }
    rewrite Hbare. change (has_ret (adv s)) with (has_ret s). change (ret_value (adv s)) with (ret_value s).
    rewrite Hret, Hrv. cbn [negb]. exact (line_end _ _ r e A1).
  Qed.

  (* the environment the expression parser sees is read off p.funcs *)
  Lemma arity_env s n k :
    arity_wrong (env_of B s) n k =
    match lookup_fn n (fns s) with Some fi => match fi_arity fi with Some a => negb (Nat.eqb a k) | None => false end | None => false end.
  Proof.
    unfold arity_wrong, env_of. cbn [e_arity]. induction (fns s) as [|[m fi] l IH]; [reflexivity|].
    cbn [map lookup_arity lookup_fn fst snd]. destruct (str_eqb m n); [reflexivity | exact IH].
  Qed.

  (* f a b ...   as a statement *)
  Theorem call_stmt_roundtrip lvl s n args fi r e :
    ident_text n = true -> lookup_fn n (fns s) = Some fi ->
    arity_wrong (env_of B s) n (List.length args) = false ->
    Forall (item_ok (env_of B s) true) args ->
    at_toks s (toks_of_pieces (fmt_stmt fx lvl (FmtAst.SCall n args [])) ++ mk T_NL :: r) e ->
    exists s', parse_call_stmt B s = Ok (Some (Parser.SCallStmt (TCall n (map fexpr_tree args)))) s' /\ at_toks s' (skip1 r) e /\ peek_ok s' (skip1 r).
  Proof.
    intros Hn Hfi Har Hall Hat.
    rewrite (call_toks lvl n args Hn) in Hat.
    set (ats := map (fun a => toks_of_pieces (fmt_expr fx lvl a)) args) in *.
    destruct Hat as (Hr & Hw & He).
    unfold parse_call_stmt. unfold cur. rewrite Hr. cbn [app look0 hd tlit ident_tok]. rewrite Hfi.
    unfold p_func_call, expr_call. set (E := env_of B s). set (fuel := efuel (cs s)).
    destruct (more_args_len ats) as [Hnn Hargs].
    assert (Hfuel : 2 * S (List.length (more_args ats)) <= fuel).
    { unfold fuel, efuel, here. rewrite Hr. cbn [app List.length]. rewrite app_length. lia. }
    assert (H1 : arity_wrong E n (List.length ats) = false) by (unfold ats; rewrite map_length; exact Har).
    assert (H2 : Forall2 (fun a t => RT E true a t /\ head_ok a) ats (map fexpr_tree args)).
    { unfold ats. clear - Hall BT. induction args as [|a r0 IH]; [constructor|]. inversion Hall; subst. cbn [map].
      constructor; [apply (item_rt E (env_no_tyerr s) eq_refl fx true lvl a); assumption | apply IH; assumption]. }
    assert (H3 : rest (cs s) = ident_tok n :: more_args ats ++ mk T_NL :: r).
    { rewrite Hr. cbn [app]. rewrite <- ?app_assoc. reflexivity. }
    assert (H6 : forall a, In a ats -> 2 * List.length a <= fuel) by (intros a Ha; specialize (Hargs a Ha); lia).
    assert (H7 : List.length ats < fuel) by lia.
    destruct (func_call_stmt E (env_no_tyerr s) fuel fuel (fi_nil fi) n ats (map fexpr_tree args) (cs s) (mk T_NL :: r) [] H1 H2 H3 Hw I H6 H7) as (c & P & Q1 & Q2 & Q3).
    rewrite P.
    assert (A3 : at_toks (collect s c) (mk T_NL :: r) e).
    { apply collect_at; auto; [rewrite Q2; exact Hw | rewrite Q3; exact He]. }
    rewrite (assert_eol_nl _ r e A3). exact (line_end _ _ r e A3).
  Qed.

  (* name:type  as parseTypedDecl reads it *)
  Lemma typed_decl_at s x ty w rest0 e :
    at_toks s (ident_tok x :: mk T_COLON :: render_ty ty ++ wsl w ++ rest0) e -> is_ws (look0 rest0) = false ->
    exists s', parse_typed_decl B s = Ok (x, pos s, Some ty) s' /\ at_toks s' rest0 e /\
               fns s' = fns s /\ (forall n, in_local n s' = in_local n s).
  Proof.
    intros Hat Hn. pose proof Hat as (Hr & Hw & He). unfold parse_typed_decl.
    rewrite (passert_ok T_IDENT s) by (exact (at_ct _ _ _ _ Hat)).
    cbn [snd]. unfold cur. rewrite Hr. cbn [look0 hd tlit ident_tok].
    assert (Hs : skip1 (render_ty ty ++ wsl w ++ rest0) = render_ty ty ++ wsl w ++ rest0) by (destruct ty; reflexivity).
    pose proof (adv_at s (ident_tok x) (mk T_COLON :: render_ty ty ++ wsl w ++ rest0) e Hat) as A1.
    rewrite (passert_ok T_COLON (adv s)) by (exact (at_ct _ _ _ _ A1)). cbn [snd].
    pose proof (adv_at (adv s) (mk T_COLON) (render_ty ty ++ wsl w ++ rest0) e A1) as A2. rewrite Hs in A2.
    unfold p_type, expr_call. pose proof (at_nwss _ _ _ A2) as W2'. destruct A2 as (R2 & W2 & E2).
    assert (Hfu : ty_size ty <= efuel (cs (adv (adv s)))).
    { pose proof (ty_size_le ty). unfold efuel, here. rewrite R2, app_length. lia. }
    rewrite (parse_type_spec ty (cs (adv (adv s))) w rest0 _ R2 W2' Hn Hfu).
    destruct (consume_ty_spec ty (cs (adv (adv s))) w rest0 R2 W2' Hn) as (C1 & C2 & C3).
    eexists. split; [reflexivity|]. split; [apply collect_at; auto; [rewrite C2; exact W2 | rewrite C3; exact E2]|].
    split; [rewrite fns_collect | intro; rewrite in_local_collect]; reflexivity.
  Qed.

  (* x:T *)
  Theorem typed_decl_roundtrip lvl s x t ty r e :
    ident_text x = true -> fty_ty t = Some ty -> decl_ok x s ->
    at_toks s (toks_of_pieces (fmt_stmt fx lvl (FmtAst.STypedDecl x t [])) ++ mk T_NL :: r) e ->
    exists s', parse_typed_decl_stmt B s = Ok (Some (Parser.STypedDecl x (Some ty))) s' /\ at_toks s' (skip1 r) e /\ peek_ok s' (skip1 r).
  Proof.
    intros Hx Hty Hd Hat.
    rewrite (typed_toks lvl x t ty Hx Hty) in Hat. cbn [app] in Hat.
    unfold parse_typed_decl_stmt.
    destruct (typed_decl_at s x ty false (mk T_NL :: r) e Hat eq_refl) as (s2 & P & A3 & F3 & L3). rewrite P.
    destruct (declare_at x s s2 (pos s) r e Hd F3 (L3 x) A3) as [Hvd A4].
    rewrite Hvd, (assert_eol_nl _ r e (A4 _)). exact (line_end _ _ r e (A4 _)).
  Qed.

  (* marking a variable as read does not change the names in scope *)
  Lemma names_mark_in n l : map v_name (mark_in n l) = map v_name l.
  Proof. induction l as [|v r IH]; [reflexivity|]. cbn [mark_in]. destruct (str_eqb (v_name v) n); cbn [map v_name]; [reflexivity | rewrite IH; reflexivity]. Qed.

  Lemma visible_mark n l : visible (mark_scopes n l) = visible l.
  Proof.
    induction l as [|sc r IH]; [reflexivity|]. cbn [mark_scopes]. destruct (has_var n (sc_vars sc)).
    - unfold visible. cbn [flat_map sc_vars]. rewrite names_mark_in. reflexivity.
    - unfold visible in *. cbn [flat_map]. rewrite IH. reflexivity.
  Qed.

  Lemma env_of_mark n s : env_of B (mark n s) = env_of B s.
  Proof. unfold env_of, mark. cbn [with_scs scs fns]. rewrite visible_mark. reflexivity. Qed.

End Stmts.
