(* FormatParseTargetProofs.v — C06 round trip, assignment targets  a[i]  m.k  a[i][j].k ...
   (parseAssignmentTarget's loop over "[" and "."), against Parser.v. *)
From Coq Require Import List String NArith ZArith Bool Arith Lia.
From EvyV Require Import Base FmtAst Format FormatProofs Pratt PrattProofs Parser ParserProofs ParserRules ParserScope
  FormatParse FormatParseProofs FormatParseListProofs FormatParseStmtProofs.
From EvyV.Gen Require Import Prec.
Import ListNotations.
Local Open Scope nat_scope.

(* p.prev: the token before the cursor, a blank if one was skipped *)
Lemma advance_prev st t t2 r :
  is_wss st = false -> rest st = t :: t2 :: r -> is_ws t2 = false -> prev (advance st) = t.
Proof.
  intros W Hr H2. unfold advance. set (s1 := advance_wss st).
  assert (W1 : is_wss s1 = false) by exact W. rewrite W1.
  assert (C1 : cur s1 = t2) by (unfold s1, cur; rewrite rest_advance_wss, Hr; reflexivity).
  assert (P1 : prev s1 = t) by (unfold s1, advance_wss, cur; cbn [prev]; rewrite Hr; reflexivity).
  unfold advance_if_ws. rewrite C1, H2. destruct (is_ws (peek s1)); cbn [prev]; exact P1.
Qed.

Lemma pop_wss_prev st b w : wss st = b :: w -> is_ws (look0 (rest st)) = false -> prev (pop_wss st) = prev st.
Proof.
  intros Hw Hc. rewrite (pop_wss_eq st b w Hw), Hc, andb_false_r. reflexivity.
Qed.

(* steps of an assignment target, innermost first *)
Inductive tstep := TIdx (i : fexpr) | TKey (k : str).

Fixpoint tgt_split (t : fexpr) : option (str * list tstep) :=
  match t with
  | FVar x => Some (x, [])
  | FIdx l i => match tgt_split l with Some (x, st) => Some (x, st ++ [TIdx i]) | None => None end
  | FDot l k => match tgt_split l with Some (x, st) => Some (x, st ++ [TKey k]) | None => None end
  | _ => None
  end.

Definition step_tree (n : tree) (s : tstep) : tree :=
  match s with TIdx i => TIndex n (fexpr_tree i) | TKey k => TDot n k end.

Lemma tgt_tree : forall t x st, tgt_split t = Some (x, st) -> fexpr_tree t = fold_left step_tree st (TVar x).
Proof.
  induction t; intros x st H; cbn [tgt_split] in H; try discriminate H.
  - injection H as <- <-. reflexivity.
  - destruct (tgt_split t1) as [[x' st']|]; [|discriminate H]. injection H as <- <-.
    rewrite fold_left_app. cbn [fold_left step_tree fexpr_tree]. rewrite (IHt1 x' st' eq_refl). reflexivity.
  - destruct (tgt_split t) as [[x' st']|]; [|discriminate H]. injection H as <- <-.
    rewrite fold_left_app. cbn [fold_left step_tree fexpr_tree]. rewrite (IHt x' st' eq_refl). reflexivity.
Qed.

Section Targets.
  Variable B : benv.
  Hypothesis BT : forall s t n, b_tyerr B s t n = false.
  Variable fx : fixes.

  Definition step_toks (lvl : nat) (s : tstep) : list token :=
    match s with
    | TIdx i => mk T_LBRACKET :: toks_of_pieces (fmt_expr fx lvl i) ++ [mk T_RBRACKET]
    | TKey k => [mk T_DOT; tok_of_text k]
    end.

  Lemma tgt_toks lvl : forall t x st, tgt_split t = Some (x, st) ->
    toks_of_pieces (fmt_expr fx lvl t) = tok_of_text x :: flat_map (step_toks lvl) st.
  Proof.
    induction t; intros x st H; cbn [tgt_split] in H; try discriminate H.
    - injection H as <- <-. reflexivity.
    - destruct (tgt_split t1) as [[x' st']|]; [|discriminate H]. injection H as <- <-.
      cbn [fmt_expr]. rewrite !toks_app, (IHt1 x' st' eq_refl), flat_map_app. cbn [flat_map step_toks app toks_of_pieces tok_of_piece].
      change (tok_of_text k_lbr) with (mk T_LBRACKET). change (tok_of_text k_rbr) with (mk T_RBRACKET). rewrite app_nil_r. reflexivity.
    - destruct (tgt_split t) as [[x' st']|]; [|discriminate H]. injection H as <- <-.
      cbn [fmt_expr]. rewrite !toks_app, (IHt x' st' eq_refl), flat_map_app. cbn [flat_map step_toks app toks_of_pieces tok_of_piece].
      change (tok_of_text k_dot) with (mk T_DOT). reflexivity.
  Qed.

  (* what follows a step: either a blank and then the rest of the statement, or the next step *)
  Definition after_ok (q : list token) : Prop :=
    (exists q', q = mk T_WS :: q' /\ wsish (look0 q') = false) \/ is_ws (look0 q) = false.

  (* parseDotExpr on  .k *)
  Lemma dot_core E left st k q :
    no_tyerr E -> is_ws (prev st) = false -> is_wss st = false -> key_text k = true ->
    rest st = mk T_DOT :: tok_of_text k :: q ->
    exists st', parse_dot E left st = Some (Some (TDot left k), st') /\
                rest st' = skip1 q /\ wss st' = wss st /\ errs st' = errs st /\
                (forall t2 r, q = t2 :: r -> is_ws t2 = false -> prev st' = tok_of_text k).
  Proof.
    intros NT Hp Hw Hk Hr. destruct (key_text_spec k Hk) as (K1 & K2 & K3 & _).
    pose proof (wsish_is_ws _ K3) as Kw.
    unfold parse_dot. rewrite Hp. unfold look1. rewrite Hr. cbn [tl hd]. rewrite Kw.
    destruct (advance_exact st (mk T_DOT) (tok_of_text k :: q) Hr (or_intror Kw)) as (A1 & A2 & A3).
    unfold tyerr. rewrite NT. unfold cur. rewrite A1. cbn [look0 hd]. rewrite K1, K2.
    assert (W1 : is_wss (advance st) = false) by (unfold is_wss in *; rewrite A2; exact Hw).
    destruct (advance_skip1 (advance st) (tok_of_text k) q W1 A1) as (C1 & C2 & C3).
    eexists. split; [reflexivity|]. split; [exact C1|]. split; [rewrite C2; exact A2|]. split; [rewrite C3; exact A3|].
    intros t2 r -> H2. apply (advance_prev (advance st) (tok_of_text k) t2 r W1 A1 H2).
  Qed.

  (* parseIndexOrSliceExpr (no slice allowed) on  [i]  *)
  Lemma index_core lvl E left st i q outer fuel :
    no_tyerr E -> e_fix_slice E = true -> is_ws (prev st) = false -> wss st = false :: outer -> top_ok E i ->
    rest st = mk T_LBRACKET :: toks_of_pieces (fmt_expr fx lvl i) ++ mk T_RBRACKET :: q -> after_ok q ->
    2 * List.length (toks_of_pieces (fmt_expr fx lvl i)) <= fuel ->
    exists st', parse_index_or_slice E (parse_expr E fuel) fuel false left st = Some (Some (TIndex left (fexpr_tree i)), st') /\
                rest st' = skip1 q /\ wss st' = wss st /\ errs st' = errs st /\
                (is_ws (look0 q) = false -> prev st' = mk T_RBRACKET).
  Proof.
    intros NT FS Hp Hw Hi Hr Hq Hfuel. unfold parse_index_or_slice.
    change (prev (push_wss false st)) with (prev st). rewrite Hp.
    destruct (top_head fx lvl E i NT FS Hi) as (t0 & ts & Ht & Hw0 & _).
    assert (Hr0 : rest (push_wss false st) = mk T_LBRACKET :: toks_of_pieces (fmt_expr fx lvl i) ++ mk T_RBRACKET :: q) by exact Hr.
    destruct (advance_exact (push_wss false st) (mk T_LBRACKET) _ Hr0) as (A1 & A2 & A3).
    { right. rewrite Ht. exact Hw0. }
    unfold tyerr. rewrite !NT. cbn [andb].
    assert (W1 : wss (advance (push_wss false st)) = false :: wss st) by (rewrite A2; reflexivity).
    destruct (toplevel_core fx lvl E i (advance (push_wss false st)) (mk T_RBRACKET :: q) fuel (wss st) NT FS Hi A1 W1 eq_refl) as (c2 & P & Q1 & Q2 & Q3).
    { right; right. cbn. lia. }
    { exact I. }
    { exact Hfuel. }
    rewrite P. unfold bind, ret. cbv beta iota.
    assert (As : assert_token T_RBRACKET c2 = (true, c2)) by (unfold assert_token, cur_t, cur; rewrite Q1; reflexivity).
    rewrite As. rewrite ?NT.
    set (c3 := advance_wss c2).
    assert (R3 : rest c3 = q) by (unfold c3; rewrite rest_advance_wss, Q1; reflexivity).
    assert (W3 : wss c3 = false :: wss st) by (unfold c3; cbn; rewrite Q2; exact W1).
    assert (E3 : errs c3 = errs st) by (unfold c3; cbn; rewrite Q3; exact A3).
    assert (P3 : prev c3 = mk T_RBRACKET) by (unfold c3, advance_wss, cur; cbn [prev]; rewrite Q1; reflexivity).
    destruct Hq as [(q' & -> & Hq')|Hq].
    - destruct (pop_wss_ws c3 false outer q' R3 ltac:(rewrite W3, Hw; reflexivity) Hq') as (D1 & D2 & D3).
      eexists. split; [reflexivity|]. split; [exact D1|]. split; [rewrite D2, Hw; reflexivity|]. split; [rewrite D3; exact E3|].
      intro H. discriminate H.
    - destruct (pop_wss_nop c3 false (wss st) W3) as (D1 & D2 & D3).
      { intros _. rewrite R3. exact Hq. }
      eexists. split; [reflexivity|]. split.
      { rewrite D1, R3. destruct q as [|t2 r]; [reflexivity|]. cbn [skip1]. cbn [look0 hd] in Hq. rewrite Hq. reflexivity. }
      split; [exact D2|]. split; [rewrite D3; exact E3|]. intros _.
      rewrite (pop_wss_prev c3 false (wss st) W3); [exact P3 | rewrite R3; exact Hq].
  Qed.

  Definition step_ok (E : env) (s : tstep) : Prop := match s with TIdx i => top_ok E i | TKey k => key_text k = true end.

  Lemma prev_collect s c : prev (cs (collect s c)) = prev c.
  Proof. unfold collect, upd. cbn [with_cs cs prev]. rewrite cs_fold_mark. reflexivity. Qed.

  Lemma step_toks_head lvl s0 E : no_tyerr E -> step_ok E s0 -> exists t0 ts, step_toks lvl s0 = t0 :: ts /\ is_ws t0 = false.
  Proof. intros _ _. destruct s0; cbn [step_toks]; eexists; eexists; split; reflexivity. Qed.

  (* the tokens after a step: the remaining steps, then " = ..." *)
  Definition tail_toks (lvl : nat) (steps : list tstep) (q : list token) : list token :=
    flat_map (step_toks lvl) steps ++ mk T_WS :: mk T_ASSIGN :: q.

  Lemma assign_toks lvl t x steps v r : tgt_split t = Some (x, steps) -> ident_text x = true ->
    toks_of_pieces (fmt_stmt fx lvl (FmtAst.SAssign t v [])) ++ mk T_NL :: r
    = ident_tok x :: tail_toks lvl steps (mk T_WS :: toks_of_pieces (fmt_expr fx lvl v) ++ mk T_NL :: r).
  Proof.
    intros Hsp Hx. cbn [fmt_stmt]. unfold write_comment, tail_toks. cbn [is_empty app]. rewrite app_nil_r.
    rewrite toks_app, (tgt_toks lvl t x steps Hsp), (ident_text_spec x Hx), !tp_cons. cbn [tok_of_piece app].
    rewrite <- !app_assoc. reflexivity.
  Qed.

  Lemma tail_after lvl steps q : after_ok (tail_toks lvl steps q).
  Proof.
    unfold tail_toks. destruct steps as [|s0 r]; [left; eexists; split; reflexivity|].
    right. cbn [flat_map]. destruct s0; reflexivity.
  Qed.

  Lemma one_step lvl s n s0 steps q e :
    at_toks s (step_toks lvl s0 ++ tail_toks lvl steps q) e -> is_ws (prev (cs s)) = false -> step_ok (env_of B s) s0 ->
    exists s', (match s0 with TIdx _ => p_index B n s | TKey _ => p_dot B n s end) = Ok (Some (step_tree n s0)) s' /\
               at_toks s' (skip1 (tail_toks lvl steps q)) e /\ env_of B s' = env_of B s /\
               (steps <> [] -> is_ws (prev (cs s')) = false).
  Proof.
    intros Hat Hp Hok. pose proof (at_nwss _ _ _ Hat) as Hw'. destruct Hat as (Hr & Hw & He).
    destruct s0 as [i|k]; cbn [step_ok step_toks step_tree] in *.
    - unfold p_index, expr_call. cbn [app] in Hr. rewrite <- app_assoc in Hr. cbn [app] in Hr.
      destruct (index_core lvl (env_of B s) n (cs s) i (tail_toks lvl steps q) [] (efuel (cs s)) (env_no_tyerr B BT s) eq_refl Hp Hw Hok Hr (tail_after lvl steps q))
        as (c & P & Q1 & Q2 & Q3 & Q4).
      { unfold efuel, here. rewrite Hr. cbn [List.length]. rewrite app_length. lia. }
      rewrite P. eexists. split; [reflexivity|]. split; [apply collect_at; auto; [rewrite Q2; exact Hw | rewrite Q3; exact He]|].
      split; [apply env_of_collect|]. intro Hne. rewrite prev_collect, Q4; [reflexivity|].
      unfold tail_toks. destruct steps as [|s1 r]; [contradiction|]. cbn [flat_map]. destruct s1; reflexivity.
    - unfold p_dot, expr_call. cbn [app] in Hr.
      destruct (dot_core (env_of B s) n (cs s) k (tail_toks lvl steps q) (env_no_tyerr B BT s) Hp Hw' Hok Hr)
        as (c & P & Q1 & Q2 & Q3 & Q4).
      rewrite P. eexists. split; [reflexivity|]. split; [apply collect_at; auto; [rewrite Q2; exact Hw | rewrite Q3; exact He]|].
      split; [apply env_of_collect|]. intro Hne. rewrite prev_collect.
      unfold tail_toks in *. destruct steps as [|s1 r]; [contradiction|]. cbn [flat_map app] in *.
      destruct (key_text_spec k Hok) as (_ & _ & K3 & _).
      pose proof (wsish_is_ws _ K3) as Kw.
      destruct s1; cbn [step_toks app] in *; erewrite Q4; try reflexivity; exact Kw.
  Qed.

  (* parseAssignmentTarget's loop *)
  Lemma target_loop lvl tok : forall steps n s fuel q e,
    List.length steps < fuel ->
    at_toks s (skip1 (tail_toks lvl steps q)) e -> (steps <> [] -> is_ws (prev (cs s)) = false) ->
    Forall (step_ok (env_of B s)) steps ->
    exists s', assign_target_loop B fuel tok n s = Ok (Some (fold_left step_tree steps n)) s' /\
               at_toks s' (mk T_ASSIGN :: q) e /\ env_of B s' = env_of B s.
  Proof.
    induction steps as [|s0 r IH]; intros n s fuel q e Hfu Hat Hp Hok; (destruct fuel as [|fuel]; [cbn in Hfu; lia|]).
    - cbn [tail_toks flat_map app skip1 is_ws ttype mk] in Hat. cbn [assign_target_loop fold_left].
      assert (Hc : ct s = T_ASSIGN) by (exact (at_ct _ _ _ _ Hat)).
      rewrite Hc. exists s. auto.
    - inversion Hok as [|? ? Hs0 Hr0]; subst.
      assert (Hsk : skip1 (tail_toks lvl (s0 :: r) q) = step_toks lvl s0 ++ tail_toks lvl r q).
      { unfold tail_toks. cbn [flat_map]. rewrite <- app_assoc. destruct s0; reflexivity. }
      rewrite Hsk in Hat.
      destruct (one_step lvl s n s0 r q e Hat (Hp ltac:(discriminate)) Hs0) as (s1 & P & A1 & E1 & P1).
      cbn [assign_target_loop fold_left].
      assert (Hc : ct s = match s0 with TIdx _ => T_LBRACKET | TKey _ => T_DOT end).
      { destruct Hat as (R & _). unfold ct, cur_t, cur. rewrite R. destruct s0; reflexivity. }
      rewrite Hc. cbn [List.length] in Hfu.
      assert (Hok1 : Forall (step_ok (env_of B s1)) r) by (rewrite E1; exact Hr0).
      destruct (IH (step_tree n s0) s1 fuel q e ltac:(lia) A1 P1 Hok1) as (s' & P' & A' & E').
      destruct s0; unfold tyerr_s; rewrite ?BT; rewrite P; cbv beta iota; rewrite P'; exists s'; (split; [reflexivity|]); (split; [exact A' | rewrite E'; exact E1]).
  Qed.

  (* t = v   with t a variable followed by any number of [i] and .k *)
  Theorem assign_target_roundtrip lvl s t x steps v r e :
    tgt_split t = Some (x, steps) -> ident_text x = true -> is_func x s = false -> scope_get x s = true ->
    Forall (step_ok (env_of B s)) steps -> top_ok (env_of B s) v ->
    at_toks s (toks_of_pieces (fmt_stmt fx lvl (FmtAst.SAssign t v [])) ++ mk T_NL :: r) e ->
    exists s', parse_assign_stmt B s = Ok (Some (Parser.SAssign (fexpr_tree t) (fexpr_tree v))) s' /\
               at_toks s' (skip1 r) e /\ peek_ok s' (skip1 r).
  Proof.
    intros Hsp Hx Hnf Hsg Hst Hv Hat.
    rewrite (assign_toks lvl t x steps v r Hsp Hx) in Hat.
    set (vt := toks_of_pieces (fmt_expr fx lvl v)) in *.
    assert (Hat0 := Hat). destruct Hat as (Hr & Hw & He).
    unfold parse_assign_stmt. unfold cur. rewrite Hr. cbn [look0 hd tlit ident_tok]. rewrite Hnf.
    unfold parse_assign_target. unfold cur. rewrite Hr. cbn [look0 hd tlit ident_tok].
    assert (Hus : str_eqb x (s_ "_"%string) = false).
    { unfold scope_get in Hsg. apply andb_true_iff in Hsg as [H _]. apply negb_true_iff in H. exact H. }
    rewrite Hus. change (scope_get x (adv s)) with (scope_get x s). rewrite Hsg. cbn [negb].
    set (Q := mk T_WS :: vt ++ mk T_NL :: r) in *.
    pose proof (adv_at s _ _ e Hat0) as A1.
    assert (P1 : steps <> [] -> is_ws (prev (cs (adv s))) = false).
    { intro Hne. pose proof (at_nwss _ _ _ Hat0) as Hw'.
      unfold adv, upd. cbn [with_cs cs]. unfold tail_toks in Hr. destruct steps as [|s0 r0]; [contradiction|]. cbn [flat_map] in Hr.
      destruct s0; cbn [step_toks app] in Hr; erewrite advance_prev; try exact Hr; try exact Hw'; reflexivity. }
    assert (Hst' : Forall (step_ok (env_of B (mark x (adv s)))) steps) by (change (env_of B (mark x (adv s))) with (env_of B (mark x s)); rewrite env_of_mark; exact Hst).
    destruct (target_loop lvl (pos s) steps (TVar x) (mark x (adv s)) (S (pos (adv s))) Q e) as (s1 & PL & A2 & E2).
    { destruct A1 as (R1 & _). unfold pos, here. rewrite R1. pose proof (skip1_len (tail_toks lvl steps Q)) as HL.
      assert (HS : List.length steps <= List.length (flat_map (step_toks lvl) steps)).
      { clear. induction steps as [|s0 r0 IH]; [cbn; lia|]. cbn [flat_map List.length]. rewrite app_length. destruct s0; cbn [step_toks List.length]; try rewrite app_length; cbn [List.length]; lia. }
      unfold tail_toks in HL at 1. rewrite app_length in HL. cbn [List.length] in HL. lia. }
    { exact A1. }
    { exact P1. }
    { exact Hst'. }
    rewrite PL. cbv beta iota. rewrite <- (tgt_tree t x steps Hsp).
    rewrite (passert_ok T_ASSIGN s1); [|exact (at_ct _ _ _ _ A2)]. cbn [snd].
    pose proof (adv_at s1 (mk T_ASSIGN) Q e A2) as A3.
    assert (Hv' : top_ok (env_of B (adv s1)) v).
    { change (env_of B (adv s1)) with (env_of B s1). rewrite E2. change (env_of B (mark x (adv s))) with (env_of B (mark x s)). rewrite env_of_mark. exact Hv. }
    destruct (p_toplevel_value B BT fx lvl (adv s1) v r e Hv' A3) as (s2 & P & A4 & _ & _). rewrite P.
    unfold tyerr_s. rewrite BT. rewrite (assert_eol_nl s2 r e A4). exact (line_end _ _ r e A4).
  Qed.

  (* x = v *)
  Corollary assign_var_roundtrip lvl s x v r e :
    ident_text x = true -> is_func x s = false -> scope_get x s = true -> top_ok (env_of B s) v ->
    at_toks s (toks_of_pieces (fmt_stmt fx lvl (FmtAst.SAssign (FVar x) v [])) ++ mk T_NL :: r) e ->
    exists s', parse_assign_stmt B s = Ok (Some (Parser.SAssign (TVar x) (fexpr_tree v))) s' /\ at_toks s' (skip1 r) e /\ peek_ok s' (skip1 r).
  Proof. intros Hx Hnf Hsg Hv. exact (assign_target_roundtrip lvl s (FVar x) x [] v r e eq_refl Hx Hnf Hsg (Forall_nil _) Hv). Qed.
End Targets.
