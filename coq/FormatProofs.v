(* FormatProofs.v — C06: the formatter (Format.v) emits exactly the tree's tokens.  Two facts about
   every function of the formatter: its pieces, rendered and scanned by [strip], yield their token
   texts and leave the scanner in code mode ([closed], needs [wf_prog]); and their token texts are
   the tokens of the tree ([toks], no hypothesis). *)
From Coq Require Import ZArith NArith List Bool Lia Arith.
From EvyV Require Import Base FmtAst Format.
Import ListNotations.
Open Scope N_scope.

(* the token texts among the pieces *)
Definition toks1 (p : piece) : list str := match p with T s | Q s | Cm s => [s] | _ => [] end.
Definition toks (ps : list piece) : list str := flat_map toks1 ps.

Lemma render_app a b : render (a ++ b) = render a ++ render b.
Proof. apply flat_map_app. Qed.

Lemma toks_app a b : toks (a ++ b) = toks a ++ toks b.
Proof. apply flat_map_app. Qed.

Lemma render_cons p ps : render (p :: ps) = render1 p ++ render ps.
Proof. reflexivity. Qed.

Lemma toks_cons p ps : toks (p :: ps) = toks1 p ++ toks ps.
Proof. reflexivity. Qed.

Lemma toks_nil : toks [] = [].
Proof. reflexivity. Qed.

(* [closed ps]: scanning the rendering of ps in code mode yields exactly its
   tokens and leaves the scanner in code mode, whatever follows. *)
Definition closed (ps : list piece) : Prop :=
  forall rest, strip MCode (render ps ++ rest) = concat (toks ps) ++ strip MCode rest.

Lemma closed_nil : closed [].
Proof. intro rest. reflexivity. Qed.

Lemma closed_app a b : closed a -> closed b -> closed (a ++ b).
Proof.
  intros Ha Hb rest. rewrite render_app, toks_app, concat_app, <- !app_assoc, Ha, Hb. reflexivity.
Qed.

Lemma closed_cons p ps : closed [p] -> closed ps -> closed (p :: ps).
Proof. intros. change (p :: ps) with ([p] ++ ps). apply closed_app; assumption. Qed.

Lemma closed_Sp : closed [Sp].
Proof. intro rest. reflexivity. Qed.

Lemma closed_NL : closed [NL].
Proof. intro rest. reflexivity. Qed.

Lemma strip_spaces n rest : strip MCode (spaces n ++ rest) = strip MCode rest.
Proof. induction n; simpl; auto. Qed.

Lemma closed_Ind n : closed [Ind n].
Proof. intro rest. unfold render; simpl. rewrite app_nil_r. apply strip_spaces. Qed.

Lemma plain_char_spec c : plain_char c = true -> is_ws c = false /\ (c =? 34) = false /\ (c =? 47) = false.
Proof.
  unfold plain_char, is_ws. intro H.
  apply andb_true_iff in H as [H H3]. apply andb_true_iff in H as [H1 H2].
  apply negb_true_iff in H1, H2, H3. repeat split; auto.
  unfold is_space in H1. repeat (apply orb_false_iff in H1 as [H1 ?]).
  apply orb_false_iff; split; auto.
  destruct (N.eqb_spec c 10); auto. subst c. discriminate.
Qed.

Lemma strip_plain s rest : forallb plain_char s = true ->
  strip MCode (s ++ rest) = s ++ strip MCode rest.
Proof.
  induction s as [|c s IH]; simpl; intro H; auto.
  apply andb_true_iff in H as [Hc Hs]. apply plain_char_spec in Hc as (H1 & H2 & H3).
  rewrite H1, H2, H3. simpl. rewrite IH; auto.
Qed.

Lemma closed_T s : plain s = true -> closed [T s].
Proof.
  unfold plain. intros H rest. apply andb_true_iff in H as [_ H].
  unfold render, toks; simpl. rewrite !app_nil_r. apply strip_plain, H.
Qed.

Lemma strip_scan_str r : forall esc rest, scan_str esc r = true ->
  strip (if esc then MStrEsc else MStr) (r ++ rest) = r ++ strip MCode rest.
Proof.
  induction r as [|c r IH]; simpl; intros esc rest H; [discriminate|].
  destruct (c =? 10) eqn:E10; [discriminate|].
  destruct esc.
  - rewrite (IH false); auto.
  - destruct (c =? 92) eqn:E92.
    + rewrite (IH true); auto.
    + destruct (c =? 34) eqn:E34.
      * destruct r; [reflexivity | discriminate].
      * rewrite (IH false); auto.
Qed.

Lemma closed_Q q : quoted_ok q = true -> closed [Q q].
Proof.
  intros H rest. unfold render, toks; simpl. rewrite !app_nil_r.
  destruct q as [|c r]; [discriminate|]. simpl in H. apply andb_true_iff in H as [Hc Hr].
  simpl. unfold is_ws. apply N.eqb_eq in Hc. subst c. simpl.
  f_equal. apply (strip_scan_str r false rest Hr).
Qed.

Lemma strip_comment_body c rest : no_nl c = true ->
  strip MComment (c ++ 10 :: rest) = c ++ strip MCode rest.
Proof.
  induction c as [|x c IH]; simpl; intro H; auto.
  apply andb_true_iff in H as [Hx Hc]. apply negb_true_iff in Hx. rewrite Hx. f_equal. auto.
Qed.

Lemma comment_text_ok_spec c : comment_text_ok c = true ->
  exists r, c = 47 :: 47 :: r /\ no_nl r = true.
Proof.
  unfold comment_text_ok. intro H. apply andb_true_iff in H as [H _]. apply andb_true_iff in H as [Hp Hn].
  destruct c as [|a [|b r]]; unfold k_slashes in Hp; cbn [has_prefix] in Hp; try rewrite andb_false_r in Hp; try discriminate Hp.
  apply andb_true_iff in Hp as [Ha Hb]. apply andb_true_iff in Hb as [Hb _].
  apply N.eqb_eq in Ha, Hb. subst. exists r. split; auto.
Qed.

Lemma closed_Cm_NL c : comment_text_ok c = true -> closed [Cm c; NL].
Proof.
  intros H rest. apply comment_text_ok_spec in H as (r & -> & Hr).
  unfold render, toks; simpl. rewrite !app_nil_r. f_equal. f_equal.
  rewrite <- app_assoc. simpl. apply strip_comment_body, Hr.
Qed.

(* the division operator: "/" must not be followed by another "/" *)
Definition starts_ns (ps : list piece) : Prop :=
  exists c r, render ps = c :: r /\ (c =? 47) = false.

Lemma strip_slash c r : (c =? 47) = false -> strip MCode (47 :: c :: r) = 47 :: strip MCode (c :: r).
Proof.
  intro H. simpl. rewrite H. reflexivity.
Qed.

Lemma closed_slash ps : starts_ns ps -> closed ps -> closed (T (op_str OpSlash) :: ps).
Proof.
  intros (c & r & Hr & Hc) Hcl rest.
  rewrite render_cons, toks_cons, concat_app.
  change (render1 (T (op_str OpSlash))) with [47].
  change (concat (toks1 (T (op_str OpSlash)))) with [47].
  rewrite <- !app_assoc. rewrite <- (Hcl rest). rewrite Hr.
  change ([47] ++ (c :: r) ++ rest) with (47 :: c :: (r ++ rest)).
  change ((c :: r) ++ rest) with (c :: (r ++ rest)).
  rewrite strip_slash; auto.
Qed.

Lemma starts_ns_T s ps : plain s = true -> starts_ns (T s :: ps).
Proof.
  intro H. unfold plain in H. apply andb_true_iff in H as [Hne Hall].
  destruct s as [|c s]; [discriminate|]. simpl in Hall. apply andb_true_iff in Hall as [Hc _].
  apply plain_char_spec in Hc as (_ & _ & H47).
  exists c, (s ++ render ps). split; auto.
Qed.

(* what an expression's pieces begin with: a plain token or a string literal *)
Definition head_ok (ps : list piece) : Prop :=
  exists p rest, ps = p :: rest /\
    match p with T s => plain s = true | Q q => quoted_ok q = true | _ => False end.

Lemma head_ok_T s ps : plain s = true -> head_ok (T s :: ps).
Proof. intro H. exists (T s), ps. auto. Qed.

Lemma head_ok_app a b : head_ok a -> head_ok (a ++ b).
Proof. intros (p & rest & -> & H). exists p, (rest ++ b). auto. Qed.

Lemma op_str_cases o : o = OpSlash \/ plain (op_str o) = true.
Proof. destruct o; auto; right; reflexivity. Qed.

Lemma item_nl_not_el m : item_is_nl m = true -> item_is_el m = false.
Proof. unfold item_is_nl, item_is_el. intro H. apply str_eqb_eq in H. subst. reflexivity. Qed.

Lemma item_nl_not_comment m : item_is_nl m = true -> item_is_comment m = false.
Proof. unfold item_is_nl. intro H. apply str_eqb_eq in H. subst. reflexivity. Qed.

Lemma comment_item_not_nl m : item_is_comment m = true -> item_is_nl m = false.
Proof. intro H. destruct (item_is_nl m) eqn:E; auto. rewrite (item_nl_not_comment m E) in H. discriminate. Qed.

Lemma item_nl_not_key m : item_is_nl m = true -> item_is_key m = false.
Proof. unfold item_is_key. intro H. rewrite H. reflexivity. Qed.

Lemma el_not_comment m : item_is_el m = true -> item_is_comment m = false.
Proof. unfold item_is_el. intro H. apply str_eqb_eq in H. subst. reflexivity. Qed.

Lemma el_not_nl m : item_is_el m = true -> item_is_nl m = false.
Proof. intro H. destruct (item_is_nl m) eqn:E; [|reflexivity]. rewrite (item_nl_not_el m E) in H. discriminate. Qed.

(* formatMultiline only drops newline items *)
Lemma fm_loop_Forall (P : str -> Prop) items : forall n, Forall P items -> Forall P (format_multiline_loop n items).
Proof.
  induction items as [|m items IH]; simpl; intros n H; auto.
  inversion H; subst.
  match goal with |- Forall P (if ?b then _ else _) => destruct b end; auto.
Qed.

Lemma fm_loop_filter (f : str -> bool) items :
  (forall m, item_is_nl m = true -> f m = false) ->
  forall n, filter f (format_multiline_loop n items) = filter f items.
Proof.
  intros Hf. induction items as [|m items IH]; simpl; intro n; auto.
  destruct (item_is_nl m) eqn:Enl.
  - rewrite (Hf m Enl). destruct (S n <=? 2)%nat; simpl; rewrite ?(Hf m Enl); auto.
  - destruct (item_is_comment m); simpl; rewrite IH; reflexivity.
Qed.

(* an item accepted as white space is a newline or starts with "//": it is no key *)
Lemma ws_ok_comment m : item_ws_ok m = true -> item_is_nl m = false -> item_is_comment m = true.
Proof.
  unfold item_ws_ok. intros H Hn. rewrite Hn in H. simpl in H. apply andb_true_iff in H as [_ Hc].
  apply comment_text_ok_spec in Hc as (r & Hr & _).
  destruct m as [|a [|b [|c t]]]; try discriminate Hr.
  change (removelast (a :: b :: c :: t)) with (a :: b :: removelast (c :: t)) in Hr.
  injection Hr as -> -> _. reflexivity.
Qed.

Lemma ws_ok_not_key m : item_ws_ok m = true -> item_is_key m = false.
Proof.
  intro H. unfold item_is_key. destruct (item_is_nl m) eqn:E; [reflexivity|].
  rewrite (ws_ok_comment m H E). reflexivity.
Qed.

(* formatArrayLiteral and formatMapLiteral run the same loop over the items and wrap its output in
   the same way: [items_loop] is that loop, [lit] that wrapping.  An item comes paired with the pieces
   it stands for (an element; "key:" and the value), or with [None] when it is a newline or a comment. *)
Definition ritem := (str * option (list piece))%type.

Fixpoint items_loop (lvl' : nat) (its : list ritem) : list piece :=
  match its with
  | [] => []
  | (m, x) :: rest =>
      match x with
      | Some e => e ++ (if next_not_nl (map fst rest) then [Sp] else []) ++ items_loop lvl' rest
      | None => raw_item m ++ (if next_not_nl (map fst rest) then [Ind lvl'] else []) ++ items_loop lvl' rest
      end
  end.

Definition lit (fixed : bool) (lvl : nat) (multi : list str) (opn cls : str) (body : list piece) : list piece :=
  match multi with
  | [] => [T opn; T cls]
  | _ =>
      [T opn] ++ (if first_is_comment multi then [Sp] else []) ++ body
      ++ (if (if fixed then last_is_nl_or_comment multi else last_is_nl multi) then [Ind lvl] else [])
      ++ [T cls]
  end.

Fixpoint arr_items (multi : list str) (els : list (list piece)) : list ritem :=
  match multi with
  | [] => []
  | m :: rest =>
      if item_is_el m then match els with e :: els' => (m, Some e) :: arr_items rest els' | [] => [] end
      else (m, None) :: arr_items rest els
  end.

Definition map_items (multi : list str) (kvs : list (str * list piece)) : list ritem :=
  map (fun m => (m, if item_is_key m then Some ([T m; T k_colon] ++ lookup_pieces m kvs) else None)) multi.

Lemma arr_items_fst multi : forall els,
  (List.length (filter item_is_el multi) <= List.length els)%nat -> map fst (arr_items multi els) = multi.
Proof.
  induction multi as [|m rest IH]; intros els Hlen; [reflexivity|]. cbn [arr_items filter] in *.
  destruct (item_is_el m).
  - destruct els as [|e els']; simpl in Hlen; [lia|]. cbn [map fst]. rewrite IH by lia. reflexivity.
  - cbn [map fst]. rewrite IH by exact Hlen. reflexivity.
Qed.

Lemma map_items_fst multi kvs : map fst (map_items multi kvs) = multi.
Proof. unfold map_items. rewrite map_map. apply map_id. Qed.

Lemma fmt_array_lit fx lvl multi els :
  (List.length (filter item_is_el multi) <= List.length els)%nat ->
  fmt_array fx lvl multi els = lit fx lvl multi k_lbr k_rbr (items_loop (S lvl) (arr_items multi els)).
Proof.
  intro Hlen. unfold fmt_array, lit. destruct multi as [|m0 multi0]; [reflexivity|]. do 3 f_equal.
  revert els Hlen. generalize (m0 :: multi0). intro multi.
  induction multi as [|m rest IH]; intros els Hlen; [reflexivity|]. cbn [arr_loop arr_items filter] in *.
  destruct (item_is_el m).
  - destruct els as [|e els']; simpl in Hlen; [lia|]. cbn [items_loop].
    rewrite arr_items_fst, IH by lia. reflexivity.
  - cbn [items_loop]. rewrite arr_items_fst, IH by exact Hlen. reflexivity.
Qed.

Lemma fmt_map_lit fx lvl multi kvs :
  fmt_map fx lvl multi kvs = lit fx lvl multi k_lcu k_rcu (items_loop (S lvl) (map_items multi kvs)).
Proof.
  unfold fmt_map, lit. destruct multi as [|m0 multi0]; [reflexivity|]. do 3 f_equal.
  generalize (m0 :: multi0). intro multi.
  induction multi as [|m rest IH]; [reflexivity|]. cbn [map_loop map_items map items_loop].
  fold (map_items rest kvs). rewrite map_items_fst, IH. destruct (item_is_key m); reflexivity.
Qed.

(* what the items of a well-formed literal satisfy, for a property [P] of the elements' pieces *)
Definition item_ok (P : list piece -> Prop) (it : ritem) : Prop :=
  match snd it with
  | Some e => P e /\ item_is_nl (fst it) = false /\ item_is_comment (fst it) = false
  | None => item_ws_ok (fst it) = true
  end.

Lemma arr_items_ok (P : list piece -> Prop) multi : forall els,
  Forall (fun m => item_is_el m = true \/ item_ws_ok m = true) multi ->
  Forall P els -> Forall (item_ok P) (arr_items multi els).
Proof.
  induction multi as [|m rest IH]; intros els Hm Hels; [constructor|].
  inversion Hm as [|? ? Hm1 Hm2]; subst. cbn [arr_items]. destruct (item_is_el m) eqn:Eel.
  - destruct els as [|e els']; [constructor|]. inversion Hels; subst.
    constructor; [|apply IH; auto]. repeat split; auto using el_not_nl, el_not_comment.
  - constructor; [|apply IH; auto]. destruct Hm1 as [Hm1|Hm1]; [congruence | exact Hm1].
Qed.

Lemma lookup_pieces_Forall (P : list piece -> Prop) k kvs :
  In k (map fst kvs) -> Forall P (map snd kvs) -> P (lookup_pieces k kvs).
Proof.
  induction kvs as [|[k' v] t IH]; simpl; intros Hin Hall; [contradiction|].
  inversion Hall; subst. destruct (str_eqb k' k) eqn:E; auto.
  apply IH; auto. destruct Hin as [->|]; auto. rewrite str_eqb_refl in E. discriminate.
Qed.

Lemma map_items_ok (P : list piece -> Prop) multi kvs :
  (forall m v, plain m = true -> P v -> P ([T m; T k_colon] ++ v)) ->
  Forall (fun m => (item_is_key m = true /\ plain m = true /\ In m (map fst kvs)) \/ item_ws_ok m = true) multi ->
  Forall P (map snd kvs) -> Forall (item_ok P) (map_items multi kvs).
Proof.
  intros HP Hm Hk. unfold map_items. apply Forall_map. eapply Forall_impl; [|exact Hm].
  intros m Hm1. unfold item_ok. cbn [fst snd]. destruct (item_is_key m) eqn:Ek.
  - destruct Hm1 as [(_ & Hp & Hin)|Hws]; [|apply ws_ok_not_key in Hws; congruence].
    unfold item_is_key in Ek. apply andb_true_iff in Ek as [Enl Ec]. apply negb_true_iff in Enl, Ec.
    repeat split; auto. apply HP, lookup_pieces_Forall; auto.
  - destruct Hm1 as [(Hk' & _)|Hws]; [congruence | exact Hws].
Qed.

(* writeStmts and formatProgram run the same loop over their statements: a blank statement becomes at
   most one empty line, any other is written on a line of its own; formatProgram moreover puts an
   empty line behind the statements whose index is in [nl].  [lines_loop] is that loop. *)
Fixpoint lines_loop (lvl : nat) (nl : list nat) (i : nat) (empty : bool) (l : list (bool * list piece)) : list piece :=
  match l with
  | [] => []
  | (blank, ps) :: t =>
      if blank then (if empty then [] else [NL]) ++ lines_loop lvl nl (S i) true t
      else [Ind lvl] ++ ps ++ [NL] ++ (if mem_nat i nl then [NL] else []) ++ lines_loop lvl nl (S i) false t
  end.

Lemma stmts_loop_lines lvl l : forall i e, stmts_loop lvl e l = lines_loop lvl [] i e l.
Proof.
  induction l as [|[blank ps] t IH]; intros i e; [reflexivity|]. cbn [stmts_loop lines_loop mem_nat app].
  rewrite !(IH (S i)). reflexivity.
Qed.

Lemma prog_loop_lines fx nl l : forall i e,
  prog_loop fx nl i e l = lines_loop 0 nl i e (map (fun x => (is_blank x, fmt_stmt fx 0 x)) l).
Proof.
  induction l as [|s t IH]; intros i e; [reflexivity|]. cbn [prog_loop map lines_loop]. rewrite !IH. reflexivity.
Qed.

Lemma map_fst_combine {A B} (l : list A) (l' : list B) :
  List.length l = List.length l' -> map fst (combine l l') = l.
Proof.
  revert l'. induction l as [|a l IH]; intros [|b l'] H; simpl in *; try discriminate; auto.
  f_equal. apply IH. lia.
Qed.

Lemma map_snd_combine {A B} (l : list A) (l' : list B) :
  List.length l = List.length l' -> map snd (combine l l') = l'.
Proof.
  revert l'. induction l as [|a l IH]; intros [|b l'] H; simpl in *; try discriminate; auto.
  f_equal. apply IH. lia.
Qed.

Lemma forallb_Forall {A} (f : A -> bool) l : forallb f l = true -> Forall (fun x => f x = true) l.
Proof. intro H. apply Forall_forall. apply forallb_forall. exact H. Qed.

Lemma Forall_map_wf {I A B} (P : B -> Prop) (f : I -> A -> B) (wf : A -> bool) l i :
  Forall (fun x => forall i, wf x = true -> P (f i x)) l -> forallb wf l = true -> Forall P (map (f i) l).
Proof.
  induction l as [|x l IH]; simpl; intros H Hw; [constructor|].
  inversion H; subst. apply andb_true_iff in Hw as [Hw1 Hw2]. constructor; auto.
Qed.

Lemma raw_item_closed m : item_ws_ok m = true -> closed (raw_item m).
Proof.
  unfold item_ws_ok, raw_item. intro H. destruct (item_is_nl m); [apply closed_NL|].
  simpl in H. apply andb_true_iff in H as [He Hc]. rewrite He. apply closed_Cm_NL, Hc.
Qed.

Lemma closed_opt (b : bool) ps : closed ps -> closed (if b then ps else []).
Proof. destruct b; auto using closed_nil. Qed.

Lemma items_loop_closed lvl' its : Forall (item_ok closed) its -> closed (items_loop lvl' its).
Proof.
  induction its as [|[m [e|]] rest IH]; intro H; cbn [items_loop]; [apply closed_nil| |];
    inversion H as [|? ? H1 H2]; subst; unfold item_ok in H1; cbn [fst snd] in H1.
  - apply closed_app; [apply H1|]. apply closed_app; [apply closed_opt, closed_Sp | auto].
  - apply closed_app; [apply raw_item_closed, H1|]. apply closed_app; [apply closed_opt, closed_Ind | auto].
Qed.

Lemma closed_flat_map {A} (f : A -> list piece) l : Forall (fun x => closed (f x)) l -> closed (flat_map f l).
Proof.
  induction l as [|x l IH]; simpl; intro H; [apply closed_nil|]. inversion H; subst. apply closed_app; auto.
Qed.

(* a property of what follows [flat_map f l] holds of the whole, if each [f x] carries it over *)
Lemma flat_map_cont {A} (P : list piece -> Prop) (f : A -> list piece) (wf : A -> bool) (IH : A -> Prop) l :
  Forall IH l -> forallb wf l = true ->
  (forall x ps, IH x -> wf x = true -> P ps -> P (f x ++ ps)) ->
  forall ps, P ps -> P (flat_map f l ++ ps).
Proof.
  intros HI Hw Hstep. induction HI as [|x l Hx _ IHl]; intros ps Hp; cbn [flat_map app]; [exact Hp|].
  cbn [forallb] in Hw. apply andb_true_iff in Hw as [Hw1 Hw2]. rewrite <- app_assoc. auto.
Qed.

Lemma closed_write_wss w : closed (write_wss w).
Proof. destruct w; [apply closed_nil | apply closed_Sp]. Qed.

Lemma tyname_closed n : closed (tyname_pieces n).
Proof. destruct n; simpl; repeat (apply closed_cons; [apply closed_T; reflexivity|]); apply closed_nil. Qed.

Fixpoint fmt_type_closed (t : fty) : closed (fmt_type t).
Proof.
  destruct t as [n sub]. simpl. apply closed_app; [apply tyname_closed|].
  destruct sub as [s|]; [apply fmt_type_closed | apply closed_nil].
Qed.

Lemma write_decl_closed n t : plain n = true -> closed (write_decl n t).
Proof.
  intro H. unfold write_decl. apply closed_app; [|apply fmt_type_closed].
  apply closed_cons; [apply closed_T, H|]. apply closed_cons; [apply closed_T; reflexivity | apply closed_nil].
Qed.

Lemma lit_closed fx lvl multi opn cls body :
  plain opn = true -> plain cls = true -> closed body -> closed (lit fx lvl multi opn cls body).
Proof.
  intros Ho Hc Hb. unfold lit. destruct multi as [|m0 multi'].
  - apply closed_cons; [apply closed_T, Ho|]. apply closed_T, Hc.
  - apply closed_app; [apply closed_T, Ho|]. apply closed_app; [apply closed_opt, closed_Sp|].
    apply closed_app; [exact Hb|]. apply closed_app; [apply closed_opt, closed_Ind | apply closed_T, Hc].
Qed.

(* [ck_x]: [closed] passes from what follows a piece to that piece followed by it ([closed_x] behind
   [closed_app]).  By these rules [ck1] walks a right-nested sequence head by head; the side
   conditions are conjuncts of [wf_stmt]. *)
Lemma ck_T s ps : plain s = true -> closed ps -> closed (T s :: ps).
Proof. intros. apply closed_cons; auto using closed_T. Qed.

Lemma ck_Sp ps : closed ps -> closed (Sp :: ps).
Proof. intros. apply closed_cons; auto using closed_Sp. Qed.

Lemma ck_NL ps : closed ps -> closed (NL :: ps).
Proof. intros. apply closed_cons; auto using closed_NL. Qed.

Lemma ck_Ind n ps : closed ps -> closed (Ind n :: ps).
Proof. intros. apply closed_cons; auto using closed_Ind. Qed.

Lemma comment_ok_nonempty c : comment_ok c = true -> is_empty c = false -> comment_text_ok (trim c) = true.
Proof. unfold comment_ok. intros H E. rewrite E in H. exact H. Qed.

Lemma ck_Cm c ps : comment_ok c = true -> is_empty c = false -> closed ps -> closed (Cm (trim c) :: NL :: ps).
Proof.
  intros H E Hp. change (Cm (trim c) :: NL :: ps) with ([Cm (trim c); NL] ++ ps).
  apply closed_app; [apply closed_Cm_NL, comment_ok_nonempty; assumption | exact Hp].
Qed.

Lemma ck_wc c ps : comment_ok c = true -> closed ps -> closed (write_comment c ++ NL :: ps).
Proof.
  intros H Hp. unfold write_comment. destruct (is_empty c) eqn:E; cbn [app];
    [apply ck_NL, Hp | apply ck_Sp, ck_Cm; assumption].
Qed.

Lemma ck_wce c ps : comment_ok c = true -> closed ps -> closed (write_comment_empty c ++ NL :: ps).
Proof.
  intros H Hp. unfold write_comment_empty. destruct (is_empty c) eqn:E; cbn [app];
    [apply ck_NL, Hp | apply ck_Cm; assumption].
Qed.

Lemma ck_type t ps : closed ps -> closed (fmt_type t ++ ps).
Proof. intro. apply closed_app; auto using fmt_type_closed. Qed.

Lemma ck_decl n t ps : plain n = true -> closed ps -> closed (write_decl n t ++ ps).
Proof. intros. apply closed_app; auto using write_decl_closed. Qed.

Lemma ck_params ps rest : wf_params ps = true -> closed rest -> closed (fmt_params ps ++ rest).
Proof.
  intros H Hr. apply closed_app; auto. unfold fmt_params. apply closed_flat_map.
  apply Forall_forall. intros p Hin. apply ck_Sp. apply write_decl_closed.
  apply (proj1 (forallb_forall _ _) H p Hin).
Qed.

Lemma toks_if (b : bool) ps qs : toks ps = [] -> toks qs = [] -> toks (if b then ps else qs) = [].
Proof. destruct b; auto. Qed.

Lemma toks_write_wss w : toks (write_wss w) = [].
Proof. destruct w; reflexivity. Qed.

Lemma toks_raw_item m : toks (raw_item m) = item_comment_tokens m.
Proof. unfold raw_item, item_comment_tokens. destruct (item_is_nl m); [reflexivity|]. destruct (ends_with_nl m); reflexivity. Qed.

Lemma arr_item_tokens_fm els items : forall n,
  arr_item_tokens (format_multiline_loop n items) els = arr_item_tokens items els.
Proof.
  revert els. induction items as [|m items IH]; intros els n; [reflexivity|].
  cbn [format_multiline_loop].
  destruct (item_is_nl m) eqn:Enl.
  - assert (Hskip : forall l, arr_item_tokens (m :: l) els = arr_item_tokens l els).
    { intro l. cbn [arr_item_tokens]. rewrite (item_nl_not_el m Enl). unfold item_comment_tokens. rewrite Enl. reflexivity. }
    rewrite Hskip. destruct (S n <=? 2)%nat; [rewrite Hskip|]; apply IH.
  - destruct (item_is_comment m); cbn [Nat.leb arr_item_tokens]; destruct (item_is_el m); [destruct els| |destruct els|];
      rewrite ?IH; reflexivity.
Qed.

Lemma map_item_tokens_fm kvs items : forall n,
  map_item_tokens (format_multiline_loop n items) kvs = map_item_tokens items kvs.
Proof.
  induction items as [|m items IH]; intros n; [reflexivity|].
  cbn [format_multiline_loop].
  destruct (item_is_nl m) eqn:Enl.
  - assert (Hskip : forall l, map_item_tokens (m :: l) kvs = map_item_tokens l kvs).
    { intro l. cbn [map_item_tokens]. rewrite (item_nl_not_key m Enl). unfold item_comment_tokens. rewrite Enl. reflexivity. }
    rewrite Hskip. destruct (S n <=? 2)%nat; [rewrite Hskip|]; apply IH.
  - destruct (item_is_comment m); cbn [Nat.leb map_item_tokens]; destruct (item_is_key m); rewrite ?IH; reflexivity.
Qed.

Lemma toks_arr_loop lvl' (f : fexpr -> list piece) (g : fexpr -> list str) multi : forall els,
  Forall (fun e => toks (f e) = g e) els ->
  toks (arr_loop lvl' multi (map f els)) = arr_item_tokens multi (map g els).
Proof.
  induction multi as [|m rest IH]; intros els H; simpl; auto.
  destruct (item_is_el m).
  - destruct els as [|e els']; simpl; [reflexivity|]. inversion H; subst.
    rewrite !toks_app, toks_if, IH by auto. simpl. congruence.
  - rewrite !toks_app, toks_if, toks_raw_item, IH by auto. reflexivity.
Qed.

Lemma toks_lookup (f : fexpr -> list piece) (g : fexpr -> list str) k keys : forall vals,
  Forall (fun e => toks (f e) = g e) vals ->
  toks (lookup_pieces k (combine keys (map f vals))) = lookup_tokens k (combine keys (map g vals)).
Proof.
  induction keys as [|k' keys IH]; intros vals H; simpl; [reflexivity|].
  destruct vals as [|v vals]; simpl; [reflexivity|]. inversion H; subst.
  destruct (str_eqb k' k); auto.
Qed.

Lemma toks_map_loop lvl' (f : fexpr -> list piece) (g : fexpr -> list str) keys vals multi :
  Forall (fun e => toks (f e) = g e) vals ->
  toks (map_loop lvl' multi (combine keys (map f vals))) = map_item_tokens multi (combine keys (map g vals)).
Proof.
  intro H. induction multi as [|m rest IH]; simpl; auto.
  destruct (item_is_key m).
  - rewrite !toks_cons, !toks_app, toks_if, IH, (toks_lookup f g) by auto. reflexivity.
  - rewrite !toks_app, toks_if, toks_raw_item, IH by reflexivity. reflexivity.
Qed.

Lemma toks_tyname n : toks (tyname_pieces n) = ty_tokens (FTy n None).
Proof. destruct n; reflexivity. Qed.

Fixpoint toks_fmt_type (t : fty) : toks (fmt_type t) = ty_tokens t.
Proof.
  destruct t as [n sub]. cbn [fmt_type]. rewrite toks_app, toks_tyname.
  destruct sub as [s|]; [rewrite toks_fmt_type|]; destruct n; reflexivity.
Qed.

Lemma toks_write_decl n t : toks (write_decl n t) = decl_tokens n t.
Proof. unfold write_decl, decl_tokens. rewrite toks_app, toks_fmt_type. reflexivity. Qed.

Lemma toks_write_comment c : toks (write_comment c) = comment_tokens c.
Proof. unfold write_comment, comment_tokens. destruct (is_empty c); reflexivity. Qed.

Lemma toks_write_comment_empty c : toks (write_comment_empty c) = comment_tokens c.
Proof. unfold write_comment_empty, comment_tokens. destruct (is_empty c); reflexivity. Qed.

Lemma toks_flat_map {A} (f : A -> list piece) (g : A -> list str) l :
  Forall (fun x => toks (f x) = g x) l -> toks (flat_map f l) = flat_map g l.
Proof.
  induction l as [|x l IH]; simpl; intro H; auto. inversion H; subst. rewrite toks_app, IH by auto. congruence.
Qed.

Lemma is_blank_tokens s : is_blank s = true -> stmt_tokens s = [].
Proof.
  destruct s; simpl; try discriminate. intro H. unfold comment_tokens. rewrite H. reflexivity.
Qed.

Ltac split_wf :=
  repeat match goal with
         | H : _ && _ = true |- _ => apply andb_true_iff in H; destruct H
         end.

(* brings a concatenation of pieces into the form  p1 :: .. :: (l1 ++ (p2 :: .. (l2 ++ ..))) *)
Ltac norm := repeat (progress (rewrite <- ?app_assoc; cbn [app])).

Section Fmt.
  Variable fx : fixes.

  (* a well-formed array or map literal is [lit] around [items_loop], over items that satisfy
     [item_ok P] as soon as the pieces of the elements satisfy [P] *)
  Lemma fmt_arr_as_lit (P : list piece -> Prop) lvl items els :
    wf_expr (FArr items els) = true ->
    Forall (fun e => forall lvl, wf_expr e = true -> P (fmt_expr fx lvl e)) els ->
    exists its, map fst its = format_multiline items /\ Forall (item_ok P) its /\
      fmt_expr fx lvl (FArr items els)
      = lit (fix_br fx) lvl (format_multiline items) k_lbr k_rbr (items_loop (S lvl) its).
  Proof.
    cbn [wf_expr fmt_expr]. intros Hwf IH.
    apply andb_true_iff in Hwf as [Hwf Hels]. apply andb_true_iff in Hwf as [Hit Hlen]. apply Nat.eqb_eq in Hlen.
    assert (Hlen' : (List.length (filter item_is_el (format_multiline items))
                     <= List.length (map (fmt_expr fx (S lvl)) els))%nat).
    { unfold format_multiline. rewrite fm_loop_filter by apply item_nl_not_el. rewrite map_length. lia. }
    exists (arr_items (format_multiline items) (map (fmt_expr fx (S lvl)) els)).
    split; [apply arr_items_fst, Hlen'|]. split; [|apply fmt_array_lit, Hlen'].
    apply arr_items_ok.
    - apply fm_loop_Forall. apply forallb_Forall in Hit. eapply Forall_impl; [|exact Hit].
      intros m Hm. simpl in Hm. apply orb_true_iff in Hm. exact Hm.
    - apply (Forall_map_wf P (fmt_expr fx) wf_expr); assumption.
  Qed.

  Lemma fmt_map_as_lit (P : list piece -> Prop) lvl items keys vals :
    (forall m v, plain m = true -> P v -> P ([T m; T k_colon] ++ v)) ->
    wf_expr (FMap items keys vals) = true ->
    Forall (fun e => forall lvl, wf_expr e = true -> P (fmt_expr fx lvl e)) vals ->
    exists its, map fst its = format_multiline items /\ Forall (item_ok P) its /\
      fmt_expr fx lvl (FMap items keys vals)
      = lit (fix_br fx) lvl (format_multiline items) k_lcu k_rcu (items_loop (S lvl) its).
  Proof.
    cbn [wf_expr fmt_expr]. intros HP Hwf IH.
    apply andb_true_iff in Hwf as [Hwf Hvals]. apply andb_true_iff in Hwf as [Hwf Hlen].
    apply andb_true_iff in Hwf as [Hwf _]. apply andb_true_iff in Hwf as [Hit Hkeys].
    apply Nat.eqb_eq in Hlen.
    destruct (list_eq_dec str_eq_dec (filter item_is_key items) keys) as [Hk|]; [|discriminate].
    assert (Hl2 : List.length keys = List.length (map (fmt_expr fx (S lvl)) vals)) by (rewrite map_length; exact Hlen).
    eexists. split; [apply map_items_fst|]. split; [|apply fmt_map_lit].
    apply map_items_ok; [exact HP | |].
    - rewrite map_fst_combine by exact Hl2.
      apply fm_loop_Forall. apply Forall_forall. intros m Hin.
      assert (Hm := proj1 (forallb_forall _ _) Hit m Hin). simpl in Hm.
      apply orb_true_iff in Hm as [Hm|Hm]; [left|right; exact Hm].
      apply andb_true_iff in Hm as [Hk1 Hp]. repeat split; auto.
      rewrite <- Hk. apply filter_In. split; auto.
    - rewrite map_snd_combine by exact Hl2.
      apply (Forall_map_wf P (fmt_expr fx) wf_expr); assumption.
  Qed.

  Lemma head_ok_expr e : forall lvl, wf_expr e = true -> head_ok (fmt_expr fx lvl e).
  Proof.
    induction e as [n|b t|v q|b|e IH|items els IH|items keys vals IH|n args IH|op r IH|op w l r IHl IHr|l i IHl IHi|l s e IHl IHs IHe|l k IHl|l t IHl|e IH] using fexpr_ind'; intros lvl Hwf; cbn [fmt_expr]; cbn [wf_expr] in Hwf.
    - apply head_ok_T, Hwf.
    - apply head_ok_T, Hwf.
    - exists (Q q), []. split; [reflexivity | exact Hwf].
    - destruct b; apply head_ok_T; reflexivity.
    - auto.
    - unfold fmt_array. destruct (format_multiline items); apply head_ok_T; reflexivity.
    - unfold fmt_map. destruct (format_multiline items); apply head_ok_T; reflexivity.
    - apply andb_true_iff in Hwf as [Hn _]. apply head_ok_T, Hn.
    - apply andb_true_iff in Hwf as [Ho _]. apply head_ok_T.
      destruct (op_str_cases op) as [->|Hp]; [discriminate | exact Hp].
    - apply andb_true_iff in Hwf as [Hl _]. apply head_ok_app; auto.
    - apply andb_true_iff in Hwf as [Hl _]. apply head_ok_app; auto.
    - apply andb_true_iff in Hwf as [Hl _]. apply andb_true_iff in Hl as [Hl _]. apply head_ok_app; auto.
    - apply andb_true_iff in Hwf as [Hl _]. apply head_ok_app; auto.
    - apply head_ok_app; auto.
    - apply head_ok_T; reflexivity.
  Qed.

  Lemma starts_ns_expr e lvl : wf_expr e = true -> starts_ns (fmt_expr fx lvl e).
  Proof.
    intro Hwf. destruct (head_ok_expr e lvl Hwf) as ([s|q|s| | |n] & rest & -> & Hp); try contradiction.
    - apply starts_ns_T, Hp.
    - destruct q as [|c r]; [discriminate|]. simpl in Hp. apply andb_true_iff in Hp as [Hc _].
      apply N.eqb_eq in Hc. subst. exists 34, (r ++ render rest). split; reflexivity.
  Qed.

  Lemma closed_expr e : forall lvl, wf_expr e = true -> closed (fmt_expr fx lvl e).
  Proof.
    induction e as [n|b t|v q|b|e IH|items els IH|items keys vals IH|n args IH|op r IH|op w l r IHl IHr|l i IHl IHi|l s e IHl IHs IHe|l k IHl|l t IHl|e IH] using fexpr_ind'; intros lvl Hwf; cbn [fmt_expr]; cbn [wf_expr] in Hwf.
    - apply closed_T, Hwf.
    - apply closed_T, Hwf.
    - apply closed_Q, Hwf.
    - destruct b; apply closed_T; reflexivity.
    - auto.
    - destruct (fmt_arr_as_lit closed lvl items els Hwf IH) as (its & _ & Hok & E).
      cbn [fmt_expr] in E. rewrite E. apply lit_closed; auto using items_loop_closed.
    - destruct (fmt_map_as_lit closed lvl items keys vals) with (3 := IH) as (its & _ & Hok & E); auto.
      { intros m v Hm Hv. apply closed_cons; [apply closed_T, Hm|]. apply closed_cons; [apply closed_T; reflexivity | exact Hv]. }
      cbn [fmt_expr] in E. rewrite E. apply lit_closed; auto using items_loop_closed.
    - apply andb_true_iff in Hwf as [Hn Hargs].
      apply closed_cons; [apply closed_T, Hn|]. apply closed_flat_map.
      apply Forall_forall. intros a Hin. apply closed_cons; [apply closed_Sp|].
      apply (proj1 (Forall_forall _ _) IH a Hin). apply (proj1 (forallb_forall _ _) Hargs a Hin).
    - apply andb_true_iff in Hwf as [Ho Hr]. apply closed_cons; auto. apply closed_T.
      destruct (op_str_cases op) as [->|Hp]; [discriminate | exact Hp].
    - apply andb_true_iff in Hwf as [Hl Hr].
      apply closed_app; auto. apply closed_app; [apply closed_write_wss|].
      destruct (op_str_cases op) as [->|Hp].
      + cbn [app]. apply closed_slash.
        * destruct w; cbn [write_wss app]; [apply starts_ns_expr; auto|].
          exists 32, (render (fmt_expr fx lvl r)). split; reflexivity.
        * apply closed_app; [apply closed_write_wss | auto].
      + apply closed_app; [apply closed_T, Hp|]. apply closed_app; [apply closed_write_wss | auto].
    - apply andb_true_iff in Hwf as [Hl Hr].
      apply closed_app; auto. apply closed_app; [apply closed_T; reflexivity|].
      apply closed_app; auto. apply closed_T; reflexivity.
    - apply andb_true_iff in Hwf as [Hwf He]. apply andb_true_iff in Hwf as [Hl Hs].
      apply closed_app; auto. apply closed_app; [apply closed_T; reflexivity|].
      apply closed_app; [destruct s as [x|]; [apply (IHs x eq_refl); auto | apply closed_nil]|].
      apply closed_app; [apply closed_T; reflexivity|].
      apply closed_app; [destruct e as [x|]; [apply (IHe x eq_refl); auto | apply closed_nil]|].
      apply closed_T; reflexivity.
    - apply andb_true_iff in Hwf as [Hl Hk]. apply closed_app; auto.
      apply closed_cons; [apply closed_T; reflexivity|]. apply closed_cons; [apply closed_T, Hk | apply closed_nil].
    - apply closed_app; auto. apply closed_app.
      + apply closed_cons; [apply closed_T; reflexivity|]. apply closed_cons; [apply closed_T; reflexivity | apply closed_nil].
      + apply closed_app; [apply fmt_type_closed | apply closed_T; reflexivity].
    - apply closed_app; [apply closed_T; reflexivity|]. apply closed_app; auto. apply closed_T; reflexivity.
  Qed.

  Lemma ck_expr e lvl ps : wf_expr e = true -> closed ps -> closed (fmt_expr fx lvl e ++ ps).
  Proof. intros. apply closed_app; auto using closed_expr. Qed.

  Lemma ck_args lvl args ps : forallb wf_expr args = true -> closed ps ->
    closed (flat_map (fun a => Sp :: fmt_expr fx lvl a) args ++ ps).
  Proof.
    intros H Hp. apply closed_app; auto. apply closed_flat_map. apply Forall_forall. intros a Hin.
    apply ck_Sp, closed_expr. apply (proj1 (forallb_forall _ _) H a Hin).
  Qed.

  Lemma ck_range lvl r ps : wf_range r = true -> closed ps -> closed (fmt_range fx lvl r ++ ps).
  Proof.
    intros H Hp. apply closed_app; auto. destruct r as [a b c|e]; cbn [fmt_range wf_range] in *.
    - apply andb_true_iff in H as [H Hc]. apply andb_true_iff in H as [Ha Hb].
      apply closed_app; [destruct a; [apply ck_expr; auto; apply closed_Sp | apply closed_nil]|].
      apply closed_app; [apply closed_expr, Hb|]. destruct c; [apply ck_Sp, closed_expr, Hc | apply closed_nil].
    - apply closed_expr, H.
  Qed.

  Definition stmt_closed_ok (s : fstmt) : Prop :=
    forall lvl ps, wf_stmt s = true -> closed ps -> closed (fmt_stmt fx lvl s ++ NL :: ps).

  Lemma ck_lines lvl nl lvl'' body : Forall stmt_closed_ok body -> forallb wf_stmt body = true ->
    forall i e ps, closed ps ->
    closed (lines_loop lvl nl i e (map (fun x => (is_blank x, fmt_stmt fx lvl'' x)) body) ++ ps).
  Proof.
    induction body as [|s body IH]; intros HF Hwf i e ps Hps; cbn [map lines_loop app]; [exact Hps|].
    inversion HF as [|? ? Hs HF']; subst. cbn [forallb] in Hwf. apply andb_true_iff in Hwf as [Hw1 Hw2].
    destruct (is_blank s).
    - rewrite <- app_assoc. apply closed_app; [destruct e; [apply closed_nil | apply closed_NL]|]. apply IH; auto.
    - cbn [app]. rewrite <- app_assoc. cbn [app]. apply ck_Ind. apply Hs; auto.
      rewrite <- app_assoc. apply closed_app; [apply closed_opt, closed_NL | apply IH; auto].
  Qed.

  Lemma ck_stmts lvl' lvl'' body : Forall stmt_closed_ok body -> forallb wf_stmt body = true ->
    forall e ps, closed ps ->
    closed (stmts_loop lvl' e (map (fun x => (is_blank x, fmt_stmt fx lvl'' x)) body) ++ ps).
  Proof. intros HF Hwf e. rewrite (stmts_loop_lines _ _ 0%nat). apply ck_lines; assumption. Qed.

  Ltac ck1 :=
    lazymatch goal with
    | |- closed [] => apply closed_nil
    | |- closed (Sp :: _) => apply ck_Sp
    | |- closed (NL :: _) => apply ck_NL
    | |- closed (Ind _ :: _) => apply ck_Ind
    | |- closed (T _ :: _) => apply ck_T; [first [assumption | reflexivity] |]
    | |- closed (write_comment _ ++ NL :: _) => apply ck_wc; [assumption|]
    | |- closed (write_comment_empty _ ++ NL :: _) => apply ck_wce; [assumption|]
    | |- closed (fmt_expr _ _ _ ++ _) => apply ck_expr; [assumption|]
    | |- closed (flat_map (fun a => Sp :: fmt_expr _ _ a) _ ++ _) => apply ck_args; [assumption|]
    | |- closed (fmt_range _ _ _ ++ _) => apply ck_range; [assumption|]
    | |- closed (write_decl _ _ ++ _) => apply ck_decl; [assumption|]
    | |- closed (fmt_type _ ++ _) => apply ck_type
    | |- closed (fmt_params _ ++ _) => apply ck_params; [assumption|]
    | |- closed (stmts_loop _ _ _ ++ _) => apply ck_stmts; [assumption | assumption |]
    | |- closed _ => assumption
    end.
  Ltac ck := repeat ck1.

  Lemma closed_stmt s : stmt_closed_ok s.
  Proof.
    induction s as [c|n t c|n v c|t v c|n a c|v c|c|ifb elifs els cend IHif IHelifs IHels
                   |cond ch body ce IHb|lv r ch body ce IHb|n rt ps v ch body ce IHb|n ps ch body ce IHb]
      using fstmt_ind'; intros lvl rest Hwf Hps; cbn [fmt_stmt]; unfold fmt_call; cbn [wf_stmt] in Hwf.
    - ck.
    - split_wf. norm. ck.
    - split_wf. norm. ck.
    - split_wf. norm. ck.
    - split_wf. norm. ck.
    - split_wf. destruct v; norm; ck.
    - norm. ck.
    - destruct ifb as [cond c body]. split_wf. cbn [Pblock] in IHif.
      norm. ck.
      match goal with H : forallb _ elifs = true |- _ => apply (flat_map_cont closed _ _ _ elifs IHelifs H) end.
      { intros [cond0 c0 body0] ps Hcb Hw Hp. cbn [Pblock] in Hcb. split_wf. norm. ck. }
      destruct els as [[c0 body0]|].
      + specialize (IHels c0 body0 eq_refl). split_wf. norm. ck.
      + cbn [app]. ck.
    - split_wf. norm. ck.
    - split_wf. destruct lv; norm; ck.
    - split_wf. destruct rt, v; norm; ck.
    - split_wf. norm. ck.
  Qed.

  Lemma prog_loop_closed nl l : forallb wf_stmt l = true -> forall i e, closed (prog_loop fx nl i e l).
  Proof.
    intros Hwf i e. rewrite prog_loop_lines, <- app_nil_r.
    apply ck_lines; [apply Forall_forall; intros s _; apply closed_stmt | exact Hwf | apply closed_nil].
  Qed.

  Lemma fmt_prog_closed p : wf_prog p = true -> closed (fmt_prog fx p).
  Proof.
    intro H. unfold fmt_prog. destruct p as [|s p]; [apply closed_NL|]. apply prog_loop_closed, H.
  Qed.

  Lemma toks_expr e : forall lvl, toks (fmt_expr fx lvl e) = expr_tokens e.
  Proof.
    induction e as [n|b t|v q|b|e IH|items els IH|items keys vals IH|n args IH|op r IH|op w l r IHl IHr|l i IHl IHi|l s e IHl IHs IHe|l k IHl|l t IHl|e IH] using fexpr_ind';
      intros lvl; cbn [fmt_expr expr_tokens]; try reflexivity.
    - auto.
    - rewrite <- (arr_item_tokens_fm (map expr_tokens els) items 0). fold (format_multiline items).
      unfold fmt_array. destruct (format_multiline items) as [|m0 multi'] eqn:E; [reflexivity|].
      rewrite !toks_app, !toks_if by reflexivity.
      rewrite (toks_arr_loop (S lvl) (fmt_expr fx (S lvl)) expr_tokens) by (eapply Forall_impl; [|exact IH]; intros a Ha; apply Ha).
      reflexivity.
    - rewrite <- (map_item_tokens_fm (combine keys (map expr_tokens vals)) items 0). fold (format_multiline items).
      unfold fmt_map. destruct (format_multiline items) as [|m0 multi'] eqn:E; [reflexivity|].
      rewrite !toks_app, !toks_if by reflexivity.
      rewrite (toks_map_loop (S lvl) (fmt_expr fx (S lvl)) expr_tokens) by (eapply Forall_impl; [|exact IH]; intros a Ha; apply Ha).
      reflexivity.
    - rewrite toks_cons. simpl toks1. cbn [app]. f_equal.
      apply toks_flat_map. eapply Forall_impl; [|exact IH]. intros a Ha. rewrite toks_cons. apply Ha.
    - rewrite toks_cons, IH. reflexivity.
    - rewrite !toks_app, toks_write_wss, IHl, IHr. reflexivity.
    - rewrite !toks_app, IHl, IHi. reflexivity.
    - rewrite !toks_app, IHl.
      destruct s as [x|], e as [y|]; rewrite ?(IHs x eq_refl), ?(IHe y eq_refl); reflexivity.
    - rewrite !toks_app, IHl. reflexivity.
    - rewrite !toks_app, IHl, toks_fmt_type. reflexivity.
    - rewrite !toks_app, IH. reflexivity.
  Qed.

  Lemma toks_args lvl args : toks (flat_map (fun a => Sp :: fmt_expr fx lvl a) args) = flat_map expr_tokens args.
  Proof.
    apply toks_flat_map. apply Forall_forall. intros a _. rewrite toks_cons. apply toks_expr.
  Qed.

  Lemma toks_range lvl r : toks (fmt_range fx lvl r) = range_tokens r.
  Proof.
    destruct r as [a b c|e]; cbn [fmt_range range_tokens]; [|apply toks_expr].
    rewrite !toks_app, toks_expr. destruct a, c; rewrite ?toks_app, ?toks_cons, ?toks_expr, ?toks_nil; cbn [toks1 app]; rewrite ?app_nil_r; reflexivity.
  Qed.

  Lemma toks_params ps : toks (fmt_params ps) = params_tokens ps.
  Proof.
    unfold fmt_params, params_tokens. apply toks_flat_map. apply Forall_forall. intros p _.
    rewrite toks_cons. apply toks_write_decl.
  Qed.

  Definition stmt_toks_ok (s : fstmt) : Prop := forall lvl, toks (fmt_stmt fx lvl s) = stmt_tokens s.

  Lemma toks_lines lvl nl lvl'' body : Forall stmt_toks_ok body -> forall i e,
    toks (lines_loop lvl nl i e (map (fun x => (is_blank x, fmt_stmt fx lvl'' x)) body)) = flat_map stmt_tokens body.
  Proof.
    induction body as [|s body IH]; intros HF i e; [reflexivity|].
    inversion HF as [|? ? Hs HF']; subst. cbn [map lines_loop flat_map].
    destruct (is_blank s) eqn:Eb.
    - rewrite toks_app, toks_if, IH, (is_blank_tokens s Eb) by auto. reflexivity.
    - rewrite !toks_app, toks_if, IH, Hs by auto. reflexivity.
  Qed.

  Lemma toks_stmts lvl' lvl'' body : Forall stmt_toks_ok body -> forall e,
    toks (stmts_loop lvl' e (map (fun x => (is_blank x, fmt_stmt fx lvl'' x)) body)) = flat_map stmt_tokens body.
  Proof. intros HF e. rewrite (stmts_loop_lines _ _ 0%nat). apply toks_lines, HF. Qed.

  Ltac tk :=
    repeat (progress (rewrite ?toks_app, ?toks_cons, ?toks_nil, ?toks_write_comment, ?toks_write_comment_empty, ?toks_expr,
                       ?toks_write_decl, ?toks_fmt_type, ?toks_args, ?toks_range, ?toks_params));
    cbn [toks1].

  Lemma toks_stmt s : stmt_toks_ok s.
  Proof.
    induction s as [c|n t c|n v c|t v c|n a c|v c|c|ifb elifs els cend IHif IHelifs IHels
                   |cond ch body ce IHb|lv r ch body ce IHb|n rt ps v ch body ce IHb|n ps ch body ce IHb]
      using fstmt_ind'; intros lvl; cbn [fmt_stmt stmt_tokens]; unfold fmt_call.
    - tk. reflexivity.
    - tk. reflexivity.
    - tk. reflexivity.
    - tk. rewrite <- ?app_assoc. reflexivity.
    - tk. reflexivity.
    - destruct v; tk; reflexivity.
    - tk. reflexivity.
    - destruct ifb as [cond c body]. cbn [Pblock] in IHif.
      tk. rewrite (toks_stmts _ _ body) by assumption.
      f_equal. f_equal; [|f_equal].
      + apply toks_flat_map. eapply Forall_impl; [|exact IHelifs].
        intros [cond0 c0 body0] Hb. cbn [Pblock] in Hb. tk. rewrite (toks_stmts _ _ body0) by assumption.
        cbn [app]. rewrite <- ?app_assoc. reflexivity.
      + destruct els as [[c0 body0]|]; [|reflexivity].
        specialize (IHels c0 body0 eq_refl). tk. rewrite (toks_stmts _ _ body0) by assumption. reflexivity.
    - tk. rewrite (toks_stmts _ _ body) by assumption. cbn [app]. rewrite <- ?app_assoc. reflexivity.
    - destruct lv; tk; rewrite (toks_stmts _ _ body) by assumption; cbn [app]; rewrite <- ?app_assoc; reflexivity.
    - destruct rt, v; tk; rewrite (toks_stmts _ _ body) by assumption; cbn [app]; rewrite <- ?app_assoc; reflexivity.
    - tk. rewrite (toks_stmts _ _ body) by assumption. cbn [app]. rewrite <- ?app_assoc. reflexivity.
  Qed.

  Lemma prog_loop_toks nl l : forall i e, toks (prog_loop fx nl i e l) = flat_map stmt_tokens l.
  Proof.
    intros i e. rewrite prog_loop_lines. apply toks_lines. apply Forall_forall. intros s _. apply toks_stmt.
  Qed.

  Lemma fmt_prog_toks p : toks (fmt_prog fx p) = tokens_of_ast p.
  Proof. unfold fmt_prog, tokens_of_ast. destruct p as [|s p]; [reflexivity|]. apply prog_loop_toks. Qed.

  (* C06: the formatter emits exactly the tree's tokens: nothing dropped, nothing
     invented, only white space added *)
  Theorem format_emits_tree_tokens p : wf_prog p = true ->
    strip_ws (format fx p) = concat (tokens_of_ast p).
  Proof.
    intro H. unfold strip_ws, format. pose proof (fmt_prog_closed p H []) as Hc.
    rewrite !app_nil_r in Hc. rewrite Hc, fmt_prog_toks. reflexivity.
  Qed.

End Fmt.
