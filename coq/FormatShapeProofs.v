(* FormatShapeProofs.v — C07: the shape of the formatter's output.  An automaton over output pieces
   is proved sound for the character-level scanner [shape_scan]; the formatter functions are then
   shown to drive that automaton without ever getting stuck. *)
From Coq Require Import ZArith NArith List Bool Lia Arith.
From EvyV Require Import Base FmtAst Format FormatProofs FormatNlProofs.
Import ListNotations.
Open Scope N_scope.

Definition st_bol (c b : nat) (lb : bool) : shape_st :=
  {| at_bol := true; col_spaces := c; last_blank := lb; blanks := b |}.
Definition st_mid (lb : bool) : shape_st :=
  {| at_bol := false; col_spaces := 0; last_blank := lb; blanks := 0 |}.

(* the automaton's states: at the beginning of a line behind b empty lines; there, behind an
   indentation; behind a token; behind a space.  [PI n b] is indentation level S n (level 0 writes
   nothing and leaves the state as it is, see [pstep]). *)
Inductive pst := PB (b : nat) | PI (n b : nat) | PM | PS.

Definition conc (a : pst) : shape_st :=
  match a with
  | PB b => st_bol 0 b false
  | PI n b => st_bol (4 * S n) b true
  | PM => st_mid false
  | PS => st_mid true
  end.

(* a token text: non-empty, no newline, no white space at either end *)
Definition tok_shape (s : str) : bool :=
  match s with
  | c :: _ => negb (is_space c) && no_nl s && match rev s with x :: _ => negb (is_space x) | [] => false end
  | [] => false
  end.

Definition pstep (a : pst) (p : piece) : option pst :=
  match p with
  | T s | Q s | Cm s => if tok_shape s then Some PM else None
  | Sp => match a with PM | PS => Some PS | _ => None end
  | NL => match a with
          | PM => Some (PB 0)
          | PB 0 => Some (PB 1)
          | _ => None
          end
  | Ind 0 => Some a
  | Ind (S n) => match a with PB b => Some (PI n b) | _ => None end
  end.

Fixpoint prun (a : pst) (ps : list piece) : option pst :=
  match ps with
  | [] => Some a
  | p :: r => match pstep a p with Some a' => prun a' r | None => None end
  end.

Lemma prun_app a ps qs : prun a (ps ++ qs) = match prun a ps with Some a' => prun a' qs | None => None end.
Proof. revert a. induction ps as [|p ps IH]; intro a; simpl; auto. destruct (pstep a p); auto. Qed.

Definition last_blank_of (s : str) (lb : bool) : bool :=
  match rev s with x :: _ => is_space x | [] => lb end.

Lemma last_blank_of_cons c s lb : last_blank_of (c :: s) lb = last_blank_of s (is_space c).
Proof.
  unfold last_blank_of. simpl. destruct (rev s) as [|x r] eqn:E; reflexivity.
Qed.

Lemma scan_mid s : forall lb rest, no_nl s = true ->
  shape_scan (st_mid lb) (s ++ rest) = shape_scan (st_mid (last_blank_of s lb)) rest.
Proof.
  induction s as [|c s IH]; intros lb rest H; [reflexivity|].
  simpl in H. apply andb_true_iff in H as [Hc Hs]. apply negb_true_iff in Hc.
  rewrite last_blank_of_cons. rewrite <- IH by exact Hs.
  simpl. rewrite Hc. reflexivity.
Qed.

Lemma tok_shape_spec s : tok_shape s = true ->
  exists c s', s = c :: s' /\ is_space c = false /\ no_nl s' = true /\ last_blank_of s' false = false
               /\ no_nl s = true /\ forall lb, last_blank_of s lb = false.
Proof.
  unfold tok_shape. destruct s as [|c s']; [discriminate|]. intro H.
  apply andb_true_iff in H as [H H3]. apply andb_true_iff in H as [H1 H2]. apply negb_true_iff in H1.
  exists c, s'. split; [reflexivity|]. split; [exact H1|].
  assert (Hn : no_nl s' = true). { simpl in H2. apply andb_true_iff in H2. tauto. }
  split; [exact Hn|].
  assert (Hl : forall lb, last_blank_of (c :: s') lb = false).
  { intro lb. unfold last_blank_of. destruct (rev (c :: s')) as [|x r]; [discriminate|]. apply negb_true_iff in H3. exact H3. }
  split; [|split; [exact H2 | exact Hl]].
  specialize (Hl true). rewrite last_blank_of_cons in Hl. rewrite H1 in Hl. exact Hl.
Qed.

Lemma not_space_10_32 c : is_space c = false -> (c =? 10) = false /\ (c =? 32) = false.
Proof.
  intro H. split; [destruct (N.eqb_spec c 10) | destruct (N.eqb_spec c 32)]; auto; subst; discriminate.
Qed.

Lemma mod4 n : (4 * n mod 4 =? 0)%nat = true.
Proof. rewrite Nat.mul_comm, Nat.mod_mul by discriminate. reflexivity. Qed.

Lemma scan_bol_tokchar c col b lb r : is_space c = false -> (col mod 4 =? 0)%nat = true ->
  shape_scan (st_bol col b lb) (c :: r) = shape_scan (st_mid false) r.
Proof.
  intros Hc Hm. destruct (not_space_10_32 c Hc) as [H10 H32]. unfold st_bol, st_mid.
  cbn [shape_scan at_bol col_spaces]. rewrite H10, H32, Hc, Hm. reflexivity.
Qed.

Lemma scan_tok s a rest : tok_shape s = true ->
  shape_scan (conc a) (s ++ rest) = shape_scan (conc PM) rest.
Proof.
  intro H. destruct (tok_shape_spec s H) as (c & s' & -> & Hc & Hn' & Hl' & Hn & Hl).
  destruct a as [b|n b| |]; cbn [conc].
  1-2: cbn [app]; rewrite scan_bol_tokchar by (auto; first [reflexivity | apply mod4]);
       rewrite scan_mid by exact Hn'; rewrite Hl'; reflexivity.
  all: rewrite scan_mid by exact Hn; rewrite Hl; reflexivity.
Qed.

Lemma scan_spaces k : forall c lb b rest, (0 < k)%nat ->
  shape_scan (st_bol c b lb) (spaces k ++ rest) = shape_scan (st_bol (c + k) b true) rest.
Proof.
  induction k as [|k IH]; intros c lb b rest Hk; [lia|].
  change (spaces (S k) ++ rest) with (32 :: (spaces k ++ rest)).
  cbn [shape_scan st_bol at_bol col_spaces blanks]. change (32 =? 10) with false. change (32 =? 32) with true. cbn iota.
  destruct k as [|k'].
  - simpl. replace (c + 1)%nat with (S c) by lia. reflexivity.
  - change {| at_bol := true; col_spaces := S c; last_blank := true; blanks := b |} with (st_bol (S c) b true).
    rewrite IH by lia. replace (S c + S k')%nat with (c + S (S k'))%nat by lia. reflexivity.
Qed.

Lemma pstep_sound a p a' rest : pstep a p = Some a' ->
  shape_scan (conc a) (render1 p ++ rest) = shape_scan (conc a') rest.
Proof.
  destruct p as [s|s|s| | |n]; cbn [pstep render1].
  1-3: destruct (tok_shape s) eqn:E; [|discriminate]; intro H; injection H as <-; apply scan_tok, E.
  - destruct a; try discriminate; intro H; injection H as <-; reflexivity.
  - destruct a as [[|[|b]]|n b| |]; try discriminate; intro H; injection H as <-; reflexivity.
  - destruct n as [|n].
    + intro H; injection H as <-. reflexivity.
    + destruct a as [b|? ?| |]; try discriminate. intro H; injection H as <-.
      cbn [conc]. rewrite scan_spaces by lia. reflexivity.
Qed.

Lemma prun_sound ps : forall a a' rest, prun a ps = Some a' ->
  shape_scan (conc a) (render ps ++ rest) = shape_scan (conc a') rest.
Proof.
  induction ps as [|p ps IH]; intros a a' rest H.
  - injection H as <-. reflexivity.
  - cbn [prun] in H. destruct (pstep a p) as [a1|] eqn:E; [|discriminate].
    rewrite render_cons, <- app_assoc. rewrite (pstep_sound a p a1 _ E). apply IH, H.
Qed.

Lemma prun_shape ps a' : prun (PB 0) ps = Some a' -> shape_lines (render ps) = true.
Proof.
  intro H. unfold shape_lines.
  change {| at_bol := true; col_spaces := 0; last_blank := false; blanks := 0 |} with (conc (PB 0)).
  rewrite <- (app_nil_r (render ps)). rewrite (prun_sound ps (PB 0) a' [] H). reflexivity.
Qed.

Lemma forallb_rev {A} (f : A -> bool) l : forallb f (rev l) = forallb f l.
Proof.
  induction l as [|x l IH]; simpl; auto. rewrite forallb_app, IH. simpl. rewrite andb_true_r. apply andb_comm.
Qed.

Lemma plain_char_not_space c : plain_char c = true -> is_space c = false.
Proof. unfold plain_char. intro H. apply andb_true_iff in H as [H _]. apply andb_true_iff in H as [H _]. apply negb_true_iff in H. exact H. Qed.

Lemma is_space_10 : is_space 10 = true. Proof. reflexivity. Qed.

Lemma plain_tok_shape s : plain s = true -> tok_shape s = true.
Proof.
  unfold plain, tok_shape. intro H. apply andb_true_iff in H as [Hne Hall].
  destruct s as [|c s']; [discriminate|].
  assert (Hc : is_space c = false).
  { simpl in Hall. apply andb_true_iff in Hall as [Hc _]. apply plain_char_not_space, Hc. }
  rewrite Hc. cbn [negb andb].
  assert (Hn : no_nl (c :: s') = true).
  { unfold no_nl. apply forallb_forall. intros x Hx.
    assert (Hp := proj1 (forallb_forall _ _) Hall x Hx). apply plain_char_not_space in Hp.
    destruct (N.eqb_spec x 10); [subst; discriminate | reflexivity]. }
  rewrite Hn. cbn [andb].
  rewrite <- forallb_rev in Hall. destruct (rev (c :: s')) as [|x r] eqn:E.
  - apply (f_equal (@List.length N)) in E. rewrite rev_length in E. discriminate.
  - simpl in Hall. apply andb_true_iff in Hall as [Hx _]. apply plain_char_not_space in Hx. rewrite Hx. reflexivity.
Qed.

Lemma scan_str_spec r : forall esc, scan_str esc r = true ->
  no_nl r = true /\ exists r', r = r' ++ [34].
Proof.
  induction r as [|c r IH]; intros esc H; [discriminate|].
  cbn [scan_str] in H. destruct (c =? 10) eqn:E10; [discriminate|].
  assert (Hrec : forall e, scan_str e r = true -> no_nl (c :: r) = true /\ exists r', c :: r = r' ++ [34]).
  { intros e He. destruct (IH e He) as (Hn & r' & ->). split; [simpl; rewrite E10; exact Hn|]. exists (c :: r'). reflexivity. }
  destruct esc; [eapply Hrec; eauto|].
  destruct (c =? 92); [eapply Hrec; eauto|].
  destruct (c =? 34) eqn:E34; [|eapply Hrec; eauto].
  destruct r; [|discriminate]. apply N.eqb_eq in E34. subst. split; [reflexivity|]. exists []. reflexivity.
Qed.

Lemma quoted_tok_shape q : quoted_ok q = true -> tok_shape q = true.
Proof.
  unfold quoted_ok, tok_shape. destruct q as [|c r]; [discriminate|]. intro H.
  apply andb_true_iff in H as [Hc Hr]. apply N.eqb_eq in Hc. subst c.
  destruct (scan_str_spec r false Hr) as (Hn & r' & ->).
  change (is_space 34) with false. cbn [negb andb].
  assert (Hn2 : no_nl (34 :: r' ++ [34]) = true) by (simpl; exact Hn). rewrite Hn2. cbn [andb].
  change (34 :: r' ++ [34]) with ((34 :: r') ++ [34]). rewrite rev_app_distr. reflexivity.
Qed.

Lemma comment_tok_shape c : comment_text_ok c = true -> tok_shape c = true.
Proof.
  intro H. destruct (comment_text_ok_spec c H) as (r & -> & _).
  unfold comment_text_ok in H. apply andb_true_iff in H as [H H3]. apply andb_true_iff in H as [_ H2].
  unfold tok_shape. change (is_space 47) with false. cbn [negb andb]. rewrite H2. cbn [andb]. exact H3.
Qed.

(* [flows ps]: ps starts with a token, so it may be written in any state; [run_M ps]: ps may start
   with a space, so only behind a token.  Both leave the automaton behind a token. *)
Definition flows (ps : list piece) : Prop := forall a, prun a ps = Some PM.
Definition run_M (ps : list piece) : Prop := prun PM ps = Some PM.

Lemma flows_runM ps : flows ps -> run_M ps.
Proof. intro H. apply H. Qed.

Lemma runM_nil : run_M [].
Proof. reflexivity. Qed.

Lemma runM_app a b : run_M a -> run_M b -> run_M (a ++ b).
Proof. unfold run_M. intros Ha Hb. rewrite prun_app, Ha. exact Hb. Qed.

Lemma flows_app a b : flows a -> run_M b -> flows (a ++ b).
Proof. intros Ha Hb s. rewrite prun_app, Ha. exact Hb. Qed.

Lemma flows_T s : tok_shape s = true -> flows [T s].
Proof. intros H a. simpl. rewrite H. reflexivity. Qed.
Lemma flows_Q s : tok_shape s = true -> flows [Q s].
Proof. intros H a. simpl. rewrite H. reflexivity. Qed.
Lemma flows_Cm s : tok_shape s = true -> flows [Cm s].
Proof. intros H a. simpl. rewrite H. reflexivity. Qed.

Lemma flows_cons_T s ps : tok_shape s = true -> run_M ps -> flows (T s :: ps).
Proof. intros. change (T s :: ps) with ([T s] ++ ps). apply flows_app; auto using flows_T. Qed.

Lemma runM_T s ps : tok_shape s = true -> run_M ps -> run_M (T s :: ps).
Proof. intros. apply flows_runM, flows_cons_T; auto. Qed.

Lemma runM_Sp ps : flows ps -> run_M (Sp :: ps).
Proof. intro H. unfold run_M. simpl. apply H. Qed.

Lemma runM_app_flows ps qs : flows ps -> run_M qs -> run_M (ps ++ qs).
Proof. intros. apply runM_app; auto using flows_runM. Qed.

Lemma op_shape o : tok_shape (op_str o) = true.
Proof. destruct o; reflexivity. Qed.

Lemma fm_sat items : forall n, (2 <= n)%nat -> format_multiline_loop n items = format_multiline_loop 2 items.
Proof.
  induction items as [|m items IH]; intros n Hn; [reflexivity|].
  cbn [format_multiline_loop]. destruct (item_is_nl m).
  - assert (E1 : (S n <=? 2)%nat = false) by (apply Nat.leb_gt; lia).
    rewrite E1. change (3 <=? 2)%nat with false. cbn iota. rewrite (IH (S n)), (IH 3%nat) by lia. reflexivity.
  - reflexivity.
Qed.

(* the squeezed list never shows more than two newline "units" in a row *)
Fixpoint sq (n : nat) (items : list str) : bool :=
  match items with
  | [] => true
  | m :: r =>
      let n' := if item_is_nl m then S n else if item_is_comment m then 1%nat else 0%nat in
      (n' <=? 2)%nat && sq n' r
  end.

Lemma sq_fm items : forall n, (n <= 2)%nat -> sq n (format_multiline_loop n items) = true.
Proof.
  induction items as [|m items IH]; intros n Hn; [reflexivity|].
  cbn [format_multiline_loop].
  destruct (item_is_nl m) eqn:Enl.
  - destruct (S n <=? 2)%nat eqn:E.
    + cbn [sq]. rewrite Enl, E. cbn [andb]. apply IH. apply Nat.leb_le in E. exact E.
    + apply Nat.leb_gt in E. assert (n = 2)%nat by lia. subst n. rewrite (fm_sat items 3) by lia. apply IH. lia.
  - destruct (item_is_comment m) eqn:Ec; cbn [Nat.leb sq]; rewrite Enl, Ec; cbn [Nat.leb andb]; apply IH; lia.
Qed.

Section Loops.
  Variable lvl : nat.   (* the literal's own level; items are written at S lvl *)

  (* state of the automaton in terms of formatMultiline's counter *)
  Definition counter_inv (n : nat) (a : pst) (multi : list str) : Prop :=
    match n with
    | 0%nat => a = PM \/ (a = PS /\ next_not_nl multi = true)
    | S k => a = if next_not_nl multi then PI lvl k else PB k
    end.

  Definition ends_bol (a : pst) (multi : list str) : Prop :=
    match rev multi with
    | m :: _ => item_ws_ok m = true -> exists b, a = PB b
    | [] => True
    end.

  Lemma raw_item_run m n a rest :
    item_ws_ok m = true -> counter_inv n a (m :: rest) ->
    ((if item_is_nl m then S n else 1%nat) <=? 2)%nat = true ->
    exists b, prun a (raw_item m) = Some (PB b) /\
              (if item_is_nl m then S n else 1%nat) = S b.
  Proof.
    intros Hws Hinv Hn. unfold raw_item. destruct (item_is_nl m) eqn:Enl.
    - apply Nat.leb_le in Hn.
      assert (Hnn : next_not_nl (m :: rest) = false) by (cbn [next_not_nl]; rewrite Enl; reflexivity).
      destruct n as [|k]; cbn [counter_inv] in Hinv.
      + destruct Hinv as [->|[_ Hx]]; [|congruence]. exists 0%nat. split; reflexivity.
      + rewrite Hnn in Hinv. subst a. assert (k = 0)%nat by lia. subst k. exists 1%nat. split; reflexivity.
    - unfold item_ws_ok in Hws. rewrite Enl in Hws. simpl in Hws. apply andb_true_iff in Hws as [He Hc].
      rewrite He. exists 0%nat. split; [|reflexivity].
      cbn [prun pstep]. rewrite (comment_tok_shape _ Hc). reflexivity.
  Qed.

  Lemma ends_bol_cons a m multi : multi <> [] -> ends_bol a multi -> ends_bol a (m :: multi).
  Proof.
    intros Hne H. unfold ends_bol in *. cbn [rev]. destruct (rev multi) as [|x r] eqn:E; [|exact H].
    apply (f_equal (@rev str)) in E. rewrite rev_involutive in E. contradiction.
  Qed.

  Lemma items_loop_run its : forall n a,
    sq n (map fst its) = true -> Forall (item_ok flows) its -> counter_inv n a (map fst its) ->
    exists a', prun a (items_loop (S lvl) its) = Some a' /\ (its <> [] -> ends_bol a' (map fst its)).
  Proof.
    induction its as [|[m x] rest IH]; intros n a Hsq Hit Hinv.
    - exists a. split; [reflexivity|]. intro H. contradiction.
    - inversion Hit as [|? ? Hm Hit']; subst. unfold item_ok in Hm. cbn [fst snd] in Hm.
      cbn [map fst] in *. cbn [sq] in Hsq. apply andb_true_iff in Hsq as [Hn' Hsq'].
      (* the rest of the items, once the head [hd] of the output has led to the state [a1] *)
      assert (Hstep : forall hd n1 a1, prun a hd = Some a1 ->
                sq n1 (map fst rest) = true -> counter_inv n1 a1 (map fst rest) ->
                (rest = [] -> ends_bol a1 [m]) ->
                exists a', prun a (hd ++ items_loop (S lvl) rest) = Some a' /\
                           (((m, x) :: rest) <> [] -> ends_bol a' (m :: map fst rest))).
      { intros hd n1 a1 H1 Hs Hi Hlast. destruct (IH n1 a1 Hs Hit' Hi) as (a' & Hrun & Hend).
        exists a'. split; [rewrite prun_app, H1; exact Hrun|].
        intros _. destruct rest as [|it2 rest'].
        - injection Hrun as <-. apply Hlast. reflexivity.
        - apply ends_bol_cons; [discriminate|]. apply Hend. discriminate. }
      cbn [items_loop]. destruct x as [e|]; rewrite app_assoc.
      + (* an element *)
        destruct Hm as (He & Enl & Ec). rewrite Enl, Ec in Hsq'.
        apply (Hstep _ 0%nat (if next_not_nl (map fst rest) then PS else PM)); [|exact Hsq'| |].
        * rewrite prun_app, He. destruct (next_not_nl (map fst rest)); reflexivity.
        * cbn [counter_inv]. destruct (next_not_nl (map fst rest)) eqn:E; [right; split; auto | left; reflexivity].
        * intros _. unfold ends_bol. cbn [rev app]. intro Hx. apply ws_ok_not_key in Hx.
          unfold item_is_key in Hx. rewrite Enl, Ec in Hx. discriminate.
      + (* a newline or a comment *)
        assert (Hc : item_is_nl m = false -> item_is_comment m = true) by (apply ws_ok_comment; exact Hm).
        set (n' := if item_is_nl m then S n else 1%nat).
        assert (En' : (if item_is_nl m then S n else if item_is_comment m then 1%nat else 0%nat) = n').
        { unfold n'. destruct (item_is_nl m); [reflexivity|]. rewrite Hc by reflexivity. reflexivity. }
        rewrite En' in Hn', Hsq'.
        destruct (raw_item_run m n a (map fst rest) Hm Hinv Hn') as (b & Hraw & Hb). fold n' in Hb.
        apply (Hstep _ n' (if next_not_nl (map fst rest) then PI lvl b else PB b)); [|exact Hsq'| |].
        * rewrite prun_app, Hraw. destruct (next_not_nl (map fst rest)); reflexivity.
        * rewrite Hb. cbn [counter_inv]. reflexivity.
        * intros ->. unfold ends_bol. cbn [rev app]. intros _. exists b. reflexivity.
  Qed.
End Loops.

Lemma close_bracket_run lvl (cond : bool) a' close :
  tok_shape close = true ->
  (cond = true -> exists b, a' = PB b) ->
  prun a' ((if cond then [Ind lvl] else []) ++ [T close]) = Some PM.
Proof.
  intros Hc Hb. destruct cond.
  - destruct (Hb eq_refl) as (b & ->). destruct lvl; simpl; rewrite Hc; reflexivity.
  - simpl. rewrite Hc. reflexivity.
Qed.

Lemma last_cond_bol (fx : bool) a' its (P : list piece -> Prop) :
  ends_bol a' (map fst its) -> Forall (item_ok P) its ->
  (if fx then last_is_nl_or_comment (map fst its) else last_is_nl (map fst its)) = true -> exists b, a' = PB b.
Proof.
  intros Hend Hall Hcond. unfold ends_bol in Hend. unfold last_is_nl_or_comment, last_is_nl in Hcond.
  destruct (rev (map fst its)) as [|m r] eqn:E; [destruct fx; discriminate|].
  apply Hend.
  assert (Hin : In m (map fst its)) by (apply in_rev; rewrite E; left; reflexivity).
  apply in_map_iff in Hin as ([m' x] & <- & Hin). cbn [fst] in *.
  pose proof (proj1 (Forall_forall _ _) Hall _ Hin) as Hm. unfold item_ok in Hm. cbn [fst snd] in Hm.
  destruct x; [|exact Hm]. destruct Hm as (_ & H1 & H2). destruct fx; rewrite ?H1, ?H2 in Hcond; discriminate.
Qed.

Lemma flows_lit fx lvl opn cls multi its :
  tok_shape opn = true -> tok_shape cls = true -> map fst its = multi ->
  sq 0 multi = true -> Forall (item_ok flows) its ->
  flows (lit fx lvl multi opn cls (items_loop (S lvl) its)).
Proof.
  intros Ho Hc E Hsq Hit a. unfold lit. destruct multi as [|m0 multi'].
  - cbn. rewrite Ho, Hc. reflexivity.
  - set (multi := m0 :: multi') in *.
    set (a1 := if first_is_comment multi then PS else PM).
    assert (H1 : prun a ([T opn] ++ (if first_is_comment multi then [Sp] else [])) = Some a1).
    { unfold a1, multi. cbn [first_is_comment app prun pstep]. rewrite Ho. destruct (item_is_comment m0); reflexivity. }
    destruct (items_loop_run lvl its 0%nat a1) as (a' & Hrun & Hend); rewrite ?E; auto.
    { cbn [counter_inv]. unfold a1, multi. cbn [first_is_comment next_not_nl].
      destruct (item_is_comment m0) eqn:Ec; [right; split; auto; rewrite (comment_item_not_nl m0 Ec); reflexivity | left; reflexivity]. }
    rewrite app_assoc, prun_app, H1, prun_app, Hrun.
    apply close_bracket_run; [exact Hc|]. intro Hcond. rewrite <- E in Hcond.
    apply (last_cond_bol fx a' its flows); auto. apply Hend. intro Hx. subst its. discriminate E.
Qed.

Lemma runM_args {A} (f : A -> list piece) args :
  Forall (fun a => flows (f a)) args -> run_M (flat_map (fun a => Sp :: f a) args).
Proof.
  induction args as [|x l IH]; simpl; intro H; [apply runM_nil|]. inversion H; subst.
  change (Sp :: f x ++ flat_map (fun a => Sp :: f a) l) with ((Sp :: f x) ++ flat_map (fun a => Sp :: f a) l).
  apply runM_app; auto. apply runM_Sp; auto.
Qed.

Lemma tyname_runM n ps : run_M ps -> run_M (tyname_pieces n ++ ps).
Proof. intro H. destruct n; simpl; repeat (apply runM_T; [reflexivity|]); exact H. Qed.

Fixpoint fmt_type_runM (t : fty) ps : run_M ps -> run_M (fmt_type t ++ ps).
Proof.
  intro H. destruct t as [n sub]. cbn [fmt_type]. rewrite <- app_assoc. apply tyname_runM.
  destruct sub as [s|]; [apply fmt_type_runM, H | exact H].
Qed.

Lemma write_wss_runM w ps : flows ps -> run_M (write_wss w ++ ps).
Proof. intro H. destruct w; cbn [write_wss app]; [apply flows_runM, H | apply runM_Sp, H]. Qed.

Section Exprs.
  Variable fx : fixes.

  Lemma flows_expr e : forall lvl, wf_expr e = true -> flows (fmt_expr fx lvl e).
  Proof.
    induction e as [n|b t|v q|b|e IH|items els IH|items keys vals IH|n args IH|op r IH|op w l r IHl IHr|l i IHl IHi|l s e IHl IHs IHe|l k IHl|l t IHl|e IH] using fexpr_ind';
      intros lvl Hwf; cbn [fmt_expr]; cbn [wf_expr] in Hwf.
    - apply flows_T, plain_tok_shape, Hwf.
    - apply flows_T, plain_tok_shape, Hwf.
    - apply flows_Q, quoted_tok_shape, Hwf.
    - destruct b; apply flows_T; reflexivity.
    - auto.
    - destruct (fmt_arr_as_lit fx flows lvl items els Hwf IH) as (its & Hfst & Hok & E).
      cbn [fmt_expr] in E. rewrite E. apply flows_lit; auto. apply sq_fm. lia.
    - destruct (fmt_map_as_lit fx flows lvl items keys vals) with (3 := IH) as (its & Hfst & Hok & E); auto.
      { intros m v Hm Hv. cbn [app]. apply flows_cons_T; [apply plain_tok_shape, Hm|].
        apply runM_T; [reflexivity | apply flows_runM, Hv]. }
      cbn [fmt_expr] in E. rewrite E. apply flows_lit; auto. apply sq_fm. lia.
    - apply andb_true_iff in Hwf as [Hn Hargs]. apply flows_cons_T; [apply plain_tok_shape, Hn|].
      apply runM_args. apply Forall_forall. intros a Hin.
      apply (proj1 (Forall_forall _ _) IH a Hin). apply (proj1 (forallb_forall _ _) Hargs a Hin).
    - apply andb_true_iff in Hwf as [_ Hr]. apply flows_cons_T; [apply op_shape | apply flows_runM; auto].
    - apply andb_true_iff in Hwf as [Hl Hr]. apply flows_app; auto.
      destruct w; cbn [write_wss app].
      + apply runM_T; [apply op_shape | apply flows_runM; auto].
      + apply runM_Sp. apply flows_cons_T; [apply op_shape|]. apply runM_Sp; auto.
    - apply andb_true_iff in Hwf as [Hl Hr]. apply flows_app; auto.
      apply runM_T; [reflexivity|]. apply runM_app_flows; auto. apply runM_T; [reflexivity | apply runM_nil].
    - apply andb_true_iff in Hwf as [Hwf He]. apply andb_true_iff in Hwf as [Hl Hs].
      apply flows_app; auto. apply runM_T; [reflexivity|].
      apply runM_app; [destruct s as [x|]; [apply flows_runM, (IHs x eq_refl); auto | apply runM_nil]|].
      apply runM_T; [reflexivity|].
      apply runM_app; [destruct e as [x|]; [apply flows_runM, (IHe x eq_refl); auto | apply runM_nil]|].
      apply runM_T; [reflexivity | apply runM_nil].
    - apply andb_true_iff in Hwf as [Hl Hk]. apply flows_app; auto.
      apply runM_T; [reflexivity|]. apply runM_T; [apply plain_tok_shape, Hk | apply runM_nil].
    - apply flows_app; auto. apply runM_T; [reflexivity|]. apply runM_T; [reflexivity|].
      apply fmt_type_runM. apply runM_T; [reflexivity | apply runM_nil].
    - apply flows_cons_T; [reflexivity|]. apply runM_app_flows; auto. apply runM_T; [reflexivity | apply runM_nil].
  Qed.
End Exprs.

Definition after_bol (ps : list piece) : Prop := forall b, prun (PB b) ps = Some PM.

Lemma after_bol_Ind lvl ps : flows ps -> after_bol (Ind lvl :: ps).
Proof. intros H b. destruct lvl; simpl; apply H. Qed.

Lemma comment_ok_shape c : comment_ok c = true -> is_empty c = false -> tok_shape (trim c) = true.
Proof. intros H E. apply comment_tok_shape, comment_ok_nonempty; auto. Qed.

Lemma wc_runM c ps : comment_ok c = true -> run_M ps -> run_M (write_comment c ++ ps).
Proof.
  intros H Hp. unfold write_comment. destruct (is_empty c) eqn:E; cbn [app]; [exact Hp|].
  apply runM_Sp. intro a. simpl. rewrite (comment_ok_shape c H E). exact Hp.
Qed.

Lemma wc_runM_last c : comment_ok c = true -> run_M (write_comment c).
Proof. intro H. rewrite <- app_nil_r. apply wc_runM; [exact H | apply runM_nil]. Qed.

Lemma flows_decl n t ps : plain n = true -> run_M ps -> flows (write_decl n t ++ ps).
Proof.
  intros Hn H. unfold write_decl. rewrite <- app_assoc. cbn [app].
  apply flows_cons_T; [apply plain_tok_shape, Hn|]. apply runM_T; [reflexivity|]. apply fmt_type_runM, H.
Qed.

Lemma write_decl_runM n t ps : plain n = true -> run_M ps -> run_M (write_decl n t ++ ps).
Proof. intros. apply flows_runM, flows_decl; assumption. Qed.

Lemma params_runM ps rest : wf_params ps = true -> run_M rest -> run_M (fmt_params ps ++ rest).
Proof.
  intros H Hr. apply runM_app; auto. apply (runM_args (fun p => write_decl (fst p) (snd p))).
  apply Forall_forall. intros p Hin. rewrite <- app_nil_r.
  apply flows_decl; [apply (proj1 (forallb_forall _ _) H p Hin) | apply runM_nil].
Qed.

(* [b'] empty lines follow the statements [l] (the first has index [i]): none, if the last statement
   is neither blank nor marked in [nl] *)
Definition ends_clean (nl : list nat) (i : nat) (l : list fstmt) (b' : nat) : Prop :=
  l <> [] -> is_blank (last l (SEmpty [])) = false ->
  (forall j, mem_nat (i + j) nl = true -> (S j < List.length l)%nat) -> b' = 0%nat.

Lemma ends_clean_cons nl i s l b' :
  (l = [] -> is_blank s = false -> mem_nat i nl = false -> b' = 0%nat) ->
  ends_clean nl (S i) l b' -> ends_clean nl i (s :: l) b'.
Proof.
  intros H1 Hl _ Hlast Hsucc. destruct l as [|s2 l'].
  - apply H1; auto. destruct (mem_nat i nl) eqn:Em; [|reflexivity].
    specialize (Hsucc 0%nat). rewrite Nat.add_0_r in Hsucc. specialize (Hsucc Em). simpl in Hsucc. lia.
  - apply Hl; [discriminate | exact Hlast |].
    intros j Hm. assert (H := Hsucc (S j)). replace (i + S j)%nat with (S i + j)%nat in H by lia.
    specialize (H Hm). simpl in H. simpl. lia.
Qed.

Section Stmts.
  Variable fx : fixes.

  Lemma args_runM lvl args ps : forallb wf_expr args = true -> run_M ps ->
    run_M (flat_map (fun a => Sp :: fmt_expr fx lvl a) args ++ ps).
  Proof.
    intros H Hp. apply runM_app; auto. apply runM_args. apply Forall_forall. intros a Hin.
    apply flows_expr. apply (proj1 (forallb_forall _ _) H a Hin).
  Qed.

  Lemma flows_range lvl r ps : wf_range r = true -> run_M ps -> flows (fmt_range fx lvl r ++ ps).
  Proof.
    intros H Hp. destruct r as [a b c|e]; cbn [fmt_range wf_range] in *.
    - apply andb_true_iff in H as [H Hc]. apply andb_true_iff in H as [Ha Hb].
      assert (Htail : run_M (match c with Some x => Sp :: fmt_expr fx lvl x | None => [] end ++ ps)).
      { destruct c; cbn [app]; [apply runM_Sp, flows_app; [apply flows_expr, Hc | exact Hp] | exact Hp]. }
      destruct a as [x|]; rewrite <- ?app_assoc; cbn [app].
      + apply flows_app; [apply flows_expr, Ha|]. apply runM_Sp. apply flows_app; [apply flows_expr, Hb | exact Htail].
      + apply flows_app; [apply flows_expr, Hb | exact Htail].
    - apply flows_app; [apply flows_expr, H | exact Hp].
  Qed.

  Definition stmt_flows_ok (s : fstmt) : Prop :=
    forall lvl, wf_stmt s = true -> is_blank s = false -> flows (fmt_stmt fx lvl s).

  (* the loop over a statement list, started at the beginning of a line behind [b] empty lines, ends at
     the beginning of a line; the two hypotheses on [nl] are what [nl_after] provides *)
  Lemma lines_run lvl nl lvl'' l : forall i e b,
    Forall stmt_flows_ok l -> forallb wf_stmt l = true ->
    (b <= 1)%nat ->
    (b = 1%nat -> e = true \/ match l with s :: _ => is_blank s = false | [] => True end) ->
    (forall j s', mem_nat (i + j) nl = true -> nth_error l (S j) = Some s' -> is_blank s' = false) ->
    exists b', prun (PB b) (lines_loop lvl nl i e (map (fun x => (is_blank x, fmt_stmt fx lvl'' x)) l)) = Some (PB b') /\
               ends_clean nl i l b'.
  Proof.
    induction l as [|s l IH]; intros i e b HF Hwf Hb1 Hb Hnl; cbn [map lines_loop].
    - exists b. split; [reflexivity|]. intro H; contradiction.
    - inversion HF as [|? ? Hs HF']; subst. cbn [forallb] in Hwf. apply andb_true_iff in Hwf as [Hw1 Hw2].
      assert (Hnl' : forall j s', mem_nat (S i + j) nl = true -> nth_error l (S j) = Some s' -> is_blank s' = false).
      { intros j s' Hm Hn. apply (Hnl (S j) s'); [replace (i + S j)%nat with (S i + j)%nat by lia; exact Hm | exact Hn]. }
      (* the rest of the list, once the head [hd] of the output has led to the state [PB b1] *)
      assert (Hstep : forall e1 b1 hd, prun (PB b) hd = Some (PB b1) -> (b1 <= 1)%nat ->
                (b1 = 1%nat -> e1 = true \/ match l with s :: _ => is_blank s = false | [] => True end) ->
                (is_blank s = false -> mem_nat i nl = false -> b1 = 0%nat) ->
                exists b', prun (PB b) (hd ++ lines_loop lvl nl (S i) e1 (map (fun x => (is_blank x, fmt_stmt fx lvl'' x)) l))
                           = Some (PB b') /\ ends_clean nl i (s :: l) b').
      { intros e1 b1 hd Hhd Hb1' Hbe Hlast1.
        destruct (IH (S i) e1 b1 HF' Hw2 Hb1' Hbe Hnl') as (b' & Hrun & Hfin).
        exists b'. split; [rewrite prun_app, Hhd; exact Hrun|].
        apply ends_clean_cons; [|exact Hfin]. intros ->. injection Hrun as <-. exact Hlast1. }
      destruct (is_blank s) eqn:Eb.
      + assert (Hb0 : e = false -> b = 0%nat).
        { intros ->. destruct b as [|[|b]]; [reflexivity | | lia]. destruct (Hb eq_refl) as [Hx|Hx]; congruence. }
        apply (Hstep true (if e then b else 1%nat)).
        * destruct e; [reflexivity|]. rewrite (Hb0 eq_refl). reflexivity.
        * destruct e; lia.
        * auto.
        * discriminate.
      + assert (Ehd : forall R, [Ind lvl] ++ fmt_stmt fx lvl'' s ++ [NL] ++ (if mem_nat i nl then [NL] else []) ++ R
                       = ((Ind lvl :: fmt_stmt fx lvl'' s) ++ NL :: (if mem_nat i nl then [NL] else [])) ++ R).
        { intro R. cbn [app]. rewrite <- app_assoc. reflexivity. }
        rewrite Ehd. apply (Hstep false (if mem_nat i nl then 1%nat else 0%nat)).
        * rewrite prun_app, (after_bol_Ind lvl _ (Hs lvl'' Hw1 Eb) b). destruct (mem_nat i nl); reflexivity.
        * destruct (mem_nat i nl); lia.
        * destruct (mem_nat i nl) eqn:Em; [|discriminate]. intros _. right.
          destruct l as [|s2 l']; [exact I|]. apply (Hnl 0%nat s2); [rewrite Nat.add_0_r; exact Em | reflexivity].
        * intros _ Em. rewrite Em. reflexivity.
  Qed.

  Lemma body_runM lvl body k : Forall stmt_flows_ok body -> forallb wf_stmt body = true -> after_bol k ->
    run_M (NL :: stmts_loop (S lvl) false (map (fun x => (is_blank x, fmt_stmt fx (S lvl) x)) body) ++ k).
  Proof.
    intros HF Hwf Hk. unfold run_M. cbn [prun pstep]. rewrite (stmts_loop_lines _ _ 0%nat), prun_app.
    destruct (lines_run (S lvl) [] (S lvl) body 0%nat false 0%nat HF Hwf) as (b' & -> & _);
      try (intros; discriminate); auto.
  Qed.

  Ltac shp := first [reflexivity | apply plain_tok_shape; assumption].

  (* as [ck1] of FormatProofs.v: the rule for the head of a right-nested sequence *)
  Ltac fl1 :=
    lazymatch goal with
    | |- flows (T _ :: _) => apply flows_cons_T; [shp|]
    | |- flows (fmt_expr _ _ _ ++ _) => apply flows_app; [apply flows_expr; assumption|]
    | |- flows (write_decl _ _ ++ _) => apply flows_decl; [assumption|]
    | |- flows (fmt_range _ _ _ ++ _) => apply flows_range; [assumption|]
    | |- run_M [] => apply runM_nil
    | |- run_M (T _ :: _) => apply runM_T; [shp|]
    | |- run_M (Sp :: _) => apply runM_Sp
    | |- run_M (fmt_expr _ _ _ ++ _) => apply runM_app_flows; [apply flows_expr; assumption|]
    | |- run_M (write_comment _ ++ _) => apply wc_runM; [assumption|]
    | |- run_M (write_comment _) => apply wc_runM_last; assumption
    | |- run_M (NL :: stmts_loop _ _ _ ++ _) => apply body_runM; [assumption | assumption |]
    | |- run_M (fmt_type _ ++ _) => apply fmt_type_runM
    | |- run_M (fmt_params _ ++ _) => apply params_runM; [assumption|]
    | |- run_M (flat_map (fun a => Sp :: fmt_expr _ _ a) _ ++ _) => apply args_runM; [assumption|]
    | |- after_bol (Ind _ :: _) => apply after_bol_Ind
    end.
  Ltac fl := repeat fl1.

  Lemma flows_stmt s : stmt_flows_ok s.
  Proof.
    induction s as [c|n t c|n v c|t v c|n a c|v c|c|ifb elifs els cend IHif IHelifs IHels
                   |cond ch body ce IHb|lv r ch body ce IHb|n rt ps v ch body ce IHb|n ps ch body ce IHb]
      using fstmt_ind'; intros lvl Hwf Hnb; cbn [fmt_stmt]; unfold fmt_call; cbn [wf_stmt] in Hwf.
    - cbn [is_blank] in Hnb. unfold write_comment_empty. rewrite Hnb. apply flows_Cm, comment_ok_shape; auto.
    - split_wf. norm. fl.
    - split_wf. norm. fl.
    - split_wf. norm. fl.
    - split_wf. norm. fl.
    - split_wf. destruct v; norm; fl.
    - norm. fl.
    - destruct ifb as [cond c body]. split_wf. cbn [Pblock] in IHif.
      norm. fl.
      match goal with H : forallb _ elifs = true |- _ => apply (flat_map_cont after_bol _ _ _ elifs IHelifs H) end.
      { intros [cond0 c0 body0] k Hcb Hw Hk. cbn [Pblock] in Hcb. split_wf. norm. fl. exact Hk. }
      destruct els as [[c0 body0]|].
      + specialize (IHels c0 body0 eq_refl). split_wf. norm. fl.
      + cbn [app]. fl.
    - split_wf. norm. fl.
    - split_wf. destruct lv; norm; fl.
    - split_wf. destruct rt, v; norm; fl.
    - split_wf. norm. fl.
  Qed.
End Stmts.

Lemma is_blank_kind s : is_blank s = true <-> stmt_kind s = KEmpty.
Proof.
  destruct s; simpl; split; intro H; try discriminate; try reflexivity.
  - rewrite H. reflexivity.
  - destruct (is_empty c); [reflexivity | discriminate].
Qed.

Section Prog.
  Variable fx : fixes.

  Lemma fmt_prog_run p : wf_prog p = true -> p <> [] ->
    exists b', prun (PB 0) (fmt_prog fx p) = Some (PB b') /\ (is_blank (last p (SEmpty [])) = false -> b' = 0%nat).
  Proof.
    intros Hwf Hne. unfold fmt_prog. destruct p as [|s p]; [contradiction|]. rewrite prog_loop_lines.
    set (ks := map stmt_kind (s :: p)).
    destruct (lines_run fx 0 (nl_after (fix_nl fx) ks) 0 (s :: p) 0%nat false 0%nat) as (b' & Hrun & Hfin); auto; try lia.
    - apply Forall_forall. intros x _. apply flows_stmt.
    - intros j s' Hm Hn. cbn [Nat.add] in Hm.
      destruct (nl_after_next_nonblank (fix_nl fx) ks j Hm) as (k & Hk & Hne').
      unfold ks in Hk. rewrite nth_error_map, Hn in Hk. simpl in Hk. injection Hk as <-.
      destruct (is_blank s') eqn:E; [|reflexivity]. apply is_blank_kind in E. congruence.
    - exists b'. split; [exact Hrun|]. intro Hlast. apply Hfin; auto.
      intros j Hm. cbn [Nat.add] in Hm.
      destruct (nl_after_next_nonblank (fix_nl fx) ks j Hm) as (k & Hk & _).
      assert (Hx : nth_error ks (S j) <> None) by congruence.
      apply nth_error_Some in Hx. unfold ks in Hx. rewrite map_length in Hx. exact Hx.
  Qed.

  (* C07: shape of the output, for every well-formed tree *)
  Theorem format_shape p : wf_prog p = true -> shape_lines (format fx p) = true.
  Proof.
    intro Hwf. unfold format. destruct p as [|s p]; [reflexivity|].
    destruct (fmt_prog_run (s :: p) Hwf) as (b' & Hb' & _); [discriminate|]. eapply prun_shape, Hb'.
  Qed.
End Prog.

(* what the state says about the text [s] written so far: behind a token it ends in a character
   other than a newline, at the beginning of a line behind no empty line in exactly one newline *)
Definition inv_txt (a : pst) (s : str) : Prop :=
  match a with
  | PM => exists s' c, s = s' ++ [c] /\ (c =? 10) = false
  | PB 0 => s = [] \/ exists s' c, s = s' ++ [c; 10] /\ (c =? 10) = false
  | _ => True
  end.

Lemma tok_shape_last s : tok_shape s = true -> exists s' c, s = s' ++ [c] /\ (c =? 10) = false.
Proof.
  unfold tok_shape. destruct s as [|c0 s0]; [discriminate|]. intro H.
  apply andb_true_iff in H as [_ H]. destruct (rev (c0 :: s0)) as [|x r] eqn:E; [discriminate|].
  apply negb_true_iff in H. exists (rev r), x. split.
  - rewrite <- (rev_involutive (c0 :: s0)), E. reflexivity.
  - apply (not_space_10_32 x H).
Qed.

Lemma pstep_inv_txt a p a' s : inv_txt a s -> pstep a p = Some a' -> inv_txt a' (s ++ render1 p).
Proof.
  intros Hi Hp. destruct p as [t|t|t| | |n]; cbn [pstep render1] in *.
  1-3: destruct (tok_shape t) eqn:E; [|discriminate]; injection Hp as <-;
       destruct (tok_shape_last t E) as (s' & c & -> & Hc); exists (s ++ s'), c; rewrite app_assoc; auto.
  - destruct a; try discriminate; injection Hp as <-; exact I.
  - destruct a as [[|[|b]]|? ?| |]; try discriminate; injection Hp as <-; try exact I.
    cbn [inv_txt] in Hi |- *. destruct Hi as (s' & c & -> & Hc). right. exists s', c. rewrite <- app_assoc. auto.
  - destruct n as [|n].
    + injection Hp as <-. cbn [spaces Nat.mul repeat]. rewrite app_nil_r. exact Hi.
    + destruct a; try discriminate. injection Hp as <-. exact I.
Qed.

Lemma prun_inv_txt ps : forall a a' s, inv_txt a s -> prun a ps = Some a' -> inv_txt a' (s ++ render ps).
Proof.
  induction ps as [|p ps IH]; intros a a' s Hi Hr.
  - injection Hr as <-. unfold render; simpl. rewrite app_nil_r. exact Hi.
  - cbn [prun] in Hr. destruct (pstep a p) as [a1|] eqn:E; [|discriminate].
    rewrite render_cons, app_assoc. apply (IH a1 a'); auto. apply (pstep_inv_txt a p a1 s Hi E).
Qed.

Lemma ends_one_nl_snoc s c : (c =? 10) = false -> ends_one_nl (s ++ [c; 10]) = true.
Proof. intro H. unfold ends_one_nl. rewrite rev_app_distr. simpl. rewrite H. reflexivity. Qed.

Section Final.
  Variable fx : fixes.

  Theorem format_single_final_newline p : wf_prog p = true -> p <> [] ->
    is_blank (last p (SEmpty [])) = false -> ends_one_nl (format fx p) = true.
  Proof.
    intros Hwf Hne Hlast. destruct (fmt_prog_run fx p Hwf Hne) as (b' & Hrun & Hb). rewrite (Hb Hlast) in Hrun.
    unfold format.
    pose proof (prun_inv_txt _ (PB 0) (PB 0) [] (or_introl eq_refl) Hrun) as Hi.
    cbn [app inv_txt] in Hi. destruct Hi as [Hi|(s' & c & -> & Hc)].
    - (* the text is not empty *)
      exfalso. destruct p as [|s p]; [contradiction|]. unfold fmt_prog in Hi. cbn [prog_loop] in Hi. destruct (is_blank s).
      + cbn [app] in Hi. rewrite render_cons in Hi. cbn [render1 app] in Hi. discriminate Hi.
      + cbn [app] in Hi. rewrite render_cons, render_app in Hi. cbn [render1 spaces Nat.mul repeat app] in Hi.
        rewrite render_cons in Hi. cbn [render1 app] in Hi.
        destruct (render (fmt_stmt fx 0 s)); discriminate Hi.
    - apply ends_one_nl_snoc, Hc.
  Qed.
End Final.

(* the check accepts the formatter's output iff formatting is idempotent on it *)
Lemma check_accepts_own_output parse fx p p' :
  parse (format fx p) = Some p' ->
  (fmt_check parse fx (format fx p) = true <-> format fx p' = format fx p).
Proof.
  intro Hp. unfold fmt_check. rewrite Hp.
  destruct (str_eq_dec (format fx p) (format fx p')) as [E|E]; split; intro H; try discriminate;
    [symmetry; exact E | reflexivity | symmetry in H; contradiction].
Qed.
