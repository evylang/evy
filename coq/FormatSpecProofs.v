(* FormatSpecProofs.v — what the scanner [shape_lines] of Format.v means, line by line
   (the declarative reading of the shape predicate of C07). *)
From Coq Require Import ZArith NArith List Bool Lia Arith.
From EvyV Require Import Base FmtAst Format FormatProofs FormatNlProofs FormatShapeProofs.
Import ListNotations.
Open Scope N_scope.

(* the complete (newline-terminated) lines of a text; [cur] is the line being read *)
Fixpoint clines (cur : str) (s : str) : list str :=
  match s with
  | [] => []
  | c :: r => if c =? 10 then cur :: clines [] r else clines (cur ++ [c]) r
  end.

Definition lines_of (s : str) : list str := clines [] s.

(* a line: empty, or 4k spaces followed by a non-empty text with no white space at either end *)
Definition line_ok (l : str) : Prop :=
  l = [] \/ exists k b, l = spaces (4 * k) ++ b /\ b <> [] /\ is_space (hd 0 b) = false /\ is_space (last b 0) = false.

(* no two consecutive empty lines ([pe]: the line before the list was empty) *)
Fixpoint nde (pe : bool) (ls : list str) : Prop :=
  match ls with
  | [] => True
  | l :: t => ~ (pe = true /\ l = []) /\ nde (match l with [] => true | _ => false end) t
  end.

(* the scanner's state agrees with the line read so far and with whether the line before was empty *)
Definition good (st : shape_st) (cur : str) (pe : bool) : Prop :=
  if at_bol st then cur = spaces (col_spaces st) /\ (pe = true <-> (1 <= blanks st)%nat)
  else exists k b, cur = spaces (4 * k) ++ b /\ b <> [] /\ is_space (hd 0 b) = false
                   /\ last_blank st = is_space (last b 0).

Lemma spaces_snoc n : spaces n ++ [32] = spaces (S n).
Proof. unfold spaces. induction n; simpl; [reflexivity|]. rewrite IHn. reflexivity. Qed.

Lemma hd_snoc (b : str) c : b <> [] -> hd 0 (b ++ [c]) = hd 0 b.
Proof. destruct b; [contradiction | reflexivity]. Qed.

Lemma scan_spec s : forall st cur pe, good st cur pe -> shape_scan st s = true ->
  Forall line_ok (clines cur s) /\ nde pe (clines cur s).
Proof.
  induction s as [|c r IH]; intros st cur pe Hg Hs; [split; constructor|].
  cbn [shape_scan clines] in *. unfold good in Hg.
  destruct (c =? 10) eqn:E10.
  - destruct (at_bol st) eqn:Eb.
    + apply andb_true_iff in Hs as [Hs Hr]. apply andb_true_iff in Hs as [Hc Hb].
      apply Nat.eqb_eq in Hc, Hb. destruct Hg as [-> Hpe]. rewrite Hc. cbn [spaces repeat].
      eapply IH with (cur := []) (pe := true) in Hr as [H1 H2].
      2:{ unfold good. cbn. split; [reflexivity|]. split; [intros _; lia | reflexivity]. }
      split; [constructor; [left; reflexivity | exact H1]|].
      cbn [nde]. split; [|exact H2]. intros [Hp _]. apply Hpe in Hp. lia.
    + apply andb_true_iff in Hs as [Hl Hr]. apply negb_true_iff in Hl.
      destruct Hg as (k & b & -> & Hne & Hh & Hlast).
      eapply IH with (cur := []) (pe := false) in Hr as [H1 H2].
      2:{ unfold good. cbn. split; [reflexivity|]. split; [discriminate | lia]. }
      assert (Hcur : spaces (4 * k) ++ b <> []) by (destruct (spaces (4 * k)); destruct b; try discriminate; contradiction).
      split.
      * constructor; [|exact H1]. right. exists k, b. repeat split; auto. congruence.
      * cbn [nde]. split; [intros [_ Hx]; contradiction|].
        destruct (spaces (4 * k) ++ b) eqn:E; [contradiction | exact H2].
  - destruct (at_bol st) eqn:Eb.
    + destruct Hg as [-> Hpe]. destruct (c =? 32) eqn:E32.
      * apply N.eqb_eq in E32. subst c. eapply IH with (pe := pe); [|exact Hs].
        unfold good. cbn. rewrite spaces_snoc. split; [reflexivity | exact Hpe].
      * apply andb_true_iff in Hs as [Hs Hr]. apply andb_true_iff in Hs as [Hsp Hmod].
        apply negb_true_iff in Hsp. apply Nat.eqb_eq in Hmod.
        eapply IH with (pe := pe); [|exact Hr]. unfold good. cbn [at_bol last_blank].
        exists (col_spaces st / 4)%nat, [c]. repeat split; auto; try discriminate.
        f_equal. f_equal. apply Nat.div_exact in Hmod; [exact Hmod | discriminate].
    + destruct Hg as (k & b & -> & Hne & Hh & Hlast).
      eapply IH with (pe := pe); [|exact Hs]. unfold good. cbn.
      exists k, (b ++ [c]). rewrite <- app_assoc. repeat split; auto.
      * destruct b; discriminate.
      * rewrite hd_snoc by exact Hne. exact Hh.
      * rewrite last_last. reflexivity.
Qed.

Theorem shape_lines_spec s : shape_lines s = true ->
  Forall line_ok (lines_of s) /\ nde false (lines_of s).
Proof.
  intro H. apply (scan_spec s _ [] false) in H; [exact H|].
  unfold good. cbn. split; [reflexivity|]. split; [discriminate | lia].
Qed.

(* and [ends_one_nl]: the text is one or more lines, the last of which is complete and, unless it is the only one, not empty *)
Lemma ends_one_nl_spec s : ends_one_nl s = true ->
  s = [10] \/ exists t c, s = t ++ [c; 10] /\ c <> 10.
Proof.
  unfold ends_one_nl. destruct (rev s) as [|a [|b r]] eqn:E; [discriminate| |].
  - intro H. apply N.eqb_eq in H. subst a. left.
    rewrite <- (rev_involutive s), E. reflexivity.
  - intro H. apply andb_true_iff in H as [Ha Hb]. apply N.eqb_eq in Ha. subst a.
    apply negb_true_iff in Hb. right. exists (rev r), b. split.
    + rewrite <- (rev_involutive s), E. simpl. rewrite <- app_assoc. reflexivity.
    + intro Hx. subst b. discriminate.
Qed.

Theorem format_lines_ok (fx : fixes) (p : fprog) : wf_prog p = true ->
  Forall line_ok (lines_of (format fx p)) /\ nde false (lines_of (format fx p)).
Proof. intro H. apply shape_lines_spec, format_shape, H. Qed.
