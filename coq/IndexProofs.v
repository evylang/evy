(* IndexProofs.v — lemmas about Index.v (model of normalizeIndex & friends).
   The only facts about binary64 are in [rt_all]: the integer that survives Go's
   int(f) / float64(i) round trip ([go_index_int f]) is the integer the float
   denotes (decoded from Prim2SF) when it fits in int64 ([float_int f]).
   Everything after it is stated against reference functions written with
   [float_int] and proved over Z. *)
From Coq Require Import ZArith NArith List Bool Floats Lia ZifyBool ZifyNat ZifyN Zpower.
From EvyV Require Import Base Index.
Import ListNotations.
Open Scope Z_scope.

Lemma zlen_nonneg {A} (s : list A) : 0 <= zlen s.
Proof. unfold zlen. lia. Qed.

Lemma zlen_bounds {A} (s : list A) : zlen s < 2 ^ 63 -> 0 <= zlen s < 2 ^ 63.
Proof. pose proof (zlen_nonneg s). lia. Qed.

Lemma go_nth_in {A} (s : list A) i :
  0 <= i < zlen s -> exists x, go_nth s i = Some x /\ nth_error s (Z.to_nat i) = Some x.
Proof.
  intros H. unfold go_nth. destruct (i <? 0) eqn:E; [lia|].
  destruct (nth_error s (Z.to_nat i)) eqn:N.
  - eauto.
  - apply nth_error_None in N. unfold zlen in H. lia.
Qed.

Lemma go_nth_some {A} (s : list A) i x :
  go_nth s i = Some x -> 0 <= i < zlen s /\ nth_error s (Z.to_nat i) = Some x.
Proof.
  unfold go_nth. destruct (i <? 0) eqn:E; [discriminate|]. intros H. split; [|exact H].
  assert (Z.to_nat i < List.length s)%nat by (apply nth_error_Some; congruence).
  unfold zlen. lia.
Qed.

Lemma list_update_spec {A} (s : list A) n v :
  (n < List.length s)%nat ->
  exists s', list_update s n v = Some s' /\ List.length s' = List.length s /\
             nth_error s' n = Some v /\ (forall m, m <> n -> nth_error s' m = nth_error s m).
Proof.
  revert n. induction s as [|x t IH]; intros n H; simpl in H; [lia|].
  destruct n as [|n].
  - exists (v :: t). simpl. repeat split; auto. intros [|m] Hm; [congruence|reflexivity].
  - destruct (IH n) as (t' & E & L & N & F); [lia|].
    exists (x :: t'). simpl. rewrite E. repeat split; auto.
    intros [|m] Hm; simpl; [reflexivity|]. apply F. congruence.
Qed.

Lemma list_update_none {A} (s : list A) n v :
  (List.length s <= n)%nat -> list_update s n v = None.
Proof.
  revert n. induction s as [|x t IH]; intros n H; simpl; [reflexivity|].
  destruct n as [|n]; simpl in H; [lia|]. rewrite IH; [reflexivity|lia].
Qed.

Lemma list_update_some {A} (s s' : list A) n v :
  list_update s n v = Some s' -> (n < List.length s)%nat.
Proof.
  intros H. destruct (Nat.lt_ge_cases n (List.length s)) as [L|L]; [exact L|].
  rewrite list_update_none in H by exact L. discriminate.
Qed.

Lemma nth_error_ext {A} (a b : list A) :
  (forall n, nth_error a n = nth_error b n) -> a = b.
Proof.
  revert b. induction a as [|x a IH]; intros [|y b] H.
  - reflexivity.
  - specialize (H O). discriminate.
  - specialize (H O). discriminate.
  - f_equal.
    + specialize (H O). simpl in H. congruence.
    + apply IH. intros n. exact (H (S n)).
Qed.

Lemma skipn_nth_error {A} (l : list A) : forall k y, nth_error l k = Some y -> skipn k l = y :: skipn (S k) l.
Proof.
  induction l as [|z l IHl]; intros [|k] y Hy; simpl in *; try discriminate.
  - congruence.
  - rewrite (IHl k y Hy). reflexivity.
Qed.

Lemma nth_error_firstn_lt {A} (l : list A) : forall m k,
  (k < m)%nat -> nth_error (firstn m l) k = nth_error l k.
Proof.
  induction l as [|x l IH]; intros [|m] [|k] H; simpl; try reflexivity; try lia.
  apply IH. lia.
Qed.

Lemma nth_error_skipn_add {A} (l : list A) : forall m k,
  nth_error (skipn m l) k = nth_error l (m + k).
Proof.
  induction l as [|x l IH]; intros [|m] k; simpl; try reflexivity.
  - destruct k; reflexivity.
  - apply IH.
Qed.

Lemma slice_loop_spec {A} (copy : A -> A) (s : list A) (n : nat) : forall i,
  0 <= i -> i + Z.of_nat n <= zlen s ->
  slice_loop copy s i n = Some (map copy (firstn n (skipn (Z.to_nat i) s))).
Proof.
  induction n as [|n IH]; intros i H0 H1; simpl; [reflexivity|].
  destruct (go_nth_in s i) as (x & E & N); [lia|]. rewrite E.
  rewrite IH by lia.
  replace (Z.to_nat (i + 1)) with (S (Z.to_nat i)) by lia.
  rewrite (skipn_nth_error s _ x N). reflexivity.
Qed.

Lemma slice_loop_length {A} (copy : A -> A) (s : list A) n i r :
  slice_loop copy s i n = Some r -> List.length r = n.
Proof.
  revert i r. induction n as [|n IH]; intros i r; simpl.
  - intros H. inversion H. reflexivity.
  - destruct (go_nth s i); [|discriminate].
    destruct (slice_loop copy s (i + 1) n) eqn:E; [|discriminate].
    intros H. inversion H. simpl. f_equal. eapply IH. exact E.
Qed.

(* the integer that passes the test  index.V == float64(int(index.V)) *)
Definition go_index_int (f : float) : option Z :=
  let i := go_int f in
  if PrimFloat.eqb f (go_float64 i) then Some i else None.

(* the integer denoted by f (Prim2SF decoding, Base.float_to_Z) if it fits in int64 *)
Definition float_int (f : float) : option Z :=
  match float_to_Z f with
  | Some i => if in_int64 i then Some i else None
  | None => None
  end.

Definition rt (f : float) : Prop := go_index_int f = float_int f.

Lemma digits2_bounds p :
  2 ^ (Z.pos (SpecFloat.digits2_pos p) - 1) <= Z.pos p < 2 ^ Z.pos (SpecFloat.digits2_pos p).
Proof.
  induction p as [p IH|p IH|]; cbn [SpecFloat.digits2_pos].
  3: simpl; lia.
  all: rewrite Pos2Z.inj_succ;
    replace (Z.succ (Z.pos (SpecFloat.digits2_pos p)) - 1) with (Z.succ (Z.pos (SpecFloat.digits2_pos p) - 1)) by lia;
    rewrite !Z.pow_succ_r by lia; lia.
Qed.

Lemma digits2_unique p d :
  2 ^ (d - 1) <= Z.pos p < 2 ^ d -> Z.pos (SpecFloat.digits2_pos p) = d.
Proof.
  intros [L U]. pose proof (digits2_bounds p) as [L' U'].
  set (D := Z.pos (SpecFloat.digits2_pos p)) in *.
  assert (0 < D) by (unfold D; lia).
  assert (0 <= d).
  { destruct (Z.lt_ge_cases d 0) as [N|N]; [|lia]. rewrite (Z.pow_neg_r 2 d N) in U. lia. }
  destruct (Z.lt_trichotomy D d) as [C|[C|C]]; [|exact C|].
  - (* D < d : p < 2^D <= 2^(d-1) <= p *)
    assert (2 ^ D <= 2 ^ (d - 1)) by (apply Z.pow_le_mono_r; lia). lia.
  - assert (2 ^ d <= 2 ^ (D - 1)) by (apply Z.pow_le_mono_r; lia). lia.
Qed.

Lemma digits2_shift k p :
  SpecFloat.digits2_pos (shift_pos k p) = (SpecFloat.digits2_pos p + k)%positive.
Proof.
  unfold shift_pos. induction k as [|k IH] using Pos.peano_ind.
  - simpl. lia.
  - rewrite Pos.iter_succ. cbn [SpecFloat.digits2_pos]. rewrite IH. lia.
Qed.

Lemma shift_pos_Z k p : Z.pos (shift_pos k p) = Z.pos p * 2 ^ Z.pos k.
Proof. rewrite shift_pos_correct. rewrite Zpower_pos_nat, Zpower_nat_Z, positive_nat_Z. lia. Qed.

(* rounding an already canonical mantissa is the identity *)
Lemma binary_round_aux_exact sx mz ez :
  SpecFloat.digits2_pos mz = 53%positive -> -1074 <= ez <= 971 ->
  SpecFloat.binary_round_aux 53 1024 sx (Z.pos mz) ez SpecFloat.loc_Exact = SpecFloat.S754_finite sx mz ez.
Proof.
  intros Hd He.
  assert (F : SpecFloat.fexp 53 1024 (53 + ez) - ez = 0) by (unfold SpecFloat.fexp, SpecFloat.emin; lia).
  unfold SpecFloat.binary_round_aux, SpecFloat.shr_fexp.
  cbn [SpecFloat.Zdigits2 SpecFloat.shr_record_of_loc]. rewrite Hd, F.
  cbn [SpecFloat.shr SpecFloat.shr_m SpecFloat.loc_of_shr_record SpecFloat.round_nearest_even SpecFloat.Zdigits2 SpecFloat.shr_record_of_loc].
  rewrite Hd, F. cbn [SpecFloat.shr SpecFloat.shr_m].
  replace (Zle_bool ez (1024 - 53)) with true; [reflexivity|].
  symmetry. apply Zle_imp_le_bool. lia.
Qed.

(* integers with at most 53 significant bits are represented exactly *)
Lemma binary_round_small sx p :
  Z.pos (SpecFloat.digits2_pos p) <= 53 ->
  exists m e, SpecFloat.binary_round 53 1024 sx p 0 = SpecFloat.S754_finite sx m e /\
              SpecFloat.digits2_pos m = 53%positive /\ -52 <= e <= 0 /\
              Z.pos m = Z.pos p * 2 ^ (- e) /\ e = Z.pos (SpecFloat.digits2_pos p) - 53.
Proof.
  intros Hd. set (d := SpecFloat.digits2_pos p) in *.
  unfold SpecFloat.binary_round, SpecFloat.shl_align. fold d.
  assert (F : SpecFloat.fexp 53 1024 (Z.pos d + 0) = Z.pos d - 53) by (unfold SpecFloat.fexp, SpecFloat.emin; lia).
  rewrite F.
  destruct (Z.pos d - 53 - 0) as [|q|q] eqn:E.
  - (* d = 53 *)
    exists p, 0. rewrite binary_round_aux_exact; [|unfold d in *; lia|lia].
    change (- 0) with 0. rewrite Z.pow_0_r.
    repeat split; try reflexivity; try (unfold d in *; lia).
  - lia.
  - exists (shift_pos q p), (Z.pos d - 53).
    rewrite binary_round_aux_exact.
    + split; [reflexivity|]. split; [rewrite digits2_shift; fold d; lia|].
      split; [lia|]. split; [|reflexivity].
      rewrite shift_pos_Z. f_equal. f_equal. lia.
    + rewrite digits2_shift. fold d. lia.
    + lia.
Qed.

Lemma SFeqb_finite s1 m1 e1 s2 m2 e2 :
  SpecFloat.SFeqb (SpecFloat.S754_finite s1 m1 e1) (SpecFloat.S754_finite s2 m2 e2) = true <->
  s1 = s2 /\ m1 = m2 /\ e1 = e2.
Proof.
  unfold SpecFloat.SFeqb, SpecFloat.SFcompare.
  destruct s1, s2; split; try (intros H; discriminate H); try (intros (H & _); discriminate H).
  2,4: intros (_ & -> & ->); rewrite Z.compare_refl, Pos.compare_cont_refl; reflexivity.
  all: destruct (Z.compare_spec e1 e2) as [E|E|E]; try discriminate;
    destruct (Pos.compare_cont Eq m1 m2) eqn:C; simpl; try discriminate;
    intros _; apply Pos.compare_eq in C; auto.
Qed.

Fixpoint niter {A} (n : nat) (g : A -> A) (x : A) : A :=
  match n with O => x | S n' => niter n' g (g x) end.

Lemma niter_add {A} (g : A -> A) a : forall b x, niter (a + b) g x = niter b g (niter a g x).
Proof. induction a as [|a IH]; intros b x; simpl; [reflexivity|apply IH]. Qed.

Lemma iter_pos_niter {A} (g : A -> A) p : forall x,
  SpecFloat.iter_pos g p x = niter (Pos.to_nat p) g x.
Proof.
  induction p as [p IH|p IH|]; intros x; cbn [SpecFloat.iter_pos].
  - rewrite !IH, Pos2Nat.inj_xI. simpl. rewrite Nat.add_0_r, niter_add. reflexivity.
  - rewrite !IH, Pos2Nat.inj_xO. simpl. rewrite Nat.add_0_r, niter_add. reflexivity.
  - reflexivity.
Qed.

Lemma niter_shr_shift n : forall m,
  niter n SpecFloat.shr_1 {| SpecFloat.shr_m := Z.pos (shift_nat n m); SpecFloat.shr_r := false; SpecFloat.shr_s := false |}
  = {| SpecFloat.shr_m := Z.pos m; SpecFloat.shr_r := false; SpecFloat.shr_s := false |}.
Proof.
  induction n as [|n IH]; intros m; [reflexivity|].
  cbn [niter shift_nat nat_rect SpecFloat.shr_1 orb]. apply IH.
Qed.

Lemma shr_fexp_shift k m :
  SpecFloat.digits2_pos m = 53%positive ->
  SpecFloat.shr_fexp 53 1024 (Z.pos (shift_pos k m)) 0 SpecFloat.loc_Exact =
  ({| SpecFloat.shr_m := Z.pos m; SpecFloat.shr_r := false; SpecFloat.shr_s := false |}, Z.pos k).
Proof.
  intros Hd. unfold SpecFloat.shr_fexp. cbn [SpecFloat.Zdigits2 SpecFloat.shr_record_of_loc].
  rewrite digits2_shift, Hd.
  assert (F : SpecFloat.fexp 53 1024 (Z.pos (53 + k) + 0) - 0 = Z.pos k) by (unfold SpecFloat.fexp, SpecFloat.emin; lia).
  rewrite F. cbn [SpecFloat.shr]. rewrite iter_pos_niter, shift_pos_nat, niter_shr_shift. reflexivity.
Qed.

(* an integer m * 2^k with a full 53-bit m is represented exactly *)
Lemma binary_round_shift sx k m :
  SpecFloat.digits2_pos m = 53%positive -> Z.pos k <= 971 ->
  SpecFloat.binary_round 53 1024 sx (shift_pos k m) 0 = SpecFloat.S754_finite sx m (Z.pos k).
Proof.
  intros Hd Hk. unfold SpecFloat.binary_round, SpecFloat.shl_align.
  rewrite digits2_shift, Hd.
  assert (F : SpecFloat.fexp 53 1024 (Z.pos (53 + k) + 0) - 0 = Z.pos k) by (unfold SpecFloat.fexp, SpecFloat.emin; lia).
  rewrite F.
  rewrite <- (binary_round_aux_exact sx m (Z.pos k) Hd) by lia.
  unfold SpecFloat.binary_round_aux. rewrite (shr_fexp_shift k m Hd).
  assert (G : SpecFloat.shr_fexp 53 1024 (Z.pos m) (Z.pos k) SpecFloat.loc_Exact =
              ({| SpecFloat.shr_m := Z.pos m; SpecFloat.shr_r := false; SpecFloat.shr_s := false |}, Z.pos k)).
  { unfold SpecFloat.shr_fexp. cbn [SpecFloat.Zdigits2 SpecFloat.shr_record_of_loc]. rewrite Hd.
    assert (F' : SpecFloat.fexp 53 1024 (53 + Z.pos k) - Z.pos k = 0) by (unfold SpecFloat.fexp, SpecFloat.emin; lia).
    rewrite F'. reflexivity. }
  rewrite G. reflexivity.
Qed.

Lemma valid_finite s m e :
  SpecFloat.valid_binary 53 1024 (SpecFloat.S754_finite s m e) = true ->
  SpecFloat.fexp 53 1024 (Z.pos (SpecFloat.digits2_pos m) + e) = e /\ e <= 971.
Proof.
  cbn [SpecFloat.valid_binary]. unfold SpecFloat.bounded, SpecFloat.canonical_mantissa.
  intros H. apply andb_true_iff in H as [H1 H2].
  apply Zeq_bool_eq in H1. apply Zle_bool_imp_le in H2. lia.
Qed.

Lemma finite_valid s m e :
  SpecFloat.digits2_pos m = 53%positive -> -1074 <= e <= 971 ->
  SpecFloat.valid_binary 53 1024 (SpecFloat.S754_finite s m e) = true.
Proof.
  intros Hd He. cbn [SpecFloat.valid_binary]. unfold SpecFloat.bounded, SpecFloat.canonical_mantissa.
  rewrite Hd. apply andb_true_iff. split.
  - apply Zeq_is_eq_bool. unfold SpecFloat.fexp, SpecFloat.emin. lia.
  - apply Zle_imp_le_bool. lia.
Qed.

Definition signed (s : bool) (p : positive) : Z := if s then Z.neg p else Z.pos p.

Lemma float_of_Z_signed s p :
  float_of_Z (signed s p) = SF2Prim (SpecFloat.binary_round 53 1024 s p 0).
Proof. destruct s; reflexivity. Qed.

Lemma Prim2SF_float_of_Z_small s p :
  Z.pos (SpecFloat.digits2_pos p) <= 53 ->
  exists m e, Prim2SF (float_of_Z (signed s p)) = SpecFloat.S754_finite s m e /\
              Z.pos m = Z.pos p * 2 ^ (- e) /\ e = Z.pos (SpecFloat.digits2_pos p) - 53.
Proof.
  intros Hd. destruct (binary_round_small s p Hd) as (m & e & R & Dm & He & Hm & Ee).
  exists m, e. rewrite float_of_Z_signed, R.
  rewrite Prim2SF_SF2Prim by (apply finite_valid; [exact Dm|lia]). auto.
Qed.

Lemma Prim2SF_float_of_Z_shift s k m :
  SpecFloat.digits2_pos m = 53%positive -> Z.pos k <= 971 ->
  Prim2SF (float_of_Z (signed s (shift_pos k m))) = SpecFloat.S754_finite s m (Z.pos k).
Proof.
  intros Hd Hk. rewrite float_of_Z_signed, binary_round_shift by assumption.
  apply Prim2SF_SF2Prim. apply finite_valid; [exact Hd|lia].
Qed.

Lemma Prim2SF_min_int64 :
  Prim2SF (float_of_Z min_int64) = SpecFloat.S754_finite true 4503599627370496 11.
Proof. vm_compute. reflexivity. Qed.

Lemma SFeqb_refl_finite s m e :
  SpecFloat.SFeqb (SpecFloat.S754_finite s m e) (SpecFloat.S754_finite s m e) = true.
Proof. apply SFeqb_finite. auto. Qed.

Lemma signed_cases s p : signed s p = (if s then - Z.pos p else Z.pos p).
Proof. destruct s; reflexivity. Qed.

(* the round trip  f == float64(int(f))  accepts exactly the integers of int64 *)
Lemma rt_all f : rt f.
Proof.
  unfold rt, go_index_int, float_int, go_int, float_to_Z, go_float64.
  rewrite eqb_spec.
  pose proof (Prim2SF_valid f) as V. unfold valid_binary, FloatOps.prec, FloatOps.emax in V.
  destruct (Prim2SF f) as [s|s| |s m e] eqn:P.
  - (* zero *) destruct s; vm_compute; reflexivity.
  - (* infinity *) destruct s; vm_compute; reflexivity.
  - (* nan *) vm_compute; reflexivity.
  - (* finite *)
    apply (valid_finite s m e) in V as [C E971].
    pose proof (digits2_bounds m) as [BL BU].
    set (D := Z.pos (SpecFloat.digits2_pos m)) in *.
    assert (HD : D = 53 \/ (e = -1074 /\ D <= 53)).
    { unfold SpecFloat.fexp, SpecFloat.emin in C. lia. }
    cbn [sf_trunc].
    destruct (0 <=? e) eqn:Ee.
    + (* e >= 0 : an integer, |f| >= 2^52 *)
      assert (D53 : D = 53) by lia. rewrite D53 in *.
      assert (Dm : SpecFloat.digits2_pos m = 53%positive) by (unfold D in D53; lia).
      set (T := Z.pos m * 2 ^ e).
      assert (P2e : 1 <= 2 ^ e) by (apply (Z.pow_le_mono_r 2 0 e); lia).
      assert (TL : 2 ^ 52 <= T) by (unfold T; nia).
      destruct (in_int64 (if s then - T else T)) eqn:I64.
      * (* fits: e <= 11 and the conversion back is exact *)
        assert (Hrep : Prim2SF (float_of_Z (if s then - T else T)) = SpecFloat.S754_finite s m e).
        { destruct e as [|k|k]; [| |lia].
          - (* e = 0 *)
            destruct (Prim2SF_float_of_Z_small s m) as (m' & e' & R & Hm & He); [fold D; lia|].
            fold D in He. rewrite D53 in He. replace e' with 0 in * by lia.
            change (- 0) with 0 in Hm. rewrite Z.pow_0_r, Z.mul_1_r in Hm.
            assert (m' = m) by lia. subst m'.
            unfold T. rewrite Z.pow_0_r, Z.mul_1_r. rewrite <- signed_cases. exact R.
          - unfold T. rewrite <- shift_pos_Z, <- signed_cases.
            apply Prim2SF_float_of_Z_shift; [exact Dm|lia]. }
        rewrite Hrep, SFeqb_refl_finite. reflexivity.
      * (* does not fit: int(f) is the indefinite value, and f is not -2^63 *)
        rewrite Prim2SF_min_int64.
        destruct (SpecFloat.SFeqb (SpecFloat.S754_finite s m e) (SpecFloat.S754_finite true 4503599627370496 11)) eqn:Q; [|reflexivity].
        apply (SFeqb_finite s m e true 4503599627370496 11) in Q as (-> & -> & ->). vm_compute in I64. discriminate.
    + (* e < 0 *)
      assert (Eneg : e < 0) by lia.
      set (d := 2 ^ (- e)).
      assert (Dpos : 0 < d) by (apply Z.pow_pos_nonneg; lia).
      set (q := Z.pos m / d). set (r := Z.pos m mod d).
      assert (Hdiv : Z.pos m = d * q + r /\ 0 <= r < d).
      { split; [apply Z.div_mod; lia|apply Z.mod_pos_bound; lia]. }
      destruct Hdiv as [Hdiv Hr].
      assert (Hq0 : 0 <= q) by (apply Z.div_pos; lia).
      assert (P53 : 2 ^ D <= 2 ^ 53) by (apply Z.pow_le_mono_r; lia).
      assert (Hqm : q <= Z.pos m) by nia.
      assert (I64 : in_int64 (if s then - q else q) = true).
      { unfold in_int64, min_int64. destruct s; lia. }
      rewrite I64.
      destruct (Z.eq_dec q 0) as [Q0|Q0].
      * (* |f| < 1 : truncates to 0, f is not an integer *)
        rewrite Q0. replace (if s then - 0 else 0) with 0 by (destruct s; reflexivity).
        assert (r <> 0) by lia.
        replace (r =? 0) with false by lia.
        replace (Prim2SF (float_of_Z 0)) with (SpecFloat.S754_zero false) by (vm_compute; reflexivity).
        destruct s; reflexivity.
      * destruct q as [|p|p] eqn:Hq; [lia| |lia].
        assert (Dp : Z.pos (SpecFloat.digits2_pos p) <= 53).
        { pose proof (digits2_bounds p) as [L _].
          assert (2 ^ (Z.pos (SpecFloat.digits2_pos p) - 1) < 2 ^ 53) by lia.
          apply Z.pow_lt_mono_r_iff in H; lia. }
        destruct (Prim2SF_float_of_Z_small s p Dp) as (m' & e' & R & Hm & He).
        rewrite <- signed_cases, R.
        destruct (r =? 0) eqn:R0.
        -- (* an integer below 2^53 *)
           assert (r = 0) by lia.
           assert (D53 : D = 53).
           { destruct HD as [H53|[Em Dle]]; [exact H53|].
             assert (2 ^ 53 <= d) by (unfold d; apply Z.pow_le_mono_r; lia). nia. }
           rewrite D53 in *.
           (* digits p = 53 + e *)
           assert (Epe : 0 <= 53 + e).
           { destruct (Z.lt_ge_cases (53 + e) 0) as [N|N]; [|lia].
             assert (2 ^ 53 <= d) by (unfold d; apply Z.pow_le_mono_r; lia). nia. }
           assert (S1 : 2 ^ 53 = 2 ^ (53 + e) * d).
           { unfold d. rewrite <- Z.pow_add_r by lia. f_equal. lia. }
           assert (Dpe : Z.pos (SpecFloat.digits2_pos p) = 53 + e).
           { apply digits2_unique. split.
             - destruct (Z.eq_dec (53 + e) 0) as [Z0|NZ].
               + replace (53 + e - 1) with (-1) by lia. rewrite Z.pow_neg_r by lia. lia.
               + assert (S2 : 2 ^ 52 = 2 ^ (53 + e - 1) * d).
                 { unfold d. rewrite <- Z.pow_add_r by lia. f_equal. lia. }
                 change (53 - 1) with 52 in BL. nia.
             - nia. }
           assert (He' : e' = e) by lia. clear He. subst e'.
           fold d in Hm. assert (m' = m) by nia. subst m'.
           rewrite SFeqb_refl_finite. rewrite signed_cases. cbn iota beta. rewrite I64. reflexivity.
        -- (* not an integer: the exact float of the truncation differs from f *)
           assert (r <> 0) by lia.
           destruct (SpecFloat.SFeqb (SpecFloat.S754_finite s m e) (SpecFloat.S754_finite s m' e')) eqn:Q; [|reflexivity].
           apply (SFeqb_finite s m e s m' e') in Q as (_ & <- & <-).
           fold d in Hm. exfalso. nia.
Qed.

(* reference written from the statement: the index must denote an integer
   (that Go's int can hold), lie in [-n, limit], negative counts from the end *)
Definition idx_ref (n limit : Z) (f : float) : res Z :=
  match float_int f with
  | None => Panic EIndexValue
  | Some i => if (- n <=? i) && (i <=? limit) then Ok (if i <? 0 then i + n else i) else Panic EBounds
  end.

Lemma float_int_some f i :
  float_int f = Some i <-> float_to_Z f = Some i /\ - 2 ^ 63 <= i < 2 ^ 63.
Proof.
  unfold float_int, in_int64, min_int64. destruct (float_to_Z f) as [j|].
  - destruct ((- 2 ^ 63 <=? j) && (j <? 2 ^ 63)) eqn:E; split.
    + intros H. inversion H; subst. split; [reflexivity|lia].
    + intros [H _]. exact H.
    + discriminate.
    + intros [H R]. inversion H; subst. lia.
  - split; [discriminate|intros [H _]; discriminate].
Qed.

Lemma float_int_none f :
  float_int f = None <->
  float_to_Z f = None \/ exists i, float_to_Z f = Some i /\ ~ (- 2 ^ 63 <= i < 2 ^ 63).
Proof.
  unfold float_int, in_int64, min_int64. destruct (float_to_Z f) as [j|].
  - destruct ((- 2 ^ 63 <=? j) && (j <? 2 ^ 63)) eqn:E; split.
    + discriminate.
    + intros [H|(i & H & R)]; [discriminate|]. inversion H; subst. lia.
    + intros _. right. exists j. split; [reflexivity|lia].
    + reflexivity.
  - split; [intros _; left; reflexivity|reflexivity].
Qed.

Lemma normalize_index_go f n slice :
  normalize_index f n slice =
  match go_index_int f with
  | None => Panic EIndexValue
  | Some i => if (- n <=? i) && (i <=? (if slice then n else n - 1))
              then Ok (if i <? 0 then i + n else i) else Panic EBounds
  end.
Proof.
  unfold normalize_index, go_index_int.
  destruct (PrimFloat.eqb f (go_float64 (go_int f))); cbn [negb]; [|reflexivity].
  set (i := go_int f).
  destruct slice;
    repeat match goal with |- context [if ?b then _ else _] => destruct b eqn:? end;
    try reflexivity; try lia; f_equal; lia.
Qed.

Lemma normalize_index_ref_rt f n slice :
  rt f -> normalize_index f n slice = idx_ref n (if slice then n else n - 1) f.
Proof. intros H. rewrite normalize_index_go, H. reflexivity. Qed.

Lemma normalize_index_ref f n slice :
  normalize_index f n slice = idx_ref n (if slice then n else n - 1) f.
Proof. apply normalize_index_ref_rt, rt_all. Qed.

Lemma idx_ref_ok n limit f v :
  idx_ref n limit f = Ok v <->
  exists i, float_int f = Some i /\ - n <= i <= limit /\ v = (if i <? 0 then i + n else i).
Proof.
  unfold idx_ref. destruct (float_int f) as [j|].
  - destruct ((- n <=? j) && (j <=? limit)) eqn:E; split.
    + intros H. inversion H. exists j. repeat split; lia.
    + intros (i & H & R & ->). inversion H; subst. reflexivity.
    + discriminate.
    + intros (i & H & R & _). inversion H; subst. lia.
  - split; [discriminate|intros (i & H & _); discriminate].
Qed.

Lemma idx_ref_panic n limit f e :
  idx_ref n limit f = Panic e <->
  (e = EIndexValue /\ float_int f = None) \/
  (e = EBounds /\ exists i, float_int f = Some i /\ ~ (- n <= i <= limit)).
Proof.
  unfold idx_ref. destruct (float_int f) as [j|].
  - destruct ((- n <=? j) && (j <=? limit)) eqn:E; split.
    + discriminate.
    + intros [[_ H]|(_ & i & H & R)]; [discriminate|]. inversion H; subst. lia.
    + intros H. inversion H. right. split; [reflexivity|]. exists j. split; [reflexivity|lia].
    + intros [[_ H]|(-> & _)]; [discriminate|reflexivity].
  - split.
    + intros H. inversion H. left. auto.
    + intros [[-> _]|(_ & i & H & _)]; [reflexivity|discriminate].
Qed.

Lemma idx_ref_no_crash n limit f : idx_ref n limit f <> HostCrash.
Proof. unfold idx_ref. destruct (float_int f); [destruct (_ && _)|]; discriminate. Qed.

Lemma mod_norm n i : - n <= i < n -> i mod n = (if i <? 0 then i + n else i).
Proof.
  intros H. destruct (i <? 0) eqn:E.
  - rewrite <- (Z.mod_add i 1 n) by lia. rewrite Z.mul_1_l. apply Z.mod_small. lia.
  - apply Z.mod_small. lia.
Qed.

Section IndexSpec.
  Context {A : Type}.
  Variable s : list A.
  Variable f : float.
  Hypothesis Hlen : zlen s < 2 ^ 63.     (* a Go slice length is at most maxInt *)
  Hypothesis Hrt : rt f.
  Let n := zlen s.

  (* an accepted index is a position of s *)
  Lemma idx_ref_pos w : idx_ref n (n - 1) f = Ok w -> 0 <= w < n /\ (Z.to_nat w < List.length s)%nat.
  Proof.
    intros E. apply idx_ref_ok in E as (i & _ & R & ->). unfold n, zlen in *. destruct (i <? 0) eqn:?; lia.
  Qed.

  (* ... namely i mod n for the integer i the float denotes *)
  Lemma idx_ref_mod w :
    idx_ref n (n - 1) f = Ok w <-> exists i, float_to_Z f = Some i /\ - n <= i < n /\ w = i mod n.
  Proof.
    rewrite idx_ref_ok. split; intros (i & Hi & R & ->); exists i; rewrite mod_norm by lia.
    - apply float_int_some in Hi as [Hi _]. repeat split; auto; lia.
    - pose proof (zlen_nonneg s). repeat split; try lia.
      apply float_int_some. split; [exact Hi|]. unfold n in *. lia.
  Qed.

  (* index_spec and set_index_spec (and slice_spec below) take the round-trip fact
     as a hypothesis, so they rest on none of the axioms about binary64; the
     other laws get it from rt_all *)
  Lemma arr_index_ref_of :
    normalize_index f n false = idx_ref n (n - 1) f ->
    arr_index s f = match idx_ref n (n - 1) f with
                    | Ok i => match nth_error s (Z.to_nat i) with Some x => Ok x | None => HostCrash end
                    | Panic e => Panic e
                    | HostCrash => HostCrash
                    end.
  Proof.
    intros R. unfold arr_index. fold n. rewrite R.
    destruct (idx_ref n (n - 1) f) as [i|e|] eqn:E; try reflexivity.
    destruct (go_nth_in s i) as (x & G & N); [apply idx_ref_pos; exact E|].
    rewrite G, N. reflexivity.
  Qed.

  Definition arr_index_ref := arr_index_ref_of (normalize_index_ref f n false).

  Lemma index_spec x :
    arr_index s f = Ok x <->
    exists i, float_to_Z f = Some i /\ - n <= i < n /\ nth_error s (Z.to_nat (i mod n)) = Some x.
  Proof using Hlen Hrt.
    rewrite (arr_index_ref_of (normalize_index_ref_rt f n false Hrt)). split.
    - destruct (idx_ref n (n - 1) f) as [v|e|] eqn:E; try discriminate.
      apply idx_ref_mod in E as (i & Hi & R & ->).
      destruct (nth_error s (Z.to_nat (i mod n))) eqn:N; [|discriminate].
      intros H. inversion H; subst. eauto.
    - intros (i & Hi & R & N).
      assert (E : idx_ref n (n - 1) f = Ok (i mod n)) by (apply idx_ref_mod; eauto).
      rewrite E, N. reflexivity.
  Qed.

  Lemma index_panic e :
    arr_index s f = Panic e <->
    (e = EIndexValue /\ float_int f = None) \/
    (e = EBounds /\ exists i, float_int f = Some i /\ ~ (- n <= i < n)).
  Proof.
    rewrite arr_index_ref. transitivity (idx_ref n (n - 1) f = Panic e).
    - destruct (idx_ref n (n - 1) f) as [v|e'|]; [|split; intros H; inversion H; reflexivity | split; discriminate].
      destruct (nth_error s (Z.to_nat v)); split; discriminate.
    - rewrite idx_ref_panic.
      split; (intros [H|(-> & i & Hi & R)]; [left; exact H | right; split; [reflexivity|]; exists i; split; [exact Hi | lia]]).
  Qed.

  Lemma index_no_crash : arr_index s f <> HostCrash.
  Proof.
    rewrite arr_index_ref. destruct (idx_ref n (n - 1) f) as [v|e'|] eqn:E; try discriminate.
    - apply idx_ref_pos in E as [_ E]. apply nth_error_Some in E.
      destruct (nth_error s _); [discriminate | congruence].
    - exfalso. exact (idx_ref_no_crash _ _ _ E).
  Qed.

  Variable v : A.

  Lemma arr_set_index_ref_of :
    normalize_index f n false = idx_ref n (n - 1) f ->
    arr_set_index s f v = match idx_ref n (n - 1) f with
                          | Ok i => match list_update s (Z.to_nat i) v with Some s' => Ok s' | None => HostCrash end
                          | Panic e => Panic e
                          | HostCrash => HostCrash
                          end.
  Proof.
    intros R. unfold arr_set_index. fold n. rewrite R.
    destruct (idx_ref n (n - 1) f) as [i|e|] eqn:E; try reflexivity.
    apply idx_ref_pos in E as [E _].
    unfold go_set_nth. destruct (i <? 0) eqn:C; [lia | reflexivity].
  Qed.

  Definition arr_set_index_ref := arr_set_index_ref_of (normalize_index_ref f n false).

  Lemma set_index_spec s' :
    arr_set_index s f v = Ok s' <->
    exists i, float_to_Z f = Some i /\ - n <= i < n /\
              List.length s' = List.length s /\
              nth_error s' (Z.to_nat (i mod n)) = Some v /\
              (forall k, k <> Z.to_nat (i mod n) -> nth_error s' k = nth_error s k).
  Proof using Hlen Hrt.
    rewrite (arr_set_index_ref_of (normalize_index_ref_rt f n false Hrt)). split.
    - destruct (idx_ref n (n - 1) f) as [w|e|] eqn:E; try discriminate.
      destruct (list_update_spec s (Z.to_nat w) v) as (t & U & L & N & F); [apply idx_ref_pos; exact E|].
      apply idx_ref_mod in E as (i & Hi & R & ->).
      rewrite U. intros H. inversion H; subst. exists i. auto.
    - intros (i & Hi & R & L & N & F).
      assert (E : idx_ref n (n - 1) f = Ok (i mod n)) by (apply idx_ref_mod; eauto).
      rewrite E.
      destruct (list_update_spec s (Z.to_nat (i mod n)) v) as (t & U & L' & N' & F'); [apply idx_ref_pos; exact E|].
      rewrite U. f_equal. apply nth_error_ext. intros k.
      destruct (Nat.eq_dec k (Z.to_nat (i mod n))) as [->|D].
      + congruence.
      + rewrite F' by exact D. rewrite F by exact D. reflexivity.
  Qed.

  Lemma idx_ref_both w : idx_ref n (n - 1) f = Ok w ->
    exists t x, list_update s (Z.to_nat w) v = Some t /\ nth_error s (Z.to_nat w) = Some x.
  Proof.
    intros E. apply idx_ref_pos in E as [_ P].
    destruct (list_update_spec s (Z.to_nat w) v P) as (t & U & _).
    apply nth_error_Some in P. destruct (nth_error s (Z.to_nat w)) as [x|]; [eauto | congruence].
  Qed.

  Lemma set_index_panic e : arr_set_index s f v = Panic e <-> arr_index s f = Panic e.
  Proof.
    rewrite arr_set_index_ref, arr_index_ref.
    destruct (idx_ref n (n - 1) f) as [w|e'|] eqn:E;
      [|split; intros H; inversion H; reflexivity | split; discriminate].
    destruct (idx_ref_both w E) as (t & x & -> & ->). split; discriminate.
  Qed.

  Lemma set_index_ok_iff : (exists s', arr_set_index s f v = Ok s') <-> (exists x, arr_index s f = Ok x).
  Proof.
    rewrite arr_set_index_ref, arr_index_ref.
    destruct (idx_ref n (n - 1) f) as [w|e'|] eqn:E; [|split; intros [? H]; discriminate ..].
    destruct (idx_ref_both w E) as (t & x & -> & ->). split; eauto.
  Qed.

  Lemma set_index_no_crash : arr_set_index s f v <> HostCrash.
  Proof.
    rewrite arr_set_index_ref. destruct (idx_ref n (n - 1) f) as [w|e'|] eqn:E; try discriminate.
    - destruct (idx_ref_both w E) as (t & x & -> & _). discriminate.
    - exfalso. exact (idx_ref_no_crash _ _ _ E).
  Qed.
End IndexSpec.

Lemma index_kind_huge {A} (s : list A) f i :
  zlen s < 2 ^ 63 -> float_to_Z f = Some i -> ~ (- 2 ^ 63 <= i < 2 ^ 63) ->
  arr_index s f = Panic EIndexValue.
Proof.
  intros Hl Hi R. apply index_panic. left. split; [reflexivity|].
  apply float_int_none. right. eauto.
Qed.

Definition ort (o : option float) : Prop := match o with Some f => rt f | None => True end.

Lemma ort_all o : ort o.
Proof. destruct o; simpl; [apply rt_all|exact I]. Qed.

(* reference for one bound: a missing bound is its default *)
Definition bound_ref (n : Z) (o : option float) (dflt : Z) : res Z :=
  match o with Some f => idx_ref n n f | None => Ok dflt end.

(* the statement's reading of a bound: "after adding n to negative bounds" *)
Definition bound_ok (n : Z) (o : option float) (dflt v : Z) : Prop :=
  match o with
  | None => v = dflt
  | Some f => exists i, float_to_Z f = Some i /\ - n <= i <= n /\ v = (if i <? 0 then i + n else i)
  end.

Lemma bound_ref_bound_ok n o dflt v : bound_ref n o dflt = Ok v -> bound_ok n o dflt v.
Proof.
  destruct o as [f|]; simpl.
  - rewrite idx_ref_ok. intros (i & Hi & R & ->). apply float_int_some in Hi as [Hi _]. eauto.
  - intros H; inversion H; reflexivity.
Qed.

Lemma bound_ref_ok n o dflt v :
  0 <= n < 2 ^ 63 -> (bound_ref n o dflt = Ok v <-> bound_ok n o dflt v).
Proof.
  intros Hn. split; [apply bound_ref_bound_ok|]. destruct o as [f|]; simpl.
  - rewrite idx_ref_ok. intros (i & Hi & R & ->). exists i. repeat split; try lia.
    apply float_int_some. split; [exact Hi|lia].
  - intros ->; reflexivity.
Qed.

Lemma bound_ok_range n o dflt v : 0 <= dflt <= n -> bound_ok n o dflt v -> 0 <= v <= n.
Proof.
  intros Hd. destruct o as [f|]; simpl.
  - intros (i & _ & R & ->). destruct (i <? 0) eqn:?; lia.
  - lia.
Qed.

Lemma bound_ref_no_crash n o dflt : bound_ref n o dflt <> HostCrash.
Proof. destruct o; simpl; [apply idx_ref_no_crash|discriminate]. Qed.

Lemma normalize_slice_ref_rt st en n :
  ort st -> ort en ->
  normalize_slice_indices st en n =
  match bound_ref n st 0 with
  | Panic e => Panic e
  | HostCrash => HostCrash
  | Ok a => match bound_ref n en n with
            | Panic e => Panic e
            | HostCrash => HostCrash
            | Ok b => if b <? a then Panic ESlice else Ok (a, b)
            end
  end.
Proof.
  intros H1 H2. unfold normalize_slice_indices, bound_ref.
  destruct st as [f1|], en as [f2|]; simpl in H1, H2;
    try rewrite (normalize_index_ref_rt _ n true H1); try rewrite (normalize_index_ref_rt _ n true H2); reflexivity.
Qed.

Definition normalize_slice_ref st en n := normalize_slice_ref_rt st en n (ort_all st) (ort_all en).

Section SliceSpec.
  Context {A : Type}.
  Variable copy : A -> A.
  Variable s : list A.
  Variables st en : option float.
  Hypothesis Hlen : zlen s < 2 ^ 63.
  Hypothesis Hst : ort st.
  Hypothesis Hen : ort en.
  Let n := zlen s.

  Definition sub (a b : Z) : list A := firstn (Z.to_nat (b - a)) (skipn (Z.to_nat a) s).

  Lemma arr_slice_ref_of :
    normalize_slice_indices st en n =
    match bound_ref n st 0 with
    | Panic e => Panic e
    | HostCrash => HostCrash
    | Ok a => match bound_ref n en n with
              | Panic e => Panic e
              | HostCrash => HostCrash
              | Ok b => if b <? a then Panic ESlice else Ok (a, b)
              end
    end ->
    arr_slice copy s st en =
    match bound_ref n st 0 with
    | Panic e => Panic e
    | HostCrash => HostCrash
    | Ok a => match bound_ref n en n with
              | Panic e => Panic e
              | HostCrash => HostCrash
              | Ok b => if b <? a then Panic ESlice else Ok (map copy (sub a b))
              end
    end.
  Proof.
    intros R. unfold arr_slice. fold n. rewrite R.
    destruct (bound_ref n st 0) as [a|e|] eqn:Ea; try reflexivity.
    destruct (bound_ref n en n) as [b|e|] eqn:Eb; try reflexivity.
    destruct (b <? a) eqn:C; [reflexivity|].
    pose proof (zlen_nonneg s) as Hn. fold n in Hn.
    apply bound_ref_bound_ok, bound_ok_range in Ea; [|lia].
    apply bound_ref_bound_ok, bound_ok_range in Eb; [|lia].
    destruct (b - a <? 0) eqn:D; [lia|].
    rewrite slice_loop_spec by (fold n; lia). reflexivity.
  Qed.

  Definition arr_slice_ref := arr_slice_ref_of (normalize_slice_ref st en n).

  Lemma slice_spec r :
    arr_slice copy s st en = Ok r <->
    exists a b, bound_ok n st 0 a /\ bound_ok n en n b /\ a <= b /\ r = map copy (sub a b).
  Proof using Hlen Hst Hen.
    rewrite (arr_slice_ref_of (normalize_slice_ref_rt st en n Hst Hen)). pose proof (zlen_bounds s Hlen) as Hn. fold n in Hn. split.
    - destruct (bound_ref n st 0) as [a|e|] eqn:Ea; try discriminate.
      destruct (bound_ref n en n) as [b|e|] eqn:Eb; try discriminate.
      destruct (b <? a) eqn:C; [discriminate|]. intros H. inversion H; subst.
      exists a, b. rewrite <- (bound_ref_ok n st 0 a Hn), <- (bound_ref_ok n en n b Hn). repeat split; auto; lia.
    - intros (a & b & Ha & Hb & L & ->).
      apply (bound_ref_ok n st 0 a Hn) in Ha. apply (bound_ref_ok n en n b Hn) in Hb.
      rewrite Ha, Hb. destruct (b <? a) eqn:C; [lia|reflexivity].
  Qed.

  (* the result has exactly b - a elements, and they are the elements a .. b-1 *)
  Lemma slice_elements a b :
    0 <= a <= b -> b <= n ->
    List.length (sub a b) = Z.to_nat (b - a) /\
    forall k, (k < Z.to_nat (b - a))%nat -> nth_error (sub a b) k = nth_error s (Z.to_nat a + k).
  Proof.
    intros H1 H2. unfold sub. split.
    - rewrite firstn_length, skipn_length. unfold n, zlen in *. lia.
    - intros k Hk. rewrite nth_error_firstn_lt by exact Hk. apply nth_error_skipn_add.
  Qed.

  Lemma slice_panic e :
    arr_slice copy s st en = Panic e <->
    bound_ref n st 0 = Panic e \/
    (exists a, bound_ref n st 0 = Ok a /\ bound_ref n en n = Panic e) \/
    (e = ESlice /\ exists a b, bound_ok n st 0 a /\ bound_ok n en n b /\ b < a).
  Proof.
    rewrite arr_slice_ref. pose proof (zlen_bounds s Hlen) as Hn. fold n in Hn.
    assert (X : (exists a b, bound_ok n st 0 a /\ bound_ok n en n b /\ b < a) <->
                (exists a b, bound_ref n st 0 = Ok a /\ bound_ref n en n = Ok b /\ b < a)).
    { split; intros (a & b & Ha & Hb & L); exists a, b;
        [rewrite !bound_ref_ok by exact Hn | rewrite <- !bound_ref_ok by exact Hn]; auto. }
    rewrite X; clear X.
    pose proof (bound_ref_no_crash n st 0) as Na. pose proof (bound_ref_no_crash n en n) as Nb.
    destruct (bound_ref n st 0) as [a|e1|]; [| |contradiction].
    2: { split; [intro H; inversion H; left; reflexivity|].
         intros [H|[(a & H & _)|(_ & a & b & H & _)]]; [inversion H; reflexivity | discriminate ..]. }
    destruct (bound_ref n en n) as [b|e2|]; [| |contradiction].
    2: { split; [intro H; inversion H; right; left; eauto|].
         intros [H|[(a' & _ & H)|(_ & a' & b' & _ & H & _)]]; [discriminate | inversion H; reflexivity | discriminate]. }
    destruct (b <? a) eqn:C; split.
    - intro H; inversion H. right; right. split; [reflexivity|]. exists a, b. repeat split; lia.
    - intros [H|[(a' & _ & H)|(-> & _)]]; [discriminate .. | reflexivity].
    - discriminate.
    - intros [H|[(a' & _ & H)|(_ & a' & b' & Ha & Hb & L)]]; [discriminate .. |].
      inversion Ha; inversion Hb; subst; lia.
  Qed.

  Lemma slice_no_crash : arr_slice copy s st en <> HostCrash.
  Proof.
    rewrite arr_slice_ref.
    destruct (bound_ref n st 0) as [a|e1|] eqn:Ea; [|discriminate|exact (fun _ => bound_ref_no_crash _ _ _ Ea)].
    destruct (bound_ref n en n) as [b|e2|] eqn:Eb; [|discriminate|exact (fun _ => bound_ref_no_crash _ _ _ Eb)].
    destruct (b <? a); discriminate.
  Qed.
End SliceSpec.

Lemma str_index_arr (s : str) f :
  str_index s f = match arr_index s f with Ok c => Ok [c] | Panic e => Panic e | HostCrash => HostCrash end.
Proof.
  unfold str_index, arr_index.
  destruct (normalize_index f (zlen s) false); try reflexivity.
  destruct (go_nth s a); reflexivity.
Qed.

Lemma str_index_spec (s : str) f r :
  zlen s < 2 ^ 63 ->
  (str_index s f = Ok r <->
   exists i c, float_to_Z f = Some i /\ - zlen s <= i < zlen s /\
               nth_error s (Z.to_nat (i mod zlen s)) = Some c /\ r = [c]).
Proof.
  intros Hl. rewrite str_index_arr. split.
  - destruct (arr_index s f) as [c|e|] eqn:E; try discriminate.
    intros H. inversion H; subst. apply (index_spec s f Hl (rt_all f)) in E as (i & Hi & R & N).
    exists i, c. auto.
  - intros (i & c & Hi & R & N & ->).
    assert (E : arr_index s f = Ok c) by (apply (index_spec s f Hl (rt_all f)); eauto).
    rewrite E. reflexivity.
Qed.

Lemma str_index_panic (s : str) f e :
  str_index s f = Panic e <-> arr_index s f = Panic e.
Proof.
  rewrite str_index_arr. destruct (arr_index s f); split; intros H; try discriminate; inversion H; reflexivity.
Qed.

Lemma str_index_no_crash (s : str) f : str_index s f <> HostCrash.
Proof.
  rewrite str_index_arr.
  pose proof (index_no_crash s f). destruct (arr_index s f); congruence.
Qed.

Lemma str_slice_arr (s : str) st en : str_slice s st en = arr_slice (fun c => c) s st en.
Proof.
  rewrite (arr_slice_ref (fun c => c) s st en).
  unfold str_slice. set (n := zlen s). rewrite (normalize_slice_ref st en n).
  pose proof (zlen_nonneg s) as Hn. fold n in Hn.
  destruct (bound_ref n st 0) as [a|e|] eqn:Ea; try reflexivity.
  destruct (bound_ref n en n) as [b|e|] eqn:Eb; try reflexivity.
  destruct (b <? a) eqn:C; [reflexivity|].
  apply bound_ref_bound_ok, bound_ok_range in Ea; [|lia].
  apply bound_ref_bound_ok, bound_ok_range in Eb; [|lia].
  unfold go_subslice. fold n.
  replace ((0 <=? a) && (a <=? b) && (b <=? n)) with true by lia.
  rewrite map_id. reflexivity.
Qed.

Lemma copy_or_ref_id v : copy_or_ref v = v.
Proof. destruct v; reflexivity. Qed.

Lemma map_copy_or_ref l : map copy_or_ref l = l.
Proof. induction l; simpl; [reflexivity|]. rewrite copy_or_ref_id, IHl. reflexivity. Qed.

Lemma h_set_index_frame h a f v h' :
  h_set_index h a f v = Ok h' ->
  List.length h' = List.length h /\
  (forall a', a' <> a -> h_get h' a' = h_get h a') /\
  exists s s', h_get h a = Some s /\ h_get h' a = Some s' /\ arr_set_index s f v = Ok s'.
Proof.
  unfold h_set_index, h_get. destruct (nth_error h a) as [s|] eqn:G; [|discriminate].
  destruct (arr_set_index s f v) as [s'|e|] eqn:E; try discriminate.
  destruct (list_update h a s') as [h2|] eqn:U; [|discriminate].
  intros H. inversion H; subst h2.
  destruct (list_update_spec h a s') as (t & U' & L & N & F).
  { eapply list_update_some. exact U. }
  rewrite U in U'. inversion U'; subst t.
  split; [exact L|]. split; [exact F|]. exists s, s'. auto.
Qed.

Lemma h_slice_fresh h a st en h' b :
  h_slice h a st en = Ok (h', b) ->
  b = List.length h /\ h_get h b = None /\
  (forall a', (a' < List.length h)%nat -> h_get h' a' = h_get h a') /\
  exists s r, h_get h a = Some s /\ arr_slice copy_or_ref s st en = Ok r /\ h_get h' b = Some r.
Proof.
  unfold h_slice, h_get. destruct (nth_error h a) as [s|] eqn:G; [|discriminate].
  destruct (arr_slice copy_or_ref s st en) as [r|e|] eqn:E; try discriminate.
  intros H. inversion H; subst. split; [reflexivity|].
  split; [apply nth_error_None; lia|].
  split; [intros a' L; apply nth_error_app1; exact L|].
  exists s, r. split; [reflexivity|]. split; [exact E|].
  rewrite nth_error_app2 by lia. rewrite Nat.sub_diag. reflexivity.
Qed.

(* a store through the slice never reaches an object that existed before the
   slice was taken (in particular not the original), and a store through the
   original never reaches the slice *)
Lemma slice_then_store_independent h a st en h1 b :
  h_slice h a st en = Ok (h1, b) ->
  (forall f v h2, h_set_index h1 b f v = Ok h2 ->
     forall a', (a' < List.length h)%nat -> h_get h2 a' = h_get h a') /\
  (forall a0 f v h2, (a0 < List.length h)%nat -> h_set_index h1 a0 f v = Ok h2 ->
     h_get h2 b = h_get h1 b).
Proof.
  intros H. apply h_slice_fresh in H as (-> & _ & Old & _). split.
  - intros f v h2 S a' L. apply h_set_index_frame in S as (_ & F & _).
    rewrite F by lia. apply Old. exact L.
  - intros a0 f v h2 L S. apply h_set_index_frame in S as (_ & F & _). apply F. lia.
Qed.

(* the new array holds the very same element values — for inner arrays the same
   addresses — as positions a .. b-1 of the original: inner arrays are shared *)
Lemma h_slice_contents h a st en h' b s :
  h_get h a = Some s -> zlen s < 2 ^ 63 ->
  h_slice h a st en = Ok (h', b) ->
  exists x y, bound_ok (zlen s) st 0 x /\ bound_ok (zlen s) en (zlen s) y /\ x <= y /\
              h_get h' b = Some (sub s x y) /\ h_get h' a = Some s.
Proof.
  intros G Hl H. pose proof H as H0.
  apply h_slice_fresh in H as (-> & _ & Old & s' & r & G' & E & B).
  rewrite G in G'. inversion G'; subst s'.
  apply (slice_spec copy_or_ref s st en Hl (ort_all st) (ort_all en)) in E as (x & y & Hx & Hy & L & ->).
  rewrite map_copy_or_ref in B. exists x, y. repeat split; auto.
  rewrite Old; [exact G|]. apply nth_error_Some. unfold h_get in G. congruence.
Qed.
