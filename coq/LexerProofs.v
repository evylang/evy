(* LexerProofs.v - lemmas about the lexer model (coq/Lexer.v) in the vocabulary
   of LexerSpec.v. *)
From Coq Require Import NArith List Bool Lia ZifyBool ZifyNat ZifyN Arith.
From EvyV Require Import Base Lexer LexerSpec.
From EvyV.Gen Require Import TokenTypes Keywords.
Import ListNotations.
Open Scope N_scope.

Lemma firstn_length_app {A} (pre x : list A) : firstn (List.length pre) (pre ++ x) = pre.
Proof. induction pre; simpl; [destruct x; reflexivity | rewrite IHpre; reflexivity]. Qed.

Lemma span_len_le pred l : (span_len pred l <= List.length l)%nat.
Proof. induction l; simpl; [lia | destruct (pred a); simpl; lia]. Qed.

Lemma span_bound pred l : (1 <= S (span_len pred l) <= S (List.length l))%nat.
Proof. pose proof (span_len_le pred l). lia. Qed.

Lemma span_len_forall pred l : Forall (fun r => pred r = true) (firstn (span_len pred l) l).
Proof.
  induction l; simpl; [constructor|]. destruct (pred a) eqn:E; simpl; constructor; assumption.
Qed.

Lemma span_nonnul pred l :
  (forall r, pred r = true -> r <> 0) -> Forall (fun r => r <> 0) (firstn (span_len pred l) l).
Proof. intro H. eapply Forall_impl; [exact H | apply span_len_forall]. Qed.

Lemma span_len_maximal pred l : next_not pred (skipn (span_len pred l) l).
Proof.
  induction l as [|a l IH]; simpl; [exact I|]. destruct (pred a) eqn:E; simpl; [exact IH | exact E].
Qed.

Lemma count_nl_snoc l c : count_nl (l ++ [c]) = (count_nl l + (if (c =? 10)%N then 1 else 0))%nat.
Proof.
  unfold count_nl. rewrite count_occ_app. simpl.
  destruct (N.eq_dec c 10) as [->|Hn]; [reflexivity|].
  apply N.eqb_neq in Hn. rewrite Hn. reflexivity.
Qed.

Lemma since_newline_snoc l c :
  since_newline (l ++ [c]) = if c =? 10 then O else S (since_newline l).
Proof. unfold since_newline. rewrite rev_app_distr. simpl. destruct (c =? 10); reflexivity. Qed.

Definition line_at (pre : list N) : N := 1 + N.of_nat (count_nl pre).
Definition col_at (pre : list N) : N := 1 + N.of_nat (since_newline pre).

Lemma adv_line_snoc pre c : adv_line c (line_at pre) = line_at (pre ++ [c]).
Proof. unfold adv_line, line_at. rewrite count_nl_snoc. destruct (c =? 10); lia. Qed.

Lemma adv_col_snoc pre c : adv_col c (col_at pre) = col_at (pre ++ [c]).
Proof. unfold adv_col, col_at. rewrite since_newline_snoc. destruct (c =? 10); lia. Qed.

(* a token is located in input: its Offset is an offset of the input (or its
   end) and its Line/Col are the line and column of that offset *)
Definition located (input : list N) (t : token) : Prop :=
  exists k : nat, t_off t = N.of_nat k /\ (k <= List.length input)%nat /\
                  (t_line t, t_col t) = pos_of_offset input k.

Lemma effective_app b x r :
  (b = true -> Forall (fun c => c <> 0) x) -> effective b (x ++ r) = x ++ effective b r.
Proof.
  destruct b; simpl; [|reflexivity]. intro H. specialize (H eq_refl).
  induction H as [|c x Hc _ IH]; simpl; [reflexivity|].
  apply N.eqb_neq in Hc. rewrite Hc, IH. reflexivity.
Qed.

Lemma effective_prefix b l : exists tail, l = effective b l ++ tail.
Proof.
  destruct b; simpl; [|exists []; rewrite app_nil_r; reflexivity].
  induction l as [|c l [tail IH]]; simpl; [exists []; reflexivity|].
  destruct (c =? 0); [exists (c :: l); reflexivity|]. exists tail. simpl. rewrite <- IH. reflexivity.
Qed.

Lemma effective_length_le b l : (List.length (effective b l) <= List.length l)%nat.
Proof.
  destruct (effective_prefix b l) as [t H]. rewrite H at 2. rewrite app_length. lia.
Qed.

Lemma slices_ends lx : forall rest tail cur,
  rest = concat lx ++ tail -> slices rest cur (ends cur lx) = lx.
Proof.
  induction lx as [|x xs IH]; intros rest tail cur H; simpl; [reflexivity|].
  replace (N.to_nat (cur + N.of_nat (List.length x) - cur)) with (List.length x) by lia.
  subst rest. simpl. rewrite <- app_assoc.
  rewrite firstn_length_app. f_equal.
  apply (IH _ tail). rewrite skipn_app, skipn_all, Nat.sub_diag. reflexivity.
Qed.

Lemma lookup_keyword_sound kws x k : lookup_keyword kws x = Some k -> In (x, k) kws.
Proof.
  induction kws as [|[w t] r IH]; simpl; [discriminate|].
  destruct (str_eqb w x) eqn:E.
  - intro H. inversion H; subst. apply str_eqb_eq in E. subst. left. reflexivity.
  - intro H. right. apply IH. exact H.
Qed.

Lemma lookup_keyword_none kws x : lookup_keyword kws x = None -> forall k, ~ In (x, k) kws.
Proof.
  induction kws as [|[w t] r IH]; simpl; [tauto|].
  destruct (str_eqb w x) eqn:E; [discriminate|].
  intros H k [Hin|Hin]; [|exact (IH H k Hin)].
  inversion Hin; subst. rewrite str_eqb_refl in E. discriminate.
Qed.

Lemma lookup_keyword_complete kws x k :
  NoDup (map fst kws) -> In (x, k) kws -> lookup_keyword kws x = Some k.
Proof.
  induction kws as [|[w t] r IH]; simpl; [tauto|]. intros Hnd [Hin|Hin].
  - inversion Hin; subst. rewrite str_eqb_refl. reflexivity.
  - inversion Hnd as [|? ? Hnotin Hnd']; subst.
    destruct (str_eqb w x) eqn:E.
    + apply str_eqb_eq in E. subst. exfalso. apply Hnotin.
      change x with (fst (x, k)). apply in_map. exact Hin.
    + apply IH; assumption.
Qed.

(* facts about the regenerated table, re-checked by computation whenever
   token.go changes: keys are distinct, no keyword maps to EOF / IDENT / a
   literal or layout token type, and tokenStrings' format of a keyword type is
   the keyword itself *)
Definition is_keyword_type (t : token_type) : bool :=
  existsb (fun p => token_type_beq (snd p) t) keywords.

Definition plain_type (t : token_type) : bool :=
  match t with
  | T_EOF | T_WS | T_COMMENT | T_STRING_LIT | T_ILLEGAL | T_IDENT | T_NUM_LIT => false
  | _ => true
  end.

Lemma keywords_nodup : NoDup (map fst keywords).
Proof.
  assert (H : forall l : list str, (fix nd (l : list str) : bool :=
              match l with [] => true | x :: r => negb (mem_str x r) && nd r end) l = true -> NoDup l).
  { induction l as [|x r IH]; intro H; [constructor|].
    apply andb_true_iff in H as [H1 H2]. constructor; [|apply IH; exact H2].
    intro Hin. apply mem_str_In in Hin. rewrite Hin in H1. discriminate. }
  apply H. vm_compute. reflexivity.
Qed.

Lemma keywords_table_ok :
  Forall (fun p => plain_type (snd p) = true /\ tt_format (snd p) = fst p) keywords.
Proof. unfold keywords. repeat constructor. Qed.

Lemma keyword_entry x k : In (x, k) keywords -> plain_type k = true /\ tt_format k = x.
Proof.
  intro H. pose proof keywords_table_ok as T. rewrite Forall_forall in T. exact (T _ H).
Qed.

Lemma token_type_beq_refl t : token_type_beq t t = true.
Proof. destruct t; reflexivity. Qed.

Lemma token_type_beq_eq a c : token_type_beq a c = true -> a = c.
Proof. apply internal_token_type_dec_bl. Qed.

Lemma token_type_beq_neq a c : a <> c -> token_type_beq a c = false.
Proof. intro H. destruct (token_type_beq a c) eqn:E; [apply token_type_beq_eq in E; contradiction | reflexivity]. Qed.

Section Proofs.
  Variable uni_letter uni_digit : N -> bool.
  Variable b : bool.   (* nul_is_eof *)

  Notation lex_go := (lex_go uni_letter uni_digit b).
  Notation next_token := (next_token uni_letter uni_digit b).
  Notation lexeme_ok := (lexeme_ok uni_letter uni_digit b).
  Notation ident_shaped := (ident_shaped uni_letter uni_digit b).

  (* the only fact about the Unicode oracle that is used: U+0000 is neither a
     letter nor a digit.  Without it Go's readIdent would not stop at the end
     of the input (lookAt returns 0 there). *)
  Definition oracle_ok : Prop := uni_letter 0 = false /\ uni_digit 0 = false.

  Lemma lex_go_length : forall l skip off line col,
    (1 <= List.length (lex_go skip off line col l) <= S (List.length l))%nat.
  Proof.
    induction l as [|c rest IH]; intros; simpl; [lia|].
    destruct skip.
    - destruct (next_token c rest) as [[ty lit] len].
      destruct (token_type_beq ty T_EOF); simpl; [lia|].
      specialize (IH (Nat.pred len) (off + 1) (adv_line c line) (adv_col c col)). lia.
    - specialize (IH skip (off + 1) (adv_line c line) (adv_col c col)). lia.
  Qed.

  Lemma located_at_pre pre l ty lit :
    located (pre ++ l) (mkToken ty lit (N.of_nat (List.length pre)) (line_at pre) (col_at pre)).
  Proof.
    exists (List.length pre). simpl. split; [reflexivity|]. split; [rewrite app_length; lia|].
    unfold pos_of_offset. rewrite firstn_length_app. reflexivity.
  Qed.

  Lemma lex_go_located : forall l pre skip,
    Forall (located (pre ++ l))
           (lex_go skip (N.of_nat (List.length pre)) (line_at pre) (col_at pre) l).
  Proof.
    induction l as [|c rest IH]; intros pre skip; simpl.
    - constructor; [apply located_at_pre | constructor].
    - assert (Hstep : forall k, Forall (located (pre ++ c :: rest))
                (lex_go k (N.of_nat (List.length pre) + 1) (adv_line c (line_at pre)) (adv_col c (col_at pre)) rest)).
      { intro k. specialize (IH (pre ++ [c]) k).
        rewrite <- app_assoc in IH. simpl in IH.
        rewrite adv_line_snoc, adv_col_snoc.
        replace (N.of_nat (List.length pre) + 1) with (N.of_nat (List.length (pre ++ [c])))
          by (rewrite app_length; simpl; lia).
        exact IH. }
      destruct skip; [|apply Hstep].
      destruct (next_token c rest) as [[ty lit] len].
      destruct (token_type_beq ty T_EOF).
      + constructor; [apply located_at_pre | constructor].
      + constructor; [apply located_at_pre | apply Hstep].
  Qed.

  Lemma string_span_le : forall l esc, (string_span b esc l <= List.length l)%nat.
  Proof.
    induction l as [|c r IH]; intro esc; simpl; [lia|].
    destruct ((c =? 34) && negb esc); [lia|].
    destruct (is_end b c || (c =? 10)); [lia|]. specialize (IH ((c =? 92) && negb esc)). lia.
  Qed.

  Lemma string_span_nonnul : forall l esc, b = true ->
    Forall (fun r => r <> 0) (firstn (string_span b esc l) l).
  Proof.
    induction l as [|c r IH]; intros esc Hb; simpl; [constructor|].
    destruct ((c =? 34) && negb esc) eqn:E1.
    - simpl. constructor; [|constructor]. apply andb_true_iff in E1 as [E1 _].
      apply N.eqb_eq in E1. subst. discriminate.
    - destruct (is_end b c || (c =? 10)) eqn:E2; [constructor|].
      simpl. constructor; [|apply IH; exact Hb].
      apply orb_false_iff in E2 as [E2 _]. unfold is_end in E2. rewrite Hb in E2. simpl in E2.
      apply N.eqb_neq. exact E2.
  Qed.

  Lemma comment_char_nonnul r : b = true -> comment_char b r = true -> r <> 0.
  Proof.
    intros Hb H. unfold comment_char, is_end in H. rewrite Hb in H. simpl in H.
    apply andb_true_iff in H as [H _]. apply negb_true_iff in H. apply N.eqb_neq. exact H.
  Qed.

  Lemma is_hws_nonnul r : is_hws r = true -> r <> 0.
  Proof. unfold is_hws. intros H E. subst. discriminate. Qed.

  Lemma num_char_nonnul r : num_char r = true -> r <> 0.
  Proof. unfold num_char, is_digit. intros H E. subst. discriminate. Qed.

  Lemma ident_char_nonnul r : oracle_ok -> ident_char uni_letter uni_digit r = true -> r <> 0.
  Proof.
    intros [H1 H2] H E. subst. unfold ident_char, is_letter in H. rewrite H1, H2 in H. discriminate.
  Qed.

  Lemma keyword_lexeme_ok x k off line col :
    In (x, k) keywords -> k <> T_EOF /\ lexeme_ok (mkToken k [] off line col) x.
  Proof.
    intro H. apply keyword_entry in H as [Hp Hf]. unfold LexerSpec.lexeme_ok. simpl.
    destruct k; try discriminate Hp; (split; [discriminate | split; [reflexivity | symmetry; exact Hf]]).
  Qed.

  Notation maximal_munch := (maximal_munch uni_letter uni_digit b).

  Lemma keyword_type_b k : In k (map snd keywords) -> is_keyword_type k = true.
  Proof.
    intro H. apply in_map_iff in H as [[w k'] [E Hin]]. simpl in E. subst k'.
    apply existsb_exists. exists (w, k). split; [exact Hin | apply token_type_beq_refl].
  Qed.

  (* maximal munch of a token of a known type: the conjuncts about other types are vacuous (a fixed
     type is not in the keyword table, by evaluation), the one about its own class is span_len_maximal *)
  Ltac munch :=
    unfold LexerSpec.maximal_munch; cbn [t_type]; simpl skipn; repeat split;
    (let X := fresh "X" in
     intro X;
     first [ discriminate X | apply span_len_maximal
           | destruct X as [X|X]; [discriminate X | apply keyword_type_b in X; discriminate X] ]).

  (* an operator, delimiter or NL token: the lexeme is the type's format and
     maximal munch asks nothing *)
  Lemma fixed_token_spec ty len c rest off line col :
    plain_type ty = true -> is_keyword_type ty = false ->
    firstn len (c :: rest) = tt_format ty -> (1 <= len <= S (List.length rest))%nat ->
    ty <> T_EOF /\ (1 <= len <= S (List.length rest))%nat /\
    lexeme_ok (mkToken ty [] off line col) (firstn len (c :: rest)) /\
    (b = true -> oracle_ok -> Forall (fun r => r <> 0) (firstn len (c :: rest))) /\
    maximal_munch (mkToken ty [] off line col) (skipn len (c :: rest)).
  Proof.
    intros Hp Hk -> Hlen. split; [intro; subst; discriminate|]. split; [exact Hlen|]. split; [|split].
    - unfold LexerSpec.lexeme_ok; cbn [t_type t_lit]. destruct ty; try discriminate Hp; split; reflexivity.
    - intros _ _. destruct ty; try discriminate Hp; try discriminate Hk; repeat constructor; discriminate.
    - unfold LexerSpec.maximal_munch; cbn [t_type]. repeat split; intro X; try (subst; discriminate).
      destruct X as [X|X]; [subst; discriminate | apply keyword_type_b in X; congruence].
  Qed.

  Ltac finish_fixed :=
    let H := fresh in
    intro H; inversion H; subst; clear H; right;
    apply fixed_token_spec; [reflexivity | reflexivity | reflexivity | simpl; split; auto with arith].

  Ltac with_eq_case rest :=
    unfold with_eq;
    let P := fresh "P" in
    destruct (peek rest =? 61) eqn:P;
    [ let d := fresh "d" in let r := fresh "r" in
      destruct rest as [|d r]; simpl in P; [discriminate|];
      apply N.eqb_eq in P; subst d; finish_fixed
    | finish_fixed ].

  Lemma next_token_spec c rest ty lit len off line col :
    next_token c rest = (ty, lit, len) ->
    (ty = T_EOF /\ b = true /\ c = 0) \/
    (ty <> T_EOF /\ (1 <= len <= S (List.length rest))%nat /\
     lexeme_ok (mkToken ty lit off line col) (firstn len (c :: rest)) /\
     (b = true -> oracle_ok -> Forall (fun r => r <> 0) (firstn len (c :: rest))) /\
     maximal_munch (mkToken ty lit off line col) (skipn len (c :: rest))).
  Proof.
    unfold Lexer.next_token, fixed1.
    destruct ((c =? 32) || (c =? 9)) eqn:Ews.
    { intro H; inversion H; subst; clear H. right.
      assert (Hc : c = 32 \/ c = 9).
      { apply orb_true_iff in Ews as [E|E]; apply N.eqb_eq in E; auto. }
      split; [discriminate|]. split; [apply span_bound|].
      split; [|split].
      - unfold LexerSpec.lexeme_ok; simpl. split; [reflexivity|].
        exists c, (firstn (span_len is_hws rest) rest). split; [reflexivity|]. split; [exact Hc|].
        apply span_len_forall.
      - intros _ _. simpl. constructor; [destruct Hc; subst; discriminate|].
        apply span_nonnul, is_hws_nonnul.
      - munch. }
    apply orb_false_iff in Ews as [E32 E9].
    destruct (c =? 61) eqn:E61. { apply N.eqb_eq in E61; subst c. with_eq_case rest. }
    destruct (c =? 43) eqn:E43. { apply N.eqb_eq in E43; subst c. finish_fixed. }
    destruct (c =? 45) eqn:E45. { apply N.eqb_eq in E45; subst c. finish_fixed. }
    destruct (c =? 33) eqn:E33. { apply N.eqb_eq in E33; subst c. with_eq_case rest. }
    destruct (c =? 47) eqn:E47.
    { apply N.eqb_eq in E47; subst c.
      destruct (peek rest =? 47) eqn:P; [|finish_fixed].
      destruct rest as [|d r]; simpl in P; [discriminate|]. apply N.eqb_eq in P; subst d.
      assert (Hcc : comment_char b 47 = true) by (unfold comment_char, is_end; destruct b; reflexivity).
      simpl span_len. rewrite Hcc.
      intro H; inversion H; subst; clear H. right.
      split; [discriminate|]. split; [exact (conj (Nat.lt_0_succ _) (le_n_S _ _ (proj2 (span_bound _ r))))|].
      simpl firstn.
      split; [|split].
      - unfold LexerSpec.lexeme_ok; simpl. split; [reflexivity|].
        exists (firstn (span_len (comment_char b) r) r). split; [reflexivity|]. apply span_len_forall.
      - intros Hb _. constructor; [discriminate|]. constructor; [discriminate|].
        apply span_nonnul. intros a Ha. apply comment_char_nonnul; assumption.
      - munch. }
    destruct (c =? 42) eqn:E42. { apply N.eqb_eq in E42; subst c. finish_fixed. }
    destruct (c =? 37) eqn:E37. { apply N.eqb_eq in E37; subst c. finish_fixed. }
    destruct (c =? 60) eqn:E60. { apply N.eqb_eq in E60; subst c. with_eq_case rest. }
    destruct (c =? 62) eqn:E62. { apply N.eqb_eq in E62; subst c. with_eq_case rest. }
    destruct (c =? 58) eqn:E58. { apply N.eqb_eq in E58; subst c. with_eq_case rest. }
    destruct (c =? 123) eqn:E123. { apply N.eqb_eq in E123; subst c. finish_fixed. }
    destruct (c =? 125) eqn:E125. { apply N.eqb_eq in E125; subst c. finish_fixed. }
    destruct (c =? 40) eqn:E40. { apply N.eqb_eq in E40; subst c. finish_fixed. }
    destruct (c =? 41) eqn:E41. { apply N.eqb_eq in E41; subst c. finish_fixed. }
    destruct (c =? 91) eqn:E91. { apply N.eqb_eq in E91; subst c. finish_fixed. }
    destruct (c =? 93) eqn:E93. { apply N.eqb_eq in E93; subst c. finish_fixed. }
    destruct (c =? 10) eqn:E10. { apply N.eqb_eq in E10; subst c. finish_fixed. }
    destruct (c =? 46) eqn:E46.
    { apply N.eqb_eq in E46; subst c.
      destruct ((peek rest =? 46) && (peek2 rest =? 46)) eqn:P; [|finish_fixed].
      apply andb_true_iff in P as [P1 P2].
      destruct rest as [|d1 [|d2 r]]; simpl in P1, P2; try discriminate.
      apply N.eqb_eq in P1, P2; subst d1 d2. finish_fixed. }
    destruct (c =? 34) eqn:E34.
    { apply N.eqb_eq in E34; subst c.
      assert (Hnn : b = true -> Forall (fun r => r <> 0) (firstn (S (string_span b false rest)) (34 :: rest))).
      { intro Hb. simpl. constructor; [discriminate | apply string_span_nonnul; exact Hb]. }
      pose proof (string_span_le rest false) as Hle.
      destruct (unquote (34 :: firstn (string_span b false rest) rest)) as [s|] eqn:U;
        intro H; inversion H; subst; clear H; right;
        (split; [discriminate|]); (split; [clear - Hle; lia|]);
        (split; [|split; [intros Hb _; apply Hnn; exact Hb | munch]]);
        unfold LexerSpec.lexeme_ok; simpl.
      - split; [eexists; reflexivity | exact U].
      - right. split; [eexists; reflexivity|]. split; [exact U | reflexivity]. }
    destruct (is_end b c) eqn:E0.
    { intro H; inversion H; subst; clear H. left.
      unfold is_end in E0. apply andb_true_iff in E0 as [Hb Hc]. apply N.eqb_eq in Hc. auto. }
    assert (Hsp : is_special b c = false).
    { unfold is_special. simpl existsb.
      rewrite E32, E9, E61, E43, E45, E33, E47, E42, E37, E60, E62, E58, E123, E125, E40, E41, E91, E93, E10, E46, E34.
      simpl. exact E0. }
    assert (Hc0 : b = true -> c <> 0).
    { intros Hb Hc. unfold is_end in E0. rewrite Hb, Hc in E0. discriminate. }
    destruct (is_letter uni_letter c) eqn:Elet.
    { assert (Hshape : ident_shaped (c :: firstn (span_len (ident_char uni_letter uni_digit) rest) rest)).
      { exists c, (firstn (span_len (ident_char uni_letter uni_digit) rest) rest).
        split; [reflexivity|]. split; [exact Hsp|]. split; [exact Elet | apply span_len_forall]. }
      assert (Hnn : b = true -> oracle_ok ->
                Forall (fun r => r <> 0) (firstn (S (span_len (ident_char uni_letter uni_digit) rest)) (c :: rest))).
      { intros Hb Ho. simpl. constructor; [apply Hc0; exact Hb|].
        apply span_nonnul. intros a Ha. eapply ident_char_nonnul; eassumption. }
      destruct (lookup_keyword keywords (c :: firstn (span_len (ident_char uni_letter uni_digit) rest) rest)) as [kw|] eqn:K;
        intro H; inversion H; subst; clear H; right.
      - apply lookup_keyword_sound in K. destruct (keyword_entry _ _ K) as [Hp _].
        apply (keyword_lexeme_ok _ _ off line col) in K as [K1 K2].
        split; [exact K1|]. split; [apply span_bound|]. split; [exact K2|]. split; [exact Hnn|].
        unfold LexerSpec.maximal_munch. cbn [t_type]. simpl skipn.
        repeat split; intro X; try (subst; discriminate Hp). apply span_len_maximal.
      - split; [discriminate|]. split; [apply span_bound|]. split; [|split; [exact Hnn|]].
        + unfold LexerSpec.lexeme_ok; simpl. split; [reflexivity|]. split; [exact Hshape | exact K].
        + munch. }
    destruct (is_digit c) eqn:Edig.
    { intro H; inversion H; subst; clear H; right.
      split; [discriminate|]. split; [apply span_bound|]. split; [|split].
      - unfold LexerSpec.lexeme_ok; simpl. split; [reflexivity|].
        exists c, (firstn (span_len num_char rest) rest). repeat split; try assumption. apply span_len_forall.
      - intros Hb _. simpl. constructor; [apply Hc0; exact Hb|].
        apply span_nonnul, num_char_nonnul.
      - munch. }
    intro H; inversion H; subst; clear H; right.
    split; [discriminate|]. split; [clear - rest; simpl; lia|]. split; [|split].
    - unfold LexerSpec.lexeme_ok; simpl. left. exists c. repeat split; assumption.
    - intros Hb _. simpl. constructor; [apply Hc0; exact Hb | constructor].
    - munch.
  Qed.

  Lemma lex_go_skip : forall k l off line col, (k <= List.length l)%nat ->
    exists line' col', lex_go k off line col l = lex_go O (off + N.of_nat k) line' col' (skipn k l).
  Proof.
    induction k as [|k IH]; intros l off line col Hk.
    - exists line, col. simpl. rewrite N.add_0_r. reflexivity.
    - destruct l as [|c rest]; simpl in Hk; [lia|].
      destruct (IH rest (off + 1) (adv_line c line) (adv_col c col)) as [l' [c' E]]; [lia|].
      exists l', c'. simpl. rewrite E. f_equal. lia.
  Qed.

  Definition partition_ok (l : list N) (off : N) (toks : list token) : Prop :=
    exists lx ts e,
      toks = ts ++ [e] /\ t_type e = T_EOF /\
      t_off e = off + N.of_nat (List.length (effective b l)) /\
      concat lx = effective b l /\
      Forall (fun x => x <> []) lx /\
      map t_off toks = off :: ends off lx /\
      Forall2 lexeme_ok ts lx /\
      Forall2 maximal_munch ts (rests l lx).

  Lemma partition_eof l lit off line col : effective b l = [] ->
    partition_ok l off [mkToken T_EOF lit off line col].
  Proof.
    intro He. exists [], [], (mkToken T_EOF lit off line col). rewrite He. simpl.
    repeat split; try reflexivity; try constructor. lia.
  Qed.

  Lemma lex_go_partition : (b = true -> oracle_ok) -> forall n l off line col,
    (List.length l <= n)%nat -> partition_ok l off (lex_go O off line col l).
  Proof.
    intros Ho n. induction n as [|n IH]; intros l off line col Hn.
    - destruct l; [|simpl in Hn; lia]. simpl. apply partition_eof. destruct b; reflexivity.
    - destruct l as [|c rest]; [simpl; apply partition_eof; destruct b; reflexivity|].
      simpl. destruct (next_token c rest) as [[ty lit] len] eqn:NT.
      apply (next_token_spec _ _ _ _ _ off line col) in NT.
      destruct NT as [[Hty [Hb Hc]] | [Hty [Hlen [Hok [Hnn Hmun]]]]].
      + subst ty c. simpl. apply partition_eof. rewrite Hb. reflexivity.
      + rewrite (token_type_beq_neq _ _ Hty).
        destruct len as [|k]; [lia|]. simpl Nat.pred.
        destruct (lex_go_skip k rest (off + 1) (adv_line c line) (adv_col c col)) as [l' [c' E]]; [lia|].
        rewrite E.
        assert (Hshort : (List.length (skipn k rest) <= n)%nat)
          by (rewrite skipn_length; simpl in Hn; lia).
        destruct (IH (skipn k rest) (off + 1 + N.of_nat k) l' c' Hshort)
          as [lx [ts [e [Et [Ee [Eoff [Ecat [Hne [Eoffs [Hall Hmunch]]]]]]]]]].
        set (x := firstn (S k) (c :: rest)) in *.
        assert (Hx : x ++ skipn k rest = c :: rest).
        { unfold x. change (skipn k rest) with (skipn (S k) (c :: rest)). apply firstn_skipn. }
        assert (Hxl : List.length x = S k).
        { unfold x. rewrite firstn_length. simpl. lia. }
        assert (Heff : effective b (c :: rest) = x ++ effective b (skipn k rest)).
        { rewrite <- Hx. apply effective_app. intro Hb. apply Hnn; [exact Hb | apply Ho; exact Hb]. }
        exists (x :: lx), (mkToken ty lit off line col :: ts), e.
        split; [rewrite Et; reflexivity|]. split; [exact Ee|].
        split; [rewrite Eoff, Heff, app_length, Hxl; lia|].
        split; [simpl; rewrite Ecat; symmetry; exact Heff|].
        split; [constructor; [intro Hx0; rewrite Hx0 in Hxl; discriminate | exact Hne]|].
        split.
        * simpl map. f_equal.
          change (ends off (x :: lx))
            with ((off + N.of_nat (List.length x)) :: ends (off + N.of_nat (List.length x)) lx).
          rewrite Eoffs, Hxl.
          replace (off + N.of_nat (S k)) with (off + 1 + N.of_nat k) by lia. reflexivity.
        * split; [constructor; assumption|].
          change (rests (c :: rest) (x :: lx))
            with (skipn (List.length x) (c :: rest) :: rests (skipn (List.length x) (c :: rest)) lx).
          rewrite Hxl. constructor; [exact Hmun | exact Hmunch].
  Qed.

  (* the theorems, for the lexer as it is (b = true) and the corrected one
     (b = false) at once *)
  Notation lex_gen := (lex_gen uni_letter uni_digit b).

  Lemma lex_gen_partition_ok input : (b = true -> oracle_ok) -> partition_ok input 0 (lex_gen input).
  Proof. intro Ho. exact (lex_go_partition Ho (List.length input) input 0 1 1 (le_n _)). Qed.

  Theorem lex_gen_total input :
    lex_gen input <> [] /\ (List.length (lex_gen input) <= S (List.length input))%nat.
  Proof.
    pose proof (lex_go_length input O 0 1 1) as H. unfold Lexer.lex_gen.
    split; [|lia]. intro E. rewrite E in H. simpl in H. lia.
  Qed.

  Theorem lex_gen_positions input : Forall (located input) (lex_gen input).
  Proof. exact (lex_go_located input [] O). Qed.

  Theorem lex_gen_partition input : (b = true -> oracle_ok) ->
    let toks := lex_gen input in
    let lx := lexemes_of input toks in
    concat lx = effective b input /\
    Forall (fun x => x <> []) lx /\
    map t_off toks = 0 :: ends 0 lx /\
    Forall2 lexeme_ok (removelast toks) lx /\
    Forall2 maximal_munch (removelast toks) (rests input lx).
  Proof.
    intro Ho. destruct (lex_gen_partition_ok input Ho)
      as [lx [ts [e [Et [Ee [Eoff [Ecat [Hne [Eoffs [Hall Hmunch]]]]]]]]]].
    assert (Hlx : lexemes_of input (lex_gen input) = lx).
    { unfold lexemes_of. rewrite Eoffs. simpl skipn.
      destruct (effective_prefix b input) as [tail Ht].
      apply (slices_ends lx input tail). rewrite Ecat. exact Ht. }
    simpl. rewrite Hlx. split; [exact Ecat|]. split; [exact Hne|]. split; [exact Eoffs|].
    rewrite Et, removelast_last. split; assumption.
  Qed.

  Theorem lex_gen_ends_with_eof input : (b = true -> oracle_ok) ->
    exists ts e, lex_gen input = ts ++ [e] /\ t_type e = T_EOF /\
                 Forall (fun t => t_type t <> T_EOF) ts /\
                 t_off e = N.of_nat (List.length (effective b input)).
  Proof.
    intro Ho. destruct (lex_gen_partition_ok input Ho) as [lx [ts [e [Et [Ee [Eoff [_ [_ [_ [Hall _]]]]]]]]]].
    exists ts, e. split; [exact Et|]. split; [exact Ee|]. split; [|rewrite Eoff; lia].
    clear - Hall. induction Hall as [|t x ts lx Hok _ IH]; constructor; [|exact IH].
    intro E. unfold LexerSpec.lexeme_ok in Hok. rewrite E in Hok. exact Hok.
  Qed.

  (* the partition theorem without, and only, its maximal-munch part *)
  Corollary lex_gen_partition4 input : (b = true -> oracle_ok) ->
    let toks := lex_gen input in
    let lx := lexemes_of input toks in
    concat lx = effective b input /\
    Forall (fun x => x <> []) lx /\
    map t_off toks = 0 :: ends 0 lx /\
    Forall2 lexeme_ok (removelast toks) lx.
  Proof.
    intro Ho. destruct (lex_gen_partition input Ho) as [H1 [H2 [H3 [H4 _]]]].
    simpl. auto.
  Qed.

  Corollary lex_gen_maximal_munch input : (b = true -> oracle_ok) ->
    let toks := lex_gen input in
    Forall2 maximal_munch (removelast toks) (rests input (lexemes_of input toks)).
  Proof.
    intro Ho. destruct (lex_gen_partition input Ho) as [_ [_ [_ [_ H5]]]]. exact H5.
  Qed.

  Lemma fixed_format_special t : plain_type t = true -> is_keyword_type t = false ->
    exists c r, tt_format t = c :: r /\ is_special b c = true.
  Proof.
    destruct t; intros Hp Hk; try discriminate Hp; try discriminate Hk;
      (eexists; eexists; split; [reflexivity | reflexivity]).
  Qed.

  Lemma keyword_type_in t : is_keyword_type t = true -> In (tt_format t, t) keywords.
  Proof.
    unfold is_keyword_type. intro H. apply existsb_exists in H as [[w k] [Hin Hk]].
    simpl in Hk. apply token_type_beq_eq in Hk. subst k.
    destruct (keyword_entry _ _ Hin) as [_ Hf]. rewrite Hf. exact Hin.
  Qed.

  Theorem keyword_iff_lexeme t x : lexeme_ok t x -> ident_shaped x ->
    (forall k, In (x, k) keywords -> t_type t = k /\ t_lit t = []) /\
    ((forall k, ~ In (x, k) keywords) -> t_type t = T_IDENT /\ t_lit t = x) /\
    (is_keyword_type (t_type t) = true -> In (x, t_type t) keywords).
  Proof.
    intros Hok [c [r [Hx [Hsp [Hlet Hr]]]]].
    assert (Hnot_special : forall c' r', x = c' :: r' -> is_special b c' = true -> False).
    { intros c' r' E Hs. rewrite Hx in E. inversion E; subst. rewrite Hs in Hsp. discriminate. }
    unfold LexerSpec.lexeme_ok in Hok.
    destruct (plain_type (t_type t)) eqn:Hp.
    - (* operator, delimiter, NL or keyword: x = tt_format ty *)
      assert (Hok' : t_lit t = [] /\ x = tt_format (t_type t)) by (destruct (t_type t); try discriminate Hp; exact Hok).
      destruct Hok' as [Hlit Hfmt].
      destruct (is_keyword_type (t_type t)) eqn:Hk.
      + pose proof (keyword_type_in _ Hk) as Hin. rewrite <- Hfmt in Hin.
        split; [|split].
        * intros k Hk'. split; [|exact Hlit].
          pose proof (lookup_keyword_complete _ _ _ keywords_nodup Hin) as L1.
          pose proof (lookup_keyword_complete _ _ _ keywords_nodup Hk') as L2. congruence.
        * intro Hno. exfalso. exact (Hno _ Hin).
        * intros _. exact Hin.
      + exfalso. destruct (fixed_format_special _ Hp Hk) as [c' [r' [Ef Hs]]].
        apply (Hnot_special c' r'); [rewrite Hfmt; exact Ef | exact Hs].
    - destruct (t_type t) eqn:Ety; try discriminate Hp.
      + (* ILLEGAL *) exfalso. destruct Hok as [[c' [Ex [_ [_ [Hl _]]]]] | [[body Ex] _]].
        * rewrite Hx in Ex. inversion Ex; subst. rewrite Hl in Hlet. discriminate.
        * apply (Hnot_special 34 body Ex). unfold is_special. reflexivity.
      + (* EOF *) contradiction.
      + (* COMMENT *) exfalso. destruct Hok as [_ [body [Ex _]]].
        apply (Hnot_special 47 (47 :: body) Ex). reflexivity.
      + (* IDENT *) destruct Hok as [Hlit [_ Hnone]]. split; [|split].
        * intros k Hin. exfalso. exact (lookup_keyword_none _ _ Hnone k Hin).
        * intros _. split; [reflexivity | exact Hlit].
        * intro Hk. discriminate Hk.
      + (* NUM_LIT *) exfalso. destruct Hok as [_ [c' [ds [Ex [_ [Hl _]]]]]].
        rewrite Hx in Ex. inversion Ex; subst. rewrite Hl in Hlet. discriminate.
      + (* STRING_LIT *) exfalso. destruct Hok as [[body Ex] _].
        apply (Hnot_special 34 body Ex). reflexivity.
      + (* WS *) exfalso. destruct Hok as [_ [c' [ws [Ex [Hc _]]]]].
        apply (Hnot_special c' ws Ex). destruct Hc; subst; reflexivity.
  Qed.
End Proofs.

(* the fix of d745e6e changed nothing on inputs without U+0000 *)
Lemma span_len_ext p q l :
  Forall (fun c => p c = q c) l -> span_len p l = span_len q l.
Proof. induction 1 as [|c l H _ IH]; simpl; [reflexivity|]. rewrite H, IH. reflexivity. Qed.

Lemma is_end_nonnul bb c : c <> 0 -> is_end bb c = false.
Proof. intro H. unfold is_end. apply N.eqb_neq in H. rewrite H. apply andb_false_r. Qed.

Lemma string_span_nonnul_eq l : Forall (fun c => c <> 0) l ->
  forall esc, string_span true esc l = string_span false esc l.
Proof.
  induction 1 as [|c l H _ IH]; intro esc; cbn [string_span]; [reflexivity|].
  rewrite !(is_end_nonnul _ c H), IH. reflexivity.
Qed.

Lemma next_token_nonnul_eq L D c rest : c <> 0 -> Forall (fun c => c <> 0) rest ->
  next_token L D true c rest = next_token L D false c rest.
Proof.
  intros Hc Hr. unfold next_token.
  rewrite !(is_end_nonnul _ c Hc), (string_span_nonnul_eq rest Hr).
  rewrite (span_len_ext (comment_char true) (comment_char false) rest); [reflexivity|].
  eapply Forall_impl; [|exact Hr]. intros a Ha. unfold comment_char. rewrite !(is_end_nonnul _ a Ha). reflexivity.
Qed.

Lemma lex_go_nonnul_eq L D l : Forall (fun c => c <> 0) l ->
  forall skip off line col, lex_go L D true skip off line col l = lex_go L D false skip off line col l.
Proof.
  induction 1 as [|c l Hc Hl IH]; intros skip off line col; simpl; [reflexivity|].
  destruct skip; [|apply IH].
  rewrite (next_token_nonnul_eq L D c l Hc Hl).
  destruct (next_token L D false c l) as [[ty lit] len].
  destruct (token_type_beq ty T_EOF); [reflexivity|]. rewrite IH. reflexivity.
Qed.

Theorem lex_before_fix_agrees L D input : Forall (fun c => c <> 0) input ->
  lex_before_fix L D input = lex L D input.
Proof. intro H. exact (lex_go_nonnul_eq L D input H O 0 1 1). Qed.

(* strconv.Unquote model: the escape-free case *)
Lemma unquote_plain body :
  Forall (fun c => c <> 34 /\ c <> 92 /\ c <> 10) body ->
  unquote (34 :: body ++ [34]) = Some body.
Proof.
  unfold unquote. induction 1 as [|c body [H34 [H92 H10]] _ IH].
  - reflexivity.
  - change ((c :: body) ++ [34]) with (c :: (body ++ [34])).
    apply N.eqb_neq in H34, H92, H10.
    cbn [unquote_body]. rewrite H34, H10, H92. cbn [negb]. rewrite IH. reflexivity.
Qed.

Lemma unquote_unterminated body :
  Forall (fun c => c <> 34 /\ c <> 92) body -> unquote (34 :: body) = None.
Proof.
  unfold unquote. induction 1 as [|c body [H34 H92] _ IH]; [reflexivity|].
  apply N.eqb_neq in H34, H92.
  cbn [unquote_body]. rewrite H34, H92. cbn [negb].
  destruct (c =? 10); [reflexivity|]. rewrite IH. reflexivity.
Qed.
