(* LocalInitProofs.v — linit_check is sound: on a well-formed program it
   accepts, the VM model never executes an OpGetLocal on a slot that no
   executed OpSetLocal has written. *)
From Coq Require Import ZArith NArith List Bool Lia FMapPositive.
From EvyV Require Import Base Bytecode BytecodeProofs Vm VmProofs LocalInit.
Require Import EvyV.Gen.Opcodes.
Import ListNotations.
Open Scope N_scope.

Definition LINIT (bc : bcinfo) : Prop :=
  exists (instrs : list (N * instr)) (c : N -> option (list N)),
    decode_all (bcode bc) = Some instrs /\
    (instrs <> [] -> c 0 = Some []) /\
    forall pc i w, In (pc, i) instrs -> c pc = Some w ->
      (opc_of_N (iop i) = Some GetLocal -> In (arg0 i) w) /\
      forall t, In t (lsuccs pc i) ->
        t = codelen bc \/ exists w', c t = Some w' /\ incl w' (lout i w).

Lemma lmem_in a l : lmem a l = true <-> In a l.
Proof.
  unfold lmem. rewrite existsb_exists. split.
  - intros (x & HI & E). apply N.eqb_eq in E. subst. exact HI.
  - intro HI. exists a. split; [exact HI|apply N.eqb_refl].
Qed.

Lemma lsubset_incl x y : lsubset x y = true -> incl x y.
Proof. unfold lsubset. rewrite forallb_forall. intros H a HI. apply lmem_in. apply H. exact HI. Qed.

Theorem linit_check_sound : forall bc, linit_check bc = true -> LINIT bc.
Proof.
  intros bc H. unfold linit_check in H. destruct (decode_all (bcode bc)) as [instrs|] eqn:ED; [|discriminate].
  set (m := linit_sets bc instrs) in *. unfold linit_verify in H. apply andb_true_iff in H. destruct H as [H0 H1].
  exists instrs, (fun pc => cfind pc m). split; [exact ED|]. split.
  - intro NE. destruct instrs as [|x t]; [congruence|]. destruct (cfind 0 m) as [[|a l]|]; try discriminate. reflexivity.
  - intros pc i w HI Hc. rewrite forallb_forall in H1. specialize (H1 _ HI). unfold lcheck_instr in H1. rewrite Hc in H1.
    apply andb_true_iff in H1. destruct H1 as [G S]. split.
    + intro HO. rewrite HO in G. apply lmem_in. exact G.
    + intros t Ht. rewrite forallb_forall in S. specialize (S _ Ht). apply orb_true_iff in S. destruct S as [S|S].
      * left. apply N.eqb_eq in S. exact S.
      * right. destruct (cfind t m) as [w'|]; [|discriminate]. exists w'. split; [reflexivity|apply lsubset_incl; exact S].
Qed.

Definition fetch (p : program) (s : vmstate) : option instr :=
  option_map fst (decode1 (skipn (N.to_nat (ip s)) (pcode p))).

Definition wstep (p : program) (s : vmstate) (w : list N) : list N :=
  match fetch p s with Some i => lout i w | None => w end.

Inductive reach_w (p : program) : vmstate -> list N -> Prop :=
| rw_init : reach_w p (vm_init p) []
| rw_step s w s' : reach_w p s w -> vm_step p s = Running s' -> reach_w p s' (wstep p s w)
(* as in reachable_h: the contents of arrays and maps may change behind the model's back *)
| rw_heap s w s' : reach_w p s w -> perturbed s s' -> reach_w p s' w.

Lemma reach_w_reachable_h p s w : reach_w p s w -> reachable_h p s.
Proof. induction 1; [constructor|eapply rh_step; eauto|eapply rh_heap; eauto]. Qed.

Lemma with_stack_ip s next stk s' : with_stack s next stk = Running s' -> ip s' = next.
Proof. unfold with_stack. destruct (_ <? _); [discriminate|]. intro H. inversion H. reflexivity. Qed.

Lemma exec_ip p s o arg next s' : exec p s o arg next = Running s' ->
  (o <> Jump /\ ip s' = next) \/ ((o = Jump \/ o = JumpOnFalse) /\ ip s' = arg).
Proof.
  intro H.
  destruct o; unfold exec in H;
    try (destruct (simple_effect _ arg) as [[pn q]|]; [|discriminate]);
    repeat (match type of H with
            | context [match ?x with _ => _ end] => destruct x; try discriminate
            | context [if ?c then _ else _] => destruct c; try discriminate
            end);
    try (left; split; [discriminate|apply (with_stack_ip _ _ _ _ H)]);
    try (inversion H; subst; cbn [ip]; first [left; split; [discriminate|reflexivity]
                                            |right; split; [left; reflexivity|reflexivity]
                                            |right; split; [right; reflexivity|reflexivity]]).
Qed.

Lemma step_lsuccs p s s' i rest o :
  decode1 (skipn (N.to_nat (ip s)) (pcode p)) = Some (i, rest) -> opc_of_N (iop i) = Some o ->
  vm_step p s = Running s' -> In (ip s') (lsuccs (ip s) i).
Proof.
  intros HD1 Ho Hstep. rewrite (vm_step_decoded p s i rest o HD1 Ho) in Hstep. apply exec_ip in Hstep.
  unfold lsuccs. rewrite Ho.
  destruct Hstep as [[NJ E1]|[[E1|E1] E2]]; [|subst o; left; exact (eq_sym E2)|subst o; right; left; exact (eq_sym E2)].
  rewrite E1. destruct o; try congruence; cbn; auto.
Qed.

Lemma step_succ p instrs h s s' :
  decode_all (pcode p) = Some instrs ->
  (forall pc a, h pc = Some a ->
     exists i succs, In (pc, i) instrs /\ xfer (plcount p) pc i a = Some succs /\
       forall t a', In (t, a') succs ->
         (t = codelen (info_of p) /\ a' = AH (plcount p)) \/ (t < codelen (info_of p) /\ h t = Some a')) ->
  vinv p h s -> vm_step p s = Running s' ->
  exists i, In (ip s, i) instrs /\ fetch p s = Some i /\ In (ip s') (lsuccs (ip s) i).
Proof.
  intros HD HF [Hfr [[Hip Hst]|[Hip (a & Ha & Hm)]]] Hstep.
  - exfalso. rewrite vm_step_end in Hstep by (rewrite Hip; apply N.le_refl). discriminate.
  - destruct (HF _ _ Ha) as (i & succs & HI & Hx & _).
    destruct (decode_all_fetch _ _ _ _ HD HI) as (rest & HD1 & Hend).
    exists i. split; [exact HI|]. split; [unfold fetch; rewrite HD1; reflexivity|].
    destruct (xfer_some_opc _ _ _ _ _ Hx) as (o & Ho).
    exact (step_lsuccs p s s' i rest o HD1 Ho Hstep).
Qed.

(* The theorem: on a well-formed program that linit_check accepts, whenever
   the machine is about to execute OpGetLocal a, slot a has been written by an
   OpSetLocal executed before (w collects exactly those operands). *)
Theorem linit_safe : forall (p : program), WF (info_of p) -> linit_check (info_of p) = true ->
  forall s w, reach_w p s w ->
  forall i, fetch p s = Some i -> ip s < N.of_nat (List.length (pcode p)) ->
            opc_of_N (iop i) = Some GetLocal -> In (arg0 i) w.
Proof.
  intros p HW HL s w HR.
  destruct HW as (instrs & h & HD & HS & HE & HF).
  apply linit_check_sound in HL. destruct HL as (instrs' & c & HD' & HC0 & HC).
  simpl in HD, HD'. rewrite HD in HD'. inversion HD'; subst instrs'. clear HD'.
  assert (HS' : forall pc i, In (pc, i) instrs -> operand_ok (info_of p) i = true)
    by (intros pc i HI; apply (HS pc i HI)).
  (* the safety invariant and the written-set invariant together *)
  assert (INV : vinv p h s /\ (ip s = codelen (info_of p) \/ exists w0, c (ip s) = Some w0 /\ incl w0 w)).
  { induction HR as [|s w s' HR IH Hstep|s w s' HR IH HP].
    - split; [exact (vinv_init p instrs h HD HE)|].
      destruct (pcode p) as [|b t] eqn:EC.
      + left. unfold codelen. simpl. rewrite EC. reflexivity.
      + right. exists []. split; [|intros x []]. apply HC0. eapply decode_all_nonempty; eauto. discriminate.
    - destruct IH as [IV IW]. split.
      + pose proof (step_good p instrs h HD HS' HF s IV) as G. rewrite Hstep in G. exact G.
      + destruct (step_succ p instrs h s s' HD HF IV Hstep) as (i & HI & Hf & Hsucc).
        destruct IW as [IW|(w0 & Hc & Hincl)].
        * exfalso. rewrite vm_step_end in Hstep by (rewrite IW; apply N.le_refl). discriminate.
        * destruct (HC _ _ _ HI Hc) as [_ HSu]. destruct (HSu _ Hsucc) as [E|(w' & Hc' & Hi')]; [left; exact E|].
          right. exists w'. split; [exact Hc'|]. unfold wstep. rewrite Hf.
          intros x Hx. apply Hi' in Hx. unfold lout in *. destruct (opc_of_N (iop i)) as [[]|]; auto.
          destruct Hx as [Hx|Hx]; [left; exact Hx|right; apply Hincl; exact Hx].
    - destruct IH as [IV IW]. split; [apply (vinv_perturbed p h s s' IV HP)|].
      destruct HP as (Hip & _). rewrite Hip. exact IW. }
  destruct INV as [IV [IW|(w0 & Hc & Hincl)]]; intros i Hf Hlt HO.
  - unfold codelen in IW. simpl in IW. lia.
  - destruct IV as [_ [[Hip _]|[_ (a & Ha & _)]]]; [unfold codelen in Hip; simpl in Hip; lia|].
    destruct (HF _ _ Ha) as (i' & succs & HI & _).
    destruct (decode_all_fetch _ _ _ _ HD HI) as (rest & HD1 & _).
    unfold fetch in Hf. rewrite HD1 in Hf. simpl in Hf. inversion Hf; subst i'.
    destruct (HC _ _ _ HI Hc) as [HG _]. apply Hincl. apply HG. exact HO.
Qed.
