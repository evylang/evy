(* OmapProofs.v — the Go map representation (hash map + order slice) refines an
   insertion-ordered association list, over every history including loops
   that mutate the map they iterate over. *)
From Coq Require Import ZArith NArith List Bool Lia Permutation.
From EvyV Require Import Base Omap.
Import ListNotations.

Definition keys {V} (p : list (str * V)) : list str := map fst p.

Section PairsFacts.
  Context {V : Type}.
  Implicit Types (p : list (str * V)) (k : str).

  Lemma plookup_In_keys p k : plookup k p <> None <-> In k (keys p).
  Proof.
    induction p as [|[k' v] t IH]; simpl; [tauto|].
    destruct (str_eqb k' k) eqn:E.
    - apply str_eqb_eq in E; subst. split; [auto | discriminate].
    - apply str_eqb_neq in E. rewrite IH. split; [auto | intros [H|H]; [contradiction|exact H]].
  Qed.

  Lemma plookup_None_keys p k : plookup k p = None <-> ~ In k (keys p).
  Proof.
    rewrite <- plookup_In_keys. destruct (plookup k p) eqn:E; split; intro H;
      [discriminate | exfalso; apply H; discriminate | intro H'; apply H'; reflexivity | reflexivity].
  Qed.

  Lemma plookup_premove_same p k : plookup k (premove k p) = None.
  Proof.
    induction p as [|[k' v] t IH]; simpl; [reflexivity|].
    destruct (str_eqb k' k) eqn:E; [exact IH|]. simpl. rewrite E. exact IH.
  Qed.

  Lemma plookup_premove_other p k k' : k <> k' -> plookup k' (premove k p) = plookup k' p.
  Proof.
    intro N. induction p as [|[k2 v] t IH]; simpl; [reflexivity|].
    destruct (str_eqb k2 k) eqn:E.
    - apply str_eqb_eq in E; subst. destruct (str_eqb k k') eqn:E2;
        [apply str_eqb_eq in E2; contradiction | exact IH].
    - simpl. destruct (str_eqb k2 k'); [reflexivity | exact IH].
  Qed.

  Lemma plookup_pset_same p k v : plookup k (pset k v p) = Some v.
  Proof. unfold pset; simpl. rewrite str_eqb_refl. reflexivity. Qed.

  Lemma plookup_pset_other p k k' v : k <> k' -> plookup k' (pset k v p) = plookup k' p.
  Proof.
    intro N. unfold pset; simpl. destruct (str_eqb k k') eqn:E;
      [apply str_eqb_eq in E; contradiction | apply plookup_premove_other; exact N].
  Qed.

  Lemma keys_premove_incl p k x : In x (keys (premove k p)) -> In x (keys p) /\ x <> k.
  Proof.
    induction p as [|[k' v] t IH]; simpl; [tauto|].
    destruct (str_eqb k' k) eqn:E.
    - intro H. apply IH in H. tauto.
    - apply str_eqb_neq in E. simpl. intros [H|H]; [subst; tauto | apply IH in H; tauto].
  Qed.

  Lemma keys_premove_In p k x : In x (keys p) -> x <> k -> In x (keys (premove k p)).
  Proof.
    induction p as [|[k' v] t IH]; simpl; [tauto|].
    intros [H|H] N.
    - subst. destruct (str_eqb x k) eqn:E; [apply str_eqb_eq in E; contradiction | left; reflexivity].
    - destruct (str_eqb k' k); [apply IH; assumption | right; apply IH; assumption].
  Qed.

  Lemma NoDup_keys_premove p k : NoDup (keys p) -> NoDup (keys (premove k p)).
  Proof.
    induction p as [|[k' v] t IH]; simpl; intro H; [constructor|].
    inversion H as [|? ? Hn Hd]; subst.
    destruct (str_eqb k' k); [apply IH; exact Hd|].
    simpl. constructor; [|apply IH; exact Hd].
    intro Hin. apply keys_premove_incl in Hin. tauto.
  Qed.

  Lemma premove_notin p k : ~ In k (keys p) -> premove k p = p.
  Proof.
    induction p as [|[k' v] t IH]; simpl; intro H; [reflexivity|].
    destruct (str_eqb k' k) eqn:E; [apply str_eqb_eq in E; subst; tauto|].
    f_equal. apply IH. tauto.
  Qed.

  Lemma length_premove_in p k :
    NoDup (keys p) -> In k (keys p) -> length p = S (length (premove k p)).
  Proof.
    induction p as [|[k' v] t IH]; simpl; intros Hd Hin; [contradiction|].
    inversion Hd as [|? ? Hn Hd']; subst.
    destruct (str_eqb k' k) eqn:E.
    - apply str_eqb_eq in E; subst. rewrite premove_notin by exact Hn. reflexivity.
    - apply str_eqb_neq in E. destruct Hin as [Hin|Hin]; [contradiction|].
      simpl. f_equal. apply IH; assumption.
  Qed.

  Lemma In_plookup p k v : NoDup (keys p) -> (In (k, v) p <-> plookup k p = Some v).
  Proof.
    induction p as [|[k' v'] t IH]; simpl; intro Hnd; [split; [tauto|discriminate]|].
    inversion Hnd as [|? ? Hn Hd']; subst.
    destruct (str_eqb k' k) eqn:E.
    - apply str_eqb_eq in E; subst. split.
      + intros [H|H]; [inversion H; reflexivity|].
        exfalso. apply Hn. apply in_map_iff. exists (k, v); split; [reflexivity|exact H].
      + intro H; inversion H; left; reflexivity.
    - apply str_eqb_neq in E. rewrite <- IH by exact Hd'. split.
      + intros [H|H]; [inversion H; congruence | exact H].
      + tauto.
  Qed.

  Lemma keys_pset p k v x : In x (keys (pset k v p)) <-> x = k \/ In x (keys p).
  Proof.
    unfold pset; simpl. split.
    - intros [H|H]; [left; auto | right; apply keys_premove_incl in H; tauto].
    - intros [->|H]; [left; reflexivity|].
      destruct (str_eq_dec x k) as [->|N]; [left; reflexivity | right; apply keys_premove_In; assumption].
  Qed.

  Lemma NoDup_keys_pset p k v : NoDup (keys p) -> NoDup (keys (pset k v p)).
  Proof.
    intro Hp. unfold pset; simpl. constructor; [|apply NoDup_keys_premove; exact Hp].
    intro Hx. apply keys_premove_incl in Hx. tauto.
  Qed.

  (* the specification's delete is premove (as its lookup, aget, is plookup) *)
  Lemma adel_premove p k : adel k p = premove k p.
  Proof.
    induction p as [|[a b] t IH]; simpl; [reflexivity|].
    destruct (str_eqb a k); simpl; [exact IH | f_equal; exact IH].
  Qed.
End PairsFacts.

Global Opaque pset.

Lemma remove_first_notin k o : ~ In k o -> remove_first k o = o.
Proof.
  induction o as [|x t IH]; simpl; intro H; [reflexivity|].
  destruct (str_eqb x k) eqn:E; [apply str_eqb_eq in E; subst; tauto|].
  f_equal; apply IH; tauto.
Qed.

Lemma In_remove_first k o x : NoDup o -> (In x (remove_first k o) <-> In x o /\ x <> k).
Proof.
  induction o as [|y t IH]; simpl; intro Hd; [tauto|].
  inversion Hd as [|? ? Hn Hd']; subst.
  destruct (str_eqb y k) eqn:E.
  - apply str_eqb_eq in E; subst. split.
    + intro H. split; [right; exact H | intro; subst; contradiction].
    + intros [[H|H] N]; [subst; contradiction | exact H].
  - apply str_eqb_neq in E. simpl. rewrite IH by exact Hd'. split.
    + intros [H|[H N]]; [subst; tauto | tauto].
    + intros [[H|H] N]; [left; exact H | right; tauto].
Qed.

Lemma NoDup_remove_first k o : NoDup o -> NoDup (remove_first k o).
Proof.
  induction o as [|y t IH]; simpl; intro Hd; [constructor|].
  inversion Hd as [|? ? Hn Hd']; subst.
  destruct (str_eqb y k); [exact Hd'|].
  constructor; [|apply IH; exact Hd'].
  intro H. apply In_remove_first in H; [tauto | exact Hd'].
Qed.

Lemma NoDup_snoc (o : list str) k : NoDup o -> ~ In k o -> NoDup (o ++ [k]).
Proof.
  induction o as [|x t IH]; simpl; intros Hd Hn; [constructor; [simpl; tauto | constructor]|].
  inversion Hd as [|? ? Hx Hd']; subst. constructor.
  - intro H. apply in_app_or in H as [H|[H|[]]]; [contradiction | subst; tauto].
  - apply IH; tauto.
Qed.

Lemma forallb_same_members {A} (f g : A -> bool) (l1 l2 : list A) :
  (forall x, In x l1 <-> In x l2) -> (forall x, f x = g x) -> forallb f l1 = forallb g l2.
Proof.
  intros M FG. apply eq_true_iff_eq. rewrite !forallb_forall.
  split; intros H x Hx; [rewrite <- FG | rewrite FG]; apply H, M, Hx.
Qed.

Definition Inv {V} (m : omap V) : Prop :=
  NoDup (order m) /\ NoDup (keys (pairs m)) /\
  (forall k, In k (order m) <-> In k (keys (pairs m))).

Fixpoint abs_aux {V} (p : list (str * V)) (o : list str) : alist V :=
  match o with
  | [] => []
  | k :: t => match plookup k p with
              | Some v => (k, v) :: abs_aux p t
              | None => abs_aux p t
              end
  end.
Definition abs {V} (m : omap V) : alist V := abs_aux (pairs m) (order m).

Definition R {V} (m : omap V) (l : alist V) : Prop := Inv m /\ l = abs m.

Section AbsFacts.
  Context {V : Type}.
  Implicit Types (p : list (str * V)) (o : list str) (k : str).

  Lemma abs_aux_ext p p' o :
    (forall k, In k o -> plookup k p = plookup k p') -> abs_aux p o = abs_aux p' o.
  Proof.
    induction o as [|x t IH]; simpl; intro H; [reflexivity|].
    rewrite <- (H x) by (left; reflexivity).
    rewrite IH by (intros; apply H; right; assumption). reflexivity.
  Qed.

  Lemma abs_aux_app p o1 o2 : abs_aux p (o1 ++ o2) = abs_aux p o1 ++ abs_aux p o2.
  Proof.
    induction o1 as [|x t IH]; simpl; [reflexivity|].
    destruct (plookup x p); rewrite IH; reflexivity.
  Qed.

  Lemma aget_abs_aux p o k :
    aget k (abs_aux p o) = if mem_str k o then plookup k p else None.
  Proof.
    induction o as [|x t IH]; simpl; [reflexivity|].
    destruct (str_eqb x k) eqn:E.
    - apply str_eqb_eq in E; subst. simpl.
      destruct (plookup k p) eqn:L; simpl.
      + rewrite str_eqb_refl. reflexivity.
      + rewrite IH. destruct (mem_str k t); reflexivity.
    - simpl. destruct (plookup x p) eqn:L; simpl; [rewrite E|]; exact IH.
  Qed.

  Lemma keys_abs_aux p o :
    (forall k, In k o -> In k (keys p)) -> map fst (abs_aux p o) = o.
  Proof.
    induction o as [|x t IH]; simpl; intro H; [reflexivity|].
    destruct (plookup x p) eqn:L.
    - simpl. f_equal. apply IH. intros; apply H; right; assumption.
    - exfalso. apply plookup_None_keys in L. apply L, H. left; reflexivity.
  Qed.

  Lemma olist_aux_abs p o :
    (forall k, In k o -> In k (keys p)) -> olist_aux p o = Some (abs_aux p o).
  Proof.
    induction o as [|x t IH]; simpl; intro H; [reflexivity|].
    destruct (plookup x p) eqn:L.
    - rewrite IH by (intros; apply H; right; assumption). reflexivity.
    - exfalso. apply plookup_None_keys in L. apply L, H. left; reflexivity.
  Qed.

  Lemma In_abs_aux p o k v : In (k, v) (abs_aux p o) <-> In k o /\ plookup k p = Some v.
  Proof.
    induction o as [|x t IH]; simpl; [tauto|].
    destruct (plookup x p) eqn:L; simpl; rewrite IH; split.
    - intros [H|H]; [inversion H; subst; tauto | tauto].
    - intros [[H|H] H2]; [subst; left; congruence | tauto].
    - tauto.
    - intros [[H|H] H2]; [subst; congruence | tauto].
  Qed.

  Lemma abs_aux_replace p o k v :
    NoDup o -> In k o -> plookup k p <> None ->
    abs_aux (pset k v p) o = areplace k v (abs_aux p o).
  Proof.
    induction o as [|x t IH]; simpl; intros Hd Hin Hl; [contradiction|].
    inversion Hd as [|? ? Hn Hd']; subst.
    destruct (str_eqb x k) eqn:E.
    - apply str_eqb_eq in E; subst. rewrite plookup_pset_same.
      destruct (plookup k p) eqn:L; [|congruence]. simpl. rewrite str_eqb_refl.
      f_equal. apply abs_aux_ext. intros k' Hk'. apply plookup_pset_other.
      intro; subst; contradiction.
    - apply str_eqb_neq in E. destruct Hin as [Hin|Hin]; [congruence|].
      rewrite plookup_pset_other by congruence.
      destruct (plookup x p) eqn:L; simpl.
      + destruct (str_eqb x k) eqn:E2; [apply str_eqb_eq in E2; contradiction|].
        f_equal. apply IH; assumption.
      + apply IH; assumption.
  Qed.

  Lemma abs_aux_del p o k :
    NoDup o -> abs_aux (premove k p) (remove_first k o) = adel k (abs_aux p o).
  Proof.
    induction o as [|x t IH]; simpl; intro Hd; [reflexivity|].
    inversion Hd as [|? ? Hn Hd']; subst.
    destruct (str_eqb x k) eqn:E.
    - apply str_eqb_eq in E; subst.
      assert (Ht : abs_aux (premove k p) t = adel k (abs_aux p t)).
      { rewrite <- IH by exact Hd'. rewrite remove_first_notin by exact Hn. reflexivity. }
      destruct (plookup k p); simpl; [rewrite str_eqb_refl; simpl|]; exact Ht.
    - apply str_eqb_neq in E. simpl. rewrite plookup_premove_other by congruence.
      destruct (plookup x p); simpl.
      + destruct (str_eqb x k) eqn:E2; [apply str_eqb_eq in E2; contradiction|].
        simpl. f_equal. apply IH; exact Hd'.
      + apply IH; exact Hd'.
  Qed.
End AbsFacts.

Section Ops.
  Context {V : Type}.
  Implicit Types (m : omap V) (l : alist V) (k : str).

  Lemma R_empty : R (@oempty V) [].
  Proof.
    split; [|reflexivity]. repeat split; simpl; try constructor; tauto.
  Qed.

  Lemma get_agree m l k : R m l -> oget k m = aget k l.
  Proof.
    intros [[Hd [Hp Hk]] ->]. unfold oget, abs. rewrite aget_abs_aux.
    destruct (mem_str k (order m)) eqn:E; [reflexivity|].
    apply plookup_None_keys. rewrite <- Hk. rewrite <- mem_str_In. congruence.
  Qed.

  Lemma has_agree m l k : R m l -> ohas k m = ahas k l.
  Proof. intro H. unfold ohas, ahas. rewrite <- (get_agree m l k H). reflexivity. Qed.

  Lemma keys_agree m l : R m l -> order m = map fst l.
  Proof.
    intros [[Hd [Hp Hk]] ->]. unfold abs. symmetry. apply keys_abs_aux.
    intros k Hin. apply Hk. exact Hin.
  Qed.

  Lemma list_agree m l : R m l -> olist m = Some l.
  Proof.
    intros [[Hd [Hp Hk]] ->]. unfold olist, abs. apply olist_aux_abs.
    intros k Hin. apply Hk. exact Hin.
  Qed.

  Lemma len_agree m l : R m l -> olen m = length l.
  Proof.
    intros H. pose proof (keys_agree m l H) as Hk. destruct H as [[Hd [Hp Hiff]] ->].
    unfold olen. rewrite <- (map_length fst (abs m)), <- Hk.
    rewrite <- (map_length fst (pairs m)). fold (keys (pairs m)).
    apply Nat.le_antisymm; apply NoDup_incl_length; try assumption; intros x Hx; apply Hiff; exact Hx.
  Qed.

  Lemma set_R m l k v : R m l -> R (oset k v m) (aset k v l).
  Proof.
    intros H. pose proof (get_agree m l k H) as Hg. destruct H as [[Hd [Hp Hiff]] ->].
    unfold oset, aset. rewrite <- Hg. unfold oget.
    destruct (plookup k (pairs m)) eqn:L.
    - (* overwrite: order unchanged *)
      assert (Hin : In k (order m)) by (apply Hiff, plookup_In_keys; congruence).
      split.
      + split; [exact Hd|]. split; [apply NoDup_keys_pset; exact Hp|]. simpl.
        intro x. rewrite keys_pset, <- Hiff. split; [tauto | intros [->|Hx]; assumption].
      + unfold abs; simpl. symmetry. apply abs_aux_replace; try assumption. congruence.
    - (* new key: appended *)
      assert (Hnin : ~ In k (order m)) by (rewrite Hiff; apply plookup_None_keys; exact L).
      split.
      + split; [apply NoDup_snoc; assumption|]. split; [apply NoDup_keys_pset; exact Hp|]. simpl.
        intro x. rewrite in_app_iff, keys_pset, <- Hiff. simpl. intuition congruence.
      + unfold abs; simpl. rewrite abs_aux_app. simpl. rewrite plookup_pset_same. f_equal.
        apply abs_aux_ext. intros k' Hk'. symmetry. apply plookup_pset_other.
        intro; subst; contradiction.
  Qed.

  Lemma del_R m l k : R m l -> R (odel k m) (adel k l).
  Proof.
    intros H. destruct H as [[Hd [Hp Hiff]] ->]. unfold odel.
    destruct (plookup k (pairs m)) eqn:L.
    - split.
      + repeat split; simpl.
        * apply NoDup_remove_first; exact Hd.
        * apply NoDup_keys_premove; exact Hp.
        * intro Hx. apply In_remove_first in Hx; [|exact Hd]. destruct Hx as [Hx N].
          apply keys_premove_In; [apply Hiff; exact Hx | exact N].
        * intro Hx. apply keys_premove_incl in Hx as [Hx N].
          apply In_remove_first; [exact Hd | split; [apply Hiff; exact Hx | exact N]].
      + unfold abs; simpl. symmetry. apply abs_aux_del. exact Hd.
    - split; [exact (conj Hd (conj Hp Hiff))|].
      rewrite adel_premove. apply premove_notin. unfold keys, abs.
      rewrite keys_abs_aux by (intros x Hx; apply Hiff; exact Hx).
      rewrite Hiff. apply plookup_None_keys; exact L.
  Qed.

  Lemma literal_R (lit : list (str * V)) : R (oliteral lit) (aliteral lit).
  Proof.
    unfold oliteral, aliteral.
    assert (G : forall m l, R m l ->
              R (fold_left (fun a kv => oset (fst kv) (snd kv) a) lit m)
                (fold_left (fun a (kv : str * V) => aset (fst kv) (snd kv) a) lit l)).
    { induction lit as [|[k v] t IH]; simpl; intros m l H; [exact H|].
      apply IH. apply set_R. exact H. }
    apply G. apply R_empty.
  Qed.

  (* membership in abs m is membership in the hash map *)
  Lemma In_abs m k v : Inv m -> (In (k, v) (abs m) <-> In (k, v) (pairs m)).
  Proof.
    intros [Hd [Hp Hiff]]. unfold abs. rewrite In_abs_aux, (In_plookup _ k v Hp).
    split; [tauto|]. intro H. split; [|exact H]. apply Hiff. apply plookup_In_keys. congruence.
  Qed.

  Lemma equals_agree (veq : V -> V -> bool) m1 l1 m2 l2 :
    R m1 l1 -> R m2 l2 -> oequals veq m1 m2 = aequals veq l1 l2.
  Proof.
    intros H1 H2. unfold oequals, aequals.
    pose proof (len_agree _ _ H1) as L1. pose proof (len_agree _ _ H2) as L2.
    unfold olen in L1, L2. rewrite L1, L2. f_equal.
    destruct H1 as [I1 ->]. apply forallb_same_members.
    - intros [k v]. symmetry. apply In_abs, I1.
    - intro kv. rewrite <- (get_agree m2 l2 (fst kv) H2). reflexivity.
  Qed.
End Ops.

Definition Rst (x : st (omap Z)) (y : st (alist Z)) : Prop :=
  R (dmap x) (dmap y) /\ outs x = outs y /\ stat x = stat y.

Lemma running_agree x y : Rst x y -> running x = running y.
Proof. intros [_ [_ H]]. unfold running. rewrite H. reflexivity. Qed.

(* a stronger induction principle for [op] (nested through [list]) *)
Section OpInd.
  Variable P : op -> Prop.
  Hypothesis Hset : forall k v, P (OSet k v).
  Hypothesis Hdel : forall k, P (ODel k).
  Hypothesis Hget : forall k, P (OGet k).
  Hypothesis Hhas : forall k, P (OHas k).
  Hypothesis Hlen : P OLen.
  Hypothesis Hprint : P OPrint.
  Hypothesis Heq : forall l, P (OEqLit l).
  Hypothesis Hreset : forall l, P (OReset l).
  Hypothesis Hloop : forall body, Forall P body -> P (OLoop body).
  Fixpoint op_ind' (o : op) : P o :=
    match o with
    | OSet k v => Hset k v | ODel k => Hdel k | OGet k => Hget k | OHas k => Hhas k
    | OLen => Hlen | OPrint => Hprint | OEqLit l => Heq l | OReset l => Hreset l
    | OLoop body =>
        Hloop body ((fix go (l : list op) : Forall P l :=
                       match l with [] => Forall_nil P | o' :: t => Forall_cons o' (op_ind' o') (go t) end) body)
    end.
End OpInd.

Lemma run_op_loop {D} (I : dict Z D) body cur x :
  run_op I (OLoop body) cur x =
  if negb (running x) then x
  else loop_fold I (fun k y => run_ops I body (Some k) y) (d_keys I (dmap x)) x.
Proof. reflexivity. Qed.

Lemma emit_sim s x y : Rst x y -> Rst (emit s x) (emit s y).
Proof. intros [HR [Ho Hs]]. split; [exact HR | split; simpl; congruence]. Qed.

Lemma fail_sim e x y : Rst x y -> Rst (fail e x) (fail e y).
Proof. intros [HR [Ho Hs]]. split; [exact HR | split; [exact Ho | reflexivity]]. Qed.

Lemma with_map_sim d l x y : R d l -> Rst x y -> Rst (with_map d x) (with_map l y).
Proof. intros HR [_ [Ho Hs]]. split; [exact HR | split; assumption]. Qed.

(* same snapshot, same membership tests, related bodies *)
Lemma loop_fold_sim fx fy :
  (forall k x y, Rst x y -> Rst (fx k x) (fy k y)) ->
  forall ks x y, Rst x y -> Rst (loop_fold omap_dict fx ks x) (loop_fold alist_dict fy ks y).
Proof.
  intros Hb. unfold loop_fold. induction ks as [|k ks IH]; intros x y H; simpl; [exact H|].
  apply IH. unfold loop_step. rewrite <- (running_agree x y H).
  destruct (running x); simpl; [|exact H].
  simpl. rewrite <- (has_agree _ _ k (proj1 H)).
  destruct (ohas k (dmap x)); [apply Hb, emit_sim, H | exact H].
Qed.

Definition op_sim (o : op) : Prop :=
  forall cur x y, Rst x y -> Rst (run_op omap_dict o cur x) (run_op alist_dict o cur y).

Lemma run_ops_sim_of l : Forall op_sim l ->
  forall cur x y, Rst x y -> Rst (run_ops omap_dict l cur x) (run_ops alist_dict l cur y).
Proof. induction 1 as [|o t Ho _ IH]; intros cur x y H; simpl; [exact H | apply IH, Ho, H]. Qed.

Lemma run_op_sim o : op_sim o.
Proof.
  induction o as [k v|k|k|k| | |l|l|body IHbody] using op_ind'; intros cur x y H;
    pose proof (running_agree x y H) as Hr.
  9: { rewrite !run_op_loop, <- Hr. destruct (running x); simpl; [|exact H].
       rewrite <- (keys_agree _ _ (proj1 H)).
       apply loop_fold_sim; [intros k x' y'; apply run_ops_sim_of, IHbody | exact H]. }
  all: simpl; rewrite <- Hr; destruct (running x) eqn:Erun; simpl; try exact H;
    pose proof (proj1 H) as HR.
  - apply with_map_sim; [apply set_R; exact HR | exact H].
  - apply with_map_sim; [apply del_R; exact HR | exact H].
  - rewrite <- (get_agree _ _ (key_of cur k) HR).
    destruct (oget (key_of cur k) (dmap x)); [apply emit_sim | apply fail_sim]; exact H.
  - rewrite <- (has_agree _ _ (key_of cur k) HR). apply emit_sim, H.
  - rewrite <- (len_agree _ _ HR). apply emit_sim, H.
  - rewrite (list_agree _ _ HR). apply emit_sim, H.
  - rewrite (equals_agree Z.eqb _ _ _ _ HR (literal_R l)). apply emit_sim, H.
  - apply with_map_sim; [apply literal_R | exact H].
Qed.

Lemma run_ops_sim l cur x y : Rst x y ->
  Rst (run_ops omap_dict l cur x) (run_ops alist_dict l cur y).
Proof. apply run_ops_sim_of, Forall_forall. intros o _. apply run_op_sim. Qed.

(* Whole histories: the Go representation and the association-list
   dictionary print the same things and end in the same status. *)
Theorem history_refinement (lit : list (str * Z)) (l : list op) :
  let c := run_history omap_dict lit l in
  let a := run_history alist_dict lit l in
  Inv (dmap c) /\ dmap a = abs (dmap c) /\ outs c = outs a /\ stat c = stat a.
Proof.
  intros c a.
  assert (H : Rst c a).
  { apply run_ops_sim. split; [apply literal_R | split; reflexivity]. }
  destruct H as [[HI HA] [Ho Hs]]. auto.
Qed.

(* laws of the specification (what a user relies on) *)
Section SpecLaws.
  Context {V : Type}.
  Implicit Types (l : alist V) (k : str).

  Lemma aget_snoc l k v k' : aget k' (l ++ [(k, v)]) =
    match aget k' l with Some x => Some x | None => if str_eqb k k' then Some v else None end.
  Proof.
    induction l as [|[a b] t IH]; simpl; [reflexivity|].
    destruct (str_eqb a k'); [reflexivity | exact IH].
  Qed.

  Lemma overwrite_keeps_position l k v :
    aget k l <> None -> map fst (aset k v l) = map fst l.
  Proof.
    intro H. unfold aset. destruct (aget k l) eqn:E; [|congruence]. clear H E.
    induction l as [|[a b] t IH]; simpl; [reflexivity|].
    destruct (str_eqb a k); simpl; [reflexivity | f_equal; exact IH].
  Qed.

  Lemma insert_appends l k v : aget k l = None -> aset k v l = l ++ [(k, v)].
  Proof. intro H. unfold aset. rewrite H. reflexivity. Qed.

  Lemma aget_adel_same l k : aget k (adel k l) = None.
  Proof. rewrite adel_premove. exact (plookup_premove_same l k). Qed.

  Lemma delete_reinsert_moves_to_end l k v :
    aset k v (adel k l) = adel k l ++ [(k, v)].
  Proof. apply insert_appends, aget_adel_same. Qed.

  Lemma aget_adel_other l k k' : k <> k' -> aget k' (adel k l) = aget k' l.
  Proof. rewrite adel_premove. exact (plookup_premove_other l k k'). Qed.

  Lemma aget_areplace l k v k' :
    aget k' (areplace k v l) = if str_eqb k k' then (match aget k l with Some _ => Some v | None => None end) else aget k' l.
  Proof.
    induction l as [|[a b] t IH]; simpl; [destruct (str_eqb k k'); reflexivity|].
    destruct (str_eqb a k) eqn:E; simpl.
    - apply str_eqb_eq in E; subst. destruct (str_eqb k k'); reflexivity.
    - rewrite IH. destruct (str_eqb k k') eqn:E2; [|reflexivity].
      apply str_eqb_eq in E2; subst. rewrite E. reflexivity.
  Qed.

  (* read-your-write, and no other key is affected *)
  Lemma aget_aset l k v k' :
    aget k' (aset k v l) = if str_eqb k k' then Some v else aget k' l.
  Proof.
    unfold aset. destruct (aget k l) eqn:E.
    - rewrite aget_areplace, E. reflexivity.
    - rewrite aget_snoc. destruct (str_eqb k k') eqn:E2.
      + apply str_eqb_eq in E2; subst. rewrite E. reflexivity.
      + destruct (aget k' l); reflexivity.
  Qed.

  Lemma adel_keys_subseq l k : map fst (adel k l) = filter (fun x => negb (str_eqb x k)) (map fst l).
  Proof.
    induction l as [|[a b] t IH]; simpl; [reflexivity|].
    destruct (str_eqb a k); simpl; [exact IH | f_equal; exact IH].
  Qed.
End SpecLaws.

Lemma loop_fold_keeps {D} (I : dict Z D) (P : st D -> Prop) bodyf :
  (forall k y, P y -> P (bodyf k (emit k y))) ->
  forall ks x, P x -> P (loop_fold I bodyf ks x).
Proof.
  intro Hb. unfold loop_fold. induction ks as [|k ks IH]; intros x H; simpl; [exact H|].
  apply IH. unfold loop_step. destruct (running x); simpl; [|exact H].
  destruct (d_has I k (dmap x)); [apply Hb, H | exact H].
Qed.

Lemma run_ops_keeps {D} (I : dict Z D) (P : st D -> Prop) l :
  Forall (fun o => forall cur y, P y -> P (run_op I o cur y)) l ->
  forall cur y, P y -> P (run_ops I l cur y).
Proof. induction 1 as [|o t Ho _ IH]; intros cur y H; simpl; [exact H | apply IH, Ho, H]. Qed.

Lemma spec_op_no_hostcrash : forall o cur (y : st (alist Z)),
  stat y <> HostCrash -> stat (run_op alist_dict o cur y) <> HostCrash.
Proof.
  induction o as [k v|k|k|k| | |l|l|body IHbody] using op_ind'; intros cur y H.
  9: { rewrite run_op_loop. destruct (running y); simpl; [|exact H].
       apply (loop_fold_keeps alist_dict (fun z => stat z <> HostCrash)); [|exact H].
       intros k z Hz. apply (run_ops_keeps alist_dict _ body IHbody). exact Hz. }
  all: simpl; destruct (running y); simpl; try exact H.
  destruct (aget (key_of cur k) (dmap y)); simpl; [exact H | discriminate].
Qed.

Lemma spec_ops_no_hostcrash : forall l cur (y : st (alist Z)),
  stat y <> HostCrash -> stat (run_ops alist_dict l cur y) <> HostCrash.
Proof.
  intro l. apply (run_ops_keeps alist_dict (fun z => stat z <> HostCrash)), Forall_forall.
  intros o _. apply spec_op_no_hostcrash.
Qed.

Theorem history_no_hostcrash (lit : list (str * Z)) (l : list op) :
  stat (run_history omap_dict lit l) <> HostCrash.
Proof.
  destruct (history_refinement lit l) as [_ [_ [_ Hs]]]. rewrite Hs.
  apply spec_ops_no_hostcrash. discriminate.
Qed.

(* instrumented loop: the keys whose body was entered, with the state at entry *)
Fixpoint loop_visits {D} (I : dict Z D) (bodyf : str -> st D -> st D) (ks : list str) (x : st D)
  : list (str * st D) :=
  match ks with
  | [] => []
  | k :: t =>
      if running x && d_has I k (dmap x)
      then (k, x) :: loop_visits I bodyf t (loop_step I bodyf x k)
      else loop_visits I bodyf t (loop_step I bodyf x k)
  end.

Inductive subseq {A} : list A -> list A -> Prop :=
| sub_nil : subseq [] []
| sub_skip x l1 l2 : subseq l1 l2 -> subseq l1 (x :: l2)
| sub_take x l1 l2 : subseq l1 l2 -> subseq (x :: l1) (x :: l2).

Theorem range_snapshot {D} (I : dict Z D) bodyf ks (x : st D) :
  (* visited keys are a subsequence of the keys the map had at loop entry:
     in insertion order, none twice unless the snapshot had it twice, and no
     key inserted by the body is ever visited *)
  subseq (map fst (loop_visits I bodyf ks x)) ks /\
  (* a key is visited only if it is present when its turn comes *)
  Forall (fun kx => d_has I (fst kx) (dmap (snd kx)) = true /\ running (snd kx) = true)
         (loop_visits I bodyf ks x).
Proof.
  revert x. induction ks as [|k t IH]; intro x; simpl; [split; constructor|].
  destruct (IH (loop_step I bodyf x k)) as [IH1 IH2].
  destruct (running x && d_has I k (dmap x)) eqn:E; simpl.
  - apply andb_true_iff in E as [E1 E2]. split; [apply sub_take; exact IH1|].
    constructor; [simpl; split; assumption | exact IH2].
  - split; [apply sub_skip; exact IH1 | exact IH2].
Qed.

(* a key of the snapshot that is present when reached IS visited (nothing is skipped wrongly) *)
Theorem range_visits_present {D} (I : dict Z D) bodyf k t (x : st D) :
  running x = true -> d_has I k (dmap x) = true ->
  exists rest, loop_visits I bodyf (k :: t) x = (k, x) :: rest.
Proof. intros H1 H2. simpl. rewrite H1, H2. simpl. eexists; reflexivity. Qed.

Lemma aequals_spec (a b : alist Z) :
  NoDup (map fst a) -> NoDup (map fst b) ->
  (aequals Z.eqb a b = true <-> forall k, aget k a = aget k b).
Proof.
  intros Ha Hb. unfold aequals. rewrite andb_true_iff, Nat.eqb_eq, forallb_forall.
  (* aget is plookup under another name *)
  assert (AG : forall (l : alist Z) k v, NoDup (map fst l) -> (In (k, v) l <-> aget k l = Some v))
    by (intros l k v; exact (In_plookup l k v)).
  assert (KA : forall (l : alist Z) k, aget k l <> None <-> In k (map fst l))
    by (intros l k; exact (plookup_In_keys l k)).
  split.
  - intros [Hlen Hall].
    assert (Hincl : forall k v, aget k a = Some v -> aget k b = Some v).
    { intros k v Hg. apply AG in Hg; [|exact Ha]. specialize (Hall _ Hg). simpl in Hall.
      destruct (aget k b) eqn:E; [|discriminate]. apply Z.eqb_eq in Hall. congruence. }
    (* a is included in b and they have equal sizes, so the keys of b are keys of a *)
    assert (Hk : incl (map fst b) (map fst a)).
    { apply NoDup_length_incl; [exact Ha | rewrite !map_length; lia |].
      intros x Hx. apply KA in Hx. apply KA.
      destruct (aget x a) eqn:E; [rewrite (Hincl _ _ E); discriminate | congruence]. }
    intro k. destruct (aget k a) eqn:Ea; [symmetry; apply Hincl; exact Ea|].
    destruct (aget k b) eqn:Eb; [|reflexivity].
    assert (Hin : In k (map fst a)) by (apply Hk, KA; congruence).
    apply KA in Hin. congruence.
  - intro Hall. split.
    + (* equal as functions and both duplicate-free, hence equal sizes *)
      rewrite <- (map_length fst a), <- (map_length fst b).
      apply Nat.le_antisymm; apply NoDup_incl_length; try assumption; intros x Hx;
        apply KA; apply KA in Hx; [rewrite <- Hall | rewrite Hall]; exact Hx.
    + intros [k v] Hin. simpl. apply AG in Hin; [|exact Ha]. rewrite <- Hall, Hin. apply Z.eqb_refl.
Qed.
