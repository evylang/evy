(* The cursor of the statement pass: always a suffix of the token list, and the whitespace-sensitivity
   stack is restored by every parser function.  Consequence: a signature pre-pass without errors implies that the
   statement loop never stands on a `func` keyword that is not followed by an identifier (Parser.funcs_named). *)
From Coq Require Import List NArith ZArith Bool Arith String Lia.
From EvyV Require Import Base Pratt Parser ParserEqProofs ParserProofs ParserWalkProofs ParserRules.
From EvyV.Gen Require Import Prec.
Import ListNotations.
Local Open Scope nat_scope.
Local Set Warnings "-unused-intro-pattern".

Definition sfx (a b : list token) : Prop := exists l, b = l ++ a.
Lemma sfx_refl a : sfx a a. Proof. exists []. reflexivity. Qed.
Lemma sfx_trans a b c : sfx a b -> sfx b c -> sfx a c.
Proof. intros [l1 ->] [l2 ->]. exists (l2 ++ l1). rewrite app_assoc. reflexivity. Qed.
Lemma sfx_tl a b : sfx a b -> sfx (tl a) b.
Proof. intros [l ->]. destruct a as [|x a]; [exists l; reflexivity|]. exists (l ++ [x]). rewrite <- app_assoc. reflexivity. Qed.

Section Cursor.
Variable toks : list token.

Definition Inv (w : list bool) (c : pstate) : Prop := sfx (rest c) toks /\ wss c = w.
(* a parser function from c to c': the cursor stays inside the token list and the wss stack is restored *)
Definition PI (c c' : pstate) : Prop := forall w, Inv w c -> Inv w c'.

Lemma Inv_cursor_inv : cursor_inv Inv.
Proof.
  split.
  - intros w c [S W]. split; [simpl; apply sfx_tl; exact S|exact W].
  - intros w c t [S W]. split; assumption.
  - intros b w c [S W]. split; [exact S|simpl; rewrite W; reflexivity].
  - intros b w c [S W]. split; [exact S|simpl; rewrite W; reflexivity].
  - intros e n w c [S W]. split; assumption.
  - intros n w c [S W]. split; assumption.
Qed.
Lemma Inv_advance w c : Inv w c -> Inv w (advance c).
Proof. apply (K_advance Inv Inv_cursor_inv). Qed.
Lemma Inv_add_err_at e n w c : Inv w c -> Inv w (add_err_at e n c).
Proof. apply (K_add_err_at Inv Inv_cursor_inv). Qed.
Lemma Inv_add_err e w c : Inv w c -> Inv w (add_err e c).
Proof. apply Inv_add_err_at. Qed.
Lemma assert_token_pi t c ok c' : assert_token t c = (ok, c') -> PI c c'.
Proof. apply (assert_token_keeps Inv Inv_cursor_inv). Qed.

Lemma expr_pi E fuel p c a c' : parse_expr E fuel p c = Some (a, c') -> PI c c'.
Proof. apply (expr_keeps Inv Inv_cursor_inv E fuel). Qed.

Definition SI (w : list bool) (s : pst) : Prop := Inv w (cs s).
Definition SPI (s s' : pst) : Prop := forall w, SI w s -> SI w s'.
Lemma SPI_refl s : SPI s s. Proof. intros w I; exact I. Qed.
Lemma SPI_trans a b c : SPI a b -> SPI b c -> SPI a c. Proof. intros H1 H2 w I. apply H2, H1, I. Qed.

Lemma SI_upd f w s : (forall c, Inv w c -> Inv w (f c)) -> SI w s -> SI w (upd f s).
Proof. intros Hf I. apply Hf. exact I. Qed.
Lemma SI_adv w s : SI w s -> SI w (adv s). Proof. apply Inv_advance. Qed.
Lemma Inv_apnl_loop w : forall fuel c, Inv w c -> Inv w (apnl_loop fuel c).
Proof. exact (apnl_loop_steps (Inv w) (Inv_advance w)). Qed.
Lemma SI_apnl w s : SI w s -> SI w (apnl s). Proof. apply Inv_apnl_loop. Qed.
Lemma SI_serr_at k n w s : SI w s -> SI w (serr_at k n s). Proof. apply Inv_add_err_at. Qed.
Lemma SI_serr k w s : SI w s -> SI w (serr k s). Proof. apply Inv_add_err_at. Qed.
Lemma SI_upd_err e n w s : SI w s -> SI w (upd (add_err_at e n) s). Proof. apply Inv_add_err_at. Qed.
Lemma SI_ty_err_here site w s : SI w s -> SI w (ty_err_here site s). Proof. apply Inv_add_err. Qed.
Lemma SI_assert_eol w s : SI w s -> SI w (assert_eol s).
Proof. unfold assert_eol. intro I. destruct (is_at_eol (cs s)); [exact I|apply SI_serr; exact I]. Qed.
Lemma passert_spi t s ok s' : passert t s = (ok, s') -> SPI s s'.
Proof.
  unfold passert. destruct (assert_token t (cs s)) as [o c] eqn:A. intro H. injection H as ? ?; subst.
  intros w I. exact (assert_token_pi _ _ _ _ A w I).
Qed.
Lemma SI_passert t w s : SI w s -> SI w (snd (passert t s)).
Proof. intro I. destruct (passert t s) as [ok s'] eqn:A. exact (passert_spi _ _ _ _ A w I). Qed.
Lemma SI_scope_set n p w s : SI w s -> SI w (scope_set n p s).
Proof. unfold scope_set. intro I. destruct (str_eqb _ _); [exact I|]. destruct (scs s); exact I. Qed.
Lemma SI_mark n w s : SI w s -> SI w (mark n s). Proof. exact (fun I => I). Qed.
Lemma SI_push_scope a b c w s : SI w s -> SI w (push_scope a b c s). Proof. exact (fun I => I). Qed.
Lemma SI_push_inherit b w s : SI w s -> SI w (push_inherit b s). Proof. exact (fun I => I). Qed.
Lemma SI_pop_scope w s : SI w s -> SI w (pop_scope s). Proof. exact (fun I => I). Qed.
Lemma SI_rec w s b h : SI w s -> SI w {| cs := cs s; scs := scs s; fns := fns s; bodies := b; hds := h |}. Proof. exact (fun I => I). Qed.
Lemma SI_validate_scope w s : SI w s -> SI w (validate_scope s).
Proof. apply (validate_scope_steps (SI w)). intros k n x. apply SI_serr_at. Qed.
Lemma vvd_spi B n p a s ok s' : validate_var_decl B n p a s = (ok, s') -> SPI s s'.
Proof.
  destruct (validate_var_decl_cases B n p a s) as [-> | (k & ->)]; intro H; injection H as <- <-; intros w I; [|apply SI_serr_at]; exact I.
Qed.
Lemma SI_vvd B n p a w s : SI w s -> SI w (snd (validate_var_decl B n p a s)).
Proof. intro I. destruct (validate_var_decl B n p a s) as [ok s'] eqn:V. exact (vvd_spi _ _ _ _ _ _ _ V w I). Qed.
Lemma SI_finish_end w s : SI w s -> SI w (finish_end s).
Proof. unfold finish_end. intro I. apply SI_apnl, SI_assert_eol, SI_adv, SI_passert. exact I. Qed.
Lemma Inv_collect w s c : Inv w c -> SI w (collect s c).
Proof.
  unfold collect, SI. intros [S W].
  unfold upd, with_cs. simpl. rewrite cs_fold_mark. simpl. split; assumption.
Qed.
Lemma expr_call_spi {A} B (f : env -> nat -> pstate -> res A) s a s' :
  (forall E fu c x c', f E fu c = Some (x, c') -> PI c c') -> expr_call B f s = Ok a s' -> SPI s s'.
Proof.
  unfold expr_call. intros Hf H. destruct (f _ _ _) as [[x c]|] eqn:P; [|discriminate H].
  injection H as ? ?; subst. intros w I. apply Inv_collect. exact (Hf _ _ _ _ _ P w I).
Qed.
Lemma p_toplevel_spi B s a s' : p_toplevel B s = Ok a s' -> SPI s s'.
Proof. apply expr_call_spi. intros E fu c x c'. apply (toplevel_keeps Inv Inv_cursor_inv). apply (expr_pi E fu). Qed.
Lemma p_expr_list_spi B s a s' : p_expr_list B s = Ok a s' -> SPI s s'.
Proof. apply expr_call_spi. intros E fu c x c'. apply (expr_list_keeps Inv Inv_cursor_inv). apply (expr_pi E fu). Qed.
Lemma p_func_call_spi B nil s a s' : p_func_call B nil s = Ok a s' -> SPI s s'.
Proof. apply expr_call_spi. intros E fu c x c'. apply (func_call_keeps Inv Inv_cursor_inv). apply (expr_pi E fu). Qed.
Lemma p_index_spi B left s a s' : p_index B left s = Ok a s' -> SPI s s'.
Proof. apply expr_call_spi. intros E fu c x c'. apply (index_or_slice_keeps Inv Inv_cursor_inv). apply (expr_pi E fu). Qed.
Lemma p_dot_spi B left s a s' : p_dot B left s = Ok a s' -> SPI s s'.
Proof. apply expr_call_spi. intros E fu c x c'. apply (dot_keeps Inv Inv_cursor_inv). Qed.
Lemma p_type_spi B s a s' : p_type B s = Ok a s' -> SPI s s'.
Proof. apply expr_call_spi. intros E fu c x c'. apply (parse_type_keeps Inv Inv_cursor_inv). Qed.

(* backward: reduce  SI w (f (g .. s))  to a hypothesis *)
Ltac sinv :=
  repeat match goal with |- context[match ?m with _ => _ end] => destruct m eqn:? end;
  cbn [fst snd];
  repeat first
   [ assumption
   | match goal with
     | H : SPI ?a ?b |- SI _ ?b => apply H
     | A : passert _ ?x = (_, ?y) |- SI _ ?y => apply (passert_spi _ _ _ _ A)
     | V : validate_var_decl _ _ _ _ ?x = (_, ?y) |- SI _ ?y => apply (vvd_spi _ _ _ _ _ _ _ V)
     end
   | match goal with
     | |- SI _ (adv _) => apply SI_adv
     | |- SI _ (apnl _) => apply SI_apnl
     | |- SI _ (serr_at _ _ _) => apply SI_serr_at
     | |- SI _ (serr _ _) => apply SI_serr
     | |- SI _ (upd (add_err_at _ _) _) => apply SI_upd_err
     | |- SI _ (ty_err_here _ _) => apply SI_ty_err_here
     | |- SI _ (assert_eol _) => apply SI_assert_eol
     | |- SI _ (snd (passert _ _)) => apply SI_passert
     | |- SI _ (scope_set _ _ _) => apply SI_scope_set
     | |- SI _ (mark _ _) => apply SI_mark
     | |- SI _ (push_scope _ _ _ _) => apply SI_push_scope
     | |- SI _ (push_inherit _ _) => apply SI_push_inherit
     | |- SI _ (pop_scope _) => apply SI_pop_scope
     | |- SI _ {| cs := cs _; scs := _; fns := _; bodies := _; hds := _ |} => apply SI_rec
     | |- SI _ (validate_scope _) => apply SI_validate_scope
     | |- SI _ (snd (validate_var_decl _ _ _ _ _)) => apply SI_vvd
     | |- SI _ (finish_end _) => apply SI_finish_end
     end
   | match goal with |- context[match ?m with _ => _ end] => destruct m eqn:?; cbn [fst snd] end ].

(* [schew], [sub_spi] and [sfin] are chew, sub_ne and fin_kp of ParserWalkProofs for the statement level (PR, SPI) *)
Ltac sub_spi P :=
  first [ apply p_toplevel_spi in P | apply p_expr_list_spi in P | apply p_func_call_spi in P | apply p_index_spi in P
        | apply p_dot_spi in P | apply p_type_spi in P ].
Ltac schew H :=
  repeat (first
    [ discriminate H
    | match type of H with
      | Ok _ _ = Ok _ _ => fail 1
      | (match ?m with _ => _ end) = Ok _ _ =>
          lazymatch m with
          | context[match _ with _ => _ end] => fail
          | _ => let P := fresh "P" in first [ destruct m as [? ?| |] eqn:P | destruct m eqn:P ]; try sub_spi P
          end
      end ]).
Ltac sfin H := solve [ apply Ok_inj in H as [? ?]; subst; intros w I; sinv ].

Section StmtPI.
Variable B : benv.

Lemma typed_decl_spi s d s' : parse_typed_decl B s = Ok d s' -> SPI s s'.
Proof. unfold parse_typed_decl. intro H. schew H; sfin H. Qed.
Ltac sub_spi P ::=
  first [ apply p_toplevel_spi in P | apply p_expr_list_spi in P | apply p_func_call_spi in P | apply p_index_spi in P
        | apply p_dot_spi in P | apply p_type_spi in P | apply typed_decl_spi in P ].

Lemma typed_decl_stmt_spi s r s' : parse_typed_decl_stmt B s = Ok r s' -> SPI s s'.
Proof. unfold parse_typed_decl_stmt. intro H. schew H; sfin H. Qed.

Lemma inferred_decl_stmt_spi s r s' : parse_inferred_decl_stmt B s = Ok r s' -> SPI s s'.
Proof. unfold parse_inferred_decl_stmt. intro H. cbv zeta in H. schew H; sfin H. Qed.

Lemma assign_target_loop_spi : forall fuel tok n s r s', assign_target_loop B fuel tok n s = Ok r s' -> SPI s s'.
Proof.
  induction fuel as [|f IH]; intros tok n s r s' H; [discriminate|]. rewrite assign_target_loop_eq in H.
  assert (STEP : forall m, (forall x s1, m = Ok x s1 -> SPI s s1) ->
            (pdo (x, s1) <- m; match x with None => Ok None s1 | Some n' => assign_target_loop B f tok n' s1 end) = Ok r s' -> SPI s s').
  { intros m Hm X. destruct m as [x s1| |]; try discriminate X. pose proof (Hm _ _ eq_refl) as P.
    destruct x; [apply IH in X; eapply SPI_trans; eassumption|sfin X]. }
  destruct (toktype_beq (ct s) T_LBRACKET).
  - destruct (tyerr_s B _ _ _); [sfin H|]. exact (STEP _ (p_index_spi B n s) H).
  - destruct (toktype_beq (ct s) T_DOT); [exact (STEP _ (p_dot_spi B n s) H)|sfin H].
Qed.

Lemma assign_target_spi s r s' : parse_assign_target B s = Ok r s' -> SPI s s'.
Proof.
  unfold parse_assign_target. intro H.
  destruct (str_eqb _ _); [sfin H|]. destruct (negb _); [sfin H|].
  apply assign_target_loop_spi in H. intros w I. apply H. sinv.
Qed.
Ltac sub_spi P ::=
  first [ apply p_toplevel_spi in P | apply p_expr_list_spi in P | apply p_func_call_spi in P | apply p_index_spi in P
        | apply p_dot_spi in P | apply p_type_spi in P | apply typed_decl_spi in P | apply assign_target_spi in P ].

Lemma assign_stmt_spi s r s' : parse_assign_stmt B s = Ok r s' -> SPI s s'.
Proof. unfold parse_assign_stmt. intro H. cbv zeta in H. schew H; sfin H. Qed.

Lemma call_stmt_spi s r s' : parse_call_stmt B s = Ok r s' -> SPI s s'.
Proof. unfold parse_call_stmt. intro H. schew H; sfin H. Qed.

Lemma break_stmt_spi s r s' : parse_break_stmt s = Ok r s' -> SPI s s'.
Proof. unfold parse_break_stmt. intro H. sfin H. Qed.

Lemma return_stmt_spi s r s' : parse_return_stmt B s = Ok r s' -> SPI s s'.
Proof.
  unfold parse_return_stmt. intro H. cbv zeta in H.
  destruct (is_at_eol (cs (adv s))); [sfin H|].
  destruct (p_toplevel B (adv s)) as [x s2| |] eqn:P; try discriminate H. apply p_toplevel_spi in P.
  destruct x; sfin H.
Qed.

Lemma condition_spi s r s' : parse_condition B s = Ok r s' -> SPI s s'.
Proof. unfold parse_condition. intro H. schew H; sfin H. Qed.

Lemma empty_stmt_spi s r s' : parse_empty_stmt s = Ok r s' -> SPI s s'.
Proof. intro H. destruct (empty_stmt_inv _ _ _ H) as [_ [-> | ->]]; intros w I; sinv. Qed.

(* ps stands for parseStatement at the fuel left to the callees *)
Variable ps : pst -> PR (option stmt).
Hypothesis HPS : forall s r s', ps s = Ok r s' -> SPI s s'.

Lemma block_loop_spi : forall fuel els acc terms s b s', block_loop ps fuel els acc terms s = Ok b s' -> SPI s s'.
Proof.
  induction fuel as [|f IH]; intros els acc terms s b s' H; [discriminate|]. cbn [block_loop] in H.
  destruct (match ct s with T_END | T_EOF => true | T_ELSE => els | _ => false end);
    [apply Ok_inj in H as [? ?]; subst; apply SPI_refl|].
  destruct (ps s) as [r s1| |] eqn:P; try discriminate H. apply HPS in P.
  destruct r as [st|]; [destruct (terms && negb (is_empty_stmt st))|]; apply IH in H;
    (eapply SPI_trans; [exact P|]); [|exact H|exact H].
  intros w I. apply H. sinv.
Qed.

Lemma block_with_spi fuel els s b s' : parse_block_with ps fuel els s = Ok b s' -> SPI s s'.
Proof.
  unfold parse_block_with. intro H.
  destruct (block_loop ps fuel els [] false s) as [b1 s1| |] eqn:P; try discriminate H. apply block_loop_spi in P.
  sfin H.
Qed.
Ltac sub_spi P ::=
  first [ apply p_toplevel_spi in P | apply p_expr_list_spi in P | apply p_func_call_spi in P | apply p_index_spi in P
        | apply p_dot_spi in P | apply p_type_spi in P | apply typed_decl_spi in P | apply assign_target_spi in P
        | apply condition_spi in P | apply block_with_spi in P ].

Lemma while_stmt_spi fuel s r s' : parse_while_stmt B ps fuel s = Ok r s' -> SPI s s'.
Proof. unfold parse_while_stmt. intro H. cbv zeta in H. schew H; sfin H. Qed.

Lemma if_cond_block_spi fuel s cb s' : parse_if_cond_block B ps fuel s = Ok cb s' -> SPI s s'.
Proof. unfold parse_if_cond_block. intro H. cbv zeta in H. schew H; sfin H. Qed.

Lemma else_if_loop_spi : forall fuel bfuel acc s r s', else_if_loop B ps fuel bfuel acc s = Ok r s' -> SPI s s'.
Proof.
  induction fuel as [|f IH]; intros bfuel acc s r s' H; [discriminate|]. rewrite else_if_loop_eq in H.
  destruct (_ && _); [|apply Ok_inj in H as [? ?]; subst; apply SPI_refl].
  destruct (parse_if_cond_block B ps bfuel (adv s)) as [cb s1| |] eqn:P; try discriminate H.
  apply if_cond_block_spi in P. apply IH in H. intros w I. apply H, P. sinv.
Qed.

Lemma if_stmt_spi fuel s r s' : parse_if_stmt B ps fuel s = Ok r s' -> SPI s s'.
Proof.
  unfold parse_if_stmt. intro H.
  destruct (parse_if_cond_block B ps fuel s) as [cb s1| |] eqn:P1; try discriminate H. apply if_cond_block_spi in P1.
  destruct (else_if_loop B ps (S (pos s1)) fuel [cb] s1) as [brs s2| |] eqn:P2; try discriminate H. apply else_if_loop_spi in P2.
  destruct (ct s2); try sfin H.
  cbv zeta in H. destruct (parse_block_with ps fuel false _) as [b s4| |] eqn:PB; try discriminate H.
  apply block_with_spi in PB. sfin H.
Qed.

Lemma for_loop_var_spi s1 : SPI s1 (snd (for_loop_var B s1)).
Proof. unfold for_loop_var. intros w I. destruct (toktype_beq _ _); cbn [snd]; sinv. Qed.

Lemma for_stmt_spi fuel s r s' : parse_for_stmt B ps fuel s = Ok r s' -> SPI s s'.
Proof.
  rewrite parse_for_stmt_eq. intro H. cbv zeta in H.
  assert (NL : SPI s (snd (for_loop_var B (adv (push_inherit true s))))) by (intros w I; apply for_loop_var_spi; sinv).
  destruct (for_loop_var B _) as [[v|] s4]; cbn [snd] in NL; [|sfin H].
  destruct (passert T_RANGE s4) as [ok s5] eqn:A.
  destruct ok; cbn [negb] in H; [|sfin H].
  destruct (p_expr_list B (adv s5)) as [ns s7| |] eqn:P; try discriminate H. apply p_expr_list_spi in P.
  destruct (match ns with Some l => l | None => [] end) as [|n more]; [sfin H|].
  destruct (_ && _); [sfin H|].
  destruct (parse_block_with ps fuel false _) as [b s10| |] eqn:PB; try discriminate H. apply block_with_spi in PB.
  sfin H.
Qed.

Lemma statement_body_spi fuel s r s' : parse_statement_body B ps fuel s = Ok r s' -> SPI s s'.
Proof.
  assert (ER : forall k, Ok None (apnl (serr k s)) = Ok r s' -> SPI s s') by (intros k H; sfin H).
  apply statement_body_cases.
  - intros _ H. sfin H.
  - intros _. apply empty_stmt_spi.
  - intros _. apply assign_stmt_spi.
  - intros _. apply typed_decl_stmt_spi.
  - intros _. apply inferred_decl_stmt_spi.
  - intros _ _. apply call_stmt_spi.
  - intros _ _. apply ER.
  - intros _. apply return_stmt_spi.
  - intros _. apply break_stmt_spi.
  - intros _. apply for_stmt_spi.
  - intros _. apply while_stmt_spi.
  - intros _. apply if_stmt_spi.
  - intros _. apply ER.
Qed.

End StmtPI.

Section ProgramPI.
Variable B : benv.

Theorem stmt_spi : forall fuel s r s', parse_statement B fuel s = Ok r s' -> SPI s s'.
Proof.
  induction fuel as [|f IH]; intros s r s' H; [discriminate|]. cbn [parse_statement] in H.
  apply (statement_body_spi B (parse_statement B f) IH) in H. exact H.
Qed.

Lemma parse_block_spi fuel s b s' : parse_block B fuel s = Ok b s' -> SPI s s'.
Proof. unfold parse_block. apply block_with_spi. apply stmt_spi. Qed.

Lemma add_params_spi l : forall s, SPI s (add_params B l s).
Proof.
  unfold add_params. induction l as [|x l IH]; intro s; simpl; [apply SPI_refl|].
  eapply SPI_trans; [|apply IH]. intros w I. sinv.
Qed.

Lemma on_params_loop_spi : forall fuel acc s r s', on_params_loop B fuel acc s = Ok r s' -> SPI s s'.
Proof.
  induction fuel as [|f IH]; intros acc s r s' H; [discriminate|]. cbn [on_params_loop] in H.
  destruct (is_at_eol (cs s)); [apply Ok_inj in H as [? ?]; subst; apply SPI_refl|].
  destruct (parse_typed_decl B (snd (passert T_IDENT s))) as [d s1| |] eqn:P; try discriminate H.
  apply typed_decl_spi in P. apply IH in H. intros w I. apply H, P. sinv.
Qed.

Lemma add_event_params_spi ps : forall ex s, SPI s (add_event_params B ps ex s).
Proof.
  induction ps as [|[[n p] t] ps IH]; intros ex s; simpl; [apply SPI_refl|].
  destruct ex as [|e ex]; [apply SPI_refl|].
  eapply SPI_trans; [|apply IH]. intros w I. sinv.
Qed.

Lemma func_spi fuel s r s' : parse_func B fuel s = Ok r s' -> SPI s s'.
Proof.
  rewrite parse_func_eq. intro H.
  destruct (parse_block B fuel (func_body_state B s)) as [b s4| |] eqn:PB; try discriminate H. apply parse_block_spi in PB.
  assert (N3 : SPI s (func_body_state B s)) by (intros w I; apply add_params_spi; sinv).
  unfold func_finish in H. destruct (negb _); [sfin H|]. destruct (mem_str _ _); [sfin H|].
  cbv zeta in H. sfin H.
Qed.

Lemma event_handler_spi fuel s r s' : parse_event_handler B fuel s = Ok r s' -> SPI s s'.
Proof.
  unfold parse_event_handler. intro H. cbv zeta in H.
  destruct (passert T_IDENT (adv s)) as [ok s2] eqn:A.
  destruct ok; cbn [negb] in H; [|sfin H].
  match type of H with context[on_params_loop B _ [] (adv ?x)] => set (s3 := x) in H end.
  assert (N3 : SPI s2 s3).
  { unfold s3. intros w I. destruct (mem_str _ _); [sinv|]. destruct (lookup_ev _ _); [exact I|sinv]. }
  destruct (on_params_loop B (S (pos s3)) [] (adv s3)) as [params s4| |] eqn:PL; try discriminate H.
  apply on_params_loop_spi in PL.
  match type of H with context[parse_block B fuel ?x] => set (s6 := x) in H end.
  destruct (parse_block B fuel s6) as [b s7| |] eqn:PB; try discriminate H. apply parse_block_spi in PB.
  assert (N6 : SPI s4 s6).
  { unfold s6. intros w I. destruct params as [|d ds]; [sinv|]. destruct (lookup_ev _ _); [|sinv].
    apply add_event_params_spi. sinv. }
  sfin H.
Qed.

Lemma program_loop_spi : forall fuel acc terms s p s', program_loop B fuel acc terms s = Ok p s' -> SPI s s'.
Proof.
  induction fuel as [|f IH]; intros acc terms s p s'; [discriminate|]. apply program_loop_cases; intros _ H.
  - apply Ok_inj in H as [? ?]; subst. apply SPI_refl.
  - destruct (parse_func B f s) as [r s1| |] eqn:P; try discriminate H. apply IH in H. apply func_spi in P.
    eapply SPI_trans; eassumption.
  - destruct (parse_event_handler B f s) as [r s1| |] eqn:P; try discriminate H. apply IH in H. apply event_handler_spi in P.
    eapply SPI_trans; eassumption.
  - destruct (parse_statement B f s) as [r s1| |] eqn:P; try discriminate H.
    apply stmt_spi in P.
    destruct r as [st|]; [destruct terms|]; apply IH in H; (eapply SPI_trans; [exact P|]); [|exact H|exact H].
    intros w I. apply H. sinv.
Qed.

End ProgramPI.

End Cursor.

(** * The pre-pass has seen every `func` keyword *)

(* the token type after advance() from a cursor standing at the head of l, whitespace-insensitive *)
Definition nxt (l : list token) : toktype := cur_t (advance (state_at tEOF l [])).

Lemma cur_advance_ext c c' : rest c = rest c' -> is_wss c = false -> is_wss c' = false ->
  cur (advance c) = cur (advance c').
Proof.
  intros R W W'. unfold advance.
  assert (W1 : is_wss (advance_wss c) = false) by exact W. assert (W1' : is_wss (advance_wss c') = false) by exact W'.
  rewrite W1, W1'.
  assert (R2 : rest (advance_if_ws (advance_wss c)) = rest (advance_if_ws (advance_wss c'))).
  { unfold advance_if_ws, cur, advance_wss. simpl. rewrite R. destruct (is_ws (look0 (tl (rest c')))); simpl; rewrite ?R; reflexivity. }
  destruct (is_ws (peek (advance_if_ws (advance_wss c)))), (is_ws (peek (advance_if_ws (advance_wss c'))));
    unfold cur; simpl; rewrite R2; reflexivity.
Qed.
Lemma cur_t_advance_ext c c' : rest c = rest c' -> is_wss c = false -> is_wss c' = false ->
  cur_t (advance c) = cur_t (advance c').
Proof. intros R W W'. unfold cur_t. rewrite (cur_advance_ext c c' R W W'). reflexivity. Qed.

Fixpoint named (toks : list token) : Prop :=
  match toks with
  | [] => True
  | t :: r => (ttype t = T_FUNC -> nxt (t :: r) = T_IDENT) /\ named r
  end.
Lemma named_sfx toks : named toks -> forall t r, sfx (t :: r) toks -> ttype t = T_FUNC -> nxt (t :: r) = T_IDENT.
Proof.
  induction toks as [|x l IH]; intros N t r [pre E] TF.
  - destruct pre; discriminate E.
  - destruct N as [N1 N2]. destruct pre as [|y pre]; simpl in E.
    + injection E as -> ->. exact (N1 TF).
    + injection E as -> ->. apply (IH N2 t r); [exists pre; reflexivity|exact TF].
Qed.

Section PrePass.
Variable B : benv.

Lemma sig_params_loop_sn : forall fuel acc s r s', sig_params_loop B fuel acc s = Ok r s' -> SN s s'.
Proof.
  induction fuel as [|f IH]; intros acc s r s' H; [discriminate|]. cbn [sig_params_loop] in H.
  destruct (_ || _); [apply Ok_inj in H as [? ?]; subst; apply SN_refl|].
  destruct (parse_typed_decl B (snd (passert T_IDENT s))) as [[[n p] t] s1| |] eqn:P; try discriminate H.
  apply typed_decl_sn in P. apply IH in H. eapply SN_trans; [apply SN_passert|]. eapply SN_trans; eassumption.
Qed.

Lemma func_def_signature_named s r s' : parse_func_def_signature B s = Ok r s' -> serrs s' = [] ->
  serrs s = [] /\ ct (adv s) = T_IDENT.
Proof.
  unfold parse_func_def_signature. intros H Q. cbv zeta in H.
  destruct (passert T_IDENT (adv s)) as [ok s2] eqn:A.
  assert (AK : serrs s2 = [] -> serrs s = [] /\ ct (adv s) = T_IDENT).
  { intro Q2. destruct (passert_ne _ _ _ _ A Q2) as [-> ->]. split; [destruct (SN_adv s Q2) as [Q0 _]; exact Q0|].
    unfold passert, assert_token in A. change (cur_t (cs (adv s))) with (ct (adv s)) in A.
    destruct (toktype_beq (ct (adv s)) T_IDENT) eqn:TB; [apply toktype_beq_eq in TB; exact TB|discriminate A]. }
  destruct ok; cbn [negb] in H.
  2:{ apply Ok_inj in H as [? ?]; subst. apply AK. destruct (SN_apnl s2 Q) as [Q2 _]. exact Q2. }
  match type of H with (pdo (ret, s4) <- ?m; _) = _ => destruct m as [ret s4| |] eqn:PR end; try discriminate H.
  destruct (sig_params_loop B (S (pos s4)) [] s4) as [params s5| |] eqn:PL; try discriminate H.
  apply Ok_inj in H as [? ?]; subst.
  destruct (SN_apnl _ Q) as [Q6a _]. destruct (SN_assert_eol _ Q6a) as [Q6 _].
  assert (Q5 : serrs s5 = []).
  { destruct (ct s5); try exact Q6. destruct (Nat.eqb _ _); [rewrite serrs_adv in Q6; exact Q6|rewrite serrs_serr in Q6; discriminate Q6]. }
  destruct (sig_params_loop_sn _ _ _ _ _ PL Q5) as [Q4 _].
  apply AK.
  destruct (ct (adv s2)).
  all: try (apply Ok_inj in PR as [? ?]; subst; rewrite serrs_adv in Q4; exact Q4).
  destruct (p_type B (adv (adv s2))) as [t s5'| |] eqn:PT; try discriminate PR.
  apply Ok_inj in PR as [? ?]; subst.
  assert (Q5' : serrs s5' = []) by (destruct t; [exact Q4|rewrite serrs_serr_at in Q4; discriminate Q4]).
  destruct (p_type_sn B _ _ _ PT Q5') as [Q' _]. rewrite !serrs_adv in Q'. exact Q'.
Qed.

Lemma signature_step_named pv toks s u s' : signature_step B pv toks s = Ok u s' -> serrs s' = [] ->
  serrs s = [] /\ nxt toks = T_IDENT.
Proof.
  unfold signature_step. intros H Q. cbv zeta in H.
  set (s0 := with_cs s (state_at pv toks (errs (cs s)))) in *.
  destruct (parse_func_def_signature B s0) as [r s1| |] eqn:P; try discriminate H.
  assert (Q1 : serrs s1 = []).
  { destruct r as [[name fi]|]; apply Ok_inj in H as [? ?]; subst; [|exact Q].
    unfold serrs in Q. cbn [cs] in Q.
    destruct (lookup_fn name _); [discriminate Q|].
    destruct (mem_str name (b_globals B)); [destruct (is_func _ _); discriminate Q|].
    destruct (is_func name s1); [discriminate Q|exact Q]. }
  destruct (func_def_signature_named _ _ _ P Q1) as [Q0 TI]. split; [exact Q0|].
  unfold nxt. rewrite <- TI. symmetry. apply cur_t_advance_ext; reflexivity.
Qed.

Lemma signatures_named : forall toks pv s u s', signatures B pv toks s = Ok u s' -> serrs s' = [] ->
  serrs s = [] /\ named toks.
Proof.
  induction toks as [|t r IH]; intros pv s u s' H Q; cbn [signatures] in H.
  - apply Ok_inj in H as [? ?]; subst. split; [exact Q|exact I].
  - destruct (ttype t) eqn:TT; try (destruct (IH _ _ _ _ H Q) as [Q0 N]; split; [exact Q0|]; cbn [named]; rewrite TT; split; [intro X; discriminate X|exact N]).
    destruct (signature_step B pv (t :: r) s) as [u1 s1| |] eqn:P; try discriminate H.
    destruct (IH _ _ _ _ H Q) as [Q1 N]. destruct (signature_step_named _ _ _ _ _ P Q1) as [Q0 TI].
    split; [exact Q0|]. cbn [named]. split; [intros _; exact TI|exact N].
Qed.

(* ---- the function table built by the pre-pass ---- *)
Definition nxt_tok (l : list token) : token := cur (advance (state_at tEOF l [])).
(* the identifiers following the `func` keywords, in source order *)
Fixpoint func_names (toks : list token) : list str :=
  match toks with
  | [] => []
  | t :: r => (match ttype t with T_FUNC => [tlit (nxt_tok (t :: r))] | _ => [] end) ++ func_names r
  end.
(* an entry made from a parsed signature: niladic iff no parameters; the arity is the number of parsed parameters,
   or None for a single variadic parameter *)
Definition fi_wf (fi : finfo) : Prop :=
  fi_nil fi = (match fi_params fi with [] => true | _ => false end) /\
  (fi_arity fi = Some (List.length (fi_params fi)) \/ (fi_arity fi = None /\ List.length (fi_params fi) = 1)).

Lemma func_def_signature_shape s name fi s' : parse_func_def_signature B s = Ok (Some (name, fi)) s' ->
  name = tlit (cur (cs (adv s))) /\ fi_wf fi.
Proof.
  unfold parse_func_def_signature. intro H. cbv zeta in H.
  destruct (passert T_IDENT (adv s)) as [ok s2] eqn:A.
  destruct ok; cbn [negb] in H; [|discriminate H].
  assert (E2 : s2 = adv s).
  { unfold passert in A. destruct (assert_token T_IDENT (cs (adv s))) as [o c] eqn:AT. injection A as -> <-.
    unfold assert_token in AT. destruct (toktype_beq _ _); [|discriminate AT]. injection AT as <-. reflexivity. }
  subst s2.
  match type of H with (pdo (ret, s4) <- ?m; _) = _ => destruct m as [ret s4| |] end; try discriminate H.
  destruct (sig_params_loop B (S (pos s4)) [] s4) as [params s5| |]; try discriminate H.
  apply Ok_inj in H as [E _]. injection E as -> ->. split; [reflexivity|].
  unfold fi_wf. cbn [fi_nil fi_params fi_arity]. split; [reflexivity|].
  destruct (ct s5); try (left; reflexivity).
  destruct (Nat.eqb (List.length params) 1) eqn:L; [right; split; [reflexivity|apply Nat.eqb_eq; exact L]|left; reflexivity].
Qed.

Lemma func_def_signature_none s s' : parse_func_def_signature B s = Ok None s' -> serrs s' <> [].
Proof.
  unfold parse_func_def_signature. intros H Q. cbv zeta in H.
  destruct (passert T_IDENT (adv s)) as [ok s2] eqn:A.
  destruct ok; cbn [negb] in H.
  - match type of H with (pdo (ret, s4) <- ?m; _) = _ => destruct m as [ret s4| |] end; try discriminate H.
    destruct (sig_params_loop B (S (pos s4)) [] s4) as [params s5| |]; discriminate H.
  - apply Ok_inj in H as [_ ->]. rewrite serrs_apnl in Q. destruct (passert_ne _ _ _ _ A Q) as [X _]. discriminate X.
Qed.

Lemma p_type_fns s t s' : p_type B s = Ok t s' -> fns s' = fns s.
Proof. apply expr_call_fn. Qed.

Lemma typed_decl_fns s d s' : parse_typed_decl B s = Ok d s' -> fns s' = fns s.
Proof.
  unfold parse_typed_decl. intro H.
  destruct (p_type B _) as [ty s2| |] eqn:PY; try discriminate H. apply p_type_fns in PY.
  destruct ty; apply Ok_inj in H as [_ ->]; rewrite ?fns_serr_at, PY, ?fns_adv, ?fns_passert, ?fns_adv, ?fns_passert; reflexivity.
Qed.

Lemma sig_params_loop_fns : forall fuel acc s r s', sig_params_loop B fuel acc s = Ok r s' -> fns s' = fns s.
Proof.
  induction fuel as [|f IH]; intros acc s r s' H; [discriminate|]. cbn [sig_params_loop] in H.
  destruct (_ || _); [apply Ok_inj in H as [_ ->]; reflexivity|].
  destruct (parse_typed_decl B (snd (passert T_IDENT s))) as [[[n p] t] s1| |] eqn:PT; try discriminate H.
  apply IH in H. rewrite H, (typed_decl_fns _ _ _ PT). apply fns_passert.
Qed.

Lemma func_def_signature_fns s r s' : parse_func_def_signature B s = Ok r s' -> fns s' = fns s.
Proof.
  unfold parse_func_def_signature. intro H. cbv zeta in H.
  destruct (passert T_IDENT (adv s)) as [ok s2] eqn:A. pose proof (passert_fns _ _ _ _ A) as F2. rewrite fns_adv in F2.
  destruct ok; cbn [negb] in H; [|apply Ok_inj in H as [_ ->]; rewrite fns_apnl; exact F2].
  match type of H with (pdo (ret, s4) <- ?m; _) = _ => destruct m as [ret s4| |] eqn:PR end; try discriminate H.
  assert (F4 : fns s4 = fns s2).
  { destruct (toktype_beq (ct (adv s2)) T_COLON) eqn:TC.
    - apply toktype_beq_eq in TC. rewrite TC in PR.
      destruct (p_type B (adv (adv s2))) as [t s5'| |] eqn:PT; try discriminate PR. apply p_type_fns in PT.
      apply Ok_inj in PR as [_ ->]. destruct t; rewrite ?fns_serr_at, PT, !fns_adv; reflexivity.
    - apply toktype_beq_false in TC. destruct (ct (adv s2)); try congruence; apply Ok_inj in PR as [_ ->]; apply fns_adv. }
  destruct (sig_params_loop B (S (pos s4)) [] s4) as [params s5| |] eqn:PL; try discriminate H.
  apply Ok_inj in H as [_ ->]. rewrite fns_apnl, fns_assert_eol.
  transitivity (fns s5); [destruct (ct s5); try reflexivity; destruct (Nat.eqb _ _); rewrite ?fns_serr, fns_adv; reflexivity|].
  rewrite (sig_params_loop_fns _ _ _ _ _ PL), F4. exact F2.
Qed.

Lemma signature_step_table pv toks s u s' : signature_step B pv toks s = Ok u s' -> serrs s' = [] ->
  exists fi, fns s' = (tlit (nxt_tok toks), fi) :: fns s /\ fi_wf fi.
Proof.
  unfold signature_step. intros H Q. cbv zeta in H.
  set (s0 := with_cs s (state_at pv toks (errs (cs s)))) in *.
  destruct (parse_func_def_signature B s0) as [r s1| |] eqn:P; try discriminate H.
  destruct r as [[name fi]|].
  - destruct (func_def_signature_shape _ _ _ _ P) as [EN WF].
    apply Ok_inj in H as [_ ->]. exists fi. split; [|exact WF]. cbn [fns].
    match goal with |- (name, fi) :: fns ?x = _ => assert (F3 : fns x = fns s1) end.
    { destruct (lookup_fn name _); [rewrite fns_serr_at|destruct (is_func name _); rewrite ?fns_serr_at];
        destruct (mem_str name (b_globals B)); rewrite ?fns_serr_at; reflexivity. }
    rewrite F3, (func_def_signature_fns _ _ _ P). f_equal. f_equal. rewrite EN. f_equal. unfold nxt_tok. apply cur_advance_ext; reflexivity.
  - exfalso. apply Ok_inj in H as [_ ->]. exact (func_def_signature_none _ _ P Q).
Qed.

Lemma signatures_table : forall toks pv s u s', signatures B pv toks s = Ok u s' -> serrs s' = [] ->
  exists sigs, fns s' = sigs ++ fns s /\ map fst sigs = rev (func_names toks) /\ Forall (fun nf => fi_wf (snd nf)) sigs.
Proof.
  induction toks as [|t r IH]; intros pv s u s' H Q; cbn [signatures] in H.
  - apply Ok_inj in H as [_ ->]. exists []. repeat split; constructor.
  - cbn [func_names]. destruct (ttype t) eqn:TT; try (exact (IH _ _ _ _ H Q)).
    destruct (signature_step B pv (t :: r) s) as [u1 s1| |] eqn:P; try discriminate H.
    destruct (IH _ _ _ _ H Q) as (sigs & F & NM & WF).
    destruct (signatures_named _ _ _ _ _ H Q) as [Q1 _].
    destruct (signature_step_table _ _ _ _ _ P Q1) as (fi & F1 & W1).
    exists (sigs ++ [(tlit (nxt_tok (t :: r)), fi)]). split; [rewrite F, F1, <- app_assoc; reflexivity|]. split.
    + rewrite map_app, NM. simpl. reflexivity.
    + apply Forall_app. split; [exact WF|constructor; [exact W1|constructor]].
Qed.

(* the statement loop from a cursor inside the token list, whitespace-insensitive: every `func` it meets is named *)
Lemma loop_named_true toks : named toks -> forall fuel terms s, SI toks [false] s -> loop_named B fuel terms s = true.
Proof.
  intros N. induction fuel as [|f IH]; intros terms s I; [reflexivity|].
  apply loop_named_cases; intro CT.
  - reflexivity.
  - apply andb_true_iff. split.
    + assert (TI : ct (adv s) = T_IDENT).
      { destruct I as [S W]. unfold ct, cur_t, cur in CT.
        destruct (rest (cs s)) as [|t r] eqn:R; [discriminate CT|]. simpl in CT.
        rewrite <- (named_sfx toks N t r S CT). unfold nxt, ct. apply cur_t_advance_ext; [exact R| |reflexivity].
        unfold is_wss. rewrite W. reflexivity. }
      rewrite TI. reflexivity.
    + destruct (parse_func B f s) as [r s1| |] eqn:P; try reflexivity. apply IH. exact (func_spi toks B _ _ _ _ P _ I).
  - destruct (parse_event_handler B f s) as [r s1| |] eqn:P; try reflexivity. apply IH. exact (event_handler_spi toks B _ _ _ _ P _ I).
  - destruct (parse_statement B f s) as [r s1| |] eqn:P; try reflexivity.
    pose proof (stmt_spi toks B _ _ _ _ P _ I) as I1.
    destruct r as [st|]; [destruct terms; [reflexivity|]|]; apply IH; exact I1.
Qed.

End PrePass.

(* an accepted parse: the premise of the scoping theorem holds *)
Theorem accept_funcs_named B raw eof p : parse B raw eof = Accept p -> funcs_named B raw = true.
Proof.
  unfold parse, funcs_named, loop_start_state, fn_table, legal_toks, newparser_state.
  destruct (signatures B tEOF _ _) as [u s1| |] eqn:SG; try discriminate.
  destruct (_ ++ _) as [|e0 es0] eqn:EE; [|discriminate]. intros _.
  apply app_eq_nil in EE as [_ EE]. apply map_rev_nil in EE.
  destruct (signatures_named B _ _ _ _ _ SG EE) as [_ N].
  apply (loop_named_true B _ N). split; [apply sfx_refl|reflexivity].
Qed.

(* the function table of an accepted parse: the builtins, preceded by one entry per `func` keyword (latest first), named by
   the identifier that follows the keyword, with the arity of the parsed parameter list *)
Definition builtin_table (B : benv) : list (str * finfo) :=
  map (fun nb => (fst nb, {| fi_nil := snd nb; fi_ret := true;
                             fi_arity := match lookup_arity (fst nb) (b_arity B) with Some a => a | None => None end;
                             fi_params := [] |})) (b_funcs B).
Theorem fn_table_shape B raw eof p : parse B raw eof = Accept p ->
  exists sigs, fn_table B raw = sigs ++ builtin_table B /\
               map fst sigs = rev (func_names (legal_toks raw)) /\ Forall (fun nf => fi_wf (snd nf)) sigs.
Proof.
  unfold parse, fn_table, legal_toks, newparser_state, builtin_table.
  destruct (signatures B tEOF _ _) as [u s1| |] eqn:SG; try discriminate.
  destruct (_ ++ _) as [|e0 es0] eqn:EE; [|discriminate]. intros _.
  apply app_eq_nil in EE as [_ EE]. apply map_rev_nil in EE.
  exact (signatures_table B _ _ _ _ _ SG EE).
Qed.

(** * The scoping theorem without premise *)
From EvyV Require Import ParserScope.

Theorem accept_scoped B raw eof p : parse B raw eof = Accept p -> scope_prog (tabs_of B (fn_table B raw)) p = true.
Proof. intro H. exact (accept_scoped_partial B raw eof p H (accept_funcs_named B raw eof p H)). Qed.
