(* Unfolding equations for the functions of Parser.v that dispatch on the token type (those of Pratt.v: PrattEqProofs). *)
From Coq Require Import List NArith ZArith Bool Arith String.
From EvyV Require Import Base Pratt Parser.
From EvyV Require Export PrattEqProofs.
From EvyV.Gen Require Import Prec.
Import ListNotations.
Local Open Scope nat_scope.

Lemma empty_stmt_inv s r s' : parse_empty_stmt s = Ok r s' -> r = Some SEmpty /\ (s' = adv s \/ s' = adv (adv s)).
Proof. unfold parse_empty_stmt. destruct (ct s); try discriminate; intro H; injection H as <- <-; auto. Qed.

(* advancePastNL only advances the cursor (compare PrattEqProofs.parse_type_steps) *)
Lemma apnl_loop_steps (P : pstate -> Prop) : (forall c, P c -> P (advance c)) -> forall f c, P c -> P (apnl_loop f c).
Proof.
  intro HP. induction f as [|f IH]; intros c I; [exact I|]. cbn [apnl_loop].
  destruct (cur_t c); try (apply IH, HP, I); first [exact I | apply HP, I].
Qed.

(* validateScope only reports *)
Lemma validate_scope_steps (P : pst -> Prop) : (forall k n s, P s -> P (serr_at k n s)) -> forall s, P s -> P (validate_scope s).
Proof.
  intros HP s. unfold validate_scope. destruct (scs s) as [|sc r]; [auto|].
  generalize (sort_by_pos (filter (fun v => negb (v_used v)) (sc_vars sc))). intro l. revert s.
  induction l as [|x l IH]; intros s I; simpl; [exact I|]. apply IH, HP, I.
Qed.

Section WithBuiltins.
Variable B : benv.

(* validateVarDecl accepts and leaves the state alone, or rejects and reports at the given position *)
Lemma validate_var_decl_cases n p a s :
  validate_var_decl B n p a s = (true, s) \/ exists k, validate_var_decl B n p a s = (false, serr_at k p s).
Proof.
  unfold validate_var_decl. repeat (match goal with |- context[if ?b then _ else _] => destruct b end; [right; eexists; reflexivity|]).
  left. reflexivity.
Qed.

(* parseFunc, cut at the call of parseBlock.  [func_info]: the signature the pre-pass recorded under the
   name after `func` (a placeholder if there is no name); [func_body_state]: the state the body is parsed in;
   [func_finish]: what happens after the body. *)
Definition func_info (s : pst) : finfo :=
  match (if toktype_beq (ct (adv s)) T_IDENT then lookup_fn (tlit (cur (cs (adv s)))) (fns (apnl (adv s))) else None) with
  | Some fi => fi
  | None => {| fi_nil := true; fi_ret := false; fi_arity := Some 0; fi_params := [] |}
  end.
Definition func_body_state (s : pst) : pst :=
  add_params B (fi_params (func_info s)) (push_scope true (fi_ret (func_info s)) false (apnl (adv s))).
Definition func_finish (s : pst) (b : block) (s4 : pst) : PR (option stmt) :=
  let name := tlit (cur (cs (adv s))) in
  let fi := func_info s in
  if negb (toktype_beq (ct (adv s)) T_IDENT) then Ok None (pop_scope s4)
  else if mem_str name (bodies s4) then Ok None (pop_scope (serr K_redecl_func_body s4))
  else
    let s6 := finish_end (if fi_ret fi && negb (block_terms b) then serr K_missing_return s4 else s4) in
    Ok (Some (SFunc name (fi_ret fi) (map fst (fi_params fi)) b))
       (pop_scope {| cs := cs s6; scs := scs s6; fns := fns s6; bodies := name :: bodies s6; hds := hds s6 |}).

Lemma parse_func_eq fuel s :
  parse_func B fuel s = pdo (b, s4) <- parse_block B fuel (func_body_state s); func_finish s b s4.
Proof. unfold parse_func, func_finish, func_body_state, func_info. destruct (ct (adv s)); reflexivity. Qed.

Lemma assign_target_loop_eq f tok n s :
  assign_target_loop B (S f) tok n s =
  if toktype_beq (ct s) T_LBRACKET then
    if tyerr_s B TS_assign_string_index n tok then Ok None (upd (add_err_at (E_type TS_assign_string_index) tok) s) else
    pdo (r, s1) <- p_index B n s;
    match r with None => Ok None s1 | Some n' => assign_target_loop B f tok n' s1 end
  else if toktype_beq (ct s) T_DOT then
    pdo (r, s1) <- p_dot B n s;
    match r with None => Ok None s1 | Some n' => assign_target_loop B f tok n' s1 end
  else Ok (Some n) s.
Proof. cbn [assign_target_loop]. destruct (ct s); reflexivity. Qed.

Lemma else_if_loop_eq ps f bfuel acc s :
  else_if_loop B ps (S f) bfuel acc s =
  if toktype_beq (ct s) T_ELSE && toktype_beq (ttype (peek (cs s))) T_IF
  then pdo (cb, s1) <- parse_if_cond_block B ps bfuel (adv s); else_if_loop B ps f bfuel (cb :: acc) s1
  else Ok (rev acc) s.
Proof.
  cbn [else_if_loop]. destruct (toktype_beq (ct s) T_ELSE) eqn:T1; cbn [andb].
  - apply toktype_beq_eq in T1. rewrite T1. destruct (toktype_beq (ttype (peek (cs s))) T_IF) eqn:T2.
    + apply toktype_beq_eq in T2. rewrite T2. reflexivity.
    + destruct (ttype (peek (cs s))); try reflexivity. discriminate T2.
  - destruct (ct s); try reflexivity. discriminate T1.
Qed.

(* parseForStatement: the optional loop variable, read in the state after `for` (the first component is None if
   validateVarDecl rejected the name) *)
Definition for_loop_var (s1 : pst) : option (option str) * pst :=
  if toktype_beq (ct s1) T_IDENT then
    let name := tlit (cur (cs s1)) in
    let '(ok, s2) := validate_var_decl B name (pos s1) false s1 in
    if ok then (Some (Some name), adv (snd (passert T_DECLARE (adv (scope_set name (pos s1) s2)))))
    else (None, s2)
  else (Some None, s1).

Lemma parse_for_stmt_eq ps fuel s :
  parse_for_stmt B ps fuel s =
  match for_loop_var (adv (push_inherit true s)) with
  | (None, s2) => Ok None (pop_scope (apnl s2))
  | (Some v, s4) =>
    let '(ok, s5) := passert T_RANGE s4 in
    if negb ok then Ok None (pop_scope (apnl s5)) else
    pdo (ns, s7) <- p_expr_list B (adv s5);
    let nodes := match ns with Some l => l | None => [] end in
    match nodes with
    | [] => Ok None (pop_scope (serr K_range_empty s7))
    | n :: more =>
      if (match more with [] => false | _ => true end) && tyerr_s B TS_for_multi n (pos s7)
      then Ok None (pop_scope (ty_err_here TS_for_multi s7)) else
      let s8 := assert_eol s7 in
      let s9 := if tyerr_s B TS_for_range_type (TCall [] nodes) (pos s8) then ty_err_here TS_for_range_type s8 else s8 in
      pdo (b, s10) <- parse_block_with ps fuel false (apnl s9);
      Ok (Some (SFor v nodes b)) (pop_scope (finish_end s10))
    end
  end.
Proof. unfold parse_for_stmt, for_loop_var. destruct (ct (adv (push_inherit true s))); reflexivity. Qed.

(* parseStatement: the dispatch on the current token and, for an identifier, on the token after it *)
Lemma statement_body_cases (ps : pst -> PR (option stmt)) fuel s (P : PR (option stmt) -> Prop) :
  (ct s = T_WS -> P (Ok None (adv s))) ->
  (ct s = T_NL \/ ct s = T_COMMENT -> P (parse_empty_stmt s)) ->
  (ct s = T_IDENT -> P (parse_assign_stmt B s)) ->
  (ct s = T_IDENT -> P (parse_typed_decl_stmt B s)) ->
  (ct s = T_IDENT -> P (parse_inferred_decl_stmt B s)) ->
  (ct s = T_IDENT -> is_func (tlit (cur (cs s))) s = true -> P (parse_call_stmt B s)) ->
  (ct s = T_IDENT -> is_func (tlit (cur (cs s))) s = false -> P (Ok None (apnl (serr K_unknown_function s)))) ->
  (ct s = T_RETURN -> P (parse_return_stmt B s)) ->
  (ct s = T_BREAK -> P (parse_break_stmt s)) ->
  (ct s = T_FOR -> P (parse_for_stmt B ps fuel s)) ->
  (ct s = T_WHILE -> P (parse_while_stmt B ps fuel s)) ->
  (ct s = T_IF -> P (parse_if_stmt B ps fuel s)) ->
  (tt_in [T_WS; T_NL; T_COMMENT; T_IDENT; T_RETURN; T_BREAK; T_FOR; T_WHILE; T_IF] (ct s) = false ->
   P (Ok None (apnl (serr K_unexpected_input s)))) ->
  P (parse_statement_body B ps fuel s).
Proof.
  intros WS EM AS TD ID CA UF RE BR FO WH IF_ UN. unfold parse_statement_body.
  destruct (ct s); try (apply UN; reflexivity); auto.
  destruct (ttype (peek (cs s))); auto; destruct (is_func (tlit (cur (cs s))) s); auto.
Qed.

(* the top-level loop: the dispatch on the current token *)
Lemma program_loop_cases fuel acc terms s (P : PR (list stmt) -> Prop) :
  (ct s = T_EOF -> P (Ok (rev acc) s)) ->
  (ct s = T_FUNC -> P (pdo (r, s1) <- parse_func B fuel s;
                       program_loop B fuel (match r with Some st => st :: acc | None => acc end) terms s1)) ->
  (ct s = T_ON -> P (pdo (r, s1) <- parse_event_handler B fuel s;
                     program_loop B fuel (match r with Some st => st :: acc | None => acc end) terms s1)) ->
  (tt_in [T_EOF; T_FUNC; T_ON] (ct s) = false ->
   P (pdo (r, s1) <- parse_statement B fuel s;
      match r with
      | None => program_loop B fuel acc terms s1
      | Some st => if terms then program_loop B fuel acc terms (serr_at K_unreachable (pos s) s1)
                   else program_loop B fuel (st :: acc) (always_terms st) s1
      end)) ->
  P (program_loop B (S fuel) acc terms s).
Proof. intros EO FU ON ST. cbn [program_loop]. destruct (ct s); try (apply ST; reflexivity); auto. Qed.

(* loop_named dispatches like program_loop *)
Lemma loop_named_cases fuel terms s (P : bool -> Prop) :
  (ct s = T_EOF -> P true) ->
  (ct s = T_FUNC -> P (toktype_beq (ct (adv s)) T_IDENT &&
                       match parse_func B fuel s with Ok _ s1 => loop_named B fuel terms s1 | _ => true end)) ->
  (ct s = T_ON -> P (match parse_event_handler B fuel s with Ok _ s1 => loop_named B fuel terms s1 | _ => true end)) ->
  (tt_in [T_EOF; T_FUNC; T_ON] (ct s) = false ->
   P (match parse_statement B fuel s with
      | Ok None s1 => loop_named B fuel terms s1
      | Ok (Some st) s1 => if terms then true else loop_named B fuel (always_terms st) s1
      | _ => true
      end)) ->
  P (loop_named B (S fuel) terms s).
Proof.
  intros EO FU ON ST. cbn [loop_named].
  assert (E : match ct (adv s) with T_IDENT => true | _ => false end = toktype_beq (ct (adv s)) T_IDENT)
    by (destruct (ct (adv s)); reflexivity).
  rewrite E. destruct (ct s); try (apply ST; reflexivity); auto.
Qed.

End WithBuiltins.
