(* ParserProofs.v — totality of the parser model (C03): for every token list, every
   builtin table and every typing oracle, Parser.parse returns Accept or Reject with a
   non-empty error list; it never reaches a modelled Go panic site and never runs out
   of fuel.  The argument is the progress argument the Go code relies on implicitly:
   every loop iteration and every recursive descent consumes at least one token.

   here c = number of tokens left.  All lemmas bound [here] of the resulting state. *)
From Coq Require Import List NArith ZArith Bool Arith Lia String.
From EvyV Require Import Base Pratt Parser ParserEqProofs.
From EvyV.Gen Require Import Prec.
Import ListNotations.
Local Open Scope nat_scope.

Lemma here_advance_wss c : here (advance_wss c) = here c - 1.
Proof. unfold here, advance_wss; simpl. destruct (rest c); simpl; lia. Qed.

Lemma here_advance_if_ws c : here (advance_if_ws c) <= here c.
Proof. unfold advance_if_ws. destruct (is_ws (cur c)); [rewrite here_advance_wss|]; lia. Qed.

Lemma here_advance c : here (advance c) <= here c - 1.
Proof.
  unfold advance. pose proof (here_advance_wss c) as H.
  destruct (is_wss (advance_wss c)); [lia|].
  pose proof (here_advance_if_ws (advance_wss c)) as H2.
  destruct (is_ws (peek (advance_if_ws (advance_wss c)))); unfold here in *; simpl; lia.
Qed.

Lemma here_push_wss b c : here (push_wss b c) = here c.
Proof. reflexivity. Qed.
Lemma here_add_err_at e n c : here (add_err_at e n c) = here c.
Proof. reflexivity. Qed.
Lemma here_add_err e c : here (add_err e c) = here c.
Proof. reflexivity. Qed.
Lemma here_mark_used n c : here (mark_used n c) = here c.
Proof. reflexivity. Qed.

Lemma here_pop_wss c : here (pop_wss c) <= here c.
Proof.
  unfold pop_wss.
  set (c1 := {| prev := prev c; rest := rest c; peek := peek c; wss := tl (wss c); errs := errs c; used := used c |}).
  assert (H : here c1 = here c) by reflexivity.
  destruct (negb (is_wss c1) && is_ws (cur c1)); [pose proof (here_advance c1)|]; lia.
Qed.

Lemma here_assert_token t c : here (snd (assert_token t c)) = here c.
Proof. unfold assert_token. destruct (toktype_beq (cur_t c) t); reflexivity. Qed.

Lemma assert_token_eq t c ok c' : assert_token t c = (ok, c') -> here c' = here c.
Proof. intro H. pose proof (here_assert_token t c) as H2. rewrite H in H2. exact H2. Qed.

Lemma here_map_key_state c : here (map_key_state c) = here c.
Proof. unfold map_key_state. destruct (toktype_beq _ _); reflexivity. Qed.

Lemma here_unexpected_left c : here (unexpected_left c) = here c.
Proof. unfold unexpected_left. destruct (_ && _); reflexivity. Qed.

Lemma here_slice_close E c : here (slice_close E c) <= here c - 1.
Proof. unfold slice_close. destruct (e_fix_slice E); [rewrite here_advance_wss; lia|apply here_advance]. Qed.

Lemma cur_t_not_eof c : cur_t c <> T_EOF -> 0 < here c.
Proof. unfold cur_t, cur, here. destruct (rest c); simpl; [congruence|lia]. Qed.
Lemma here_zero_eof c : here c = 0 -> cur_t c = T_EOF.
Proof. unfold here, cur_t, cur. destruct (rest c); simpl; [reflexivity|discriminate]. Qed.

(* [hs] closes  here (f (g .. c)) <= n  (or <): [hfact] puts the lemma above about each cursor operation of the term into the
   context, every `if` is split, lia does the rest *)
Ltac hfact t :=
  lazymatch t with
  | advance ?x => hfact x; pose proof (here_advance x)
  | advance_wss ?x => hfact x; pose proof (here_advance_wss x)
  | advance_if_ws ?x => hfact x; pose proof (here_advance_if_ws x)
  | pop_wss ?x => hfact x; pose proof (here_pop_wss x)
  | push_wss ?b ?x => hfact x; pose proof (here_push_wss b x)
  | add_err_at ?e ?n ?x => hfact x; pose proof (here_add_err_at e n x)
  | add_err ?e ?x => hfact x; pose proof (here_add_err e x)
  | mark_used ?n ?x => hfact x; pose proof (here_mark_used n x)
  | unexpected_left ?x => hfact x; pose proof (here_unexpected_left x)
  | map_key_state ?x => hfact x; pose proof (here_map_key_state x)
  | slice_close ?E ?x => hfact x; pose proof (here_slice_close E x)
  | snd (assert_token ?t ?x) => hfact x; pose proof (here_assert_token t x)
  | (if ?b then ?x else ?y) => hfact x; hfact y
  | _ => idtac
  end.
Ltac hs :=
  repeat match goal with
         | H : assert_token _ _ = (_, _) |- _ => apply assert_token_eq in H
         end;
  lazymatch goal with
  | |- here ?a <= _ => hfact a
  | |- here ?a < _ => hfact a
  | |- _ => idtac
  end;
  repeat match goal with |- context[if ?b then _ else _] => destruct b end;
  try lia.

Definition okr {A} (n : nat) (r : res A) : Prop :=
  exists a c', r = Some (a, c') /\ here c' <= n.
(* ... and a returned tree means that at least one token was consumed *)
Definition okx (n : nat) (r : res (option tree)) : Prop :=
  exists a c', r = Some (a, c') /\ here c' <= n /\ (a <> None -> here c' < n).
(* parseExpr at callee fuel is total on states with at most m tokens left *)
Definition PE (pe : nat -> pstate -> res (option tree)) (m : nat) : Prop :=
  forall p c, here c <= m -> okx (here c) (pe p c).

(* a branch that returns: okr / okx of  ret a (f (g .. c)) *)
Ltac fin :=
  unfold ret; do 2 eexists; split; [reflexivity|];
  first [ split; [hs | let N := fresh "N" in intro N; first [ exfalso; apply N; reflexivity | hs ] ] | hs ].

Lemma okx_okr n r : okx n r -> okr n r.
Proof. intros (a & c & H1 & H2 & _). exists a, c. auto. Qed.

Lemma multiline_ws_total : forall fuel c, here c < fuel ->
  exists c', parse_multiline_ws fuel c = Some c' /\ here c' <= here c.
Proof.
  induction fuel as [|f IH]; intros c Hf; [lia|].
  rewrite parse_multiline_ws_eq.
  destruct (tt_in [T_NL; T_WS] (cur_t c)) eqn:T.
  { assert (0 < here c) by (apply cur_t_not_eof; apply tt_in_true in T; simpl in T; intuition congruence).
    destruct (IH (advance_wss c)) as (c' & E1 & E2); [rewrite here_advance_wss; lia|].
    exists c'. split; [exact E1|]. rewrite here_advance_wss in E2. lia. }
  destruct (toktype_beq (cur_t c) T_COMMENT) eqn:T2; [|eexists; split; [reflexivity|lia]].
  assert (0 < here c) by (apply cur_t_not_eof; apply toktype_beq_eq in T2; congruence).
  destruct (IH (advance_wss (snd (assert_token T_NL (advance_wss c))))) as (c' & E1 & E2).
  { rewrite here_advance_wss, here_assert_token, here_advance_wss. lia. }
  exists c'. split; [exact E1|]. rewrite here_advance_wss, here_assert_token, here_advance_wss in E2. lia.
Qed.

Lemma parse_type_total : forall fuel c, here c < fuel -> okr (here c) (parse_type fuel c).
Proof.
  induction fuel as [|f IH]; intros c Hf; [lia|].
  cbn [parse_type].
  assert (SUB : forall g : option ty -> option ty, 0 < here c -> 0 < here (advance c) ->
            okr (here c) (do (sub, st2) <- parse_type f (advance (advance c)); ret (g sub) st2)).
  { intros g H1 H2. pose proof (here_advance c). pose proof (here_advance (advance c)).
    destruct (IH (advance (advance c))) as (a & c' & E1 & E2); [lia|]. rewrite E1. fin. }
  destruct (cur_t c) eqn:T; try fin;
    (destruct (cur_t (advance c)) eqn:T2; try fin; apply SUB; apply cur_t_not_eof; congruence).
Qed.

Section ExprTotal.
Variable E : env.
Variable pe : nat -> pstate -> res (option tree).
Variable m : nat.
Hypothesis HPE : PE pe m.

Lemma expr_wss_total c : here c <= m -> okx (here c) (parse_expr_wss pe c).
Proof.
  intro H. unfold parse_expr_wss.
  destruct (HPE lowestPrec (push_wss true c)) as (a & c' & Q1 & Q2 & Q3); [exact H|].
  rewrite Q1. rewrite here_push_wss in *. pose proof (here_pop_wss c').
  unfold ret. exists a, (pop_wss c'). split; [reflexivity|]. split; [lia|]. intro N. specialize (Q3 N). lia.
Qed.

Lemma expr_list_total : forall fuel acc c, here c <= m -> here c < fuel ->
  okr (here c) (parse_expr_list pe fuel acc c).
Proof.
  induction fuel as [|f IH]; intros acc c Hm Hf; [lia|].
  rewrite parse_expr_list_eq. destruct (_ || _); [fin|].
  destruct (expr_wss_total c Hm) as (a & c' & Q1 & Q2 & Q3). rewrite Q1.
  destruct a as [t|]; [|fin].
  assert (here c' < here c) by (apply Q3; discriminate).
  pose proof (here_advance_if_ws c').
  destruct (IH (t :: acc) (advance_if_ws c')) as (a2 & c2 & R1 & R2); [lia|lia|].
  exists a2, c2. split; [exact R1|lia].
Qed.

Lemma func_call_total fuel top nil c :
  here c - 1 <= m -> here c < fuel -> 0 < here c -> okx (here c) (parse_func_call E pe fuel top nil c).
Proof.
  intros Hm Hf Hp. unfold parse_func_call. pose proof (here_advance c).
  destruct (top || negb nil); [|fin].
  destruct (expr_list_total fuel [] (advance c)) as (a & c' & Q1 & Q2); [lia|lia|].
  rewrite Q1. fin.
Qed.

Lemma toplevel_total fuel c :
  here c <= m -> here c < fuel -> okx (here c) (parse_toplevel E pe fuel c).
Proof.
  intros Hm Hf. unfold parse_toplevel.
  destruct (cur_t c) eqn:T; try (apply HPE; exact Hm).
  destruct (func_of E (tlit (cur c))) as [[|]|]; try (apply HPE; exact Hm).
  apply func_call_total; [lia|exact Hf|apply cur_t_not_eof; congruence].
Qed.

Lemma lookup_var_total c : 0 < here c -> okx (here c) (lookup_var E c).
Proof.
  intro Hp. unfold lookup_var. pose proof (here_advance c).
  destruct (str_eqb _ _); [fin|]. destruct (mem_str _ _); [fin|]. destruct (func_of E _); fin.
Qed.

Lemma ident_expr_total fuel c :
  here c - 1 <= m -> here c < fuel -> 0 < here c -> okx (here c) (parse_ident_expr E pe fuel c).
Proof.
  intros Hm Hf Hp. unfold parse_ident_expr.
  destruct (func_of E _) as [[|]|]; try (apply lookup_var_total; exact Hp).
  apply func_call_total; assumption.
Qed.

Lemma array_elems_total : forall fuel acc c, here c <= m -> here c < fuel ->
  okr (here c) (parse_array_elems E pe fuel acc c).
Proof.
  induction fuel as [|f IH]; intros acc c Hm Hf; [lia|].
  rewrite parse_array_elems_eq. destruct (tt_in _ _); [fin|].
  destruct (expr_wss_total c Hm) as (a & c' & Q1 & Q2 & Q3). rewrite Q1.
  destruct a as [t|]; [|fin].
  assert (here c' < here c) by (apply Q3; discriminate).
  destruct (tyerr E _ _ _); [fin|].
  destruct (multiline_ws_total (S f) c') as (c2 & W1 & W2); [lia|]. rewrite W1.
  destruct (IH (t :: acc) c2) as (a3 & c3 & R1 & R2); [lia|lia|].
  exists a3, c3. split; [exact R1|lia].
Qed.

Lemma array_literal_total fuel c :
  here c - 1 <= m -> here c < fuel -> 0 < here c -> okx (here c) (parse_array_literal E pe fuel c).
Proof.
  intros Hm Hf Hp. unfold parse_array_literal. pose proof (here_advance c).
  destruct (multiline_ws_total fuel (advance c)) as (c2 & W1 & W2); [lia|]. rewrite W1.
  destruct (array_elems_total fuel [] c2) as (a & c3 & Q1 & Q2); [lia|lia|]. rewrite Q1.
  destruct a as [l|]; [|fin].
  destruct (assert_token T_RBRACKET c3) as [ok c4] eqn:A. destruct ok; fin.
Qed.

Lemma map_pairs_total : forall fuel acc c, here c <= m -> here c < fuel ->
  okr (here c) (parse_map_pairs E pe fuel acc c).
Proof.
  induction fuel as [|f IH]; intros acc c Hm Hf; [lia|].
  rewrite parse_map_pairs_eq.
  destruct (tt_in [T_RCURLY; T_EOF] (cur_t c)) eqn:T; [fin|]. cbv zeta.
  assert (Hp : 0 < here c) by (apply cur_t_not_eof, (tt_in_false _ _ T); simpl; auto).
  pose proof (here_map_key_state c) as H0. pose proof (here_advance (map_key_state c)).
  destruct (has_key _ _); [fin|].
  set (st3 := advance (snd (assert_token T_COLON (advance (map_key_state c))))).
  assert (H3 : here st3 <= here c - 1) by (unfold st3; hs).
  destruct (expr_wss_total st3) as (a & c' & Q1 & Q2 & Q3); [lia|]. rewrite Q1.
  destruct a as [t|]; [|fin].
  destruct (tyerr E _ _ _); [fin|].
  destruct (multiline_ws_total (S f) c') as (c2 & W1 & W2); [lia|]. rewrite W1.
  destruct (IH ((tlit (as_ident (cur c)), t) :: acc) c2) as (a3 & c3 & R1 & R2); [lia|lia|].
  exists a3, c3. split; [exact R1|lia].
Qed.

Lemma map_literal_total fuel c :
  here c - 1 <= m -> here c < fuel -> 0 < here c -> okx (here c) (parse_map_literal E pe fuel c).
Proof.
  intros Hm Hf Hp. unfold parse_map_literal. pose proof (here_advance (push_wss false c)). rewrite here_push_wss in *.
  destruct (multiline_ws_total fuel (advance (push_wss false c))) as (c2 & W1 & W2); [lia|]. rewrite W1.
  destruct (map_pairs_total fuel [] c2) as (a & c3 & Q1 & Q2); [lia|lia|]. rewrite Q1.
  destruct a as [l|]; [|fin].
  destruct (assert_token T_RCURLY c3) as [ok c4] eqn:A. destruct ok; fin.
Qed.

Lemma literal_total fuel c :
  here c - 1 <= m -> here c < fuel -> 0 < here c -> okx (here c) (parse_literal E pe fuel c).
Proof.
  intros Hm Hf Hp. unfold parse_literal. pose proof (here_advance c).
  destruct (ttype (cur c)); try fin.
  - destruct (num_lit_ok _); fin.
  - apply array_literal_total; assumption.
  - apply map_literal_total; assumption.
Qed.

Lemma unary_total c : here c - 1 <= m -> 0 < here c -> okx (here c) (parse_unary E pe c).
Proof.
  intros Hm Hp. unfold parse_unary. pose proof (here_advance c).
  set (st2 := if is_ws (prev (advance c)) then add_err_at E_ws_after_unary (here c) (advance c) else advance c).
  assert (H2 : here st2 = here (advance c)) by (unfold st2; destruct (is_ws _); reflexivity).
  destruct (HPE unary_operand_prec st2) as (a & c' & Q1 & Q2 & Q3); [lia|]. rewrite Q1.
  destruct a as [t|]; [|fin]. destruct (tyerr E _ _ _); fin.
Qed.

Lemma binary_total left c : here c - 1 <= m -> 0 < here c -> okx (here c) (parse_binary E pe left c).
Proof.
  intros Hm Hp. unfold parse_binary. pose proof (here_advance c).
  destruct (HPE (binary_operand_prec (precedences (cur_t c))) (advance c)) as (a & c' & Q1 & Q2 & Q3); [lia|]. rewrite Q1.
  destruct a as [t|]; [|fin]. destruct (tyerr E _ _ _); fin.
Qed.

Lemma grouped_total fuel c :
  here c - 1 <= m -> here c < fuel -> 0 < here c -> okx (here c) (parse_grouped E pe fuel c).
Proof.
  intros Hm Hf Hp. unfold parse_grouped. pose proof (here_advance (push_wss false c)). rewrite here_push_wss in *.
  destruct (toplevel_total fuel (advance (push_wss false c))) as (a & c' & Q1 & Q2 & Q3); [lia|lia|]. rewrite Q1.
  destruct (assert_token T_RPAREN c') as [ok c4] eqn:A. destruct ok, a; fin.
Qed.

Lemma slice_total fuel tok left start c :
  here c <= m -> here c < fuel -> okx (here c) (parse_slice E pe fuel tok left start c).
Proof.
  intros Hm Hf. rewrite parse_slice_eq.
  destruct (tyerr E TS_not_sliceable left tok); [fin|].
  destruct (toktype_beq (cur_t c) T_RBRACKET) eqn:T.
  - assert (0 < here c) by (apply cur_t_not_eof; apply toktype_beq_eq in T; congruence).
    cbv zeta. destruct (tyerr E _ _ _); fin.
  - destruct (toplevel_total fuel c Hm Hf) as (a & c' & Q1 & Q2 & Q3). rewrite Q1.
    destruct a as [x|]; [|fin].
    assert (here c' < here c) by (apply Q3; discriminate).
    destruct (assert_token T_RBRACKET c') as [ok c4] eqn:A. destruct ok; [|fin].
    cbv zeta. destruct (tyerr E _ _ _); fin.
Qed.

Lemma index_or_slice_total fuel allow left c :
  here c - 1 <= m -> here c < fuel -> 0 < here c -> okx (here c) (parse_index_or_slice E pe fuel allow left c).
Proof.
  intros Hm Hf Hp. unfold parse_index_or_slice.
  pose proof (here_advance (push_wss false c)) as HA. rewrite here_push_wss in HA.
  destruct (is_ws (prev (push_wss false c))); [fin|].
  set (st1 := advance (push_wss false c)) in *.
  destruct (tyerr E TS_not_indexable left _); [fin|].
  destruct (allow && _).
  - pose proof (here_advance st1).
    destruct (slice_total fuel (here c) left None (advance st1)) as (a & c' & Q1 & Q2 & Q3); [lia|lia|]. rewrite Q1.
    pose proof (here_pop_wss c'). unfold ret. exists a, (pop_wss c'). split; [reflexivity|]. split; [lia|]. intro N. lia.
  - destruct (toplevel_total fuel st1) as (a & c' & Q1 & Q2 & Q3); [lia|lia|]. rewrite Q1.
    destruct a as [i|]; [|fin].
    destruct (allow && _).
    + pose proof (here_advance c').
      destruct (slice_total fuel (here c) left (Some i) (advance c')) as (a2 & c2 & R1 & R2 & R3); [lia|lia|]. rewrite R1.
      pose proof (here_pop_wss c2). unfold ret. exists a2, (pop_wss c2). split; [reflexivity|]. split; [lia|]. intro N. lia.
    + destruct (assert_token T_RBRACKET c') as [ok c4] eqn:A. destruct ok; [|fin].
      destruct (tyerr E _ _ _); fin.
Qed.

Lemma dot_total left c : 0 < here c -> okx (here c) (parse_dot E left c).
Proof.
  intro Hp. unfold parse_dot. destruct (is_ws (prev c)); [fin|]. destruct (is_ws (look1 (rest c))); [fin|].
  pose proof (here_advance c). destruct (tyerr E _ _ _); [fin|].
  destruct (ttype (as_ident (cur (advance c)))); fin.
Qed.

Lemma type_assertion_total fuel left c :
  here c < fuel -> 0 < here c -> okx (here c) (parse_type_assertion E fuel left c).
Proof.
  intros Hf Hp. unfold parse_type_assertion. destruct (is_ws (prev c)); [fin|]. destruct (is_ws (look1 (rest c))); [fin|].
  set (st1 := advance (advance (push_wss false c))).
  assert (H1 : here st1 <= here c - 1) by (unfold st1; hs).
  destruct (parse_type_total fuel st1) as (t & c2 & Q1 & Q2); [lia|]. rewrite Q1.
  set (st3 := match t with None => add_err_at E_bad_type (here c) c2 | Some TyAny => add_err_at E_assert_any (here c) c2 | Some _ => c2 end).
  assert (H3 : here st3 = here c2) by (unfold st3; destruct t as [[]|]; reflexivity).
  destruct (assert_token T_RPAREN st3) as [ok c4] eqn:A. apply assert_token_eq in A.
  set (st5 := if ok then advance_wss c4 else c4).
  assert (H5 : here st5 <= here c4) by (unfold st5; destruct ok; [rewrite here_advance_wss|]; lia).
  set (st6 := if tyerr E TS_assert_not_any left (here c) then add_err_at (E_type TS_assert_not_any) (here c) st5 else st5).
  assert (H6 : here st6 = here st5) by (unfold st6; destruct (tyerr E _ _ _); reflexivity).
  pose proof (here_pop_wss st6).
  destruct t; unfold ret; do 2 eexists; (split; [reflexivity|]); (split; [lia|intro; lia]).
Qed.

Lemma prefix_total fuel c :
  here c - 1 <= m -> here c < fuel -> okx (here c) (parse_prefix E pe fuel c).
Proof.
  intros Hm Hf. unfold parse_prefix.
  destruct (cur_t c) eqn:T; try fin;
    (assert (Hp : 0 < here c) by (apply cur_t_not_eof; congruence)).
  all: first [ apply ident_expr_total; assumption | apply literal_total; assumption
             | apply unary_total; assumption | apply grouped_total; assumption | idtac ].
Qed.

Lemma infix_total fuel left c r :
  here c - 1 <= m -> here c < fuel -> parse_infix E pe fuel left c = Some r -> okx (here c) r.
Proof.
  intros Hm Hf. unfold parse_infix.
  destruct (is_binary_op (cur_t c)) eqn:B.
  - intro H; inversion H; subst. apply binary_total; [exact Hm|].
    apply cur_t_not_eof. intro Q. rewrite Q in B. discriminate B.
  - destruct (cur_t c) eqn:T; try discriminate;
      (assert (Hp : 0 < here c) by (apply cur_t_not_eof; congruence)).
    + intro H; inversion H; subst. apply index_or_slice_total; assumption.
    + destruct (ttype (peek c)); intro H; inversion H; subst;
        first [ apply type_assertion_total; assumption | apply dot_total; assumption ].
Qed.

End ExprTotal.

Lemma expr_total E : forall fuel,
  (forall p c, 2 * here c + 2 <= fuel -> okx (here c) (parse_expr E fuel p c)) /\
  (forall p l c, 2 * here c + 1 <= fuel -> okr (here c) (expr_loop E fuel p l c)).
Proof.
  induction fuel as [|f [IHe IHl]]; [split; intros; lia|].
  split.
  - intros p c Hf. rewrite parse_expr_S.
    destruct (here c) as [|h] eqn:Hh.
    + (* no token left: the prefix switch reports and returns nil *)
      unfold parse_prefix. rewrite (here_zero_eof c Hh). unfold ret.
      exists None, (unexpected_left c). split; [reflexivity|]. rewrite here_unexpected_left. split; [lia|intro N; exfalso; apply N; reflexivity].
    + assert (HPE : PE (parse_expr E f) h).
      { intros q c1 H1. apply IHe. lia. }
      destruct (prefix_total E (parse_expr E f) h HPE f c) as (a & c1 & Q1 & Q2 & Q3); [lia|lia|]. rewrite Q1.
      destruct a as [lf|].
      * assert (here c1 < here c) by (apply Q3; discriminate).
        destruct (IHl p lf c1) as (a2 & c2 & R1 & R2); [lia|]. rewrite R1.
        exists a2, c2. split; [reflexivity|]. split; [lia|intro; lia].
      * rewrite Hh in *. unfold ret. exists None, c1. split; [reflexivity|]. split; [lia|intro N; exfalso; apply N; reflexivity].
  - intros p l c Hf. rewrite expr_loop_S.
    destruct (is_at_expr_end c) eqn:EE; [fin|].
    destruct (loop_continues p (precedences (cur_t c))); [|fin].
    destruct (here c) as [|h] eqn:Hh.
    { unfold is_at_expr_end, is_at_eol in EE. rewrite (here_zero_eof c Hh) in EE. simpl in EE.
      destruct (is_wss c && is_ws (cur c)); discriminate EE. }
    assert (HPE : PE (parse_expr E f) h).
    { intros q c1 H1. apply IHe. lia. }
    destruct (parse_infix E (parse_expr E f) f l c) as [r|] eqn:PI.
    + destruct (infix_total E (parse_expr E f) h HPE f l c r) as (a & c1 & Q1 & Q2 & Q3); [lia|lia|exact PI|]. rewrite Q1.
      destruct a as [lf|].
      * assert (here c1 < here c) by (apply Q3; discriminate).
        destruct (IHl p lf c1) as (a2 & c2 & R1 & R2); [lia|]. rewrite R1.
        exists a2, c2. split; [reflexivity|lia].
      * unfold ret. exists None, c1. split; [reflexivity|lia].
    + unfold ret. exists (Some l), c. split; [reflexivity|lia].
Qed.

(* the fuel Parser.v hands to every expression-level call suffices *)
Theorem expr_fuel_suffices E c : PE (parse_expr E (efuel c)) (here c).
Proof. intros p c1 H. apply (expr_total E (efuel c)). unfold efuel. lia. Qed.

Lemma pos_rec s a b d e : pos {| cs := cs s; scs := a; fns := b; bodies := d; hds := e |} = pos s.
Proof. reflexivity. Qed.
Lemma pos_with_scs s l : pos (with_scs s l) = pos s.
Proof. reflexivity. Qed.
Lemma pos_upd f s : pos (upd f s) = here (f (cs s)).
Proof. reflexivity. Qed.
Lemma pos_adv s : pos (adv s) <= pos s - 1.
Proof. unfold adv. rewrite pos_upd. apply here_advance. Qed.
Lemma pos_serr_at k n s : pos (serr_at k n s) = pos s.
Proof. reflexivity. Qed.
Lemma pos_serr k s : pos (serr k s) = pos s.
Proof. reflexivity. Qed.
Lemma pos_assert_eol s : pos (assert_eol s) = pos s.
Proof. unfold assert_eol. destruct (is_at_eol (cs s)); reflexivity. Qed.
Lemma pos_passert t s : pos (snd (passert t s)) = pos s.
Proof.
  unfold passert. destruct (assert_token t (cs s)) as [ok c] eqn:A. simpl.
  apply assert_token_eq in A. exact A.
Qed.
Lemma passert_eq t s ok s' : passert t s = (ok, s') -> pos s' = pos s.
Proof. intro H. pose proof (pos_passert t s) as H2. rewrite H in H2. exact H2. Qed.

Lemma pos_zero_eof s : pos s = 0 -> ct s = T_EOF.
Proof. apply here_zero_eof. Qed.
Lemma ct_not_eof s : ct s <> T_EOF -> 0 < pos s.
Proof. apply cur_t_not_eof. Qed.

Lemma apnl_loop_le : forall f c, here (apnl_loop f c) <= here c.
Proof.
  intros f c. apply (apnl_loop_steps (fun x => here x <= here c)); [|lia]. intros x X. pose proof (here_advance x). lia.
Qed.
Lemma pos_apnl s : pos (apnl s) <= pos s.
Proof. unfold apnl. rewrite pos_upd. apply apnl_loop_le. Qed.
Lemma pos_apnl_lt s : ct s <> T_EOF -> pos (apnl s) < pos s.
Proof.
  intro H. pose proof (ct_not_eof s H) as Hp. unfold apnl. rewrite pos_upd. unfold pos, ct in *.
  cbn [apnl_loop]. pose proof (here_advance (cs s)). pose proof (apnl_loop_le (here (cs s)) (advance (cs s))).
  destruct (cur_t (cs s)); try lia. congruence.
Qed.

Lemma pos_scope_set n p s : pos (scope_set n p s) = pos s.
Proof. unfold scope_set. destruct (str_eqb _ _); [reflexivity|]. destruct (scs s); reflexivity. Qed.
Lemma pos_mark n s : pos (mark n s) = pos s.
Proof. reflexivity. Qed.
Lemma pos_push_scope a b c s : pos (push_scope a b c s) = pos s.
Proof. reflexivity. Qed.
Lemma pos_push_inherit b s : pos (push_inherit b s) = pos s.
Proof. reflexivity. Qed.
Lemma pos_pop_scope s : pos (pop_scope s) = pos s.
Proof. reflexivity. Qed.
Lemma pos_validate_scope s : pos (validate_scope s) = pos s.
Proof. apply (validate_scope_steps (fun x => pos x = pos s)); [intros k n x X; exact X|reflexivity]. Qed.
Lemma cs_fold_mark l : forall s0, cs (fold_right mark s0 l) = cs s0.
Proof. induction l; intro; simpl; auto. Qed.
Lemma pos_collect s c : pos (collect s c) = here c.
Proof. unfold collect. rewrite pos_upd. simpl. unfold here. simpl. rewrite cs_fold_mark. reflexivity. Qed.
Lemma pos_validate_var_decl B n p a s : pos (snd (validate_var_decl B n p a s)) = pos s.
Proof. destruct (validate_var_decl_cases B n p a s) as [-> | (k & ->)]; reflexivity. Qed.
Lemma validate_var_decl_eq B n p a s ok s' : validate_var_decl B n p a s = (ok, s') -> pos s' = pos s.
Proof. intro H. pose proof (pos_validate_var_decl B n p a s) as H2. rewrite H in H2. exact H2. Qed.
Lemma pos_finish_end s : pos (finish_end s) <= pos s.
Proof.
  unfold finish_end. pose proof (pos_apnl (assert_eol (adv (snd (passert T_END s))))).
  rewrite pos_assert_eol in *. pose proof (pos_adv (snd (passert T_END s))). rewrite pos_passert in *. lia.
Qed.

Lemma pos_ty_err_here site s : pos (ty_err_here site s) = pos s.
Proof. reflexivity. Qed.

(* [ps_] and [finP] are [hs] and [fin] for pos and the statement-level operations *)
Ltac pfact t :=
  lazymatch t with
  | adv ?x => pfact x; pose proof (pos_adv x)
  | apnl ?x => pfact x; pose proof (pos_apnl x)
  | finish_end ?x => pfact x; pose proof (pos_finish_end x)
  | serr_at ?k ?n ?x => pfact x; pose proof (pos_serr_at k n x)
  | serr ?k ?x => pfact x; pose proof (pos_serr k x)
  | assert_eol ?x => pfact x; pose proof (pos_assert_eol x)
  | snd (passert ?t ?x) => pfact x; pose proof (pos_passert t x)
  | snd (validate_var_decl ?B ?n ?p ?a ?x) => pfact x; pose proof (pos_validate_var_decl B n p a x)
  | scope_set ?n ?p ?x => pfact x; pose proof (pos_scope_set n p x)
  | mark ?n ?x => pfact x; pose proof (pos_mark n x)
  | push_scope ?a ?b ?c ?x => pfact x; pose proof (pos_push_scope a b c x)
  | push_inherit ?b ?x => pfact x; pose proof (pos_push_inherit b x)
  | pop_scope ?x => pfact x; pose proof (pos_pop_scope x)
  | validate_scope ?x => pfact x; pose proof (pos_validate_scope x)
  | ty_err_here ?site ?x => pfact x; pose proof (pos_ty_err_here site x)
  | upd (add_err_at ?e ?n) ?x => pfact x; pose proof (eq_refl : pos (upd (add_err_at e n) x) = pos x)
  | upd (add_err ?e) ?x => pfact x; pose proof (eq_refl : pos (upd (add_err e) x) = pos x)
  | with_scs ?x ?l => pfact x; pose proof (pos_with_scs x l)
  | (if ?b then ?x else ?y) => pfact x; pfact y
  | _ => idtac
  end.
Ltac ps_ :=
  repeat match goal with
         | H : passert _ _ = (_, _) |- _ => apply passert_eq in H
         | H : validate_var_decl _ _ _ _ _ = (_, _) |- _ => apply validate_var_decl_eq in H
         end;
  lazymatch goal with
  | |- pos ?a <= _ => pfact a
  | |- pos ?a < _ => pfact a
  | |- _ => idtac
  end;
  repeat match goal with |- context[if ?b then _ else _] => destruct b end;
  try lia.

Definition okP {A} (n : nat) (r : PR A) : Prop :=
  exists a s', r = Ok a s' /\ pos s' <= n.
Definition okT (n : nat) (r : PR (option tree)) : Prop :=
  exists a s', r = Ok a s' /\ pos s' <= n /\ (a <> None -> pos s' < n).
(* a statement parser always consumes something *)
Definition okS (n : nat) (r : PR (option stmt)) : Prop :=
  exists a s', r = Ok a s' /\ pos s' < n.

Ltac finP := do 2 eexists; split; [reflexivity|]; ps_.

Section StmtTotal.
Variable B : benv.

(* a total expression-level function, called through expr_call with the fuel Parser.v hands it *)
Lemma expr_call_okP {A} (f : env -> nat -> pstate -> res A) s :
  okr (here (cs s)) (f (env_of B s) (efuel (cs s)) (cs s)) -> okP (pos s) (expr_call B f s).
Proof.
  intros (a & c' & Q1 & Q2). unfold expr_call. rewrite Q1. exists a, (collect s c'). rewrite pos_collect. auto.
Qed.
Lemma expr_call_okT (f : env -> nat -> pstate -> res (option tree)) s :
  okx (here (cs s)) (f (env_of B s) (efuel (cs s)) (cs s)) -> okT (pos s) (expr_call B f s).
Proof.
  intros (a & c' & Q1 & Q2 & Q3). unfold expr_call. rewrite Q1. exists a, (collect s c'). rewrite pos_collect. auto.
Qed.
Lemma efuel_lt c : here c < efuel c.
Proof. unfold efuel. lia. Qed.

Lemma p_toplevel_ok s : okT (pos s) (p_toplevel B s).
Proof.
  apply expr_call_okT. apply toplevel_total with (m := here (cs s)); [apply expr_fuel_suffices|lia|apply efuel_lt].
Qed.

Lemma p_expr_list_ok s : okP (pos s) (p_expr_list B s).
Proof.
  apply expr_call_okP. apply expr_list_total with (m := here (cs s)); [apply expr_fuel_suffices|lia|apply efuel_lt].
Qed.

Lemma p_func_call_ok nil s : 0 < pos s -> exists c s', p_func_call B nil s = Ok (Some c) s' /\ pos s' < pos s.
Proof.
  intro Hp. unfold p_func_call, expr_call, parse_func_call.
  pose proof (here_advance (cs s)).
  destruct (true || negb nil).
  - destruct (expr_list_total (parse_expr (env_of B s) (efuel (cs s))) (here (cs s))
              (expr_fuel_suffices _ _) (efuel (cs s)) [] (advance (cs s))) as (a & c' & Q1 & Q2); [lia|unfold efuel; lia|].
    rewrite Q1. unfold ret. do 2 eexists. split; [reflexivity|]. rewrite pos_collect. unfold pos in *.
    destruct (arity_wrong _ _ _); [|destruct (tyerr _ _ _ _)]; unfold here in *; simpl; lia.
  - unfold ret. do 2 eexists. split; [reflexivity|]. rewrite pos_collect. unfold pos in *. lia.
Qed.

Lemma p_index_ok left s : 0 < pos s -> okT (pos s) (p_index B left s).
Proof.
  intro Hp. apply expr_call_okT.
  apply index_or_slice_total with (m := here (cs s)); [apply expr_fuel_suffices|lia|apply efuel_lt|exact Hp].
Qed.

Lemma p_dot_ok left s : 0 < pos s -> okT (pos s) (p_dot B left s).
Proof. intro Hp. apply expr_call_okT. apply dot_total. exact Hp. Qed.

Lemma p_type_ok s : okP (pos s) (p_type B s).
Proof. apply expr_call_okP. apply parse_type_total. apply efuel_lt. Qed.

Lemma typed_decl_ok s : okP (pos s - 1) (parse_typed_decl B s).
Proof.
  unfold parse_typed_decl.
  set (s1 := adv (snd (passert T_COLON (adv (snd (passert T_IDENT s)))))).
  assert (H1 : pos s1 <= pos s - 1) by (unfold s1; ps_).
  destruct (p_type_ok s1) as (t & s2 & Q1 & Q2). rewrite Q1.
  destruct t; do 2 eexists; (split; [reflexivity|]); try rewrite pos_serr_at; lia.
Qed.

Lemma typed_decl_stmt_ok s : 0 < pos s -> okS (pos s) (parse_typed_decl_stmt B s).
Proof.
  intro Hp. unfold parse_typed_decl_stmt.
  destruct (typed_decl_ok s) as (d & s1 & Q1 & Q2). rewrite Q1.
  destruct d as [[name dpos] t].
  do 2 eexists. split; [reflexivity|].
  destruct t; [destruct (validate_var_decl B name dpos false s1) as [[|] s2] eqn:V|]; ps_.
Qed.

Lemma inferred_decl_stmt_ok s : 0 < pos s -> okS (pos s) (parse_inferred_decl_stmt B s).
Proof.
  intro Hp. unfold parse_inferred_decl_stmt.
  set (s1 := adv (adv (snd (passert T_IDENT s)))).
  assert (H1 : pos s1 <= pos s - 1) by (unfold s1; ps_).
  destruct (p_toplevel_ok s1) as (v & s2 & Q1 & Q2 & _). rewrite Q1.
  destruct v as [t|]; [|finP].
  destruct (tyerr_s B _ _ _); [finP|].
  destruct (validate_var_decl B _ _ false s2) as [ok s3] eqn:V.
  destruct ok; finP.
Qed.

Lemma assign_target_loop_ok : forall fuel tok n s, pos s < fuel -> okP (pos s) (assign_target_loop B fuel tok n s).
Proof.
  induction fuel as [|f IH]; intros tok n s Hf; [lia|]. rewrite assign_target_loop_eq.
  assert (STEP : forall m, okT (pos s) m ->
            okP (pos s) (pdo (r, s1) <- m; match r with None => Ok None s1 | Some n' => assign_target_loop B f tok n' s1 end)).
  { intros m (r & s1 & -> & Q2 & Q3). destruct r as [n'|]; [|finP].
    assert (pos s1 < pos s) by (apply Q3; discriminate).
    destruct (IH tok n' s1) as (a & s2 & R1 & R2); [lia|]. rewrite R1. do 2 eexists. split; [reflexivity|lia]. }
  destruct (toktype_beq (ct s) T_LBRACKET) eqn:T.
  - apply toktype_beq_eq in T. destruct (tyerr_s B _ _ _); [finP|].
    apply STEP, p_index_ok, ct_not_eof. congruence.
  - destruct (toktype_beq (ct s) T_DOT) eqn:T2; [|finP]. apply toktype_beq_eq in T2.
    apply STEP, p_dot_ok, ct_not_eof. congruence.
Qed.

Lemma assign_target_ok s : okP (pos s - 1) (parse_assign_target B s).
Proof.
  unfold parse_assign_target. pose proof (pos_adv s).
  destruct (str_eqb _ _); [finP|]. destruct (negb _); [finP|].
  destruct (assign_target_loop_ok (S (pos (adv s))) (pos s) (TVar (tlit (cur (cs s)))) (mark (tlit (cur (cs s))) (adv s)))
    as (a & s2 & R1 & R2); [rewrite pos_mark; lia|].
  rewrite R1. rewrite pos_mark in R2. do 2 eexists. split; [reflexivity|lia].
Qed.

Lemma apnl_serr_lt k s : ct s <> T_EOF -> pos (apnl (serr k s)) < pos s.
Proof. intro H. pose proof (pos_apnl_lt (serr k s)) as HL. rewrite pos_serr in HL. apply HL. exact H. Qed.

Lemma assign_stmt_ok s : ct s <> T_EOF -> okS (pos s) (parse_assign_stmt B s).
Proof.
  intro Hc. pose proof (ct_not_eof s Hc) as Hp. unfold parse_assign_stmt.
  destruct (is_func _ s).
  { do 2 eexists. split; [reflexivity|apply apnl_serr_lt; exact Hc]. }
  destruct (assign_target_ok s) as (tg & s1 & Q1 & Q2). rewrite Q1.
  destruct tg as [target|]; [|finP].
  destruct (p_toplevel_ok (adv (snd (passert T_ASSIGN s1)))) as (v & s3 & R1 & R2 & _). rewrite R1.
  pose proof (pos_adv (snd (passert T_ASSIGN s1))). rewrite pos_passert in *.
  destruct v as [value|]; finP.
Qed.

Lemma lookup_fn_is_func n s : is_func n s = true -> exists fi, lookup_fn n (fns s) = Some fi.
Proof. unfold is_func. destruct (lookup_fn n (fns s)); [eauto|discriminate]. Qed.

Lemma call_stmt_ok s : is_func (tlit (cur (cs s))) s = true -> 0 < pos s -> okS (pos s) (parse_call_stmt B s).
Proof.
  intros Hf Hp. unfold parse_call_stmt. destruct (lookup_fn_is_func _ _ Hf) as (fi & ->).
  destruct (p_func_call_ok (fi_nil fi) s Hp) as (c & s1 & Q1 & Q2). rewrite Q1. finP.
Qed.

Lemma return_stmt_ok s : 0 < pos s -> okS (pos s) (parse_return_stmt B s).
Proof.
  intro Hp. unfold parse_return_stmt. pose proof (pos_adv s).
  destruct (is_at_eol (cs (adv s))); [finP|].
  destruct (p_toplevel_ok (adv s)) as (r & s2 & Q1 & Q2 & _). rewrite Q1.
  destruct r; finP.
Qed.

Lemma break_stmt_ok s : 0 < pos s -> okS (pos s) (parse_break_stmt s).
Proof. intro Hp. unfold parse_break_stmt. finP. Qed.

Lemma condition_ok s : okP (pos s) (parse_condition B s).
Proof.
  unfold parse_condition. destruct (p_toplevel_ok s) as (c & s1 & Q1 & Q2 & _). rewrite Q1.
  destruct c; finP.
Qed.

Lemma empty_stmt_ok s : ct s = T_NL \/ ct s = T_COMMENT -> okS (pos s) (parse_empty_stmt s).
Proof.
  intro H. assert (Hp : 0 < pos s) by (apply ct_not_eof; destruct H as [H|H]; rewrite H; discriminate).
  unfold parse_empty_stmt. destruct H as [-> | ->]; finP.
Qed.

Lemma pos_for_loop_var s1 : pos (snd (for_loop_var B s1)) <= pos s1.
Proof.
  unfold for_loop_var. destruct (toktype_beq (ct s1) T_IDENT); simpl; [|lia].
  destruct (validate_var_decl B _ _ false s1) as [ok s2] eqn:V. destruct ok; simpl; ps_.
Qed.

(* ps stands for parseStatement at the fuel left to the callees *)
Variable ps : pst -> PR (option stmt).
Variable m : nat.
Definition PS : Prop := forall s, pos s <= m -> ct s <> T_EOF -> okS (pos s) (ps s).
Hypothesis HPS : PS.

Lemma block_loop_ok : forall fuel els acc terms s, pos s <= m -> pos s < fuel ->
  okP (pos s) (block_loop ps fuel els acc terms s).
Proof.
  induction fuel as [|f IH]; intros els acc terms s Hm Hf; [lia|].
  cbn [block_loop].
  destruct (match ct s with T_END | T_EOF => true | T_ELSE => els | _ => false end) eqn:AE; [finP|].
  assert (Hc : ct s <> T_EOF) by (intro Q; rewrite Q in AE; discriminate).
  destruct (HPS s Hm Hc) as (r & s1 & Q1 & Q2). rewrite Q1.
  destruct r as [st|].
  - destruct (terms && negb (is_empty_stmt st)).
    + destruct (IH els acc terms (serr_at K_unreachable (pos s) s1)) as (a & s2 & R1 & R2); [rewrite pos_serr_at; lia|rewrite pos_serr_at; lia|].
      rewrite R1. rewrite pos_serr_at in R2. do 2 eexists. split; [reflexivity|lia].
    + destruct (IH els (st :: acc) (terms || always_terms st) s1) as (a & s2 & R1 & R2); [lia|lia|].
      rewrite R1. do 2 eexists. split; [reflexivity|lia].
  - destruct (IH els acc terms s1) as (a & s2 & R1 & R2); [lia|lia|].
    rewrite R1. do 2 eexists. split; [reflexivity|lia].
Qed.

Lemma block_with_ok fuel els s : pos s <= m -> pos s < fuel -> okP (pos s) (parse_block_with ps fuel els s).
Proof.
  intros Hm Hf. unfold parse_block_with.
  destruct (block_loop_ok fuel els [] false s Hm Hf) as (b & s1 & Q1 & Q2). rewrite Q1.
  do 2 eexists. split; [reflexivity|]. rewrite pos_validate_scope.
  destruct b as [[|x l] t]; [rewrite pos_serr_at|]; lia.
Qed.

Lemma for_stmt_ok fuel s : 0 < pos s -> pos s - 1 <= m -> pos s <= fuel -> okS (pos s) (parse_for_stmt B ps fuel s).
Proof.
  intros Hp Hm Hf. rewrite parse_for_stmt_eq.
  set (s1 := adv (push_inherit true s)).
  assert (H1 : pos s1 <= pos s - 1) by (unfold s1; ps_).
  pose proof (pos_for_loop_var s1) as HL.
  destruct (for_loop_var B s1) as [[v|] s4]; simpl in HL; [|finP].
  destruct (passert T_RANGE s4) as [ok s5] eqn:A. apply passert_eq in A.
  destruct ok; simpl; [|finP].
  destruct (p_expr_list_ok (adv s5)) as (ns & s7 & Q1 & Q2). rewrite Q1. pose proof (pos_adv s5).
  destruct (match ns with Some l => l | None => [] end) as [|n more]; [finP|].
  destruct (_ && _); [finP|].
  match goal with |- context[parse_block_with ps fuel false ?x] => set (sb := x) end.
  assert (Hsb : pos sb <= pos s7) by (unfold sb; ps_).
  destruct (block_with_ok fuel false sb) as (b & s10 & R1 & R2); [lia|lia|]. rewrite R1.
  do 2 eexists. split; [reflexivity|]. rewrite pos_pop_scope. pose proof (pos_finish_end s10). lia.
Qed.

Lemma while_stmt_ok fuel s : 0 < pos s -> pos s - 1 <= m -> pos s <= fuel -> okS (pos s) (parse_while_stmt B ps fuel s).
Proof.
  intros Hp Hm Hf. unfold parse_while_stmt. pose proof (pos_adv s).
  destruct (condition_ok (push_inherit true (adv s))) as (c & s2 & Q1 & Q2). rewrite Q1. rewrite pos_push_inherit in Q2.
  pose proof (pos_apnl s2).
  destruct (block_with_ok fuel false (apnl s2)) as (b & s3 & R1 & R2); [lia|lia|]. rewrite R1.
  do 2 eexists. split; [reflexivity|]. rewrite pos_pop_scope. pose proof (pos_finish_end s3). lia.
Qed.

(* also when no token is left: parse_condition and the block loop then return at once *)
Lemma if_cond_block_ok fuel s : 0 < fuel -> pos s - 1 <= m -> pos s <= fuel ->
  exists a s', parse_if_cond_block B ps fuel s = Ok a s' /\ pos s' <= pos s - 1.
Proof.
  intros Hp Hm Hf. unfold parse_if_cond_block.
  pose proof (pos_adv (push_inherit false s)) as HA. rewrite pos_push_inherit in HA.
  destruct (condition_ok (adv (push_inherit false s))) as (c & s2 & Q1 & Q2). rewrite Q1.
  pose proof (pos_apnl s2).
  destruct (block_with_ok fuel true (apnl s2)) as (b & s3 & R1 & R2); [lia|lia|]. rewrite R1.
  do 2 eexists. split; [reflexivity|]. rewrite pos_pop_scope. lia.
Qed.

Lemma else_if_loop_ok : forall fuel bfuel acc s, pos s < fuel -> pos s - 1 <= m -> pos s <= bfuel ->
  okP (pos s) (else_if_loop B ps fuel bfuel acc s).
Proof.
  induction fuel as [|f IH]; intros bfuel acc s Hf Hm Hb; [lia|].
  rewrite else_if_loop_eq.
  destruct (toktype_beq (ct s) T_ELSE) eqn:T; cbn [andb]; [|finP]. destruct (toktype_beq _ T_IF); [|finP].
  assert (Hp : 0 < pos s) by (apply ct_not_eof; apply toktype_beq_eq in T; congruence).
  pose proof (pos_adv s).
  destruct (if_cond_block_ok bfuel (adv s)) as (cb & s1 & Q1 & Q2); [lia|lia|lia|]. rewrite Q1.
  destruct (IH bfuel (cb :: acc) s1) as (a & s2 & R1 & R2); [lia|lia|lia|]. rewrite R1.
  do 2 eexists. split; [reflexivity|lia].
Qed.

Lemma if_stmt_ok fuel s : 0 < pos s -> pos s - 1 <= m -> pos s <= fuel -> okS (pos s) (parse_if_stmt B ps fuel s).
Proof.
  intros Hp Hm Hf. unfold parse_if_stmt.
  destruct (if_cond_block_ok fuel s) as (cb & s1 & Q1 & Q2); [lia|exact Hm|exact Hf|]. rewrite Q1.
  destruct (else_if_loop_ok (S (pos s1)) fuel [cb] s1) as (brs & s2 & R1 & R2); [lia|lia|lia|]. rewrite R1.
  destruct (ct s2) eqn:T2;
    try (do 2 eexists; split; [reflexivity|]; pose proof (pos_finish_end s2); lia).
  cbv zeta.
  assert (H3 : pos (push_inherit false (apnl (assert_eol (adv s2)))) <= pos s2) by ps_.
  destruct (block_with_ok fuel false (push_inherit false (apnl (assert_eol (adv s2))))) as (b & s4 & S1 & S2); [lia|lia|].
  rewrite S1. do 2 eexists. split; [reflexivity|]. pose proof (pos_finish_end (pop_scope s4)). rewrite pos_pop_scope in *. lia.
Qed.

Lemma statement_body_ok fuel s :
  ct s <> T_EOF -> pos s - 1 <= m -> pos s <= fuel -> okS (pos s) (parse_statement_body B ps fuel s).
Proof.
  intros Hc Hm Hf. pose proof (ct_not_eof s Hc) as Hp.
  assert (ER : forall k, okS (pos s) (Ok None (apnl (serr k s))))
    by (intro k; do 2 eexists; split; [reflexivity|apply apnl_serr_lt; exact Hc]).
  apply statement_body_cases; intros.
  - finP.
  - apply empty_stmt_ok. tauto.
  - apply assign_stmt_ok; exact Hc.
  - apply typed_decl_stmt_ok; exact Hp.
  - apply inferred_decl_stmt_ok; exact Hp.
  - apply call_stmt_ok; assumption.
  - apply ER.
  - apply return_stmt_ok; assumption.
  - apply break_stmt_ok; assumption.
  - apply for_stmt_ok; assumption.
  - apply while_stmt_ok; assumption.
  - apply if_stmt_ok; assumption.
  - apply ER.
Qed.

End StmtTotal.

Section ProgramTotal.
Variable B : benv.

Theorem stmt_total : forall fuel s, 2 * pos s + 1 <= fuel -> ct s <> T_EOF ->
  okS (pos s) (parse_statement B fuel s).
Proof.
  induction fuel as [|f IH]; intros s Hf Hc; [lia|].
  cbn [parse_statement]. pose proof (ct_not_eof s Hc).
  apply (statement_body_ok B (parse_statement B f) (pos s - 1)); [|exact Hc|lia|lia].
  intros s1 H1 Hc1. apply IH; [lia|exact Hc1].
Qed.

Lemma PS_of_fuel fuel n : 2 * n + 1 <= fuel -> PS (parse_statement B fuel) n.
Proof. intros H s Hs Hc. apply stmt_total; [lia|exact Hc]. Qed.

Lemma parse_block_ok fuel s : 2 * pos s + 1 <= fuel -> okP (pos s) (parse_block B fuel s).
Proof.
  intro H. unfold parse_block.
  apply (block_with_ok (parse_statement B fuel) (pos s) (PS_of_fuel fuel (pos s) H)); lia.
Qed.

Lemma pos_add_params l : forall s, pos (add_params B l s) = pos s.
Proof.
  induction l as [|x l IH]; intro s; simpl; [reflexivity|].
  unfold add_params in *. simpl. rewrite IH. rewrite pos_scope_set, pos_validate_var_decl. reflexivity.
Qed.

Lemma pos_func_body_state s : pos (func_body_state B s) = pos (apnl (adv s)).
Proof. unfold func_body_state. rewrite pos_add_params. reflexivity. Qed.

Lemma func_finish_ok s b s4 : pos s4 < pos s -> okS (pos s) (func_finish s b s4).
Proof.
  intro H. unfold func_finish. destruct (negb _); [finP|]. destruct (mem_str _ _); [finP|].
  do 2 eexists. split; [reflexivity|]. rewrite pos_pop_scope, pos_rec. ps_.
Qed.

Lemma func_ok fuel s : ct s <> T_EOF -> 2 * pos s + 1 <= fuel -> okS (pos s) (parse_func B fuel s).
Proof.
  intros Hc Hf. pose proof (ct_not_eof s Hc) as Hp. rewrite parse_func_eq.
  pose proof (pos_adv s). pose proof (pos_apnl (adv s)). pose proof (pos_func_body_state s) as H3.
  destruct (parse_block_ok fuel (func_body_state B s)) as (b & s4 & Q1 & Q2); [lia|]. rewrite Q1.
  apply func_finish_ok. lia.
Qed.

Lemma on_params_loop_ok : forall fuel acc s, pos s < fuel -> okP (pos s) (on_params_loop B fuel acc s).
Proof.
  induction fuel as [|f IH]; intros acc s Hf; [lia|].
  cbn [on_params_loop].
  destruct (is_at_eol (cs s)) eqn:EOL; [finP|].
  assert (Hp : 0 < pos s).
  { apply ct_not_eof. intro Q. unfold is_at_eol, ct in *. rewrite Q in EOL. discriminate EOL. }
  destruct (typed_decl_ok B (snd (passert T_IDENT s))) as (d & s1 & Q1 & Q2). rewrite Q1. rewrite pos_passert in Q2.
  destruct (IH (d :: acc) s1) as (a & s2 & R1 & R2); [lia|]. rewrite R1. do 2 eexists. split; [reflexivity|lia].
Qed.

Lemma pos_add_event_params ps : forall ex s, pos (add_event_params B ps ex s) = pos s.
Proof.
  induction ps as [|[[n p] t] ps IH]; intros ex s; simpl; [reflexivity|].
  destruct ex as [|e ex]; [reflexivity|]. rewrite IH, pos_scope_set.
  destruct t as [t'|]; [destruct (ty_eqb t' e); rewrite ?pos_serr|]; apply pos_validate_var_decl.
Qed.

Lemma event_handler_ok fuel s : ct s <> T_EOF -> 2 * pos s + 1 <= fuel -> okS (pos s) (parse_event_handler B fuel s).
Proof.
  intros Hc Hf. pose proof (ct_not_eof s Hc) as Hp. unfold parse_event_handler.
  pose proof (pos_adv s).
  destruct (passert T_IDENT (adv s)) as [ok s2] eqn:A. apply passert_eq in A.
  destruct ok; cbn [negb]; [|do 2 eexists; split; [reflexivity|]; pose proof (pos_apnl s2); lia].
  match goal with |- context[on_params_loop B _ [] (adv ?x)] => set (s3 := x) end.
  assert (H3 : pos s3 = pos s2).
  { unfold s3. destruct (mem_str _ _); [apply pos_serr|]. destruct (lookup_ev _ _); [reflexivity|apply pos_serr]. }
  pose proof (pos_adv s3).
  destruct (on_params_loop_ok (S (pos s3)) [] (adv s3)) as (params & s4 & Q1 & Q2); [lia|]. rewrite Q1.
  match goal with |- context[parse_block B fuel ?x] => set (s6 := x) end.
  assert (H6 : pos s6 = pos (apnl s4)).
  { unfold s6. destruct params; [reflexivity|]. destruct (lookup_ev _ _); [|reflexivity].
    rewrite pos_add_event_params. destruct (Nat.eqb _ _); reflexivity. }
  pose proof (pos_apnl s4).
  destruct (parse_block_ok fuel s6) as (b & s7 & R1 & R2); [lia|]. rewrite R1.
  do 2 eexists. split; [reflexivity|]. rewrite pos_pop_scope. pose proof (pos_finish_end s7). lia.
Qed.

Theorem program_loop_total : forall fuel acc terms s, 2 * pos s + 3 <= fuel ->
  exists prog s', program_loop B fuel acc terms s = Ok prog s'.
Proof.
  induction fuel as [|f IH]; intros acc terms s Hf; [lia|].
  apply program_loop_cases; intro T; [do 2 eexists; reflexivity| | |];
    (assert (Hc : ct s <> T_EOF) by first [rewrite T; discriminate | apply (tt_in_false _ _ T); left; reflexivity]).
  - destruct (func_ok f s Hc) as (r & s1 & Q1 & Q2); [lia|]. rewrite Q1. apply IH. lia.
  - destruct (event_handler_ok f s Hc) as (r & s1 & Q1 & Q2); [lia|]. rewrite Q1. apply IH. lia.
  - destruct (stmt_total f s) as (r & s1 & Q1 & Q2); [lia|exact Hc|]. rewrite Q1.
    destruct r as [st|]; [destruct terms|]; apply IH; rewrite ?pos_serr_at; lia.
Qed.

Lemma sig_params_loop_ok : forall fuel acc s, pos s < fuel -> okP (pos s) (sig_params_loop B fuel acc s).
Proof.
  induction fuel as [|f IH]; intros acc s Hf; [lia|].
  cbn [sig_params_loop].
  destruct (is_at_eol (cs s) || _) eqn:EOL; [finP|].
  assert (Hp : 0 < pos s).
  { apply ct_not_eof. intro Q. unfold is_at_eol, ct in *. rewrite Q in EOL. discriminate EOL. }
  destruct (typed_decl_ok B (snd (passert T_IDENT s))) as (d & s1 & Q1 & Q2). rewrite Q1. rewrite pos_passert in Q2.
  destruct d as [[n p] t].
  destruct (IH ((n, p) :: acc) s1) as (a & s2 & R1 & R2); [lia|]. rewrite R1. do 2 eexists. split; [reflexivity|lia].
Qed.

Lemma func_def_signature_ok s : exists r s', parse_func_def_signature B s = Ok r s'.
Proof.
  unfold parse_func_def_signature.
  destruct (passert T_IDENT (adv s)) as [ok s2] eqn:A.
  destruct ok; cbn [negb]; [|do 2 eexists; reflexivity].
  cbv zeta.
  destruct (ct (adv s2));
    try (destruct (p_type_ok B (adv (adv s2))) as (t & s5' & Q0 & _); rewrite Q0);
    match goal with |- context[sig_params_loop B (S (pos ?x)) [] ?x] =>
      destruct (sig_params_loop_ok (S (pos x)) [] x) as (params & s5 & Q1 & _); [lia|]; rewrite Q1 end;
    do 2 eexists; reflexivity.
Qed.

Lemma signature_step_ok pv toks s : exists s', signature_step B pv toks s = Ok tt s'.
Proof.
  unfold signature_step.
  destruct (func_def_signature_ok (with_cs s (state_at pv toks (errs (cs s))))) as (r & s1 & ->).
  destruct r as [[name fi]|]; eexists; reflexivity.
Qed.

Lemma signatures_total : forall toks pv s, exists s', signatures B pv toks s = Ok tt s'.
Proof.
  induction toks as [|t r IH]; intros pv s; simpl; [eexists; reflexivity|].
  destruct (ttype t); try apply IH.
  destruct (signature_step_ok pv (t :: r) s) as (s1 & ->). apply IH.
Qed.

End ProgramTotal.

Lemma pos_state_at pv toks es : here (state_at pv toks es) = List.length toks.
Proof. reflexivity. Qed.

Theorem parse_total B raw eof :
  (exists prog, parse B raw eof = Accept prog) \/
  (exists e es, parse B raw eof = Reject (e :: es)).
Proof.
  unfold parse.
  set (good := filter (fun tp => negb (is_illegal (fst tp))) raw).
  set (toks := map fst good). set (poss := map snd good).
  match goal with |- context[signatures B tEOF toks ?s0] => destruct (signatures_total B toks tEOF s0) as (s1 & ->) end.
  destruct (_ ++ _) as [|e es] eqn:ES; [|right; eauto].
  match goal with |- context[program_loop B (fuel_of toks) [] false ?s2] =>
    destruct (program_loop_total B (fuel_of toks) [] false s2) as (prog & s3 & ->) end.
  { unfold pos; simpl. rewrite pos_state_at. unfold fuel_of. lia. }
  destruct (map _ (rev (errs (cs (validate_scope s3))))) as [|e es]; [left|right]; eauto.
Qed.

(* every reported position is the position of a token of the input, or of EOF *)
Lemma locate_in poss eof n : In (locate poss eof n) (eof :: poss).
Proof.
  unfold locate. destruct (nth_in_or_default (List.length poss - n) poss eof) as [H|H]; [right; exact H|left; symmetry; exact H].
Qed.

Theorem errors_located B raw eof es :
  parse B raw eof = Reject es -> forall p, In p es -> In p (eof :: map snd raw) \/ p = (0, 0).
Proof.
  unfold parse.
  set (good := filter (fun tp => negb (is_illegal (fst tp))) raw).
  set (toks := map fst good). set (poss := map snd good).
  assert (Hsub : forall p, In p (eof :: poss) -> In p (eof :: map snd raw)).
  { intros p [H|H]; [left; exact H|right]. unfold poss, good in H. apply in_map_iff in H as (x & Hx & Hin).
    apply filter_In in Hin as [Hin _]. apply in_map_iff. eauto. }
  assert (Hill : forall p, In p (map snd (filter (fun tp => is_illegal (fst tp)) raw)) -> In p (eof :: map snd raw)).
  { intros p H. right. apply in_map_iff in H as (x & Hx & Hin). apply filter_In in Hin as [Hin _]. apply in_map_iff. eauto. }
  set (loc := fun e : perr * nat => match fst e with E_arity => (0, 0) | _ => locate poss eof (snd e) end).
  assert (Hloc : forall l p, In p (map loc l) -> In p (eof :: map snd raw) \/ p = (0, 0)).
  { intros l p H. apply in_map_iff in H as (x & <- & _). unfold loc.
    destruct (fst x); try (left; apply Hsub; apply locate_in). right; reflexivity. }
  destruct (signatures B tEOF toks _) as [u s1| |]; try discriminate.
  destruct (_ ++ _) as [|e0 es0] eqn:ES.
  - destruct (program_loop B (fuel_of toks) [] false _) as [prog s3| |]; try discriminate.
    destruct (map _ (rev (errs (cs (validate_scope s3))))) as [|e1 es1] eqn:EM; [discriminate|].
    intro H; inversion H; subst. intros p Hp. apply (Hloc (rev (errs (cs (validate_scope s3))))). fold loc in EM. rewrite EM. exact Hp.
  - intro H; inversion H; subst. intros p Hp. rewrite <- ES in Hp. apply in_app_or in Hp as [Hp|Hp]; [left; apply Hill; exact Hp|].
    eapply Hloc; exact Hp.
Qed.
