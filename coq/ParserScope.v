(* ParserScope.v — C05, rules (e) (f) (g) (h) (i) and typing at program level.

   Part 1: one walk through the expression parser.  On a run without error the result is a tree,
   the expression rules (ParserRules.tree_ok) hold of it, and the log of successful lookupVar
   calls (pstate.used) is exactly the list of its variable occurrences, left to right, each of
   them visible.
   Part 2: lift of the expression rules to programs (static tables: function table fixed by the
   signature pre-pass, typing oracle).
   Part 3: a declarative scope checker on the tree (declared before use, no redeclaration in one
   scope, every declared variable / parameter / loop variable used) and the simulation between it
   and the parser's scope chain.
   Part 4: rule (i), every statement of an error-free parse ends at the end of a line. *)
From Coq Require Import List NArith ZArith Bool Arith Lia String.
From EvyV Require Import Base Pratt Parser ParserEqProofs ParserProofs ParserRules.
From EvyV.Gen Require Import Prec.
Import ListNotations.
Local Open Scope nat_scope.
Local Set Warnings "-unused-intro-pattern".

(* the variable occurrences of a tree, left to right *)
Fixpoint tvars (t : tree) : list str :=
  match t with
  | TVar n => [n]
  | TNum _ | TStr _ | TBool _ => []
  | TArr l => (fix go (l : list tree) : list str := match l with [] => [] | x :: r => tvars x ++ go r end) l
  | TMap l => (fix go (l : list (str * tree)) : list str := match l with [] => [] | x :: r => tvars (snd x) ++ go r end) l
  | TUn _ r => tvars r
  | TBin _ l r => tvars l ++ tvars r
  | TGroup e => tvars e
  | TIndex l i => tvars l ++ tvars i
  | TSlice l s e => tvars l ++ match s with Some x => tvars x | None => [] end ++ match e with Some x => tvars x | None => [] end
  | TDot l _ => tvars l
  | TAssert l _ => tvars l
  | TCall _ args => (fix go (l : list tree) : list str := match l with [] => [] | x :: r => tvars x ++ go r end) args
  end.
Definition lvars (l : list tree) : list str := flat_map tvars l.
Definition pvars (l : list (str * tree)) : list str := flat_map (fun kv => tvars (snd kv)) l.
Lemma lvars_fix l : (fix go (l : list tree) : list str := match l with [] => [] | x :: r => tvars x ++ go r end) l = lvars l.
Proof. induction l as [|x l IH]; simpl; [reflexivity|]. rewrite IH. reflexivity. Qed.
Lemma pvars_fix l : (fix go (l : list (str * tree)) : list str := match l with [] => [] | x :: r => tvars (snd x) ++ go r end) l = pvars l.
Proof. induction l as [|x l IH]; simpl; [reflexivity|]. rewrite IH. reflexivity. Qed.
Lemma lvars_app a b : lvars (a ++ b) = lvars a ++ lvars b.
Proof. apply flat_map_app. Qed.
Lemma pvars_app a b : pvars (a ++ b) = pvars a ++ pvars b.
Proof. apply flat_map_app. Qed.

Lemma used_advance_wss c : used (advance_wss c) = used c. Proof. reflexivity. Qed.
Lemma used_advance_if_ws c : used (advance_if_ws c) = used c.
Proof. unfold advance_if_ws. destruct (is_ws (cur c)); reflexivity. Qed.
Lemma used_advance c : used (advance c) = used c.
Proof.
  unfold advance. destruct (is_wss (advance_wss c)); [reflexivity|].
  destruct (is_ws (peek (advance_if_ws (advance_wss c)))); simpl; rewrite used_advance_if_ws; reflexivity.
Qed.
Lemma used_push_wss b c : used (push_wss b c) = used c. Proof. reflexivity. Qed.
Lemma used_pop_wss c : used (pop_wss c) = used c.
Proof. unfold pop_wss. destruct (_ && _); [rewrite used_advance|]; reflexivity. Qed.
Lemma used_mark_used n c : used (mark_used n c) = n :: used c. Proof. reflexivity. Qed.
Lemma used_slice_close E c : used (slice_close E c) = used c.
Proof. unfold slice_close. destruct (e_fix_slice E); [reflexivity|apply used_advance]. Qed.
Lemma used_add_err_at e n c : used (add_err_at e n c) = used c. Proof. reflexivity. Qed.
Lemma used_add_err e c : used (add_err e c) = used c. Proof. reflexivity. Qed.
#[local] Hint Rewrite used_advance_wss used_advance_if_ws used_advance used_push_wss used_pop_wss used_mark_used
  used_slice_close used_add_err_at used_add_err : used.
#[local] Hint Rewrite errs_advance_wss errs_advance_if_ws errs_advance errs_push_wss errs_pop_wss errs_mark_used
  errs_slice_close errs_add_err_at errs_add_err : errs.

Lemma multiline_ws_used : forall fuel c c', parse_multiline_ws fuel c = Some c' -> errs c' = [] -> used c' = used c.
Proof.
  induction fuel as [|f IH]; intros c c' H Q; [discriminate|]. rewrite parse_multiline_ws_eq in H.
  destruct (tt_in _ _); [rewrite (IH _ _ H Q); reflexivity|].
  destruct (toktype_beq _ _); [|injection H as <-; reflexivity].
  pose proof (multiline_ws_ne _ _ _ H Q) as Q1. autorewrite with errs in Q1.
  rewrite (IH _ _ H Q). autorewrite with used. rewrite (snd_assert_token_ne _ _ Q1). reflexivity.
Qed.

Lemma parse_type_used : forall fuel c a c', parse_type fuel c = Some (a, c') -> used c' = used c.
Proof.
  intros fuel c a c' H. apply (parse_type_steps (fun x => used x = used c)) with (2 := H); [|reflexivity].
  intros x X. rewrite used_advance. exact X.
Qed.

(* a variable occurrence that lookupVar accepted *)
Definition vis (E : env) (n : str) : Prop := mem_str n (e_vars E) = true /\ str_eqb n (s_ "_"%string) = false.
(* the reads of tree t: logged, in order, and all visible *)
Definition reads (E : env) (c c' : pstate) (vs : list str) : Prop :=
  used c' = rev vs ++ used c /\ Forall (vis E) vs.

Lemma reads_nil E c c' : used c' = used c -> reads E c c' [].
Proof. intro H. split; [exact H|constructor]. Qed.
Lemma reads_app E a b c v1 v2 : reads E a b v1 -> reads E b c v2 -> reads E a c (v1 ++ v2).
Proof.
  intros [U1 F1] [U2 F2]. split; [|apply Forall_app; auto].
  rewrite U2, U1, rev_app_distr, app_assoc. reflexivity.
Qed.
Lemma reads_shift E a a' b b' vs : used a' = used a -> used b' = used b -> reads E a b vs -> reads E a' b' vs.
Proof. intros H1 H2 [U F]. split; [rewrite H2, H1; exact U|exact F]. Qed.

Lemma err_return {A} (a a' : A) e n st c' (G : Prop) : ret a (add_err_at e n st) = Some (a', c') -> errs c' = [] -> G.
Proof. unfold ret. intros H Q. injection H as _ <-. discriminate Q. Qed.

Section ExprOK.
Variable E : env.

Definition ok_res (c : pstate) (r : option tree) (c' : pstate) : Prop :=
  exists t, r = Some t /\ tree_ok E t /\ reads E c c' (tvars t).
(* the infix forms extend a left operand: its reads, from some c0 on, are extended by those of the new parts *)
Definition ok_ext (left : tree) (c : pstate) (r : option tree) (c' : pstate) : Prop :=
  exists t, r = Some t /\ (tree_ok E left -> tree_ok E t) /\ forall c0, reads E c0 c (tvars left) -> reads E c0 c' (tvars t).

Variable pe : nat -> pstate -> res (option tree).
Hypothesis HNE : forall p c a c', pe p c = Some (a, c') -> NE c c'.
Hypothesis HOK : forall p c r c', pe p c = Some (r, c') -> errs c' = [] -> ok_res c r c'.

Lemma expr_wss_ok c r c' : parse_expr_wss pe c = Some (r, c') -> errs c' = [] -> ok_res c r c'.
Proof.
  unfold parse_expr_wss. intros H Q.
  destruct (pe lowestPrec (push_wss true c)) as [[r1 st1]|] eqn:P; [|discriminate H].
  unfold ret in H. injection H as <- <-. autorewrite with errs in Q.
  destruct (HOK _ _ _ _ P Q) as (t & -> & T & R). exists t. split; [reflexivity|]. split; [exact T|].
  eapply reads_shift; [| |exact R]; autorewrite with used; reflexivity.
Qed.

Lemma expr_list_ok : forall fuel acc c r c', parse_expr_list pe fuel acc c = Some (r, c') -> errs c' = [] ->
  exists new, r = Some (rev acc ++ new) /\ all_ok E new /\ reads E c c' (lvars new).
Proof.
  induction fuel as [|f IH]; intros acc c r c' H Q; [discriminate|]. rewrite parse_expr_list_eq in H.
  destruct (_ || _).
  { unfold ret in H. injection H as <- <-. exists []. rewrite app_nil_r. split; [reflexivity|]. split; [constructor|apply reads_nil; reflexivity]. }
  destruct (parse_expr_wss pe c) as [[n st1]|] eqn:P; [|discriminate H].
  destruct n as [t|].
  2:{ unfold ret in H. injection H as <- <-. destruct (expr_wss_ok _ _ _ P Q) as (t & X & _). discriminate X. }
  pose proof (expr_list_ne pe HNE _ _ _ _ _ H Q) as Q1. autorewrite with errs in Q1.
  destruct (IH _ _ _ _ H Q) as (new & -> & Tl & Rd). destruct (expr_wss_ok _ _ _ P Q1) as (t' & Et & T & R). injection Et as <-.
  exists (t :: new). split; [simpl; rewrite <- app_assoc; reflexivity|]. split; [constructor; assumption|].
  simpl. eapply reads_app; [exact R|].
  eapply reads_shift; [| |exact Rd]; autorewrite with used; reflexivity.
Qed.

Lemma func_call_ok fuel top nil c r c' :
  parse_func_call E pe fuel top nil c = Some (r, c') -> errs c' = [] ->
  func_of E (tlit (cur c)) = Some nil -> ok_res c r c'.
Proof.
  unfold parse_func_call, tyerr. intros H Q Hf.
  destruct (top || negb nil) eqn:TN.
  - destruct (parse_expr_list pe fuel [] (advance c)) as [[args st2]|] eqn:P; [|discriminate H].
    unfold ret in H. injection H as <- <-. eexists. split; [reflexivity|].
    destruct (arity_wrong E _ _) eqn:AW; [autorewrite with errs in Q; discriminate Q|].
    destruct (e_tyerr E TS_call_args _ _) eqn:TE; [autorewrite with errs in Q; discriminate Q|].
    destruct (expr_list_ok _ _ _ _ _ P Q) as (new & -> & Tl & Rd). split.
    + simpl. split; [rewrite Hf; discriminate|]. split; [apply all_ok_fix; exact Tl|].
      left. split; [exact AW|eexists; exact TE].
    + simpl. rewrite lvars_fix. eapply reads_shift; [| |exact Rd]; autorewrite with used; reflexivity.
  - unfold ret in H. injection H as <- <-. eexists. split; [reflexivity|]. split; [|apply reads_nil; autorewrite with used; reflexivity].
    destruct top; [discriminate TN|]. destruct nil; [|discriminate TN].
    simpl. split; [rewrite Hf; discriminate|]. split; [exact I|]. right. auto.
Qed.

Lemma toplevel_ok fuel c r c' : parse_toplevel E pe fuel c = Some (r, c') -> errs c' = [] -> ok_res c r c'.
Proof.
  unfold parse_toplevel. intros H Q.
  destruct (cur_t c); try (eapply HOK; eassumption).
  destruct (func_of E (tlit (cur c))) as [[|]|] eqn:F; try (eapply HOK; eassumption).
  eapply func_call_ok; eassumption.
Qed.

Lemma lookup_var_ok c r c' : lookup_var E c = Some (r, c') -> errs c' = [] -> ok_res c r c'.
Proof.
  unfold lookup_var. intros H Q.
  destruct (str_eqb _ _) eqn:U; [eapply err_return; eassumption|].
  destruct (mem_str _ _) eqn:M; [|destruct (func_of E _); eapply err_return; eassumption].
  unfold ret in H. injection H as <- <-. eexists. split; [reflexivity|]. split; [exact M|].
  simpl. split; [autorewrite with used; reflexivity|]. constructor; [split; assumption|constructor].
Qed.

Lemma ident_expr_ok fuel c r c' : parse_ident_expr E pe fuel c = Some (r, c') -> errs c' = [] -> ok_res c r c'.
Proof.
  unfold parse_ident_expr. intros H Q.
  destruct (func_of E _) as [[|]|] eqn:F; try (eapply lookup_var_ok; eassumption).
  eapply func_call_ok; eassumption.
Qed.

Lemma array_elems_ok : forall fuel acc c r c', parse_array_elems E pe fuel acc c = Some (r, c') -> errs c' = [] ->
  exists new, r = Some (rev acc ++ new) /\ all_ok E new /\ reads E c c' (lvars new).
Proof.
  induction fuel as [|f IH]; intros acc c r c' H Q; [discriminate|]. rewrite parse_array_elems_eq in H. unfold tyerr in H.
  destruct (tt_in _ _).
  { unfold ret in H. injection H as <- <-. exists []. rewrite app_nil_r. split; [reflexivity|]. split; [constructor|apply reads_nil; reflexivity]. }
  destruct (parse_expr_wss pe c) as [[n st1]|] eqn:P; [|discriminate H].
  destruct n as [t|].
  2:{ unfold ret in H. injection H as <- <-. destruct (expr_wss_ok _ _ _ P Q) as (t & X & _). discriminate X. }
  destruct (e_tyerr E _ _ _); [eapply err_return; eassumption|].
  destruct (parse_multiline_ws (S f) st1) as [st2|] eqn:W; [|discriminate H].
  destruct (IH _ _ _ _ H Q) as (new & -> & Tl & Rd).
  pose proof (array_elems_ne E pe HNE _ _ _ _ _ H Q) as Q2.
  pose proof (multiline_ws_ne _ _ _ W Q2) as Q1.
  destruct (expr_wss_ok _ _ _ P Q1) as (t' & Et & T & R). injection Et as <-.
  exists (t :: new). split; [simpl; rewrite <- app_assoc; reflexivity|]. split; [constructor; assumption|].
  simpl. eapply reads_app; [exact R|].
  eapply reads_shift; [| |exact Rd]; [symmetry; exact (multiline_ws_used _ _ _ W Q2)|reflexivity].
Qed.

Lemma array_literal_ok fuel c r c' : parse_array_literal E pe fuel c = Some (r, c') -> errs c' = [] -> ok_res c r c'.
Proof.
  unfold parse_array_literal. intros H Q.
  destruct (parse_multiline_ws fuel (advance c)) as [c2|] eqn:W; [|discriminate H].
  destruct (parse_array_elems E pe fuel [] c2) as [[els c3]|] eqn:P; [|discriminate H].
  destruct els as [l|].
  2:{ unfold ret in H. injection H as <- <-. destruct (array_elems_ok _ _ _ _ _ P Q) as (new & X & _). discriminate X. }
  destruct (assert_token T_RBRACKET c3) as [ok c4] eqn:A. destruct ok; unfold ret in H; injection H as <- <-.
  2:{ destruct (assert_token_ne _ _ _ _ A Q) as [X _]. discriminate X. }
  autorewrite with errs in Q. destruct (assert_token_ne _ _ _ _ A Q) as [_ ->].
  destruct (array_elems_ok _ _ _ _ _ P Q) as (new & El & Tl & Rd). injection El as ->.
  pose proof (array_elems_ne E pe HNE _ _ _ _ _ P Q) as Q2.
  eexists. split; [reflexivity|]. split; [simpl; apply all_ok_fix; exact Tl|].
  simpl. rewrite lvars_fix. eapply reads_shift; [| |exact Rd]; autorewrite with used; [|reflexivity].
  rewrite (multiline_ws_used _ _ _ W Q2). autorewrite with used. reflexivity.
Qed.

Lemma used_map_key_state c : used (map_key_state c) = used c.
Proof. unfold map_key_state. destruct (toktype_beq _ _); reflexivity. Qed.

Lemma map_pairs_ok : forall fuel acc c r c', parse_map_pairs E pe fuel acc c = Some (r, c') -> errs c' = [] ->
  exists new, r = Some (rev acc ++ new) /\ pairs_ok E new /\ reads E c c' (pvars new).
Proof.
  induction fuel as [|f IH]; intros acc c r c' H Q; [discriminate|]. rewrite parse_map_pairs_eq in H. unfold tyerr in H.
  destruct (tt_in _ _).
  { unfold ret in H. injection H as <- <-. exists []. rewrite app_nil_r. split; [reflexivity|]. split; [constructor|apply reads_nil; reflexivity]. }
  cbv zeta in H. destruct (has_key _ _); [eapply err_return; eassumption|].
  set (st3 := advance (snd (assert_token T_COLON (advance (map_key_state c))))) in H.
  assert (U3 : used st3 = used c)
    by (unfold st3; autorewrite with used; unfold assert_token; destruct (toktype_beq _ _); simpl; autorewrite with used; apply used_map_key_state).
  destruct (parse_expr_wss pe st3) as [[n st4]|] eqn:P; [|discriminate H].
  destruct n as [t|].
  2:{ unfold ret in H. injection H as <- <-. destruct (expr_wss_ok _ _ _ P Q) as (t & X & _). discriminate X. }
  destruct (e_tyerr E _ _ _); [eapply err_return; eassumption|].
  destruct (parse_multiline_ws (S f) st4) as [st5|] eqn:W; [|discriminate H].
  destruct (IH _ _ _ _ H Q) as (new & -> & Tl & Rd).
  pose proof (map_pairs_ne E pe HNE _ _ _ _ _ H Q) as Q5.
  pose proof (multiline_ws_ne _ _ _ W Q5) as Q4.
  destruct (expr_wss_ok _ _ _ P Q4) as (t' & Et & T & R). injection Et as <-.
  exists ((tlit (as_ident (cur c)), t) :: new). split; [simpl; rewrite <- app_assoc; reflexivity|].
  split; [constructor; assumption|].
  simpl. eapply reads_app; [eapply reads_shift; [symmetry; exact U3|reflexivity|exact R]|].
  eapply reads_shift; [| |exact Rd]; [symmetry; exact (multiline_ws_used _ _ _ W Q5)|reflexivity].
Qed.

Lemma map_literal_ok fuel c r c' : parse_map_literal E pe fuel c = Some (r, c') -> errs c' = [] -> ok_res c r c'.
Proof.
  unfold parse_map_literal. intros H Q.
  destruct (parse_multiline_ws fuel (advance (push_wss false c))) as [c2|] eqn:W; [|discriminate H].
  destruct (parse_map_pairs E pe fuel [] c2) as [[ps c3]|] eqn:P; [|discriminate H].
  destruct ps as [l|].
  2:{ unfold ret in H. injection H as <- <-. autorewrite with errs in Q. destruct (map_pairs_ok _ _ _ _ _ P Q) as (new & X & _). discriminate X. }
  destruct (assert_token T_RCURLY c3) as [ok c4] eqn:A. destruct ok; unfold ret in H; injection H as <- <-; autorewrite with errs in Q.
  2:{ destruct (assert_token_ne _ _ _ _ A Q) as [X _]. discriminate X. }
  destruct (assert_token_ne _ _ _ _ A Q) as [_ ->].
  destruct (map_pairs_ok _ _ _ _ _ P Q) as (new & El & Tl & Rd). injection El as ->.
  pose proof (map_pairs_ne E pe HNE _ _ _ _ _ P Q) as Q2.
  eexists. split; [reflexivity|]. split; [simpl; apply pairs_ok_fix; exact Tl|].
  simpl. rewrite pvars_fix. eapply reads_shift; [| |exact Rd]; autorewrite with used; [|reflexivity].
  rewrite (multiline_ws_used _ _ _ W Q2). autorewrite with used. reflexivity.
Qed.

Lemma unary_ok c r c' : parse_unary E pe c = Some (r, c') -> errs c' = [] -> ok_res c r c'.
Proof.
  unfold parse_unary, tyerr. intros H Q.
  set (st2 := if is_ws (prev (advance c)) then add_err_at E_ws_after_unary (here c) (advance c) else advance c) in H.
  assert (U2 : used st2 = used c) by (unfold st2; destruct (is_ws _); autorewrite with used; reflexivity).
  destruct (pe unary_operand_prec st2) as [[r1 st3]|] eqn:P; [|discriminate H].
  destruct r1 as [x|].
  2:{ unfold ret in H. injection H as <- <-. destruct (HOK _ _ _ _ P Q) as (t & X & _). discriminate X. }
  destruct (e_tyerr E TS_unary _ _) eqn:TE; [eapply err_return; eassumption|].
  unfold ret in H. injection H as <- <-. destruct (HOK _ _ _ _ P Q) as (t' & Et & T & R). injection Et as <-.
  eexists. split; [reflexivity|]. split; [simpl; split; [exact T|eexists; exact TE]|].
  simpl. eapply reads_shift; [symmetry; exact U2|reflexivity|exact R].
Qed.

Lemma binary_ok left c r c' : parse_binary E pe left c = Some (r, c') -> errs c' = [] -> ok_ext left c r c'.
Proof.
  unfold parse_binary, tyerr. intros H Q.
  destruct (pe _ (advance c)) as [[r1 st2]|] eqn:P; [|discriminate H].
  destruct r1 as [x|].
  2:{ unfold ret in H. injection H as <- <-. destruct (HOK _ _ _ _ P Q) as (t & X & _). discriminate X. }
  destruct (e_tyerr E TS_binary _ _) eqn:TE; [eapply err_return; eassumption|].
  unfold ret in H. injection H as <- <-. destruct (HOK _ _ _ _ P Q) as (t' & Et & T & R). injection Et as <-.
  eexists. split; [reflexivity|]. split; [intro Tl; simpl; split; [exact Tl|]; split; [exact T|eexists; exact TE]|].
  intros c0 Rl. simpl. eapply reads_app; [exact Rl|].
  eapply reads_shift; [| |exact R]; autorewrite with used; reflexivity.
Qed.

Lemma grouped_ok fuel c r c' : parse_grouped E pe fuel c = Some (r, c') -> errs c' = [] -> ok_res c r c'.
Proof.
  unfold parse_grouped. intros H Q.
  destruct (parse_toplevel E pe fuel (advance (push_wss false c))) as [[e st2]|] eqn:P; [|discriminate H].
  destruct (assert_token T_RPAREN st2) as [ok st3] eqn:A.
  assert (Q3 : errs st3 = []) by (destruct ok, e; unfold ret in H; injection H as <- <-; autorewrite with errs in Q; exact Q).
  destruct (assert_token_ne _ _ _ _ A Q3) as [-> ->].
  destruct (toplevel_ok _ _ _ _ P Q3) as (t & -> & T & R).
  unfold ret in H. injection H as <- <-. eexists. split; [reflexivity|]. split; [exact T|].
  simpl. eapply reads_shift; [| |exact R]; autorewrite with used; reflexivity.
Qed.

Definition otv' (o : option tree) : list str := match o with Some x => tvars x | None => [] end.

Lemma slice_ok fuel tok left start c r c' :
  parse_slice E pe fuel tok left start c = Some (r, c') -> errs c' = [] ->
  match start with Some x => tree_ok E x | None => True end ->
  (exists n, e_tyerr E TS_not_indexable left n = false) ->
  exists t, r = Some t /\ (tree_ok E left -> tree_ok E t) /\
            forall c0, reads E c0 c (tvars left ++ otv' start) -> reads E c0 c' (tvars t).
Proof.
  rewrite parse_slice_eq. unfold tyerr. intros H Q Ts Hni.
  destruct (e_tyerr E TS_not_sliceable left tok) eqn:NS; [eapply err_return; eassumption|].
  destruct (toktype_beq _ _).
  - cbv zeta in H. destruct (e_tyerr E TS_slice_bounds _ _) eqn:SB; [eapply err_return; eassumption|].
    unfold ret in H. injection H as <- <-. eexists. split; [reflexivity|]. split; [intro Tl; simpl; repeat split; auto; eexists; eassumption|].
    intros c0 Rl. simpl. rewrite app_nil_r. unfold otv' in Rl.
    eapply reads_shift; [| |exact Rl]; autorewrite with used; reflexivity.
  - destruct (parse_toplevel E pe fuel c) as [[e st1]|] eqn:P; [|discriminate H].
    destruct e as [x|].
    2:{ unfold ret in H. injection H as <- <-. destruct (toplevel_ok _ _ _ _ P Q) as (t & X & _). discriminate X. }
    destruct (assert_token T_RBRACKET st1) as [ok st2] eqn:A. destruct ok.
    2:{ unfold ret in H. injection H as <- <-. destruct (assert_token_ne _ _ _ _ A Q) as [X _]. discriminate X. }
    cbv zeta in H. destruct (e_tyerr E TS_slice_bounds _ _) eqn:SB; [eapply err_return; eassumption|].
    unfold ret in H. injection H as <- <-. autorewrite with errs in Q. destruct (assert_token_ne _ _ _ _ A Q) as [_ ->].
    destruct (toplevel_ok _ _ _ _ P Q) as (t' & Et & T & R). injection Et as <-.
    eexists. split; [reflexivity|]. split; [intro Tl; simpl; repeat split; auto; eexists; eassumption|].
    intros c0 Rl. simpl. unfold otv' in Rl. rewrite app_assoc. eapply reads_app; [exact Rl|].
    eapply reads_shift; [| |exact R]; autorewrite with used; reflexivity.
Qed.

Lemma index_or_slice_ok fuel allow left c r c' :
  parse_index_or_slice E pe fuel allow left c = Some (r, c') -> errs c' = [] -> ok_ext left c r c'.
Proof.
  unfold parse_index_or_slice, tyerr. intros H Q.
  assert (ER : forall e n st, ret None (pop_wss (add_err_at e n st)) = Some (r, c') -> ok_ext left c r c')
    by (unfold ret; intros e n st X; injection X as <- <-; autorewrite with errs in Q; discriminate Q).
  destruct (is_ws (prev (push_wss false c))); [exact (ER _ _ _ H)|].
  destruct (e_tyerr E TS_not_indexable left (here c)) eqn:NI; [exact (ER _ _ _ H)|].
  destruct (allow && _).
  - destruct (parse_slice E pe fuel (here c) left None _) as [[x s]|] eqn:P; [|discriminate H].
    unfold ret in H. injection H as <- <-. autorewrite with errs in Q.
    destruct (slice_ok _ _ _ _ _ _ _ P Q I (ex_intro _ _ NI)) as (t & -> & T & R).
    exists t. split; [reflexivity|]. split; [exact T|].
    intros c0 Rl. eapply reads_shift; [reflexivity| |apply R]; [autorewrite with used; reflexivity|].
    simpl. rewrite app_nil_r. eapply reads_shift; [reflexivity| |exact Rl]. autorewrite with used. reflexivity.
  - destruct (parse_toplevel E pe fuel _) as [[ix st2]|] eqn:P; [|discriminate H].
    destruct ix as [i|].
    2:{ unfold ret in H. injection H as <- <-. autorewrite with errs in Q. destruct (toplevel_ok _ _ _ _ P Q) as (t & X & _). discriminate X. }
    destruct (allow && _).
    + destruct (parse_slice E pe fuel (here c) left (Some i) (advance st2)) as [[x s]|] eqn:P2; [|discriminate H].
      unfold ret in H. injection H as <- <-. autorewrite with errs in Q.
      pose proof (slice_ne E pe HNE _ _ _ _ _ _ _ P2 Q) as Q2. autorewrite with errs in Q2.
      destruct (toplevel_ok _ _ _ _ P Q2) as (i' & Ei & Ti & Ri). injection Ei as <-.
      destruct (slice_ok _ _ _ _ _ _ _ P2 Q Ti (ex_intro _ _ NI)) as (t & -> & T & R).
      exists t. split; [reflexivity|]. split; [exact T|].
      intros c0 Rl. eapply reads_shift; [reflexivity| |apply R]; [autorewrite with used; reflexivity|].
      simpl. eapply reads_app; [exact Rl|]. eapply reads_shift; [| |exact Ri]; autorewrite with used; reflexivity.
    + destruct (assert_token T_RBRACKET st2) as [ok st3] eqn:A. destruct ok.
      2:{ unfold ret in H. injection H as <- <-. autorewrite with errs in Q. destruct (assert_token_ne _ _ _ _ A Q) as [X _]. discriminate X. }
      destruct (e_tyerr E TS_index_type _ _) eqn:IT; [exact (ER _ _ _ H)|].
      unfold ret in H. injection H as <- <-. autorewrite with errs in Q. destruct (assert_token_ne _ _ _ _ A Q) as [_ ->].
      destruct (toplevel_ok _ _ _ _ P Q) as (i' & Ei & Ti & Ri). injection Ei as <-.
      eexists. split; [reflexivity|]. split; [intro Tl; simpl; repeat split; auto; eexists; eassumption|].
      intros c0 Rl. simpl. eapply reads_app; [exact Rl|].
      eapply reads_shift; [| |exact Ri]; autorewrite with used; reflexivity.
Qed.

Lemma dot_ok left c r c' : parse_dot E left c = Some (r, c') -> errs c' = [] -> ok_ext left c r c'.
Proof.
  unfold parse_dot, tyerr. intros H Q.
  destruct (is_ws (prev c)); [eapply err_return; eassumption|].
  destruct (is_ws (look1 (rest c))); [eapply err_return; eassumption|].
  destruct (e_tyerr E TS_dot_not_map left (here c)) eqn:DM; [eapply err_return; eassumption|].
  destruct (ttype (as_ident (cur (advance c)))); try (eapply err_return; eassumption).
  unfold ret in H. injection H as <- <-. eexists. split; [reflexivity|]. split; [intro Tl; simpl; split; [exact Tl|eexists; exact DM]|].
  intros c0 Rl. simpl. eapply reads_shift; [reflexivity| |exact Rl]. autorewrite with used. reflexivity.
Qed.

Lemma type_assertion_ok fuel left c r c' : parse_type_assertion E fuel left c = Some (r, c') -> errs c' = [] -> ok_ext left c r c'.
Proof.
  unfold parse_type_assertion, tyerr. intros H Q.
  destruct (is_ws (prev c)); [eapply err_return; eassumption|].
  destruct (is_ws (look1 (rest c))); [eapply err_return; eassumption|].
  destruct (parse_type fuel (advance (advance (push_wss false c)))) as [[ty c2]|] eqn:P; [|discriminate H].
  match type of H with context[assert_token T_RPAREN ?x] => set (st3 := x) in H end.
  destruct (assert_token T_RPAREN st3) as [ok c4] eqn:A.
  assert (Q4 : errs c4 = [] /\ e_tyerr E TS_assert_not_any left (here c) = false).
  { destruct ty; unfold ret in H; injection H as <- <-; autorewrite with errs in Q;
      (destruct (e_tyerr E TS_assert_not_any left (here c)); [autorewrite with errs in Q; discriminate Q|]);
      (split; [|reflexivity]); destruct ok; autorewrite with errs in Q; exact Q. }
  destruct Q4 as [Q4 AN]. destruct (assert_token_ne _ _ _ _ A Q4) as [_ E4]. subst c4.
  assert (E3 : exists ty', ty = Some ty' /\ ty' <> TyAny /\ st3 = c2).
  { unfold st3 in Q4 |- *. destruct ty as [ty'|]; [|autorewrite with errs in Q4; discriminate Q4]. exists ty'.
    destruct ty'; autorewrite with errs in Q4; try discriminate Q4; repeat split; discriminate. }
  destruct E3 as (ty' & -> & NA & E3). unfold ret in H. injection H as <- <-.
  eexists. split; [reflexivity|]. split.
  - intro Tl. simpl. split; [exact Tl|]. split; [discriminate|]. split; [|eexists; exact AN]. intro X. injection X as ->. apply NA. reflexivity.
  - intros c0 Rl. simpl. eapply reads_shift; [reflexivity| |exact Rl]. rewrite AN, E3.
    destruct ok; autorewrite with used; rewrite (parse_type_used _ _ _ _ P); autorewrite with used; reflexivity.
Qed.

Lemma prefix_ok fuel c r c' : parse_prefix E pe fuel c = Some (r, c') -> errs c' = [] -> ok_res c r c'.
Proof.
  unfold parse_prefix. intros H Q.
  destruct (cur_t c) eqn:T.
  all: try solve [unfold ret in H; injection H as <- <-; destruct (errs_unexpected_left _ Q)].
  all: try solve [eapply ident_expr_ok; eassumption | eapply unary_ok; eassumption | eapply grouped_ok; eassumption].
  all: unfold parse_literal in H; unfold cur_t in T; rewrite T in H.
  all: try solve [eapply array_literal_ok; eassumption | eapply map_literal_ok; eassumption].
  all: try (destruct (num_lit_ok _); [|eapply err_return; eassumption]).
  all: unfold ret in H; injection H as <- <-; eexists; split; [reflexivity|]; split; [exact I|apply reads_nil; autorewrite with used; reflexivity].
Qed.

Lemma infix_ok fuel left c x r c' :
  parse_infix E pe fuel left c = Some x -> x = Some (r, c') -> errs c' = [] -> ok_ext left c r c'.
Proof.
  unfold parse_infix. intros H R Q.
  destruct (is_binary_op (cur_t c)).
  - injection H as <-. eapply binary_ok; eassumption.
  - destruct (cur_t c); try discriminate H.
    + injection H as <-. eapply index_or_slice_ok; eassumption.
    + destruct (ttype (peek c)); injection H as <-; first [eapply type_assertion_ok; eassumption | eapply dot_ok; eassumption].
Qed.

End ExprOK.

Theorem expr_ok E : forall fuel,
  (forall p c r c', parse_expr E fuel p c = Some (r, c') -> errs c' = [] -> ok_res E c r c') /\
  (forall p l c r c', expr_loop E fuel p l c = Some (r, c') -> errs c' = [] -> ok_ext E l c r c').
Proof.
  induction fuel as [|f [IHe IHl]]; [split; intros; discriminate|].
  pose proof (proj1 (expr_ne E f)) as NEe. pose proof (proj2 (expr_ne E f)) as NEl.
  split.
  - intros p c r c' H Q. rewrite parse_expr_S in H.
    destruct (parse_prefix E (parse_expr E f) f c) as [[l c1]|] eqn:P; [|discriminate H].
    assert (Q1 : errs c1 = []) by (destruct l; [exact (NEl _ _ _ _ _ H Q)|unfold ret in H; injection H as <- <-; exact Q]).
    destruct (prefix_ok E (parse_expr E f) NEe IHe _ _ _ _ P Q1) as (lf & -> & T & R).
    destruct (IHl _ _ _ _ _ H Q) as (t & -> & T1 & R1). exists t. split; [reflexivity|]. split; [exact (T1 T)|exact (R1 _ R)].
  - intros p l c r c' H Q. rewrite expr_loop_S in H. unfold ret in H.
    assert (STOP : Some (Some l, c) = Some (r, c') -> ok_ext E l c r c')
      by (intro X; injection X as <- <-; exists l; auto).
    destruct (is_at_expr_end c); [exact (STOP H)|].
    destruct (loop_continues p (precedences (cur_t c))); [|exact (STOP H)].
    destruct (parse_infix E (parse_expr E f) f l c) as [x|] eqn:PI; [|exact (STOP H)].
    destruct x as [[l1 c1]|] eqn:R; [|discriminate H].
    assert (Q1 : errs c1 = []) by (destruct l1; [exact (NEl _ _ _ _ _ H Q)|injection H as <- <-; exact Q]).
    destruct (infix_ok E (parse_expr E f) NEe IHe _ _ _ _ _ _ PI eq_refl Q1) as (lf & -> & T1 & R1).
    destruct (IHl _ _ _ _ _ H Q) as (t & -> & T2 & R2). exists t. split; [reflexivity|]. split; [exact (fun Tl => T2 (T1 Tl))|].
    intros c0 Rl. exact (R2 _ (R1 _ Rl)).
Qed.

Theorem expr_rules E : forall fuel,
  (forall p c t c', parse_expr E fuel p c = Some (Some t, c') -> errs c' = [] -> tree_ok E t) /\
  (forall p l c t c', expr_loop E fuel p l c = Some (Some t, c') -> errs c' = [] -> tree_ok E l -> tree_ok E t).
Proof.
  intro fuel. split.
  - intros p c t c' H Q. destruct (proj1 (expr_ok E fuel) _ _ _ _ H Q) as (t' & Et & T & _). injection Et as <-. exact T.
  - intros p l c t c' H Q Tl. destruct (proj2 (expr_ok E fuel) _ _ _ _ _ H Q) as (t' & Et & T & _). injection Et as <-. exact (T Tl).
Qed.

(** * Program-level rules: static expression rules and scoping *)

(* ---- (e) + typing: static tables ---- *)
Definition mkenv (B : benv) (F : list (str * finfo)) (vs : list str) : env :=
  {| e_funcs := map (fun nf => (fst nf, fi_nil (snd nf))) F; e_vars := vs;
     e_arity := map (fun nf => (fst nf, fi_arity (snd nf))) F; e_tyerr := b_tyerr B; e_fix_slice := true |}.
Lemma env_of_mkenv B s : env_of B s = mkenv B (fns s) (visible (scs s)).
Proof. reflexivity. Qed.

(* the expression satisfies the call rules and the typing oracle was silent (tree_ok for some set of visible variables) *)
Definition expr_sok (B : benv) (F : list (str * finfo)) (t : tree) : Prop := exists vs, tree_ok (mkenv B F vs) t.
Definition silent (B : benv) (site : tsite) (t : tree) : Prop := exists n, b_tyerr B site t n = false.
Definition oexpr_sok B F (o : option tree) : Prop := match o with Some t => expr_sok B F t | None => True end.

Fixpoint stmt_sok (B : benv) (F : list (str * finfo)) (s : stmt) : Prop :=
  match s with
  | SEmpty | SBreak | STypedDecl _ _ => True
  | SInferredDecl _ v => expr_sok B F v /\ silent B TS_decl_none v
  | SAssign t v => expr_sok B F t /\ expr_sok B F v /\ silent B TS_assign_type (TBin T_ASSIGN t v)
  | SCallStmt c => expr_sok B F c
  | SReturn v => match v with Some t => expr_sok B F t /\ silent B TS_return_type t | None => True end
  | SIf brs els =>
      (fix all (l : list (option tree * block)) : Prop :=
         match l with
         | [] => True
         | cb :: r => (match fst cb with Some c => expr_sok B F c /\ silent B TS_condition c | None => True end) /\
                      block_sok B F (snd cb) /\ all r
         end) brs /\
      match els with Some e => block_sok B F e | None => True end
  | SWhile c b => (match c with Some c => expr_sok B F c /\ silent B TS_condition c | None => True end) /\ block_sok B F b
  | SFor _ nodes b =>
      (fix all (l : list tree) : Prop := match l with [] => True | x :: r => expr_sok B F x /\ all r end) nodes /\
      silent B TS_for_range_type (TCall [] nodes) /\ block_sok B F b
  | SFunc _ _ _ b => block_sok B F b
  | SOn _ _ b => block_sok B F b
  end
with block_sok (B : benv) (F : list (str * finfo)) (b : block) : Prop :=
  match b with Block l _ => (fix all (l : list stmt) : Prop := match l with [] => True | x :: r => stmt_sok B F x /\ all r end) l end.

Definition stmts_sok B F (l : list stmt) : Prop := Forall (stmt_sok B F) l.
Lemma stmts_sok_fix B F l :
  (fix all (l : list stmt) : Prop := match l with [] => True | x :: r => stmt_sok B F x /\ all r end) l <-> stmts_sok B F l.
Proof. apply all_fix. Qed.

(* ---- (f) (g) (h): a scope checker on the tree ---- *)
Definition frame := list (str * bool).          (* declared name, used *)
Definition ctx := list frame.                   (* innermost scope first *)

Fixpoint fhas (n : str) (f : frame) : bool :=
  match f with [] => false | x :: r => str_eqb (fst x) n || fhas n r end.
Fixpoint fmark (n : str) (f : frame) : frame :=
  match f with [] => [] | x :: r => if str_eqb (fst x) n then (fst x, true) :: r else x :: fmark n r end.
(* a read or an assignment uses the innermost declaration of the name *)
Fixpoint cmark (n : str) (G : ctx) : ctx :=
  match G with [] => [] | f :: r => if fhas n f then fmark n f :: r else f :: cmark n r end.
Definition cvisible (n : str) (G : ctx) : bool := negb (str_eqb n (s_ "_"%string)) && existsb (fhas n) G.

(* (f) every variable occurrence is declared in an enclosing scope at that point; it is then marked used *)
Definition use_vars (vs : list str) (G : ctx) : option ctx :=
  if forallb (fun n => cvisible n G) vs then Some (fold_left (fun G n => cmark n G) vs G) else None.

Record tabs := { t_globals : list str; t_funcs : list str; t_events : list (str * nat) }.

(* (g) a declaration: not a builtin variable, not yet declared in THIS scope, not a function name;
   "_" only as a parameter, and it declares nothing *)
Definition declare (T : tabs) (allow_underscore : bool) (n : str) (G : ctx) : option ctx :=
  match G with
  | [] => None
  | f :: r =>
      if mem_str n (t_globals T) || fhas n f || mem_str n (t_funcs T) || (negb allow_underscore && str_eqb n (s_ "_"%string))
      then None
      else Some (if str_eqb n (s_ "_"%string) then G else ((n, false) :: f) :: r)
  end.
Fixpoint declare_all (T : tabs) (ns : list str) (G : ctx) : option ctx :=
  match ns with [] => Some G | n :: r => match declare T true n G with Some G1 => declare_all T r G1 | None => None end end.

(* (h) when a scope ends every name declared in it has been used *)
Definition close_scope (G : ctx) : option ctx :=
  match G with f :: r => if forallb snd f then Some r else None | [] => None end.

Definition obind {A C} (o : option A) (k : A -> option C) : option C := match o with Some a => k a | None => None end.
Fixpoint lookup_evn (n : str) (l : list (str * nat)) : option nat :=
  match l with [] => None | (m, k) :: r => if str_eqb m n then Some k else lookup_evn n r end.

Fixpoint scope_stmt (T : tabs) (s : stmt) (G : ctx) {struct s} : option ctx :=
  match s with
  | SEmpty | SBreak => Some G
  | STypedDecl n t => match t with Some _ => declare T false n G | None => None end
  | SInferredDecl n v => obind (use_vars (tvars v) G) (declare T false n)
  | SAssign t v => obind (use_vars (tvars t) G) (use_vars (tvars v))
  | SCallStmt c => use_vars (tvars c) G
  | SReturn v => use_vars (otv' v) G
  | SIf brs els =>
      obind ((fix go (l : list (option tree * block)) (G : ctx) : option ctx :=
                match l with
                | [] => Some G
                | cb :: r => obind (obind (use_vars (otv' (fst cb)) ([] :: G)) (scope_block T (snd cb))) (go r)
                end) brs G)
            (fun G1 => match els with Some e => scope_block T e ([] :: G1) | None => Some G1 end)
  | SWhile c b => obind (use_vars (otv' c) ([] :: G)) (scope_block T b)
  | SFor v nodes b =>
      obind (match v with Some n => declare T false n ([] :: G) | None => Some ([] :: G) end)
            (fun G1 => obind (use_vars (lvars nodes) G1) (scope_block T b))
  | SFunc _ _ params b => obind (declare_all T params ([] :: G)) (scope_block T b)
  | SOn name params b =>
      match lookup_evn name (t_events T) with
      | None => None
      | Some k =>
          match params with
          | [] => scope_block T b ([] :: G)
          | _ => if Nat.eqb (List.length params) k then obind (declare_all T params ([] :: G)) (scope_block T b) else None
          end
      end
  end
(* the statements of a block in the scope that has just been opened; then the scope is closed *)
with scope_block (T : tabs) (b : block) (G : ctx) {struct b} : option ctx :=
  match b with
  | Block l _ =>
      obind ((fix go (l : list stmt) (G : ctx) : option ctx :=
                match l with [] => Some G | s :: r => obind (scope_stmt T s G) (go r) end) l G)
            close_scope
  end.

Fixpoint scope_stmts (T : tabs) (l : list stmt) (G : ctx) : option ctx :=
  match l with [] => Some G | s :: r => obind (scope_stmt T s G) (scope_stmts T r) end.
Lemma scope_block_eq T l t G : scope_block T (Block l t) G = obind (scope_stmts T l G) close_scope.
Proof.
  simpl. f_equal. revert G. induction l as [|s l IH]; intro G; simpl; [reflexivity|].
  destruct (scope_stmt T s G); simpl; [apply IH|reflexivity].
Qed.

(* a program: the builtin variables form the outermost scope (they count as used) *)
Definition scope_prog (T : tabs) (p : list stmt) : bool :=
  match obind (scope_stmts T p [map (fun n => (n, true)) (t_globals T)]) close_scope with Some _ => true | None => false end.

(* ---- the parser's scope chain, abstractly ---- *)
Definition absf (sc : scope) : frame := map (fun v => (v_name v, v_used v)) (sc_vars sc).
Definition abs (s : pst) : ctx := map absf (scs s).

Lemma fhas_abs n vs : fhas n (map (fun v => (v_name v, v_used v)) vs) = has_var n vs.
Proof. induction vs as [|v vs IH]; simpl; [reflexivity|]. rewrite IH. reflexivity. Qed.
Lemma fmark_abs n vs : fmark n (map (fun v => (v_name v, v_used v)) vs) = map (fun v => (v_name v, v_used v)) (mark_in n vs).
Proof. induction vs as [|v vs IH]; simpl; [reflexivity|]. destruct (str_eqb (v_name v) n); simpl; [reflexivity|]. rewrite IH. reflexivity. Qed.
Lemma abs_mark_scopes n l : map absf (mark_scopes n l) = cmark n (map absf l).
Proof.
  induction l as [|sc l IH]; simpl; [reflexivity|]. unfold absf at 2. rewrite fhas_abs.
  destruct (has_var n (sc_vars sc)); simpl; [unfold absf; simpl; rewrite fmark_abs; reflexivity|]. rewrite IH. reflexivity.
Qed.
Lemma abs_mark n s : abs (mark n s) = cmark n (abs s).
Proof. unfold abs, mark. simpl. apply abs_mark_scopes. Qed.
Lemma abs_upd f s : abs (upd f s) = abs s. Proof. reflexivity. Qed.
Lemma abs_with_cs s c : abs (with_cs s c) = abs s. Proof. reflexivity. Qed.
Lemma abs_adv s : abs (adv s) = abs s. Proof. reflexivity. Qed.
Lemma abs_apnl s : abs (apnl s) = abs s. Proof. reflexivity. Qed.
Lemma abs_serr_at k n s : abs (serr_at k n s) = abs s. Proof. reflexivity. Qed.
Lemma abs_serr k s : abs (serr k s) = abs s. Proof. reflexivity. Qed.
Lemma abs_assert_eol s : abs (assert_eol s) = abs s. Proof. unfold assert_eol. destruct (is_at_eol _); reflexivity. Qed.
Lemma abs_passert t s : abs (snd (passert t s)) = abs s. Proof. unfold passert. destruct (assert_token t (cs s)); reflexivity. Qed.
Lemma abs_ty_err_here site s : abs (ty_err_here site s) = abs s. Proof. reflexivity. Qed.
Lemma abs_push_scope a b c s : abs (push_scope a b c s) = [] :: abs s. Proof. reflexivity. Qed.
Lemma abs_push_inherit b s : abs (push_inherit b s) = [] :: abs s. Proof. reflexivity. Qed.
Lemma abs_pop_scope s : abs (pop_scope s) = tl (abs s).
Proof. unfold abs, pop_scope. simpl. destruct (scs s); reflexivity. Qed.
Lemma abs_validate_scope s : abs (validate_scope s) = abs s.
Proof. apply (validate_scope_steps (fun x => abs x = abs s)); [intros k n x X; exact X|reflexivity]. Qed.
Lemma abs_finish_end s : abs (finish_end s) = abs s.
Proof. unfold finish_end. rewrite abs_apnl, abs_assert_eol, abs_adv, abs_passert. reflexivity. Qed.
Lemma abs_fold_mark l : forall s0, abs (fold_right mark s0 l) = fold_right cmark (abs s0) l.
Proof. induction l as [|x l IH]; intro s0; simpl; [reflexivity|]. rewrite abs_mark, IH. reflexivity. Qed.
Lemma abs_collect s c : abs (collect s c) = fold_right cmark (abs s) (used c).
Proof. unfold collect. rewrite abs_upd, abs_fold_mark. reflexivity. Qed.

#[local] Hint Rewrite abs_upd abs_with_cs abs_adv abs_apnl abs_serr_at abs_serr abs_assert_eol abs_passert abs_ty_err_here
  abs_push_scope abs_push_inherit abs_pop_scope abs_validate_scope abs_finish_end abs_mark : abs.

Lemma mem_visible n l : mem_str n (visible l) = existsb (fhas n) (map absf l).
Proof.
  unfold visible. induction l as [|sc l IH]; simpl; [reflexivity|].
  assert (H : forall a b, mem_str n (a ++ b) = mem_str n a || mem_str n b).
  { induction a as [|x a IHa]; intro b; simpl; [reflexivity|]. rewrite IHa. apply orb_assoc. }
  rewrite H, IH. f_equal. unfold absf. rewrite fhas_abs.
  induction (sc_vars sc) as [|v vs IHv]; simpl; [reflexivity|]. rewrite IHv. reflexivity.
Qed.
Lemma scope_get_abs n s : scope_get n s = cvisible n (abs s).
Proof.
  unfold scope_get, cvisible, abs. f_equal.
  induction (scs s) as [|sc l IH]; simpl; [reflexivity|]. rewrite IH. unfold absf. rewrite fhas_abs. reflexivity.
Qed.
Lemma vis_cvisible B s n : vis (env_of B s) n -> cvisible n (abs s) = true.
Proof. intros [H1 H2]. unfold cvisible. rewrite H2. simpl in H1. rewrite mem_visible in H1. exact H1. Qed.

Lemma use_vars_collect B s c' vs :
  used c' = rev vs -> Forall (vis (env_of B s)) vs ->
  use_vars vs (abs s) = Some (abs (collect s c')).
Proof.
  intros U F. unfold use_vars.
  assert (FB : forallb (fun n => cvisible n (abs s)) vs = true).
  { apply forallb_forall. intros n Hn. rewrite Forall_forall in F. apply (vis_cvisible B). apply F. exact Hn. }
  rewrite FB, abs_collect, U. f_equal. rewrite <- fold_left_rev_right. reflexivity.
Qed.

Lemma remove_var_fresh n vs : has_var n vs = false -> remove_var n vs = vs.
Proof.
  induction vs as [|v vs IH]; simpl; [reflexivity|]. intro H. apply orb_false_iff in H as [H1 H2].
  rewrite H1, (IH H2). reflexivity.
Qed.
Definition tabs_of (B : benv) (F : list (str * finfo)) : tabs :=
  {| t_globals := b_globals B; t_funcs := map fst F; t_events := map (fun e => (fst e, List.length (snd e))) (b_events B) |}.
Lemma is_func_tabs n s : is_func n s = mem_str n (map fst (fns s)).
Proof.
  unfold is_func. induction (fns s) as [|[m f] l IH]; simpl; [reflexivity|].
  destruct (str_eqb m n); [reflexivity|exact IH].
Qed.
Lemma in_local_abs n s : in_local n s = match abs s with f :: _ => fhas n f | [] => false end.
Proof. unfold in_local, abs. destruct (scs s) as [|sc r]; simpl; [reflexivity|]. unfold absf. rewrite fhas_abs. reflexivity. Qed.

Lemma declare_sim B n p a s :
  fst (validate_var_decl B n p a s) = true -> scs s <> [] ->
  declare (tabs_of B (fns s)) a n (abs s) = Some (abs (scope_set n p s)).
Proof.
  unfold validate_var_decl, declare. intros H NE.
  destruct (abs s) as [|f r] eqn:A.
  { unfold abs in A. destruct (scs s); [contradiction|discriminate A]. }
  rewrite in_local_abs, is_func_tabs, A in H. simpl.
  destruct (mem_str n (b_globals B)); [discriminate H|].
  destruct (fhas n f) eqn:FH; [discriminate H|].
  destruct (mem_str n (map fst (fns s))); [discriminate H|].
  destruct (negb a && str_eqb n (s_ "_"%string)); [discriminate H|]. simpl.
  unfold scope_set. destruct (str_eqb n (s_ "_"%string)); [rewrite A; reflexivity|].
  unfold abs in *. destruct (scs s) as [|sc rs]; [contradiction|]. simpl in *. injection A as Af Ar. subst f r.
  unfold absf at 1. simpl. rewrite remove_var_fresh; [reflexivity|]. unfold absf in FH. rewrite fhas_abs in FH. exact FH.
Qed.

(* ---- the read log is empty between expression calls ---- *)
Definition sused (s : pst) : list str := used (cs s).
Lemma used_apnl_loop : forall f c, used (apnl_loop f c) = used c.
Proof. intros f c. apply (apnl_loop_steps (fun x => used x = used c)); [|reflexivity]. intros x X. rewrite used_advance. exact X. Qed.
Lemma sused_adv s : sused (adv s) = sused s. Proof. unfold sused, adv, upd, with_cs. cbn [cs]. apply used_advance. Qed.
Lemma sused_apnl s : sused (apnl s) = sused s. Proof. unfold sused, apnl, upd, with_cs. cbn [cs]. apply used_apnl_loop. Qed.
Lemma sused_serr_at k n s : sused (serr_at k n s) = sused s. Proof. reflexivity. Qed.
Lemma sused_serr k s : sused (serr k s) = sused s. Proof. reflexivity. Qed.
Lemma sused_assert_eol s : sused (assert_eol s) = sused s. Proof. unfold assert_eol. destruct (is_at_eol _); reflexivity. Qed.
Lemma sused_passert t s : sused (snd (passert t s)) = sused s.
Proof. unfold passert, sused, assert_token. destruct (toktype_beq _ _); reflexivity. Qed.
Lemma sused_with_scs s l : sused (with_scs s l) = sused s. Proof. reflexivity. Qed.
Lemma sused_scope_set n p s : sused (scope_set n p s) = sused s.
Proof. unfold scope_set. destruct (str_eqb _ _); [reflexivity|]. destruct (scs s); reflexivity. Qed.
Lemma sused_mark n s : sused (mark n s) = sused s. Proof. reflexivity. Qed.
Lemma sused_push_scope a b c s : sused (push_scope a b c s) = sused s. Proof. reflexivity. Qed.
Lemma sused_push_inherit b s : sused (push_inherit b s) = sused s. Proof. reflexivity. Qed.
Lemma sused_pop_scope s : sused (pop_scope s) = sused s. Proof. reflexivity. Qed.
Lemma sused_ty_err_here site s : sused (ty_err_here site s) = sused s. Proof. reflexivity. Qed.
Lemma sused_validate_scope s : sused (validate_scope s) = sused s.
Proof. apply (validate_scope_steps (fun x => sused x = sused s)); [intros k n x X; exact X|reflexivity]. Qed.
Lemma sused_validate_var_decl B n p a s : sused (snd (validate_var_decl B n p a s)) = sused s.
Proof. destruct (validate_var_decl_cases B n p a s) as [-> | (k & ->)]; reflexivity. Qed.
Lemma sused_finish_end s : sused (finish_end s) = sused s.
Proof. unfold finish_end. rewrite sused_apnl, sused_assert_eol, sused_adv, sused_passert. reflexivity. Qed.
Lemma sused_collect s c : sused (collect s c) = [].
Proof. reflexivity. Qed.
Lemma sused_upd_err e n s : sused (upd (add_err_at e n) s) = sused s. Proof. reflexivity. Qed.
#[local] Hint Rewrite sused_adv sused_apnl sused_serr_at sused_serr sused_assert_eol sused_passert sused_with_scs sused_scope_set
  sused_mark sused_push_scope sused_push_inherit sused_pop_scope sused_ty_err_here sused_validate_scope sused_validate_var_decl
  sused_finish_end sused_collect sused_upd_err : sused.
#[local] Hint Rewrite serrs_adv serrs_apnl serrs_serr_at serrs_serr serrs_with_scs serrs_scope_set serrs_mark
  serrs_push_scope serrs_push_inherit serrs_pop_scope serrs_ty_err_here serrs_collect : serrs.
#[local] Hint Rewrite fns_upd fns_with_scs fns_with_cs fns_adv fns_apnl fns_serr_at fns_serr fns_assert_eol fns_passert
  fns_scope_set fns_mark fns_push_scope fns_push_inherit fns_pop_scope fns_ty_err_here fns_collect fns_validate_scope
  fns_validate_var_decl fns_finish_end : fns.

Section Calls.
Variable B : benv.

Lemma expr_sok_of s t : tree_ok (env_of B s) t -> expr_sok B (fns s) t.
Proof. intro H. exists (visible (scs s)). exact H. Qed.

(* the reads of an expression call, replayed on the abstract scope chain when the call's cursor is collected *)
Lemma collect_full s c' vs : reads (env_of B s) (cs s) c' vs -> sused s = [] ->
  use_vars vs (abs s) = Some (abs (collect s c')) /\ fns (collect s c') = fns s /\ sused (collect s c') = [].
Proof.
  intros [Ru Rf] U. unfold sused in U. rewrite U, app_nil_r in Ru.
  split; [apply (use_vars_collect B); assumption|]. split; [apply fns_collect|reflexivity].
Qed.

Lemma expr_call_some (f : env -> nat -> pstate -> res (option tree)) s r s' :
  (forall E fu c r c', f E fu c = Some (r, c') -> errs c' = [] -> exists t, r = Some t) ->
  expr_call B f s = Ok r s' -> serrs s' = [] -> exists t, r = Some t.
Proof.
  unfold expr_call. intros Hf H Q. destruct (f _ _ _) as [[a c']|] eqn:P; [|discriminate H].
  apply Ok_inj in H as [<- ->]. rewrite serrs_collect in Q. exact (Hf _ _ _ _ _ P Q).
Qed.
Lemma p_toplevel_some s r s' : p_toplevel B s = Ok r s' -> serrs s' = [] -> exists t, r = Some t.
Proof.
  apply expr_call_some. intros E fu c a c' P Q.
  destruct (toplevel_ok E _ (proj1 (expr_ne E fu)) (proj1 (expr_ok E fu)) _ _ _ _ P Q) as (t & X & _). eauto.
Qed.
Lemma p_index_some left s r s' : p_index B left s = Ok r s' -> serrs s' = [] -> exists t, r = Some t.
Proof.
  apply expr_call_some. intros E fu c a c' P Q.
  destruct (index_or_slice_ok E _ (proj1 (expr_ne E fu)) (proj1 (expr_ok E fu)) _ _ _ _ _ _ P Q) as (t & X & _). eauto.
Qed.
Lemma p_dot_some left s r s' : p_dot B left s = Ok r s' -> serrs s' = [] -> exists t, r = Some t.
Proof. apply expr_call_some. intros E fu c a c' P Q. destruct (dot_ok E _ _ _ _ P Q) as (t & X & _). eauto. Qed.

Lemma p_toplevel_full s t s' : p_toplevel B s = Ok (Some t) s' -> serrs s' = [] -> sused s = [] ->
  tree_ok (env_of B s) t /\ use_vars (tvars t) (abs s) = Some (abs s') /\ fns s' = fns s /\ sused s' = [].
Proof.
  unfold p_toplevel, expr_call. intros H Q U.
  destruct (parse_toplevel _ _ _ _) as [[a c']|] eqn:P; [|discriminate H].
  apply Ok_inj in H as [E1 E2]; subst. rewrite serrs_collect in Q.
  set (E := env_of B s) in *. set (fu := efuel (cs s)) in *.
  destruct (toplevel_ok E (parse_expr E fu) (proj1 (expr_ne E fu)) (proj1 (expr_ok E fu)) fu _ _ _ P Q) as (t' & Et & T & R).
  injection Et as <-. split; [exact T|exact (collect_full _ _ _ R U)].
Qed.

Lemma p_expr_list_full s l s' : p_expr_list B s = Ok (Some l) s' -> serrs s' = [] -> sused s = [] ->
  Forall (tree_ok (env_of B s)) l /\ use_vars (lvars l) (abs s) = Some (abs s') /\ fns s' = fns s /\ sused s' = [].
Proof.
  unfold p_expr_list, expr_call. intros H Q U.
  destruct (parse_expr_list _ _ _ _) as [[a c']|] eqn:P; [|discriminate H].
  apply Ok_inj in H as [E1 E2]; subst. rewrite serrs_collect in Q.
  set (E := env_of B s) in *. set (fu := efuel (cs s)) in *.
  destruct (expr_list_ok E (parse_expr E fu) (proj1 (expr_ne E fu)) (proj1 (expr_ok E fu)) fu _ _ _ _ P Q) as (new & El & T & R).
  injection El as ->. split; [exact T|exact (collect_full _ _ _ R U)].
Qed.

Lemma func_of_env s n fi : lookup_fn n (fns s) = Some fi -> func_of (env_of B s) n = Some (fi_nil fi).
Proof.
  unfold func_of. simpl. induction (fns s) as [|[m f] l IH]; simpl; [discriminate|].
  destruct (str_eqb m n); [intro H; injection H as ->; reflexivity|exact IH].
Qed.

Lemma p_func_call_full nil s t s' : p_func_call B nil s = Ok (Some t) s' -> serrs s' = [] -> sused s = [] ->
  func_of (env_of B s) (tlit (cur (cs s))) = Some nil ->
  tree_ok (env_of B s) t /\ use_vars (tvars t) (abs s) = Some (abs s') /\ fns s' = fns s /\ sused s' = [].
Proof.
  unfold p_func_call, expr_call. intros H Q U Hf.
  destruct (parse_func_call _ _ _ _ _ _) as [[a c']|] eqn:P; [|discriminate H].
  apply Ok_inj in H as [E1 E2]; subst. rewrite serrs_collect in Q.
  set (E := env_of B s) in *. set (fu := efuel (cs s)) in *.
  destruct (func_call_ok E (parse_expr E fu) (proj1 (expr_ne E fu)) (proj1 (expr_ok E fu)) fu _ _ _ _ _ P Q Hf) as (t' & Et & T & R).
  injection Et as <-. split; [exact T|exact (collect_full _ _ _ R U)].
Qed.

(* assignment targets: parseIndexOrSliceExpr(left, allowSlice = false) and parseDotExpr, as deltas *)
Lemma index_noslice_full E fu left c t c' :
  parse_index_or_slice E (parse_expr E fu) fu false left c = Some (Some t, c') -> errs c' = [] -> tree_ok E left ->
  exists i, t = TIndex left i /\ tree_ok E t /\ reads E c c' (tvars i).
Proof.
  unfold parse_index_or_slice, tyerr. intros H Q Hl. cbn [andb] in H.
  destruct (is_ws (prev (push_wss false c))); [discriminate H|].
  destruct (e_tyerr E TS_not_indexable left (here c)) eqn:NI; [discriminate H|].
  destruct (parse_toplevel E (parse_expr E fu) fu _) as [[ix st2]|] eqn:P; [|discriminate H].
  destruct ix as [i|]; [|discriminate H].
  destruct (assert_token T_RBRACKET st2) as [ok st3] eqn:A. destruct ok; [|discriminate H].
  destruct (e_tyerr E TS_index_type _ _) eqn:IT; [discriminate H|].
  unfold ret in H. injection H as ? ?; subst. autorewrite with errs in Q. destruct (assert_token_ne _ _ _ _ A Q) as [_ ->].
  destruct (toplevel_ok E (parse_expr E fu) (proj1 (expr_ne E fu)) (proj1 (expr_ok E fu)) fu _ _ _ P Q) as (i' & Ei & Ti & Ri).
  injection Ei as <-. exists i. split; [reflexivity|]. split.
  - simpl. repeat split; auto; eexists; eassumption.
  - eapply reads_shift; [| |exact Ri]; autorewrite with used; reflexivity.
Qed.

Lemma dot_full E left c t c' :
  parse_dot E left c = Some (Some t, c') -> errs c' = [] -> tree_ok E left ->
  exists k, t = TDot left k /\ tree_ok E t /\ used c' = used c.
Proof.
  unfold parse_dot, tyerr. intros H Q Hl.
  destruct (is_ws (prev c)); [discriminate H|]. destruct (is_ws (look1 (rest c))); [discriminate H|].
  destruct (e_tyerr E TS_dot_not_map left (here c)) eqn:DM; [discriminate H|].
  destruct (ttype (as_ident (cur (advance c)))); unfold ret in H; try discriminate H.
  injection H as ? ?; subst. eexists. split; [reflexivity|]. split; [simpl; split; [exact Hl|eexists; exact DM]|].
  autorewrite with used. reflexivity.
Qed.

Lemma p_index_full left s t s' : p_index B left s = Ok (Some t) s' -> serrs s' = [] -> sused s = [] ->
  tree_ok (env_of B s) left ->
  exists i, t = TIndex left i /\ tree_ok (env_of B s) t /\ use_vars (tvars i) (abs s) = Some (abs s') /\ fns s' = fns s /\ sused s' = [].
Proof.
  unfold p_index, expr_call. intros H Q U Hl.
  destruct (parse_index_or_slice _ _ _ _ _ _) as [[a c']|] eqn:P; [|discriminate H].
  apply Ok_inj in H as [E1 E2]; subst. rewrite serrs_collect in Q.
  destruct (index_noslice_full _ _ _ _ _ _ P Q Hl) as (i & -> & Ht & R).
  exists i. split; [reflexivity|]. split; [exact Ht|exact (collect_full _ _ _ R U)].
Qed.

Lemma p_dot_full left s t s' : p_dot B left s = Ok (Some t) s' -> serrs s' = [] -> sused s = [] ->
  tree_ok (env_of B s) left ->
  exists k, t = TDot left k /\ tree_ok (env_of B s) t /\ abs s' = abs s /\ fns s' = fns s /\ sused s' = [].
Proof.
  unfold p_dot, expr_call. intros H Q U Hl.
  destruct (parse_dot _ _ _) as [[a c']|] eqn:P; [|discriminate H].
  apply Ok_inj in H as [E1 E2]; subst. rewrite serrs_collect in Q.
  destruct (dot_full _ _ _ _ _ P Q Hl) as (k & -> & Ht & Uc).
  exists k. split; [reflexivity|]. split; [exact Ht|].
  split; [rewrite abs_collect, Uc; unfold sused in U; rewrite U; reflexivity|]. split; [apply fns_collect|reflexivity].
Qed.

Lemma p_type_full s a s' : p_type B s = Ok a s' -> sused s = [] -> abs s' = abs s /\ fns s' = fns s /\ sused s' = [].
Proof.
  unfold p_type, expr_call. intros H U.
  destruct (parse_type _ _) as [[x c']|] eqn:P; [|discriminate H].
  apply Ok_inj in H as [E1 E2]; subst.
  split; [rewrite abs_collect, (parse_type_used _ _ _ _ P); unfold sused in U; rewrite U; reflexivity|].
  split; [apply fns_collect|reflexivity].
Qed.

End Calls.

Section StmtSim.
Variable B : benv.

Definition WF (s : pst) : Prop := scs s <> [] /\ sused s = [].

Definition SIM (s : pst) (r : option stmt) (s' : pst) : Prop :=
  serrs s' = [] -> WF s ->
  sused s' = [] /\ fns s' = fns s /\
  match r with
  | Some st => stmt_sok B (fns s) st /\ scope_stmt (tabs_of B (fns s)) st (abs s) = Some (abs s')
  | None => abs s' = abs s
  end.

Lemma scs_of_frames s s' : frames s' = frames s -> scs s <> [] -> scs s' <> [].
Proof. unfold frames. intros H N E. rewrite E in H. destruct (scs s); [contradiction|discriminate H]. Qed.

#[local] Hint Rewrite frames_with_cs frames_upd frames_adv frames_apnl frames_serr_at frames_serr frames_assert_eol
  frames_passert frames_scope_set frames_mark frames_collect frames_push_scope frames_pop_scope frames_ty_err_here
  frames_validate_scope frames_validate_var_decl : frames.

(* normalise abs / fns / sused of a state built with the cursor-level helpers *)
Ltac norm := autorewrite with abs fns sused.

Lemma typed_decl_sim s d s' : parse_typed_decl B s = Ok d s' -> serrs s' = [] -> sused s = [] ->
  abs s' = abs s /\ fns s' = fns s /\ sused s' = [] /\ snd d <> None.
Proof.
  unfold parse_typed_decl. intros H Q U.
  destruct (p_type B (adv (snd (passert T_COLON (adv (snd (passert T_IDENT s))))))) as [t s2| |] eqn:P; try discriminate H.
  destruct (p_type_full B _ _ _ P) as (A & F & U2); [norm; exact U|].
  destruct t; apply Ok_inj in H as [E1 E2]; subst; [|autorewrite with serrs in Q; discriminate Q].
  autorewrite with abs fns in A, F. repeat split; auto. discriminate.
Qed.

Lemma typed_decl_stmt_sim s r s' : parse_typed_decl_stmt B s = Ok r s' -> SIM s r s'.
Proof.
  unfold parse_typed_decl_stmt. intros H Q [N U].
  destruct (parse_typed_decl B s) as [[[name dpos] t] s1| |] eqn:P; try discriminate H.
  apply Ok_inj in H as [E1 E2]; subst. autorewrite with serrs in Q. norm.
  pose proof (typed_decl_sn B _ _ _ P) as N1.
  destruct t as [ty|].
  - destruct (validate_var_decl B name dpos false s1) as [ok s2] eqn:V.
    destruct ok.
    + destruct (assert_eol_ne _ Q) as [E _]. rewrite E in *. autorewrite with serrs in Q. norm.
      destruct (serrs_validate_var_decl _ _ _ _ _ _ _ V Q) as [_ ->].
      destruct (N1 Q) as [Q0 F1].
      destruct (typed_decl_sim _ _ _ P Q U) as (A1 & F & U1 & _).
      split; [exact U1|]. split; [exact F|]. split; [exact I|].
      simpl. rewrite <- A1, <- F. apply declare_sim; [rewrite V; reflexivity|apply (scs_of_frames s); assumption].
    + destruct (serrs_validate_var_decl _ _ _ _ _ _ _ V Q) as [X _]. discriminate X.
  - destruct (typed_decl_sim _ _ _ P Q U) as (_ & _ & _ & X). exfalso. apply X. reflexivity.
Qed.

Lemma inferred_decl_stmt_sim s r s' : parse_inferred_decl_stmt B s = Ok r s' -> SIM s r s'.
Proof.
  unfold parse_inferred_decl_stmt. intros H Q [N U].
  set (s1 := adv (adv (snd (passert T_IDENT s)))) in H.
  destruct (p_toplevel B s1) as [v s2| |] eqn:P; try discriminate H.
  pose proof (p_toplevel_sn B _ _ _ P) as N2.
  destruct v as [t|]; [|apply Ok_inj in H as [E1 E2]; subst; autorewrite with serrs in Q; discriminate Q].
  destruct (tyerr_s B TS_decl_none t (pos s2)) eqn:TE; [apply Ok_inj in H as [E1 E2]; subst; autorewrite with serrs in Q; discriminate Q|].
  destruct (validate_var_decl B _ _ false s2) as [ok s3] eqn:V.
  destruct ok; apply Ok_inj in H as [E1 E2]; subst; autorewrite with serrs in Q; norm.
  - destruct (assert_eol_ne _ Q) as [E _]. rewrite E in *. autorewrite with serrs in Q.
    destruct (serrs_validate_var_decl _ _ _ _ _ _ _ V Q) as [_ ->].
    destruct (N2 Q) as [Q1 F2].
    destruct (p_toplevel_full B _ _ _ P Q) as (Tk & Uv & F & U2); [unfold s1; norm; exact U|].
    assert (A1 : abs s1 = abs s) by (unfold s1; norm; reflexivity).
    assert (F1 : fns s1 = fns s) by (unfold s1; norm; reflexivity).
    split; [exact U2|]. split; [congruence|]. split.
    + split; [rewrite <- F1; apply expr_sok_of; exact Tk|eexists; exact TE].
    + simpl. rewrite <- A1, Uv. simpl. rewrite <- F1, <- F. apply declare_sim; [rewrite V; reflexivity|].
      apply (scs_of_frames s1); [exact F2|]. apply (scs_of_frames s); [unfold s1; autorewrite with frames; reflexivity|exact N].
  - destruct (serrs_validate_var_decl _ _ _ _ _ _ _ V Q) as [X _]. discriminate X.
Qed.

Lemma fhas_fmark m n f : fhas m (fmark n f) = fhas m f.
Proof. induction f as [|x f IH]; simpl; [reflexivity|]. destruct (str_eqb (fst x) n); simpl; [reflexivity|]. rewrite IH. reflexivity. Qed.
Lemma existsb_fhas_cmark m n G : existsb (fhas m) (cmark n G) = existsb (fhas m) G.
Proof.
  induction G as [|f G IH]; simpl; [reflexivity|]. destruct (fhas n f); simpl; [rewrite fhas_fmark; reflexivity|]. rewrite IH. reflexivity.
Qed.
Lemma cvisible_cmark m n G : cvisible m (cmark n G) = cvisible m G.
Proof. unfold cvisible. rewrite existsb_fhas_cmark. reflexivity. Qed.
Lemma cvisible_fold m vs : forall G, cvisible m (fold_left (fun G n => cmark n G) vs G) = cvisible m G.
Proof. induction vs as [|v vs IH]; intro G; simpl; [reflexivity|]. rewrite IH. apply cvisible_cmark. Qed.
Lemma use_vars_app a b G : use_vars (a ++ b) G = obind (use_vars a G) (use_vars b).
Proof.
  unfold use_vars. rewrite forallb_app, fold_left_app.
  destruct (forallb (fun n => cvisible n G) a) eqn:FA; simpl; [|reflexivity].
  assert (E : forallb (fun n => cvisible n (fold_left (fun G n => cmark n G) a G)) b = forallb (fun n => cvisible n G) b).
  { induction b as [|x b IHb]; simpl; [reflexivity|]. rewrite cvisible_fold, IHb. reflexivity. }
  rewrite E. reflexivity.
Qed.
Lemma use_vars_nil G : use_vars [] G = Some G.
Proof. reflexivity. Qed.

Lemma visible_mark_scopes n l : visible (mark_scopes n l) = visible l.
Proof.
  unfold visible. induction l as [|sc l IH]; simpl; [reflexivity|].
  destruct (has_var n (sc_vars sc)); simpl; [|rewrite IH; reflexivity].
  f_equal. induction (sc_vars sc) as [|v vs IHv]; simpl; [reflexivity|].
  destruct (str_eqb (v_name v) n); simpl; [reflexivity|]. rewrite IHv. reflexivity.
Qed.
Lemma env_of_mark n s : env_of B (mark n s) = env_of B s.
Proof. unfold env_of, mark. simpl. rewrite visible_mark_scopes. reflexivity. Qed.
Lemma scs_fold_mark l : forall s0, visible (scs (fold_right mark s0 l)) = visible (scs s0).
Proof. induction l as [|x l IH]; intro s0; simpl; [reflexivity|]. rewrite visible_mark_scopes. apply IH. Qed.
Lemma env_of_collect s c : env_of B (collect s c) = env_of B s.
Proof.
  unfold env_of, collect, upd, with_cs. simpl. rewrite scs_fold_mark, fns_fold_mark. reflexivity.
Qed.
Lemma env_of_cs s f : env_of B (upd f s) = env_of B s. Proof. reflexivity. Qed.

Lemma expr_call_env {A} (f : env -> nat -> pstate -> res A) s a s' : expr_call B f s = Ok a s' -> env_of B s' = env_of B s.
Proof. unfold expr_call. intro H. destruct (f _ _ _) as [[x c]|]; [|discriminate H]. apply Ok_inj in H as [_ ->]. apply env_of_collect. Qed.

Lemma assign_target_loop_sim : forall fuel tok n s t s',
  assign_target_loop B fuel tok n s = Ok (Some t) s' -> serrs s' = [] -> sused s = [] -> tree_ok (env_of B s) n ->
  exists extra, tvars t = tvars n ++ extra /\ use_vars extra (abs s) = Some (abs s') /\
                tree_ok (env_of B s) t /\ fns s' = fns s /\ sused s' = [] /\ env_of B s' = env_of B s.
Proof.
  induction fuel as [|f IH]; intros tok n s t s' H Q U Hn; [discriminate|]. rewrite assign_target_loop_eq in H.
  assert (D : Ok (Some n) s = Ok (Some t) s' -> exists extra, tvars t = tvars n ++ extra /\ use_vars extra (abs s) = Some (abs s') /\
                tree_ok (env_of B s) t /\ fns s' = fns s /\ sused s' = [] /\ env_of B s' = env_of B s).
  { intro E. apply Ok_inj in E as [E1 E2]. injection E1 as <-. subst s'. exists []. rewrite app_nil_r. repeat split; auto. }
  destruct (toktype_beq (ct s) T_LBRACKET); [|destruct (toktype_beq (ct s) T_DOT); [|exact (D H)]].
  - destruct (tyerr_s B _ _ _); [discriminate H|].
    destruct (p_index B n s) as [x s1| |] eqn:P; try discriminate H.
    destruct x as [n'|]; [|discriminate H].
    pose proof (assign_target_loop_sn B _ _ _ _ _ _ H Q) as [Q1 _].
    destruct (p_index_full B _ _ _ _ P Q1 U Hn) as (i & -> & Ht & Uv & F1 & U1).
    pose proof (expr_call_env _ _ _ _ P) as E1.
    destruct (IH _ _ _ _ _ H Q U1) as (extra & Ev & Uv2 & Ht2 & F2 & U2 & E2); [rewrite E1; exact Ht|].
    exists (tvars i ++ extra). simpl in Ev. rewrite Ev, <- app_assoc. split; [reflexivity|].
    rewrite use_vars_app, Uv. simpl. split; [exact Uv2|]. rewrite E1 in Ht2, E2. repeat split; auto; congruence.
  - destruct (p_dot B n s) as [x s1| |] eqn:P; try discriminate H.
    destruct x as [n'|]; [|discriminate H].
    pose proof (assign_target_loop_sn B _ _ _ _ _ _ H Q) as [Q1 _].
    destruct (p_dot_full B _ _ _ _ P Q1 U Hn) as (k & -> & Ht & A1 & F1 & U1).
    pose proof (expr_call_env _ _ _ _ P) as E1.
    destruct (IH _ _ _ _ _ H Q U1) as (extra & Ev & Uv2 & Ht2 & F2 & U2 & E2); [rewrite E1; exact Ht|].
    exists extra. simpl in Ev. split; [exact Ev|]. rewrite <- A1. split; [exact Uv2|]. rewrite E1 in Ht2, E2. repeat split; auto; congruence.
Qed.

Lemma assign_target_loop_some : forall fuel tok n s r s',
  assign_target_loop B fuel tok n s = Ok r s' -> serrs s' = [] -> exists t, r = Some t.
Proof.
  induction fuel as [|f IH]; intros tok n s r s' H Q; [discriminate H|]. rewrite assign_target_loop_eq in H.
  destruct (toktype_beq (ct s) T_LBRACKET); [|destruct (toktype_beq (ct s) T_DOT); [|apply Ok_inj in H as [-> _]; eauto]].
  - destruct (tyerr_s B _ _ _); [apply Ok_inj in H as [_ ->]; autorewrite with serrs in Q; discriminate Q|].
    destruct (p_index B n s) as [x s2| |] eqn:P; try discriminate H.
    destruct x; [exact (IH _ _ _ _ _ H Q)|]. apply Ok_inj in H as [_ ->].
    destruct (p_index_some B _ _ _ _ P Q) as (t & X). discriminate X.
  - destruct (p_dot B n s) as [x s2| |] eqn:P; try discriminate H.
    destruct x; [exact (IH _ _ _ _ _ H Q)|]. apply Ok_inj in H as [_ ->].
    destruct (p_dot_some B _ _ _ _ P Q) as (t & X). discriminate X.
Qed.

Lemma assign_stmt_sim s r s' : parse_assign_stmt B s = Ok r s' -> SIM s r s'.
Proof.
  unfold parse_assign_stmt. intros H Q [N U].
  destruct (is_func _ s); [apply Ok_inj in H as [E1 E2]; subst; autorewrite with serrs in Q; discriminate Q|].
  destruct (parse_assign_target B s) as [tg s1| |] eqn:PT; try discriminate H.
  destruct tg as [target|]; [|apply Ok_inj in H as [E1 E2]; subst; autorewrite with serrs in Q; exfalso].
  2:{ unfold parse_assign_target in PT.
      destruct (str_eqb _ _); [apply Ok_inj in PT as [_ ->]; autorewrite with serrs in Q; discriminate Q|].
      destruct (negb _); [apply Ok_inj in PT as [_ ->]; autorewrite with serrs in Q; discriminate Q|].
      destruct (assign_target_loop_some _ _ _ _ _ _ PT Q) as (t & X). discriminate X. }
  destruct (p_toplevel B (adv (snd (passert T_ASSIGN s1)))) as [v s3| |] eqn:P2; try discriminate H.
  destruct v as [value|]; [|apply Ok_inj in H as [E1 E2]; subst; autorewrite with serrs in Q; exfalso].
  2:{ destruct (p_toplevel_some B _ _ _ P2 Q) as (t & X). discriminate X. }
  apply Ok_inj in H as [E1 E2]; subst. autorewrite with serrs in Q. norm.
  destruct (assert_eol_ne _ Q) as [E _]. rewrite E in *.
  destruct (tyerr_s B TS_assign_type _ _) eqn:TE; [autorewrite with serrs in Q; discriminate Q|].
  pose proof (p_toplevel_sn B _ _ _ P2 Q) as [Q2 _]. autorewrite with serrs in Q2.
  destruct (passert T_ASSIGN s1) as [ok sa] eqn:A. simpl in *.
  destruct (passert_ne _ _ _ _ A Q2) as [_ ->].
  unfold parse_assign_target in PT.
  destruct (str_eqb _ _) eqn:US; [apply Ok_inj in PT as [_ ->]; autorewrite with serrs in Q2; discriminate Q2|].
  destruct (scope_get _ (adv s)) eqn:SG; cbn [negb] in PT; [|apply Ok_inj in PT as [_ ->]; autorewrite with serrs in Q2; discriminate Q2].
  set (name := tlit (cur (cs s))) in *.
  assert (Hn : tree_ok (env_of B (mark name (adv s))) (TVar name)).
  { simpl. rewrite mem_visible. rewrite scope_get_abs in SG. unfold cvisible in SG. apply andb_true_iff in SG as [_ SG].
    change (existsb (fhas name) (abs (mark name (adv s))) = true). rewrite abs_mark, abs_adv, existsb_fhas_cmark. exact SG. }
  destruct (assign_target_loop_sim _ _ _ _ _ _ PT Q2) as (extra & Ev & Uv & Ht & F1 & U1 & E1); [norm; exact U|exact Hn|].
  destruct (p_toplevel_full B _ _ _ P2 Q) as (Tv & Uv2 & F3 & U3); [norm; exact U1|]. autorewrite with abs fns in Uv, Uv2, F1, F3.
  split; [exact U3|]. split; [congruence|]. split.
  - split; [|split].
    + rewrite <- (fns_mark name (adv s)) at 1. apply expr_sok_of. exact Ht.
    + rewrite <- F1. apply expr_sok_of. exact Tv.
    + eexists; exact TE.
  - simpl. rewrite Ev. simpl. rewrite (use_vars_app [name] extra).
    assert (U0 : use_vars [name] (abs s) = Some (cmark name (abs s))).
    { unfold use_vars. simpl. rewrite scope_get_abs, abs_adv in SG. rewrite SG. reflexivity. }
    rewrite U0. simpl. rewrite Uv. simpl. exact Uv2.
Qed.

Lemma call_stmt_sim s r s' : parse_call_stmt B s = Ok r s' -> SIM s r s'.
Proof.
  unfold parse_call_stmt. intros H Q [N U].
  destruct (lookup_fn _ (fns s)) as [fi|] eqn:L; [|discriminate H].
  destruct (p_func_call B (fi_nil fi) s) as [x s1| |] eqn:P; try discriminate H.
  destruct x as [c|]; [|discriminate H].
  apply Ok_inj in H as [E1 E2]; subst. autorewrite with serrs in Q. norm.
  destruct (assert_eol_ne _ Q) as [E _]. rewrite E in *.
  destruct (p_func_call_full B _ _ _ _ P Q U (func_of_env _ _ _ _ L)) as (T & Uv & F & U1).
  split; [exact U1|]. split; [exact F|]. split; [apply expr_sok_of; exact T|exact Uv].
Qed.

Lemma break_stmt_sim s r s' : parse_break_stmt s = Ok r s' -> SIM s r s'.
Proof.
  unfold parse_break_stmt. intros H Q [N U]. apply Ok_inj in H as [E1 E2]; subst. autorewrite with serrs in Q.
  destruct (assert_eol_ne _ Q) as [E _]. rewrite E in *. autorewrite with serrs in Q. norm.
  destruct (in_loop s); [|discriminate Q]. repeat split; auto.
Qed.

Lemma empty_stmt_sim s r s' : parse_empty_stmt s = Ok r s' -> SIM s r s'.
Proof.
  intros H Q [N U]. destruct (empty_stmt_inv _ _ _ H) as [-> [-> | ->]]; norm; repeat split; auto.
Qed.

Lemma return_stmt_sim s r s' : parse_return_stmt B s = Ok r s' -> SIM s r s'.
Proof.
  unfold parse_return_stmt. intros H Q [N U]. cbv zeta in H.
  destruct (is_at_eol (cs (adv s))) eqn:EOL.
  - apply Ok_inj in H as [E1 E2]; subst. autorewrite with serrs in Q. norm.
    destruct (negb (has_ret (adv s))); [discriminate Q|].
    destruct (ret_value (adv s)); [discriminate Q|]. norm. repeat split; auto.
  - destruct (p_toplevel B (adv s)) as [x s2| |] eqn:P; try discriminate H.
    destruct x as [t|]; apply Ok_inj in H as [E1 E2]; subst; autorewrite with serrs in Q.
    + destruct (negb (has_ret (assert_eol s2))); [discriminate Q|].
      destruct (tyerr_s B TS_return_type t _) eqn:TE; [discriminate Q|].
      destruct (assert_eol_ne _ Q) as [E _]. rewrite E in *.
      destruct (p_toplevel_full B _ _ _ P Q) as (T & Uv & F & U1); [norm; exact U|]. autorewrite with abs fns in Uv, F. norm.
      split; [exact U1|]. split; [exact F|]. split; [|exact Uv].
      split; [apply (expr_sok_of B (adv s)); exact T|eexists; exact TE].
    + destruct (negb (has_ret s2)); autorewrite with serrs in Q; discriminate Q.
Qed.

Lemma condition_sim s r s' : parse_condition B s = Ok r s' -> serrs s' = [] -> sused s = [] ->
  exists c, r = Some c /\ expr_sok B (fns s) c /\ silent B TS_condition c /\
            use_vars (tvars c) (abs s) = Some (abs s') /\ fns s' = fns s /\ sused s' = [].
Proof.
  unfold parse_condition. intros H Q U.
  destruct (p_toplevel B s) as [c s1| |] eqn:P; try discriminate H.
  destruct c as [c|]; apply Ok_inj in H as [E1 E2]; subst.
  - destruct (tyerr_s B TS_condition c (pos s)) eqn:TE; [discriminate Q|].
    destruct (assert_eol_ne _ Q) as [E _]. rewrite E in *.
    destruct (p_toplevel_full B _ _ _ P Q U) as (T & Uv & F & U1).
    exists c. split; [reflexivity|]. split; [apply expr_sok_of; exact T|]. split; [eexists; exact TE|]. auto.
  - destruct (p_toplevel_some B _ _ _ P Q) as (t & X). discriminate X.
Qed.

Lemma insert_by_pos_ne v l : insert_by_pos v l <> [].
Proof. destruct l as [|w r]; simpl; [discriminate|]. destruct (Nat.leb _ _); discriminate. Qed.
Lemma validate_close s : serrs (validate_scope s) = [] -> scs s <> [] -> close_scope (abs s) = Some (tl (abs s)).
Proof.
  unfold validate_scope, abs. intros Q N. destruct (scs s) as [|sc r]; [contradiction|]. simpl.
  assert (F : filter (fun v => negb (v_used v)) (sc_vars sc) = []).
  { destruct (filter _ (sc_vars sc)) as [|v l]; [reflexivity|]. exfalso. simpl in Q.
    destruct (insert_by_pos v (sort_by_pos l)) as [|w m] eqn:I; [exact (insert_by_pos_ne _ _ I)|].
    simpl in Q. apply serrs_fold_serr in Q. discriminate Q. }
  assert (A : forallb snd (absf sc) = true).
  { clear Q. unfold absf. induction (sc_vars sc) as [|v l IH]; simpl; [reflexivity|]. simpl in F.
    destruct (v_used v); simpl in *; [apply IH; exact F|discriminate F]. }
  rewrite A. reflexivity.
Qed.

(* ps stands for parseStatement at the fuel left to the callees *)
Variable ps : pst -> PR (option stmt).
Hypothesis HPS : forall s r s', ps s = Ok r s' -> snd_s s r s'.
Hypothesis HSIM : forall s r s', ps s = Ok r s' -> SIM s r s'.

Lemma block_loop_sim : forall fuel els acc terms s b s', block_loop ps fuel els acc terms s = Ok b s' ->
  serrs s' = [] -> WF s ->
  sused s' = [] /\ fns s' = fns s /\
  exists l t, b = Block (rev acc ++ l) t /\ stmts_sok B (fns s) l /\ scope_stmts (tabs_of B (fns s)) l (abs s) = Some (abs s').
Proof.
  induction fuel as [|f IH]; intros els acc terms s b s' H Q W; [discriminate|]. cbn [block_loop] in H.
  destruct (match ct s with T_END | T_EOF => true | T_ELSE => els | _ => false end).
  - apply Ok_inj in H as [E1 E2]; subst. destruct W. split; [assumption|]. split; [reflexivity|].
    exists [], terms. rewrite app_nil_r. split; [reflexivity|]. split; [constructor|reflexivity].
  - destruct (ps s) as [r s1| |] eqn:P; try discriminate H.
    pose proof (HPS _ _ _ P) as S1. pose proof (HSIM _ _ _ P) as M1.
    assert (Q1 : serrs s1 = []).
    { destruct r as [st|]; [destruct (terms && _)|]; pose proof (block_loop_sn ps HPS _ _ _ _ _ _ _ H Q) as [Q1 _];
        [discriminate Q1|exact Q1|exact Q1]. }
    destruct (S1 Q1) as (_ & F1 & _). destruct (M1 Q1 W) as (U1 & Fn1 & M).
    assert (W1 : WF s1) by (split; [eapply scs_of_frames; [exact F1|apply W]|exact U1]).
    destruct r as [st|].
    + destruct (terms && negb (is_empty_stmt st)).
      * pose proof (block_loop_sn ps HPS _ _ _ _ _ _ _ H Q) as [Q2 _]. discriminate Q2.
      * destruct (IH _ _ _ _ _ _ H Q W1) as (U2 & Fn2 & l & t & Eb & Hl & Hs).
        split; [exact U2|]. split; [congruence|]. exists (st :: l), t. simpl in Eb. rewrite <- app_assoc in Eb. split; [exact Eb|].
        destruct M as [Ms Mc]. rewrite Fn1 in *. split; [constructor; assumption|]. simpl. rewrite Mc. simpl. exact Hs.
    + destruct (IH _ _ _ _ _ _ H Q W1) as (U2 & Fn2 & l & t & Eb & Hl & Hs).
      split; [exact U2|]. split; [congruence|]. exists l, t. rewrite Fn1, M in *. auto.
Qed.

Lemma block_with_sim fuel els s b s' : parse_block_with ps fuel els s = Ok b s' -> serrs s' = [] -> WF s ->
  sused s' = [] /\ fns s' = fns s /\ block_sok B (fns s) b /\
  scope_block (tabs_of B (fns s)) b (abs s) = Some (tl (abs s')).
Proof.
  unfold parse_block_with. intros H Q W.
  destruct (block_loop ps fuel els [] false s) as [b1 s1| |] eqn:P; try discriminate H.
  apply Ok_inj in H as [E1 E2]; subst.
  assert (Q1 : serrs s1 = []).
  { apply serrs_validate_scope in Q. destruct b1 as [[|x l] t]; [discriminate Q|exact Q]. }
  destruct (block_loop_sn ps HPS _ _ _ _ _ _ _ P Q1) as [_ F1].
  destruct (block_loop_sim _ _ _ _ _ _ _ P Q1 W) as (U1 & Fn1 & l & t & Eb & Hl & Hs). simpl in Eb. subst b1.
  assert (E : (match Block l t with Block [] _ => serr_at K_empty_block (pos s) s1 | _ => s1 end) = s1).
  { destruct l; [apply serrs_validate_scope in Q; discriminate Q|reflexivity]. }
  rewrite E in *. norm. split; [exact U1|]. split; [exact Fn1|]. split.
  - simpl. apply stmts_sok_fix. exact Hl.
  - rewrite scope_block_eq, Hs. simpl. apply validate_close; [exact Q|]. eapply scs_of_frames; [exact F1|apply W].
Qed.

Definition cb_sok (F : list (str * finfo)) (cb : option tree * block) : Prop :=
  (match fst cb with Some c => expr_sok B F c /\ silent B TS_condition c | None => True end) /\ block_sok B F (snd cb).

Lemma cond_block_sim fuel els s1 c s2 b s3 :
  parse_condition B s1 = Ok c s2 -> parse_block_with ps fuel els (apnl s2) = Ok b s3 ->
  serrs s3 = [] -> scs s1 <> [] -> sused s1 = [] ->
  sused s3 = [] /\ fns s3 = fns s1 /\ cb_sok (fns s1) (c, b) /\
  obind (use_vars (otv' c) (abs s1)) (scope_block (tabs_of B (fns s1)) b) = Some (tl (abs s3)).
Proof.
  intros P PB Q N U.
  destruct (block_with_sound ps HPS _ _ _ _ _ PB Q) as (Qb & _ & _). autorewrite with serrs in Qb.
  destruct (condition_sn B _ _ _ P Qb) as [_ F2].
  destruct (condition_sim _ _ _ P Qb U) as (c0 & -> & Tc & Sc & Uc & Fc & U2).
  destruct (block_with_sim _ _ _ _ _ PB Q) as (U3 & Fn3 & Tb & Sb).
  { split; [|norm; exact U2]. eapply (scs_of_frames s1); [autorewrite with frames; exact F2|exact N]. }
  autorewrite with abs fns in Sb, Tb, Fn3. rewrite Fc in *.
  split; [exact U3|]. split; [exact Fn3|]. split; [split; [split|]; assumption|].
  simpl. rewrite Uc. exact Sb.
Qed.

Lemma while_stmt_sim fuel s r s' : parse_while_stmt B ps fuel s = Ok r s' -> SIM s r s'.
Proof.
  unfold parse_while_stmt. intros H Q [N U]. cbv zeta in H.
  destruct (parse_condition B (push_inherit true (adv s))) as [c s2| |] eqn:P; try discriminate H.
  destruct (parse_block_with ps fuel false (apnl s2)) as [b s3| |] eqn:PB; try discriminate H.
  apply Ok_inj in H as [E1 E2]; subst. autorewrite with serrs in Q. norm.
  destruct (SN_finish_end s3 Q) as [Q3 _].
  destruct (cond_block_sim _ _ _ _ _ _ _ P PB Q3) as (U3 & Fn3 & Tc & Sb); [discriminate|norm; exact U|].
  autorewrite with abs fns in Fn3, Tc, Sb. auto.
Qed.

Lemma brs_sok_fix F l :
  (fix all (l : list (option tree * block)) : Prop :=
     match l with
     | [] => True
     | cb :: r => (match fst cb with Some c => expr_sok B F c /\ silent B TS_condition c | None => True end) /\
                  block_sok B F (snd cb) /\ all r
     end) l <-> Forall (cb_sok F) l.
Proof.
  induction l as [|x l IH]; simpl; [split; [constructor|auto]|].
  split; [intros (H1 & H2 & H3); constructor; [split; assumption|apply IH; exact H3]|].
  intro H. destruct (Forall_inv H) as [H1 H2]. split; [exact H1|]. split; [exact H2|]. apply IH. exact (Forall_inv_tail H).
Qed.
Fixpoint scope_brs (T : tabs) (l : list (option tree * block)) (G : ctx) : option ctx :=
  match l with
  | [] => Some G
  | cb :: r => obind (obind (use_vars (otv' (fst cb)) ([] :: G)) (scope_block T (snd cb))) (scope_brs T r)
  end.
Lemma scope_if_eq T brs els G :
  scope_stmt T (SIf brs els) G =
  obind (scope_brs T brs G) (fun G1 => match els with Some e => scope_block T e ([] :: G1) | None => Some G1 end).
Proof.
  simpl. f_equal. revert G. induction brs as [|cb r IH]; intro G; simpl; [reflexivity|].
  destruct (obind (use_vars (otv' (fst cb)) ([] :: G)) _); simpl; [apply IH|reflexivity].
Qed.
Lemma scope_brs_app T a b G : scope_brs T (a ++ b) G = obind (scope_brs T a G) (scope_brs T b).
Proof.
  revert G. induction a as [|x a IH]; intro G; simpl; [reflexivity|].
  destruct (obind (use_vars (otv' (fst x)) ([] :: G)) _); simpl; [apply IH|reflexivity].
Qed.

Lemma if_cond_block_sim fuel s cb s' : parse_if_cond_block B ps fuel s = Ok cb s' -> serrs s' = [] -> WF s ->
  sused s' = [] /\ fns s' = fns s /\ cb_sok (fns s) cb /\ scope_brs (tabs_of B (fns s)) [cb] (abs s) = Some (abs s').
Proof.
  unfold parse_if_cond_block. intros H Q [N U]. cbv zeta in H.
  destruct (parse_condition B (adv (push_inherit false s))) as [c s2| |] eqn:P; try discriminate H.
  destruct (parse_block_with ps fuel true (apnl s2)) as [b s3| |] eqn:PB; try discriminate H.
  apply Ok_inj in H as [E1 E2]; subst. autorewrite with serrs in Q. norm.
  destruct (cond_block_sim _ _ _ _ _ _ _ P PB Q) as (U3 & Fn3 & Tc & Sb); [discriminate|norm; exact U|].
  autorewrite with abs fns in Fn3, Tc, Sb.
  split; [exact U3|]. split; [exact Fn3|]. split; [exact Tc|]. cbn [scope_brs fst snd]. rewrite Sb. reflexivity.
Qed.

Lemma else_if_loop_sim : forall fuel bfuel acc s r s', else_if_loop B ps fuel bfuel acc s = Ok r s' ->
  serrs s' = [] -> WF s ->
  sused s' = [] /\ fns s' = fns s /\
  exists l, r = rev acc ++ l /\ Forall (cb_sok (fns s)) l /\ scope_brs (tabs_of B (fns s)) l (abs s) = Some (abs s').
Proof.
  induction fuel as [|f IH]; intros bfuel acc s r s' H Q W; [discriminate|]. rewrite else_if_loop_eq in H.
  assert (D : Ok (rev acc) s = Ok r s' -> sused s' = [] /\ fns s' = fns s /\
    exists l, r = rev acc ++ l /\ Forall (cb_sok (fns s)) l /\ scope_brs (tabs_of B (fns s)) l (abs s) = Some (abs s')).
  { intro E. apply Ok_inj in E as [E1 E2]; subst. destruct W. split; [assumption|]. split; [reflexivity|].
    exists []. rewrite app_nil_r. split; [reflexivity|]. split; [constructor|reflexivity]. }
  destruct (_ && _); [|exact (D H)].
  destruct (parse_if_cond_block B ps bfuel (adv s)) as [cb s1| |] eqn:P; try discriminate H.
  destruct (else_if_loop_sn B ps HPS _ _ _ _ _ _ H Q) as [Q1 _].
  destruct (if_cond_block_sound B ps HPS _ _ _ _ P Q1) as (_ & F0 & _). autorewrite with frames in F0.
  destruct (if_cond_block_sim _ _ _ _ P Q1) as (U1 & Fn1 & Tc & Sc); [destruct W; split; norm; assumption|]. autorewrite with abs fns in Sc, Tc, Fn1.
  destruct (IH _ _ _ _ _ H Q) as (U2 & Fn2 & l & El & Tl & Sl); [split; [eapply scs_of_frames; [exact F0|apply W]|exact U1]|].
  split; [exact U2|]. split; [congruence|]. exists (cb :: l). simpl in El. rewrite <- app_assoc in El. split; [exact El|].
  rewrite Fn1 in *. split; [constructor; assumption|].
  change (cb :: l) with ([cb] ++ l). rewrite scope_brs_app, Sc. simpl. exact Sl.
Qed.

Lemma if_stmt_sim fuel s r s' : parse_if_stmt B ps fuel s = Ok r s' -> SIM s r s'.
Proof.
  unfold parse_if_stmt. intros H Q W.
  destruct (parse_if_cond_block B ps fuel s) as [cb s1| |] eqn:P1; try discriminate H.
  destruct (else_if_loop B ps (S (pos s1)) fuel [cb] s1) as [brs s2| |] eqn:P2; try discriminate H.
  assert (D : forall els s3, Ok (Some (SIf brs els)) (finish_end s3) = Ok r s' ->
              SN s2 s3 ->
              (serrs s3 = [] -> WF s2 -> sused s3 = [] /\ fns s3 = fns s2 /\
                 match els with
                 | Some e => block_sok B (fns s2) e /\ scope_block (tabs_of B (fns s2)) e ([] :: abs s2) = Some (abs s3)
                 | None => abs s3 = abs s2
                 end) ->
              sused s' = [] /\ fns s' = fns s /\
              match r with
              | Some st => stmt_sok B (fns s) st /\ scope_stmt (tabs_of B (fns s)) st (abs s) = Some (abs s')
              | None => abs s' = abs s
              end).
  { intros els s3 E N3 G3. apply Ok_inj in E as [E1 E2]; subst. norm.
    destruct (SN_finish_end s3 Q) as [Q3 F3]. destruct (N3 Q3) as [Q2 F32].
    destruct (else_if_loop_sn B ps HPS _ _ _ _ _ _ P2 Q2) as [Q1 F21].
    destruct (if_cond_block_sound B ps HPS _ _ _ _ P1 Q1) as (Q0 & F10 & _).
    destruct (if_cond_block_sim _ _ _ _ P1 Q1 W) as (U1 & Fn1 & Tc & Sc).
    assert (W1 : WF s1) by (split; [eapply scs_of_frames; [exact F10|apply W]|exact U1]).
    destruct (else_if_loop_sim _ _ _ _ _ _ P2 Q2 W1) as (U2 & Fn2 & l & El & Tl & Sl). simpl in El. subst brs.
    assert (W2 : WF s2) by (split; [eapply scs_of_frames; [exact F21|apply W1]|exact U2]).
    destruct (G3 Q3 W2) as (U3 & Fn3 & Ge). rewrite Fn2, Fn1 in *.
    split; [exact U3|]. split; [congruence|]. split.
    - simpl. split; [split; [apply Tc|split; [apply Tc|apply brs_sok_fix; exact Tl]]|]. destruct els; [apply Ge|exact I].
    - rewrite scope_if_eq. change (cb :: l) with ([cb] ++ l). rewrite scope_brs_app, Sc. simpl. rewrite Sl. simpl.
      destruct els; [apply Ge|rewrite Ge; reflexivity]. }
  destruct (ct s2) eqn:T; try (apply (D None s2 H); [apply SN_refl|intros _ [_ U2]; auto]).
  cbv zeta in H.
  destruct (parse_block_with ps fuel false (push_inherit false (apnl (assert_eol (adv s2))))) as [b s4| |] eqn:PB; try discriminate H.
  apply (D (Some b) (pop_scope s4) H).
  - intro Q4. autorewrite with serrs in Q4. destruct (block_with_sound ps HPS _ _ _ _ _ PB Q4) as (Qb & Fb & _).
    autorewrite with serrs in Qb. destruct (SN_assert_eol _ Qb) as [Qa _]. autorewrite with serrs in Qa.
    split; [exact Qa|]. autorewrite with frames. rewrite Fb. rewrite frames_push_inherit. simpl. autorewrite with frames. reflexivity.
  - intros Q4 [N2 U2]. autorewrite with serrs in Q4.
    destruct (block_with_sim _ _ _ _ _ PB Q4) as (U3 & Fn3 & Tb & Sb); [split; [discriminate|norm; exact U2]|].
    autorewrite with abs fns in Sb, Tb, Fn3. norm. auto.
Qed.

Lemma nodes_sok_fix F l :
  (fix all (l : list tree) : Prop := match l with [] => True | x :: r => expr_sok B F x /\ all r end) l <-> Forall (expr_sok B F) l.
Proof. apply all_fix. Qed.

Lemma scope_for_eq T v nodes b G :
  scope_stmt T (SFor v nodes b) G =
  obind (match v with Some n => declare T false n ([] :: G) | None => Some ([] :: G) end)
        (fun G1 => obind (use_vars (lvars nodes) G1) (scope_block T b)).
Proof. reflexivity. Qed.

Lemma for_loop_var_sim s1 (G : ctx) : abs s1 = [] :: G -> serrs (snd (for_loop_var B s1)) = [] ->
  fst (for_loop_var B s1) <> None /\ frames (snd (for_loop_var B s1)) = frames s1 /\
  fns (snd (for_loop_var B s1)) = fns s1 /\ sused (snd (for_loop_var B s1)) = sused s1 /\
  forall v, fst (for_loop_var B s1) = Some v ->
    match v with Some n => declare (tabs_of B (fns s1)) false n ([] :: G) | None => Some ([] :: G) end
    = Some (abs (snd (for_loop_var B s1))).
Proof.
  intro A1. unfold for_loop_var. destruct (toktype_beq (ct s1) T_IDENT); cbn [fst snd].
  2:{ intro Q0. split; [discriminate|]. repeat (split; [reflexivity|]). intros v Ev. injection Ev as <-. rewrite A1. reflexivity. }
  destruct (validate_var_decl B _ _ false s1) as [ok s2] eqn:V.
  destruct ok; cbn [fst snd]; intro Q0.
  - autorewrite with serrs in Q0.
    destruct (SN_passert T_DECLARE (adv (scope_set (tlit (cur (cs s1))) (pos s1) s2)) Q0) as [Q3 _]. autorewrite with serrs in Q3.
    destruct (serrs_validate_var_decl _ _ _ _ _ _ _ V Q3) as [_ E2]. subst s2.
    split; [discriminate|]. split; [autorewrite with frames; reflexivity|]. split; [norm; reflexivity|]. split; [norm; reflexivity|].
    intros v Ev. injection Ev as <-.
    pose proof (declare_sim B (tlit (cur (cs s1))) (pos s1) false s1) as D. rewrite V, A1 in D. norm. apply D; [reflexivity|].
    intro X. unfold abs in A1. rewrite X in A1. discriminate A1.
  - destruct (serrs_validate_var_decl _ _ _ _ _ _ _ V Q0) as [E _]. discriminate E.
Qed.

Lemma for_stmt_sim fuel s r s' : parse_for_stmt B ps fuel s = Ok r s' -> SIM s r s'.
Proof.
  rewrite parse_for_stmt_eq. intros H Q [N U]. cbv zeta in H.
  set (s1 := adv (push_inherit true s)) in H.
  assert (U1 : sused s1 = []) by (unfold s1; norm; exact U).
  assert (N1 : scs s1 <> []) by (unfold s1; simpl; discriminate).
  pose proof (for_loop_var_sim s1 (abs s) eq_refl) as NL. rewrite U1 in NL. change (fns s1) with (fns s) in NL.
  destruct (for_loop_var B s1) as [[v|] s4]; cbn [fst snd] in NL.
  2:{ apply Ok_inj in H as [E1 E2]; subst. autorewrite with serrs in Q. destruct (NL Q) as (X & _). contradiction. }
  destruct (passert T_RANGE s4) as [ok s5] eqn:A.
  destruct ok; cbn [negb] in H.
  2:{ apply Ok_inj in H as [E1 E2]; subst. autorewrite with serrs in Q. destruct (passert_ne _ _ _ _ A Q) as [E _]. discriminate E. }
  destruct (p_expr_list B (adv s5)) as [ns s7| |] eqn:P; try discriminate H.
  destruct ns as [nodes|]; [|apply Ok_inj in H as [E1 E2]; subst; autorewrite with serrs in Q; discriminate Q].
  destruct nodes as [|n more] eqn:EN; [apply Ok_inj in H as [E1 E2]; subst; autorewrite with serrs in Q; discriminate Q|]. rewrite <- EN in *.
  destruct (_ && _); [apply Ok_inj in H as [E1 E2]; subst; autorewrite with serrs in Q; discriminate Q|].
  match type of H with context[parse_block_with ps fuel false ?x] => set (sb := x) in H end.
  destruct (parse_block_with ps fuel false sb) as [b s10| |] eqn:PB; try discriminate H.
  apply Ok_inj in H as [E1 E2]; subst r s'. autorewrite with serrs in Q. norm.
  destruct (SN_finish_end s10 Q) as [Q10 F10].
  destruct (block_with_sound ps HPS _ _ _ _ _ PB Q10) as (Qb & Fb & _).
  assert (Qs8 : serrs (assert_eol s7) = [] /\ sb = apnl (assert_eol s7) /\
                tyerr_s B TS_for_range_type (TCall [] nodes) (pos (assert_eol s7)) = false).
  { unfold sb in Qb |- *. autorewrite with serrs in Qb. destruct (tyerr_s B _ _ _); [discriminate Qb|]. auto. }
  destruct Qs8 as (Q8 & Esb & TE). destruct (assert_eol_ne _ Q8) as [E8 _]. rewrite E8 in *.
  destruct (p_expr_list_sn B _ _ _ P Q8) as [Q6 F7]. autorewrite with serrs in Q6.
  destruct (passert_ne _ _ _ _ A Q6) as [_ E5]. subst s5. destruct (NL Q6) as (_ & F4 & Fn4 & U4 & D4).
  specialize (D4 v eq_refl).
  destruct (p_expr_list_full B _ _ _ P Q8) as (Tn & Un & Fn7 & U7); [norm; exact U4|]. autorewrite with abs fns in Un, Fn7.
  destruct (block_with_sim _ _ _ _ _ PB Q10) as (U10 & Fn10 & Tb & Sb).
  { rewrite Esb. split; [|norm; exact U7]. change (scs (apnl s7)) with (scs s7).
    eapply (scs_of_frames s1); [|exact N1]. rewrite F7. autorewrite with frames. exact F4. }
  rewrite Esb in *. autorewrite with abs fns in Sb, Tb, Fn10. rewrite Fn7, Fn4 in *.
  split; [exact U10|]. split; [exact Fn10|]. split.
  - simpl. split; [|split; [eexists; exact TE|exact Tb]]. apply nodes_sok_fix.
    rewrite Forall_forall in Tn |- *. intros x Hx. rewrite <- Fn4. apply (expr_sok_of B (adv s4)). apply Tn. exact Hx.
  - rewrite scope_for_eq, D4. cbn [obind]. rewrite Un. cbn [obind]. exact Sb.
Qed.

Lemma sim_none s s' : (serrs s' = [] -> False) -> SIM s None s'.
Proof. intros X Q. destruct (X Q). Qed.

Lemma statement_body_sim fuel s r s' : parse_statement_body B ps fuel s = Ok r s' -> SIM s r s'.
Proof.
  assert (ER : forall k, Ok None (apnl (serr k s)) = Ok r s' -> SIM s r s')
    by (intros k H; apply Ok_inj in H as [E1 E2]; subst; apply sim_none; intro Q; autorewrite with serrs in Q; discriminate Q).
  apply statement_body_cases.
  - intros _ H. apply Ok_inj in H as [E1 E2]; subst. intros Q [N U]. autorewrite with serrs in Q. norm. auto.
  - intros _. apply empty_stmt_sim.
  - intros _. apply assign_stmt_sim.
  - intros _. apply typed_decl_stmt_sim.
  - intros _. apply inferred_decl_stmt_sim.
  - intros _ _. apply call_stmt_sim.
  - intros _ _. apply ER.
  - intros _. apply return_stmt_sim.
  - intros _. apply break_stmt_sim.
  - intros _. apply for_stmt_sim.
  - intros _. apply while_stmt_sim.
  - intros _. apply if_stmt_sim.
  - intros _. apply ER.
Qed.

End StmtSim.

Section ProgramSim.
Variable B : benv.

Theorem stmt_sim : forall fuel s r s', parse_statement B fuel s = Ok r s' -> SIM B s r s'.
Proof.
  induction fuel as [|f IH]; intros s r s' H; [discriminate|]. cbn [parse_statement] in H.
  apply (statement_body_sim B (parse_statement B f) (stmt_sound B f) IH) in H. exact H.
Qed.

Lemma parse_block_sim fuel s b s' : parse_block B fuel s = Ok b s' -> serrs s' = [] -> WF s ->
  sused s' = [] /\ fns s' = fns s /\ block_sok B (fns s) b /\
  scope_block (tabs_of B (fns s)) b (abs s) = Some (tl (abs s')).
Proof. unfold parse_block. apply block_with_sim; [apply stmt_sound|apply stmt_sim]. Qed.

Lemma abs_rec s b h : abs {| cs := cs s; scs := scs s; fns := fns s; bodies := b; hds := h |} = abs s. Proof. reflexivity. Qed.
Lemma fns_rec s b h : fns {| cs := cs s; scs := scs s; fns := fns s; bodies := b; hds := h |} = fns s. Proof. reflexivity. Qed.
Lemma sused_rec s b h : sused {| cs := cs s; scs := scs s; fns := fns s; bodies := b; hds := h |} = sused s. Proof. reflexivity. Qed.
Lemma serrs_rec s b h : serrs {| cs := cs s; scs := scs s; fns := fns s; bodies := b; hds := h |} = serrs s. Proof. reflexivity. Qed.
Lemma frames_rec s b h : frames {| cs := cs s; scs := scs s; fns := fns s; bodies := b; hds := h |} = frames s. Proof. reflexivity. Qed.

Lemma add_params_sim : forall l s, serrs (add_params B l s) = [] -> scs s <> [] ->
  declare_all (tabs_of B (fns s)) (map fst l) (abs s) = Some (abs (add_params B l s)) /\
  fns (add_params B l s) = fns s /\ sused (add_params B l s) = sused s.
Proof.
  induction l as [|[n p] l IH]; intros s Q N; [simpl; auto|].
  change (add_params B ((n, p) :: l) s) with (add_params B l (scope_set n p (snd (validate_var_decl B n p true s)))) in *.
  destruct (add_params_sn B l _ Q) as [Q1 _]. autorewrite with serrs in Q1.
  destruct (validate_var_decl B n p true s) as [ok s2] eqn:V. cbn [snd] in *.
  destruct (serrs_validate_var_decl _ _ _ _ _ _ _ V Q1) as [E1 E2]. subst ok s2.
  pose proof (declare_sim B n p true s) as D. rewrite V in D. specialize (D eq_refl N).
  destruct (IH _ Q) as (D2 & F2 & U2); [eapply scs_of_frames; [apply frames_scope_set|exact N]|].
  autorewrite with fns sused in *. cbn [map fst declare_all]. rewrite D. auto.
Qed.

Lemma add_event_params_sim : forall ps ex s, List.length ps = List.length ex ->
  serrs (add_event_params B ps ex s) = [] -> scs s <> [] ->
  declare_all (tabs_of B (fns s)) (map (fun d => fst (fst d)) ps) (abs s) = Some (abs (add_event_params B ps ex s)) /\
  fns (add_event_params B ps ex s) = fns s /\ sused (add_event_params B ps ex s) = sused s.
Proof.
  induction ps as [|[[n p] t] ps IH]; intros ex s L Q N; [simpl; auto|].
  destruct ex as [|e ex]; [discriminate L|]. injection L as L. cbn [add_event_params] in *.
  match type of Q with serrs (add_event_params B ps ex (scope_set n p ?x)) = [] => set (s2 := x) in * end.
  destruct (add_event_params_sn B ps ex _ Q) as [Q1 _]. autorewrite with serrs in Q1.
  destruct (validate_var_decl B n p true s) as [ok s1] eqn:V. cbn [snd] in *.
  assert (E : s2 = s1 /\ serrs s1 = []).
  { unfold s2 in *. destruct t as [t'|]; [destruct (ty_eqb t' e); [auto|discriminate Q1]|auto]. }
  destruct E as [E Q0]. rewrite E in *. clear E s2.
  destruct (serrs_validate_var_decl _ _ _ _ _ _ _ V Q0) as [E1 E2]. subst ok s1.
  pose proof (declare_sim B n p true s) as D. rewrite V in D. specialize (D eq_refl N).
  destruct (IH _ _ L Q) as (D2 & F2 & U2); [eapply scs_of_frames; [apply frames_scope_set|exact N]|].
  autorewrite with fns sused in *. cbn [map fst declare_all]. rewrite D. auto.
Qed.

Lemma on_params_loop_sim : forall fuel acc s r s', on_params_loop B fuel acc s = Ok r s' -> serrs s' = [] -> sused s = [] ->
  abs s' = abs s /\ fns s' = fns s /\ sused s' = [].
Proof.
  induction fuel as [|f IH]; intros acc s r s' H Q U; [discriminate|]. cbn [on_params_loop] in H.
  destruct (is_at_eol (cs s)); [apply Ok_inj in H as [E1 E2]; subst; auto|].
  destruct (parse_typed_decl B (snd (passert T_IDENT s))) as [d s1| |] eqn:P; try discriminate H.
  destruct (on_params_loop_sn B _ _ _ _ _ H Q) as [Q1 _].
  destruct (typed_decl_sim B _ _ _ P Q1) as (A1 & F1 & U1 & _); [autorewrite with sused; exact U|].
  destruct (IH _ _ _ _ H Q U1) as (A2 & F2 & U2). autorewrite with abs fns in *. split; [congruence|]. split; [congruence|exact U2].
Qed.

Lemma lookup_evn_of n evs ex : lookup_ev n evs = Some ex ->
  lookup_evn n (map (fun e => (fst e, List.length (snd e))) evs) = Some (List.length ex).
Proof.
  induction evs as [|[m x] l IH]; simpl; [discriminate|].
  destruct (str_eqb m n); [intro H; injection H as ->; reflexivity|exact IH].
Qed.

(* parseFunc.  A nil result without an error: the token after `func` is not an identifier (Go: "already reported by
   parseFuncSignatures"; the body has been parsed in a scope of its own and is dropped) *)
Lemma func_sim' fuel s r s' : parse_func B fuel s = Ok r s' -> serrs s' = [] -> WF s ->
  sused s' = [] /\ fns s' = fns s /\
  match r with
  | Some st => stmt_sok B (fns s) st /\ scope_stmt (tabs_of B (fns s)) st (abs s) = Some (abs s')
  | None => ct (adv s) <> T_IDENT
  end.
Proof.
  rewrite parse_func_eq. unfold func_body_state, func_finish. intros H Q [N U]. cbv zeta in H.
  set (fi := func_info s) in *. set (isid := toktype_beq (ct (adv s)) T_IDENT) in *.
  match type of H with context[parse_block B fuel ?x] => set (s3 := x) in H end.
  destruct (parse_block B fuel s3) as [b s4| |] eqn:PB; try discriminate H.
  assert (COMMON : serrs s4 = [] -> sused s4 = [] /\ fns s4 = fns s /\ block_sok B (fns s) b /\
            obind (declare_all (tabs_of B (fns s)) (map fst (fi_params fi)) ([] :: abs s)) (scope_block (tabs_of B (fns s)) b)
            = Some (tl (abs s4))).
  { intro Q5. destruct (parse_block_sound B _ _ _ _ PB Q5) as (Q3 & _ & _).
    set (s2 := push_scope true (fi_ret fi) false (apnl (adv s))) in *.
    assert (N2 : scs s2 <> []) by (unfold s2; simpl; discriminate).
    destruct (add_params_sim (fi_params fi) s2 Q3 N2) as (D3 & F3 & U3).
    assert (W3 : WF s3).
    { split; [|unfold s3; rewrite U3; unfold s2; autorewrite with sused; exact U].
      eapply (scs_of_frames s2); [|exact N2]. destruct (add_params_sn B (fi_params fi) s2 Q3) as [_ F]. exact F. }
    destruct (parse_block_sim _ _ _ _ PB Q5 W3) as (U4 & F4 & Tb & Sb).
    unfold s3 in F4, Tb, Sb. rewrite F3 in F4, Tb, Sb. unfold s2 in F4, Tb, Sb, D3. autorewrite with fns abs in F4, Tb, Sb, D3.
    split; [exact U4|]. split; [exact F4|]. split; [exact Tb|]. rewrite D3. exact Sb. }
  destruct isid eqn:ID; cbn [negb] in H.
  2:{ apply Ok_inj in H as [E1 E2]; subst. autorewrite with serrs in Q. destruct (COMMON Q) as (U4 & F4 & _).
      autorewrite with sused fns. split; [exact U4|]. split; [exact F4|].
      intro X. unfold isid in ID. rewrite X in ID. discriminate ID. }
  destruct (mem_str _ _); [apply Ok_inj in H as [E1 E2]; subst; autorewrite with serrs in Q; discriminate Q|].
  apply Ok_inj in H as [E1 E2]; subst r s'.
  rewrite serrs_pop_scope, serrs_rec in Q.
  destruct (SN_finish_end _ Q) as [Q5 _].
  destruct (fi_ret fi && negb (block_terms b)) eqn:MR; [discriminate Q5|].
  destruct (COMMON Q5) as (U4 & F4 & Tb & Sb).
  rewrite sused_pop_scope, fns_pop_scope, abs_pop_scope, sused_rec, fns_rec, abs_rec.
  autorewrite with sused fns abs.
  split; [exact U4|]. split; [exact F4|]. split; [exact Tb|]. exact Sb.
Qed.

Lemma scope_on_eq T name params b G :
  scope_stmt T (SOn name params b) G =
  match lookup_evn name (t_events T) with
  | None => None
  | Some k =>
      match params with
      | [] => scope_block T b ([] :: G)
      | _ => if Nat.eqb (List.length params) k then obind (declare_all T params ([] :: G)) (scope_block T b) else None
      end
  end.
Proof. reflexivity. Qed.

Lemma event_handler_sim fuel s r s' : parse_event_handler B fuel s = Ok r s' -> SIM B s r s'.
Proof.
  unfold parse_event_handler. intros H Q [N U]. cbv zeta in H.
  destruct (passert T_IDENT (adv s)) as [ok s2] eqn:A.
  destruct ok; cbn [negb] in H.
  2:{ apply Ok_inj in H as [E1 E2]; subst. autorewrite with serrs in Q. destruct (passert_ne _ _ _ _ A Q) as [E _]. discriminate E. }
  match type of H with context[on_params_loop B _ [] (adv ?x)] => set (s3 := x) in H end.
  destruct (on_params_loop B (S (pos s3)) [] (adv s3)) as [params s4| |] eqn:PL; try discriminate H.
  match type of H with context[parse_block B fuel ?x] => set (s6 := x) in H end.
  destruct (parse_block B fuel s6) as [b s7| |] eqn:PB; try discriminate H.
  apply Ok_inj in H as [E1 E2]; subst r s'. autorewrite with serrs in Q.
  destruct (SN_finish_end s7 Q) as [Q7 _].
  destruct (parse_block_sound B _ _ _ _ PB Q7) as (Q6 & _ & _).
  set (s5 := push_scope true false false (apnl s4)) in *.
  assert (N5 : scs s5 <> []) by (unfold s5; simpl; discriminate).
  set (name := tlit (cur (cs s2))) in *.
  set (pnames := map (fun d : str * nat * option ty => fst (fst d)) params) in *.
  assert (P6 : serrs s5 = [] /\ frames s6 = frames s5 /\ fns s6 = fns s5 /\ sused s6 = sused s5 /\
               forall ex, lookup_ev name (b_events B) = Some ex ->
                 match pnames with
                 | [] => Some ([] :: abs s4)
                 | _ => if Nat.eqb (List.length pnames) (List.length ex)
                        then declare_all (tabs_of B (fns s4)) pnames ([] :: abs s4) else None
                 end = Some (abs s6)).
  { unfold s6, pnames. destruct params as [|d ds].
    { split; [exact Q6|]. repeat (split; [reflexivity|]). intros ex _. reflexivity. }
    destruct (lookup_ev name (b_events B)) as [ex|] eqn:EV.
    2:{ split; [exact Q6|]. repeat (split; [reflexivity|]). intros ex X; discriminate X. }
    unfold s6 in Q6.
    destruct (add_event_params_sn B (d :: ds) ex _ Q6) as [Q5 F5].
    rewrite map_length.
    destruct (Nat.eqb (List.length (d :: ds)) (List.length ex)) eqn:LE; [|discriminate Q5].
    apply Nat.eqb_eq in LE.
    destruct (add_event_params_sim (d :: ds) ex s5 LE Q6 N5) as (D & F & U6).
    split; [exact Q5|]. split; [exact F5|]. split; [exact F|]. split; [exact U6|].
    intros ex' X. injection X as <-. cbn [map]. rewrite (proj2 (Nat.eqb_eq _ _) LE). exact D. }
  destruct P6 as (Q5 & F65 & Fn65 & U65 & D6). unfold s5 in Q5. autorewrite with serrs in Q5.
  destruct (on_params_loop_sn B _ _ _ _ _ PL Q5) as [Q3 _]. autorewrite with serrs in Q3.
  assert (E3 : exists ex, lookup_ev name (b_events B) = Some ex /\ serrs s2 = [] /\ abs s3 = abs s2 /\ fns s3 = fns s2 /\ sused s3 = sused s2).
  { unfold s3 in Q3 |- *. destruct (mem_str name (hds s2)); [discriminate Q3|].
    destruct (lookup_ev name (b_events B)) as [ex|]; [|discriminate Q3]. exists ex. repeat split; auto. }
  destruct E3 as (ex & EV & Q2 & A3 & Fn3 & U3).
  destruct (passert_ne _ _ _ _ A Q2) as [_ E2]. subst s2.
  destruct (on_params_loop_sim _ _ _ _ _ PL Q5) as (A4 & Fn4 & U4); [autorewrite with sused; rewrite U3; autorewrite with sused; exact U|].
  autorewrite with abs fns sused in *.
  assert (W6 : WF s6).
  { split; [eapply (scs_of_frames s5); [exact F65|exact N5]|]. rewrite U65. unfold s5. autorewrite with sused. exact U4. }
  destruct (parse_block_sim _ _ _ _ PB Q7 W6) as (U7 & F7 & Tb & Sb).
  rewrite Fn65 in F7, Tb, Sb. unfold s5 in F7, Tb, Sb. autorewrite with fns in F7, Tb, Sb.
  rewrite Fn4, Fn3 in *. autorewrite with fns in *. rewrite A4, A3 in *. autorewrite with abs in *.
  specialize (D6 ex EV).
  split; [exact U7|]. split; [exact F7|]. split; [exact Tb|].
  rewrite scope_on_eq. cbn [t_events tabs_of]. rewrite (lookup_evn_of _ _ _ EV).
  destruct pnames as [|pn pr] eqn:EP.
  - injection D6 as D6. rewrite D6. exact Sb.
  - destruct (Nat.eqb _ _); [|discriminate D6]. rewrite D6. exact Sb.
Qed.

(* the static rules hold of every accepted program; the scope checker follows the run as long as every `func`
   the loop meets is followed by its name ([loop_named]) *)
Lemma program_loop_sim : forall fuel acc terms s p s', program_loop B fuel acc terms s = Ok p s' ->
  serrs s' = [] -> WF s ->
  sused s' = [] /\ fns s' = fns s /\
  exists l, p = rev acc ++ l /\ stmts_sok B (fns s) l /\
    (loop_named B fuel terms s = true -> scope_stmts (tabs_of B (fns s)) l (abs s) = Some (abs s')).
Proof.
  induction fuel as [|f IH]; intros acc terms s p s' H Q W; [discriminate|].
  set (GOAL := fun ln : bool => sused s' = [] /\ fns s' = fns s /\
    exists l, p = rev acc ++ l /\ stmts_sok B (fns s) l /\
      (ln = true -> scope_stmts (tabs_of B (fns s)) l (abs s) = Some (abs s'))).
  (* one more statement r, parsed from s to s1, then the loop from s1 *)
  assert (STEP : forall r s1 acc1 terms1 ln,
            (serrs s1 = [] -> frames s1 = frames s /\ sused s1 = [] /\ fns s1 = fns s /\
               match r with
               | Some st => stmt_sok B (fns s) st /\ (ln = true -> scope_stmt (tabs_of B (fns s)) st (abs s) = Some (abs s1))
               | None => ln = true -> abs s1 = abs s
               end) ->
            acc1 = match r with Some st => st :: acc | None => acc end ->
            program_loop B f acc1 terms1 s1 = Ok p s' -> GOAL (ln && loop_named B f terms1 s1)).
  { intros r s1 acc1 terms1 ln S1 -> H1. destruct (program_loop_sn B _ _ _ _ _ _ H1 Q) as [Q1 _].
    destruct (S1 Q1) as (F1 & U1 & Fn1 & M).
    assert (W1 : WF s1) by (split; [eapply scs_of_frames; [exact F1|apply W]|exact U1]).
    destruct (IH _ _ _ _ _ H1 Q W1) as (U2 & Fn2 & l & El & Hl & Hs).
    split; [exact U2|]. split; [congruence|]. rewrite Fn1 in *.
    destruct r as [st|].
    - exists (st :: l). simpl in El. rewrite <- app_assoc in El. split; [exact El|].
      destruct M as [Ms Mc]. split; [constructor; assumption|]. intro L. apply andb_true_iff in L as [L0 L1].
      simpl. rewrite (Mc L0). simpl. exact (Hs L1).
    - exists l. split; [exact El|]. split; [exact Hl|]. intro L. apply andb_true_iff in L as [L0 L1].
      rewrite <- (M L0). exact (Hs L1). }
  assert (DS : (pdo (r, s1) <- parse_statement B f s;
        match r with
        | None => program_loop B f acc terms s1
        | Some st => if terms then program_loop B f acc terms (serr_at K_unreachable (pos s) s1)
                     else program_loop B f (st :: acc) (always_terms st) s1
        end) = Ok p s' ->
        GOAL (match parse_statement B f s with
              | Ok None s1 => loop_named B f terms s1
              | Ok (Some st) s1 => if terms then true else loop_named B f (always_terms st) s1
              | _ => true
              end)).
  { intros H1. destruct (parse_statement B f s) as [r s1| |] eqn:P; try discriminate H1.
    assert (S1 : serrs s1 = [] -> frames s1 = frames s /\ sused s1 = [] /\ fns s1 = fns s /\
               match r with
               | Some st => stmt_sok B (fns s) st /\ (true = true -> scope_stmt (tabs_of B (fns s)) st (abs s) = Some (abs s1))
               | None => true = true -> abs s1 = abs s
               end).
    { intro Q1. destruct (stmt_sound B _ _ _ _ P Q1) as (_ & F1 & _). destruct (stmt_sim _ _ _ _ P Q1 W) as (U1 & Fn1 & M).
      split; [exact F1|]. split; [exact U1|]. split; [exact Fn1|]. destruct r; [split; [apply M|intros _; apply M]|intros _; exact M]. }
    destruct r as [st|]; [destruct terms|].
    - pose proof (program_loop_sn B _ _ _ _ _ _ H1 Q) as [Q2 _]. discriminate Q2.
    - exact (STEP (Some st) s1 _ _ true S1 eq_refl H1).
    - exact (STEP None s1 _ _ true S1 eq_refl H1). }
  revert H. apply program_loop_cases; intros T H.
  4:{ apply loop_named_cases; intro T'; try (rewrite T' in T; discriminate T). exact (DS H). }
  all: cbn [loop_named]; rewrite T.
  - apply Ok_inj in H as [E1 E2]; subst. destruct W. split; [assumption|]. split; [reflexivity|].
    exists []. rewrite app_nil_r. split; [reflexivity|]. split; [constructor|reflexivity].
  - destruct (parse_func B f s) as [r s1| |] eqn:P; try discriminate H. apply (STEP r s1 _ _ _) with (3 := H); [|reflexivity].
    intro Q1. destruct (func_sound B _ _ _ _ P Q1) as (_ & F1 & _). destruct (func_sim' _ _ _ _ P Q1 W) as (U1 & Fn1 & M).
    split; [exact F1|]. split; [exact U1|]. split; [exact Fn1|].
    destruct r; [split; [apply M|intros _; apply M]|]. intro TI. destruct (ct (adv s)); try discriminate TI. contradiction.
  - destruct (parse_event_handler B f s) as [r s1| |] eqn:P; try discriminate H.
    apply (STEP r s1 _ _ true) with (3 := H); [|reflexivity].
    intro Q1. destruct (event_handler_sound B _ _ _ _ P Q1) as (_ & F1 & _). destruct (event_handler_sim _ _ _ _ P Q1 W) as (U1 & Fn1 & M).
    split; [exact F1|]. split; [exact U1|]. split; [exact Fn1|]. destruct r; [split; [apply M|intros _; apply M]|intros _; exact M].
Qed.
End ProgramSim.

Lemma accept_inv B raw eof p : parse B raw eof = Accept p ->
  exists s3, program_loop B (fuel_of (legal_toks raw)) [] false (loop_start_state B raw) = Ok p s3 /\ serrs (validate_scope s3) = [].
Proof.
  unfold parse, loop_start_state, fn_table, legal_toks, newparser_state, globals_scope.
  destruct (signatures B tEOF _ _) as [u s1| |]; try discriminate.
  destruct (_ ++ _) as [|e0 es0]; [|discriminate].
  match goal with |- context[program_loop B ?fu [] false ?s2] => destruct (program_loop B fu [] false s2) as [prog s3| |] eqn:PL end; try discriminate.
  destruct (map _ (rev (errs (cs (validate_scope s3))))) as [|e1 es1] eqn:EM; [|discriminate].
  intro H. injection H as <-. apply map_rev_nil in EM. exists s3. split; [reflexivity|exact EM].
Qed.

Lemma main_state_wf B raw : WF (loop_start_state B raw).
Proof. split; [discriminate|reflexivity]. Qed.
Lemma main_state_abs B raw : abs (loop_start_state B raw) = [map (fun n => (n, true)) (b_globals B)].
Proof. unfold abs, loop_start_state, absf, globals_scope. simpl. rewrite map_map. reflexivity. Qed.

(* (e) + typing oracle, at program level: every expression of an accepted program satisfies the call rules w.r.t. the
   table of the signature pre-pass, and no typing site fired *)
Theorem accept_static B raw eof p : parse B raw eof = Accept p -> stmts_sok B (fn_table B raw) p.
Proof.
  intro H. destruct (accept_inv _ _ _ _ H) as (s3 & PL & Q).
  destruct (program_loop_sim B _ _ _ _ _ _ PL (serrs_validate_scope _ Q) (main_state_wf B raw)) as (_ & _ & l & El & Hl & _).
  simpl in El. subst l. exact Hl.
Qed.

(* (f) (g) (h): the accepted program passes the declarative scope checker *)
Theorem accept_scoped_partial B raw eof p : parse B raw eof = Accept p -> funcs_named B raw = true ->
  scope_prog (tabs_of B (fn_table B raw)) p = true.
Proof.
  intros H LN. destruct (accept_inv _ _ _ _ H) as (s3 & PL & Q).
  pose proof (serrs_validate_scope _ Q) as Q3.
  destruct (program_loop_sim B _ _ _ _ _ _ PL Q3 (main_state_wf B raw)) as (_ & _ & l & El & _ & Hs).
  simpl in El. subst l. specialize (Hs LN).
  destruct (program_loop_sn B _ _ _ _ _ _ PL Q3) as [_ F3].
  unfold scope_prog. rewrite main_state_abs in Hs. cbn [t_globals tabs_of].
  change (fns (loop_start_state B raw)) with (fn_table B raw) in Hs. rewrite Hs. cbn [obind].
  rewrite (validate_close _ Q); [reflexivity|]. eapply scs_of_frames; [exact F3|discriminate].
Qed.

(** * (i) each statement ends at the end of a line *)

(* the cursor after the statement is advancePastNL of a cursor that stood on NL, a comment or EOF *)
Definition ends_line (s' : pst) : Prop := exists c1, is_at_eol c1 = true /\ cs s' = apnl_loop (S (here c1)) c1.

Lemma ends_apnl s1 : serrs (apnl (assert_eol s1)) = [] -> ends_line (apnl (assert_eol s1)).
Proof.
  intro Q. autorewrite with serrs in Q. destruct (assert_eol_ne _ Q) as [E L]. rewrite E. exists (cs s1). split; [exact L|reflexivity].
Qed.
Lemma ends_finish_end s : serrs (finish_end s) = [] -> ends_line (finish_end s).
Proof. unfold finish_end. apply ends_apnl. Qed.
Lemma ends_cs s s' : cs s' = cs s -> ends_line s -> ends_line s'.
Proof. intros E (c1 & L & C). exists c1. split; [exact L|congruence]. Qed.

Lemma ends_pop_scope s : ends_line s -> ends_line (pop_scope s).
Proof. apply ends_cs. reflexivity. Qed.
Lemma ends_rec s b h : ends_line s -> ends_line {| cs := cs s; scs := scs s; fns := fns s; bodies := b; hds := h |}.
Proof. apply ends_cs. reflexivity. Qed.

Section Lines.
Variable B : benv.
Variable ps : pst -> PR (option stmt).

Lemma ends_simple (st0 st : stmt) s1 s' :
  Ok (Some st0) (apnl (assert_eol s1)) = Ok (Some st) s' -> serrs s' = [] -> st = SEmpty \/ ends_line s'.
Proof. intros H Q. apply Ok_inj in H as [_ ->]. right. exact (ends_apnl _ Q). Qed.
Lemma ends_compound (st0 st : stmt) s3 s' :
  Ok (Some st0) (pop_scope (finish_end s3)) = Ok (Some st) s' -> serrs s' = [] -> st = SEmpty \/ ends_line s'.
Proof. intros H Q. apply Ok_inj in H as [_ ->]. rewrite serrs_pop_scope in Q. right. exact (ends_pop_scope _ (ends_finish_end _ Q)). Qed.

Lemma statement_body_ends fuel s st s' : parse_statement_body B ps fuel s = Ok (Some st) s' -> serrs s' = [] ->
  st = SEmpty \/ ends_line s'.
Proof.
  apply statement_body_cases; intros _.
  - discriminate.
  - intros H _. destruct (empty_stmt_inv _ _ _ H) as [E _]. injection E as ->. left. reflexivity.
  - unfold parse_assign_stmt. destruct (is_func _ s); [discriminate|].
    destruct (parse_assign_target B s) as [[target|] s1| |]; try discriminate.
    destruct (p_toplevel B _) as [[value|] s3| |]; try discriminate. apply ends_simple.
  - unfold parse_typed_decl_stmt.
    destruct (parse_typed_decl B s) as [[[name dpos] [ty|]] s1| |] eqn:P; try discriminate.
    + destruct (validate_var_decl B name dpos false s1) as [[|] s2] eqn:V; [apply ends_simple|].
      intros H Q. apply Ok_inj in H as [_ ->]. autorewrite with serrs in Q.
      destruct (serrs_validate_var_decl _ _ _ _ _ _ _ V Q) as [E _]. discriminate E.
    + intros H Q. apply Ok_inj in H as [_ ->]. autorewrite with serrs in Q. exfalso. revert P. unfold parse_typed_decl.
      destruct (p_type B _) as [[t|] s2| |]; try discriminate. intro P. apply Ok_inj in P as [_ ->]. discriminate Q.
  - unfold parse_inferred_decl_stmt. cbv zeta.
    destruct (p_toplevel B _) as [[t|] s2| |]; try discriminate. destruct (tyerr_s B _ _ _); [discriminate|].
    destruct (validate_var_decl B _ _ false s2) as [[|] s3]; [apply ends_simple|discriminate].
  - intros _. unfold parse_call_stmt. destruct (lookup_fn _ _); [|discriminate].
    destruct (p_func_call B _ s) as [[x|] s1| |]; try discriminate. apply ends_simple.
  - discriminate.
  - unfold parse_return_stmt. cbv zeta. destruct (is_at_eol (cs (adv s))) eqn:EOL.
    + intros H Q. apply Ok_inj in H as [_ ->]. autorewrite with serrs in Q.
      destruct (negb (has_ret (adv s))); [discriminate Q|]. destruct (ret_value (adv s)); [discriminate Q|].
      right. exists (cs (adv s)). split; [exact EOL|reflexivity].
    + destruct (p_toplevel B (adv s)) as [[t|] s2| |]; try discriminate; intros H Q; apply Ok_inj in H as [_ ->]; autorewrite with serrs in Q.
      * destruct (negb (has_ret (assert_eol s2))); [discriminate Q|].
        destruct (tyerr_s B TS_return_type t _); [discriminate Q|]. right. apply ends_apnl. autorewrite with serrs. exact Q.
      * destruct (negb (has_ret s2)); discriminate Q.
  - apply ends_simple.
  - rewrite parse_for_stmt_eq. cbv zeta.
    destruct (for_loop_var B _) as [[v|] s4]; [|discriminate].
    destruct (passert T_RANGE s4) as [[|] s5]; cbn [negb]; [|discriminate].
    destruct (p_expr_list B (adv s5)) as [ns s7| |]; try discriminate.
    destruct (match ns with Some l => l | None => [] end) as [|n more]; [discriminate|].
    destruct (_ && _); [discriminate|].
    destruct (parse_block_with ps fuel false _) as [b s10| |]; try discriminate. apply ends_compound.
  - unfold parse_while_stmt. cbv zeta.
    destruct (parse_condition B _) as [c s2| |]; try discriminate.
    destruct (parse_block_with ps fuel false _) as [b s3| |]; try discriminate. apply ends_compound.
  - unfold parse_if_stmt.
    destruct (parse_if_cond_block B ps fuel s) as [cb s1| |]; try discriminate.
    destruct (else_if_loop B ps _ fuel [cb] s1) as [brs s2| |]; try discriminate.
    match goal with |- (pdo (els, s3) <- ?m; _) = _ -> _ => destruct m as [els s3| |] end; try discriminate.
    intros H Q. apply Ok_inj in H as [_ ->]. right. exact (ends_finish_end _ Q).
  - discriminate.
Qed.
End Lines.

Theorem stmt_ends_line B : forall fuel s st s', parse_statement B fuel s = Ok (Some st) s' -> serrs s' = [] ->
  st = SEmpty \/ ends_line s'.
Proof.
  destruct fuel as [|f]; intros s st s' H Q; [discriminate|]. cbn [parse_statement] in H.
  exact (statement_body_ends B _ _ _ _ _ H Q).
Qed.

Theorem func_ends_line B fuel s st s' : parse_func B fuel s = Ok (Some st) s' -> serrs s' = [] -> ends_line s'.
Proof.
  rewrite parse_func_eq. intros H Q.
  destruct (parse_block B fuel _) as [b s4| |]; try discriminate H.
  unfold func_finish in H. destruct (negb _); [discriminate H|]. destruct (mem_str _ _); [discriminate H|].
  cbv zeta in H. apply Ok_inj in H as [E1 E2]; subst.
  rewrite serrs_pop_scope, serrs_rec in Q. apply ends_pop_scope, ends_rec, ends_finish_end. exact Q.
Qed.

Theorem on_ends_line B fuel s st s' : parse_event_handler B fuel s = Ok (Some st) s' -> serrs s' = [] -> ends_line s'.
Proof.
  unfold parse_event_handler. intros H Q. cbv zeta in H.
  destruct (passert T_IDENT (adv s)) as [ok s2]. destruct ok; cbn [negb] in H; [|discriminate H].
  destruct (on_params_loop B _ [] _) as [params s4| |]; try discriminate H.
  destruct (parse_block B fuel _) as [b s7| |]; try discriminate H.
  apply Ok_inj in H as [E1 E2]; subst. autorewrite with serrs in Q.
  apply ends_pop_scope, ends_finish_end; exact Q.
Qed.

(* the header of `while`, `if` and `else if`: the condition is followed by the end of the line *)
Lemma condition_eol B s c s' : parse_condition B s = Ok (Some c) s' -> serrs s' = [] -> is_at_eol (cs s') = true.
Proof.
  unfold parse_condition. intros H Q.
  destruct (p_toplevel B s) as [x s1| |]; try discriminate H. destruct x as [t|]; [|discriminate H].
  apply Ok_inj in H as [E1 E2]; subst.
  destruct (tyerr_s B _ _ _); [discriminate Q|]. destruct (assert_eol_ne _ Q) as [E L]. rewrite E. exact L.
Qed.
