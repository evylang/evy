(* ParserTyped.v is the parser model with the concrete typing oracle.  Here: (a) the theorems of Parser.v that hold for
   every oracle, at the concrete one, and the wire answer is the verdict of that parse; (b) the concrete oracle against
   Types.v / TypesSpec.v (operator tables; tc_tree is Types.tc on the trees that stand for an expression of TypesSyntax);
   the typed run of a simple statement. *)
From Coq Require Import List String NArith ZArith Bool Arith Lia.
From EvyV Require Import Base Pratt Parser ParserProofs ParserRules ParserScope ParserTyped.
From EvyV Require TypesSyntax Types TypesSpec TypesProofs.
From EvyV.Gen Require Import Prec TypeNames.
Import ListNotations.
Local Open Scope nat_scope.

Theorem typed_parse_total Bs globals bsigs raw eof :
  (exists prog, typed_parse Bs globals bsigs raw eof = Accept prog) \/
  (exists e es, typed_parse Bs globals bsigs raw eof = Reject (e :: es)).
Proof. unfold typed_parse. apply parse_total. Qed.

Theorem typed_parse_errors_located Bs globals bsigs raw eof es :
  typed_parse Bs globals bsigs raw eof = Reject es -> forall p, In p es -> In p (eof :: map snd raw) \/ p = (0, 0).
Proof. unfold typed_parse. apply errors_located. Qed.

Theorem typed_accept_structure Bs globals bsigs raw eof p :
  typed_parse Bs globals bsigs raw eof = Accept p -> structure_ok p = true.
Proof. unfold typed_parse. apply accept_structure. Qed.

(* the answer given on the wire is the verdict of Parser.parse with the concrete oracle *)
Lemma pos_list_eqb_eq a : forall b, pos_list_eqb a b = true -> a = b.
Proof.
  induction a as [|[x1 y1] a IH]; intros [|[x2 y2] b]; simpl; try discriminate; auto.
  intro H. apply andb_true_iff in H. destruct H as [H H3]. apply andb_true_iff in H. destruct H as [H1 H2].
  apply Nat.eqb_eq in H1. apply Nat.eqb_eq in H2. subst. f_equal. auto.
Qed.

Theorem typed_answer_accept Bs globals bsigs raw eof :
  typed_answer Bs globals bsigs raw eof = A_accept -> exists p, typed_parse Bs globals bsigs raw eof = Accept p.
Proof.
  unfold typed_answer.
  destruct (negb _); [discriminate|].
  destruct (tparse Bs globals bsigs false raw); destruct (typed_parse Bs globals bsigs raw eof) eqn:E; try discriminate.
  - eauto.
  - destruct (pos_list_eqb _ _); discriminate.
Qed.

Theorem typed_answer_reject Bs globals bsigs raw eof es :
  typed_answer Bs globals bsigs raw eof = A_reject es ->
  exists ps, typed_parse Bs globals bsigs raw eof = Reject ps /\ List.length ps = List.length es.
Proof.
  unfold typed_answer.
  destruct (negb _); [discriminate|].
  destruct (tparse Bs globals bsigs false raw) as [|ill tes steps| |]; destruct (typed_parse Bs globals bsigs raw eof) as [p|ps|w|] eqn:E; try discriminate.
  destruct (pos_list_eqb _ _) eqn:Q; [|discriminate].
  intro H. injection H as H. subst es. apply pos_list_eqb_eq in Q. subst ps.
  eexists. split; [reflexivity|].
  unfold plain_positions. rewrite !app_length, !map_length. reflexivity.
Qed.

(* where the oracle answers, the default is irrelevant *)
Lemma coracle_defined d G rho site t n b : oracle3 G rho site t = Some b -> coracle d G rho site t n = b.
Proof. unfold coracle. intros ->. reflexivity. Qed.

(* operator tables: the oracle does not object exactly when Types.validate_binary / validate_unary hold of the operand
   types, and then the operands are related by the specification's operator table (TypesSpec.OpType / UnOpType) *)
Theorem oracle_binary_sound G rho op l r :
  oracle3 G rho TS_binary (TBin op l r) = Some false ->
  exists o lt rt, binop_of op = Some o /\ ty_of G l = Some lt /\ ty_of G r = Some rt /\
    Types.validate_binary o lt rt = true /\
    (TypesProofs.spec_ty lt = true -> TypesProofs.spec_ty rt = true ->
       exists res, TypesSpec.OpType o (TypesProofs.erase lt) (TypesProofs.erase rt) res).
Proof.
  simpl. destruct (ty_of G l) as [lt|]; [|discriminate]. destruct (ty_of G r) as [rt|]; [|discriminate]. simpl.
  destruct (binop_of op) as [o|]; [|discriminate].
  intro H. injection H as H. apply negb_false_iff in H.
  exists o, lt, rt. repeat split; auto.
  intros S1 S2. apply (TypesProofs.binop_accept_iff o lt rt S1 S2). exact H.
Qed.

Theorem oracle_binary_complete G rho op l r o lt rt :
  binop_of op = Some o -> ty_of G l = Some lt -> ty_of G r = Some rt ->
  oracle3 G rho TS_binary (TBin op l r) = Some (negb (Types.validate_binary o lt rt)).
Proof. intros H1 H2 H3. simpl. rewrite H2, H3. simpl. rewrite H1. reflexivity. Qed.

Theorem oracle_unary_sound G rho op r :
  oracle3 G rho TS_unary (TUn op r) = Some false ->
  exists o rt, unop_of op = Some o /\ ty_of G r = Some rt /\ Types.validate_unary o rt = true /\
    (TypesProofs.spec_ty rt = true -> TypesSpec.UnOpType o (TypesProofs.erase rt) (TypesProofs.erase rt)).
Proof.
  simpl. destruct (ty_of G r) as [rt|]; [|discriminate]. simpl.
  destruct (unop_of op) as [o|]; [|discriminate].
  intro H. injection H as H. apply negb_false_iff in H.
  exists o, rt. repeat split; auto.
  intros S1. apply (TypesProofs.unop_type_table o rt S1). exact H.
Qed.

(* a tree at which the binary / unary site does not object has a node (parseBinaryExpr does not return nil) *)
Theorem oracle_binary_node G rho op l r :
  oracle3 G rho TS_binary (TBin op l r) = Some false -> exists n e, tc_tree G (TBin op l r) = Types.ONode n e.
Proof.
  simpl. unfold ty_of.
  destruct (tc_tree G l) as [ln le| |]; try discriminate.
  destruct (tc_tree G r) as [rn re| |]; try discriminate. simpl.
  destruct (binop_of op) as [o|]; [|discriminate].
  intro H. injection H as H. apply negb_false_iff in H. rewrite H. eauto.
Qed.

(* a nested induction principle for Pratt trees *)
Section TreeInd.
Variable P : tree -> Prop.
Hypothesis HVar : forall n, P (TVar n).
Hypothesis HNum : forall l, P (TNum l).
Hypothesis HStr : forall l, P (TStr l).
Hypothesis HBool : forall b, P (TBool b).
Hypothesis HArr : forall l, Forall P l -> P (TArr l).
Hypothesis HMap : forall l, Forall (fun kv => P (snd kv)) l -> P (TMap l).
Hypothesis HUn : forall o r, P r -> P (TUn o r).
Hypothesis HBin : forall o l r, P l -> P r -> P (TBin o l r).
Hypothesis HGroup : forall e, P e -> P (TGroup e).
Hypothesis HIndex : forall l i, P l -> P i -> P (TIndex l i).
Hypothesis HSlice : forall l s e, P l -> (forall x, s = Some x -> P x) -> (forall x, e = Some x -> P x) -> P (TSlice l s e).
Hypothesis HDot : forall l k, P l -> P (TDot l k).
Hypothesis HAssert : forall l t, P l -> P (TAssert l t).
Hypothesis HCall : forall n a, Forall P a -> P (TCall n a).

Fixpoint tree_ind' (t : tree) : P t :=
  match t with
  | TVar n => HVar n
  | TNum l => HNum l
  | TStr l => HStr l
  | TBool b => HBool b
  | TArr l => HArr l ((fix go (l : list tree) : Forall P l :=
                         match l with [] => Forall_nil _ | x :: r => Forall_cons _ (tree_ind' x) (go r) end) l)
  | TMap l => HMap l ((fix go (l : list (str * tree)) : Forall (fun kv => P (snd kv)) l :=
                         match l with [] => Forall_nil _ | x :: r => Forall_cons _ (tree_ind' (snd x)) (go r) end) l)
  | TUn o r => HUn o r (tree_ind' r)
  | TBin o l r => HBin o l r (tree_ind' l) (tree_ind' r)
  | TGroup e => HGroup e (tree_ind' e)
  | TIndex l i => HIndex l i (tree_ind' l) (tree_ind' i)
  | TSlice l s e =>
      HSlice l s e (tree_ind' l)
        (match s return forall x, s = Some x -> P x with
         | Some y => fun x H => match H in _ = o return match o with Some z => P z | None => True end with eq_refl => tree_ind' y end
         | None => fun x H => match H in _ = o return match o with Some z => P z | None => True end with eq_refl => I end
         end)
        (match e return forall x, e = Some x -> P x with
         | Some y => fun x H => match H in _ = o return match o with Some z => P z | None => True end with eq_refl => tree_ind' y end
         | None => fun x H => match H in _ = o return match o with Some z => P z | None => True end with eq_refl => I end
         end)
  | TDot l k => HDot l k (tree_ind' l)
  | TAssert l t => HAssert l t (tree_ind' l)
  | TCall n a => HCall n a ((fix go (l : list tree) : Forall P l :=
                               match l with [] => Forall_nil _ | x :: r => Forall_cons _ (tree_ind' x) (go r) end) a)
  end.
End TreeInd.

(* the source type a *Type is the fixedType(parseType) image of *)
Fixpoint unembed (t : Types.ty) : option TypesSyntax.sty :=
  match t with
  | Types.TNum => Some TypesSyntax.SNum | Types.TString => Some TypesSyntax.SString
  | Types.TBool => Some TypesSyntax.SBool | Types.TAny => Some TypesSyntax.SAny
  | Types.TArr false s => option_map TypesSyntax.SArr (unembed s)
  | Types.TMap false s => option_map TypesSyntax.SMap (unembed s)
  | Types.TEmptyArr => Some TypesSyntax.SEmptyArr | Types.TEmptyMap => Some TypesSyntax.SEmptyMap
  | _ => None
  end.

Lemma unembed_embed t : forall s, unembed t = Some s -> Types.embed s = t.
Proof.
  induction t; intros s0 H; simpl in H; try (injection H as <-; reflexivity); try discriminate.
  - destruct fx; [discriminate|]. destruct (unembed t) as [u|]; [|discriminate]. injection H as <-. simpl. rewrite (IHt u); auto.
  - destruct fx; [discriminate|]. destruct (unembed t) as [u|]; [|discriminate]. injection H as <-. simpl. rewrite (IHt u); auto.
Qed.

Definition unfix (t : Types.ty) : option Types.ty :=
  match t with
  | Types.TArr true s => Some (Types.TArr false s)
  | Types.TMap true s => Some (Types.TMap false s)
  | Types.TArr false _ | Types.TMap false _ => None
  | _ => Some t
  end.

Lemma unfix_fixed t u : unfix t = Some u -> Types.fixed_type u = t.
Proof. destruct t as [| | | | |[] s|[] s| | | |]; simpl; intro H; try discriminate; injection H as <-; reflexivity. Qed.

Definition source_of (t : Types.ty) : option TypesSyntax.sty :=
  match unfix t with Some u => unembed u | None => None end.

Lemma source_of_ok t s : source_of t = Some s -> Types.fixed_type (Types.embed s) = t.
Proof.
  unfold source_of. destruct (unfix t) as [u|] eqn:U; [|discriminate].
  intro H. apply unembed_embed in H. rewrite H. apply unfix_fixed. exact U.
Qed.

Fixpoint sty_of (t : Pratt.ty) : TypesSyntax.sty :=
  match t with
  | TyNum => TypesSyntax.SNum | TyStr => TypesSyntax.SString | TyBool => TypesSyntax.SBool | TyAny => TypesSyntax.SAny
  | TyArr s => TypesSyntax.SArr (sty_of s) | TyMap s => TypesSyntax.SMap (sty_of s)
  end.
Lemma embed_sty_of t : Types.embed (sty_of t) = conv t.
Proof. induction t; simpl; congruence. Qed.

Definition omap {A B} (f : A -> option B) : list A -> option (list B) :=
  fix go (l : list A) : option (list B) :=
    match l with
    | [] => Some []
    | x :: r => match f x, go r with Some y, Some r' => Some (y :: r') | _, _ => None end
    end.

(* the expression of TypesSyntax a tree stands for: variables and calls are replaced by their (source) types;
   None when a type is not the image of a source type (a procedure call; an inferred array of array variables) *)
Fixpoint erase_tree (G : tenv) (t : tree) : option TypesSyntax.expr :=
  match t with
  | TNum _ => Some TypesSyntax.ELitNum
  | TStr _ => Some TypesSyntax.ELitStr
  | TBool _ => Some TypesSyntax.ELitBool
  | TVar n => match tlookup n (te_vars G) with Some ty => option_map TypesSyntax.EVar (source_of ty) | None => None end
  | TCall n _ => match assoc n (te_sigs G) with Some sg => option_map TypesSyntax.ECall (unembed (fs_ret sg)) | None => None end
  | TArr els => option_map TypesSyntax.EArr (omap (erase_tree G) els)
  | TMap ps => option_map TypesSyntax.EMap (omap (fun kv => erase_tree G (snd kv)) ps)
  | TBin op l r => match binop_of op, erase_tree G l, erase_tree G r with
                   | Some o, Some a, Some b => Some (TypesSyntax.EBin o a b)
                   | _, _, _ => None
                   end
  | TUn op r => match unop_of op, erase_tree G r with
                | Some o, Some a => Some (TypesSyntax.EUn o a)
                | _, _ => None
                end
  | TGroup g => option_map TypesSyntax.EGroup (erase_tree G g)
  | TIndex l i => match erase_tree G l, erase_tree G i with
                  | Some a, Some b => Some (TypesSyntax.EIndex a b)
                  | _, _ => None
                  end
  | TSlice l s e =>
      match erase_tree G l,
            match s with None => Some None | Some x => option_map Some (erase_tree G x) end,
            match e with None => Some None | Some x => option_map Some (erase_tree G x) end with
      | Some a, Some b, Some c => Some (TypesSyntax.ESlice a b c)
      | _, _, _ => None
      end
  | TDot l _ => option_map TypesSyntax.EDot (erase_tree G l)
  | TAssert a (Some t) => option_map (fun x => TypesSyntax.EAssert x (sty_of t)) (erase_tree G a)
  | TAssert _ None => None
  end.

Lemma omap_map {A} (f : A -> option TypesSyntax.expr) (g : A -> Types.outcome) l :
  Forall (fun x => forall e, f x = Some e -> g x = Types.tc e) l ->
  forall es, omap f l = Some es -> map g l = map Types.tc es.
Proof.
  induction 1 as [|x r Hx Hr IH]; intros es H; simpl in H.
  - injection H as <-. reflexivity.
  - destruct (f x) as [y|] eqn:Fx; [|discriminate]. destruct (omap f r) as [r'|]; [|discriminate].
    injection H as <-. simpl. rewrite (Hx y eq_refl), (IH r' eq_refl). reflexivity.
Qed.

(* on the trees that stand for an expression of TypesSyntax, the concrete oracle's typing function IS the
   implementation model of C04 (Types.tc, compared with the exported Go functions and proved against TypesSpec) *)
Theorem tc_tree_erase G t : forall e, erase_tree G t = Some e -> tc_tree G t = Types.tc e.
Proof.
  induction t using tree_ind'; intros e0 HE; simpl in HE.
  - (* TVar *) simpl. destruct (tlookup n (te_vars G)) as [ty|]; [|discriminate].
    destruct (source_of ty) as [s|] eqn:S; [|discriminate]. injection HE as <-. simpl. rewrite (source_of_ok _ _ S). reflexivity.
  - injection HE as <-. reflexivity.
  - injection HE as <-. reflexivity.
  - injection HE as <-. reflexivity.
  - (* TArr *) destruct (omap (erase_tree G) l) as [es|] eqn:O; [|discriminate]. injection HE as <-.
    simpl. rewrite (omap_map _ _ l H es O). reflexivity.
  - (* TMap *) destruct (omap (fun kv => erase_tree G (snd kv)) l) as [es|] eqn:O; [|discriminate]. injection HE as <-.
    simpl. rewrite (omap_map (fun kv => erase_tree G (snd kv)) (fun kv => tc_tree G (snd kv)) l H es O). reflexivity.
  - (* TUn *) destruct (unop_of o) as [u|] eqn:U; [|discriminate]. destruct (erase_tree G t) as [a|]; [|discriminate].
    injection HE as <-. simpl. rewrite U, (IHt a eq_refl). reflexivity.
  - (* TBin *) destruct (binop_of o) as [b|] eqn:U; [|discriminate].
    destruct (erase_tree G t1) as [a1|]; [|discriminate]. destruct (erase_tree G t2) as [a2|]; [|discriminate].
    injection HE as <-. simpl. rewrite U, (IHt1 a1 eq_refl), (IHt2 a2 eq_refl). reflexivity.
  - (* TGroup *) destruct (erase_tree G t) as [a|]; [|discriminate]. injection HE as <-. simpl. rewrite (IHt a eq_refl). reflexivity.
  - (* TIndex *) destruct (erase_tree G t1) as [a1|]; [|discriminate]. destruct (erase_tree G t2) as [a2|]; [|discriminate].
    injection HE as <-. simpl. rewrite (IHt1 a1 eq_refl), (IHt2 a2 eq_refl). reflexivity.
  - (* TSlice *) destruct (erase_tree G t) as [a|]; [|discriminate].
    destruct s as [sx|]; destruct e as [ex|]; simpl in HE.
    + destruct (erase_tree G sx) as [b|] eqn:B; [|discriminate]. destruct (erase_tree G ex) as [c|] eqn:C; [|discriminate].
      injection HE as <-. simpl. rewrite (IHt a eq_refl), (H sx eq_refl b B), (H0 ex eq_refl c C). reflexivity.
    + destruct (erase_tree G sx) as [b|] eqn:B; [|discriminate].
      injection HE as <-. simpl. rewrite (IHt a eq_refl), (H sx eq_refl b B). reflexivity.
    + destruct (erase_tree G ex) as [c|] eqn:C; [|discriminate].
      injection HE as <-. simpl. rewrite (IHt a eq_refl), (H0 ex eq_refl c C). reflexivity.
    + injection HE as <-. simpl. rewrite (IHt a eq_refl). reflexivity.
  - (* TDot *) destruct (erase_tree G t) as [a|]; [|discriminate]. injection HE as <-. simpl. rewrite (IHt a eq_refl). reflexivity.
  - (* TAssert *) destruct t0 as [ty|]; [|discriminate]. destruct (erase_tree G t) as [a|]; [|discriminate].
    injection HE as <-. simpl. rewrite (IHt a eq_refl), embed_sty_of. reflexivity.
  - (* TCall *) simpl. destruct (assoc n (te_sigs G)) as [sg|]; [|discriminate].
    destruct (unembed (fs_ret sg)) as [s|] eqn:S; [|discriminate]. injection HE as <-. simpl. rewrite (unembed_embed _ _ S). reflexivity.
Qed.

(* ---------- the typed run: a simple statement parsed without error has every typing site silent under the
   CONCRETE oracle of that point of the program ---------- *)
Lemma body_ps_irrelevant B ps1 ps2 fuel s :
  ct s <> T_FOR -> ct s <> T_WHILE -> ct s <> T_IF ->
  parse_statement_body B ps1 fuel s = parse_statement_body B ps2 fuel s.
Proof. intros H1 H2 H3. unfold parse_statement_body. destruct (ct s); try reflexivity; contradiction. Qed.

Lemma tbody_simple Bs dflt sigs tps fuel s ti :
  ct s <> T_FOR -> ct s <> T_WHILE -> ct s <> T_IF ->
  tparse_statement_body Bs dflt sigs tps fuel s ti =
  match parse_statement_body (BT Bs dflt sigs ti) (fun _ => Oof) fuel s with
  | Ok r s1 => Ok (r, post_simple sigs ti s s1 r) s1
  | Crash w => Crash w
  | Oof => Oof
  end.
Proof. intros H1 H2 H3. unfold tparse_statement_body. destruct (ct s); try reflexivity; contradiction. Qed.

Theorem typed_simple_stmt_sound Bs dflt sigs tps fuel s ti st ti' s' :
  tparse_statement_body Bs dflt sigs tps fuel s ti = Ok (Some st, ti') s' ->
  ct s <> T_FOR -> ct s <> T_WHILE -> ct s <> T_IF ->
  serrs s' = [] -> scs s <> [] -> ParserScope.sused s = [] ->
  ParserScope.stmt_sok (BT Bs dflt sigs ti) (fns s) st.
Proof.
  intros H H1 H2 H3 Q N U. rewrite (tbody_simple _ _ _ _ _ _ _ H1 H2 H3) in H.
  destruct (parse_statement_body (BT Bs dflt sigs ti) (fun _ => Oof) fuel s) as [r s1| |] eqn:P; try discriminate H.
  injection H as -> _ ->.
  rewrite (body_ps_irrelevant _ _ (parse_statement (BT Bs dflt sigs ti) fuel) _ _ H1 H2 H3) in P.
  change (parse_statement (BT Bs dflt sigs ti) (S fuel) s = Ok (Some st) s') in P.
  destruct (ParserScope.stmt_sim (BT Bs dflt sigs ti) (S fuel) s (Some st) s' P Q (conj N U)) as (_ & _ & S1 & _).
  exact S1.
Qed.

(* ... and at a binary node where the concrete oracle (undefined = objection) was silent, Types.validate_binary holds *)
Theorem typed_silent_binary Bs sigs ti op l r :
  ParserScope.silent (BT Bs true sigs ti) TS_binary (TBin op l r) ->
  exists o lt rt, binop_of op = Some o /\ ty_of (env_of_ti sigs ti) l = Some lt /\ ty_of (env_of_ti sigs ti) r = Some rt /\
    Types.validate_binary o lt rt = true.
Proof.
  intros [n H]. simpl in H. unfold coracle in H.
  destruct (oracle3 (env_of_ti sigs ti) (ti_ret ti) TS_binary (TBin op l r)) as [b|] eqn:O; [|discriminate].
  subst b. destruct (oracle_binary_sound _ _ _ _ _ O) as (o & lt & rt & A & B & C & D & _). eauto 8.
Qed.
