(* One walk through the expression parser (Pratt.v) for every property of the token cursor that each
   primitive step preserves: the errors recorded so far (ParserRules), the position inside the token list
   and the whitespace-sensitivity stack (ParserCursor).  The property is indexed by the part of the
   whitespace-sensitivity stack that lies below the frames the walked function pushes itself. *)
From Coq Require Import List NArith ZArith Bool Arith String.
From EvyV Require Import Base Pratt Parser ParserEqProofs.
From EvyV.Gen Require Import Prec.
Import ListNotations.
Local Open Scope nat_scope.
Local Set Warnings "-unused-intro-pattern".

(* [chew H], for H : body = Some (a, c'), splits on the scrutinee of every bind, `if` and `let '(_, _)` of the body,
   outermost first, and hands each recorded sub-call  P : f .. c = Some (x, c1)  to [sub_ne], which turns it into
   keeps c c1.  [sub_ne] is extended (::=) below each time the lemma about one more parser function is proved. *)
Ltac sub_ne P := fail.
Ltac chew H :=
  unfold ret in H;
  repeat (first
    [ discriminate H
    | match type of H with
      | Some (_, _) = Some (_, _) => fail 1
      | (match ?m with _ => _ end) = Some _ =>
          lazymatch m with
          | context[match _ with _ => _ end] => fail
          | _ => let P := fresh "P" in first [ destruct m as [[? ?]|] eqn:P | destruct m eqn:P ]; try sub_ne P
          end
      | (if ?b then _ else _) = Some _ => let P := fresh "B" in destruct b eqn:P
      | (let '(_, _) := ?m in _) = Some _ => let P := fresh "A" in destruct m eqn:P
      end ]).

(* what a property of the cursor has to satisfy: one clause per primitive update of a [pstate] *)
Record cursor_inv (Kp : list bool -> pstate -> Prop) : Prop := {
  ci_advance_wss : forall w c, Kp w c -> Kp w (advance_wss c);
  ci_peek : forall w c t, Kp w c ->
    Kp w {| prev := prev c; rest := rest c; peek := t; wss := wss c; errs := errs c; used := used c |};
  ci_push : forall b w c, Kp w c -> Kp (b :: w) (push_wss b c);
  ci_pop : forall b w c, Kp (b :: w) c ->
    Kp w {| prev := prev c; rest := rest c; peek := peek c; wss := tl (wss c); errs := errs c; used := used c |};
  ci_add_err_at : forall e n w c, Kp w c -> Kp w (add_err_at e n c);
  ci_mark_used : forall n w c, Kp w c -> Kp w (mark_used n c) }.

Section Walk.
Variable Kp : list bool -> pstate -> Prop.
Hypothesis HP : cursor_inv Kp.

(* a parser function from c to c' *)
Definition keeps (c c' : pstate) : Prop := forall w, Kp w c -> Kp w c'.
Lemma keeps_refl c : keeps c c. Proof. intros w I; exact I. Qed.
Lemma keeps_trans a b c : keeps a b -> keeps b c -> keeps a c. Proof. intros H1 H2 w I. apply H2, H1, I. Qed.

Lemma K_advance_wss w c : Kp w c -> Kp w (advance_wss c). Proof. apply (ci_advance_wss Kp HP). Qed.
Lemma K_add_err_at e n w c : Kp w c -> Kp w (add_err_at e n c). Proof. apply (ci_add_err_at Kp HP). Qed.
Lemma K_mark_used n w c : Kp w c -> Kp w (mark_used n c). Proof. apply (ci_mark_used Kp HP). Qed.
Lemma K_push b w c : Kp w c -> Kp (b :: w) (push_wss b c). Proof. apply (ci_push Kp HP). Qed.
Lemma K_advance_if_ws w c : Kp w c -> Kp w (advance_if_ws c).
Proof. unfold advance_if_ws. intro I. destruct (is_ws (cur c)); [apply K_advance_wss|]; exact I. Qed.
Lemma K_advance w c : Kp w c -> Kp w (advance c).
Proof.
  unfold advance. intro I. destruct (is_wss (advance_wss c)); [apply K_advance_wss; exact I|].
  pose proof (K_advance_if_ws _ _ (K_advance_wss _ _ I)) as I2.
  destruct (is_ws (peek (advance_if_ws (advance_wss c)))); [|exact I2]. apply (ci_peek Kp HP). exact I2.
Qed.
Lemma K_pop b w c : Kp (b :: w) c -> Kp w (pop_wss c).
Proof.
  intro I. unfold pop_wss. apply (ci_pop Kp HP) in I. destruct (_ && _); [apply K_advance|]; exact I.
Qed.
Lemma K_add_err e w c : Kp w c -> Kp w (add_err e c).
Proof. apply K_add_err_at. Qed.
Lemma K_slice_close E w c : Kp w c -> Kp w (slice_close E c).
Proof. unfold slice_close. intro I. destruct (e_fix_slice E); [apply K_advance_wss|apply K_advance]; exact I. Qed.
Lemma K_unexpected_left w c : Kp w c -> Kp w (unexpected_left c).
Proof. unfold unexpected_left. intro I. destruct (_ && _); [apply K_add_err_at|apply K_add_err]; exact I. Qed.
Lemma K_map_key_state w c : Kp w c -> Kp w (map_key_state c).
Proof. unfold map_key_state. intro I. destruct (toktype_beq _ _); [exact I|apply K_add_err; exact I]. Qed.
Lemma assert_token_keeps t c ok c' : assert_token t c = (ok, c') -> keeps c c'.
Proof.
  unfold assert_token. destruct (toktype_beq (cur_t c) t); intro H; inversion H; subst; intros w I; [exact I|apply K_add_err; exact I].
Qed.
Lemma K_snd_assert t w c : Kp w c -> Kp w (snd (assert_token t c)).
Proof. intro I. destruct (assert_token t c) as [ok c'] eqn:A. exact (assert_token_keeps _ _ _ _ A w I). Qed.

(* backward: reduce  Kp w (f (g .. c))  to a hypothesis *)
Ltac inv :=
  repeat match goal with |- context[if ?b then _ else _] => destruct b end;
  repeat first
   [ assumption
   | match goal with
     | H : keeps ?a ?b |- Kp _ ?b => apply H
     | A : assert_token _ ?x = (_, ?y) |- Kp _ ?y => apply (assert_token_keeps _ _ _ _ A)
     end
   | apply K_advance | apply K_advance_wss | apply K_advance_if_ws | apply K_add_err_at | apply K_add_err
   | apply K_mark_used | apply K_slice_close | apply K_unexpected_left | apply K_snd_assert | apply K_map_key_state
   | eapply K_pop | apply K_push ].
(* a branch that returns: H : ret a (f (g .. c)) = Some (a', c') *)
Ltac fin_kp H := solve [ unfold ret in H; injection H as ? ?; subst; intros w I; inv ].

Lemma multiline_ws_keeps : forall fuel c c', parse_multiline_ws fuel c = Some c' -> keeps c c'.
Proof.
  induction fuel as [|f IH]; intros c c' H; [discriminate|]. rewrite parse_multiline_ws_eq in H.
  destruct (tt_in _ _); [apply IH in H; intros w I; inv|].
  destruct (toktype_beq _ _); [apply IH in H; intros w I; inv|inversion H; subst; apply keeps_refl].
Qed.

Lemma parse_type_keeps : forall fuel c a c', parse_type fuel c = Some (a, c') -> keeps c c'.
Proof.
  intros fuel c a c' H w. exact (parse_type_steps (Kp w) (K_advance w) _ _ _ _ H).
Qed.

Ltac sub_ne P ::= first [ apply multiline_ws_keeps in P | apply parse_type_keeps in P ].

Section Open.
Variable E : env.
Variable pe : nat -> pstate -> res (option tree).
Hypothesis HPE : forall p c a c', pe p c = Some (a, c') -> keeps c c'.

Ltac sub_ne P ::= first [ apply multiline_ws_keeps in P | apply parse_type_keeps in P | apply HPE in P ].

Lemma expr_wss_keeps c a c' : parse_expr_wss pe c = Some (a, c') -> keeps c c'.
Proof. unfold parse_expr_wss. intro H. chew H. fin_kp H. Qed.

Ltac sub_ne P ::= first [ apply multiline_ws_keeps in P | apply parse_type_keeps in P | apply HPE in P | apply expr_wss_keeps in P ].

Lemma expr_list_keeps : forall fuel acc c a c', parse_expr_list pe fuel acc c = Some (a, c') -> keeps c c'.
Proof.
  induction fuel as [|f IH]; intros acc c a c' H; [discriminate|]. rewrite parse_expr_list_eq in H.
  chew H; try fin_kp H. apply IH in H. intros w I. inv.
Qed.
Ltac sub_ne P ::= first [ apply multiline_ws_keeps in P | apply parse_type_keeps in P | apply HPE in P | apply expr_wss_keeps in P
                        | apply expr_list_keeps in P ].

Lemma func_call_keeps fuel top nil c a c' : parse_func_call E pe fuel top nil c = Some (a, c') -> keeps c c'.
Proof. unfold parse_func_call, tyerr. intro H. chew H; fin_kp H. Qed.
Ltac sub_ne P ::= first [ apply multiline_ws_keeps in P | apply parse_type_keeps in P | apply HPE in P | apply expr_wss_keeps in P
                        | apply expr_list_keeps in P | apply func_call_keeps in P ].

Lemma toplevel_keeps fuel c a c' : parse_toplevel E pe fuel c = Some (a, c') -> keeps c c'.
Proof.
  unfold parse_toplevel. intro H.
  destruct (cur_t c); try (apply HPE in H; exact H).
  destruct (func_of E (tlit (cur c))) as [[|]|]; try (apply HPE in H; exact H).
  apply func_call_keeps in H. exact H.
Qed.

Lemma lookup_var_keeps c a c' : lookup_var E c = Some (a, c') -> keeps c c'.
Proof. unfold lookup_var. intro H. chew H; fin_kp H. Qed.

Lemma ident_expr_keeps fuel c a c' : parse_ident_expr E pe fuel c = Some (a, c') -> keeps c c'.
Proof.
  unfold parse_ident_expr. intro H.
  destruct (func_of E _) as [[|]|]; first [apply func_call_keeps in H | apply lookup_var_keeps in H]; exact H.
Qed.
Ltac sub_ne P ::= first [ apply multiline_ws_keeps in P | apply parse_type_keeps in P | apply HPE in P | apply expr_wss_keeps in P
                        | apply expr_list_keeps in P | apply func_call_keeps in P | apply toplevel_keeps in P ].

Lemma array_elems_keeps : forall fuel acc c a c', parse_array_elems E pe fuel acc c = Some (a, c') -> keeps c c'.
Proof.
  induction fuel as [|f IH]; intros acc c a c' H; [discriminate|]. rewrite parse_array_elems_eq in H. unfold tyerr in H.
  chew H; try fin_kp H. apply IH in H. intros w I. inv.
Qed.

Lemma array_literal_keeps fuel c a c' : parse_array_literal E pe fuel c = Some (a, c') -> keeps c c'.
Proof.
  unfold parse_array_literal. intro H.
  destruct (parse_multiline_ws fuel (advance c)) as [c2|] eqn:W; [|discriminate H]. apply multiline_ws_keeps in W.
  destruct (parse_array_elems E pe fuel [] c2) as [[els c3]|] eqn:P; [|discriminate H]. apply array_elems_keeps in P.
  chew H; fin_kp H.
Qed.

Lemma map_pairs_keeps : forall fuel acc c a c', parse_map_pairs E pe fuel acc c = Some (a, c') -> keeps c c'.
Proof.
  induction fuel as [|f IH]; intros acc c a c' H; [discriminate|]. rewrite parse_map_pairs_eq in H. unfold tyerr in H.
  cbv zeta in H. chew H; try fin_kp H. apply IH in H. intros w I. inv.
Qed.

Lemma map_literal_keeps fuel c a c' : parse_map_literal E pe fuel c = Some (a, c') -> keeps c c'.
Proof.
  unfold parse_map_literal. intro H.
  destruct (parse_multiline_ws fuel (advance (push_wss false c))) as [c2|] eqn:W; [|discriminate H]. apply multiline_ws_keeps in W.
  destruct (parse_map_pairs E pe fuel [] c2) as [[ps c3]|] eqn:P; [|discriminate H]. apply map_pairs_keeps in P.
  chew H; fin_kp H.
Qed.

Lemma literal_keeps fuel c a c' : parse_literal E pe fuel c = Some (a, c') -> keeps c c'.
Proof.
  unfold parse_literal. intro H.
  destruct (ttype (cur c)); try fin_kp H.
  - chew H; fin_kp H.
  - apply array_literal_keeps in H. exact H.
  - apply map_literal_keeps in H. exact H.
Qed.

Lemma unary_keeps c a c' : parse_unary E pe c = Some (a, c') -> keeps c c'.
Proof.
  unfold parse_unary, tyerr. intro H.
  set (st2 := if is_ws (prev (advance c)) then add_err_at E_ws_after_unary (here c) (advance c) else advance c) in H.
  assert (N2 : keeps c st2) by (unfold st2; intros w I; inv).
  chew H; fin_kp H.
Qed.

Lemma binary_keeps left c a c' : parse_binary E pe left c = Some (a, c') -> keeps c c'.
Proof. unfold parse_binary, tyerr. intro H. chew H; fin_kp H. Qed.

Lemma grouped_keeps fuel c a c' : parse_grouped E pe fuel c = Some (a, c') -> keeps c c'.
Proof. unfold parse_grouped. intro H. chew H; fin_kp H. Qed.

Lemma slice_keeps fuel tok left start c a c' : parse_slice E pe fuel tok left start c = Some (a, c') -> keeps c c'.
Proof. rewrite parse_slice_eq. unfold tyerr. intro H. cbv zeta in H. chew H; fin_kp H. Qed.
Ltac sub_ne P ::= first [ apply multiline_ws_keeps in P | apply parse_type_keeps in P | apply HPE in P | apply expr_wss_keeps in P
                        | apply expr_list_keeps in P | apply func_call_keeps in P | apply toplevel_keeps in P | apply slice_keeps in P ].

Lemma index_or_slice_keeps fuel allow left c a c' : parse_index_or_slice E pe fuel allow left c = Some (a, c') -> keeps c c'.
Proof. unfold parse_index_or_slice, tyerr. intro H. chew H; fin_kp H. Qed.

Lemma dot_keeps left c a c' : parse_dot E left c = Some (a, c') -> keeps c c'.
Proof. unfold parse_dot, tyerr. intro H. chew H; fin_kp H. Qed.

Lemma type_assertion_keeps fuel left c a c' : parse_type_assertion E fuel left c = Some (a, c') -> keeps c c'.
Proof.
  unfold parse_type_assertion, tyerr. intro H.
  destruct (is_ws (prev c)); [fin_kp H|]. destruct (is_ws (look1 (rest c))); [fin_kp H|].
  destruct (parse_type fuel (advance (advance (push_wss false c)))) as [[t c2]|] eqn:P; [|discriminate H]. apply parse_type_keeps in P.
  set (st3 := match t with None => add_err_at E_bad_type (here c) c2 | Some TyAny => add_err_at E_assert_any (here c) c2 | Some _ => c2 end) in H.
  assert (N3 : keeps c2 st3) by (unfold st3; destruct t as [[]|]; intros w I; inv).
  destruct (assert_token T_RPAREN st3) as [ok c4] eqn:A.
  destruct t; unfold ret in H; injection H as ? ?; subst; intros w I; inv.
Qed.

Lemma prefix_keeps fuel c a c' : parse_prefix E pe fuel c = Some (a, c') -> keeps c c'.
Proof.
  unfold parse_prefix. intro H.
  destruct (cur_t c); try fin_kp H;
    first [ apply ident_expr_keeps in H | apply literal_keeps in H | apply unary_keeps in H | apply grouped_keeps in H ]; exact H.
Qed.

Lemma infix_keeps fuel left c r a c' : parse_infix E pe fuel left c = Some r -> r = Some (a, c') -> keeps c c'.
Proof.
  unfold parse_infix. intros H R.
  destruct (is_binary_op (cur_t c)).
  - injection H as <-. apply binary_keeps in R. exact R.
  - destruct (cur_t c); try discriminate H.
    + injection H as <-. apply index_or_slice_keeps in R. exact R.
    + destruct (ttype (peek c)); injection H as <-; first [apply type_assertion_keeps in R | apply dot_keeps in R]; exact R.
Qed.

End Open.

Lemma expr_keeps E : forall fuel,
  (forall p c a c', parse_expr E fuel p c = Some (a, c') -> keeps c c') /\
  (forall p l c a c', expr_loop E fuel p l c = Some (a, c') -> keeps c c').
Proof.
  induction fuel as [|f [IHe IHl]]; [split; intros; discriminate|].
  split.
  - intros p c a c' H. rewrite parse_expr_S in H.
    destruct (parse_prefix E (parse_expr E f) f c) as [[l c1]|] eqn:P; [|discriminate H].
    apply (prefix_keeps E (parse_expr E f) IHe) in P.
    destruct l as [lf|].
    + apply IHl in H. eapply keeps_trans; eassumption.
    + unfold ret in H. injection H as ? ?; subst. exact P.
  - intros p l c a c' H. rewrite expr_loop_S in H.
    destruct (is_at_expr_end c); [unfold ret in H; injection H as ? ?; subst; apply keeps_refl|].
    destruct (loop_continues p (precedences (cur_t c))); [|unfold ret in H; injection H as ? ?; subst; apply keeps_refl].
    destruct (parse_infix E (parse_expr E f) f l c) as [r|] eqn:PX; [|unfold ret in H; injection H as ? ?; subst; apply keeps_refl].
    destruct r as [[l1 c1]|] eqn:R; [|discriminate H].
    pose proof (infix_keeps E (parse_expr E f) IHe f l c _ l1 c1 PX eq_refl) as N1.
    destruct l1 as [lf|].
    + apply IHl in H. eapply keeps_trans; eassumption.
    + unfold ret in H. injection H as ? ?; subst. exact N1.
Qed.

End Walk.
