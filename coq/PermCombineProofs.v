(* PermCombineProofs.v — C08: combineTypes is order independent on types without Fixed flags. *)
From Coq Require Import ZArith NArith List Bool Permutation Lia.
From EvyV Require Import Base Perm PermProofs.
Import ListNotations.

Definition unopt (o : option ty) : ty := match o with Some x => x | None => TAny end.

Lemma clean_not_fixed t : clean t = true -> is_fixed t = false.
Proof. destruct t as [| k f s|]; simpl; auto. destruct f; simpl; auto. Qed.

Lemma teq_refl a : teq a a = true.
Proof. unfold teq. apply str_eqb_refl. Qed.

Lemma join_neq_base x b : TBase x <> b -> join (TBase x) b = TAny.
Proof.
  destruct b as [y| |]; simpl; auto. intro N. destruct (base_eqb x y) eqn:E; auto.
  apply base_eqb_eq in E. congruence.
Qed.

(* on unfixed types the first two tests of ct_step compare a and b, whichever role each plays *)
Lemma ct_step_clean sw a b : clean a = true -> clean b = true ->
  ct_step sw a b =
  if teq a b then Some a
  else match a, b with
       | TComp ka _ sa, TComp kb _ sb =>
           if Bool.eqb ka kb then Some (TComp ka false (unopt (ct_step (negb sw) sa sb))) else None
       | TComp ka _ _, TEmpty kb => if Bool.eqb ka kb then Some a else None
       | TEmpty ka, TComp kb _ _ => if Bool.eqb ka kb then Some b else None
       | _, _ => None
       end.
Proof.
  intros Ca Cb.
  assert (T : teq (if sw then b else a) (if sw then a else b) = teq a b).
  { destruct sw; [|reflexivity]. destruct (teq a b) eqn:E.
    - apply teq_clean in E; auto. subst. apply teq_refl.
    - destruct (teq b a) eqn:E'; [|reflexivity]. apply teq_clean in E'; auto. subst.
      rewrite teq_refl in E. discriminate. }
  assert (Fx : is_fixed (if sw then a else b) || is_fixed (if sw then b else a) = false).
  { destruct sw; rewrite (clean_not_fixed _ Ca), (clean_not_fixed _ Cb); reflexivity. }
  destruct a; cbn [ct_step]; rewrite T, Fx; destruct (teq _ b) eqn:E; try reflexivity;
    apply teq_clean in E; auto; subst b; destruct sw; reflexivity.
Qed.

Lemma ct_step_join a : forall b sw, clean a = true -> clean b = true -> unopt (ct_step sw a b) = join a b.
Proof.
  induction a as [x|ka fa sa IH|ka]; intros b sw Ca Cb; rewrite ct_step_clean by assumption.
  all: destruct (teq _ b) eqn:E;
    [apply teq_clean in E; auto; subst b; rewrite join_idem by assumption; reflexivity|].
  - symmetry. apply join_neq_base. intro; subst b. rewrite teq_refl in E. discriminate.
  - destruct b as [y|kb fb sb|kb]; cbn [join unopt]; try reflexivity.
    + simpl in Ca, Cb. apply andb_true_iff in Ca as [_ Ca]. apply andb_true_iff in Cb as [_ Cb].
      destruct (Bool.eqb ka kb); [|reflexivity]. cbn [unopt]. f_equal. exact (IH sb (negb sw) Ca Cb).
    + destruct (Bool.eqb ka kb); reflexivity.
  - destruct b as [y|kb fb sb|kb]; cbn [join unopt]; try reflexivity.
    + destruct (Bool.eqb ka kb); reflexivity.
    + destruct (Bool.eqb ka kb) eqn:K; [|reflexivity]. apply Bool.eqb_prop in K. subst.
      rewrite teq_refl in E. discriminate.
Qed.

Definition cleanP (t : ty) : Prop := clean t = true.

Lemma fold_join_any ts : fold_left join ts TAny = TAny.
Proof. induction ts as [|t r IH]; cbn [fold_left]; [reflexivity|]. rewrite join_any_l. exact IH. Qed.

Lemma ct_loop_fold ts : forall c, cleanP c -> Forall cleanP ts -> ct_loop c ts = fold_left join ts c.
Proof.
  induction ts as [|t r IH]; intros c Cc F; simpl; [reflexivity|].
  inversion F as [|? ? Ct Fr]; subst.
  pose proof (ct_step_join c t false Cc Ct) as J.
  destruct (ct_step false c t) as [c'|]; simpl in J; subst.
  - apply IH; [apply join_clean; assumption | assumption].
  - rewrite <- J. symmetry. apply fold_join_any.
Qed.

Lemma fold_join_perm l l' : Permutation l l' -> Forall cleanP l -> forall c, cleanP c ->
  fold_left join l c = fold_left join l' c.
Proof.
  induction 1 as [|x l l' P IH|x y l|l l' l'' P1 IH1 P2 IH2]; intros F c Cc; simpl; auto.
  - inversion F; subst. apply IH; [assumption | apply join_clean; assumption].
  - inversion F as [|? ? Cy F']; subst. inversion F' as [|? ? Cx F'']; subst.
    f_equal. rewrite !join_assoc by assumption. f_equal. apply join_comm; assumption.
  - rewrite IH1 by assumption. apply IH2; [|assumption]. exact (Permutation_Forall P1 F).
Qed.

Theorem combineTypes_clean_perm l l' : Permutation l l' -> Forall cleanP l -> combineTypes l = combineTypes l'.
Proof.
  induction 1 as [|x l l' P IH|x y l|l l' l'' P1 IH1 P2 IH2]; intros F; auto.
  - inversion F as [|? ? Cx Fl]; subst. simpl.
    assert (Fl' : Forall cleanP l') by exact (Permutation_Forall P Fl).
    rewrite !ct_loop_fold by assumption. apply fold_join_perm; assumption.
  - inversion F as [|? ? Cy F']; subst. inversion F' as [|? ? Cx Fl]; subst.
    unfold combineTypes. rewrite !ct_loop_fold by (try assumption; constructor; assumption).
    simpl. f_equal. apply join_comm; assumption.
  - rewrite IH1 by assumption. apply IH2. exact (Permutation_Forall P1 F).
Qed.

Lemma parseMapLiteral_sub_clean_perm pi1 pi2 :
  Permutation pi1 pi2 -> Forall (fun kv => clean (snd kv) = true) pi1 -> parseMapLiteral_sub pi1 = parseMapLiteral_sub pi2.
Proof.
  intros P F. unfold parseMapLiteral_sub. apply combineTypes_clean_perm.
  - apply Permutation_map. exact P.
  - apply Forall_forall. intros t Ht. apply in_map_iff in Ht as [kv [<- Hk]].
    exact (proj1 (Forall_forall _ _) F kv Hk).
Qed.
