(* PermProofs.v — C08: order-(in)dependence of every map-range loop, one
   lemma per loop shape, instantiated per site. *)
From Coq Require Import ZArith NArith List Bool Permutation Lia.
From Coq Require String.
From EvyV Require Import Base Perm.
Import ListNotations.

Definition fmap_eq {V} (m1 m2 : fmap V) : Prop := forall k, m1 k = m2 k.

Lemma fupd_ext {V} (m1 m2 : fmap V) k v : fmap_eq m1 m2 -> fmap_eq (fupd m1 k v) (fupd m2 k v).
Proof. intros H k'. unfold fupd. destruct (str_eqb k' k); auto. Qed.

Lemma fupd_swap {V} (m : fmap V) k1 v1 k2 v2 :
  k1 <> k2 -> fmap_eq (fupd (fupd m k1 v1) k2 v2) (fupd (fupd m k2 v2) k1 v1).
Proof.
  intros N k'. unfold fupd.
  destruct (str_eqb k' k2) eqn:E2, (str_eqb k' k1) eqn:E1; auto.
  apply str_eqb_eq in E1, E2. congruence.
Qed.

Section Build.
  Context {A B : Type}.
  Variable key : str -> A -> str.
  Variable f : str -> A -> B.
  Definition dkey (kv : str * A) := key (fst kv) (snd kv).

  Lemma build_ext pi : forall m1 m2, fmap_eq m1 m2 -> fmap_eq (build_loop key f pi m1) (build_loop key f pi m2).
  Proof.
    induction pi as [|kv pi IH]; intros m1 m2 H; simpl; auto.
    apply IH. apply fupd_ext. exact H.
  Qed.

  (* the destination map does not depend on the iteration order, provided the
     destination keys are pairwise distinct *)
  Lemma build_perm pi1 pi2 : Permutation pi1 pi2 -> NoDup (map dkey pi1) ->
    forall m, fmap_eq (build_loop key f pi1 m) (build_loop key f pi2 m).
  Proof.
    induction 1 as [|x l l' P IH|x y l|l l' l'' P1 IH1 P2 IH2]; intros ND m.
    - intro; reflexivity.
    - simpl. inversion ND; subst. apply IH; assumption.
    - simpl. apply build_ext. apply fupd_swap.
      inversion ND as [|? ? Hnin _]; subst. intro E. apply Hnin. left. unfold dkey. symmetry. exact E.
    - intro k. rewrite (IH1 ND m k). apply IH2.
      eapply Permutation_NoDup; [apply Permutation_map; exact P1 | exact ND].
  Qed.
End Build.

Lemma perm_in {A} (l1 l2 : list A) : Permutation l1 l2 -> forall x, In x l1 <-> In x l2.
Proof. intros P x. split; apply Permutation_in; [exact P | exact (Permutation_sym P)]. Qed.

Lemma forallb_perm {A} (p : A -> bool) pi1 pi2 : Permutation pi1 pi2 -> forallb p pi1 = forallb p pi2.
Proof.
  induction 1; simpl; auto.
  - rewrite IHPermutation; reflexivity.
  - destruct (p x), (p y); reflexivity.
  - congruence.
Qed.

(* if no element makes the body panic, the answer is the conjunction *)
Lemma all_loop_forallb {A} (body : A -> tri) pi :
  (forall x, In x pi -> body x <> PP) ->
  all_loop body pi = if forallb (fun x => match body x with TT => true | _ => false end) pi then TT else FF.
Proof.
  induction pi as [|x r IH]; simpl; intros H; [reflexivity|].
  destruct (body x) eqn:E; simpl.
  - apply IH. intros y Hy. apply H. right; exact Hy.
  - reflexivity.
  - exfalso. apply (H x (or_introl eq_refl)). exact E.
Qed.

Lemma all_loop_perm {A} (body : A -> tri) pi1 pi2 :
  Permutation pi1 pi2 -> (forall x, In x pi1 -> body x <> PP) -> all_loop body pi1 = all_loop body pi2.
Proof.
  intros P NP. rewrite !all_loop_forallb, (forallb_perm _ _ _ P); [reflexivity | | exact NP].
  intros x Hx. apply NP, (perm_in _ _ P), Hx.
Qed.

Lemma first_err_None {A E} (body : A -> option E) pi : first_err body pi = None <-> forall x, In x pi -> body x = None.
Proof.
  induction pi as [|x r IH]; simpl; [split; [intros _ ? [] | reflexivity]|].
  destruct (body x) eqn:Ex; split; intro H; try discriminate.
  - specialize (H x (or_introl eq_refl)). congruence.
  - intros y [<-|Hy]; [exact Ex | apply IH; assumption].
  - apply IH. intros y Hy. apply H. right; exact Hy.
Qed.

Lemma first_err_Some {A E} (body : A -> option E) pi e : first_err body pi = Some e -> exists x, In x pi /\ body x = Some e.
Proof.
  induction pi as [|x r IH]; simpl; [discriminate|].
  destruct (body x) eqn:Ex; intro H.
  - inversion H; subst. exists x; auto.
  - destruct (IH H) as [y [Hy E']]. exists y; auto.
Qed.

(* deterministic as soon as all failing entries fail with the same error *)
Lemma first_err_perm {A E} (body : A -> option E) pi1 pi2 :
  Permutation pi1 pi2 ->
  (forall x y e1 e2, In x pi1 -> In y pi1 -> body x = Some e1 -> body y = Some e2 -> e1 = e2) ->
  first_err body pi1 = first_err body pi2.
Proof.
  intros P U. pose proof (perm_in _ _ P) as M.
  destruct (first_err body pi1) eqn:E1, (first_err body pi2) eqn:E2; auto.
  - apply first_err_Some in E1 as [x [Hx Ex]]. apply first_err_Some in E2 as [y [Hy Ey]].
    f_equal. apply (U x y e e0 Hx); auto. apply M, Hy.
  - apply first_err_Some in E1 as [x [Hx Ex]].
    rewrite (proj1 (first_err_None body pi2) E2 x) in Ex; [discriminate | apply M, Hx].
  - apply first_err_Some in E2 as [y [Hy Ey]].
    rewrite (proj1 (first_err_None body pi1) E1 y) in Ey; [discriminate | apply M, Hy].
Qed.

Lemma first_err_is_some_perm {A E} (body : A -> option E) pi1 pi2 :
  Permutation pi1 pi2 -> (first_err body pi1 = None <-> first_err body pi2 = None).
Proof.
  intros P. rewrite !first_err_None. split; intros H x Hx; apply H, (perm_in _ _ P), Hx.
Qed.

(* collect loops: same elements, order follows the iteration *)
Lemma collect_perm {A B} (p : A -> bool) (g : A -> B) pi1 pi2 :
  Permutation pi1 pi2 -> Permutation (collect_loop p g pi1) (collect_loop p g pi2).
Proof.
  intro P. unfold collect_loop. apply Permutation_map.
  induction P; simpl; auto.
  - destruct (p x); auto.
  - destruct (p x), (p y); auto. apply perm_swap.
  - eapply Permutation_trans; eauto.
Qed.

Lemma collect_le1 {A B} (p : A -> bool) (g : A -> B) pi1 pi2 :
  Permutation pi1 pi2 -> (List.length (filter p pi1) <= 1)%nat -> collect_loop p g pi1 = collect_loop p g pi2.
Proof.
  intros P L. pose proof (collect_perm p g _ _ P) as Q. unfold collect_loop in *.
  rewrite <- (map_length g) in L.
  destruct (map g (filter p pi1)) as [|a [|b t]].
  - apply Permutation_nil in Q. auto.
  - apply Permutation_length_1_inv in Q. auto.
  - simpl in L. lia.
Qed.

(* insertion sort by a key that is total, transitive, and strict on the
   elements at hand: the result does not depend on the input order *)
Section Sort.
  Context {A : Type}.
  Variable leb : A -> A -> bool.
  Hypothesis leb_total : forall x y, leb x y = true \/ leb y x = true.
  Hypothesis leb_trans : forall x y z, leb x y = true -> leb y z = true -> leb x z = true.

  Lemma insert_swap x y : (leb x y = true -> leb y x = false) -> (leb y x = true -> leb x y = false) ->
    forall l, insert_by leb x (insert_by leb y l) = insert_by leb y (insert_by leb x l).
  Proof.
    intros S1 S2.
    assert (D : (leb x y = true /\ leb y x = false) \/ (leb x y = false /\ leb y x = true)).
    { destruct (leb_total x y) as [T|T]; destruct (leb x y) eqn:Exy, (leb y x) eqn:Eyx; auto; try discriminate;
        try (specialize (S1 eq_refl); discriminate). }
    clear S1 S2.
    induction l as [|h t IH]; simpl.
    - destruct D as [[Exy Eyx]|[Exy Eyx]]; rewrite Exy, Eyx; reflexivity.
    - destruct (leb y h) eqn:Eyh, (leb x h) eqn:Exh; simpl.
      + destruct D as [[Exy Eyx]|[Exy Eyx]]; rewrite Exy, Eyx; simpl; rewrite ?Exh, ?Eyh; reflexivity.
      + destruct D as [[Exy Eyx]|[Exy Eyx]].
        * rewrite (leb_trans x y h Exy Eyh) in Exh. discriminate.
        * rewrite Exy. simpl. rewrite Exh, Eyh. reflexivity.
      + destruct D as [[Exy Eyx]|[Exy Eyx]].
        * rewrite Eyx. simpl. rewrite Exh, Eyh. reflexivity.
        * rewrite (leb_trans y x h Eyx Exh) in Eyh. discriminate.
      + rewrite Exh, Eyh. f_equal. exact IH.
  Qed.

  Definition strict_on (l : list A) : Prop :=
    forall x y, In x l -> In y l -> x <> y -> leb x y = true -> leb y x = false.

  Lemma isort_perm l1 l2 : Permutation l1 l2 -> NoDup l1 -> strict_on l1 -> isort leb l1 = isort leb l2.
  Proof.
    induction 1 as [|x l l' P IH|x y l|l l' l'' P1 IH1 P2 IH2]; intros ND ST; simpl; auto.
    - inversion ND; subst. f_equal. apply IH; auto.
      intros a b Ha Hb. apply ST; right; assumption.
    - inversion ND as [|? ? Hy ND']; subst.
      assert (y <> x) by (intro; subst; apply Hy; left; reflexivity).
      apply insert_swap; intro L.
      + apply (ST y x); simpl; auto.
      + apply (ST x y); simpl; auto.
    - rewrite IH1 by assumption. apply IH2.
      + eapply Permutation_NoDup; eauto.
      + intros a b Ha Hb. apply ST; eapply Permutation_in; try (apply Permutation_sym; exact P1); assumption.
  Qed.
End Sort.

Lemma validateScope_same_errors pi1 pi2 :
  Permutation pi1 pi2 -> Permutation (validateScope pi1) (validateScope pi2).
Proof. apply collect_perm. Qed.

Lemma validateScope_le1 pi1 pi2 :
  Permutation pi1 pi2 -> (List.length (filter (fun kv => negb (v_used (snd kv))) pi1) <= 1)%nat ->
  validateScope pi1 = validateScope pi2.
Proof. apply collect_le1. Qed.

Lemma pos_leb_iff l1 c1 n1 l2 c2 n2 :
  pos_leb (l1, c1, n1) (l2, c2, n2) = true <-> (l1 < l2 \/ (l1 = l2 /\ c1 <= c2))%N.
Proof.
  unfold pos_leb. rewrite orb_true_iff, andb_true_iff, N.ltb_lt, N.eqb_eq, N.leb_le. reflexivity.
Qed.

Lemma pos_leb_total x y : pos_leb x y = true \/ pos_leb y x = true.
Proof. destruct x as [[l1 c1] n1], y as [[l2 c2] n2]. rewrite !pos_leb_iff. lia. Qed.

Lemma pos_leb_trans x y z : pos_leb x y = true -> pos_leb y z = true -> pos_leb x z = true.
Proof. destruct x as [[l1 c1] n1], y as [[l2 c2] n2], z as [[l3 c3] n3]. rewrite !pos_leb_iff. lia. Qed.

Lemma pos_leb_antisym x y : pos_leb x y = true -> pos_leb y x = true -> fst x = fst y.
Proof.
  destruct x as [[l1 c1] n1], y as [[l2 c2] n2]. rewrite !pos_leb_iff. simpl. intros H1 H2. f_equal; lia.
Qed.

Lemma NoDup_map_neq {A B} (f : A -> B) l x y : NoDup (map f l) -> In x l -> In y l -> x <> y -> f x <> f y.
Proof.
  induction l as [|a l IH]; simpl; intros ND Hx Hy N; [contradiction|].
  inversion ND as [|? ? Hn ND']; subst.
  destruct Hx as [<-|Hx], Hy as [<-|Hy].
  - congruence.
  - intro E. apply Hn. rewrite E. apply in_map. exact Hy.
  - intro E. apply Hn. rewrite <- E. apply in_map. exact Hx.
  - apply IH; auto.
Qed.

(* the proposed fix: with pairwise distinct declaration positions (every
   variable has its own declaring token) the reported list is a function of
   the set of variables *)
Lemma validateScope_fixed_perm pi1 pi2 :
  Permutation pi1 pi2 -> NoDup (map fst (validateScope pi1)) ->
  validateScope_fixed pi1 = validateScope_fixed pi2.
Proof.
  intros P ND. unfold validateScope_fixed.
  apply (isort_perm pos_leb pos_leb_total pos_leb_trans).
  - apply validateScope_same_errors. exact P.
  - eapply NoDup_map_inv. exact ND.
  - intros x y Hx Hy N L. destruct (pos_leb y x) eqn:E; [|reflexivity].
    exfalso. apply (NoDup_map_neq fst _ x y ND Hx Hy N). apply pos_leb_antisym; assumption.
Qed.

Section Wrap.
  Context {V : Type}.
  Variable w : V -> option V.
  Definition wforce (v : V) : V := match w v with Some v' => v' | None => v end.
  Definition wok (kv : str * V) : bool := match w (snd kv) with Some _ => true | None => false end.

  Lemma wrap_loop_ok pi : forall m, forallb wok pi = true ->
    wrap_loop w pi m = WrapOk (build_loop (fun k _ => k) (fun _ v => wforce v) pi m).
  Proof.
    induction pi as [|[k v] r IH]; intros m H; simpl in *; [reflexivity|].
    apply andb_true_iff in H as [H1 H2]. unfold wok in H1. simpl in H1. unfold wforce at 2.
    destruct (w v) eqn:E; [|discriminate]. rewrite IH by assumption. reflexivity.
  Qed.

  Lemma wrap_loop_panics pi : forall m, wrap_panics (wrap_loop w pi m) = negb (forallb wok pi).
  Proof.
    induction pi as [|[k v] r IH]; intros m; simpl; [reflexivity|].
    unfold wok at 1. simpl. destruct (w v); simpl; auto.
  Qed.

  (* whether wrapAny panics does not depend on the order … *)
  Lemma wrap_loop_panics_perm pi1 pi2 m : Permutation pi1 pi2 ->
    wrap_panics (wrap_loop w pi1 m) = wrap_panics (wrap_loop w pi2 m).
  Proof. intro P. rewrite !wrap_loop_panics. f_equal. apply forallb_perm. exact P. Qed.

  (* … and when it does not panic, neither does the rewritten map *)
  Lemma wrap_loop_ok_perm pi1 pi2 m m1 : Permutation pi1 pi2 -> NoDup (map fst pi1) ->
    wrap_loop w pi1 m = WrapOk m1 -> exists m2, wrap_loop w pi2 m = WrapOk m2 /\ fmap_eq m1 m2.
  Proof.
    intros P ND H.
    assert (A1 : forallb wok pi1 = true).
    { pose proof (wrap_loop_panics pi1 m) as Q. rewrite H in Q. simpl in Q. destruct (forallb wok pi1); auto; discriminate. }
    assert (A2 : forallb wok pi2 = true) by (rewrite <- (forallb_perm wok _ _ P); exact A1).
    rewrite (wrap_loop_ok pi1 m A1) in H. inversion H; subst.
    eexists. split; [apply wrap_loop_ok; exact A2|].
    apply build_perm; auto.
  Qed.
End Wrap.

Lemma infer_loop_perm {V} (inf : V -> V) pi1 pi2 m : Permutation pi1 pi2 -> NoDup (map fst pi1) ->
  fmap_eq (infer_loop inf pi1 m) (infer_loop inf pi2 m).
Proof.
  intros P ND. apply build_perm; auto.
Qed.

Section EvalMapLit.
  Context {S Nd Vl E : Type}.
  Variable ev : Nd -> S -> S * (E + Vl).
  Variable pv : Nd -> Vl.
  (* the value expression is pure: no effect on the state, no error *)
  Definition pure_entry (kn : str * Nd) : Prop := forall s, ev (snd kn) s = (s, inr (pv (snd kn))).

  Lemma evalMapLiteral_loop_pure pi : forall s pairs, Forall pure_entry pi ->
    evalMapLiteral_loop ev pi s pairs = (s, inr (build_loop (fun k _ => k) (fun _ n => pv n) pi pairs)).
  Proof.
    induction pi as [|[k n] r IH]; intros s pairs F; simpl; [reflexivity|].
    inversion F as [|? ? H1 H2]; subst. unfold pure_entry in H1. simpl in H1. rewrite (H1 s). apply IH. exact H2.
  Qed.

  Lemma evalMapLiteral_pure_perm pi1 pi2 s : Permutation pi1 pi2 -> NoDup (map fst pi1) -> Forall pure_entry pi1 ->
    exists m1 m2, evalMapLiteral ev pi1 s = (s, inr m1) /\ evalMapLiteral ev pi2 s = (s, inr m2) /\ fmap_eq m1 m2.
  Proof.
    intros P ND F.
    assert (F2 : Forall pure_entry pi2) by exact (Permutation_Forall P F).
    unfold evalMapLiteral. rewrite (evalMapLiteral_loop_pure pi1 s fempty F), (evalMapLiteral_loop_pure pi2 s fempty F2).
    do 2 eexists. split; [reflexivity|]. split; [reflexivity|].
    apply build_perm; auto.
  Qed.
End EvalMapLit.

(* the loop over m.Order (the code since 7307e12): effects happen in source order *)
Definition mnode_effects (kn : str * mnode) : list Z := match snd kn with MPrint z => [z] | _ => [] end.
Lemma evalMapLiteral_loop_source_order order : forall s pairs,
  (forall kn, In kn order -> snd kn <> MPanic) ->
  fst (evalMapLiteral_loop mev order s pairs) = s ++ flat_map mnode_effects order.
Proof.
  induction order as [|[k n] r IH]; intros s pairs NP; simpl.
  - rewrite app_nil_r. reflexivity.
  - destruct n as [z|z|]; simpl.
    + rewrite IH by (intros kn H; apply NP; right; exact H). unfold mnode_effects at 2. simpl. rewrite <- app_assoc. reflexivity.
    + rewrite IH by (intros kn H; apply NP; right; exact H). reflexivity.
    + exfalso. apply (NP (k, MPanic)); [left; reflexivity | reflexivity].
Qed.

Lemma mapVal_Equals_perm {V} (eqv : V -> V -> tri) pi1 pi2 len2 m2 :
  Permutation pi1 pi2 -> (forall kv, In kv pi1 -> equals_body eqv m2 kv <> PP) ->
  mapVal_Equals eqv pi1 len2 m2 = mapVal_Equals eqv pi2 len2 m2.
Proof.
  intros P NP. unfold mapVal_Equals. rewrite (Permutation_length P).
  destruct (negb (Nat.eqb (List.length pi2) len2)); [reflexivity|]. apply all_loop_perm; assumption.
Qed.

Lemma sameMap_perm {V} (same : V -> option V -> bool) pi1 pi2 len2 got :
  Permutation pi1 pi2 -> sameMap same pi1 len2 got = sameMap same pi2 len2 got.
Proof.
  intros P. unfold sameMap. rewrite (Permutation_length P).
  destruct (negb (Nat.eqb (List.length pi2) len2)); [reflexivity|]. apply forallb_perm; assumption.
Qed.

Definition fres_eq (r1 r2 : ferr + fmap fval) : Prop :=
  match r1, r2 with
  | inl e1, inl e2 => e1 = e2
  | inr m1, inr m2 => fmap_eq m1 m2
  | _, _ => False
  end.

Lemma parseFontProps_perm pi1 pi2 :
  Permutation pi1 pi2 -> NoDup (map fst pi1) ->
  (forall x y e1 e2, In x pi1 -> In y pi1 -> font_body x = Some e1 -> font_body y = Some e2 -> e1 = e2) ->
  fres_eq (parseFontProps pi1) (parseFontProps pi2).
Proof.
  intros P ND U. unfold parseFontProps. rewrite <- (first_err_perm font_body pi1 pi2 P U).
  destruct (first_err font_body pi1); simpl; [reflexivity|].
  apply build_perm; auto.
Qed.

Lemma key_is_fst {A} (pi : list (str * A)) : map (dkey (fun k (_ : A) => k)) pi = map fst pi.
Proof. apply map_ext. intros []; reflexivity. Qed.

Lemma newParser_copy_perm {F} (pi1 pi2 : list (str * F)) :
  Permutation pi1 pi2 -> NoDup (map fst pi1) -> fmap_eq (newParser_copy pi1) (newParser_copy pi2).
Proof. intros P ND. apply build_perm; auto. Qed.

Lemma builtinsDecls_copy_perm {B D} (decl : B -> D) pi1 pi2 :
  Permutation pi1 pi2 -> NoDup (map fst pi1) -> fmap_eq (builtinsDecls_copy decl pi1) (builtinsDecls_copy decl pi2).
Proof. intros P ND. apply build_perm; auto. Qed.

(* keyed by the Name FIELD of the entry: needs the names to be distinct *)
Lemma parseProgram_globals_perm pi1 pi2 :
  Permutation pi1 pi2 -> NoDup (map (fun kv => v_name (snd kv)) pi1) ->
  fmap_eq (parseProgram_globals pi1) (parseProgram_globals pi2).
Proof. intros P ND. apply build_perm; auto. Qed.

Lemma newEvaluator_globals_perm {G Vl} (name : G -> str) (gval : G -> Vl) pi1 pi2 :
  Permutation pi1 pi2 -> NoDup (map (fun kv => name (snd kv)) pi1) ->
  fmap_eq (newEvaluator_globals name gval pi1) (newEvaluator_globals name gval pi2).
Proof. intros P ND. apply build_perm; auto. Qed.

Lemma calledBuiltinFuncs_set isb pi1 pi2 :
  Permutation pi1 pi2 -> Permutation (calledBuiltinFuncs isb pi1) (calledBuiltinFuncs isb pi2).
Proof. apply collect_perm. Qed.

Lemma eventHandlerNames_set {H} (pi1 pi2 : list (str * H)) :
  Permutation pi1 pi2 -> Permutation (eventHandlerNames pi1) (eventHandlerNames pi2).
Proof. apply collect_perm. Qed.

(* combineTypes: on types without any Fixed flag (literals only, no
   variables of composite type) it is the join of a semilattice, hence
   independent of the order of its arguments *)
Fixpoint clean (t : ty) : bool :=
  match t with
  | TBase BNone => false
  | TBase _ => true
  | TComp _ f s => negb f && clean s
  | TEmpty _ => true
  end.

Definition base_eqb (x y : base) : bool := N.eqb (base_code x) (base_code y).
Lemma base_eqb_eq x y : base_eqb x y = true <-> x = y.
Proof. destruct x, y; unfold base_eqb; simpl; split; intro; try reflexivity; try discriminate. Qed.

Fixpoint join (a b : ty) : ty :=
  match a, b with
  | TBase x, TBase y => if base_eqb x y then a else TAny
  | TComp ka _ sa, TComp kb _ sb => if Bool.eqb ka kb then TComp ka false (join sa sb) else TAny
  | TComp ka _ _, TEmpty kb => if Bool.eqb ka kb then a else TAny
  | TEmpty ka, TComp kb _ _ => if Bool.eqb ka kb then b else TAny
  | TEmpty ka, TEmpty kb => if Bool.eqb ka kb then a else TAny
  | _, _ => TAny
  end.

Lemma chain_nonempty t : chain t <> [].
Proof. destruct t; simpl; discriminate. Qed.

Lemma chain_none_not_clean s : chain s = [5%N] -> clean s = false.
Proof.
  destruct s as [[]|k f s'|k]; simpl; intro H; try discriminate; try reflexivity.
  destruct k; discriminate.
Qed.

Lemma chain_inj a : forall b, clean a = true -> clean b = true -> chain a = chain b -> a = b.
Proof.
  induction a as [x|ka fa sa IH|ka]; intros [y|kb fb sb|kb] Ca Cb H; simpl in *.
  - destruct x, y; simpl in H; try discriminate; reflexivity.
  - destruct x, kb; simpl in H; discriminate.
  - destruct x, kb; simpl in H; discriminate.
  - destruct y, ka; simpl in H; discriminate.
  - apply andb_true_iff in Ca as [Fa Ca]. apply andb_true_iff in Cb as [Fb Cb].
    destruct fa, fb; try discriminate. inversion H as [[Hk Hs]].
    assert (ka = kb) by (destruct ka, kb; simpl in Hk; try discriminate; reflexivity). subst.
    f_equal. apply IH; assumption.
  - apply andb_true_iff in Ca as [Fa Ca]. inversion H as [[Hk Hs]].
    rewrite (chain_none_not_clean sa Hs) in Ca. discriminate.
  - destruct y, ka; simpl in H; discriminate.
  - apply andb_true_iff in Cb as [Fb Cb]. inversion H as [[Hk Hs]].
    rewrite (chain_none_not_clean sb (eq_sym Hs)) in Cb. discriminate.
  - inversion H as [[Hk]]. destruct ka, kb; simpl in Hk; try discriminate; reflexivity.
Qed.

Lemma teq_clean a b : clean a = true -> clean b = true -> (teq a b = true <-> a = b).
Proof.
  intros Ca Cb. unfold teq. rewrite str_eqb_eq. split; [apply chain_inj; assumption | congruence].
Qed.

Lemma bool_eqb_refl k : Bool.eqb k k = true.
Proof. destruct k; reflexivity. Qed.

Lemma base_eqb_refl x : base_eqb x x = true.
Proof. destruct x; reflexivity. Qed.

Lemma join_idem a : clean a = true -> join a a = a.
Proof.
  induction a as [x|k f s IH|k]; simpl; intro C.
  - rewrite base_eqb_refl. reflexivity.
  - apply andb_true_iff in C as [F C]. destruct f; [discriminate|]. rewrite bool_eqb_refl, IH by assumption. reflexivity.
  - rewrite bool_eqb_refl. reflexivity.
Qed.

Lemma join_clean a : forall b, clean a = true -> clean b = true -> clean (join a b) = true.
Proof.
  induction a as [x|ka fa sa IH|ka]; intros [y|kb fb sb|kb] Ca Cb; simpl in *; try reflexivity.
  - destruct (base_eqb x y); [exact Ca | reflexivity].
  - apply andb_true_iff in Ca as [Fa Ca]. apply andb_true_iff in Cb as [Fb Cb].
    destruct (Bool.eqb ka kb); [simpl; apply IH; assumption | reflexivity].
  - destruct (Bool.eqb ka kb); [exact Ca | reflexivity].
  - destruct (Bool.eqb ka kb); [exact Cb | reflexivity].
  - destruct (Bool.eqb ka kb); reflexivity.
Qed.

Lemma join_comm a : forall b, clean a = true -> clean b = true -> join a b = join b a.
Proof.
  induction a as [x|ka fa sa IH|ka]; intros [y|kb fb sb|kb] Ca Cb; simpl in *; try reflexivity.
  - destruct (base_eqb x y) eqn:E.
    + apply base_eqb_eq in E. subst. rewrite base_eqb_refl. reflexivity.
    + destruct (base_eqb y x) eqn:E2; [|reflexivity]. apply base_eqb_eq in E2. subst. rewrite base_eqb_refl in E. discriminate.
  - apply andb_true_iff in Ca as [Fa Ca]. apply andb_true_iff in Cb as [Fb Cb].
    destruct ka, kb; simpl; try reflexivity; rewrite (IH sb) by assumption; reflexivity.
  - destruct ka, kb; reflexivity.
  - destruct ka, kb; reflexivity.
  - destruct ka, kb; reflexivity.
Qed.

Lemma join_any_l b : join TAny b = TAny.
Proof. destruct b as [y| |]; simpl; try reflexivity. destruct (base_eqb BAny y); reflexivity. Qed.
Lemma join_any_r a : join a TAny = TAny.
Proof.
  destruct a as [x| |]; simpl; try reflexivity. destruct (base_eqb x BAny) eqn:E; [|reflexivity].
  apply base_eqb_eq in E. subst. reflexivity.
Qed.

Lemma join_assoc a : forall b c, clean a = true -> clean b = true -> clean c = true ->
  join (join a b) c = join a (join b c).
Proof.
  induction a as [x|ka fa sa IH|ka]; intros b c Ca Cb Cc; destruct b as [y|kb fb sb|kb]; destruct c as [z|kc fc sc|kc];
    simpl in Ca, Cb, Cc;
    repeat match goal with H : _ && _ = true |- _ => apply andb_true_iff in H as [? ?] end;
    repeat match goal with x : base |- _ => destruct x end;
    repeat match goal with k : bool |- _ => destruct k end;
    simpl; try reflexivity; try congruence; try (rewrite IH by assumption; reflexivity).
Qed.

(* duplicate-freeness of a list of identifiers, decided *)
Fixpoint nodupb (l : list String.string) : bool :=
  match l with
  | [] => true
  | x :: t => negb (existsb (String.eqb x) t) && nodupb t
  end.

Lemma nodupb_NoDup l : nodupb l = true -> NoDup l.
Proof.
  induction l as [|x t IH]; simpl; intro H; constructor; apply andb_true_iff in H as [H1 H2].
  - intro Hin. apply negb_true_iff in H1.
    assert (E : existsb (String.eqb x) t = true)
      by (apply existsb_exists; exists x; split; [exact Hin | apply String.eqb_refl]).
    congruence.
  - apply IH; exact H2.
Qed.
