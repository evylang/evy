(* Unfolding equations for the functions of Pratt.v.
   A `match` on the token type with a default branch elaborates to one copy of that branch per
   constructor; the equations below take the default on a boolean test instead, so that a proof
   which rewrites with them walks the default branch once and never sees the expanded match. *)
From Coq Require Import List NArith ZArith Bool Arith String.
From EvyV Require Import Base Pratt.
From EvyV.Gen Require Import Prec.
Import ListNotations.
Local Open Scope nat_scope.

(* membership in a short list of token types *)
Definition tt_in (l : list toktype) (t : toktype) : bool := existsb (toktype_beq t) l.

Lemma tt_in_true l t : tt_in l t = true -> In t l.
Proof.
  unfold tt_in. intro H. apply existsb_exists in H as (x & Hx & E). apply toktype_beq_eq in E. subst x. exact Hx.
Qed.
Lemma tt_in_false l t : tt_in l t = false -> forall x, In x l -> t <> x.
Proof.
  unfold tt_in. intros H x Hx E. subst x.
  assert (X : existsb (toktype_beq t) l = true) by (apply existsb_exists; exists t; split; [exact Hx|apply toktype_beq_eq; reflexivity]).
  rewrite X in H. discriminate H.
Qed.
Lemma toktype_beq_false a b : toktype_beq a b = false -> a <> b.
Proof. intros H E. apply toktype_beq_eq in E. rewrite E in H. discriminate H. Qed.

Lemma parse_multiline_ws_eq f st :
  parse_multiline_ws (S f) st =
  if tt_in [T_NL; T_WS] (cur_t st) then parse_multiline_ws f (advance_wss st)
  else if toktype_beq (cur_t st) T_COMMENT
       then parse_multiline_ws f (advance_wss (snd (assert_token T_NL (advance_wss st))))
       else Some st.
Proof. cbn [parse_multiline_ws]. destruct (cur_t st); reflexivity. Qed.

(* parseType only advances the cursor: what every advance preserves holds of the state it returns *)
Lemma parse_type_steps (P : pstate -> Prop) : (forall c, P c -> P (advance c)) ->
  forall fuel st a st', parse_type fuel st = Some (a, st') -> P st -> P st'.
Proof.
  intro HP. induction fuel as [|f IH]; intros st a st' H I; [discriminate|]. cbn [parse_type] in H. unfold ret in H.
  assert (SUB : forall g, (do (sub, st2) <- parse_type f (advance (advance st)); Some (g sub, st2)) = Some (a, st') -> P st').
  { intros g X. destruct (parse_type f (advance (advance st))) as [[sub st2]|] eqn:Q; [|discriminate X].
    injection X as _ <-. apply (IH _ _ _ Q). apply HP, HP, I. }
  destruct (cur_t st); try (injection H as _ <-; apply HP, I);
    (destruct (cur_t (advance st)); try (injection H as _ <-; apply HP, I); exact (SUB _ H)).
Qed.

Section Open.
Variable E : env.
Variable pe : nat -> pstate -> res (option tree).

Lemma parse_expr_list_eq f acc st :
  parse_expr_list pe (S f) acc st =
  if tt_in [T_RPAREN; T_RBRACKET; T_EOF] (cur_t st) || is_at_eol st then ret (Some (rev acc)) st else
  do (n, st1) <- parse_expr_wss pe st;
  match n with
  | None => ret None st1
  | Some t => parse_expr_list pe f (t :: acc) (advance_if_ws st1)
  end.
Proof. cbn [parse_expr_list]. destruct (cur_t st); try reflexivity; cbn [tt_in existsb toktype_beq orb]; destruct (is_at_eol st); reflexivity. Qed.

Lemma parse_array_elems_eq f acc st :
  parse_array_elems E pe (S f) acc st =
  if tt_in [T_RBRACKET; T_EOF] (cur_t st) then ret (Some (rev acc)) st else
  do (n, st1) <- parse_expr_wss pe st;
  match n with
  | None => ret None st1
  | Some t =>
    if tyerr E TS_array_elem_none t (here st) then ret None (add_err_at (E_type TS_array_elem_none) (here st) st1) else
    match parse_multiline_ws (S f) st1 with
    | None => None
    | Some st2 => parse_array_elems E pe f (t :: acc) st2
    end
  end.
Proof. cbn [parse_array_elems]. destruct (cur_t st); reflexivity. Qed.

(* the state after the key of a map pair: a key that is no identifier is reported *)
Definition map_key_state (st : pstate) : pstate :=
  if toktype_beq (ttype (as_ident (cur st))) T_IDENT then st else add_err E_map_key st.

Lemma parse_map_pairs_eq f acc st :
  parse_map_pairs E pe (S f) acc st =
  if tt_in [T_RCURLY; T_EOF] (cur_t st) then ret (Some (rev acc)) st else
  let key := tlit (as_ident (cur st)) in
  let st1 := advance (map_key_state st) in
  if has_key key acc then ret None (add_err E_dup_key st1) else
  let st3 := advance (snd (assert_token T_COLON st1)) in
  do (n, st4) <- parse_expr_wss pe st3;
  match n with
  | None => ret None st4
  | Some t =>
    if tyerr E TS_map_value_none t (here st3) then ret None (add_err_at (E_type TS_map_value_none) (here st3) st4) else
    match parse_multiline_ws (S f) st4 with
    | None => None
    | Some st5 => parse_map_pairs E pe f ((key, t) :: acc) st5
    end
  end.
Proof.
  assert (K : match ttype (as_ident (cur st)) with T_IDENT => st | _ => add_err E_map_key st end = map_key_state st)
    by (unfold map_key_state; destruct (ttype (as_ident (cur st))); reflexivity).
  cbn [parse_map_pairs]. cbv zeta. rewrite K. destruct (cur_t st); reflexivity.
Qed.

Lemma parse_slice_eq fuel tok left start st :
  parse_slice E pe fuel tok left start st =
  if tyerr E TS_not_sliceable left tok then ret None (add_err_at (E_type TS_not_sliceable) tok st) else
  if toktype_beq (cur_t st) T_RBRACKET then
    let st1 := slice_close E st in
    let t := TSlice left start None in
    if tyerr E TS_slice_bounds t tok then ret None (add_err_at (E_type TS_slice_bounds) tok st1) else ret (Some t) st1
  else
    do (e, st1) <- parse_toplevel E pe fuel st;
    match e with
    | None => ret None st1
    | Some x =>
      let '(ok, st2) := assert_token T_RBRACKET st1 in
      if ok then
        let st3 := slice_close E st2 in
        let t := TSlice left start (Some x) in
        if tyerr E TS_slice_bounds t tok then ret None (add_err_at (E_type TS_slice_bounds) tok st3) else ret (Some t) st3
      else ret None st2
    end.
Proof. unfold parse_slice. destruct (tyerr E TS_not_sliceable left tok); [reflexivity|]. destruct (cur_t st); reflexivity. Qed.

End Open.

Lemma parse_expr_S E f p st :
  parse_expr E (S f) p st =
  match parse_prefix E (parse_expr E f) f st with
  | None => None
  | Some (l, st1) => match l with None => ret None st1 | Some lf => expr_loop E f p lf st1 end
  end.
Proof. reflexivity. Qed.

Lemma expr_loop_S E f p left st :
  expr_loop E (S f) p left st =
  if is_at_expr_end st then ret (Some left) st
  else if loop_continues p (precedences (cur_t st)) then
    match parse_infix E (parse_expr E f) f left st with
    | None => ret (Some left) st
    | Some r => match r with
                | None => None
                | Some (l, st1) => match l with None => ret None st1 | Some left' => expr_loop E f p left' st1 end
                end
    end
  else ret (Some left) st.
Proof. reflexivity. Qed.
