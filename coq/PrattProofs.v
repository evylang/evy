(* PrattProofs.v — the precedence / layout part of property C01.

   Specification side (written from docs/spec.md, independently of the code):
     binop / unop / rank    the operator table and the list of §Precedence
     lexp                   derivations of the stratified, left-associative
                            expression grammar WITH their layout (which optional
                            whitespace is present), explicit Group nodes
     Lay n l                "l is derivable at layer n" — one layer per level
     tight_ok               layouts allowed in call arguments / array elements /
                            map values (§Horizontal Whitespace rules 3-7)
     render / tree_of       token rendering and the tree the grammar prescribes
   Theorems about the model Pratt.v (which takes its binding powers from the
   regenerated Gen/Prec.v):
     prec_table_spec_holds, pratt_layered, left_assoc, layout_irrelevant. *)
From Coq Require Import List NArith ZArith Bool Arith Lia String.
From EvyV Require Import Base Pratt.
From EvyV Require Export PrattEqProofs.
From EvyV.Gen Require Import Prec.
Import ListNotations.
Local Open Scope nat_scope.

(** * The specification: operators, levels, layered grammar *)

(* docs/spec.md §Operators and Expressions, table *)
Inductive binop := BOr | BAnd | BEq | BNe | BLt | BLe | BGt | BGe | BAdd | BSub | BMul | BDiv | BMod.
Inductive unop := UNeg | UNot.

(* docs/spec.md §Precedence: "1. indexing, dot, grouped  2. unary  3. binary:
   3.1 * / %  3.2 + -  3.3 < <= > >=  3.4 == !=  3.5 and  3.6 or".
   rank = how tightly the level binds (larger = tighter). *)
Definition rank (o : binop) : nat :=
  match o with
  | BOr => 1
  | BAnd => 2
  | BEq | BNe => 3
  | BLt | BLe | BGt | BGe => 4
  | BAdd | BSub => 5
  | BMul | BDiv | BMod => 6
  end.
Definition rank_unary : nat := 7.
Definition rank_primary : nat := 8.

(* the lexical tokens of the operators (docs/spec.md grammar: LOGICAL_OP, COMPARISON_OP, ADD_OP, MUL_OP, UNARY_OP) *)
Definition binop_tok (o : binop) : toktype :=
  match o with
  | BOr => T_OR | BAnd => T_AND | BEq => T_EQ | BNe => T_NOT_EQ
  | BLt => T_LT | BLe => T_LTEQ | BGt => T_GT | BGe => T_GTEQ
  | BAdd => T_PLUS | BSub => T_MINUS | BMul => T_ASTERISK | BDiv => T_SLASH | BMod => T_PERCENT
  end.
Definition unop_tok (o : unop) : toktype := match o with UNeg => T_MINUS | UNot => T_BANG end.

Definition all_binops : list binop := [BOr; BAnd; BEq; BNe; BLt; BLe; BGt; BGe; BAdd; BSub; BMul; BDiv; BMod].

(* atoms: operand := literal | ident *)
Inductive atom := ANum (lit : str) | AStr (lit : str) | ABool (b : bool) | AVar (name : str).

Definition atom_tok (a : atom) : token :=
  match a with
  | ANum l => {| ttype := T_NUM_LIT; tlit := l |}
  | AStr l => {| ttype := T_STRING_LIT; tlit := l |}
  | ABool true => mk T_TRUE
  | ABool false => mk T_FALSE
  | AVar n => {| ttype := T_IDENT; tlit := n |}
  end.
Definition atom_tree (a : atom) : tree :=
  match a with ANum l => TNum l | AStr l => TStr l | ABool b => TBool b | AVar n => TVar n end.

(* derivations with layout: every token the parser consumes with p.advance()
   carries a flag "followed by whitespace"; unary operators, "." and the token
   before "[" / "." have none (§Horizontal Whitespace rules 1-3). *)
Inductive lexp :=
| LAtom (a : atom) (ws : bool)
| LGroup (ws1 : bool) (e : lexp) (ws2 : bool)     (* "(" ws1 e ")" ws2 *)
| LUn (o : unop) (e : lexp)
| LBin (o : binop) (l : lexp) (ws : bool) (r : lexp)  (* l op ws r ; whitespace before op is l's trailing flag *)
| LIndex (e : lexp) (w1 : bool) (i : lexp) (w2 : bool)                                  (* e "[" w1 i "]" w2 *)
| LSlice (e : lexp) (w1 : bool) (s : option lexp) (w2 : bool) (t : option lexp) (w3 : bool)  (* e "[" w1 [s] ":" w2 [t] "]" w3 *)
| LDot (e : lexp) (key : str) (w : bool)                                                (* e "." key w *)
| LAssert (e : lexp) (w1 : bool) (t : ty) (w2 w3 : bool)                                (* e "." "(" w1 type w2 ")" w3 *)
(* "(" w1 f WS a1 WS ... WS an wl ")" w2 : a call in parentheses; every argument is preceded by
   whitespace, the last one may be followed by whitespace (wl); the arguments are rendered tight *)
| LCall (w1 : bool) (f : str) (args : list lexp) (wl w2 : bool)
(* "[" w1 e1 WS ... WS en wl "]" w2 : an array literal (elements on one line, separated by whitespace, rendered tight) *)
| LArr (w1 : bool) (elems : list lexp) (wl w2 : bool)
(* "{" w1 k1 ":" c1 v1 WS ... WS kn ":" cn vn wl "}" w2 : a map literal on one line; a pair is
   (key, whitespace after the colon, value); values are rendered tight *)
| LMap (w1 : bool) (pairs : list (str * bool * lexp)) (wl w2 : bool).

(* generic helpers for the argument / element lists nested in lexp *)
Definition allP {A} (P : A -> Prop) : list A -> Prop :=
  fix go (l : list A) : Prop := match l with [] => True | a :: t => P a /\ go t end.
Definition max_over {A} (f : A -> nat) : list A -> nat :=
  fix go (l : list A) : nat := match l with [] => 0 | a :: t => Nat.max (f a) (go t) end.
Lemma max_over_cons {A} (f : A -> nat) a t : max_over f (a :: t) = Nat.max (f a) (max_over f t).
Proof. reflexivity. Qed.
Lemma allP_In {A} (P : A -> Prop) l : (forall a, In a l -> P a) -> allP P l.
Proof. induction l as [|a t IH]; simpl; intro H; [exact I|]. split; [apply H; auto|apply IH; intros b Hb; apply H; auto]. Qed.
Lemma allP_elim {A} (P : A -> Prop) l : allP P l -> forall a, In a l -> P a.
Proof. induction l as [|b t IH]; simpl; [tauto|]. intros [Hb Ht] a [<-|Ha]; auto. Qed.
(* is the token before the remaining arguments t followed by whitespace *)
Definition seq_flag {A} (t : list A) (wl : bool) : bool := match t with [] => wl | _ => true end.

Definition Forall_all {A} (P : A -> Prop) (f : forall a, P a) : forall l, Forall P l :=
  fix go l := match l with [] => Forall_nil P | a :: t => Forall_cons a (f a) (go t) end.

(* induction principle that reaches the optional slice bounds and the nested lists *)
Section LexpInd.
  Variable P : lexp -> Prop.
  Definition optP (o : option lexp) : Prop := match o with Some x => P x | None => True end.
  Hypothesis H_atom : forall a ws, P (LAtom a ws).
  Hypothesis H_group : forall w1 e w2, P e -> P (LGroup w1 e w2).
  Hypothesis H_un : forall o e, P e -> P (LUn o e).
  Hypothesis H_bin : forall o a ws b, P a -> P b -> P (LBin o a ws b).
  Hypothesis H_index : forall e w1 i w2, P e -> P i -> P (LIndex e w1 i w2).
  Hypothesis H_slice : forall e w1 s w2 t w3, P e -> optP s -> optP t -> P (LSlice e w1 s w2 t w3).
  Hypothesis H_dot : forall e k w, P e -> P (LDot e k w).
  Hypothesis H_assert : forall e w1 t w2 w3, P e -> P (LAssert e w1 t w2 w3).
  Hypothesis H_call : forall w1 f args wl w2, Forall P args -> P (LCall w1 f args wl w2).
  Hypothesis H_arr : forall w1 elems wl w2, Forall P elems -> P (LArr w1 elems wl w2).
  Hypothesis H_map : forall w1 pairs wl w2, Forall (fun p => P (snd p)) pairs -> P (LMap w1 pairs wl w2).
  Fixpoint lexp_ind' (l : lexp) : P l :=
    match l with
    | LAtom a ws => H_atom a ws
    | LGroup w1 e w2 => H_group w1 e w2 (lexp_ind' e)
    | LUn o e => H_un o e (lexp_ind' e)
    | LBin o a ws b => H_bin o a ws b (lexp_ind' a) (lexp_ind' b)
    | LIndex e w1 i w2 => H_index e w1 i w2 (lexp_ind' e) (lexp_ind' i)
    | LSlice e w1 s w2 t w3 =>
        H_slice e w1 s w2 t w3 (lexp_ind' e)
          (match s return optP s with Some x => lexp_ind' x | None => I end)
          (match t return optP t with Some x => lexp_ind' x | None => I end)
    | LDot e k w => H_dot e k w (lexp_ind' e)
    | LAssert e w1 t w2 w3 => H_assert e w1 t w2 w3 (lexp_ind' e)
    | LCall w1 f args wl w2 => H_call w1 f args wl w2 (Forall_all P lexp_ind' args)
    | LArr w1 elems wl w2 => H_arr w1 elems wl w2 (Forall_all P lexp_ind' elems)
    | LMap w1 pairs wl w2 =>
        H_map w1 pairs wl w2 (Forall_all (fun p => P (snd p)) (fun p => match p with (_, v) => lexp_ind' v end) pairs)
    end.
End LexpInd.

(* the level at which the outermost production of l sits *)
Definition toprank (l : lexp) : nat :=
  match l with
  | LUn _ _ => rank_unary
  | LBin o _ _ _ => rank o
  | _ => rank_primary
  end.

(* the layered grammar: Lay n l = "l is derivable from the nonterminal of layer n"
     E_n     ::= E_(n+1)                              (Lay_up)
     E_n     ::= E_n op E_(n+1)      rank op = n      (Lay_bin: left recursion = left associativity)
     E_unary ::= unop E_unary                         (Lay_un)
     E_prim  ::= atom | "(" E_0 ")"                   (Lay_atom, Lay_group)
               | E_prim "[" E_0 "]"                   (Lay_index)
               | E_prim "[" [E_0] ":" [E_0] "]"       (Lay_slice)
               | E_prim "." ident | E_prim ".(" type ")"   (Lay_dot, Lay_assert)
               | "(" fname E_0 ... E_0 ")"                (Lay_call; arguments separated by whitespace)
               | "[" E_0 ... E_0 "]"                      (Lay_arr; elements separated by whitespace)
               | "{" ident ":" E_0 ... ident ":" E_0 "}"  (Lay_map; pairs separated by whitespace) *)
Inductive Lay : nat -> lexp -> Prop :=
| Lay_up n l : Lay (S n) l -> Lay n l
| Lay_bin o l ws r : Lay (rank o) l -> Lay (S (rank o)) r -> Lay (rank o) (LBin o l ws r)
| Lay_un o e : Lay rank_unary e -> Lay rank_unary (LUn o e)
| Lay_atom a ws : Lay rank_primary (LAtom a ws)
| Lay_group w1 e w2 : Lay 0 e -> Lay rank_primary (LGroup w1 e w2)
| Lay_index e w1 i w2 : Lay rank_primary e -> Lay 0 i -> Lay rank_primary (LIndex e w1 i w2)
| Lay_slice e w1 s w2 t w3 :
    Lay rank_primary e -> (forall x, s = Some x -> Lay 0 x) -> (forall x, t = Some x -> Lay 0 x) ->
    Lay rank_primary (LSlice e w1 s w2 t w3)
| Lay_dot e k w : Lay rank_primary e -> Lay rank_primary (LDot e k w)
| Lay_assert e w1 t w2 w3 : Lay rank_primary e -> Lay rank_primary (LAssert e w1 t w2 w3)
| Lay_call w1 f args wl w2 : (forall a, In a args -> Lay 0 a) -> Lay rank_primary (LCall w1 f args wl w2)
| Lay_arr w1 elems wl w2 : (forall a, In a elems -> Lay 0 a) -> Lay rank_primary (LArr w1 elems wl w2)
| Lay_map w1 pairs wl w2 : (forall p, In p pairs -> Lay 0 (snd p)) -> Lay rank_primary (LMap w1 pairs wl w2).

(* the tree the grammar prescribes *)
Fixpoint tree_of (l : lexp) : tree :=
  match l with
  | LAtom a _ => atom_tree a
  | LGroup _ e _ => TGroup (tree_of e)
  | LUn o e => TUn (unop_tok o) (tree_of e)
  | LBin o a _ b => TBin (binop_tok o) (tree_of a) (tree_of b)
  | LIndex e _ i _ => TIndex (tree_of e) (tree_of i)
  | LSlice e _ s _ t _ =>
      TSlice (tree_of e) (match s with Some x => Some (tree_of x) | None => None end)
                         (match t with Some x => Some (tree_of x) | None => None end)
  | LDot e k _ => TDot (tree_of e) k
  | LAssert e _ t _ _ => TAssert (tree_of e) (Some t)
  | LCall _ f args _ _ => TGroup (TCall f (map tree_of args))     (* parseGroupedExpr wraps the call *)
  | LArr _ elems _ _ => TArr (map tree_of elems)
  | LMap _ pairs _ _ => TMap (map (fun p => match p with (k, _, v) => (k, tree_of v) end) pairs)
  end.

(* derivations without layout *)
Inductive sexp :=
| SAtom (a : atom) | SGroup (e : sexp) | SUn (o : unop) (e : sexp) | SBin (o : binop) (l r : sexp)
| SIndex (e i : sexp) | SSlice (e : sexp) (s t : option sexp) | SDot (e : sexp) (k : str) | SAssert (e : sexp) (t : ty)
| SCall (f : str) (args : list sexp) | SArr (elems : list sexp) | SMap (pairs : list (str * sexp)).
Fixpoint erase (l : lexp) : sexp :=
  match l with
  | LAtom a _ => SAtom a
  | LGroup _ e _ => SGroup (erase e)
  | LUn o e => SUn o (erase e)
  | LBin o a _ b => SBin o (erase a) (erase b)
  | LIndex e _ i _ => SIndex (erase e) (erase i)
  | LSlice e _ s _ t _ =>
      SSlice (erase e) (match s with Some x => Some (erase x) | None => None end)
                       (match t with Some x => Some (erase x) | None => None end)
  | LDot e k _ => SDot (erase e) k
  | LAssert e _ t _ _ => SAssert (erase e) t
  | LCall _ f args _ _ => SCall f (map erase args)
  | LArr _ elems _ _ => SArr (map erase elems)
  | LMap _ pairs _ _ => SMap (map (fun p => match p with (k, _, v) => (k, erase v) end) pairs)
  end.
Fixpoint stree (s : sexp) : tree :=
  match s with
  | SAtom a => atom_tree a
  | SGroup e => TGroup (stree e)
  | SUn o e => TUn (unop_tok o) (stree e)
  | SBin o a b => TBin (binop_tok o) (stree a) (stree b)
  | SIndex e i => TIndex (stree e) (stree i)
  | SSlice e s t =>
      TSlice (stree e) (match s with Some x => Some (stree x) | None => None end)
                       (match t with Some x => Some (stree x) | None => None end)
  | SDot e k => TDot (stree e) k
  | SAssert e t => TAssert (stree e) (Some t)
  | SCall f args => TGroup (TCall f (map stree args))
  | SArr elems => TArr (map stree elems)
  | SMap pairs => TMap (map (fun p => match p with (k, v) => (k, stree v) end) pairs)
  end.

(* token rendering; one WS token stands for any run of blanks (the lexer merges them) *)
Definition wsl (b : bool) : list token := if b then [mk T_WS] else [].
Fixpoint render_ty (t : ty) : list token :=
  match t with
  | TyNum => [mk T_NUM] | TyStr => [mk T_STRING] | TyBool => [mk T_BOOL] | TyAny => [mk T_ANY]
  | TyArr s => mk T_LBRACKET :: mk T_RBRACKET :: render_ty s
  | TyMap s => mk T_LCURLY :: mk T_RCURLY :: render_ty s
  end.
Definition ident_tok (k : str) : token := {| ttype := T_IDENT; tlit := k |}.
(* a whitespace-separated sequence: each item is followed by whitespace, the last one by wl *)
Definition render_seq (r : lexp -> list token) : list lexp -> bool -> list token :=
  fix go (args : list lexp) (wl : bool) : list token :=
    match args with [] => [] | a :: t => r a ++ wsl (seq_flag t wl) ++ go t wl end.
Lemma render_seq_nil r wl : render_seq r [] wl = [].
Proof. reflexivity. Qed.
Lemma render_seq_cons r a t wl : render_seq r (a :: t) wl = r a ++ wsl (seq_flag t wl) ++ render_seq r t wl.
Proof. reflexivity. Qed.
Arguments render_seq r args wl : simpl never.
(* the pairs of a map literal *)
Definition render_pairs (r : lexp -> list token) : list (str * bool * lexp) -> bool -> list token :=
  fix go (ps : list (str * bool * lexp)) (wl : bool) : list token :=
    match ps with
    | [] => []
    | (k, wc, v) :: t => ident_tok k :: mk T_COLON :: wsl wc ++ r v ++ wsl (seq_flag t wl) ++ go t wl
    end.
Lemma render_pairs_nil r wl : render_pairs r [] wl = [].
Proof. reflexivity. Qed.
Lemma render_pairs_cons r k wc v t wl :
  render_pairs r ((k, wc, v) :: t) wl = ident_tok k :: mk T_COLON :: wsl wc ++ r v ++ wsl (seq_flag t wl) ++ render_pairs r t wl.
Proof. reflexivity. Qed.
Arguments render_pairs r ps wl : simpl never.
Fixpoint render (l : lexp) : list token :=
  match l with
  | LAtom a ws => atom_tok a :: wsl ws
  | LGroup w1 e w2 => mk T_LPAREN :: wsl w1 ++ render e ++ mk T_RPAREN :: wsl w2
  | LUn o e => mk (unop_tok o) :: render e
  | LBin o a ws b => render a ++ mk (binop_tok o) :: wsl ws ++ render b
  | LIndex e w1 i w2 => render e ++ mk T_LBRACKET :: wsl w1 ++ render i ++ mk T_RBRACKET :: wsl w2
  | LSlice e w1 s w2 t w3 =>
      render e ++ mk T_LBRACKET :: wsl w1 ++ (match s with Some x => render x | None => [] end) ++
      mk T_COLON :: wsl w2 ++ (match t with Some x => render x | None => [] end) ++ mk T_RBRACKET :: wsl w3
  | LDot e k w => render e ++ mk T_DOT :: ident_tok k :: wsl w
  | LAssert e w1 t w2 w3 => render e ++ mk T_DOT :: mk T_LPAREN :: wsl w1 ++ render_ty t ++ wsl w2 ++ mk T_RPAREN :: wsl w3
  | LCall w1 f args wl w2 =>
      mk T_LPAREN :: wsl w1 ++ ident_tok f :: wsl (seq_flag args wl) ++ render_seq render args wl ++ mk T_RPAREN :: wsl w2
  | LArr w1 elems wl w2 =>
      mk T_LBRACKET :: wsl w1 ++ render_seq render elems wl ++ mk T_RBRACKET :: wsl w2
  | LMap w1 pairs wl w2 =>
      mk T_LCURLY :: wsl w1 ++ render_pairs render pairs wl ++ mk T_RCURLY :: wsl w2
  end.

(* is the last token of l followed by whitespace *)
Fixpoint last_ws (l : lexp) : bool :=
  match l with
  | LAtom _ ws => ws
  | LGroup _ _ w2 => w2
  | LUn _ e => last_ws e
  | LBin _ _ _ b => last_ws b
  | LIndex _ _ _ w2 => w2
  | LSlice _ _ _ _ _ w3 => w3
  | LDot _ _ w => w
  | LAssert _ _ _ _ w3 => w3
  | LCall _ _ _ _ w2 => w2
  | LArr _ _ _ w2 => w2
  | LMap _ _ _ w2 => w2
  end.

(* layouts legal in a whitespace-sensitive ("tight") context: no whitespace
   outside parentheses / brackets (rules 4-9 of §Horizontal Whitespace) *)
Fixpoint tight_ok (l : lexp) : bool :=
  match l with
  | LAtom _ ws => negb ws
  | LGroup _ _ w2 => negb w2
  | LUn _ e => tight_ok e
  | LBin _ a ws b => negb ws && tight_ok a && tight_ok b
  | LIndex e _ _ w2 => negb w2 && tight_ok e
  | LSlice e _ _ _ _ w3 => negb w3 && tight_ok e
  | LDot e _ w => negb w && tight_ok e
  | LAssert e _ _ _ w3 => negb w3 && tight_ok e
  | LCall _ _ _ _ w2 => negb w2
  | LArr _ _ _ w2 => negb w2      (* whitespace just inside the brackets is legal everywhere *)
  | LMap _ _ _ w2 => negb w2
  end.

(* layouts legal in every context: no whitespace before "[" and around "." (rules 1, 2) *)
Fixpoint layout_ok (l : lexp) : bool :=
  match l with
  | LAtom _ _ => true
  | LGroup _ e _ => layout_ok e
  | LUn _ e => layout_ok e
  | LBin _ a _ b => layout_ok a && layout_ok b
  | LIndex e _ i _ => negb (last_ws e) && layout_ok e && layout_ok i
  | LSlice e _ s _ t _ =>
      negb (last_ws e) && layout_ok e && (match s with Some x => layout_ok x | None => true end) &&
      (match t with Some x => layout_ok x | None => true end)
  | LDot e _ _ => negb (last_ws e) && layout_ok e
  | LAssert e _ _ _ _ => negb (last_ws e) && layout_ok e
  | LCall _ _ args _ _ => forallb (fun a => layout_ok a && tight_ok a) args
  | LArr _ elems _ _ => forallb (fun a => layout_ok a && tight_ok a) elems
  | LMap _ pairs _ _ => forallb (fun p => layout_ok (snd p) && tight_ok (snd p)) pairs
  end.

(* the last token of l is the closing bracket of a slice (the site of the parseSlice defect) *)
Fixpoint ends_with_slice (l : lexp) : bool :=
  match l with
  | LSlice _ _ _ _ _ _ => true
  | LUn _ e => ends_with_slice e
  | LBin _ _ _ b => ends_with_slice b
  | _ => false
  end.

(* side conditions on an argument list: [ok] of every argument, and — as parseSlice is written
   (e_fix_slice = false) — an argument ending in a slice is not followed by whitespace *)
Definition args_ok (E : env) (ok : lexp -> Prop) (wl : bool) : list lexp -> Prop :=
  fix go (l : list lexp) : Prop :=
    match l with
    | [] => True
    | a :: t => (ok a /\ (e_fix_slice E = false -> ends_with_slice a = true -> seq_flag t wl = false)) /\ go t
    end.

Definition pairs_ok (E : env) (ok : lexp -> Prop) (wl : bool) : list (str * bool * lexp) -> Prop :=
  fix go (l : list (str * bool * lexp)) : Prop :=
    match l with
    | [] => True
    | p :: t => (ok (snd p) /\ (e_fix_slice E = false -> ends_with_slice (snd p) = true -> seq_flag t wl = false)) /\ go t
    end.
(* parseMapPairs rejects a key that occurred before *)
Fixpoint keys_fresh (seen : list str) (ks : list str) : Prop :=
  match ks with
  | [] => True
  | k :: t => existsb (fun k' => str_eqb k' k) seen = false /\ keys_fresh (k :: seen) t
  end.
Definition pair_key (p : str * bool * lexp) : str := fst (fst p).

(* side conditions on atoms: number literals are well formed, variables are
   declared, not "_", and not function names; asserted types are not "any" *)
Fixpoint atoms_ok (E : env) (l : lexp) : Prop :=
  match l with
  | LAtom (ANum lit) _ => num_lit_ok lit = true
  | LAtom (AVar n) _ => str_eqb n (s_ "_"%string) = false /\ mem_str n (e_vars E) = true /\ func_of E n = None
  | LAtom _ _ => True
  | LGroup _ e _ => atoms_ok E e
  | LUn _ e => atoms_ok E e
  | LBin _ a _ b => atoms_ok E a /\ atoms_ok E b
  | LIndex e _ i _ => atoms_ok E e /\ atoms_ok E i
  | LSlice e _ s _ t _ =>
      atoms_ok E e /\ (match s with Some x => atoms_ok E x | None => True end) /\
      (match t with Some x => atoms_ok E x | None => True end)
  | LDot e _ _ => atoms_ok E e
  | LAssert e _ t _ _ => atoms_ok E e /\ t <> TyAny
  | LCall _ f args wl _ =>
      (* f is a function with parameters, called with the right number of arguments *)
      func_of E f = Some false /\ arity_wrong E f (List.length args) = false /\ args_ok E (atoms_ok E) wl args
  | LArr _ elems wl _ => args_ok E (atoms_ok E) wl elems
  | LMap _ pairs wl _ => keys_fresh [] (map pair_key pairs) /\ pairs_ok E (atoms_ok E) wl pairs
  end.

(** * The binding-power table is the specification's order *)

Definition prec_table_spec : Prop :=
  (* the binary levels are ordered as in §Precedence, operators of one level have equal power *)
  (forall a b, Nat.compare (precedences (binop_tok a)) (precedences (binop_tok b)) = Nat.compare (rank a) (rank b)) /\
  (* every binary operator binds tighter than "no operator" and looser than a unary operator *)
  (forall a, lowestPrec < precedences (binop_tok a) /\ precedences (binop_tok a) < unary_operand_prec) /\
  (* indexing and dot bind tighter than unary operators *)
  unary_operand_prec < precedences T_LBRACKET /\ precedences T_DOT = precedences T_LBRACKET /\
  (* the tokens treated as binary operators are exactly the operators of the table *)
  (forall t, is_binary_op t = true <-> exists o, t = binop_tok o) /\
  (* nothing else has a binding power *)
  (forall t, is_binary_op t = false -> t <> T_LBRACKET -> t <> T_DOT -> precedences t = lowestPrec) /\
  (* the right operand of a binary operator is parsed at the operator's own power and the
     loop continues only on strictly greater power: left associativity *)
  (forall p, binary_operand_prec p = p) /\
  (forall p b, loop_continues p b = true <-> p < b).

Lemma prec_table_spec_holds : prec_table_spec.
Proof.
  unfold prec_table_spec.
  split; [|split; [|split; [|split; [|split; [|split; [|split]]]]]].
  - (* order of the binary levels *) intros a b; destruct a, b; reflexivity.
  - (* lowest < binary < unary *) intro a; split; destruct a; vm_compute; lia.
  - (* unary < index *) vm_compute; lia.
  - (* dot = index *) reflexivity.
  - (* is_binary_op = the operator table *)
    intro t; split.
    + intro H. destruct t; try discriminate H;
        first [ now (exists BOr) | now (exists BAnd) | now (exists BEq) | now (exists BNe) | now (exists BLt) | now (exists BLe)
              | now (exists BGt) | now (exists BGe) | now (exists BAdd) | now (exists BSub) | now (exists BMul) | now (exists BDiv) | now (exists BMod) ].
    + intros [o ->]. destruct o; reflexivity.
  - (* no other token has a power *)
    intros t Hb H1 H2. destruct t; try reflexivity; try discriminate Hb; congruence.
  - (* right operand parsed at the operator's own power *) intro p; reflexivity.
  - (* loop continues on strictly greater power only *)
    intros p b; unfold loop_continues; apply Nat.ltb_lt.
Qed.

(* the facts the Pratt argument uses, extracted once *)
Definition bp (o : binop) : nat := precedences (binop_tok o).

Lemma bp_rank_lt a b : rank a < rank b <-> bp a < bp b.
Proof.
  destruct prec_table_spec_holds as [H _]. specialize (H a b). unfold bp.
  rewrite <- !Nat.compare_lt_iff. rewrite H. tauto.
Qed.
Lemma bp_rank_le a b : rank a <= rank b <-> bp a <= bp b.
Proof.
  destruct prec_table_spec_holds as [H _]. specialize (H a b). unfold bp.
  rewrite <- !Nat.compare_le_iff. rewrite H. tauto.
Qed.
Lemma bp_lt_unary a : bp a < unary_operand_prec.
Proof. destruct prec_table_spec_holds as (_ & H & _). apply H. Qed.
Lemma bp_pos a : lowestPrec < bp a.
Proof. destruct prec_table_spec_holds as (_ & H & _). apply H. Qed.
Lemma unary_lt_index : unary_operand_prec < precedences T_LBRACKET.
Proof. destruct prec_table_spec_holds as (_ & _ & H & _). exact H. Qed.
Lemma binop_tok_is_binary o : is_binary_op (binop_tok o) = true.
Proof. destruct prec_table_spec_holds as (_ & _ & _ & _ & H & _). apply H. eauto. Qed.
Lemma binary_operand_prec_id p : binary_operand_prec p = p.
Proof. destruct prec_table_spec_holds as (_ & _ & _ & _ & _ & _ & H & _). apply H. Qed.
Lemma loop_continues_lt p b : loop_continues p b = true <-> p < b.
Proof. destruct prec_table_spec_holds as (_ & _ & _ & _ & _ & _ & _ & H). apply H. Qed.
Lemma loop_continues_false p b : b <= p -> loop_continues p b = false.
Proof.
  intro H. destruct (loop_continues p b) eqn:E; [|reflexivity]. apply loop_continues_lt in E. lia.
Qed.
Lemma rank_bounds o : 1 <= rank o <= 6.
Proof. destruct o; simpl; lia. Qed.
Lemma lowest_zero : lowestPrec = 0.
Proof. reflexivity. Qed.
Lemma rparen_lowest : precedences T_RPAREN = lowestPrec.
Proof. reflexivity. Qed.
Lemma rbracket_lowest : precedences T_RBRACKET = lowestPrec.
Proof. reflexivity. Qed.
Lemma rcurly_lowest : precedences T_RCURLY = lowestPrec.
Proof. reflexivity. Qed.
Lemma colon_lowest : precedences T_COLON = lowestPrec.
Proof. reflexivity. Qed.
Lemma dot_index : precedences T_DOT = precedences T_LBRACKET.
Proof. destruct prec_table_spec_holds as (_ & _ & _ & H & _). exact H. Qed.

(* from here on the table is used only through the lemmas above *)
Local Opaque precedences unary_operand_prec binary_operand_prec loop_continues lowestPrec.

(** * Cursor lemmas *)

(* the parser state after the tokens of l have been consumed, written with the
   model's own cursor primitives (so prev / peek are whatever the code makes them) *)
Definition consume_ty (t : ty) (st : pstate) : pstate := fold_left (fun s _ => advance s) (render_ty t) st.

(* lookupVar records that the variable has been read *)
Definition atom_mark (a : atom) (st : pstate) : pstate :=
  match a with AVar n => mark_used n st | _ => st end.

(* parseExprList: every argument is parsed by parseExprWSS, then advanceIfWS *)
Definition consume_args (c : lexp -> pstate -> pstate) : list lexp -> pstate -> pstate :=
  fix go (args : list lexp) (st : pstate) : pstate :=
    match args with [] => st | a :: t => go t (advance_if_ws (pop_wss (c a (push_wss true st)))) end.
Lemma consume_args_nil c st : consume_args c [] st = st.
Proof. reflexivity. Qed.
Lemma consume_args_cons c a t st :
  consume_args c (a :: t) st = consume_args c t (advance_if_ws (pop_wss (c a (push_wss true st)))).
Proof. reflexivity. Qed.
Arguments consume_args c args st : simpl never.

(* parseMapPairs: key with advance, ":" with advance, the value with parseExprWSS, parseMulitlineWS *)
Definition consume_pairs (c : lexp -> pstate -> pstate) : list (str * bool * lexp) -> pstate -> pstate :=
  fix go (ps : list (str * bool * lexp)) (st : pstate) : pstate :=
    match ps with
    | [] => st
    | p :: t => go t (advance_if_ws (pop_wss (c (snd p) (push_wss true (advance (advance st))))))
    end.
Lemma consume_pairs_nil c st : consume_pairs c [] st = st.
Proof. reflexivity. Qed.
Lemma consume_pairs_cons c p t st :
  consume_pairs c (p :: t) st = consume_pairs c t (advance_if_ws (pop_wss (c (snd p) (push_wss true (advance (advance st)))))).
Proof. reflexivity. Qed.
Arguments consume_pairs c ps st : simpl never.

Fixpoint consume (E : env) (l : lexp) (st : pstate) : pstate :=
  match l with
  | LAtom a _ => atom_mark a (advance st)
  | LGroup _ e _ => pop_wss (advance_wss (consume E e (advance (push_wss false st))))
  | LUn _ e => consume E e (advance st)
  | LBin _ a _ b => consume E b (advance (consume E a st))
  | LIndex e _ i _ => pop_wss (advance_wss (consume E i (advance (push_wss false (consume E e st)))))
  | LSlice e _ s _ t _ =>
      let st1 := advance (push_wss false (consume E e st)) in
      let st2 := match s with Some x => consume E x st1 | None => st1 end in
      let st3 := advance st2 in
      let st4 := match t with Some x => consume E x st3 | None => st3 end in
      pop_wss (slice_close E st4)
  | LDot e _ _ => advance (advance (consume E e st))
  | LAssert e _ t _ _ =>
      pop_wss (advance_wss (consume_ty t (advance (advance (push_wss false (consume E e st))))))
  | LCall _ _ args _ _ =>
      pop_wss (advance_wss (consume_args (consume E) args (advance (advance (push_wss false st)))))
  | LArr _ elems _ _ =>
      (* "[" with advance, parseMulitlineWS, the elements (parseExprWSS + parseMulitlineWS each), "]" with advance *)
      advance (consume_args (consume E) elems (advance_if_ws (advance st)))
  | LMap _ pairs _ _ =>
      pop_wss (advance_wss (consume_pairs (consume E) pairs (advance_if_ws (advance (push_wss false st)))))
  end.

Fixpoint first_tok (l : lexp) : token :=
  match l with
  | LAtom a _ => atom_tok a
  | LGroup _ _ _ => mk T_LPAREN
  | LUn o _ => mk (unop_tok o)
  | LBin _ a _ _ => first_tok a
  | LIndex e _ _ _ => first_tok e
  | LSlice e _ _ _ _ _ => first_tok e
  | LDot e _ _ => first_tok e
  | LAssert e _ _ _ _ => first_tok e
  | LCall _ _ _ _ _ => mk T_LPAREN
  | LArr _ _ _ _ => mk T_LBRACKET
  | LMap _ _ _ _ => mk T_LCURLY
  end.

Lemma atom_tok_not_ws a : is_ws (atom_tok a) = false.
Proof. destruct a as [| |[]|]; reflexivity. Qed.

Lemma render_first l : exists r, render l = first_tok l :: r.
Proof.
  induction l as [a ws|w1 e w2 IH|o e IH|o a ws b IHa IHb|e w1 i w2 IHe IHi|e w1 s w2 t w3 IHe IHs IHt|e k w IHe|e w1 t w2 w3 IHe|w1 f args wz w2 IHargs|w1 args wz w2 IHargs|w1 pairs wz w2 IHpairs]
    using lexp_ind'; simpl; eauto;
  destruct IHe as [r ->] || destruct IHa as [r ->]; simpl; eauto.
Qed.

(* the first token of an expression is one of the ten prefix tokens *)
Definition prefix_tt (t : toktype) : Prop :=
  t = T_NUM_LIT \/ t = T_STRING_LIT \/ t = T_TRUE \/ t = T_FALSE \/ t = T_IDENT \/ t = T_LPAREN \/ t = T_MINUS \/ t = T_BANG \/
  t = T_LBRACKET \/ t = T_LCURLY.

Lemma first_tok_prefix l : prefix_tt (ttype (first_tok l)).
Proof.
  unfold prefix_tt.
  induction l as [a ws|w1 e w2 IH|o e IH|o a ws b IHa IHb|e w1 i w2 IHe IHi|e w1 s w2 t w3 IHe IHs IHt|e k w IHe|e w1 t w2 w3 IHe|w1 f args wz w2 IHargs|w1 args wz w2 IHargs|w1 pairs wz w2 IHpairs]
    using lexp_ind'; simpl; auto; try tauto.
  - destruct a as [| |[]|]; simpl; tauto.
  - destruct o; simpl; tauto.
Qed.

(* the case analysis over the prefix tokens, for every use below *)
Lemma prefix_tt_cases (P : toktype -> Prop) :
  P T_NUM_LIT -> P T_STRING_LIT -> P T_TRUE -> P T_FALSE -> P T_IDENT -> P T_LPAREN -> P T_MINUS -> P T_BANG ->
  P T_LBRACKET -> P T_LCURLY -> forall t, prefix_tt t -> P t.
Proof. unfold prefix_tt. intuition (subst; assumption). Qed.

Lemma first_tok_not_ws l : is_ws (first_tok l) = false.
Proof. unfold is_ws. generalize (ttype (first_tok l)), (first_tok_prefix l). apply prefix_tt_cases; reflexivity. Qed.

Lemma render_head_not_ws l r : is_ws (look0 (render l ++ r)) = false.
Proof. destruct (render_first l) as [x ->]. simpl. apply first_tok_not_ws. Qed.

Lemma advance_tok st t ws rest0 :
  rest st = t :: wsl ws ++ rest0 ->
  (is_wss st = true -> ws = false) ->
  (is_wss st = false -> is_ws (look0 rest0) = false) ->
  rest (advance st) = rest0 /\ wss (advance st) = wss st /\ errs (advance st) = errs st /\
  prev (advance st) = (if ws then mk T_WS else t) /\
  (is_ws (look1 rest0) = false -> peek (advance st) = look1 rest0).
Proof.
  intros Hr Ht Hf. unfold advance.
  set (s1 := advance_wss st).
  assert (R1 : rest s1 = wsl ws ++ rest0) by (unfold s1; simpl; rewrite Hr; reflexivity).
  assert (P1 : prev s1 = t) by (unfold s1; simpl; unfold cur; rewrite Hr; reflexivity).
  assert (K1 : peek s1 = look1 (rest s1)) by reflexivity.
  assert (W1 : is_wss s1 = is_wss st) by reflexivity.
  rewrite W1. destruct (is_wss st) eqn:W.
  - rewrite (Ht eq_refl) in *. change (rest s1 = rest0) in R1. rewrite R1 in K1. repeat split; auto.
  - specialize (Hf eq_refl). unfold advance_if_ws. destruct ws.
    + assert (C : is_ws (cur s1) = true) by (unfold cur; rewrite R1; reflexivity).
      rewrite C. set (s2 := advance_wss s1).
      assert (R2 : rest s2 = rest0) by (unfold s2, advance_wss; cbn [rest]; rewrite R1; reflexivity).
      assert (P2 : prev s2 = mk T_WS) by (unfold s2, advance_wss, cur; cbn [prev]; rewrite R1; reflexivity).
      assert (K2 : peek s2 = look1 rest0) by (unfold s2, advance_wss; cbn [peek]; rewrite R1; reflexivity).
      destruct (is_ws (peek s2)) eqn:Q; simpl; repeat split; auto.
      intro Q'. rewrite K2, Q' in Q. discriminate Q.
    + assert (C : is_ws (cur s1) = false) by (unfold cur; rewrite R1; exact Hf).
      rewrite C. change (rest s1 = rest0) in R1. rewrite R1 in K1.
      destruct (is_ws (peek s1)) eqn:Q; simpl; repeat split; auto.
      intro Q'. rewrite K1 in Q. unfold look1 in *. rewrite Q' in Q. discriminate Q.
Qed.

(* popWSS: drop the top of the stack; outside a whitespace-sensitive context skip a pending blank *)
Lemma pop_wss_eq st b w : wss st = b :: w ->
  pop_wss st =
  let st1 := {| prev := prev st; rest := rest st; peek := peek st; wss := w; errs := errs st; used := used st |} in
  if negb (hd false w) && is_ws (look0 (rest st)) then advance st1 else st1.
Proof. intro H. unfold pop_wss. rewrite H. reflexivity. Qed.

Lemma pop_wss_spec st w2 rest0 b w :
  rest st = wsl w2 ++ rest0 -> wss st = b :: w ->
  (hd false w = true -> w2 = false) ->
  (hd false w = false -> is_ws (look0 rest0) = false) ->
  rest (pop_wss st) = rest0 /\ wss (pop_wss st) = w /\ errs (pop_wss st) = errs st /\
  (w2 = false -> prev (pop_wss st) = prev st) /\
  (is_ws (look1 rest0) = false -> (w2 = false -> peek st = look1 rest0) -> peek (pop_wss st) = look1 rest0).
Proof.
  intros Hr Hw Ht Hf. rewrite (pop_wss_eq st b w Hw). cbv zeta.
  destruct (hd false w) eqn:W; cbn [negb andb].
  - rewrite (Ht eq_refl) in *. cbn [rest wss errs prev peek]. auto 6.
  - specialize (Hf eq_refl).
    assert (C : is_ws (look0 (rest st)) = w2) by (rewrite Hr; destruct w2; [reflexivity|exact Hf]).
    rewrite C. destruct w2; cbv iota.
    + destruct (advance_tok {| prev := prev st; rest := rest st; peek := peek st; wss := w; errs := errs st; used := used st |}
                  (mk T_WS) false rest0) as (A & B & C' & _ & P); auto.
      rewrite A, B, C'. repeat split; auto. discriminate.
    + cbn [rest wss errs prev peek]. auto 6.
Qed.

Lemma app_cons_assoc {A} (l1 : list A) x l2 l3 : (l1 ++ x :: l2) ++ l3 = l1 ++ x :: l2 ++ l3.
Proof. rewrite <- app_assoc. reflexivity. Qed.

Lemma tight_ok_last_ws l : tight_ok l = true -> last_ws l = false.
Proof.
  induction l as [a ws|w1 e w2 IH|o e IH|o a ws b IHa IHb|e w1 i w2 IHe IHi|e w1 s w2 t w3 IHe IHs IHt|e k w IHe|e w1 t w2 w3 IHe|w1 f args wz w2 IHargs|w1 args wz w2 IHargs|w1 pairs wz w2 IHpairs]
    using lexp_ind'; simpl; intro Ht; auto;
    repeat (apply andb_true_iff in Ht; destruct Ht as [Ht ?]); auto;
    match goal with |- ?b = false => destruct b; simpl in *; congruence end.
Qed.

(* what is known about the state st' reached from st after the tokens of an
   expression whose last token has trailing-whitespace flag lw, with rest0 left *)
Definition after (st st' : pstate) (lw : bool) (rest0 : list token) : Prop :=
  rest st' = rest0 /\ wss st' = wss st /\ errs st' = errs st /\
  (lw = false -> is_ws (prev st') = false) /\
  (is_ws (look1 rest0) = false -> peek st' = look1 rest0).

(* the part of [after] that survives the loops over arguments, elements and pairs
   (advanceIfWS and parseMulitlineWS leave prev and peek behind) *)
Definition reaches (st st' : pstate) (rest0 : list token) : Prop :=
  rest st' = rest0 /\ wss st' = wss st /\ errs st' = errs st.

Lemma is_wss_eq s s' : wss s' = wss s -> is_wss s' = is_wss s.
Proof. unfold is_wss. intros ->. reflexivity. Qed.

Lemma after_reaches {st st' lw r} : after st st' lw r -> reaches st st' r.
Proof. intros (A & B & C & _). repeat split; assumption. Qed.

Lemma reaches_wss {st st' r} : reaches st st' r -> is_wss st' = is_wss st.
Proof. intros (_ & B & _). apply is_wss_eq, B. Qed.

Lemma after_wss {st st' lw r} : after st st' lw r -> is_wss st' = is_wss st.
Proof. intro H. exact (reaches_wss (after_reaches H)). Qed.

Lemma reaches_trans {st s1 s2 r1 r2} : reaches st s1 r1 -> reaches s1 s2 r2 -> reaches st s2 r2.
Proof. intros (_ & B1 & C1) (A2 & B2 & C2). unfold reaches. rewrite B2, C2. auto. Qed.

Lemma after_from {st s1 s2 r1 lw r2} : reaches st s1 r1 -> after s1 s2 lw r2 -> after st s2 lw r2.
Proof. intros (_ & B1 & C1) (A2 & B2 & C2 & D2). unfold after. rewrite B2, C2. auto. Qed.

Lemma after_trans {st s1 s2 lw1 r1 lw r2} : after st s1 lw1 r1 -> after s1 s2 lw r2 -> after st s2 lw r2.
Proof. intro H. exact (after_from (after_reaches H)). Qed.

(* p.advance() over a token that is not itself whitespace *)
Lemma after_advance st t w r :
  rest st = t :: wsl w ++ r -> is_ws t = false ->
  (is_wss st = true -> w = false) -> (is_wss st = false -> is_ws (look0 r) = false) ->
  after st (advance st) w r.
Proof.
  intros Hr Hn Ht Hf. destruct (advance_tok st t w r Hr Ht Hf) as (A & B & C & D & P).
  repeat split; auto. intros ->. rewrite D. exact Hn.
Qed.

Lemma after_advance_free st t w r :
  rest st = t :: wsl w ++ r -> is_ws t = false -> is_wss st = false -> is_ws (look0 r) = false ->
  after st (advance st) w r.
Proof. intros Hr Hn Hs Hh. apply (after_advance st t); auto. rewrite Hs. discriminate. Qed.

(* an opening bracket: pushWSS(false), then p.advance() *)
Lemma after_open st t w r :
  rest st = t :: wsl w ++ r -> is_ws t = false -> is_ws (look0 r) = false ->
  after (push_wss false st) (advance (push_wss false st)) w r.
Proof. intros Hr Hn Hh. apply (after_advance_free _ t); auto. Qed.

(* the matching closing bracket: advanceWSS, then popWSS, which skips the whitespace
   after the bracket exactly when the outer context is not whitespace sensitive *)
Lemma after_close st s t w r :
  reaches (push_wss false st) s (t :: wsl w ++ r) -> is_ws t = false ->
  (is_wss st = true -> w = false) -> (is_wss st = false -> is_ws (look0 r) = false) ->
  after st (pop_wss (advance_wss s)) w r.
Proof.
  intros (A & B & C) Hn Ht Hf.
  destruct (pop_wss_spec (advance_wss s) w r false (wss st)) as (A3 & B3 & C3 & D3 & P3); auto.
  { simpl. rewrite A. reflexivity. }
  unfold after. rewrite A3, B3, C3. repeat split; auto.
  - intro W. rewrite (D3 W). simpl. unfold cur. rewrite A. exact Hn.
  - intro Q. apply P3; auto. intros ->. simpl. rewrite A. reflexivity.
Qed.

(* popWSS when no whitespace is pending *)
Lemma after_pop st s lw r :
  after (push_wss false st) s lw r -> is_ws (look0 r) = false -> after st (pop_wss s) lw r.
Proof.
  intros (A & B & C & D & P) Hn.
  destruct (pop_wss_spec s false r false (wss st) A B) as (A' & B' & C' & D' & P'); auto.
  unfold after. rewrite A', B', C', (D' eq_refl). repeat split; auto.
Qed.

Lemma after_mark a st s lw r : after st s lw r -> after st (atom_mark a s) lw r.
Proof. intro H. destruct a; exact H. Qed.

Lemma imp_andb (c x y : bool) : (c = true -> x && y = true) -> (c = true -> x = true) /\ (c = true -> y = true).
Proof. intro H. split; intro W; destruct (andb_prop _ _ (H W)); assumption. Qed.
Lemma imp_negb (c w : bool) : (c = true -> negb w = true) -> c = true -> w = false.
Proof. intros H W. apply negb_true_iff, H, W. Qed.

Lemma unop_tok_not_ws o : is_ws (mk (unop_tok o)) = false.
Proof. destruct o; reflexivity. Qed.
Lemma binop_tok_not_ws o : is_ws (mk (binop_tok o)) = false.
Proof. destruct o; reflexivity. Qed.

Lemma render_ty_head_not_ws t r : is_ws (look0 (render_ty t ++ r)) = false.
Proof. destruct t; reflexivity. Qed.

(* consuming the tokens of a type inside the parentheses of an assertion (free context) *)
Lemma consume_ty_spec t : forall st w rest0,
  rest st = render_ty t ++ wsl w ++ rest0 -> is_wss st = false -> is_ws (look0 rest0) = false ->
  rest (consume_ty t st) = rest0 /\ wss (consume_ty t st) = wss st /\ errs (consume_ty t st) = errs st.
Proof.
  unfold consume_ty.
  induction t; intros st w rest0 Hr Hw Hf; simpl in *;
    try exact (after_reaches (after_advance_free st _ w rest0 Hr eq_refl Hw Hf)).
  (* "[" "]" and "{" "}" *)
  all: pose proof (after_advance_free st _ false _ Hr eq_refl Hw eq_refl) as A1;
    pose proof (after_advance_free _ _ false _ (proj1 A1) eq_refl (eq_trans (after_wss A1) Hw)
                  (render_ty_head_not_ws t _)) as A2;
    apply (reaches_trans (after_reaches (after_trans A1 A2))), (IHt _ w);
    [exact (proj1 A2)|rewrite (after_wss A2), (after_wss A1); exact Hw|exact Hf].
Qed.

Ltac norm_app H := repeat (rewrite <- app_assoc in H || rewrite <- app_comm_cons in H); simpl in H.

Definition consume_stmt (E : env) (l : lexp) : Prop := forall st rest0,
  rest st = render l ++ rest0 ->
  layout_ok l = true ->
  (is_wss st = true -> tight_ok l = true) ->
  (is_wss st = false -> is_ws (look0 rest0) = false) ->
  (e_fix_slice E = false -> ends_with_slice l = true -> is_ws (look0 rest0) = false) ->
  atoms_ok E l ->      (* only for the slice guard on call arguments it contains *)
  after st (consume E l st) (last_ws l) rest0.

(* inside brackets: a free context, and the token that follows is not whitespace *)
Lemma consume_free E e : consume_stmt E e -> forall st r,
  rest st = render e ++ r -> is_wss st = false -> is_ws (look0 r) = false ->
  layout_ok e = true -> atoms_ok E e ->
  after st (consume E e st) (last_ws e) r.
Proof. intros IH st r Hr Hs Hh Hl Ha. apply IH; auto. rewrite Hs. discriminate. Qed.

Lemma render_seq_head_not_ws args wz r :
  is_ws (look0 r) = false -> is_ws (look0 (render_seq render args wz ++ r)) = false.
Proof.
  intro H. destruct args as [|a t]; [rewrite render_seq_nil; exact H|].
  rewrite render_seq_cons, <- app_assoc. apply render_head_not_ws.
Qed.

(* popWSS, then skipping one whitespace token if it is still there: in a free outer context popWSS
   itself skips it, in a whitespace-sensitive one advanceIfWS / parseMulitlineWS does *)
Lemma pop_then_skip s1 w rest1 b ws0 :
  rest s1 = wsl w ++ rest1 -> wss s1 = b :: ws0 -> is_ws (look0 rest1) = false ->
  rest (advance_if_ws (pop_wss s1)) = rest1 /\ wss (advance_if_ws (pop_wss s1)) = ws0 /\
  errs (advance_if_ws (pop_wss s1)) = errs s1.
Proof.
  intros Hr Hw Hn. destruct (hd false ws0) eqn:W.
  - rewrite (pop_wss_eq s1 b ws0 Hw), W. unfold advance_if_ws, cur. simpl. rewrite Hr. destruct w; simpl.
    + auto.
    + rewrite Hn. simpl. auto.
  - destruct (pop_wss_spec s1 w rest1 b ws0 Hr Hw) as (A & B & C & _).
    { intro X. rewrite X in W. discriminate. } { intros _. exact Hn. }
    assert (I : advance_if_ws (pop_wss s1) = pop_wss s1) by (unfold advance_if_ws, cur; rewrite A, Hn; reflexivity).
    rewrite I. auto.
Qed.

(* the opening bracket of an array literal: advance, then parseMulitlineWS *)
Lemma open_spec st t w r : rest st = t :: wsl w ++ r -> is_ws (look0 r) = false ->
  reaches st (advance_if_ws (advance st)) r.
Proof.
  intros Hr Hn. unfold reaches. destruct (is_wss st) eqn:W.
  - assert (A : advance st = advance_wss st).
    { unfold advance. change (is_wss (advance_wss st)) with (is_wss st). rewrite W. reflexivity. }
    rewrite A. unfold advance_if_ws, cur. simpl. rewrite Hr. simpl. destruct w; simpl.
    + rewrite Hr. simpl. auto.
    + rewrite Hn. simpl. rewrite Hr. auto.
  - destruct (advance_tok st t w r Hr) as (A & B & C & _).
    { rewrite W; discriminate. } { intros _; exact Hn. }
    assert (I : advance_if_ws (advance st) = advance st) by (unfold advance_if_ws, cur; rewrite A, Hn; reflexivity).
    rewrite I. auto.
Qed.

(* one argument of a call / element of an array literal: parseExprWSS, then advanceIfWS / parseMulitlineWS *)
Lemma arg_step E a : consume_stmt E a -> forall st w rest1,
  rest st = render a ++ wsl w ++ rest1 -> is_ws (look0 rest1) = false ->
  layout_ok a = true -> tight_ok a = true ->
  (e_fix_slice E = false -> ends_with_slice a = true -> w = false) -> atoms_ok E a ->
  reaches st (advance_if_ws (pop_wss (consume E a (push_wss true st)))) rest1.
Proof.
  intros IH st w rest1 Hr Hn Hl Ht Hg Ha.
  destruct (IH (push_wss true st) (wsl w ++ rest1) Hr Hl (fun _ => Ht)) as (A & B & C & _); auto.
  { intro W. discriminate W. }
  { intros F S. rewrite (Hg F S). exact Hn. }
  destruct (pop_then_skip _ w rest1 true (wss st) A B Hn) as (A2 & B2 & C2).
  repeat split; auto. rewrite C2. exact C.
Qed.

Lemma consume_args_spec E ok args : Forall (consume_stmt E) args -> forall st wz rest0,
  rest st = render_seq render args wz ++ rest0 -> is_ws (look0 rest0) = false ->
  forallb (fun a => layout_ok a && tight_ok a) args = true ->
  args_ok E ok wz args -> (forall a, ok a -> atoms_ok E a) ->
  rest (consume_args (consume E) args st) = rest0 /\
  wss (consume_args (consume E) args st) = wss st /\ errs (consume_args (consume E) args st) = errs st.
Proof.
  induction 1 as [|a t Ha Ht IH]; intros st wz rest0 Hr Hn Hl Hg Hok.
  - rewrite consume_args_nil. rewrite render_seq_nil in Hr. auto.
  - rewrite render_seq_cons in Hr. rewrite <- !app_assoc in Hr. rewrite consume_args_cons.
    simpl in Hl. apply andb_true_iff in Hl as [Hla Hlt]. apply andb_true_iff in Hla as [Hla Hta].
    destruct Hg as [[Hoa Hga] Hgt].
    assert (A : reaches st _ _) by
      (apply (arg_step E a Ha st (seq_flag t wz) (render_seq render t wz ++ rest0) Hr); auto using render_seq_head_not_ws).
    apply (reaches_trans A), (IH _ wz); auto. exact (proj1 A).
Qed.

Lemma render_pairs_head_not_ws ps wz r :
  is_ws (look0 r) = false -> is_ws (look0 (render_pairs render ps wz ++ r)) = false.
Proof.
  intro H. destruct ps as [|[[k wc] v] t]; [rewrite render_pairs_nil; exact H|]. rewrite render_pairs_cons. reflexivity.
Qed.

(* one pair of a map literal, in the free context of the braces *)
Lemma pair_step E v : consume_stmt E v -> forall st k wc w rest1,
  rest st = ident_tok k :: mk T_COLON :: wsl wc ++ render v ++ wsl w ++ rest1 ->
  is_wss st = false -> is_ws (look0 rest1) = false ->
  layout_ok v = true -> tight_ok v = true ->
  (e_fix_slice E = false -> ends_with_slice v = true -> w = false) -> atoms_ok E v ->
  reaches st (advance (advance st)) (render v ++ wsl w ++ rest1) /\
  reaches st (advance_if_ws (pop_wss (consume E v (push_wss true (advance (advance st)))))) rest1.
Proof.
  intros IH st k wc w rest1 Hr Hs Hn Hl Ht Hg Ha.
  pose proof (after_advance_free st (ident_tok k) false _ Hr eq_refl Hs eq_refl) as A1.
  pose proof (after_advance_free _ (mk T_COLON) wc _ (proj1 A1) eq_refl (eq_trans (after_wss A1) Hs)
                (render_head_not_ws v _)) as A2.
  pose proof (after_reaches (after_trans A1 A2)) as A.
  split; [exact A|].
  exact (reaches_trans A (arg_step E v IH _ w rest1 (proj1 A2) Hn Hl Ht Hg Ha)).
Qed.

Lemma consume_pairs_spec E ok ps : Forall (fun p => consume_stmt E (snd p)) ps -> forall st wz rest0,
  rest st = render_pairs render ps wz ++ rest0 -> is_wss st = false -> is_ws (look0 rest0) = false ->
  forallb (fun p => layout_ok (snd p) && tight_ok (snd p)) ps = true ->
  pairs_ok E ok wz ps -> (forall a, ok a -> atoms_ok E a) ->
  rest (consume_pairs (consume E) ps st) = rest0 /\
  wss (consume_pairs (consume E) ps st) = wss st /\ errs (consume_pairs (consume E) ps st) = errs st.
Proof.
  induction 1 as [|[[k wc] v] t Hv Ht IH]; intros st wz rest0 Hr Hs Hn Hl Hg Hok.
  - rewrite consume_pairs_nil. rewrite render_pairs_nil in Hr. auto.
  - rewrite render_pairs_cons in Hr. norm_app Hr. rewrite consume_pairs_cons. cbn [snd] in *.
    simpl in Hl. apply andb_true_iff in Hl as [Hla Hlt]. apply andb_true_iff in Hla as [Hla Hta].
    destruct Hg as [[Hoa Hga] Hgt]. cbn [snd] in Hoa, Hga.
    assert (A : reaches st _ _) by
      (apply (pair_step E v Hv st k wc (seq_flag t wz) (render_pairs render t wz ++ rest0) Hr Hs);
       auto using render_pairs_head_not_ws).
    apply (reaches_trans A), (IH _ wz); auto. { exact (proj1 A). } rewrite (reaches_wss A). exact Hs.
Qed.

Lemma consume_spec E : forall l, consume_stmt E l.
Proof.
  induction l as [a ws|w1 e w2 IH|o e IH|o a ws b IHa IHb|e w1 i w2 IHe IHi|e w1 s w2 t w3 IHe IHs IHt|e k w IHe|e w1 t w2 w3 IHe|w1 f args wz w2 IHargs|w1 args wz w2 IHargs|w1 pairs wz w2 IHpairs]
    using lexp_ind'; intros st rest0 Hr Hl Ht Hf Hg Hat; cbn [consume last_ws]; cbn [tight_ok] in Ht; simpl in Hr, Hl, Hat.
  - (* atom *)
    apply after_mark, (after_advance st (atom_tok a) ws rest0 Hr (atom_tok_not_ws a) (imp_negb _ _ Ht) Hf).
  - (* group *)
    norm_app Hr. set (r1 := mk T_RPAREN :: wsl w2 ++ rest0) in *.
    pose proof (after_open st (mk T_LPAREN) w1 (render e ++ r1) Hr eq_refl (render_head_not_ws e r1)) as A1.
    pose proof (consume_free E e IH _ r1 (proj1 A1) (after_wss A1) eq_refl Hl Hat) as A2.
    exact (after_close st _ _ w2 rest0 (after_reaches (after_trans A1 A2)) eq_refl (imp_negb _ _ Ht) Hf).
  - (* unary *)
    pose proof (after_advance st _ false (render e ++ rest0) Hr (unop_tok_not_ws o) (fun _ => eq_refl)
                  (fun _ => render_head_not_ws e rest0)) as A1.
    apply (after_trans A1), IH; rewrite ?(after_wss A1); auto. exact (proj1 A1).
  - (* binary *)
    destruct Hat as [Haa Hab]. apply andb_true_iff in Hl as [Hla Hlb].
    rewrite app_cons_assoc, <- app_assoc in Hr.
    destruct (imp_andb _ _ _ Ht) as [Ht' Htb]. destruct (imp_andb _ _ _ Ht') as [Htw Hta].
    assert (A1 : after st (consume E a st) (last_ws a) (mk (binop_tok o) :: wsl ws ++ render b ++ rest0))
      by (apply IHa; auto; intros; apply binop_tok_not_ws).
    assert (A2 : after (consume E a st) (advance (consume E a st)) ws (render b ++ rest0)).
    { apply (after_advance _ _ _ _ (proj1 A1) (binop_tok_not_ws o)); rewrite (after_wss A1).
      - exact (imp_negb _ _ Htw).
      - intros _. apply render_head_not_ws. }
    apply (after_trans A1), (after_trans A2), IHb; rewrite ?(after_wss A2), ?(after_wss A1); auto. exact (proj1 A2).
  - (* index *)
    destruct Hat as [Hae Hai]. norm_app Hr.
    apply andb_true_iff in Hl as [Hl Hli]. apply andb_true_iff in Hl as [_ Hle].
    destruct (imp_andb _ _ _ Ht) as [Htw Hte].
    set (r1 := mk T_RBRACKET :: wsl w2 ++ rest0) in *.
    assert (A1 : after st (consume E e st) (last_ws e) (mk T_LBRACKET :: wsl w1 ++ render i ++ r1)) by (apply IHe; auto).
    pose proof (after_open _ _ w1 _ (proj1 A1) eq_refl (render_head_not_ws i r1)) as A2.
    pose proof (consume_free E i IHi _ r1 (proj1 A2) (after_wss A2) eq_refl Hli Hai) as A3.
    apply (after_trans A1), (after_close _ _ _ w2 rest0 (after_reaches (after_trans A2 A3)) eq_refl);
      rewrite (after_wss A1); [exact (imp_negb _ _ Htw)|exact Hf].
  - (* slice *)
    destruct Hat as (Hae & Has & Hat'). norm_app Hr.
    apply andb_true_iff in Hl as [Hl Hlt]. apply andb_true_iff in Hl as [Hl Hls]. apply andb_true_iff in Hl as [_ Hle].
    destruct (imp_andb _ _ _ Ht) as [Htw Hte].
    set (rt := (match t with Some x => render x | None => [] end) ++ mk T_RBRACKET :: wsl w3 ++ rest0) in *.
    set (rs := (match s with Some x => render x | None => [] end) ++ mk T_COLON :: wsl w2 ++ rt) in *.
    assert (Hrs : is_ws (look0 rs) = false) by (unfold rs; destruct s; [apply render_head_not_ws|reflexivity]).
    assert (Hrt : is_ws (look0 rt) = false) by (unfold rt; destruct t; [apply render_head_not_ws|reflexivity]).
    assert (A1 : after st (consume E e st) (last_ws e) (mk T_LBRACKET :: wsl w1 ++ rs)) by (apply IHe; auto).
    pose proof (after_open _ _ w1 _ (proj1 A1) eq_refl Hrs) as A2.
    set (s0 := push_wss false (consume E e st)) in *.
    (* optional start *)
    set (s2 := match s with Some x => consume E x (advance s0) | None => advance s0 end).
    assert (A3 : reaches s0 s2 (mk T_COLON :: wsl w2 ++ rt)).
    { unfold s2, rs in *. destruct s as [x|]; [|exact (after_reaches A2)].
      exact (after_reaches (after_trans A2 (consume_free E x IHs _ _ (proj1 A2) (after_wss A2) eq_refl Hls Has))). }
    pose proof (after_advance_free s2 _ w2 rt (proj1 A3) eq_refl (reaches_wss A3) Hrt) as A4.
    (* optional end *)
    set (s4 := match t with Some x => consume E x (advance s2) | None => advance s2 end).
    assert (A5 : reaches s0 s4 (mk T_RBRACKET :: wsl w3 ++ rest0)).
    { apply (reaches_trans A3). unfold s4, rt in *. destruct t as [x|]; [|exact (after_reaches A4)].
      refine (after_reaches (after_trans A4 (consume_free E x IHt _ _ (proj1 A4) _ eq_refl Hlt Hat'))).
      rewrite (after_wss A4). exact (reaches_wss A3). }
    apply (after_trans A1). unfold slice_close. destruct (e_fix_slice E) eqn:FX.
    + (* with the fix: advanceWSS, as for an index *)
      apply (after_close _ _ _ w3 rest0 A5 eq_refl); rewrite (after_wss A1); [exact (imp_negb _ _ Htw)|exact Hf].
    + (* the code as it is: advance, inside the pushed free context, swallows the whitespace;
         in a whitespace-sensitive outer context the guard says there is none *)
      assert (Hns : is_ws (look0 rest0) = false) by (destruct (is_wss st) eqn:W; auto).
      apply after_pop; [|exact Hns].
      exact (after_from A5 (after_advance_free s4 _ w3 rest0 (proj1 A5) eq_refl (reaches_wss A5) Hns)).
  - (* dot *)
    norm_app Hr. apply andb_true_iff in Hl as [_ Hle].
    destruct (imp_andb _ _ _ Ht) as [Htw Hte].
    assert (A1 : after st (consume E e st) (last_ws e) (mk T_DOT :: ident_tok k :: wsl w ++ rest0)) by (apply IHe; auto).
    pose proof (after_advance _ _ false _ (proj1 A1) eq_refl (fun _ => eq_refl) (fun _ => eq_refl)) as A2.
    apply (after_trans A1), (after_trans A2), (after_advance _ _ _ _ (proj1 A2) eq_refl);
      rewrite (after_wss A2), (after_wss A1); [exact (imp_negb _ _ Htw)|exact Hf].
  - (* type assertion *)
    destruct Hat as [Hae _]. norm_app Hr. apply andb_true_iff in Hl as [_ Hle].
    destruct (imp_andb _ _ _ Ht) as [Htw Hte].
    set (r2 := mk T_RPAREN :: wsl w3 ++ rest0) in *.
    assert (A1 : after st (consume E e st) (last_ws e) (mk T_DOT :: mk T_LPAREN :: wsl w1 ++ render_ty t ++ wsl w2 ++ r2))
      by (apply IHe; auto).
    pose proof (after_open _ _ false _ (proj1 A1) eq_refl eq_refl) as A2.
    pose proof (after_advance_free _ _ w1 _ (proj1 A2) eq_refl (after_wss A2) (render_ty_head_not_ws t _)) as A3.
    pose proof (consume_ty_spec t _ w2 r2 (proj1 A3) (eq_trans (after_wss A3) (after_wss A2)) eq_refl) as A4.
    apply (after_trans A1), (after_close _ _ _ w3 rest0 (reaches_trans (after_reaches (after_trans A2 A3)) A4) eq_refl);
      rewrite (after_wss A1); [exact (imp_negb _ _ Htw)|exact Hf].
  - (* call in parentheses *)
    norm_app Hr. destruct Hat as (_ & _ & Hargs).
    set (r2 := mk T_RPAREN :: wsl w2 ++ rest0) in *.
    pose proof (after_open st _ w1 _ Hr eq_refl eq_refl) as A1.
    pose proof (after_advance_free _ _ _ _ (proj1 A1) eq_refl (after_wss A1) (render_seq_head_not_ws args wz r2 eq_refl)) as A2.
    pose proof (consume_args_spec E (atoms_ok E) args IHargs _ wz r2 (proj1 A2) eq_refl Hl Hargs (fun _ H => H)) as A3.
    exact (after_close st _ _ w2 rest0 (reaches_trans (after_reaches (after_trans A1 A2)) A3) eq_refl (imp_negb _ _ Ht) Hf).
  - (* array literal *)
    norm_app Hr. set (r2 := mk T_RBRACKET :: wsl w2 ++ rest0) in *.
    pose proof (open_spec st _ w1 _ Hr (render_seq_head_not_ws args wz r2 eq_refl)) as A1.
    pose proof (consume_args_spec E (atoms_ok E) args IHargs _ wz r2 (proj1 A1) eq_refl Hl Hat (fun _ H => H)) as A2.
    pose proof (reaches_trans A1 A2) as A3.
    apply (after_from A3), (after_advance _ _ _ _ (proj1 A3) eq_refl); rewrite (reaches_wss A3); [exact (imp_negb _ _ Ht)|exact Hf].
  - (* map literal *)
    norm_app Hr. destruct Hat as [_ Hps]. set (r2 := mk T_RCURLY :: wsl w2 ++ rest0) in *.
    pose proof (open_spec (push_wss false st) _ w1 _ Hr (render_pairs_head_not_ws pairs wz r2 eq_refl)) as A1.
    pose proof (consume_pairs_spec E (atoms_ok E) pairs IHpairs _ wz r2 (proj1 A1) (reaches_wss A1) eq_refl Hl Hps (fun _ H => H)) as A2.
    exact (after_close st _ _ w2 rest0 (reaches_trans A1 A2) eq_refl (imp_negb _ _ Ht) Hf).
Qed.

Lemma consume_args_reaches E args st wz rest0 :
  rest st = render_seq render args wz ++ rest0 -> is_ws (look0 rest0) = false ->
  forallb (fun a => layout_ok a && tight_ok a) args = true -> args_ok E (atoms_ok E) wz args ->
  reaches st (consume_args (consume E) args st) rest0.
Proof.
  intros Hr Hn Hl Hg. apply (consume_args_spec E (atoms_ok E) args) with (wz := wz); auto.
  apply Forall_forall. intros a _. apply consume_spec.
Qed.

(** * The Pratt argument *)

(* well-layered, by structural recursion: what the Pratt argument uses of a derivation;
   Lay 0 l <-> wl l by Lay_wl and wl_Lay *)
Fixpoint wl (l : lexp) : Prop :=
  match l with
  | LAtom _ _ => True
  | LGroup _ e _ => wl e
  | LUn _ e => wl e /\ rank_unary <= toprank e
  | LBin o a _ b => wl a /\ wl b /\ rank o <= toprank a /\ rank o < toprank b
  | LIndex e _ i _ => wl e /\ wl i /\ rank_primary <= toprank e
  | LSlice e _ s _ t _ =>
      wl e /\ (match s with Some x => wl x | None => True end) /\
      (match t with Some x => wl x | None => True end) /\ rank_primary <= toprank e
  | LDot e _ _ => wl e /\ rank_primary <= toprank e
  | LAssert e _ _ _ _ => wl e /\ rank_primary <= toprank e
  | LCall _ _ args _ _ => allP wl args
  | LArr _ elems _ _ => allP wl elems
  | LMap _ pairs _ _ => allP (fun p => wl (snd p)) pairs
  end.

Lemma Lay_wl n l : Lay n l -> wl l /\ n <= toprank l.
Proof.
  induction 1 as [n l _ [IH1 IH2]|o l ws r _ [IHl1 IHl2] _ [IHr1 IHr2]|o e _ [IH1 IH2]|a ws|w1 e w2 _ [IH1 IH2]
                 |e w1 i w2 _ [IHe1 IHe2] _ [IHi1 IHi2]|e w1 s w2 t w3 _ [IHe1 IHe2] _ IHs _ IHt|e k w _ [IH1 IH2]|e w1 t w2 w3 _ [IH1 IH2]
                 |w1 f args wz w2 _ IHc|w1 args wz w2 _ IHc|w1 pairs wz w2 _ IHc];
    simpl; auto.
  - split; [assumption|lia].
  - repeat split; auto.
    + destruct s as [x|]; [|exact I]. exact (proj1 (IHs x eq_refl)).
    + destruct t as [x|]; [|exact I]. exact (proj1 (IHt x eq_refl)).
  - split; [|apply Nat.le_refl]. apply allP_In. intros a Ha. exact (proj1 (IHc a Ha)).
  - split; [|apply Nat.le_refl]. apply allP_In. intros a Ha. exact (proj1 (IHc a Ha)).
  - split; [|apply Nat.le_refl]. apply allP_In. intros a Ha. exact (proj1 (IHc a Ha)).
Qed.

Lemma Lay_le n m l : n <= m -> Lay m l -> Lay n l.
Proof. induction 1 as [|m Hle IH]; auto. intro HL. apply IH. apply Lay_up. exact HL. Qed.

(* the converse: a derivation is found by checking wl, which is a computation on a concrete l *)
Lemma wl_Lay l : forall n, wl l -> n <= toprank l -> Lay n l.
Proof.
  induction l as [a ws|w1 e w2 IH|o e IH|o a ws b IHa IHb|e w1 i w2 IHe IHi|e w1 s w2 t w3 IHe IHs IHt|e k w IHe|e w1 t w2 w3 IHe|w1 f args wz w2 IHargs|w1 args wz w2 IHargs|w1 pairs wz w2 IHpairs]
    using lexp_ind'; intros n Hw Hn; simpl in Hw; apply (Lay_le n _ _ Hn); cbn [toprank].
  - apply Lay_atom.
  - apply Lay_group, IH; [exact Hw|apply Nat.le_0_l].
  - destruct Hw as [Hw Hr]. apply Lay_un, IH; assumption.
  - destruct Hw as (Ha & Hb & Hra & Hrb). apply Lay_bin; [apply IHa|apply IHb]; assumption.
  - destruct Hw as (He & Hi & Hr). apply Lay_index; [apply IHe|apply IHi]; auto using Nat.le_0_l.
  - destruct Hw as (He & Hs & Ht & Hr).
    apply Lay_slice; [apply IHe; assumption| |]; intros x ->; [apply IHs|apply IHt]; auto using Nat.le_0_l.
  - destruct Hw as [He Hr]. apply Lay_dot, IHe; assumption.
  - destruct Hw as [He Hr]. apply Lay_assert, IHe; assumption.
  - apply Lay_call. intros a Ha. rewrite Forall_forall in IHargs.
    apply (IHargs a Ha); [exact (allP_elim _ _ Hw a Ha)|apply Nat.le_0_l].
  - apply Lay_arr. intros a Ha. rewrite Forall_forall in IHargs.
    apply (IHargs a Ha); [exact (allP_elim _ _ Hw a Ha)|apply Nat.le_0_l].
  - apply Lay_map. intros p Hp. rewrite Forall_forall in IHpairs.
    apply (IHpairs p Hp); [exact (allP_elim _ _ Hw p Hp)|apply Nat.le_0_l].
Qed.

(* binding power (from the generated table) of the outermost production *)
Definition idx : nat := precedences T_LBRACKET.
Definition top_bp (l : lexp) : nat :=
  match l with
  | LBin o _ _ _ => bp o
  | LUn _ _ => unary_operand_prec
  | _ => idx
  end.

(* the minimum binding power a caller may pass when the tokens of l follow *)
Definition p_ok (p : nat) (l : lexp) : Prop :=
  match l with
  | LBin o _ _ _ => p < bp o
  | LIndex _ _ _ _ | LSlice _ _ _ _ _ _ | LDot _ _ _ | LAssert _ _ _ _ _ => p < idx
  | _ => True
  end.

(* loop iterations needed to assemble l from its leftmost operand *)
Fixpoint spine (l : lexp) : nat :=
  match l with
  | LBin _ a _ _ => S (spine a)
  | LIndex e _ _ _ | LSlice e _ _ _ _ _ | LDot e _ _ | LAssert e _ _ _ _ => S (spine e)
  | _ => 0
  end.

Fixpoint ty_size (t : ty) : nat :=
  match t with TyArr s | TyMap s => S (ty_size s) | _ => 1 end.

(* fuel the callees need below the loop that assembles l *)
Fixpoint need (l : lexp) : nat :=
  match l with
  | LAtom _ _ => 0
  | LGroup _ e _ => S (spine e + Nat.max 1 (need e))
  | LUn _ e => S (spine e + Nat.max 1 (need e))
  | LBin _ a _ b => Nat.max (need a) (S (spine b + Nat.max 1 (need b)))
  | LIndex e _ i _ => Nat.max (need e) (S (spine i + Nat.max 1 (need i)))
  | LSlice e _ s _ t _ =>
      Nat.max (need e)
        (Nat.max (match s with Some x => S (spine x + Nat.max 1 (need x)) | None => 0 end)
                 (match t with Some x => S (spine x + Nat.max 1 (need x)) | None => 0 end))
  | LDot e _ _ => need e
  | LAssert e _ t _ _ => Nat.max (need e) (ty_size t)
  | LCall _ _ args _ _ =>
      Nat.max (S (List.length args)) (max_over (fun a => S (spine a + Nat.max 1 (need a))) args)
  | LArr _ elems _ _ =>
      Nat.max (S (S (List.length elems))) (max_over (fun a => S (spine a + Nat.max 1 (need a))) elems)
  | LMap _ pairs _ _ =>
      Nat.max (S (S (List.length pairs))) (max_over (fun p => S (spine (snd p) + Nat.max 1 (need (snd p)))) pairs)
  end.

(* the token after the expression lets a loop running at power p stop *)
Definition stop_tok (tight : bool) (p : nat) (t : token) : Prop :=
  (tight = true /\ is_ws t = true) \/ is_eol (ttype t) = true \/ precedences (ttype t) <= p.

Lemma stop_tok_mono tight p q t : p <= q -> stop_tok tight p t -> stop_tok tight q t.
Proof. unfold stop_tok. intros H [A|[A|A]]; auto. right; right; lia. Qed.

Lemma rank_le_top_bp o a : rank o <= toprank a -> bp o <= top_bp a.
Proof.
  pose proof (bp_lt_unary o). pose proof unary_lt_index.
  destruct a; cbn [top_bp toprank]; unfold idx; intro Hr; try lia.
  apply bp_rank_le. exact Hr.
Qed.
Lemma rank_lt_p_ok o b : rank o < toprank b -> p_ok (bp o) b.
Proof.
  pose proof (bp_lt_unary o). pose proof unary_lt_index.
  destruct b; cbn [p_ok toprank]; unfold idx; auto; try lia. intro Hr. apply bp_rank_lt. exact Hr.
Qed.
Lemma unary_le_top_bp e : rank_unary <= toprank e -> unary_operand_prec <= top_bp e /\ p_ok unary_operand_prec e.
Proof.
  pose proof unary_lt_index.
  destruct e; cbn [p_ok top_bp toprank]; unfold idx; intro Hr; try (split; [lia|auto; lia]).
  pose proof (rank_bounds o). unfold rank_unary in Hr. lia.
Qed.
Lemma p_ok_left p o a : p < bp o -> rank o <= toprank a -> p_ok p a.
Proof.
  pose proof (bp_lt_unary o). pose proof unary_lt_index.
  destruct a; cbn [p_ok toprank]; unfold idx; auto; try lia. intros H1 H2. apply bp_rank_le in H2. lia.
Qed.
Lemma p_ok_lowest e : p_ok lowestPrec e.
Proof.
  pose proof unary_lt_index. rewrite lowest_zero.
  destruct e; cbn [p_ok]; unfold idx; auto; try lia. rewrite <- lowest_zero. apply bp_pos.
Qed.
Lemma primary_top e p : rank_primary <= toprank e -> top_bp e = idx /\ (p < idx -> p_ok p e).
Proof.
  destruct e; cbn [p_ok top_bp toprank]; unfold rank_primary, rank_unary; intro Hr; auto; try lia.
  pose proof (rank_bounds o). lia.
Qed.

(* the theorems below are about programs the type checker accepts: the typing oracle never objects *)
Definition no_tyerr (E : env) : Prop := forall s t n, e_tyerr E s t n = false.
Lemma tyerr_false E s t st : no_tyerr E -> tyerr E s t st = false.
Proof. intro H. apply H. Qed.

Lemma expr_loop_stop E k p left st :
  stop_tok (is_wss st) p (cur st) -> expr_loop E (S k) p left st = Some (Some left, st).
Proof.
  intro H. rewrite expr_loop_S. unfold is_at_expr_end, is_at_eol, cur_t.
  destruct H as [[A B]|[A|A]].
  - rewrite A, B. reflexivity.
  - rewrite A. destruct (is_wss st && is_ws (cur st)); reflexivity.
  - destruct (is_wss st && is_ws (cur st)); [reflexivity|].
    destruct (is_eol (ttype (cur st))); [reflexivity|].
    rewrite loop_continues_false by exact A. reflexivity.
Qed.

(* one turn of the loop on an infix / postfix token *)
Lemma expr_loop_turn E k p left st t :
  cur st = mk t -> is_ws (mk t) = false -> is_eol t = false -> p < precedences t ->
  expr_loop E (S k) p left st =
  match parse_infix E (parse_expr E k) k left st with
  | None => ret (Some left) st
  | Some r => match r with
              | None => None
              | Some (l, st1) => match l with None => ret None st1 | Some left' => expr_loop E k p left' st1 end
              end
  end.
Proof.
  intros Hc Hw He Hp. rewrite expr_loop_S. unfold is_at_expr_end, is_at_eol, cur_t. rewrite Hc. simpl ttype.
  rewrite Hw, andb_false_r, He.
  replace (loop_continues p (precedences t)) with true by (symmetry; apply loop_continues_lt; exact Hp).
  reflexivity.
Qed.

Lemma cur_t_rest st t r : rest st = t :: r -> cur_t st = ttype t.
Proof. intro H. unfold cur_t, cur. rewrite H. reflexivity. Qed.

(* the prefix switch on the first token of an atom / unary / group *)
Lemma prefix_atom E pe f st a r :
  atoms_ok E (LAtom a false) -> rest st = atom_tok a :: r ->
  parse_prefix E pe f st = Some (Some (atom_tree a), atom_mark a (advance st)).
Proof.
  intros Ha Hr. unfold parse_prefix, cur_t, cur. rewrite Hr.
  destruct a as [lit|lit|[]|n]; simpl in *.
  - unfold parse_literal, cur. rewrite Hr. simpl. rewrite Ha. reflexivity.
  - unfold parse_literal, cur. rewrite Hr. reflexivity.
  - unfold parse_literal, cur. rewrite Hr. reflexivity.
  - unfold parse_literal, cur. rewrite Hr. reflexivity.
  - destruct Ha as (H1 & H2 & H3).
    unfold parse_ident_expr, cur. rewrite Hr. simpl. rewrite H3.
    unfold lookup_var, cur. rewrite Hr. simpl. rewrite H1, H2. reflexivity.
Qed.

Lemma prefix_un E pe f st o r :
  rest st = mk (unop_tok o) :: r -> parse_prefix E pe f st = parse_unary E pe st.
Proof. intro Hr. unfold parse_prefix. rewrite (cur_t_rest _ _ _ Hr). destruct o; reflexivity. Qed.

Lemma prefix_group E pe f st r :
  rest st = mk T_LPAREN :: r -> parse_prefix E pe f st = parse_grouped E pe f st.
Proof. intro Hr. unfold parse_prefix. rewrite (cur_t_rest _ _ _ Hr). reflexivity. Qed.

Lemma prefix_arr E pe f st r :
  rest st = mk T_LBRACKET :: r -> parse_prefix E pe f st = parse_array_literal E pe f st.
Proof. intro Hr. unfold parse_prefix, parse_literal, cur_t, cur. rewrite Hr. reflexivity. Qed.

Lemma prefix_map E pe f st r :
  rest st = mk T_LCURLY :: r -> parse_prefix E pe f st = parse_map_literal E pe f st.
Proof. intro Hr. unfold parse_prefix, parse_literal, cur_t, cur. rewrite Hr. reflexivity. Qed.

Lemma first_tok_not_call E e :
  atoms_ok E e -> ttype (first_tok e) = T_IDENT -> func_of E (tlit (first_tok e)) = None.
Proof.
  induction e as [a ws|w1 e w2 IH|o e IH|o a ws b IHa IHb|e w1 i w2 IHe IHi|e w1 s w2 t w3 IHe IHs IHt|e k w IHe|e w1 t w2 w3 IHe|w1 f args wz w2 IHargs|w1 args wz w2 IHargs|w1 pairs wz w2 IHpairs]
    using lexp_ind'; simpl; intros Ha Ht; try discriminate Ht; try (apply IHe; tauto).
  - destruct a as [| |[]|n]; try discriminate Ht. simpl. apply Ha.
  - destruct o; discriminate Ht.
  - apply IHa; tauto.
Qed.

Lemma toplevel_is_expr E pe f st e r :
  atoms_ok E e -> rest st = render e ++ r -> parse_toplevel E pe f st = pe lowestPrec st.
Proof.
  intros Ha Hr. destruct (render_first e) as [x Hx]. rewrite Hx in Hr. simpl in Hr.
  unfold parse_toplevel, cur_t, cur. rewrite Hr. simpl.
  destruct (ttype (first_tok e)) eqn:T; try reflexivity.
  rewrite (first_tok_not_call E e Ha T). reflexivity.
Qed.

(* "(" f ... : parseTopLevelExpr takes the call branch *)
Lemma toplevel_call E pe k st f r :
  rest st = ident_tok f :: r -> func_of E f = Some false ->
  parse_toplevel E pe k st = parse_func_call E pe k true false st.
Proof. intros Hr Hf. unfold parse_toplevel, cur_t, cur. rewrite Hr. simpl. rewrite Hf. reflexivity. Qed.

Lemma atoms_ok_ws E a ws : atoms_ok E (LAtom a ws) -> atoms_ok E (LAtom a false).
Proof. destruct a; auto. Qed.

Lemma not_colon_branch {A} (t : toktype) (x y : A) :
  t <> T_COLON -> match t with T_COLON => x | _ => y end = y.
Proof. destruct t; congruence. Qed.
Lemma not_rbracket_branch {A} (t : toktype) (x y : A) :
  t <> T_RBRACKET -> match t with T_RBRACKET => x | _ => y end = y.
Proof. destruct t; congruence. Qed.

Lemma cur_t_first l st r : rest st = render l ++ r -> cur_t st = ttype (first_tok l).
Proof. intro H. destruct (render_first l) as [x Hx]. rewrite Hx in H. exact (cur_t_rest _ _ _ H). Qed.

Lemma first_not_colon l : ttype (first_tok l) <> T_COLON.
Proof. generalize (ttype (first_tok l)), (first_tok_prefix l). apply prefix_tt_cases; discriminate. Qed.
Lemma first_not_rbracket l : ttype (first_tok l) <> T_RBRACKET.
Proof. generalize (ttype (first_tok l)), (first_tok_prefix l). apply prefix_tt_cases; discriminate. Qed.

(* parseType on the tokens of a type, in the free context of an assertion's parentheses *)
Lemma parse_type_spec t : forall st w rest0 f,
  rest st = render_ty t ++ wsl w ++ rest0 -> is_wss st = false -> is_ws (look0 rest0) = false ->
  ty_size t <= f ->
  parse_type f st = Some (Some t, consume_ty t st).
Proof.
  induction t; intros st w rest0 f Hr Hw Hf Hs; (destruct f as [|f]; [simpl in Hs; lia|]);
    simpl in Hr; cbn [parse_type]; rewrite (cur_t_rest _ _ _ Hr); try reflexivity.
  (* "[" "]" and "{" "}" *)
  all: pose proof (after_advance_free st _ false _ Hr eq_refl Hw eq_refl) as A1;
    pose proof (after_advance_free _ _ false _ (proj1 A1) eq_refl (eq_trans (after_wss A1) Hw)
                  (render_ty_head_not_ws t _)) as A2;
    cbn [ttype mk]; rewrite (cur_t_rest _ _ _ (proj1 A1)); cbn [ttype mk];
    rewrite (IHt _ w rest0 f (proj1 A2)); [reflexivity|rewrite (after_wss A2), (after_wss A1); exact Hw|exact Hf|simpl in Hs; lia].
Qed.

(* What each parse function returns, given what its recursive calls return. *)

Lemma grouped_spec E pe f st tr s :
  parse_toplevel E pe f (advance (push_wss false st)) = Some (Some tr, s) -> cur_t s = T_RPAREN ->
  parse_grouped E pe f st = Some (Some (TGroup tr), pop_wss (advance_wss s)).
Proof. intros H C. unfold parse_grouped, assert_token. rewrite H, C. reflexivity. Qed.

Lemma unary_spec E pe st o r tr s : no_tyerr E ->
  rest st = mk (unop_tok o) :: r -> is_ws (prev (advance st)) = false ->
  pe unary_operand_prec (advance st) = Some (Some tr, s) ->
  parse_unary E pe st = Some (Some (TUn (unop_tok o) tr), s).
Proof.
  intros NT Hr Hp H. unfold parse_unary. rewrite Hp, H, (cur_t_rest _ _ _ Hr), (tyerr_false E) by exact NT. reflexivity.
Qed.

Lemma binary_spec E pe f left st o r tr s : no_tyerr E ->
  rest st = mk (binop_tok o) :: r ->
  pe (bp o) (advance st) = Some (Some tr, s) ->
  parse_infix E pe f left st = Some (Some (Some (TBin (binop_tok o) left tr), s)).
Proof.
  intros NT Hr H. unfold parse_infix, parse_binary. rewrite (cur_t_rest _ _ _ Hr). cbn [ttype mk].
  rewrite binop_tok_is_binary, binary_operand_prec_id. fold (bp o).
  rewrite H, (tyerr_false E) by exact NT. reflexivity.
Qed.

Lemma func_call_spec E pe f st name r l s : no_tyerr E ->
  rest st = ident_tok name :: r ->
  parse_expr_list pe f [] (advance st) = Some (Some l, s) -> arity_wrong E name (List.length l) = false ->
  parse_func_call E pe f true false st = Some (Some (TCall name l), s).
Proof.
  intros NT Hr H Har. unfold parse_func_call, cur. rewrite Hr. cbn [orb look0 hd ident_tok tlit].
  rewrite H, Har, (tyerr_false E) by exact NT. reflexivity.
Qed.

Lemma infix_lbracket E pe f left st r :
  rest st = mk T_LBRACKET :: r -> parse_infix E pe f left st = Some (parse_index_or_slice E pe f true left st).
Proof. intro H. unfold parse_infix. rewrite (cur_t_rest _ _ _ H). reflexivity. Qed.

(* parseIndexOrSliceExpr on "[", which is not preceded by whitespace *)
Lemma index_spec E pe f left st i s : no_tyerr E -> is_ws (prev st) = false ->
  cur_t (advance (push_wss false st)) <> T_COLON ->
  parse_toplevel E pe f (advance (push_wss false st)) = Some (Some i, s) -> cur_t s = T_RBRACKET ->
  parse_index_or_slice E pe f true left st = Some (Some (TIndex left i), pop_wss (advance_wss s)).
Proof.
  intros NT Hp Hc H C. unfold parse_index_or_slice, assert_token. cbn [prev push_wss]. rewrite Hp.
  rewrite !(tyerr_false E) by exact NT. rewrite (not_colon_branch _ _ _ Hc). cbn [andb]. rewrite H, C.
  rewrite (tyerr_false E) by exact NT. reflexivity.
Qed.

Lemma slice_spec E pe f left st i s tr s' : no_tyerr E -> is_ws (prev st) = false ->
  cur_t (advance (push_wss false st)) <> T_COLON ->
  parse_toplevel E pe f (advance (push_wss false st)) = Some (Some i, s) -> cur_t s = T_COLON ->
  parse_slice E pe f (here st) left (Some i) (advance s) = Some (Some tr, s') ->
  parse_index_or_slice E pe f true left st = Some (Some tr, pop_wss s').
Proof.
  intros NT Hp Hc H C H'. unfold parse_index_or_slice. cbn [prev push_wss]. rewrite Hp.
  rewrite !(tyerr_false E) by exact NT. rewrite (not_colon_branch _ _ _ Hc). cbn [andb]. rewrite H, C.
  change (here (push_wss false st)) with (here st). cbn [andb]. rewrite H'. reflexivity.
Qed.

Lemma slice_spec_no_start E pe f left st tr s' : no_tyerr E -> is_ws (prev st) = false ->
  cur_t (advance (push_wss false st)) = T_COLON ->
  parse_slice E pe f (here st) left None (advance (advance (push_wss false st))) = Some (Some tr, s') ->
  parse_index_or_slice E pe f true left st = Some (Some tr, pop_wss s').
Proof.
  intros NT Hp C H'. unfold parse_index_or_slice. cbn [prev push_wss]. rewrite Hp.
  rewrite !(tyerr_false E) by exact NT. rewrite C. cbn [andb]. rewrite H'. reflexivity.
Qed.

(* "." is followed by a name: parseDotExpr *)
Lemma dot_spec E pe f left st k r : no_tyerr E -> is_ws (prev st) = false ->
  rest st = mk T_DOT :: ident_tok k :: r -> peek st = ident_tok k ->
  parse_infix E pe f left st = Some (Some (Some (TDot left k), advance (advance st))).
Proof.
  intros NT Hp Hr Hk. unfold parse_infix. rewrite (cur_t_rest _ _ _ Hr), Hk. cbn.
  unfold parse_dot. rewrite Hp, Hr. cbn [look1 tl hd is_ws ident_tok ttype]. rewrite (tyerr_false E) by exact NT.
  destruct (advance_tok st (mk T_DOT) false (ident_tok k :: r) Hr) as (A & _); auto.
  unfold cur. rewrite A. reflexivity.
Qed.

(* "." is followed by "(": parseTypeAssertion *)
Lemma assertion_spec E pe f left st t w1 w2 w3 r : no_tyerr E -> is_ws (prev st) = false ->
  rest st = mk T_DOT :: mk T_LPAREN :: wsl w1 ++ render_ty t ++ wsl w2 ++ mk T_RPAREN :: wsl w3 ++ r ->
  peek st = mk T_LPAREN -> t <> TyAny -> ty_size t <= f ->
  parse_infix E pe f left st =
    Some (Some (Some (TAssert left (Some t)),
                pop_wss (advance_wss (consume_ty t (advance (advance (push_wss false st))))))).
Proof.
  intros NT Hp Hr Hk Hany Hf. unfold parse_infix. rewrite (cur_t_rest _ _ _ Hr), Hk. cbn.
  unfold parse_type_assertion. rewrite Hp, Hr. cbn [look1 tl hd is_ws mk ttype].
  pose proof (after_open st _ false _ Hr eq_refl eq_refl) as A2.
  pose proof (after_advance_free _ _ w1 _ (proj1 A2) eq_refl (after_wss A2) (render_ty_head_not_ws t _)) as A3.
  pose proof (eq_trans (after_wss A3) (after_wss A2)) as W.
  rewrite (parse_type_spec t _ w2 _ f (proj1 A3) W eq_refl Hf).
  destruct (consume_ty_spec t _ w2 _ (proj1 A3) W eq_refl) as (A4 & _).
  replace (match t with TyAny => add_err_at E_assert_any (here st) _ | _ => _ end)
    with (consume_ty t (advance (advance (push_wss false st)))) by (destruct t; congruence).
  unfold assert_token. rewrite (cur_t_rest _ _ _ A4). cbn. rewrite (tyerr_false E) by exact NT. reflexivity.
Qed.

(* The general statement: parsing the tokens of l at minimum power p leaves the
   parser in its loop with left = tree_of l, at the state after l's tokens. *)
Definition pratt_stmt (E : env) (l : lexp) : Prop := forall st rest0 p k,
  wl l -> atoms_ok E l -> layout_ok l = true ->
  rest st = render l ++ rest0 ->
  (is_wss st = true -> tight_ok l = true) ->
  (is_wss st = false -> is_ws (look0 rest0) = false) ->
  (e_fix_slice E = false -> ends_with_slice l = true -> is_ws (look0 rest0) = false) ->
  stop_tok (is_wss st) (top_bp l) (look0 rest0) ->
  p_ok p l ->
  need l <= k ->
  parse_expr E (S (spine l + k)) p st = expr_loop E k p (tree_of l) (consume E l st).

(* a complete operand: a loop running at a power p that x's outermost production can take
   stops at the token after x *)
Lemma operand E x : pratt_stmt E x ->
  forall st rest0 p k,
  wl x -> atoms_ok E x -> layout_ok x = true ->
  rest st = render x ++ rest0 ->
  (is_wss st = true -> tight_ok x = true) ->
  (is_wss st = false -> is_ws (look0 rest0) = false) ->
  (e_fix_slice E = false -> ends_with_slice x = true -> is_ws (look0 rest0) = false) ->
  stop_tok (is_wss st) p (look0 rest0) -> p <= top_bp x -> p_ok p x ->
  S (spine x + Nat.max 1 (need x)) <= k ->
  parse_expr E k p st = Some (Some (tree_of x), consume E x st).
Proof.
  intros IH st rest0 p k Hw Ha Hl Hr Ht Hf Hg Hstop Hle Hp Hk.
  assert (Hex : exists k', k = S (spine x + S k') /\ need x <= S k') by (exists (k - S (spine x) - 1); lia).
  destruct Hex as (k' & -> & Hk').
  rewrite (IH st rest0 p (S k')); auto.
  - pose proof (consume_spec E x st rest0 Hr Hl Ht Hf Hg Ha) as A.
    rewrite expr_loop_stop; [reflexivity|].
    unfold cur. rewrite (proj1 A), (after_wss A). exact Hstop.
  - eapply stop_tok_mono; [exact Hle|exact Hstop].
Qed.

(* a complete sub-expression in any context, followed by a token that ends it *)
Lemma sub_expr_gen E x : pratt_stmt E x ->
  forall st rest0 k,
  wl x -> atoms_ok E x -> layout_ok x = true ->
  rest st = render x ++ rest0 ->
  (is_wss st = true -> tight_ok x = true) ->
  (is_wss st = false -> is_ws (look0 rest0) = false) ->
  (e_fix_slice E = false -> ends_with_slice x = true -> is_ws (look0 rest0) = false) ->
  stop_tok (is_wss st) lowestPrec (look0 rest0) ->
  S (spine x + Nat.max 1 (need x)) <= k ->
  parse_expr E k lowestPrec st = Some (Some (tree_of x), consume E x st).
Proof.
  intros IH st rest0 k Hw Ha Hl Hr Ht Hf Hg Hstop Hk.
  apply (operand E x IH st rest0); auto using p_ok_lowest. rewrite lowest_zero. lia.
Qed.

(* inside brackets: a free context, and the token that follows has no binding power *)
Lemma sub_expr E x : pratt_stmt E x ->
  forall st rest0 k,
  wl x -> atoms_ok E x -> layout_ok x = true ->
  rest st = render x ++ rest0 -> is_wss st = false ->
  is_ws (look0 rest0) = false -> precedences (ttype (look0 rest0)) = lowestPrec ->
  S (spine x + Nat.max 1 (need x)) <= k ->
  parse_expr E k lowestPrec st = Some (Some (tree_of x), consume E x st).
Proof.
  intros IH st rest0 k Hw Ha Hl Hr Hs Hn Hb Hk.
  apply (sub_expr_gen E x IH st rest0); auto; rewrite Hs; try discriminate.
  right; right. rewrite Hb. apply Nat.le_refl.
Qed.

(* parseSlice after the colon *)
Lemma parse_slice_spec E t : no_tyerr E -> optP (pratt_stmt E) t ->
  forall st w3 rest0 k tok left start,
  (match t with Some y => wl y /\ atoms_ok E y /\ layout_ok y = true | None => True end) ->
  rest st = (match t with Some y => render y | None => [] end) ++ mk T_RBRACKET :: wsl w3 ++ rest0 ->
  is_wss st = false ->
  (match t with Some y => S (spine y + Nat.max 1 (need y)) | None => 0 end) <= k ->
  parse_slice E (parse_expr E k) k tok left start st =
    Some (Some (TSlice left start (match t with Some y => Some (tree_of y) | None => None end)),
          slice_close E (match t with Some y => consume E y st | None => st end)).
Proof.
  intros NT IH st w3 rest0 k tok left start Ht Hr Hs Hk. unfold parse_slice. repeat (rewrite (tyerr_false E) by exact NT). destruct t as [y|].
  - destruct Ht as (Hw & Ha & Hl). simpl in IH.
    rewrite not_rbracket_branch by (rewrite (cur_t_first y st _ Hr); apply first_not_rbracket).
    rewrite (toplevel_is_expr E _ _ st y _ Ha Hr).
    rewrite (sub_expr E y IH st (mk T_RBRACKET :: wsl w3 ++ rest0) k); auto.
    pose proof (consume_free E y (consume_spec E y) st _ Hr Hs eq_refl Hl Ha) as A.
    unfold assert_token. rewrite (cur_t_rest _ _ _ (proj1 A)). simpl. repeat (rewrite (tyerr_false E) by exact NT). reflexivity.
  - simpl in Hr. rewrite (cur_t_rest _ _ _ Hr). simpl. repeat (rewrite (tyerr_false E) by exact NT). reflexivity.
Qed.

(* parseExprWSS on one tight argument / element / map value and the optional whitespace after it *)
Lemma expr_wss_arg E a : pratt_stmt E a -> forall st w rest1 k,
  wl a -> atoms_ok E a -> layout_ok a = true -> tight_ok a = true ->
  rest st = render a ++ wsl w ++ rest1 -> is_ws (look0 rest1) = false ->
  (e_fix_slice E = false -> ends_with_slice a = true -> w = false) ->
  stop_tok true lowestPrec (look0 (wsl w ++ rest1)) ->
  S (spine a + Nat.max 1 (need a)) <= k ->
  parse_expr_wss (parse_expr E k) st = Some (Some (tree_of a), pop_wss (consume E a (push_wss true st))).
Proof.
  intros IH st w rest1 k Hw Ha Hl Ht Hr Hn Hg Hstop Hk. unfold parse_expr_wss.
  rewrite (sub_expr_gen E a IH (push_wss true st) (wsl w ++ rest1) k Hw Ha Hl Hr (fun _ => Ht)); auto.
  - intro W. discriminate W.
  - intros F S. rewrite (Hg F S). exact Hn.
Qed.

(* parseExprList on the first token of an argument *)
Lemma expr_list_step pe f acc st : prefix_tt (cur_t st) ->
  parse_expr_list pe (S f) acc st =
  match parse_expr_wss pe st with
  | None => None
  | Some (n, st1) =>
      match n with None => ret None st1 | Some t => parse_expr_list pe f (t :: acc) (advance_if_ws st1) end
  end.
Proof.
  cbn [parse_expr_list]. unfold is_at_eol. generalize (cur_t st). apply prefix_tt_cases; reflexivity.
Qed.

(* the token after an argument ends a whitespace-sensitive expression *)
Lemma seq_stop (t : list lexp) wz c r : is_eol (ttype c) = true \/ precedences (ttype c) <= lowestPrec ->
  stop_tok true lowestPrec (look0 (wsl (seq_flag t wz) ++ render_seq render t wz ++ c :: r)).
Proof.
  intro H. destruct t as [|b t]; [destruct wz|]; simpl.
  - left. split; reflexivity.
  - rewrite ?render_seq_nil. right. exact H.
  - left. split; reflexivity.
Qed.

(* the tokens that end an argument list: ")" of a call in parentheses, the end of line of a call statement *)
Definition list_end (c : token) : Prop := ttype c = T_RPAREN \/ is_eol (ttype c) = true.
Lemma list_end_not_ws c : list_end c -> is_ws c = false.
Proof.
  unfold is_ws. intros [H|H]; [rewrite H; reflexivity|]. destruct (ttype c); try discriminate H; reflexivity.
Qed.
Lemma list_end_stop c : list_end c -> is_eol (ttype c) = true \/ precedences (ttype c) <= lowestPrec.
Proof. intros [H|H]; [right; rewrite H, rparen_lowest; apply Nat.le_refl|left; exact H]. Qed.

(* parseExprList on a whitespace-separated list of tight arguments, up to the closing parenthesis / the end of line *)
Lemma expr_list_spec E : no_tyerr E -> forall k args, Forall (pratt_stmt E) args -> forall f st wz c r acc,
  list_end c ->
  allP wl args -> args_ok E (atoms_ok E) wz args ->
  forallb (fun a => layout_ok a && tight_ok a) args = true ->
  rest st = render_seq render args wz ++ c :: r -> is_wss st = false ->
  List.length args < f ->
  max_over (fun a => S (spine a + Nat.max 1 (need a))) args <= k ->
  parse_expr_list (parse_expr E k) f acc st =
    Some (Some (rev acc ++ map tree_of args), consume_args (consume E) args st).
Proof.
  intros NT k args HF. induction HF as [|a t Ha Ht IH]; intros f st wz c r acc Hc Hwl Hat Hl Hr Hs Hf Hk.
  - rewrite render_seq_nil in Hr. simpl in Hr. destruct f as [|f]; [simpl in Hf; lia|].
    rewrite consume_args_nil. change (map tree_of []) with (@nil tree). rewrite app_nil_r.
    cbn [parse_expr_list]. unfold is_at_eol. rewrite (cur_t_rest _ _ _ Hr).
    destruct Hc as [H|H]; [rewrite H; reflexivity|]. destruct (ttype c); try discriminate H; reflexivity.
  - destruct f as [|f]; [simpl in Hf; lia|].
    rewrite render_seq_cons in Hr. rewrite <- !app_assoc in Hr.
    destruct Hwl as [Hwa Hwt]. destruct Hat as [[Haa Hga] Hat].
    simpl in Hl. apply andb_true_iff in Hl as [Hla Hlt]. apply andb_true_iff in Hla as [Hla Hta].
    rewrite max_over_cons in Hk. apply Nat.max_lub_iff in Hk as [Hka Hkt].
    rewrite expr_list_step by (rewrite (cur_t_first a st _ Hr); apply first_tok_prefix).
    set (rest1 := render_seq render t wz ++ c :: r) in *.
    assert (Hn : is_ws (look0 rest1) = false) by (apply render_seq_head_not_ws; exact (list_end_not_ws c Hc)).
    rewrite (expr_wss_arg E a Ha st (seq_flag t wz) rest1 k Hwa Haa Hla Hta Hr Hn Hga (seq_stop t wz c r (list_end_stop c Hc)) Hka).
    pose proof (arg_step E a (consume_spec E a) st (seq_flag t wz) rest1 Hr Hn Hla Hta Hga Haa) as A.
    unfold ret. rewrite consume_args_cons.
    rewrite (IH f _ wz c r (tree_of a :: acc)); auto.
    + simpl. rewrite <- app_assoc. reflexivity.
    + exact (proj1 A).
    + rewrite (reaches_wss A). exact Hs.
    + simpl in Hf. lia.
Qed.

Definition nonblank (t : toktype) : Prop := t <> T_NL /\ t <> T_WS /\ t <> T_COMMENT.

Lemma ml_S f st :
  parse_multiline_ws (S f) st =
  match cur_t st with
  | T_NL | T_WS => parse_multiline_ws f (advance_wss st)
  | T_COMMENT => parse_multiline_ws f (advance_wss (snd (assert_token T_NL (advance_wss st))))
  | _ => Some st
  end.
Proof. reflexivity. Qed.

Lemma ml_stop f s : nonblank (cur_t s) -> parse_multiline_ws (S f) s = Some s.
Proof. intros (N1 & N2 & N3). rewrite ml_S. destruct (cur_t s); try reflexivity; congruence. Qed.

(* parseMulitlineWS where at most one whitespace token precedes the next element / the closing bracket *)
Lemma ml_skip_gen n s : 2 <= n -> nonblank (cur_t (advance_if_ws s)) ->
  parse_multiline_ws n s = Some (advance_if_ws s).
Proof.
  intros Hn N. destruct n as [|[|n]]; try lia. revert N. unfold advance_if_ws.
  destruct (is_ws (cur s)) eqn:W; intro N.
  - assert (C : cur_t s = T_WS).
    { unfold is_ws in W. unfold cur_t. destruct (ttype (cur s)); try discriminate W. reflexivity. }
    rewrite ml_S, C. apply ml_stop. exact N.
  - apply ml_stop. exact N.
Qed.

Lemma seq_head_nonblank (t : list lexp) wz r :
  nonblank (ttype (look0 (render_seq render t wz ++ mk T_RBRACKET :: r))).
Proof.
  destruct t as [|a t].
  - rewrite render_seq_nil. simpl. repeat split; discriminate.
  - rewrite render_seq_cons, <- app_assoc. destruct (render_first a) as [x ->]. simpl.
    generalize (ttype (first_tok a)), (first_tok_prefix a). apply prefix_tt_cases; repeat split; discriminate.
Qed.

Lemma array_elems_step E pe f acc st : prefix_tt (cur_t st) ->
  parse_array_elems E pe (S f) acc st =
  match parse_expr_wss pe st with
  | None => None
  | Some (n, st1) =>
      match n with
      | None => ret None st1
      | Some t =>
          if tyerr E TS_array_elem_none t (here st) then ret None (add_err_at (E_type TS_array_elem_none) (here st) st1) else
          match parse_multiline_ws (S f) st1 with
          | None => None
          | Some st2 => parse_array_elems E pe f (t :: acc) st2
          end
      end
  end.
Proof.
  cbn [parse_array_elems]. generalize (cur_t st). apply prefix_tt_cases; reflexivity.
Qed.

(* the element loop of parseArrayLiteral on a whitespace-separated list of tight elements *)
Lemma array_elems_spec E : no_tyerr E -> forall k args, Forall (pratt_stmt E) args -> forall f st wz r acc,
  allP wl args -> args_ok E (atoms_ok E) wz args ->
  forallb (fun a => layout_ok a && tight_ok a) args = true ->
  rest st = render_seq render args wz ++ mk T_RBRACKET :: r ->
  S (List.length args) < f ->
  max_over (fun a => S (spine a + Nat.max 1 (need a))) args <= k ->
  parse_array_elems E (parse_expr E k) f acc st =
    Some (Some (rev acc ++ map tree_of args), consume_args (consume E) args st).
Proof.
  intros NT k args HF. induction HF as [|a t Ha Ht IH]; intros f st wz r acc Hwl Hat Hl Hr Hf Hk.
  - rewrite render_seq_nil in Hr. simpl in Hr. destruct f as [|f]; [simpl in Hf; lia|].
    rewrite consume_args_nil. cbn [map]. rewrite app_nil_r.
    destruct st as [pv rs pk ws es us]. cbn [rest] in Hr. subst rs. reflexivity.
  - destruct f as [|f]; [simpl in Hf; lia|].
    rewrite render_seq_cons in Hr. rewrite <- !app_assoc in Hr.
    destruct Hwl as [Hwa Hwt]. destruct Hat as [[Haa Hga] Hat].
    simpl in Hl. apply andb_true_iff in Hl as [Hla Hlt]. apply andb_true_iff in Hla as [Hla Hta].
    rewrite max_over_cons in Hk. apply Nat.max_lub_iff in Hk as [Hka Hkt].
    rewrite array_elems_step by (rewrite (cur_t_first a st _ Hr); apply first_tok_prefix).
    set (rest1 := render_seq render t wz ++ mk T_RBRACKET :: r) in *.
    assert (Hn : is_ws (look0 rest1) = false) by (apply render_seq_head_not_ws; reflexivity).
    rewrite (expr_wss_arg E a Ha st (seq_flag t wz) rest1 k Hwa Haa Hla Hta Hr Hn Hga
               (seq_stop t wz (mk T_RBRACKET) r (or_intror (Nat.eq_le_incl _ _ rbracket_lowest))) Hka).
    pose proof (arg_step E a (consume_spec E a) st (seq_flag t wz) rest1 Hr Hn Hla Hta Hga Haa) as A.
    unfold ret. rewrite (tyerr_false E) by exact NT. rewrite consume_args_cons.
    rewrite (ml_skip_gen (S f) (pop_wss (consume E a (push_wss true st)))).
    + rewrite (IH f _ wz r (tree_of a :: acc)); auto.
      * simpl. rewrite <- app_assoc. reflexivity.
      * exact (proj1 A).
      * simpl in Hf. lia.
    + simpl in Hf. lia.
    + unfold cur_t, cur. rewrite (proj1 A). apply seq_head_nonblank.
Qed.

Lemma has_key_keys k acc : has_key k acc = existsb (fun k' => str_eqb k' k) (map fst acc).
Proof. induction acc as [|[k' t] acc IH]; simpl; [reflexivity|]. rewrite IH. reflexivity. Qed.

Lemma map_pairs_step E pe f acc st k r :
  rest st = ident_tok k :: mk T_COLON :: r -> has_key k acc = false ->
  parse_map_pairs E pe (S f) acc st =
  match parse_expr_wss pe (advance (advance st)) with
  | None => None
  | Some (n, st4) =>
      match n with
      | None => ret None st4
      | Some t =>
          if tyerr E TS_map_value_none t (here (advance (advance st)))
          then ret None (add_err_at (E_type TS_map_value_none) (here (advance (advance st))) st4) else
          match parse_multiline_ws (S f) st4 with
          | None => None
          | Some st5 => parse_map_pairs E pe f ((k, t) :: acc) st5
          end
      end
  end.
Proof.
  intros Hr Hk.
  destruct (advance_tok st (ident_tok k) false (mk T_COLON :: r) Hr) as (A & _); auto.
  (* the state is taken apart so that the switch on the current token type computes while
     parse_map_pairs is unfolded: on an abstract state the unfolding is a match whose default
     branch, the whole rest of the function, is repeated for every token type *)
  destruct st as [pv rs pk ws es us]. cbn [rest] in Hr. subst rs.
  cbn [parse_map_pairs cur_t cur look0 hd rest ttype ident_tok].
  change (as_ident (ident_tok k)) with (ident_tok k). cbn [ident_tok ttype tlit]. rewrite Hk.
  unfold assert_token. rewrite (cur_t_rest _ _ _ A). reflexivity.
Qed.

Lemma pairs_head_nonblank (t : list (str * bool * lexp)) wz r :
  nonblank (ttype (look0 (render_pairs render t wz ++ mk T_RCURLY :: r))).
Proof.
  destruct t as [|[[k wc] v] t]; [rewrite render_pairs_nil|rewrite render_pairs_cons]; simpl; repeat split; discriminate.
Qed.

Lemma pairs_stop (t : list (str * bool * lexp)) wz r :
  stop_tok true lowestPrec (look0 (wsl (seq_flag t wz) ++ render_pairs render t wz ++ mk T_RCURLY :: r)).
Proof.
  destruct t as [|[[k wc] v] t]; [destruct wz|]; simpl.
  - left. split; reflexivity.
  - rewrite ?render_pairs_nil. right; right. change (precedences T_RCURLY <= lowestPrec). rewrite rcurly_lowest. apply Nat.le_refl.
  - left. split; reflexivity.
Qed.

(* parseMapPairs on a whitespace-separated list of key:value pairs with tight values and distinct keys *)
Lemma map_pairs_spec E : no_tyerr E -> forall k ps, Forall (fun p => pratt_stmt E (snd p)) ps -> forall f st wz r acc,
  allP (fun p => wl (snd p)) ps -> pairs_ok E (atoms_ok E) wz ps ->
  keys_fresh (map fst acc) (map pair_key ps) ->
  forallb (fun p => layout_ok (snd p) && tight_ok (snd p)) ps = true ->
  rest st = render_pairs render ps wz ++ mk T_RCURLY :: r -> is_wss st = false ->
  S (List.length ps) < f ->
  max_over (fun p => S (spine (snd p) + Nat.max 1 (need (snd p)))) ps <= k ->
  parse_map_pairs E (parse_expr E k) f acc st =
    Some (Some (rev acc ++ map (fun p => match p with (k, _, v) => (k, tree_of v) end) ps), consume_pairs (consume E) ps st).
Proof.
  intros NT k ps HF. induction HF as [|[[key wc] v] t Hv Ht IH]; intros f st wz r acc Hwl Hat Hfr Hl Hr Hs Hf Hk.
  - rewrite render_pairs_nil in Hr. simpl in Hr. destruct f as [|f]; [simpl in Hf; lia|].
    rewrite consume_pairs_nil. cbn [map]. rewrite app_nil_r.
    destruct st as [pv rs pk ws es us]. cbn [rest] in Hr. subst rs. reflexivity.
  - destruct f as [|f]; [simpl in Hf; lia|].
    rewrite render_pairs_cons in Hr. norm_app Hr. cbn [snd] in Hv.
    destruct Hwl as [Hwa Hwt]. destruct Hat as [[Haa Hga] Hat]. cbn [snd] in Hwa, Haa, Hga.
    simpl in Hfr. destruct Hfr as [Hfk Hfr].
    simpl in Hl. apply andb_true_iff in Hl as [Hla Hlt]. apply andb_true_iff in Hla as [Hla Hta].
    rewrite max_over_cons in Hk. cbn [snd] in Hk. apply Nat.max_lub_iff in Hk as [Hka Hkt].
    rewrite (map_pairs_step E _ f acc st key _ Hr) by (rewrite has_key_keys; exact Hfk).
    set (rest1 := render_pairs render t wz ++ mk T_RCURLY :: r) in *.
    assert (Hn : is_ws (look0 rest1) = false) by (apply render_pairs_head_not_ws; reflexivity).
    destruct (pair_step E v (consume_spec E v) st key wc (seq_flag t wz) rest1 Hr Hs Hn Hla Hta Hga Haa) as (A0 & A).
    rewrite (expr_wss_arg E v Hv _ (seq_flag t wz) rest1 k Hwa Haa Hla Hta (proj1 A0) Hn Hga (pairs_stop t wz r) Hka).
    unfold ret. rewrite (tyerr_false E) by exact NT. rewrite consume_pairs_cons. cbn [snd].
    rewrite (ml_skip_gen (S f) (pop_wss (consume E v (push_wss true (advance (advance st)))))).
    + rewrite (IH f _ wz r ((key, tree_of v) :: acc)); auto.
      * simpl. rewrite <- app_assoc. reflexivity.
      * exact (proj1 A).
      * rewrite (reaches_wss A). exact Hs.
      * simpl in Hf. lia.
    + simpl in Hf. lia.
    + unfold cur_t, cur. rewrite (proj1 A). apply pairs_head_nonblank.
Qed.

Lemma array_literal_spec E pe f st st2 l s :
  parse_multiline_ws f (advance st) = Some st2 -> parse_array_elems E pe f [] st2 = Some (Some l, s) ->
  cur_t s = T_RBRACKET ->
  parse_array_literal E pe f st = Some (Some (TArr l), advance s).
Proof. intros H1 H2 C. unfold parse_array_literal, assert_token. rewrite H1, H2, C. reflexivity. Qed.

Lemma map_literal_spec E pe f st st2 l s :
  parse_multiline_ws f (advance (push_wss false st)) = Some st2 -> parse_map_pairs E pe f [] st2 = Some (Some l, s) ->
  cur_t s = T_RCURLY ->
  parse_map_literal E pe f st = Some (Some (TMap l), pop_wss (advance_wss s)).
Proof. intros H1 H2 C. unfold parse_map_literal, assert_token. cbv zeta. rewrite H1, H2, C. reflexivity. Qed.

(* a production that starts with its own token: parseExpr enters the loop with what the prefix switch returns *)
Lemma prefix_case E k p st tr st' :
  parse_prefix E (parse_expr E k) k st = Some (Some tr, st') ->
  parse_expr E (S k) p st = expr_loop E k p tr st'.
Proof. intro H. rewrite parse_expr_S, H. reflexivity. Qed.

(* a production that starts with a sub-expression a of the same or a tighter level, followed by the
   token t: the loop has assembled a, takes one more turn on t and goes on with what that turn returns *)
Lemma infix_case E a : pratt_stmt E a -> forall st t rest1 p k tr st',
  wl a -> atoms_ok E a -> layout_ok a = true ->
  rest st = render a ++ mk t :: rest1 ->
  (is_wss st = true -> tight_ok a = true) ->
  is_ws (mk t) = false -> is_eol t = false ->
  precedences t <= top_bp a -> p < precedences t -> p_ok p a -> need a <= S k ->
  (after st (consume E a st) (last_ws a) (mk t :: rest1) ->
   parse_infix E (parse_expr E k) k (tree_of a) (consume E a st) = Some (Some (Some tr, st'))) ->
  parse_expr E (S (S (spine a) + k)) p st = expr_loop E k p tr st'.
Proof.
  intros IH st t rest1 p k tr st' Hw Ha Hl Hr Ht Hn He Hle Hlt Hp Hk Hi.
  replace (S (S (spine a) + k)) with (S (spine a + S k)) by lia.
  rewrite (IH st (mk t :: rest1) p (S k)); auto.
  2:{ right; right. exact Hle. }
  pose proof (consume_spec E a st (mk t :: rest1) Hr Hl Ht (fun _ => Hn) (fun _ _ => Hn) Ha) as A.
  rewrite (expr_loop_turn E k p _ _ t); auto.
  - rewrite (Hi A). reflexivity.
  - unfold cur. rewrite (proj1 A). reflexivity.
Qed.

Lemma pratt_general E : no_tyerr E -> forall l, pratt_stmt E l.
Proof.
  intro NT.
  induction l as [a ws|w1 e w2 IH|o e IH|o a ws b IHa IHb|e w1 i w2 IHe IHi|e w1 s w2 t w3 IHe IHs IHt|e k0 w IHe|e w1 t w2 w3 IHe|w1 f args wz w2 IHargs|w1 args wz w2 IHargs|w1 pairs wz w2 IHpairs]
    using lexp_ind'; intros st rest0 p k Hwl Hat Hl Hr Ht Hf Hg Hstop Hp Hk;
    cbn [spine tree_of consume]; cbn [tight_ok] in Ht; cbn [need] in Hk; simpl in Hwl, Hat, Hl, Hr, Hstop, Hp.
  - (* atom *)
    apply prefix_case, (prefix_atom E _ _ st a _ (atoms_ok_ws E a ws Hat) Hr).
  - (* group *)
    norm_app Hr. set (r1 := mk T_RPAREN :: wsl w2 ++ rest0) in *.
    pose proof (after_open st _ w1 _ Hr eq_refl (render_head_not_ws e r1)) as A1.
    pose proof (consume_free E e (consume_spec E e) _ r1 (proj1 A1) (after_wss A1) eq_refl Hl Hat) as A2.
    apply prefix_case. rewrite (prefix_group E _ _ st _ Hr). apply grouped_spec.
    + rewrite (toplevel_is_expr E _ _ _ e _ Hat (proj1 A1)).
      apply (sub_expr E e IH _ r1); auto. { exact (proj1 A1). } exact (after_wss A1).
    + exact (cur_t_rest _ _ _ (proj1 A2)).
  - (* unary *)
    destruct Hwl as [Hwl Hrk]. destruct (unary_le_top_bp e Hrk) as [Hle Hpe].
    pose proof (after_advance st _ false (render e ++ rest0) Hr (unop_tok_not_ws o) (fun _ => eq_refl)
                  (fun _ => render_head_not_ws e rest0)) as A1.
    apply prefix_case. rewrite (prefix_un E _ _ st o _ Hr). apply (unary_spec E _ st o _ _ _ NT Hr).
    + destruct A1 as (_ & _ & _ & D & _). exact (D eq_refl).
    + apply (operand E e IH _ rest0); rewrite ?(after_wss A1); auto. exact (proj1 A1).
  - (* binary *)
    destruct Hwl as (Hwa & Hwb & Hra & Hrb). destruct Hat as [Haa Hab]. apply andb_true_iff in Hl as [Hla Hlb].
    apply Nat.max_lub_iff in Hk as [Hka Hkb].
    rewrite app_cons_assoc, <- app_assoc in Hr.
    destruct (imp_andb _ _ _ Ht) as [Ht' Htb]. destruct (imp_andb _ _ _ Ht') as [Htw Hta].
    apply (infix_case E a IHa st (binop_tok o) (wsl ws ++ render b ++ rest0)); auto.
    { apply binop_tok_not_ws. } { destruct o; reflexivity. } { apply rank_le_top_bp, Hra. } { eapply p_ok_left; eauto. }
    intro A1.
    assert (A2 : after (consume E a st) (advance (consume E a st)) ws (render b ++ rest0)).
    { apply (after_advance _ _ _ _ (proj1 A1) (binop_tok_not_ws o)); rewrite (after_wss A1).
      - exact (imp_negb _ _ Htw).
      - intros _. apply render_head_not_ws. }
    apply (binary_spec E _ _ _ _ o _ _ _ NT (proj1 A1)).
    apply (operand E b IHb _ rest0); rewrite ?(after_wss A2), ?(after_wss A1); auto.
    + exact (proj1 A2).
    + apply rank_le_top_bp. lia.
    + apply rank_lt_p_ok, Hrb.
  - (* index *)
    norm_app Hr. destruct Hwl as (Hwe & Hwi & Hre). destruct Hat as [Hae Hai].
    apply andb_true_iff in Hl as [Hl Hli]. apply andb_true_iff in Hl as [Hlw Hle].
    apply Nat.max_lub_iff in Hk as [Hke Hki].
    destruct (primary_top e p Hre) as [Htop Hpe]. destruct (imp_andb _ _ _ Ht) as [Htw Hte].
    set (r1 := mk T_RBRACKET :: wsl w2 ++ rest0) in *.
    apply (infix_case E e IHe st T_LBRACKET (wsl w1 ++ render i ++ r1)); auto; try lia.
    { rewrite Htop. apply Nat.le_refl. }
    intro A1.
    pose proof (after_open _ _ w1 _ (proj1 A1) eq_refl (render_head_not_ws i r1)) as A2.
    pose proof (consume_free E i (consume_spec E i) _ r1 (proj1 A2) (after_wss A2) eq_refl Hli Hai) as A3.
    rewrite (infix_lbracket E _ _ _ _ _ (proj1 A1)). f_equal. apply index_spec; auto.
    + destruct A1 as (_ & _ & _ & D & _). apply D, negb_true_iff, Hlw.
    + rewrite (cur_t_first i _ _ (proj1 A2)). apply first_not_colon.
    + rewrite (toplevel_is_expr E _ _ _ i _ Hai (proj1 A2)).
      apply (sub_expr E i IHi _ r1); auto. { exact (proj1 A2). } exact (after_wss A2).
    + exact (cur_t_rest _ _ _ (proj1 A3)).
  - (* slice *)
    norm_app Hr. destruct Hwl as (Hwe & Hws & Hwt & Hre). destruct Hat as (Hae & Has & Hat').
    apply andb_true_iff in Hl as [Hl Hlt]. apply andb_true_iff in Hl as [Hl Hls]. apply andb_true_iff in Hl as [Hlw Hle].
    apply Nat.max_lub_iff in Hk as [Hke Hk]. apply Nat.max_lub_iff in Hk as [Hks Hkt].
    destruct (primary_top e p Hre) as [Htop Hpe]. destruct (imp_andb _ _ _ Ht) as [Htw Hte].
    set (rt := (match t with Some x => render x | None => [] end) ++ mk T_RBRACKET :: wsl w3 ++ rest0) in *.
    assert (Hrt : is_ws (look0 rt) = false) by (unfold rt; destruct t; [apply render_head_not_ws|reflexivity]).
    assert (Hst : forall s1 start, is_wss s1 = false -> rest s1 = rt ->
              parse_slice E (parse_expr E k) k (here (consume E e st)) (tree_of e) start s1 =
              Some (Some (TSlice (tree_of e) start (match t with Some y => Some (tree_of y) | None => None end)),
                    slice_close E (match t with Some y => consume E y s1 | None => s1 end))).
    { intros s1 start W R. apply (parse_slice_spec E t NT IHt s1 w3 rest0 k); auto. destruct t; auto. }
    apply (infix_case E e IHe st T_LBRACKET
             (wsl w1 ++ (match s with Some x => render x | None => [] end) ++ mk T_COLON :: wsl w2 ++ rt)); auto; try lia.
    { rewrite Htop. apply Nat.le_refl. }
    intro A1.
    assert (Pv : is_ws (prev (consume E e st)) = false) by (destruct A1 as (_ & _ & _ & D & _); apply D, negb_true_iff, Hlw).
    rewrite (infix_lbracket E _ _ _ _ _ (proj1 A1)). f_equal.
    destruct s as [x|].
    + (* start index present *)
      pose proof (after_open _ _ w1 _ (proj1 A1) eq_refl (render_head_not_ws x _)) as A2.
      pose proof (consume_free E x (consume_spec E x) _ _ (proj1 A2) (after_wss A2) eq_refl Hls Has) as A3.
      pose proof (after_advance_free _ _ w2 rt (proj1 A3) eq_refl (eq_trans (after_wss A3) (after_wss A2)) Hrt) as A4.
      apply (slice_spec E _ _ _ _ (tree_of x) (consume E x (advance (push_wss false (consume E e st))))); auto.
      * rewrite (cur_t_first x _ _ (proj1 A2)). apply first_not_colon.
      * rewrite (toplevel_is_expr E _ _ _ x _ Has (proj1 A2)).
        apply (sub_expr E x IHs _ (mk T_COLON :: wsl w2 ++ rt)); auto. { exact (proj1 A2). } exact (after_wss A2).
      * exact (cur_t_rest _ _ _ (proj1 A3)).
      * apply Hst; [|exact (proj1 A4)]. rewrite (after_wss A4), (after_wss A3). exact (after_wss A2).
    + (* no start index *)
      pose proof (after_open _ _ w1 _ (proj1 A1) eq_refl eq_refl) as A2.
      pose proof (after_advance_free _ _ w2 rt (proj1 A2) eq_refl (after_wss A2) Hrt) as A4.
      apply slice_spec_no_start; auto.
      * exact (cur_t_rest _ _ _ (proj1 A2)).
      * apply Hst; [|exact (proj1 A4)]. rewrite (after_wss A4). exact (after_wss A2).
  - (* dot *)
    norm_app Hr. destruct Hwl as (Hwe & Hre). apply andb_true_iff in Hl as [Hlw Hle].
    destruct (primary_top e p Hre) as [Htop Hpe]. destruct (imp_andb _ _ _ Ht) as [Htw Hte].
    apply (infix_case E e IHe st T_DOT (ident_tok k0 :: wsl w ++ rest0)); auto; try lia.
    { rewrite Htop, dot_index. apply Nat.le_refl. }
    intros (A & _ & _ & D & P).
    apply (dot_spec E _ _ _ _ k0 (wsl w ++ rest0) NT); auto. apply D, negb_true_iff, Hlw.
  - (* type assertion *)
    norm_app Hr. destruct Hwl as (Hwe & Hre). destruct Hat as [Hae Hany]. apply andb_true_iff in Hl as [Hlw Hle].
    apply Nat.max_lub_iff in Hk as [Hke Hkt].
    destruct (primary_top e p Hre) as [Htop Hpe]. destruct (imp_andb _ _ _ Ht) as [Htw Hte].
    apply (infix_case E e IHe st T_DOT (mk T_LPAREN :: wsl w1 ++ render_ty t ++ wsl w2 ++ mk T_RPAREN :: wsl w3 ++ rest0));
      auto; try lia.
    { rewrite Htop, dot_index. apply Nat.le_refl. }
    intros (A & _ & _ & D & P).
    apply (assertion_spec E _ _ _ _ t w1 w2 w3 rest0 NT); auto. apply D, negb_true_iff, Hlw.
  - (* call in parentheses *)
    norm_app Hr. destruct Hat as (Hfn & Har & Hargs). apply Nat.max_lub_iff in Hk as [Hk1 Hk2].
    set (r2 := mk T_RPAREN :: wsl w2 ++ rest0) in *.
    pose proof (after_open st _ w1 _ Hr eq_refl eq_refl) as A1.
    pose proof (after_advance_free _ _ _ _ (proj1 A1) eq_refl (after_wss A1) (render_seq_head_not_ws args wz r2 eq_refl)) as A2.
    pose proof (consume_args_reaches E args _ wz r2 (proj1 A2) eq_refl Hl Hargs) as A3.
    apply prefix_case. rewrite (prefix_group E _ _ st _ Hr). apply grouped_spec.
    + rewrite (toplevel_call E _ _ _ f _ (proj1 A1) Hfn).
      apply (func_call_spec E _ _ _ f _ _ _ NT (proj1 A1)).
      * exact (expr_list_spec E NT k args IHargs k _ wz (mk T_RPAREN) (wsl w2 ++ rest0) [] (or_introl eq_refl)
                 Hwl Hargs Hl (proj1 A2) (eq_trans (after_wss A2) (after_wss A1)) Hk1 Hk2).
      * rewrite map_length. exact Har.
    + exact (cur_t_rest _ _ _ (proj1 A3)).
  - (* array literal *)
    norm_app Hr. apply Nat.max_lub_iff in Hk as [Hk1 Hk2].
    set (r2 := mk T_RBRACKET :: wsl w2 ++ rest0) in *.
    pose proof (open_spec st _ w1 _ Hr (render_seq_head_not_ws args wz r2 eq_refl)) as A1.
    pose proof (consume_args_reaches E args _ wz r2 (proj1 A1) eq_refl Hl Hat) as A2.
    apply prefix_case. rewrite (prefix_arr E _ _ st _ Hr).
    apply (array_literal_spec E _ _ st (advance_if_ws (advance st))).
    + apply ml_skip_gen; [lia|]. unfold cur_t, cur. rewrite (proj1 A1). apply seq_head_nonblank.
    + exact (array_elems_spec E NT k args IHargs k _ wz (wsl w2 ++ rest0) [] Hwl Hat Hl (proj1 A1) Hk1 Hk2).
    + exact (cur_t_rest _ _ _ (proj1 A2)).
  - (* map literal *)
    norm_app Hr. destruct Hat as [Hfr Hps]. apply Nat.max_lub_iff in Hk as [Hk1 Hk2].
    set (r2 := mk T_RCURLY :: wsl w2 ++ rest0) in *.
    pose proof (open_spec (push_wss false st) _ w1 _ Hr (render_pairs_head_not_ws pairs wz r2 eq_refl)) as A1.
    assert (HC : Forall (fun p => consume_stmt E (snd p)) pairs) by (apply Forall_forall; intros a _; apply consume_spec).
    pose proof (consume_pairs_spec E (atoms_ok E) pairs HC _ wz r2 (proj1 A1) (reaches_wss A1) eq_refl Hl Hps (fun _ H => H)) as A2.
    apply prefix_case. rewrite (prefix_map E _ _ st _ Hr).
    apply (map_literal_spec E _ _ st (advance_if_ws (advance (push_wss false st)))).
    + apply ml_skip_gen; [lia|]. unfold cur_t, cur. rewrite (proj1 A1). apply pairs_head_nonblank.
    + exact (map_pairs_spec E NT k pairs IHpairs k _ wz (wsl w2 ++ rest0) [] Hwl Hps Hfr Hl (proj1 A1) (reaches_wss A1) Hk1 Hk2).
    + exact (cur_t_rest _ _ _ (proj1 A2)).
Qed.

Lemma ty_size_le t : ty_size t <= List.length (render_ty t).
Proof. induction t; simpl; lia. Qed.

Lemma seq_fuel args wz : Forall (fun l => spine l + need l + 2 <= 2 * List.length (render l)) args ->
  List.length args <= List.length (render_seq render args wz) /\
  max_over (fun a => S (spine a + Nat.max 1 (need a))) args <= 2 * List.length (render_seq render args wz) + 2.
Proof.
  induction 1 as [|a t Ha Ht [IH1 IH2]].
  - rewrite render_seq_nil. simpl. lia.
  - rewrite render_seq_cons, max_over_cons, !app_length. simpl List.length. lia.
Qed.

Lemma pairs_fuel ps wz : Forall (fun p => spine (snd p) + need (snd p) + 2 <= 2 * List.length (render (snd p))) ps ->
  List.length ps <= List.length (render_pairs render ps wz) /\
  max_over (fun p => S (spine (snd p) + Nat.max 1 (need (snd p)))) ps <= 2 * List.length (render_pairs render ps wz) + 2.
Proof.
  induction 1 as [|[[k wc] v] t Hv Ht [IH1 IH2]].
  - rewrite render_pairs_nil. simpl. lia.
  - rewrite render_pairs_cons, max_over_cons. cbn [snd] in *. simpl List.length. rewrite !app_length. simpl List.length. lia.
Qed.

(* enough fuel: the model's entry point runs with 2 * (number of tokens) + 10 *)
Lemma fuel_bound l : spine l + need l + 2 <= 2 * List.length (render l).
Proof.
  induction l as [a ws|w1 e w2 IH|o e IH|o a ws b IHa IHb|e w1 i w2 IHe IHi|e w1 s w2 t w3 IHe IHs IHt|e k w IHe|e w1 t w2 w3 IHe|w1 f args wz w2 IHargs|w1 args wz w2 IHargs|w1 pairs wz w2 IHpairs]
    using lexp_ind'; cbn [spine need render];
    try pose proof (ty_size_le t);
    repeat (rewrite app_length || (progress simpl List.length)); try lia.
  - destruct s as [x|], t as [y|]; simpl in IHs, IHt; simpl List.length; lia.
  - destruct (seq_fuel args wz IHargs) as [H1 H2]. lia.
  - destruct (seq_fuel args wz IHargs) as [H1 H2]. lia.
  - destruct (pairs_fuel pairs wz IHpairs) as [H1 H2]. lia.
Qed.

(* The guard that excludes exactly the class on which parseSlice is defective:
   as the code is, a slice that ends a whitespace-sensitive expression must not
   be followed by whitespace (the separator of the next argument / element). *)
Definition slice_guard (E : env) (l : lexp) (rest0 : list token) : Prop :=
  e_fix_slice E = false -> ends_with_slice l = true -> is_ws (look0 rest0) = false.

Theorem pratt_layered E l st rest0 fuel :
  no_tyerr E -> Lay 0 l -> atoms_ok E l -> layout_ok l = true ->
  rest st = render l ++ rest0 ->
  (is_wss st = true -> tight_ok l = true) ->
  (is_wss st = false -> is_ws (look0 rest0) = false) ->
  slice_guard E l rest0 ->
  stop_tok (is_wss st) lowestPrec (look0 rest0) ->
  2 * List.length (render l) <= fuel ->
  parse_expr E fuel lowestPrec st = Some (Some (tree_of l), consume E l st) /\
  rest (consume E l st) = rest0 /\ wss (consume E l st) = wss st /\ errs (consume E l st) = errs st.
Proof.
  intros NT HL Hat Hlo Hr Ht Hf Hg Hstop Hfuel.
  destruct (Lay_wl _ _ HL) as [Hwl _]. pose proof (fuel_bound l) as Hb.
  split.
  - apply (sub_expr_gen E l (pratt_general E NT l) st rest0); auto. lia.
  - exact (after_reaches (consume_spec E l st rest0 Hr Hlo Ht Hf Hg Hat)).
Qed.

(* with the corrected parseSlice no guard is needed *)
Theorem pratt_layered_fixed E l st rest0 fuel :
  e_fix_slice E = true ->
  no_tyerr E -> Lay 0 l -> atoms_ok E l -> layout_ok l = true ->
  rest st = render l ++ rest0 ->
  (is_wss st = true -> tight_ok l = true) ->
  (is_wss st = false -> is_ws (look0 rest0) = false) ->
  stop_tok (is_wss st) lowestPrec (look0 rest0) ->
  2 * List.length (render l) <= fuel ->
  parse_expr E fuel lowestPrec st = Some (Some (tree_of l), consume E l st) /\
  rest (consume E l st) = rest0 /\ wss (consume E l st) = wss st /\ errs (consume E l st) = errs st.
Proof.
  intros Hfix NT HL Hat Hlo Hr Ht Hf Hstop Hfuel. apply pratt_layered; auto.
  intros Hc _. rewrite Hfix in Hc. discriminate Hc.
Qed.

(* the tree depends on the derivation only, not on its layout *)
Lemma tree_of_erase l : tree_of l = stree (erase l).
Proof.
  induction l as [a ws|w1 e w2 IH|o e IH|o a ws b IHa IHb|e w1 i w2 IHe IHi|e w1 s w2 t w3 IHe IHs IHt|e k w IHe|e w1 t w2 w3 IHe|w1 f args wz w2 IHargs|w1 args wz w2 IHargs|w1 pairs wz w2 IHpairs]
    using lexp_ind'; simpl; try congruence.
  - destruct s, t; simpl in *; congruence.
  - f_equal. f_equal. rewrite map_map. induction IHargs as [|a t Ha _ IH]; simpl; [reflexivity|]. rewrite Ha, IH. reflexivity.
  - f_equal. rewrite map_map. induction IHargs as [|a t Ha _ IH]; simpl; [reflexivity|]. rewrite Ha, IH. reflexivity.
  - f_equal. rewrite map_map. induction IHpairs as [|[[k wc] v] t Hv _ IH]; simpl; [reflexivity|].
    simpl in Hv. rewrite Hv, IH. reflexivity.
Qed.

Theorem layout_irrelevant E l1 l2 st1 st2 r1 r2 fuel1 fuel2 :
  erase l1 = erase l2 ->
  no_tyerr E -> Lay 0 l1 -> Lay 0 l2 -> atoms_ok E l1 -> atoms_ok E l2 -> layout_ok l1 = true -> layout_ok l2 = true ->
  rest st1 = render l1 ++ r1 -> rest st2 = render l2 ++ r2 ->
  (is_wss st1 = true -> tight_ok l1 = true) -> (is_wss st2 = true -> tight_ok l2 = true) ->
  (is_wss st1 = false -> is_ws (look0 r1) = false) -> (is_wss st2 = false -> is_ws (look0 r2) = false) ->
  slice_guard E l1 r1 -> slice_guard E l2 r2 ->
  stop_tok (is_wss st1) lowestPrec (look0 r1) -> stop_tok (is_wss st2) lowestPrec (look0 r2) ->
  2 * List.length (render l1) <= fuel1 -> 2 * List.length (render l2) <= fuel2 ->
  exists t s1 s2,
    parse_expr E fuel1 lowestPrec st1 = Some (Some t, s1) /\ rest s1 = r1 /\
    parse_expr E fuel2 lowestPrec st2 = Some (Some t, s2) /\ rest s2 = r2 /\ t = stree (erase l1).
Proof.
  intros He NT L1 L2 A1 A2 O1 O2 R1 R2 T1 T2 F1 F2 G1 G2 S1 S2 U1 U2.
  destruct (pratt_layered E l1 st1 r1 fuel1) as (P1 & Q1 & _); auto.
  destruct (pratt_layered E l2 st2 r2 fuel2) as (P2 & Q2 & _); auto.
  exists (tree_of l1), (consume E l1 st1), (consume E l2 st2).
  rewrite P1, P2. repeat split; auto.
  - rewrite !tree_of_erase, He. reflexivity.
  - apply tree_of_erase.
Qed.

(* an expression that does not end in a slice needs no guard; what the precedence theorems below keep *)
Lemma pratt_layered_rest E l st rest0 fuel :
  no_tyerr E -> Lay 0 l -> ends_with_slice l = false -> atoms_ok E l -> layout_ok l = true ->
  rest st = render l ++ rest0 ->
  (is_wss st = true -> tight_ok l = true) ->
  (is_wss st = false -> is_ws (look0 rest0) = false) ->
  stop_tok (is_wss st) lowestPrec (look0 rest0) ->
  2 * List.length (render l) <= fuel ->
  exists st', parse_expr E fuel lowestPrec st = Some (Some (tree_of l), st') /\ rest st' = rest0.
Proof.
  intros NT HL Hs Hat Hlo Hr Ht Hf Hstop Hfu.
  destruct (pratt_layered E l st rest0 fuel) as (P & Q & _); auto.
  { intros _ Hc. rewrite Hs in Hc. discriminate Hc. }
  exists (consume E l st). split; [exact P|exact Q].
Qed.

(* left associativity at every level, and precedence between levels *)
Lemma Lay_left_assoc o1 o2 a b c w1 w2 wa wb wc :
  rank o1 = rank o2 ->
  Lay 0 (LBin o2 (LBin o1 (LAtom a wa) w1 (LAtom b wb)) w2 (LAtom c wc)).
Proof.
  intro H. pose proof (rank_bounds o1). pose proof (rank_bounds o2).
  apply wl_Lay; simpl; unfold rank_primary; lia.
Qed.

Lemma Lay_tighter_right o1 o2 a b c w1 w2 wa wb wc :
  rank o1 < rank o2 ->
  Lay 0 (LBin o1 (LAtom a wa) w1 (LBin o2 (LAtom b wb) w2 (LAtom c wc))).
Proof.
  intro H. pose proof (rank_bounds o1). pose proof (rank_bounds o2).
  apply wl_Lay; simpl; unfold rank_primary; lia.
Qed.

Theorem left_assoc E o1 o2 a b c w1 w2 wa wb wc st rest0 fuel :
  rank o1 = rank o2 ->
  let l := LBin o2 (LBin o1 (LAtom a wa) w1 (LAtom b wb)) w2 (LAtom c wc) in
  no_tyerr E -> atoms_ok E l ->
  rest st = render l ++ rest0 ->
  (is_wss st = true -> tight_ok l = true) ->
  (is_wss st = false -> is_ws (look0 rest0) = false) ->
  stop_tok (is_wss st) lowestPrec (look0 rest0) ->
  2 * List.length (render l) <= fuel ->
  exists st', parse_expr E fuel lowestPrec st =
    Some (Some (TBin (binop_tok o2) (TBin (binop_tok o1) (atom_tree a) (atom_tree b)) (atom_tree c)), st')
    /\ rest st' = rest0.
Proof.
  intros H l NT Hat Hr Ht Hf Hs Hfu.
  apply (pratt_layered_rest E l); auto. apply Lay_left_assoc, H.
Qed.

Theorem tighter_binds_first E o1 o2 a b c w1 w2 wa wb wc st rest0 fuel :
  rank o1 < rank o2 ->
  let l := LBin o1 (LAtom a wa) w1 (LBin o2 (LAtom b wb) w2 (LAtom c wc)) in
  no_tyerr E -> atoms_ok E l ->
  rest st = render l ++ rest0 ->
  (is_wss st = true -> tight_ok l = true) ->
  (is_wss st = false -> is_ws (look0 rest0) = false) ->
  stop_tok (is_wss st) lowestPrec (look0 rest0) ->
  2 * List.length (render l) <= fuel ->
  exists st', parse_expr E fuel lowestPrec st =
    Some (Some (TBin (binop_tok o1) (atom_tree a) (TBin (binop_tok o2) (atom_tree b) (atom_tree c))), st')
    /\ rest st' = rest0.
Proof.
  intros H l NT Hat Hr Ht Hf Hs Hfu.
  apply (pratt_layered_rest E l); auto. apply Lay_tighter_right, H.
Qed.

(* unary operators bind tighter than every binary operator and looser than the
   postfix forms:  -a[i] op b  is  (-(a[i])) op b *)
Theorem unary_between E u o a i b w1 w2 w3 wi wb st rest0 fuel :
  let l := LBin o (LUn u (LIndex (LAtom a false) w1 (LAtom i wi) w2)) w3 (LAtom b wb) in
  no_tyerr E -> atoms_ok E l ->
  rest st = render l ++ rest0 ->
  (is_wss st = true -> tight_ok l = true) ->
  (is_wss st = false -> is_ws (look0 rest0) = false) ->
  stop_tok (is_wss st) lowestPrec (look0 rest0) ->
  2 * List.length (render l) <= fuel ->
  exists st', parse_expr E fuel lowestPrec st =
    Some (Some (TBin (binop_tok o) (TUn (unop_tok u) (TIndex (atom_tree a) (atom_tree i))) (atom_tree b)), st')
    /\ rest st' = rest0.
Proof.
  intros l NT Hat Hr Ht Hf Hs Hfu.
  apply (pratt_layered_rest E l); auto.
  pose proof (rank_bounds o). apply wl_Lay; simpl; unfold rank_unary, rank_primary; lia.
Qed.

(** * End to end: an inferred declaration  x := e  NL *)

Theorem decl_stmt_parses E x w0 w1 l fuel :
  no_tyerr E -> Lay 0 l -> atoms_ok E l -> layout_ok l = true ->
  let toks := {| ttype := T_IDENT; tlit := x |} :: wsl w0 ++ mk T_DECLARE :: wsl w1 ++ render l ++ [mk T_NL] in
  2 * List.length toks <= fuel ->
  exists st', parse_stmt_expr E fuel 2 toks = Some (Some (tree_of l), st') /\
              rest st' = [mk T_NL] /\ is_at_eol st' = true /\ errs st' = [].
Proof.
  intros NT HL Hat Hlo toks Hfu. unfold parse_stmt_expr. simpl Nat.iter.
  set (s0 := init_state toks).
  pose proof (after_advance_free s0 _ w0 (mk T_DECLARE :: wsl w1 ++ render l ++ [mk T_NL]) eq_refl eq_refl eq_refl eq_refl) as A1.
  pose proof (after_advance_free _ _ w1 (render l ++ [mk T_NL]) (proj1 A1) eq_refl (after_wss A1) (render_head_not_ws l _)) as A2.
  destruct (after_reaches (after_trans A1 A2)) as (R2 & W2 & E2). apply is_wss_eq in W2.
  rewrite (toplevel_is_expr E _ _ _ l _ Hat R2).
  destruct (pratt_layered E l _ [mk T_NL] fuel NT HL Hat Hlo R2) as (P & Q & R & S); auto.
  - rewrite W2. discriminate.
  - intros _ _. reflexivity.
  - right; left. reflexivity.
  - unfold toks in Hfu. simpl List.length in Hfu. rewrite !app_length in Hfu. simpl List.length in Hfu.
    rewrite !app_length in Hfu. lia.
  - exists (consume E l (advance (advance s0))). rewrite P. repeat split; auto.
    + unfold is_at_eol. rewrite (cur_t_rest _ _ _ Q). reflexivity.
    + rewrite S, E2. reflexivity.
Qed.

(* a call statement  f a1 ... an NL  (parseTopLevelExpr at statement level, no parentheses): the
   arguments are derivations of the grammar, separated by whitespace, each rendered tight *)
Theorem call_stmt_parses E f args wz fuel :
  no_tyerr E -> func_of E f = Some false -> arity_wrong E f (List.length args) = false ->
  (forall a, In a args -> Lay 0 a) -> args_ok E (atoms_ok E) wz args ->
  forallb (fun a => layout_ok a && tight_ok a) args = true ->
  let toks := ident_tok f :: wsl (seq_flag args wz) ++ render_seq render args wz ++ [mk T_NL] in
  2 * List.length toks <= fuel ->
  exists st', parse_stmt_expr E fuel 0 toks = Some (Some (TCall f (map tree_of args)), st') /\
              rest st' = [mk T_NL] /\ is_at_eol st' = true /\ errs st' = [].
Proof.
  intros NT Hfn Har HL Hargs Hl toks Hfu. unfold parse_stmt_expr. simpl Nat.iter.
  set (s0 := init_state toks).
  assert (R0 : rest s0 = ident_tok f :: wsl (seq_flag args wz) ++ (render_seq render args wz ++ [mk T_NL])) by reflexivity.
  pose proof (after_advance_free s0 _ _ _ R0 eq_refl eq_refl (render_seq_head_not_ws args wz [mk T_NL] eq_refl)) as A1.
  assert (HP : Forall (pratt_stmt E) args) by (apply Forall_forall; intros a _; apply pratt_general; exact NT).
  assert (Hwl : allP wl args) by (apply allP_In; intros a Ha; exact (proj1 (Lay_wl _ _ (HL a Ha)))).
  assert (HB : Forall (fun l => spine l + need l + 2 <= 2 * List.length (render l)) args)
    by (apply Forall_forall; intros a _; apply fuel_bound).
  destruct (seq_fuel args wz HB) as [F1 F2].
  assert (Hlen : List.length toks = S (List.length (wsl (seq_flag args wz)) + (List.length (render_seq render args wz) + 1))).
  { unfold toks. simpl List.length. rewrite !app_length. reflexivity. }
  destruct (reaches_trans (after_reaches A1)
              (consume_args_reaches E args _ wz [mk T_NL] (proj1 A1) eq_refl Hl Hargs))
    as (A2 & _ & C2).
  rewrite (toplevel_call E _ _ s0 f _ R0 Hfn).
  rewrite (func_call_spec E _ _ s0 f _ (map tree_of args) (consume_args (consume E) args (advance s0)) NT R0).
  - eexists. split; [reflexivity|]. repeat split; [exact A2| |exact C2].
    unfold is_at_eol. rewrite (cur_t_rest _ _ _ A2). reflexivity.
  - apply (expr_list_spec E NT fuel args HP fuel _ wz (mk T_NL) [] [] (or_intror eq_refl) Hwl Hargs Hl (proj1 A1) (after_wss A1)); lia.
  - rewrite map_length. exact Har.
Qed.

(** * The parseSlice defect and its correction *)

(* with the proposed fix the closing bracket of a slice is consumed without
   skipping whitespace, exactly like the closing bracket of an index expression *)
Lemma slice_close_fixed E st : e_fix_slice E = true -> slice_close E st = advance_wss st.
Proof. unfold slice_close. intros ->. reflexivity. Qed.

Lemma slice_close_fixed_keeps_ws E st t r :
  e_fix_slice E = true -> rest st = t :: mk T_WS :: r -> cur (slice_close E st) = mk T_WS.
Proof. intros H Hr. rewrite slice_close_fixed by exact H. unfold cur, advance_wss; simpl. rewrite Hr. reflexivity. Qed.

(* as the code is: inside the pushed "not whitespace sensitive" context the whitespace is swallowed *)
Lemma slice_close_swallows_ws E st t t2 r b w :
  e_fix_slice E = false -> rest st = t :: mk T_WS :: t2 :: r -> wss st = false :: b :: w -> is_ws t2 = false ->
  cur (slice_close E st) = t2.
Proof.
  intros H Hr Hw Ht2. unfold slice_close. rewrite H.
  destruct (advance_tok st t true (t2 :: r)) as (A & _); auto.
  - unfold is_wss. rewrite Hw. discriminate.
  - unfold cur. rewrite A. reflexivity.
Qed.
