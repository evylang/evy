(* C01 (evaluation-order part) — expressions evaluate as the language
   definition prescribes: short-circuit and/or, left-to-right evaluation of
   operands / list elements / call arguments, the binary-operator table of
   docs/spec.md, and the laws of deep equality. *)
From Coq Require Import ZArith NArith List String Bool Floats FMapPositive Permutation.
From EvyV Require Import Base Num Ast Omap Sem SemBasics SemOrder.
Import ListNotations.
Open Scope Z_scope.

(* B1. short-circuit *)
(* s -tick-> s1 -left operand-> s2.  Left operand false: the whole `and` node
   is one allocation of false in s2 — the right operand r is never run. *)
Theorem C01_short_circuit_and : forall n P e t l r s s1 la s2,
  tick s = (Ok tt, s1) ->
  eval_expr n P e l s1 = (Ok la, s2) ->
  hget (st_heap s2) la = Some (HBool false) ->
  eval_expr (S n) P e (EBin BAnd t l r) s =
    (Ok (hnext (st_heap s2)), upd_heap (snd (halloc (st_heap s2) (HBool false))) s2)
  /\ st_trace (snd (eval_expr (S n) P e (EBin BAnd t l r) s)) = st_trace s2.
Proof. intros n P e t l r s s1 la s2 Ht Hl Hv. exact (ebin_short_state _ _ _ BAnd t _ r _ _ _ _ _ Ht Hl Hv eq_refl). Qed.
Print Assumptions C01_short_circuit_and.

Theorem C01_short_circuit_or : forall n P e t l r s s1 la s2,
  tick s = (Ok tt, s1) ->
  eval_expr n P e l s1 = (Ok la, s2) ->
  hget (st_heap s2) la = Some (HBool true) ->
  eval_expr (S n) P e (EBin BOr t l r) s =
    (Ok (hnext (st_heap s2)), upd_heap (snd (halloc (st_heap s2) (HBool true))) s2)
  /\ st_trace (snd (eval_expr (S n) P e (EBin BOr t l r) s)) = st_trace s2.
Proof. intros n P e t l r s s1 la s2 Ht Hl Hv. exact (ebin_short_state _ _ _ BOr t _ r _ _ _ _ _ Ht Hl Hv eq_refl). Qed.
Print Assumptions C01_short_circuit_or.

(* otherwise the right operand IS evaluated next, from the state the left one
   reached, and then the operator is applied (bin_dispatch, SemOrder: read the
   left cell again, dispatch on its kind) *)
Theorem C01_no_short_circuit_and : forall n P e t l r s s1 la s2,
  tick s = (Ok tt, s1) ->
  eval_expr n P e l s1 = (Ok la, s2) ->
  hget (st_heap s2) la = Some (HBool true) ->
  eval_expr (S n) P e (EBin BAnd t l r) s =
    (let* lb := eval_expr n P e r in bin_dispatch BAnd la lb) s2.
Proof. intros n P e t l r s s1 la s2 Ht Hl Hv. exact (ebin_no_short _ _ _ _ t _ r _ _ _ _ _ not_eq_and Ht Hl Hv eq_refl). Qed.
Print Assumptions C01_no_short_circuit_and.

Theorem C01_no_short_circuit_or : forall n P e t l r s s1 la s2,
  tick s = (Ok tt, s1) ->
  eval_expr n P e l s1 = (Ok la, s2) ->
  hget (st_heap s2) la = Some (HBool false) ->
  eval_expr (S n) P e (EBin BOr t l r) s =
    (let* lb := eval_expr n P e r in bin_dispatch BOr la lb) s2.
Proof. intros n P e t l r s s1 la s2 Ht Hl Hv. exact (ebin_no_short _ _ _ _ t _ r _ _ _ _ _ not_eq_or Ht Hl Hv eq_refl). Qed.
Print Assumptions C01_no_short_circuit_or.

(* x: content of the left cell after the right operand ran; y: right value *)
Theorem C01_no_short_circuit_and_result : forall n P e t l r s s1 la s2 lb s3 x y,
  tick s = (Ok tt, s1) ->
  eval_expr n P e l s1 = (Ok la, s2) ->
  hget (st_heap s2) la = Some (HBool true) ->
  eval_expr n P e r s2 = (Ok lb, s3) ->
  hget (st_heap s3) la = Some (HBool x) ->
  hget (st_heap s3) lb = Some (HBool y) ->
  eval_expr (S n) P e (EBin BAnd t l r) s = alloc (HBool (x && y)) s3.
Proof. intros n P e t l r s s1 la s2 lb s3 x y Ht Hl Hv. exact (ebin_bool _ _ _ _ t _ _ _ _ _ _ _ _ _ _ _ not_eq_and Ht Hl Hv eq_refl). Qed.
Print Assumptions C01_no_short_circuit_and_result.

Theorem C01_no_short_circuit_or_result : forall n P e t l r s s1 la s2 lb s3 x y,
  tick s = (Ok tt, s1) ->
  eval_expr n P e l s1 = (Ok la, s2) ->
  hget (st_heap s2) la = Some (HBool false) ->
  eval_expr n P e r s2 = (Ok lb, s3) ->
  hget (st_heap s3) la = Some (HBool x) ->
  hget (st_heap s3) lb = Some (HBool y) ->
  eval_expr (S n) P e (EBin BOr t l r) s = alloc (HBool (x || y)) s3.
Proof. intros n P e t l r s s1 la s2 lb s3 x y Ht Hl Hv. exact (ebin_bool _ _ _ _ t _ _ _ _ _ _ _ _ _ _ _ not_eq_or Ht Hl Hv eq_refl). Qed.
Print Assumptions C01_no_short_circuit_or_result.

(* an error / stop in the left operand is the result: nothing else runs *)
Theorem C01_binary_left_error : forall n P e op t l r s s1 er s2,
  tick s = (Ok tt, s1) ->
  eval_expr n P e l s1 = (Er er, s2) ->
  eval_expr (S n) P e (EBin op t l r) s = (Er er, s2).
Proof. exact ebin_left_error. Qed.
Print Assumptions C01_binary_left_error.

(* B2. left to right: unfolding equations *)
Theorem C01_exprlist_order : forall n P e x t,
  eval_exprs (S n) P e (x :: t) =
    (let* v := eval_expr n P e x in
     let* d := depth_fuel in
     let* c := copy_or_ref d v in
     let* r := eval_exprs n P e t in
     ret (c :: r)).
Proof. exact eval_exprs_cons. Qed.
Print Assumptions C01_exprlist_order.

Theorem C01_binary_order : forall n P e op t a b,
  eval_expr (S n) P e (EBin op t a b) =
    (let* _ := tick in
     let* la := eval_expr n P e a in
     let* va0 := load la in
     let short := match op, va0 with
                  | BAnd, HBool false => true
                  | BOr, HBool true => true
                  | _, _ => false
                  end in
     let* lb := if short then ret la else eval_expr n P e b in
     match op with
     | BEq => let* d := depth_fuel in let* r := equals d la lb in alloc (HBool r)
     | BNotEq => let* d := depth_fuel in let* r := equals d la lb in alloc (HBool (negb r))
     | _ =>
         let* va := load la in
         match va with
         | HNum y => let* z := load_num lb in bin_num op y z
         | HStr y => let* z := load_str lb in bin_str op y z
         | HBool y => let* z := load_bool lb in bin_bool op y z
         | HArr xs => bin_arr op xs lb
         | _ => internal "unknown operation (binary)"
         end
     end).
Proof. exact eval_bin_order. Qed.
Print Assumptions C01_binary_order.

Theorem C01_index_order : forall n P e t a i,
  eval_expr (S n) P e (EIndex t a i) =
    (let* _ := tick in
     let* la := eval_expr n P e a in
     let* li := eval_expr n P e i in
     let* va := load la in
     match va with
     | HArr els =>
         let* fi := load_num li in
         let* k := lift (normalize_index fi (List.length els) false) in
         match nth_error els k with Some l => ret l | None => crash "index out of range" end
     | HStr s =>
         let* fi := load_num li in
         let* k := lift (normalize_index fi (List.length s) false) in
         match nth_error s k with Some c => alloc (HStr [c]) | None => crash "index out of range" end
     | HMap om =>
         let* vi := load li in
         match vi with
         | HStr k => match oget k om with Some l => ret l | None => fail (EPanic PkMapKey) end
         | _ => internal "expected string for map index"
         end
     | _ => internal "expected array, string or map with index"
     end).
Proof. exact eval_index_order. Qed.
Print Assumptions C01_index_order.

Theorem C01_slice_order : forall n P e t a lo hi,
  eval_expr (S n) P e (ESlice t a lo hi) =
    (let* _ := tick in
     let* la := eval_expr n P e a in
     let* llo := match lo with Some y => let* l := eval_expr n P e y in ret (Some l) | None => ret None end in
     let* lhi := match hi with Some y => let* l := eval_expr n P e y in ret (Some l) | None => ret None end in
     let* va := load la in
     match va with
     | HArr els =>
         let* (s0, e0) := slice_bounds llo lhi (List.length els) in
         let* d := depth_fuel in
         let* els' := mapM (copy_or_ref d) (firstn (e0 - s0) (skipn s0 els)) in
         alloc (HArr els')
     | HStr s =>
         let* (s0, e0) := slice_bounds llo lhi (List.length s) in
         alloc (HStr (firstn (e0 - s0) (skipn s0 s)))
     | _ => internal "expected string or array before ["
     end).
Proof. exact eval_slice_order. Qed.
Print Assumptions C01_slice_order.

Theorem C01_array_literal_order : forall n P e t es,
  eval_expr (S n) P e (EArr t es) =
    (let* _ := tick in let* els := eval_exprs n P e es in alloc (HArr els)).
Proof. exact eval_arr_order. Qed.
Print Assumptions C01_array_literal_order.

(* eval_map_pairs (SemOrder): value of the first pair, copyOrRef, then the rest *)
Theorem C01_map_literal_order : forall n P e t ps,
  eval_expr (S n) P e (EMap t ps) =
    (let* _ := tick in
     let* d := depth_fuel in
     let* vals := eval_map_pairs n P e d ps in
     alloc (HMap {| pairs := vals; order := map fst ps |})).
Proof. exact eval_map_order. Qed.
Print Assumptions C01_map_literal_order.

Theorem C01_assign_order : forall n P e target x,
  exec_stmt (S n) P e (SAssign target x) =
    (let* _ := tick in
     let* v0 := eval_expr n P e x in
     let* d := depth_fuel in
     let* v := copy_or_ref d v0 in
     match target with
     | EVar name _ => let* e' := update_var name v e in ret (SigNone, e')
     | EIndex _ a i =>
         let* la := eval_expr n P e a in
         let* li := eval_expr n P e i in
         let* va := load la in
         match va with
         | HArr els =>
             let* fi := load_num li in
             let* k := lift (normalize_index fi (List.length els) false) in
             let* _ := store la (HArr (list_set els k v)) in
             ret (SigNone, e)
         | HMap _ =>
             let* k := load_str li in
             let* _ := map_set_key la k v in
             ret (SigNone, e)
         | _ => internal "expected array or map assignment target with index"
         end
     | EDot _ a key =>
         let* la := eval_expr n P e a in
         let* va := load la in
         match va with
         | HMap _ => let* _ := map_set_key la key v in ret (SigNone, e)
         | _ => internal "expected map before ."
         end
     | _ => internal "bad assignment target"
     end).
Proof. exact exec_assign_order. Qed.
Print Assumptions C01_assign_order.

(* arguments (through evalExprList, hence left to right) before the callee *)
Theorem C01_call_order : forall n P e name args,
  eval_call (S n) P e name args =
    (let* vals := eval_exprs n P e args in
     if str_eqb name n_test then let* _ := run_test vals in ret None
     else
     match builtin name e vals with
     | Some m => m
     | None =>
         if existsb (str_eqb name) unmodelled_builtins then fail (EUnsupported name)
         else
         match find_func name (p_funcs P) with
         | None => crash "nil FuncDef"
         | Some fd =>
             let* (fr, rest) := bind_params (fn_params fd) vals [] in
             let* fr' := match fn_variadic fd with
                         | Some (vn, _) => let* a := alloc (HArr vals) in
                                           ret (if str_eqb vn underscore then fr else frame_set vn a fr)
                         | None => ret fr
                         end in
             let* (sig, _) := exec_block n P [fr'] (fn_body fd) in
             match sig with
             | SigReturn v => ret v
             | _ => let* l := alloc HNone in ret (Some l)
             end
         end
     end).
Proof. exact eval_call_order. Qed.
Print Assumptions C01_call_order.

(* semantic corollaries *)
(* every function of the evaluator only extends the trace *)
Theorem C01_trace_extends : forall n,
  (forall P e x s r s', eval_expr n P e x s = (r, s') -> extends s s') /\
  (forall P e l s r s', eval_exprs n P e l s = (r, s') -> extends s s') /\
  (forall P e name args s r s', eval_call n P e name args s = (r, s') -> extends s s') /\
  (forall P e st s r s', exec_stmt n P e st s = (r, s') -> extends s s') /\
  (forall P e l s r s', exec_stmts n P e l s = (r, s') -> extends s s') /\
  (forall P e l s r s', exec_block n P e l s = (r, s') -> extends s s') /\
  (forall P e c b s r s', exec_cond n P e c b s = (r, s') -> extends s s') /\
  (forall P e c b s r s', exec_while n P e c b s = (r, s') -> extends s s') /\
  (forall P e v rg b s r s', exec_for n P e v rg b s = (r, s') -> extends s s').
Proof. exact eval_extends. Qed.
Print Assumptions C01_trace_extends.

(* a run that does not end in "out of fuel" is reproduced by every larger fuel *)
Theorem C01_fuel_monotone : forall n m, (n <= m)%nat ->
  (forall P e x s r s', eval_expr n P e x s = (r, s') -> r <> Er EOutOfFuel -> eval_expr m P e x s = (r, s')) /\
  (forall P e l s r s', eval_exprs n P e l s = (r, s') -> r <> Er EOutOfFuel -> eval_exprs m P e l s = (r, s')) /\
  (forall P e name args s r s', eval_call n P e name args s = (r, s') -> r <> Er EOutOfFuel ->
                                eval_call m P e name args s = (r, s')) /\
  (forall P e st s r s', exec_stmt n P e st s = (r, s') -> r <> Er EOutOfFuel -> exec_stmt m P e st s = (r, s')) /\
  (forall P e l s r s', exec_stmts n P e l s = (r, s') -> r <> Er EOutOfFuel -> exec_stmts m P e l s = (r, s')) /\
  (forall P e l s r s', exec_block n P e l s = (r, s') -> r <> Er EOutOfFuel -> exec_block m P e l s = (r, s')) /\
  (forall P e c b s r s', exec_cond n P e c b s = (r, s') -> r <> Er EOutOfFuel -> exec_cond m P e c b s = (r, s')) /\
  (forall P e c b s r s', exec_while n P e c b s = (r, s') -> r <> Er EOutOfFuel -> exec_while m P e c b s = (r, s')) /\
  (forall P e v rg b s r s', exec_for n P e v rg b s = (r, s') -> r <> Er EOutOfFuel ->
                             exec_for m P e v rg b s = (r, s')).
Proof. exact fuel_mono. Qed.
Print Assumptions C01_fuel_monotone.

(* exact-fuel decomposition of a list evaluation *)
Theorem C01_exprlist_app : forall P e xs ys k s,
  eval_exprs (List.length xs + S k) P e (xs ++ ys) s =
    (let* vs := eval_exprs (List.length xs + S k) P e xs in
     let* ws := eval_exprs (S k) P e ys in
     ret (vs ++ ws)) s.
Proof. exact eval_exprs_app. Qed.
Print Assumptions C01_exprlist_app.

(* trace_concat: the list xs ++ ys is xs then ys — values, final state, and
   events (rev (emitted a b) = the events between a and b, oldest first) *)
Theorem C01_trace_concat : forall n m P e xs ys s vs s1 ws s2,
  eval_exprs n P e xs s = (Ok vs, s1) ->
  eval_exprs m P e ys s1 = (Ok ws, s2) ->
  forall k, (List.length xs + S (Nat.max n m) <= k)%nat ->
  eval_exprs k P e (xs ++ ys) s = (Ok (vs ++ ws), s2) /\
  rev (emitted s s2) = rev (emitted s s1) ++ rev (emitted s1 s2).
Proof. exact trace_concat_general. Qed.
Print Assumptions C01_trace_concat.

(* the left operand's events precede the right operand's *)
Theorem C01_trace_concat_operands : forall n m P e l r s la s1 rb s2,
  eval_expr n P e l s = (Ok la, s1) ->
  eval_expr m P e r s1 = (rb, s2) ->
  rev (emitted s s2) = rev (emitted s s1) ++ rev (emitted s1 s2).
Proof. exact trace_concat_exprs. Qed.
Print Assumptions C01_trace_concat_operands.

(* B3a. the operator table *)
(* op_table (SemOrder) is the table of docs/spec.md "Operators and
   Expressions" without its last row (== != on all types: these are sent to
   [equals] before any dispatch on the operand kind, see C01_binary_order
   and C01_eq_dispatch). *)
Theorem C01_op_table : op_table =
  [ (KNum, BPlus); (KNum, BMinus); (KNum, BAsterisk); (KNum, BSlash); (KNum, BPercent);
    (KStr, BPlus);
    (KArr, BPlus);
    (KArr, BAsterisk);
    (KBool, BAnd); (KBool, BOr);
    (KNum, BLt); (KNum, BLtEq); (KNum, BGt); (KNum, BGtEq);
    (KStr, BLt); (KStr, BLtEq); (KStr, BGt); (KStr, BGtEq) ]
  /\ forall k op, in_table k op = true <-> In (k, op) op_table.
Proof. exact (conj eq_refl in_table_In). Qed.
Print Assumptions C01_op_table.

(* num operands: listed operators allocate a new cell holding the IEEE-754
   result / comparison, unlisted ones are an internal error; for ALL values *)
Theorem C01_binop_num : forall op x y s,
  match
    match op with
    | BPlus => Some (HNum (x + y)%float)
    | BMinus => Some (HNum (x - y)%float)
    | BAsterisk => Some (HNum (x * y)%float)
    | BSlash => Some (HNum (x / y)%float)
    | BPercent => Some (HNum (fmod x y))
    | BLt => Some (HBool (x <? y)%float)
    | BLtEq => Some (HBool (x <=? y)%float)
    | BGt => Some (HBool (y <? x)%float)
    | BGtEq => Some (HBool (y <=? x)%float)
    | BAnd | BOr | BEq | BNotEq => None
    end
  with
  | Some v => in_table KNum op = true /\ allocates v s (bin_num op x y s)
  | None => in_table KNum op = false /\ exists why, bin_num op x y s = (Er (EInternal why), s)
  end.
Proof. exact bin_num_table. Qed.
Print Assumptions C01_binop_num.

Theorem C01_binop_str : forall op x y s,
  match
    match op with
    | BPlus => Some (HStr (x ++ y))
    | BLt => Some (HBool (str_ltb x y))
    | BLtEq => Some (HBool (negb (str_ltb y x)))
    | BGt => Some (HBool (str_ltb y x))
    | BGtEq => Some (HBool (negb (str_ltb x y)))
    | _ => None
    end
  with
  | Some v => in_table KStr op = true /\ allocates v s (bin_str op x y s)
  | None => in_table KStr op = false /\ exists why, bin_str op x y s = (Er (EInternal why), s)
  end.
Proof. exact bin_str_table. Qed.
Print Assumptions C01_binop_str.

Theorem C01_binop_bool : forall op x y s,
  match
    match op with
    | BAnd => Some (HBool (x && y))
    | BOr => Some (HBool (x || y))
    | _ => None
    end
  with
  | Some v => in_table KBool op = true /\ allocates v s (bin_bool op x y s)
  | None => in_table KBool op = false /\ exists why, bin_bool op x y s = (Er (EInternal why), s)
  end.
Proof. exact bin_bool_table. Qed.
Print Assumptions C01_binop_bool.

Theorem C01_binop_arr_unlisted : forall op xs r s,
  in_table KArr op = false -> exists why, bin_arr op xs r s = (Er (EInternal why), s).
Proof. exact bin_arr_table_unlisted. Qed.
Print Assumptions C01_binop_arr_unlisted.

Theorem C01_binop_arr_concat : forall xs r ys s,
  hget (st_heap s) r = Some (HArr ys) ->
  in_table KArr BPlus = true /\
  bin_arr BPlus xs r s =
    (let* d := depth_fuel in
     let* xs' := mapM (copy_or_ref d) xs in
     let* ys' := mapM (copy_or_ref d) ys in
     alloc (HArr (xs' ++ ys'))) s.
Proof. exact bin_arr_concat. Qed.
Print Assumptions C01_binop_arr_concat.

Theorem C01_binop_arr_repeat : forall xs r f n s,
  hget (st_heap s) r = Some (HNum f) ->
  go_int_exact f = Some n -> 0 <= n -> Z.of_nat (List.length xs) * n <= max_alloc ->
  in_table KArr BAsterisk = true /\
  bin_arr BAsterisk xs r s =
    (let* d := depth_fuel in
     let* parts := mapM (fun _ => mapM (deep_copy d) xs) (repeat tt (Z.to_nat n)) in
     alloc (HArr (List.concat parts))) s.
Proof. exact bin_arr_repeat. Qed.
Print Assumptions C01_binop_arr_repeat.

Theorem C01_binop_arr_repeat_bad : forall xs r f s,
  hget (st_heap s) r = Some (HNum f) ->
  (go_int_exact f = None \/ exists n, go_int_exact f = Some n /\ n < 0) ->
  bin_arr BAsterisk xs r s = (Er (EPanic PkBadRepetition), s).
Proof. exact bin_arr_repeat_bad. Qed.
Print Assumptions C01_binop_arr_repeat_bad.

(* the dispatch of a binary node on the kind of its LEFT operand.  The left
   cell is read when the left operand returns (s2, short-circuit test) and
   again after the right operand (s3); the operator is applied to the value
   read at s3, so an in-place update of the left cell by the right operand is
   visible (as in evalBinaryExpr, which reads l.V after e.eval(expr.Right)) *)
Theorem C01_dispatch : forall n P e op t l r s s1 la s2 v0 lb s3,
  op <> BEq /\ op <> BNotEq ->
  tick s = (Ok tt, s1) ->
  eval_expr n P e l s1 = (Ok la, s2) -> hget (st_heap s2) la = Some v0 -> short_of op v0 = false ->
  eval_expr n P e r s2 = (Ok lb, s3) ->
  eval_expr (S n) P e (EBin op t l r) s = bin_dispatch op la lb s3.
Proof. exact ebin_general. Qed.
Print Assumptions C01_dispatch.

Theorem C01_num_dispatch : forall n P e op t l r s s1 la s2 x0 lb s3 x y,
  op <> BEq /\ op <> BNotEq ->
  tick s = (Ok tt, s1) ->
  eval_expr n P e l s1 = (Ok la, s2) -> hget (st_heap s2) la = Some (HNum x0) ->
  eval_expr n P e r s2 = (Ok lb, s3) ->
  hget (st_heap s3) la = Some (HNum x) -> hget (st_heap s3) lb = Some (HNum y) ->
  eval_expr (S n) P e (EBin op t l r) s = bin_num op x y s3.
Proof. exact ebin_num. Qed.
Print Assumptions C01_num_dispatch.

Theorem C01_str_dispatch : forall n P e op t l r s s1 la s2 x0 lb s3 x y,
  op <> BEq /\ op <> BNotEq ->
  tick s = (Ok tt, s1) ->
  eval_expr n P e l s1 = (Ok la, s2) -> hget (st_heap s2) la = Some (HStr x0) ->
  eval_expr n P e r s2 = (Ok lb, s3) ->
  hget (st_heap s3) la = Some (HStr x) -> hget (st_heap s3) lb = Some (HStr y) ->
  eval_expr (S n) P e (EBin op t l r) s = bin_str op x y s3.
Proof. exact ebin_str. Qed.
Print Assumptions C01_str_dispatch.

Theorem C01_arr_dispatch : forall n P e op t l r s s1 la s2 xs0 lb s3 xs,
  op <> BEq /\ op <> BNotEq ->
  tick s = (Ok tt, s1) ->
  eval_expr n P e l s1 = (Ok la, s2) -> hget (st_heap s2) la = Some (HArr xs0) ->
  eval_expr n P e r s2 = (Ok lb, s3) ->
  hget (st_heap s3) la = Some (HArr xs) ->
  eval_expr (S n) P e (EBin op t l r) s = bin_arr op xs lb s3.
Proof. exact ebin_arr. Qed.
Print Assumptions C01_arr_dispatch.

Theorem C01_eq_dispatch : forall n P e t l r s s1 la s2 lb s3,
  tick s = (Ok tt, s1) ->
  eval_expr n P e l s1 = (Ok la, s2) -> (exists v, hget (st_heap s2) la = Some v) ->
  eval_expr n P e r s2 = (Ok lb, s3) ->
  eval_expr (S n) P e (EBin BEq t l r) s =
    (let* b := equals value_depth la lb in alloc (HBool b)) s3 /\
  eval_expr (S n) P e (EBin BNotEq t l r) s =
    (let* b := equals value_depth la lb in alloc (HBool (negb b))) s3.
Proof. exact ebin_eq. Qed.
Print Assumptions C01_eq_dispatch.

(* B3b. deep equality *)
(* equals is a pure function of the heap (eqh, SemOrder) *)
Theorem C01_equals_pure : forall fuel a b s,
  equals fuel a b s = (eqh (st_heap s) fuel a b, s).
Proof. exact equals_eqh. Qed.
Print Assumptions C01_equals_pure.

(* reflexive on NaN-free, acyclic (within the fuel), duplicate-free values *)
Theorem C01_equals_reflexive : forall fuel l s,
  good (st_heap s) fuel l -> equals fuel l l s = (Ok true, s).
Proof. exact equals_refl. Qed.
Print Assumptions C01_equals_reflexive.

Theorem C01_equals_reflexive_needs_nanfree :
  exists s l, hget (st_heap s) l = Some (HNum nan) /\ equals 1 l l s = (Ok false, s).
Proof. exact equals_refl_needs_nanfree. Qed.
Print Assumptions C01_equals_reflexive_needs_nanfree.

(* symmetric for the verdict "equal"; verdicts of the two directions never
   disagree (maps_nodup: every map cell has a duplicate-free key list, as a
   Go hash map has).  Uses eqb_spec of Coq.Floats (the specification of PrimFloat.eqb) for eqb x y = eqb y x. *)
Theorem C01_equals_symmetric : forall fuel a b s,
  maps_nodup (st_heap s) ->
  equals fuel a b s = (Ok true, s) -> equals fuel b a s = (Ok true, s).
Proof. exact equals_sym_true. Qed.
Print Assumptions C01_equals_symmetric.

Theorem C01_equals_symmetric_verdicts_agree : forall fuel a b s r r' s1 s2,
  maps_nodup (st_heap s) ->
  equals fuel a b s = (Ok r, s1) -> equals fuel b a s = (Ok r', s2) -> r = r'.
Proof. exact equals_sym_agree. Qed.
Print Assumptions C01_equals_symmetric_verdicts_agree.

(* unrestricted symmetry is false of the model *)
Theorem C01_equals_symmetric_refuted_none :
  exists fuel a b s e,
    equals fuel a b s = (Ok false, s) /\ equals fuel b a s = (Er (EHostCrash e), s).
Proof. exact equals_symmetric_refuted_none. Qed.
Print Assumptions C01_equals_symmetric_refuted_none.

Theorem C01_equals_symmetric_refuted_dupkeys :
  exists fuel a b s,
    equals fuel a b s = (Ok true, s) /\ equals fuel b a s = (Ok false, s).
Proof. exact equals_symmetric_refuted_dupkeys. Qed.
Print Assumptions C01_equals_symmetric_refuted_dupkeys.

Theorem C01_equals_symmetric_refuted_illtyped :
  exists fuel a b s e,
    maps_nodup (st_heap s) /\
    equals fuel a b s = (Ok false, s) /\ equals fuel b a s = (Er (EHostCrash e), s).
Proof. exact equals_symmetric_refuted_illtyped. Qed.
Print Assumptions C01_equals_symmetric_refuted_illtyped.

(* the Order slice is never consulted: result (verdict or error) unchanged *)
Theorem C01_equals_ignores_order : forall fuel a b s s',
  same_upto_order (st_heap s) (st_heap s') ->
  fst (equals fuel a b s) = fst (equals fuel a b s').
Proof. exact equals_order_insensitive. Qed.
Print Assumptions C01_equals_ignores_order.

(* nor the position of the entries in Pairs *)
Theorem C01_equals_ignores_pairs_position : forall fuel a b s s',
  perm_heap (st_heap s) (st_heap s') ->
  (fst (equals fuel a b s) = Ok true <-> fst (equals fuel a b s') = Ok true) /\
  (forall r r', fst (equals fuel a b s) = Ok r -> fst (equals fuel a b s') = Ok r' -> r = r').
Proof. exact equals_pairs_permutation. Qed.
Print Assumptions C01_equals_ignores_pairs_position.

(* on operands of the same shape (compat, SemOrder: wherever the comparison
   descends, both cells hold the same kind of value — what the type checker
   guarantees for ==) equals never crashes and is symmetric for both verdicts *)
Theorem C01_equals_symmetric_same_shape : forall fuel a b s,
  maps_nodup (st_heap s) -> compat (st_heap s) fuel a b ->
  exists r, equals fuel a b s = (Ok r, s) /\ equals fuel b a s = (Ok r, s).
Proof. exact equals_sym_full. Qed.
Print Assumptions C01_equals_symmetric_same_shape.

(* the events of a binary expression: those of the left operand, then (unless
   short-circuited / failed) those of the right operand; the operator adds none *)
Theorem C01_binary_trace : forall n P e op t l r s s1 la s2 res s4,
  tick s = (Ok tt, s1) ->
  eval_expr n P e l s1 = (Ok la, s2) ->
  eval_expr (S n) P e (EBin op t l r) s = (res, s4) ->
  st_trace s4 = st_trace s2 \/
  exists rb s3, eval_expr n P e r s2 = (rb, s3) /\ st_trace s4 = st_trace s3 /\
                rev (emitted s1 s4) = rev (emitted s1 s2) ++ rev (emitted s2 s3).
Proof. exact ebin_trace. Qed.
Print Assumptions C01_binary_trace.

(* non-vacuity: concrete instances (vm_compute) *)
Definition ex_s0 : state := init_state None [] false false.

(*  func f:bool        func p:num s:string
        print "x"          print s
        return true        return 1
    end                end                                   *)
Definition ex_P : program :=
  {| p_funcs :=
       [ {| fn_name := s_ "f"; fn_params := []; fn_variadic := None; fn_ret := TBool;
            fn_body := [SCallStmt (s_ "print") [EStr (s_ "x")]; SReturn (Some (EBool true))] |};
         {| fn_name := s_ "p"; fn_params := [(s_ "s", TStr)]; fn_variadic := None; fn_ret := TNum;
            fn_body := [SCallStmt (s_ "print") [EVar (s_ "s") TStr]; SReturn (Some (ENum 1%float))] |} ];
     p_handlers := []; p_stmts := [] |}.
Definition ex_f : expr := EGroup (ECall (s_ "f") TBool []).
Definition ex_p (x : string) : expr := EGroup (ECall (s_ "p") TNum [EStr (s_ x)]).
Definition ex_line (x : string) : event := EvPrint [PStr (s_ x); PStr [10%N]].
Definition ex_run (x : expr) : res loc * state := eval_expr 50 ex_P [] x ex_s0.
Definition ex_val (r : res loc * state) : option hval :=
  match fst r with Ok l => hget (st_heap (snd r)) l | Er _ => None end.

(* `false and (f)`: f is not called — nothing printed, value false;
   `true and (f)`: f is called *)
Example C01_ex_and_short_circuits :
  st_trace (snd (ex_run (EBin BAnd TBool (EBool false) ex_f))) = [] /\
  ex_val (ex_run (EBin BAnd TBool (EBool false) ex_f)) = Some (HBool false) /\
  st_trace (snd (ex_run (EBin BAnd TBool (EBool true) ex_f))) = [ex_line "x"] /\
  ex_val (ex_run (EBin BAnd TBool (EBool true) ex_f)) = Some (HBool true).
Proof. vm_compute. repeat split; reflexivity. Qed.

Example C01_ex_or_short_circuits :
  st_trace (snd (ex_run (EBin BOr TBool (EBool true) ex_f))) = [] /\
  ex_val (ex_run (EBin BOr TBool (EBool true) ex_f)) = Some (HBool true) /\
  st_trace (snd (ex_run (EBin BOr TBool (EBool false) ex_f))) = [ex_line "x"] /\
  ex_val (ex_run (EBin BOr TBool (EBool false) ex_f)) = Some (HBool true).
Proof. vm_compute. repeat split; reflexivity. Qed.

(* the hypotheses of C01_short_circuit_and hold for that run *)
Example C01_ex_short_circuit_hyps :
  exists s1 la s2,
    tick ex_s0 = (Ok tt, s1) /\
    eval_expr 49 ex_P [] (EBool false) s1 = (Ok la, s2) /\
    hget (st_heap s2) la = Some (HBool false).
Proof.
  do 3 eexists. split; [vm_compute; reflexivity|]. split; vm_compute; reflexivity.
Qed.

(* operands, list elements, call arguments, index/slice parts: left to right *)
Example C01_ex_left_to_right :
  (* (p "a") + (p "b") *)
  rev (st_trace (snd (ex_run (EBin BPlus TNum (ex_p "a") (ex_p "b"))))) = [ex_line "a"; ex_line "b"] /\
  ex_val (ex_run (EBin BPlus TNum (ex_p "a") (ex_p "b"))) = Some (HNum 2%float) /\
  (* [(p "a") (p "b") (p "c")] *)
  rev (st_trace (snd (ex_run (EArr (TArr TNum) [ex_p "a"; ex_p "b"; ex_p "c"])))) =
    [ex_line "a"; ex_line "b"; ex_line "c"] /\
  (* {k:(p "a") l:(p "b")} *)
  rev (st_trace (snd (ex_run (EMap (TMap TNum) [(s_ "k", ex_p "a"); (s_ "l", ex_p "b")])))) =
    [ex_line "a"; ex_line "b"] /\
  (* [(p "a")][(p "b") - 1] : indexed value before index *)
  rev (st_trace (snd (ex_run (EIndex TNum (EArr (TArr TNum) [ex_p "a"])
                                     (EBin BMinus TNum (ex_p "b") (ENum 1%float)))))) =
    [ex_line "a"; ex_line "b"] /\
  (* "xyz"[(p "a"):(p "b") + 1] *)
  rev (st_trace (snd (ex_run (ESlice TStr (EStr (s_ "xyz")) (Some (ex_p "a"))
                                     (Some (EBin BPlus TNum (ex_p "b") (ENum 1%float))))))) =
    [ex_line "a"; ex_line "b"] /\
  ex_val (ex_run (ESlice TStr (EStr (s_ "xyz")) (Some (ex_p "a"))
                         (Some (EBin BPlus TNum (ex_p "b") (ENum 1%float))))) = Some (HStr (s_ "y")).
Proof. vm_compute. repeat split; reflexivity. Qed.

(* assignment: right-hand side before the target's index expression *)
Example C01_ex_assign_order :
  let prog := {| p_funcs := p_funcs ex_P; p_handlers := [];
                 p_stmts := [ SDecl (s_ "a") (TArr TNum) (EArr (TArr TNum) [ENum 0%float; ENum 0%float]);
                              SAssign (EIndex TNum (EVar (s_ "a") (TArr TNum)) (ex_p "index"))
                                      (ex_p "value");
                              SCallStmt (s_ "print") [EVar (s_ "a") (TArr TNum)] ] |} in
  let r := run_program 100 prog ex_s0 in
  fst r = ODone /\ rev (st_trace (snd r)) = [ex_line "value"; ex_line "index";
     EvPrint [PStr (s_ "["); PStr (s_ "0"); PStr (s_ " "); PStr (s_ "1"); PStr (s_ "]"); PStr [10%N]]].
Proof. vm_compute. split; reflexivity. Qed.

(* trace_concat: an instance of the hypotheses and of the conclusion *)
Example C01_ex_trace_concat :
  let xs := [ex_p "a"; ex_p "b"] in let ys := [ex_p "c"] in
  exists vs s1 ws s2,
    eval_exprs 12 ex_P [] xs ex_s0 = (Ok vs, s1) /\
    eval_exprs 30 ex_P [] ys s1 = (Ok ws, s2) /\
    eval_exprs 40 ex_P [] (xs ++ ys) ex_s0 = (Ok (vs ++ ws), s2) /\
    rev (emitted ex_s0 s1) = [ex_line "a"; ex_line "b"] /\
    rev (emitted s1 s2) = [ex_line "c"] /\
    rev (emitted ex_s0 s2) = [ex_line "a"; ex_line "b"; ex_line "c"].
Proof.
  cbv zeta. do 4 eexists.
  split; [vm_compute; reflexivity|]. split; [vm_compute; reflexivity|].
  split; [vm_compute; reflexivity|]. split; [vm_compute; reflexivity|].
  split; vm_compute; reflexivity.
Qed.

(* fuel monotonicity has content: too little fuel is "out of fuel", enough
   fuel gives the verdict that every larger fuel repeats *)
Example C01_ex_fuel :
  fst (eval_expr 3 ex_P [] (ex_p "a") ex_s0) = Er EOutOfFuel /\
  fst (eval_expr 9 ex_P [] (ex_p "a") ex_s0) = Ok 8%positive /\
  eval_expr 9 ex_P [] (ex_p "a") ex_s0 = eval_expr 200 ex_P [] (ex_p "a") ex_s0.
Proof. vm_compute. repeat split; reflexivity. Qed.

(* operator table on values *)
Example C01_ex_binops :
  ex_val (bin_num BPlus 1%float 2%float ex_s0) = Some (HNum 3%float) /\
  ex_val (bin_num BPercent 10%float 3%float ex_s0) = Some (HNum 1%float) /\
  ex_val (bin_num BLtEq 2%float 2%float ex_s0) = Some (HBool true) /\
  ex_val (bin_num BGt nan 2%float ex_s0) = Some (HBool false) /\
  fst (bin_num BAnd 1%float 2%float ex_s0) = Er (EInternal (s_ "unknown operation (num)")) /\
  ex_val (bin_str BPlus (s_ "fire") (s_ "engine") ex_s0) = Some (HStr (s_ "fireengine")) /\
  ex_val (bin_str BLt (s_ "abc") (s_ "abd") ex_s0) = Some (HBool true) /\
  ex_val (bin_str BGtEq (s_ "ab") (s_ "abc") ex_s0) = Some (HBool false) /\
  fst (bin_str BMinus (s_ "a") (s_ "b") ex_s0) = Er (EInternal (s_ "unknown operation (string)")) /\
  ex_val (bin_bool BOr false true ex_s0) = Some (HBool true) /\
  fst (bin_bool BPlus false true ex_s0) = Er (EInternal (s_ "unknown operation (bool)")).
Proof. vm_compute. repeat split; reflexivity. Qed.

(* [1] + [2] and [7] * 2 as expressions *)
Example C01_ex_array_ops :
  let show_of x := let r := ex_run x in
                   match fst r with Ok l => fst (show 10 false l (snd r)) | Er e => Er e end in
  show_of (EBin BPlus (TArr TNum) (EArr (TArr TNum) [ENum 1%float]) (EArr (TArr TNum) [ENum 2%float]))
    = Ok [PStr (s_ "["); PStr (s_ "1"); PStr (s_ " "); PStr (s_ "2"); PStr (s_ "]")] /\
  show_of (EBin BAsterisk (TArr TNum) (EArr (TArr TNum) [ENum 7%float]) (ENum 2%float))
    = Ok [PStr (s_ "["); PStr (s_ "7"); PStr (s_ " "); PStr (s_ "7"); PStr (s_ "]")] /\
  fst (ex_run (EBin BAsterisk (TArr TNum) (EArr (TArr TNum) [ENum 7%float]) (ENum (-1)%float)))
    = Er (EPanic PkBadRepetition) /\
  (exists w, fst (ex_run (EBin BMinus (TArr TNum) (EArr (TArr TNum) []) (EArr (TArr TNum) []))) = Er (EInternal w)).
Proof. vm_compute. repeat split; try reflexivity. eexists; reflexivity. Qed.

(* deep equality: cells 4.. of [st_of vs] hold vs.
   4:1  5:"x"  6:[4 5]  7:{a:4 b:6}(order a b)  8:{b:6 a:4}(order b a)  9:1  10:[9 5]  *)
Definition ex_heap : state :=
  st_of [ HNum 1%float; HStr (s_ "x"); HArr [4%positive; 5%positive];
          HMap {| pairs := [(s_ "a", 4%positive); (s_ "b", 6%positive)]; order := [s_ "a"; s_ "b"] |};
          HMap {| pairs := [(s_ "b", 6%positive); (s_ "a", 4%positive)]; order := [s_ "b"; s_ "a"] |};
          HNum 1%float; HArr [9%positive; 5%positive] ].

Example C01_ex_equals :
  good (st_heap ex_heap) 3 7%positive /\
  fst (equals 3 7%positive 7%positive ex_heap) = Ok true /\
  (* maps with different order / different Pairs position are equal, both ways *)
  fst (equals 3 7%positive 8%positive ex_heap) = Ok true /\
  fst (equals 3 8%positive 7%positive ex_heap) = Ok true /\
  (* structurally equal arrays in different cells *)
  fst (equals 3 6%positive 10%positive ex_heap) = Ok true /\
  fst (equals 3 4%positive 5%positive ex_heap) = Er (EHostCrash (s_ "Equals called with mismatched value kinds")).
Proof.
  split; [|vm_compute; repeat split; reflexivity].
  cbn. split.
  - repeat (apply NoDup_cons; [cbn; intuition discriminate|]); apply NoDup_nil.
  - repeat constructor.
Qed.

(* a heap that differs from ex_heap only in Order fields / Pairs positions *)
Definition ex_heap' : state :=
  st_of [ HNum 1%float; HStr (s_ "x"); HArr [4%positive; 5%positive];
          HMap {| pairs := [(s_ "b", 6%positive); (s_ "a", 4%positive)]; order := [] |};
          HMap {| pairs := [(s_ "b", 6%positive); (s_ "a", 4%positive)]; order := [s_ "a"] |};
          HNum 1%float; HArr [9%positive; 5%positive] ].

Example C01_ex_perm_heap : perm_heap (st_heap ex_heap) (st_heap ex_heap').
Proof.
  intro l. unfold hget.
  destruct (PositiveMap.find l (hcells (st_heap ex_heap))) as [v|] eqn:E.
  - apply PositiveMap.elements_correct in E. vm_compute in E.
    repeat (destruct E as [E|E]; [inversion E; subst; vm_compute;
      first [ apply pv_same
            | apply pv_map; cbn;
              [ first [apply Permutation_refl | apply perm_swap]
              | repeat (apply NoDup_cons; [cbn; intuition discriminate|]); apply NoDup_nil ] ] |]).
    contradiction.
  - destruct (PositiveMap.find l (hcells (st_heap ex_heap'))) as [v'|] eqn:E'; [|exact Logic.I].
    apply PositiveMap.elements_correct in E'. vm_compute in E'.
    repeat (destruct E' as [E'|E']; [inversion E'; subst; vm_compute in E; discriminate E|]).
    contradiction.
Qed.

(* FINDING CANDIDATE (C01 / C09): the CONTENT of the left operand is read
   after the right operand has run.  For the cells that are updated in place
   (err / errmsg by a failing str2num / str2bool; array elements by an
   indexed assignment) the left operand of a binary operator therefore shows
   the side effect of the right operand, although it is "evaluated first":
       func g:string                       a := [1]
           x := str2num "zz"               func f:[]num
           return "!"                          a[0] = 2
       end                                     return []
       print (errmsg + (g))                end
                                           print (a + (f))
   print  str2num: cannot parse "zz"!   and   [2]
   (the real evaluator prints the same: evalBinaryExpr reads l.V / *l.Elements
   after e.eval(expr.Right)). *)
Example C01_ex_left_operand_read_after_right :
  let prog1 :=
    {| p_funcs := [ {| fn_name := s_ "g"; fn_params := []; fn_variadic := None; fn_ret := TStr;
                       fn_body := [ SDecl (s_ "x") TNum (ECall (s_ "str2num") TNum [EStr (s_ "zz")]);
                                    SReturn (Some (EStr (s_ "!"))) ] |} ];
       p_handlers := [];
       p_stmts := [ SCallStmt (s_ "print")
                      [EBin BPlus TStr (EVar (s_ "errmsg") TStr) (EGroup (ECall (s_ "g") TStr []))] ] |} in
  let prog2 :=
    {| p_funcs := [ {| fn_name := s_ "f"; fn_params := []; fn_variadic := None; fn_ret := TArr TNum;
                       fn_body := [ SAssign (EIndex TNum (EVar (s_ "a") (TArr TNum)) (ENum 0%float)) (ENum 2%float);
                                    SReturn (Some (EArr (TArr TNum) [])) ] |} ];
       p_handlers := [];
       p_stmts := [ SDecl (s_ "a") (TArr TNum) (EArr (TArr TNum) [ENum 1%float]);
                    SCallStmt (s_ "print")
                      [EBin BPlus (TArr TNum) (EVar (s_ "a") (TArr TNum))
                            (EGroup (ECall (s_ "f") (TArr TNum) []))] ] |} in
  let r1 := run_program 100 prog1 ex_s0 in
  let r2 := run_program 100 prog2 ex_s0 in
  fst r1 = ODone /\ st_trace (snd r1) = [ex_line "str2num: cannot parse ""zz""!"] /\
  fst r2 = ODone /\ st_trace (snd r2) = [EvPrint [PStr (s_ "["); PStr (s_ "2"); PStr (s_ "]"); PStr [10%N]]].
Proof. vm_compute. repeat split; reflexivity. Qed.

(* cells 7 and 8 of ex_heap (two maps of arrays) have the same shape, and
   every map cell has distinct keys: the hypotheses of the symmetry theorems *)
Example C01_ex_sym_hyps :
  maps_nodup (st_heap ex_heap) /\ compat (st_heap ex_heap) 3 7%positive 8%positive /\
  fst (equals 3 6%positive 7%positive ex_heap) = Er (EHostCrash (s_ "Equals called with mismatched value kinds")).
Proof.
  split; [|split; [|vm_compute; reflexivity]].
  - intros l m H. unfold hget in H. apply PositiveMap.elements_correct in H. vm_compute in H.
    repeat (destruct H as [H|H];
            [inversion H; subst; cbn;
             repeat (apply NoDup_cons; [cbn; intuition discriminate|]); apply NoDup_nil|]).
    contradiction.
  - assert (B : forall a b, (a, b) = (4%positive, 4%positive) \/ (a, b) = (5%positive, 5%positive) ->
                compat (st_heap ex_heap) 1 a b).
    { intros a b [E|E]; inversion E; subst; exact Logic.I. }
    assert (A6 : compat (st_heap ex_heap) 2 6%positive 6%positive).
    { cbn. intros _. repeat constructor; apply B; auto. }
    cbn [compat]. change (hget (st_heap ex_heap) 7%positive) with
      (Some (HMap {| pairs := [(s_ "a", 4%positive); (s_ "b", 6%positive)]; order := [s_ "a"; s_ "b"] |})).
    change (hget (st_heap ex_heap) 8%positive) with
      (Some (HMap {| pairs := [(s_ "b", 6%positive); (s_ "a", 4%positive)]; order := [s_ "b"; s_ "a"] |})).
    cbn [pairs].
    split; intros k i j Hin Hl; cbn in Hin;
      (destruct Hin as [Hin|[Hin|[]]]; inversion Hin; subst; vm_compute in Hl; inversion Hl; subst;
       first [exact A6 | exact Logic.I]).
Qed.
