(* C01 (part) — operator precedence, left-to-right associativity and
   independence of the optional whitespace layout.
   Property theorems only; every proof is [exact <lemma of PrattProofs>].

   Model: Pratt.v (pkg/parser/expression.go + the token cursor / whitespace-
   sensitivity stack of parser.go), binding powers from the regenerated
   Gen/Prec.v.  Specification: PrattProofs.v §"The specification" (operator
   table, levels and layered grammar written from docs/spec.md). *)
From Coq Require Import List NArith ZArith Bool Arith String.
From EvyV Require Import Base Pratt PrattProofs.
From EvyV.Gen Require Import Prec.
Import ListNotations.
Local Open Scope nat_scope.

(* The binding-power table regenerated from expression.go IS the order of
   docs/spec.md §Precedence:  or < and < ==,!= < <,<=,>,>= < +,- < *,/,% <
   unary < index/dot, equal powers within a level, no other token has a power,
   and the recursive calls are made so that equal powers associate to the left. *)
Theorem C01_prec_table_is_spec : prec_table_spec.
Proof. exact prec_table_spec_holds. Qed.
Print Assumptions C01_prec_table_is_spec.

(* For EVERY derivation l of the stratified, left-associative grammar — atoms,
   parenthesised groups (incl. redundant ones), unary - and !, the six binary
   levels, and the postfix forms a[i], a[i:j] (all four shapes), m.k, x.(type),
   arbitrarily nested — and EVERY legal layout of it (arbitrary optional
   whitespace in a free context: statement level, inside ( ) and [ ]; none
   outside brackets in a tight context: call argument, array element, map value;
   never after a unary operator, before "[" or around "."), the parser model,
   started on the tokens of l followed by anything that can follow an
   expression, returns exactly the tree the grammar prescribes, consumes exactly
   l's tokens, records no error and leaves the whitespace-sensitivity stack as it
   found it; the fuel the model's entry point uses (2 x tokens + 10) suffices.

   slice_guard is the explicit guard excluding exactly the class on which the
   code is defective (C01_prec_slice_refuted): as parseSlice is written, an
   expression that ENDS in a slice must not be followed by whitespace; for the
   corrected parseSlice the theorem holds without it (…_fixed below).

   The grammar also contains calls in parentheses "(f a1 ... an)",
   array literals "[e1 ... en]" and map literals "{k1:v1 ... kn:vn}" with
   distinct keys (Lay_call, Lay_arr, Lay_map): arguments / elements / values are
   derivations themselves (arbitrarily nested), separated by whitespace and
   rendered tight, with optional whitespace just inside the brackets and after
   the colon of a pair.

   _partial — still outside the grammar this theorem quantifies over (all in
   the model and in the correspondence run): array / map literals spread over
   several lines (newlines / comments between elements), calls of functions
   without parameters written as a bare name, keywords used as map keys / after
   ".", whitespace between a map key and its colon; and, not an expression of
   the grammar at all, the call statement "f a b" without parentheses. *)
Theorem C01_prec_pratt_parses_layered_grammar_partial :
  forall E l st rest0 fuel,
  no_tyerr E -> Lay 0 l -> atoms_ok E l -> layout_ok l = true ->
  rest st = render l ++ rest0 ->
  (is_wss st = true -> tight_ok l = true) ->
  (is_wss st = false -> is_ws (look0 rest0) = false) ->
  slice_guard E l rest0 ->
  stop_tok (is_wss st) lowestPrec (look0 rest0) ->
  2 * List.length (render l) <= fuel ->
  parse_expr E fuel lowestPrec st = Some (Some (tree_of l), consume E l st) /\
  rest (consume E l st) = rest0 /\ wss (consume E l st) = wss st /\ errs (consume E l st) = errs st.
Proof. exact pratt_layered. Qed.
Print Assumptions C01_prec_pratt_parses_layered_grammar_partial.

(* the same for the model with the corrected parseSlice (advanceWSS on the closing bracket, as parseIndex does): no guard *)
Theorem C01_prec_pratt_parses_layered_grammar_fixed_partial :
  forall E l st rest0 fuel,
  e_fix_slice E = true ->
  no_tyerr E -> Lay 0 l -> atoms_ok E l -> layout_ok l = true ->
  rest st = render l ++ rest0 ->
  (is_wss st = true -> tight_ok l = true) ->
  (is_wss st = false -> is_ws (look0 rest0) = false) ->
  stop_tok (is_wss st) lowestPrec (look0 rest0) ->
  2 * List.length (render l) <= fuel ->
  parse_expr E fuel lowestPrec st = Some (Some (tree_of l), consume E l st) /\
  rest (consume E l st) = rest0 /\ wss (consume E l st) = wss st /\ errs (consume E l st) = errs st.
Proof. exact pratt_layered_fixed. Qed.
Print Assumptions C01_prec_pratt_parses_layered_grammar_fixed_partial.

(* a op1 b op2 c with op1, op2 of the same level is (a op1 b) op2 c — at every level, under every legal layout *)
Theorem C01_prec_left_assoc :
  forall E o1 o2 a b c w1 w2 wa wb wc st rest0 fuel,
  rank o1 = rank o2 ->
  let l := LBin o2 (LBin o1 (LAtom a wa) w1 (LAtom b wb)) w2 (LAtom c wc) in
  no_tyerr E -> atoms_ok E l ->
  rest st = render l ++ rest0 ->
  (is_wss st = true -> tight_ok l = true) ->
  (is_wss st = false -> is_ws (look0 rest0) = false) ->
  stop_tok (is_wss st) lowestPrec (look0 rest0) ->
  2 * List.length (render l) <= fuel ->
  exists st', parse_expr E fuel lowestPrec st =
    Some (Some (TBin (binop_tok o2) (TBin (binop_tok o1) (atom_tree a) (atom_tree b)) (atom_tree c)), st')
    /\ rest st' = rest0.
Proof. exact left_assoc. Qed.
Print Assumptions C01_prec_left_assoc.

(* a op1 b op2 c with op2 of a tighter level is a op1 (b op2 c) *)
Theorem C01_prec_tighter_binds_first :
  forall E o1 o2 a b c w1 w2 wa wb wc st rest0 fuel,
  rank o1 < rank o2 ->
  let l := LBin o1 (LAtom a wa) w1 (LBin o2 (LAtom b wb) w2 (LAtom c wc)) in
  no_tyerr E -> atoms_ok E l ->
  rest st = render l ++ rest0 ->
  (is_wss st = true -> tight_ok l = true) ->
  (is_wss st = false -> is_ws (look0 rest0) = false) ->
  stop_tok (is_wss st) lowestPrec (look0 rest0) ->
  2 * List.length (render l) <= fuel ->
  exists st', parse_expr E fuel lowestPrec st =
    Some (Some (TBin (binop_tok o1) (atom_tree a) (TBin (binop_tok o2) (atom_tree b) (atom_tree c))), st')
    /\ rest st' = rest0.
Proof. exact tighter_binds_first. Qed.
Print Assumptions C01_prec_tighter_binds_first.

(* unary operators bind tighter than every binary operator and looser than indexing:  -a[i] op b = (-(a[i])) op b *)
Theorem C01_prec_unary_between :
  forall E u o a i b w1 w2 w3 wi wb st rest0 fuel,
  let l := LBin o (LUn u (LIndex (LAtom a false) w1 (LAtom i wi) w2)) w3 (LAtom b wb) in
  no_tyerr E -> atoms_ok E l ->
  rest st = render l ++ rest0 ->
  (is_wss st = true -> tight_ok l = true) ->
  (is_wss st = false -> is_ws (look0 rest0) = false) ->
  stop_tok (is_wss st) lowestPrec (look0 rest0) ->
  2 * List.length (render l) <= fuel ->
  exists st', parse_expr E fuel lowestPrec st =
    Some (Some (TBin (binop_tok o) (TUn (unop_tok u) (TIndex (atom_tree a) (atom_tree i))) (atom_tree b)), st')
    /\ rest st' = rest0.
Proof. exact unary_between. Qed.
Print Assumptions C01_prec_unary_between.

(* two legal layouts of the same derivation (possibly in different contexts:
   one at statement level, one as a call argument) give the same tree *)
Theorem C01_prec_layout_irrelevant :
  forall E l1 l2 st1 st2 r1 r2 fuel1 fuel2,
  erase l1 = erase l2 ->
  no_tyerr E -> Lay 0 l1 -> Lay 0 l2 -> atoms_ok E l1 -> atoms_ok E l2 -> layout_ok l1 = true -> layout_ok l2 = true ->
  rest st1 = render l1 ++ r1 -> rest st2 = render l2 ++ r2 ->
  (is_wss st1 = true -> tight_ok l1 = true) -> (is_wss st2 = true -> tight_ok l2 = true) ->
  (is_wss st1 = false -> is_ws (look0 r1) = false) -> (is_wss st2 = false -> is_ws (look0 r2) = false) ->
  slice_guard E l1 r1 -> slice_guard E l2 r2 ->
  stop_tok (is_wss st1) lowestPrec (look0 r1) -> stop_tok (is_wss st2) lowestPrec (look0 r2) ->
  2 * List.length (render l1) <= fuel1 -> 2 * List.length (render l2) <= fuel2 ->
  exists t s1 s2,
    parse_expr E fuel1 lowestPrec st1 = Some (Some t, s1) /\ rest s1 = r1 /\
    parse_expr E fuel2 lowestPrec st2 = Some (Some t, s2) /\ rest s2 = r2 /\ t = stree (erase l1).
Proof. exact layout_irrelevant. Qed.
Print Assumptions C01_prec_layout_irrelevant.

(* end to end through the statement wrapper:  x := e NL  with any whitespace
   around ":=" is accepted with the prescribed tree, all tokens of e consumed,
   the cursor at the end of line, no error *)
Theorem C01_prec_decl_stmt_parses :
  forall E x w0 w1 l fuel,
  no_tyerr E -> Lay 0 l -> atoms_ok E l -> layout_ok l = true ->
  let toks := {| ttype := T_IDENT; tlit := x |} :: wsl w0 ++ mk T_DECLARE :: wsl w1 ++ render l ++ [mk T_NL] in
  2 * List.length toks <= fuel ->
  exists st', parse_stmt_expr E fuel 2 toks = Some (Some (tree_of l), st') /\
              rest st' = [mk T_NL] /\ is_at_eol st' = true /\ errs st' = [].
Proof. exact decl_stmt_parses. Qed.
Print Assumptions C01_prec_decl_stmt_parses.

(* end to end through the statement wrapper, the call statement (no parentheses):
   f a1 ... an NL  with arguments that are derivations of the grammar (nested
   arbitrarily, calls / array / map literals included), separated by whitespace
   and rendered tight, is parsed to the call of f on the arguments' trees, all
   tokens consumed, the cursor at the end of line, no error *)
Theorem C01_prec_call_stmt_parses :
  forall E f args wz fuel,
  no_tyerr E -> func_of E f = Some false -> arity_wrong E f (List.length args) = false ->
  (forall a, In a args -> Lay 0 a) -> args_ok E (atoms_ok E) wz args ->
  forallb (fun a => layout_ok a && tight_ok a) args = true ->
  let toks := ident_tok f :: wsl (seq_flag args wz) ++ render_seq render args wz ++ [mk T_NL] in
  2 * List.length toks <= fuel ->
  exists st', parse_stmt_expr E fuel 0 toks = Some (Some (TCall f (map tree_of args)), st') /\
              rest st' = [mk T_NL] /\ is_at_eol st' = true /\ errs st' = [].
Proof. exact call_stmt_parses. Qed.
Print Assumptions C01_prec_call_stmt_parses.

(* ---------- the parseSlice defect (fixed in /repo by commit 16971a1; e_fix_slice = false is the code before it) ---------- *)
Definition env_code : env :=
  {| e_funcs := [(s_ "print", false)]; e_vars := [s_ "arr"; s_ "a"; s_ "b"; s_ "c"];
     e_arity := []; e_tyerr := fun _ _ _ => false; e_fix_slice := false |}.
Definition env_fixed : env :=
  {| e_funcs := e_funcs env_code; e_vars := e_vars env_code; e_arity := []; e_tyerr := fun _ _ _ => false; e_fix_slice := true |}.
Definition tk (t : toktype) (s : string) : token := {| ttype := t; tlit := s_ s |}.

(* print arr[0:1] -3 *)
Definition slice_witness : list token :=
  [tk T_IDENT "print"; mk T_WS; tk T_IDENT "arr"; mk T_LBRACKET; tk T_NUM_LIT "0"; mk T_COLON; tk T_NUM_LIT "1";
   mk T_RBRACKET; mk T_WS; mk T_MINUS; tk T_NUM_LIT "3"].
Definition slice_tree : tree := TSlice (TVar (s_ "arr")) (Some (TNum (s_ "0"))) (Some (TNum (s_ "1"))).

(* Before commit 16971a1 (e_fix_slice = false), whitespace after a slice did not end a call argument
   (§Horizontal Whitespace: WS separates arguments; rule 9 allows WS only
   WITHIN the slice brackets): `print arr[0:1] -3` becomes ONE argument
   arr[0:1] - 3 (then rejected by the type checker) instead of two.  With the
   proposed one-word fix (advanceWSS for "]") it is the two arguments of the
   specification.  The witness is replayed on the implementation by the harness
   (key slice-rbracket-skips-ws). *)
Theorem C01_prec_slice_refuted :
  exists toks,
    option_map fst (parse_stmt_expr env_code 40 0 toks) =
      Some (Some (TCall (s_ "print") [TBin T_MINUS slice_tree (TNum (s_ "3"))])) /\
    option_map fst (parse_stmt_expr env_fixed 40 0 toks) =
      Some (Some (TCall (s_ "print") [slice_tree; TUn T_MINUS (TNum (s_ "3"))])).
Proof. exists slice_witness. vm_compute. split; reflexivity. Qed.
Print Assumptions C01_prec_slice_refuted.

(* the corrected parseSlice leaves the whitespace for the enclosing context to
   see (for every state), the code as it is swallows it *)
Theorem C01_prec_slice_fixed_keeps_ws :
  forall E st t r, e_fix_slice E = true -> rest st = t :: mk T_WS :: r -> cur (slice_close E st) = mk T_WS.
Proof. exact slice_close_fixed_keeps_ws. Qed.
Print Assumptions C01_prec_slice_fixed_keeps_ws.

Theorem C01_prec_slice_code_swallows_ws :
  forall E st t t2 r b w,
  e_fix_slice E = false -> rest st = t :: mk T_WS :: t2 :: r -> wss st = false :: b :: w -> is_ws t2 = false ->
  cur (slice_close E st) = t2.
Proof. exact slice_close_swallows_ws. Qed.
Print Assumptions C01_prec_slice_code_swallows_ws.

(* ---------- non-vacuity ---------- *)
(* free context:  a - b - ( c + 1 ) * -2 == 7 and !true   with assorted whitespace *)
Definition ex_free : lexp :=
  LBin BAnd
    (LBin BEq
      (LBin BSub (LBin BSub (LAtom (AVar (s_ "a")) true) true (LAtom (AVar (s_ "b")) false)) false
        (LBin BMul (LGroup true (LBin BAdd (LAtom (AVar (s_ "c")) false) true (LAtom (ANum (s_ "1")) true)) true) false
                   (LUn UNeg (LAtom (ANum (s_ "2")) true))))
      true (LAtom (ANum (s_ "7")) true))
    true (LUn UNot (LAtom (ABool true) false)).

Example C01_prec_ex_free_hyps :
  tight_ok ex_free = false /\
  (forall st, is_wss st = false -> rest st = render ex_free ++ [mk T_NL] ->
     (is_wss st = true -> tight_ok ex_free = true) /\ (is_wss st = false -> is_ws (look0 [mk T_NL]) = false)).
Proof. split; [reflexivity|]. intros st W _. split; [rewrite W; discriminate|reflexivity]. Qed.

Example C01_prec_ex_free_lay : Lay 0 ex_free /\ atoms_ok env_code ex_free /\ layout_ok ex_free = true.
Proof.
  split.
  - apply wl_Lay; simpl; repeat split; repeat constructor.
  - vm_compute. repeat split.
Qed.

Example C01_prec_ex_free_parse :
  let toks := tk T_IDENT "x" :: mk T_WS :: mk T_DECLARE :: mk T_WS :: render ex_free ++ [mk T_NL] in
  option_map fst (parse_stmt_expr env_code (2 * List.length toks + 10) 2 toks) = Some (Some (tree_of ex_free)) /\
  tree_of ex_free =
    TBin T_AND
      (TBin T_EQ
        (TBin T_MINUS (TBin T_MINUS (TVar (s_ "a")) (TVar (s_ "b")))
           (TBin T_ASTERISK (TGroup (TBin T_PLUS (TVar (s_ "c")) (TNum (s_ "1")))) (TUn T_MINUS (TNum (s_ "2")))))
        (TNum (s_ "7")))
      (TUn T_BANG (TBool true)).
Proof. vm_compute. split; reflexivity. Qed.

(* tight context: print a-b-c (a - b)*c   — two arguments *)
Definition ex_tight1 : lexp :=
  LBin BSub (LBin BSub (LAtom (AVar (s_ "a")) false) false (LAtom (AVar (s_ "b")) false)) false (LAtom (AVar (s_ "c")) false).
Definition ex_tight2 : lexp :=
  LBin BMul (LGroup true (LBin BSub (LAtom (AVar (s_ "a")) true) true (LAtom (AVar (s_ "b")) true)) false) false
            (LAtom (AVar (s_ "c")) false).

Example C01_prec_ex_tight :
  tight_ok ex_tight1 = true /\ tight_ok ex_tight2 = true /\
  let toks := tk T_IDENT "print" :: mk T_WS :: render ex_tight1 ++ mk T_WS :: render ex_tight2 ++ [mk T_NL] in
  option_map fst (parse_stmt_expr env_code (2 * List.length toks + 10) 0 toks) =
    Some (Some (TCall (s_ "print") [tree_of ex_tight1; tree_of ex_tight2])).
Proof. vm_compute. repeat split; reflexivity. Qed.

(* an illegal layout is rejected:  print a - b  (whitespace around a binary operator in an argument) *)
Example C01_prec_ex_tight_illegal :
  let toks := [tk T_IDENT "print"; mk T_WS; tk T_IDENT "a"; mk T_WS; mk T_MINUS; mk T_WS; tk T_IDENT "b"; mk T_NL] in
  match parse_stmt_expr env_code 40 0 toks with
  | Some (_, st) => negb (Nat.eqb (List.length (errs st)) 0)
  | None => false
  end = true.
Proof. vm_compute. reflexivity. Qed.

(* postfix forms in a tight context:  print -arr[ a + 1 ]*b.k c.( []num )[:1]  *)
Definition ex_post1 : lexp :=
  LBin BMul
    (LUn UNeg (LIndex (LAtom (AVar (s_ "arr")) false) true
                 (LBin BAdd (LAtom (AVar (s_ "a")) true) true (LAtom (ANum (s_ "1")) true)) false))
    false (LDot (LAtom (AVar (s_ "b")) false) (s_ "k") false).
Definition ex_post2 : lexp :=
  LSlice (LAssert (LAtom (AVar (s_ "c")) false) true (TyArr TyNum) true false) false None false
         (Some (LAtom (ANum (s_ "1")) false)) false.

Example C01_prec_ex_postfix_lay :
  Lay 0 ex_post1 /\ Lay 0 ex_post2 /\
  atoms_ok env_code ex_post1 /\ atoms_ok env_code ex_post2 /\
  layout_ok ex_post1 = true /\ layout_ok ex_post2 = true /\ tight_ok ex_post1 = true /\ tight_ok ex_post2 = true /\
  slice_guard env_code ex_post2 [mk T_NL].
Proof.
  split; [|split].
  - apply wl_Lay; simpl; repeat split; repeat constructor.
  - apply wl_Lay; simpl; repeat split; repeat constructor.
  - vm_compute. repeat split; try discriminate.
Qed.

Example C01_prec_ex_postfix_parse :
  let toks := tk T_IDENT "print" :: mk T_WS :: render ex_post1 ++ mk T_WS :: render ex_post2 ++ [mk T_NL] in
  option_map fst (parse_stmt_expr env_code (2 * List.length toks + 10) 0 toks) =
    Some (Some (TCall (s_ "print") [tree_of ex_post1; tree_of ex_post2])) /\
  tree_of ex_post1 =
    TBin T_ASTERISK (TUn T_MINUS (TIndex (TVar (s_ "arr")) (TBin T_PLUS (TVar (s_ "a")) (TNum (s_ "1")))))
                    (TDot (TVar (s_ "b")) (s_ "k")) /\
  tree_of ex_post2 = TSlice (TAssert (TVar (s_ "c")) (Some (TyArr TyNum))) None (Some (TNum (s_ "1"))).
Proof. vm_compute. repeat split; reflexivity. Qed.

(* ---------- calls in parentheses and array literals inside derivations ---------- *)
Definition env_calls : env :=
  {| e_funcs := [(s_ "f", false); (s_ "g", false); (s_ "print", false)]; e_vars := [s_ "a"; s_ "b"];
     e_arity := [(s_ "f", Some 2); (s_ "g", Some 1)]; e_tyerr := fun _ _ _ => false; e_fix_slice := true |}.

(*  (f a[0] -b)*[1 (g 2)][0]   with w = false (a tight layout), and
    ( f a[0] -b ) * [ 1 (g 2 ) ][ 0 ]   with w = true (a free layout) *)
Definition ex_args : list lexp :=
  [LIndex (LAtom (AVar (s_ "a")) false) false (LAtom (ANum (s_ "0")) false) false; LUn UNeg (LAtom (AVar (s_ "b")) false)].
Definition ex_arr (w : bool) : lexp :=
  LArr w [LAtom (ANum (s_ "1")) false; LCall false (s_ "g") [LAtom (ANum (s_ "2")) false] w false] w false.
Definition ex_cl (w : bool) : lexp :=
  LBin BMul (LCall w (s_ "f") ex_args w w) w (LIndex (ex_arr w) w (LAtom (ANum (s_ "0")) w) false).

Example C01_prec_ex_call_lay :
  forall w, Lay 0 (ex_cl w) /\ atoms_ok env_calls (ex_cl w) /\ layout_ok (ex_cl w) = true.
Proof.
  intro w. split; [|split].
  - apply wl_Lay; simpl; repeat split; repeat constructor.
  - destruct w; vm_compute; repeat split; intros; try discriminate; auto.
  - destruct w; reflexivity.
Qed.

Example C01_prec_ex_call_parse :
  tight_ok (ex_cl false) = true /\ tight_ok (ex_cl true) = false /\
  (* free: x := ( f a[0] -b ) * [ 1 (g 2 ) ][ 0 ] *)
  (let toks := tk T_IDENT "x" :: mk T_WS :: mk T_DECLARE :: mk T_WS :: render (ex_cl true) ++ [mk T_NL] in
   option_map fst (parse_stmt_expr env_calls (2 * List.length toks + 10) 2 toks) = Some (Some (tree_of (ex_cl true)))) /\
  (* tight: print (f a[0] -b)*[1 (g 2)][0] (f a[0] -b)*[1 (g 2)][0] — two arguments *)
  (let toks := tk T_IDENT "print" :: mk T_WS :: render (ex_cl false) ++ mk T_WS :: render (ex_cl false) ++ [mk T_NL] in
   option_map fst (parse_stmt_expr env_calls (2 * List.length toks + 10) 0 toks) =
     Some (Some (TCall (s_ "print") [tree_of (ex_cl false); tree_of (ex_cl false)]))) /\
  tree_of (ex_cl true) = tree_of (ex_cl false) /\
  tree_of (ex_cl false) =
    TBin T_ASTERISK
      (TGroup (TCall (s_ "f") [TIndex (TVar (s_ "a")) (TNum (s_ "0")); TUn T_MINUS (TVar (s_ "b"))]))
      (TIndex (TArr [TNum (s_ "1"); TGroup (TCall (s_ "g") [TNum (s_ "2")])]) (TNum (s_ "0"))).
Proof. vm_compute. repeat split; reflexivity. Qed.

(*  {a:1 b:[2 (g 3)]}.b[0]   (w = false, tight)   /   { a: 1 b: [ 2 (g 3 ) ] }.b[ 0 ]   (w = true) *)
Definition ex_map (w : bool) : lexp :=
  LIndex
    (LDot (LMap w [(s_ "a", w, LAtom (ANum (s_ "1")) false);
                   (s_ "b", w, LArr w [LAtom (ANum (s_ "2")) false; LCall false (s_ "g") [LAtom (ANum (s_ "3")) false] w false] w false)]
                w false)
          (s_ "b") false)
    w (LAtom (ANum (s_ "0")) w) false.

Example C01_prec_ex_map_lay :
  forall w, Lay 0 (ex_map w) /\ atoms_ok env_calls (ex_map w) /\ layout_ok (ex_map w) = true /\ tight_ok (ex_map w) = true.
Proof.
  intro w. split; [|split; [|split]].
  - apply wl_Lay; simpl; repeat split; repeat constructor.
  - destruct w; vm_compute; repeat split; intros; try discriminate; auto.
  - destruct w; reflexivity.
  - destruct w; reflexivity.
Qed.

Example C01_prec_ex_map_parse :
  (let toks := tk T_IDENT "x" :: mk T_WS :: mk T_DECLARE :: mk T_WS :: render (ex_map true) ++ [mk T_NL] in
   option_map fst (parse_stmt_expr env_calls (2 * List.length toks + 10) 2 toks) = Some (Some (tree_of (ex_map true)))) /\
  (let toks := tk T_IDENT "print" :: mk T_WS :: render (ex_map false) ++ mk T_WS :: render (ex_map true) ++ [mk T_NL] in
   option_map fst (parse_stmt_expr env_calls (2 * List.length toks + 10) 0 toks) =
     Some (Some (TCall (s_ "print") [tree_of (ex_map false); tree_of (ex_map true)]))) /\
  tree_of (ex_map true) =
    TIndex (TDot (TMap [(s_ "a", TNum (s_ "1")); (s_ "b", TArr [TNum (s_ "2"); TGroup (TCall (s_ "g") [TNum (s_ "3")])])]) (s_ "b"))
           (TNum (s_ "0")).
Proof. vm_compute. repeat split; reflexivity. Qed.

(* the hypotheses of C01_prec_call_stmt_parses are satisfiable:  print (f a[0] -b)*[1 (g 2)][0] {a:1 b:[2 (g 3)]}.b[0]  *)
Example C01_prec_ex_call_stmt_hyps :
  let args := [ex_cl false; ex_map false] in
  func_of env_calls (s_ "print") = Some false /\ arity_wrong env_calls (s_ "print") (List.length args) = false /\
  (forall a, In a args -> Lay 0 a) /\ args_ok env_calls (atoms_ok env_calls) false args /\
  forallb (fun a => layout_ok a && tight_ok a) args = true.
Proof.
  split; [reflexivity|split; [reflexivity|split; [|split]]].
  - intros a [<-|[<-|[]]]; [exact (proj1 (C01_prec_ex_call_lay false))|exact (proj1 (C01_prec_ex_map_lay false))].
  - vm_compute; repeat split; intros; try discriminate; auto.
  - reflexivity.
Qed.
