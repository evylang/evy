(* C04 — Static typing rules are exactly those of the specification.
   Property theorems only; every proof is [exact <lemma>].  The model is
   Types.v (pkg/parser/type.go, ast.go: wrapAny, expression.go, parser.go), the
   specification TypesSpec.v (docs/spec.md prose).  [erase] drops the Fixed
   flags; [spec_ty] excludes the parser-internal NONE/GENERIC shapes;
   [pure_ty] = the value kinds the specification names: constants and empty
   literals (no Fixed flag) and variables (Fixed at the top, no empty leaf). *)
From Coq Require Import List Bool String.
From EvyV Require Import Base TypesSyntax Types TypesOld TypesSpec TypesSpecProofs TypesProofs TypesBuiltin TypesBuiltinProofs.
Import ListNotations.

(* assignability, all types at any depth *)
Theorem C04_accepts_iff_assignable : forall t t2,
  spec_ty t = true -> pure_ty t2 = true ->
  (accepts t t2 = true <-> Assignable (kind_of t2) (erase t) (erase t2)).
Proof. exact accepts_iff_assignable. Qed.
Print Assumptions C04_accepts_iff_assignable.

(* a literal directly containing a composite variable is "treated like a variable" *)
Theorem C04_accepts_literal_of_variable : forall t f s,
  spec_ty t = true -> var_ty s = true ->
  (accepts t (TArr f s) = true <-> Assignable KVar (erase t) (erase (TArr f s))) /\
  (accepts t (TMap f s) = true <-> Assignable KVar (erase t) (erase (TMap f s))).
Proof. exact accepts_literal_of_variable. Qed.
Print Assumptions C04_accepts_literal_of_variable.

(* … but not one level deeper: REFUTED (witness  t:[]any ; t = [{k:x}]  with x:[]num) *)
Theorem C04_accepts_nested_variable_refuted :
  exists t t2, spec_ty t = true /\ spec_ty t2 = true /\ has_empty t2 = false /\
    kind_of t2 = KVar /\ accepts t t2 = true /\ ~ Assignable (kind_of t2) (erase t) (erase t2).
Proof. exact accepts_nested_variable_refuted. Qed.
Print Assumptions C04_accepts_nested_variable_refuted.

(* operand compatibility *)
Theorem C04_matches_iff_operand_compatible : forall l r,
  spec_ty l = true -> spec_ty r = true ->
  (matches l r = true <-> exists u, Unify (erase l) (erase r) u).
Proof. exact matches_iff_operand_compatible. Qed.
Print Assumptions C04_matches_iff_operand_compatible.

(* operator table: acceptance … *)
Theorem C04_binop_accept_iff : forall op lt rt,
  spec_ty lt = true -> spec_ty rt = true ->
  (validate_binary op lt rt = true <-> exists r, OpType op (erase lt) (erase rt) r).
Proof. exact binop_accept_iff. Qed.
Print Assumptions C04_binop_accept_iff.

(* … and result type, [] * n included (left operand: the empty array literal, or no untyped empty leaf) *)
Theorem C04_binop_result_type : forall op lt rt,
  spec_ty lt = true -> spec_ty rt = true -> validate_binary op lt rt = true ->
  (has_empty lt = false \/ lt = TEmptyArr) ->
  OpType op (erase lt) (erase rt) (erase (binary_node_type op lt rt)).
Proof. exact binop_result_type. Qed.
Print Assumptions C04_binop_result_type.

(* regression, about parseBinaryExpr before commit f8788c6 *)
Theorem C04_binop_result_type_before_fix_refuted :
  exists op lt rt, spec_ty lt = true /\ spec_ty rt = true /\ validate_binary op lt rt = true /\
    ~ OpType op (erase lt) (erase rt) (erase (binary_node_type_old op lt rt)).
Proof. exact binop_result_type_before_fix_refuted. Qed.
Print Assumptions C04_binop_result_type_before_fix_refuted.

Theorem C04_unop_type_table : forall op t,
  spec_ty t = true -> (validate_unary op t = true <-> UnOpType op (erase t) (erase t)).
Proof. exact unop_type_table. Qed.
Print Assumptions C04_unop_type_table.

(* index / slice / dot / type assertion *)
Theorem C04_index_rule : forall lt it s,
  spec_ty lt = true -> spec_ty it = true -> is_empty lt = false ->
  (IndexType (erase lt) (erase it) s <-> exists t, index_type lt it = Some t /\ erase t = s).
Proof. exact (fun lt it s _ => index_rule lt it s). Qed.
Print Assumptions C04_index_rule.

Theorem C04_slice_rule : forall lt st et,
  spec_ty lt = true ->
  slice_type lt st et =
    if bound_ok st && bound_ok et && is_array_b (erase lt) || bound_ok st && bound_ok et && sty_eqb (erase lt) SString
    then Some lt else None.
Proof. exact slice_rule. Qed.
Print Assumptions C04_slice_rule.

Theorem C04_dot_rule : forall lt s,
  spec_ty lt = true -> is_empty lt = false ->
  (DotType (erase lt) s <-> exists t, dot_type lt = Some t /\ erase t = s).
Proof. exact (fun lt s _ => dot_rule lt s). Qed.
Print Assumptions C04_dot_rule.

Theorem C04_assert_rule : forall lt s,
  spec_ty lt = true -> closed s = true ->
  (validate_assert lt (embed s) = true <-> AssertOk (erase lt) s).
Proof. exact assert_rule. Qed.
Print Assumptions C04_assert_rule.

(* assignment targets (spec.md "Assignments"): a variable, an indexed array, a map field — for all root
   types and all chains; never a character of a string, a slice or a type assertion; no panic *)
Theorem C04_target_ok_iff : forall ks t,
  spec_ty t = true -> has_empty t = false -> forallb spec_step ks = true ->
  forall s, (TargetChain (erase t) (map erase_step ks) s <->
             exists T, target_chain t ks = Some (Some T) /\ erase T = s).
Proof. exact target_ok_iff. Qed.
Print Assumptions C04_target_ok_iff.

Theorem C04_target_chain_no_crash : forall ks t,
  spec_ty t = true -> has_empty t = false -> forallb spec_step ks = true -> target_chain t ks <> None.
Proof. exact target_chain_no_crash. Qed.
Print Assumptions C04_target_chain_no_crash.

Theorem C04_target_string_char_rejected : forall ks t it rest,
  spec_ty t = true -> has_empty t = false -> forallb spec_step ks = true ->
  target_chain t ks = Some (Some TString) -> target_chain t (ks ++ KIdx it :: rest) = Some None.
Proof. exact target_string_char_rejected. Qed.
Print Assumptions C04_target_string_char_rejected.

(* inference replaces exactly the empty leaves by any and keeps the Fixed flags *)
Theorem C04_infer_spec : forall t, spec_ty t = true ->
  exists t', infer t = Some t' /\ Defaults (erase t) (erase t') /\
             spec_ty t' = true /\ has_empty t' = false /\
             fixed t' = fixed t /\ has_fixed t' = has_fixed t.
Proof. exact infer_spec. Qed.
Print Assumptions C04_infer_spec.

(* strictest common type: variables, constants and empty literals, any number, any types, any depth *)
Theorem C04_combine_strictest : forall ts,
  ts <> [] -> Forall (fun t => pure_ty t = true) ts ->
  exists r, combine ts = Some r /\ pure_ty r = true /\ Strictest (map abs ts) (erase r).
Proof. exact combine_strictest. Qed.
Print Assumptions C04_combine_strictest.

(* every element is accepted by the element type (what wrapAny relies on) *)
Theorem C04_combine_upper_bound : forall ts r,
  Forall (fun t => pure_ty t = true) ts -> combine ts = Some r ->
  forall t, In t ts -> accepts r t = true.
Proof. exact combine_upper_bound. Qed.
Print Assumptions C04_combine_upper_bound.

(* independent of the order of the elements *)
Theorem C04_combine_perm : forall ts ts' r r',
  (forall t, In t ts <-> In t ts') ->
  Forall (fun t => pure_ty t = true) ts -> Forall (fun t => pure_ty t = true) ts' ->
  combine ts = Some r -> combine ts' = Some r' -> erase r = erase r'.
Proof. exact combine_perm. Qed.
Print Assumptions C04_combine_perm.

(* regression, about combineTypes before commit 0e214ac *)
Theorem C04_combine_strictest_before_fix_refuted :
  exists ts r, Forall (fun t => pure_ty t = true) ts /\ combine_old ts = Some r /\
    exists t, In t ts /\ accepts r t = false.
Proof. exact combine_strictest_before_fix_refuted. Qed.
Print Assumptions C04_combine_strictest_before_fix_refuted.

Theorem C04_combine_perm_before_fix_refuted :
  exists ts ts' r r', (forall t, In t ts <-> In t ts') /\
    Forall (fun t => pure_ty t = true) ts /\
    combine_old ts = Some r /\ combine_old ts' = Some r' /\ erase r <> erase r'.
Proof. exact combine_perm_before_fix_refuted. Qed.
Print Assumptions C04_combine_perm_before_fix_refuted.

Theorem C04_combine_not_strictest_before_fix_refuted :
  exists ts r, Forall (fun t => pure_ty t = true) ts /\ combine_old ts = Some r /\
    ~ Strictest (map abs ts) (erase r).
Proof. exact combine_not_strictest_before_fix_refuted. Qed.
Print Assumptions C04_combine_not_strictest_before_fix_refuted.

(* wrapAny on HEAD 3a7bc1f: still not total — smallest remaining witness
   t:[][]string ; t = [[]]+[[1]]   (finding concat-left-biased-type) *)
Theorem C04_wrap_total_refuted :
  exists e n target, tc e = ONode n false /\ accepts target (node_type n) = true /\ wrap_any n target = None.
Proof. exact wrap_total_refuted. Qed.
Print Assumptions C04_wrap_total_refuted.

(* regression, about parseBinaryExpr before commit 6b5553c:  nums := [1] ; a:[][]any ; a = [[1]] + [nums] *)
Theorem C04_concat_inner_fixed_before_fix_refuted :
  exists lt rt target, validate_binary OpPlus lt rt = true /\ has_empty lt = false /\ has_empty rt = false /\
    accepts target (binary_node_type_pre_6b5553c OpPlus lt rt) = true /\ accepts target rt = false.
Proof. exact concat_inner_fixed_before_fix_refuted. Qed.
Print Assumptions C04_concat_inner_fixed_before_fix_refuted.

(* … and on the current tree: the node carries the variable's flag, the program is a type error *)
Theorem C04_concat_inner_fixed_now :
  binary_node_type OpPlus (TArr false (TArr false TNum)) (TArr false (TArr true TNum)) = TArr false (TArr true TNum) /\
  check (CAssign (SArr (SArr SAny))) (EBin OpPlus (EArr [EArr [ELitNum]]) (EArr [EVar (SArr SNum)])) = Reject /\
  check (CAssign (SArr SAny)) (EBin OpPlus (EArr [EArr [ELitNum]]) (EArr [EVar (SArr SNum)])) = Reject /\
  check (CAssign (SArr (SArr SNum))) (EBin OpPlus (EArr [EArr [ELitNum]]) (EArr [EVar (SArr SNum)])) =
    Accept (TArr true (TArr false TNum)) (TArr false (TArr true TNum)).
Proof. exact concat_inner_fixed_now. Qed.
Print Assumptions C04_concat_inner_fixed_now.

(* the range clause: one iterable operand, or two or three num operands (from, to, step); never four *)
Theorem C04_range_operands_ok_iff : forall ts,
  forallb spec_ty ts = true -> (range_operands_ok ts = true <-> RangeOperands (map erase ts)).
Proof. exact range_operands_ok_iff. Qed.
Print Assumptions C04_range_operands_ok_iff.

(* loop variables: typed with the element type for exactly the iterable operand types … *)
Theorem C04_range_var_spec : forall t,
  spec_ty t = true ->
  match range_elem_s (erase t) with
  | Some s => exists vt, range_var_type t = Some (Some vt) /\ erase vt = s /\ spec_ty vt = true
  | None => range_var_type t = None
  end.
Proof. exact range_var_spec. Qed.
Print Assumptions C04_range_var_spec.

(* … and as a VARIABLE: assignable to the identical type or any only *)
Theorem C04_range_var_is_variable : forall t vt,
  pure_ty t = true -> range_var_type t = Some (Some vt) ->
  (rigid vt = true /\ has_empty vt = false) /\
  (forall T, spec_ty T = true -> is_array_name vt || is_map_name vt = true ->
             (accepts T vt = true <-> Assignable KVar (erase T) (erase vt))).
Proof. exact range_var_is_variable. Qed.
Print Assumptions C04_range_var_is_variable.

(* every index / field / call / assertion / unary / variable / loop-variable / basic literal node has a rigid type … *)
Theorem C04_tc_leaf_rigid : forall e t err,
  annot_closed e = true -> tc e = ONode (NLeaf t) err -> rigid t = true /\ has_empty t = false.
Proof. exact tc_leaf_rigid. Qed.
Print Assumptions C04_tc_leaf_rigid.

(* a call result is a variable-like value whatever declares the function: for every result type that can be
   written, and so for every row of the built-in table regenerated from evaluator.BuiltinDecls() (Gen/BuiltinSigs.v,
   resolved by name in TypesBuiltin.v): the node is a rigid leaf of the result type, the specification classes it
   as a variable, and a composite result ([]string of split) is accepted by the identical type and any only *)
Theorem C04_call_result_is_variable : forall t,
  closed t = true ->
  tc (ECall t) = ONode (NLeaf (fixed_type (embed t))) false /\
  spec_tc (ECall t) = Some (KVar, t) /\
  (composite t = true -> forall T, spec_ty T = true ->
     (accepts T (fixed_type (embed t)) = true <-> Assignable KVar (erase T) t)).
Proof. exact call_result_is_variable. Qed.
Print Assumptions C04_call_result_is_variable.

Theorem C04_builtin_call_result_is_variable : forall name t,
  builtin_ret name = Some t ->
  closed t = true /\
  tc (ECall t) = ONode (NLeaf (fixed_type (embed t))) false /\
  spec_tc (ECall t) = Some (KVar, t) /\
  (composite t = true -> forall T, spec_ty T = true ->
     (accepts T (fixed_type (embed t)) = true <-> erase T = t \/ erase T = SAny)).
Proof. exact builtin_call_result_is_variable. Qed.
Print Assumptions C04_builtin_call_result_is_variable.

(* … so the former witnesses are type errors or accepted now *)
Theorem C04_wrap_former_witnesses_ok :
  check (CAssign (SArr SAny)) (ECall (SArr SNum)) = Reject /\
  check (CAssign (SArr SAny)) (EIndex (EVar (SArr (SArr SNum))) ELitNum) = Reject /\
  check CDecl (ESlice (EArr []) None None) = Accept (TArr true TAny) (TArr true TAny) /\
  check CDecl (EBin OpPlus (EMap []) ELitNum) = Reject.
Proof. exact wrap_former_witnesses_ok. Qed.
Print Assumptions C04_wrap_former_witnesses_ok.

(* the part that holds: values of rigid type (basic, any, variables, anything Fixed) *)
Theorem C04_wrap_total_rigid_partial : forall t target,
  rigid t = true -> has_empty t = false -> has_generic target = false \/ is_generic target = true ->
  accepts target t = true -> exists n', wrap_any (NLeaf t) target = Some n'.
Proof. exact wrap_total_rigid. Qed.
Print Assumptions C04_wrap_total_rigid_partial.

(* the specification's own function computes the Strictest type, which is unique *)
Theorem C04_spec_strictest_sound : forall els e, strictest els = Some e -> Strictest els (snd e).
Proof. exact strictest_is_Strictest. Qed.
Print Assumptions C04_spec_strictest_sound.

Theorem C04_spec_strictest_unique : forall els t1 t2, Strictest els t1 -> Strictest els t2 -> t1 = t2.
Proof. exact Strictest_unique. Qed.
Print Assumptions C04_spec_strictest_unique.

(* ---------- non-vacuity ---------- *)
(* []{}any accepts the constant [{a:1} {b:[1 2 {}]} {}] (type []{}any) and the
   constant [{a:1}] (type []{}num), but not a variable of type []{}num *)
Example C04_ex_assignable :
  pure_ty (TArr false (TMap false TNum)) = true /\ pure_ty (TArr true (TMap false TNum)) = true /\
  accepts (TArr true (TMap false TAny)) (TArr false (TMap false TNum)) = true /\
  accepts (TArr true (TMap false TAny)) (TArr true (TMap false TNum)) = false /\
  accepts (TArr true (TArr false TNum)) (TArr false TEmptyArr) = true.
Proof. vm_compute. repeat split; reflexivity. Qed.

Example C04_ex_combine :
  combine [TArr false TNum; TEmptyArr; TArr false TString] = Some (TArr false TAny) /\
  combine [TArr false TEmptyArr; TArr false (TArr false TNum)] = Some (TArr false (TArr false TNum)) /\
  Forall (fun t => const_ty t = true) [TArr false TNum; TEmptyArr; TArr false TString].
Proof. vm_compute. repeat split; repeat constructor. Qed.

Example C04_ex_ops :
  validate_binary OpPlus (TArr false TNum) TEmptyArr = true /\
  validate_binary OpPlus (TArr false TNum) (TArr false TString) = false /\
  validate_binary OpAsterisk (TArr true TNum) TNum = true /\
  validate_binary OpEq (TMap true TNum) TEmptyMap = true /\
  validate_binary OpLt TBool TBool = false.
Proof. vm_compute. repeat split; reflexivity. Qed.

(* the former defect witnesses on the expression-level model of the current tree *)
Example C04_ex_fixed_combine :               (* x := [1] ; arr := [[2] x ["a"]]  is now [](any) *)
  check CDecl (EArr [EArr [ELitNum]; EVar (SArr SNum); EArr [ELitStr]]) = Accept (TArr true TAny) (TArr false TAny).
Proof. vm_compute. reflexivity. Qed.

Example C04_ex_fixed_concat :                (* a:[]any ; a = [1] + [2] *)
  check (CAssign (SArr SAny)) (EBin OpPlus (EArr [ELitNum]) (EArr [ELitNum])) = Accept (TArr true TAny) (TArr true TAny).
Proof. vm_compute. reflexivity. Qed.

Example C04_ex_fixed_empty_repeat :          (* x := [] * 3  is []any *)
  check CDecl (EBin OpAsterisk (EArr []) ELitNum) = Accept (TArr true TAny) (TArr true TAny).
Proof. vm_compute. reflexivity. Qed.

(* the remaining defect: the harness replays it on the implementation *)
Example C04_ex_defect_concat_nested_empty_panics :   (* t:[][]string ; t = [[]]+[[1]] *)
  check (CAssign (SArr (SArr SString))) (EBin OpPlus (EArr [EArr []]) (EArr [EArr [ELitNum]])) = Crash.
Proof. vm_compute. reflexivity. Qed.

Example C04_ex_combine_pure_nonvacuous :
  Forall (fun t => pure_ty t = true) [TArr false TNum; TArr true TNum; TEmptyArr] /\
  combine [TArr false TNum; TArr true TNum; TEmptyArr] = Some (TArr true TNum) /\
  combine [TArr true TAny; TArr false TNum; TArr false TString] = Some (TArr true TAny) /\
  combine [TArr false TNum; TArr false TString; TArr true TAny] = Some (TArr true TAny).
Proof. vm_compute. repeat split; repeat constructor. Qed.

(* targets: people[1].name is a target of type string, people[1].name[0] is not a target *)
Example C04_ex_targets :
  target_chain (TArr true (TMap false TString)) [KIdx TNum; KDot] = Some (Some TString) /\
  target_chain (TArr true (TMap false TString)) [KIdx TNum; KDot; KIdx TNum] = Some None /\
  check (CAssignTo (SArr (SMap SString)) [TIdx ELitNum; TDot; TIdx ELitNum]) ELitStr = Reject /\
  check (CAssignTo (SArr (SMap SString)) [TIdx ELitNum; TDot]) ELitStr = Accept TString TString.
Proof. vm_compute. repeat split; reflexivity. Qed.

(* loop variable over rows:[][]num is a variable of type []num: [row] is not assignable to []any *)
Example C04_ex_loop_variable :
  range_var_type (TArr true (TArr false TNum)) = Some (Some (TArr true TNum)) /\
  check (CAssign (SArr SAny)) (EArr [ELoopVar (EVar (SArr (SArr SNum)))]) = Reject /\
  check (CAssign (SArr SAny)) (ELoopVar (EVar (SArr (SArr SNum)))) = Reject /\
  check CDecl (EArr [ELoopVar (EVar (SArr (SArr SNum))); EArr [ELitStr]]) = Accept (TArr true TAny) (TArr false TAny).
Proof. vm_compute. repeat split; reflexivity. Qed.

(* split is a row of the regenerated table with a composite result: a:[]any / a = split "a b" " " is a type error,
   [(split …)] is not assignable to []any either, and [(split …) [1]] is inferred as []any *)
Local Open Scope string_scope.
Example C04_ex_builtin_call :
  builtin_ret (s_ "split") = Some (SArr SString) /\
  check (CAssign (SArr SAny)) (ECall (SArr SString)) = Reject /\
  check (CAssign (SArr SAny)) (EArr [EGroup (ECall (SArr SString))]) = Reject /\
  check (CAssign (SArr SString)) (ECall (SArr SString)) = Accept (TArr true TString) (TArr true TString) /\
  check CDecl (EArr [EGroup (ECall (SArr SString)); EArr [ELitNum]]) = Accept (TArr true TAny) (TArr false TAny).
Proof. vm_compute. repeat split; reflexivity. Qed.

(* range 0 6 "2" is rejected; range 0 6 2 accepted; four operands rejected; a none-typed operand of == rejected *)
Example C04_ex_range_operands :
  range_operands_ok [TNum; TNum; TString] = false /\ range_operands_ok [TNum; TNum; TNum] = true /\
  range_operands_ok [TNum; TNum; TNum; TNum] = false /\ range_operands_ok [TArr true TNum; TNum] = false /\
  check (CRangeMore [ELitNum; ELitStr]) ELitNum = Reject /\
  check (CRangeMore [ELitNum; EVar SNum]) ELitNum = Accept TNum TNum /\
  validate_binary OpEq TNone TNone = false.
Proof. vm_compute. repeat split; reflexivity. Qed.
