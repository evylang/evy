(* C05 (part) — a program that breaks a static rule is rejected: the parser model.
   Property theorems only; proofs are [exact <lemma of ParserRules>].

   Contrapositive form, for EVERY token list, builtin table and typing oracle:
     parse B raw eof = Accept p  ->  the accepted tree p satisfies the rule.
   The rules are declarative, structurally recursive predicates on the tree
   (ParserRules.v, written from the property text and docs/spec.md); they do not look at
   the parser's bookkeeping. *)
From Coq Require Import List NArith ZArith Bool Arith String.
From EvyV Require Import Base Pratt Parser ParserProofs ParserRules ParserScope.
From EvyV.Gen Require Import Prec.
Import ListNotations.
Local Open Scope nat_scope.

(* STRUCTURE.  An accepted program satisfies, at every nesting depth:
   (a) every break is inside a while / for body of the same function or handler (or of the
       top level),
   (b) the body of a func with a return type returns on every path (block_returns: some
       statement of the block is a return, or an if / else-if / else all of whose branches
       return),
   (c) no statement other than blank lines / comments follows a terminating statement
       (return, break, if-else all of whose branches terminate) in a block,
   (d) return occurs only inside a func or an on handler, and never without a value in a func
       with a return type (a value after return in a procedure / handler is a typing matter:
       the type checker accepts exactly values of type none, cf. the typing oracle),
   and func / on definitions occur at top level only. *)
Theorem C05_parse_accept_structure : forall B raw eof p,
  parse B raw eof = Accept p -> structure_ok p = true.
Proof. exact accept_structure. Qed.
Print Assumptions C05_parse_accept_structure.

(* (i, part) the statement loop of an accepted (or rejected) run stops at the end of the input
   only: every token has been consumed by some statement *)
Theorem C05_parse_consumes_all : forall B fuel acc terms s p s',
  program_loop B fuel acc terms s = Ok p s' -> ct s' = T_EOF.
Proof. exact program_loop_ends. Qed.
Print Assumptions C05_parse_consumes_all.

(* EXPRESSIONS (rule (e), rule (f) as far as a single expression goes, type mismatch).
   For every environment (function table with arities, visible variables, typing oracle), every
   state and every fuel: an expression tree returned by the expression parser on a run that
   recorded no error satisfies tree_ok:
     - every call names a function of the table, with as many arguments as the function has
       parameters unless it is variadic (a niladic function read as a value takes none);
     - every variable read is visible in the environment (lookupVar found it);
     - at every node for which the Go code consults the type checker (unary / binary operand
       types, indexable / index type, sliceable / slice bounds, field access on a map, type
       assertion on any, argument types) the typing oracle did not object.
   _partial: this is the expression level only.  The lift to whole programs (every expression
   of an accepted program is tree_ok for the function table fixed by the signature pre-pass) and
   the scoping rules (f) (g) (h) are in Props/C05_scope.v. *)
Theorem C05_parse_expr_rules_partial : forall E fuel p c t c',
  parse_expr E fuel p c = Some (Some t, c') -> errs c' = [] -> tree_ok E t.
Proof. intros E fuel. exact (proj1 (expr_rules E fuel)). Qed.
Print Assumptions C05_parse_expr_rules_partial.

(* errors are never removed: a run that ends without error never recorded one *)
Theorem C05_parse_errors_monotone : forall E fuel p c a c',
  parse_expr E fuel p c = Some (a, c') -> errs c' = [] -> errs c = [].
Proof. intros E fuel. exact (proj1 (expr_ne E fuel)). Qed.
Print Assumptions C05_parse_errors_monotone.

(* ---------- non-vacuity ---------- *)
(* tokens of one line, columns 1, 2, 3, ... (whitespace tokens are optional for the parser) *)
Fixpoint line_from (l c : nat) (ts : list (toktype * string)) : list (token * position) :=
  match ts with
  | [] => []
  | (t, s) :: r => ({| ttype := t; tlit := s_ s |}, (l, c)) :: line_from l (S c) r
  end.
Fixpoint lines_from (l : nat) (ls : list (list (toktype * string))) : list (token * position) :=
  match ls with
  | [] => []
  | x :: r => line_from l 1 (x ++ [(T_NL, ""%string)]) ++ lines_from (S l) r
  end.
Definition prog (ls : list (list (toktype * string))) : list (token * position) := lines_from 1 ls.
Definition i_ (s : string) := (T_IDENT, s).
Definition n_ (s : string) := (T_NUM_LIT, s).
Definition k_ (t : toktype) := (t, ""%string).

Definition B1 : benv :=
  {| b_funcs := [(s_ "print", false); (s_ "len", false)]; b_arity := [(s_ "print", None); (s_ "len", Some 1)]; b_globals := [s_ "err"];
     b_events := [(s_ "key", [TyStr])]; b_tyerr := fun _ _ _ => false |}.
Definition run (ls : list (list (toktype * string))) : outcome := parse B1 (prog ls) (List.length ls + 1, 1).
Definition rejected (o : outcome) : bool := match o with Reject (_ :: _) => true | _ => false end.

(* func f:num n:num / while true / if n > 0 / break / end / return 1 / end / return 2 / end
   on key k:string / print k / return / end
   for i := range 3 / print (f i) / end *)
Definition ex_ok : list (list (toktype * string)) :=
  [ [k_ T_FUNC; i_ "f"; k_ T_COLON; k_ T_NUM; i_ "n"; k_ T_COLON; k_ T_NUM];
    [k_ T_WHILE; k_ T_TRUE];
    [k_ T_IF; i_ "n"; k_ T_GT; n_ "0"];
    [k_ T_BREAK];
    [k_ T_END];
    [k_ T_RETURN; n_ "1"];
    [k_ T_END];
    [k_ T_RETURN; n_ "2"];
    [k_ T_END];
    [k_ T_ON; i_ "key"; i_ "k"; k_ T_COLON; k_ T_STRING];
    [i_ "print"; i_ "k"];
    [k_ T_RETURN];
    [k_ T_END];
    [k_ T_FOR; i_ "i"; k_ T_DECLARE; k_ T_RANGE; n_ "3"];
    [i_ "print"; k_ T_LPAREN; i_ "f"; i_ "i"; k_ T_RPAREN];
    [k_ T_END] ].

Example C05_parse_ex_accepted :
  exists p, run ex_ok = Accept p /\ structure_ok p = true /\ List.length p = 3.
Proof. vm_compute. eexists. repeat split. Qed.

(* one rejected witness per rule *)
Example C05_parse_ex_break_outside_loop : rejected (run [[k_ T_BREAK]]) = true.
Proof. vm_compute. reflexivity. Qed.
Example C05_parse_ex_break_in_func_in_loop_position :
  (* a break inside a function body that is not inside a loop OF THAT FUNCTION *)
  rejected (run [[k_ T_FUNC; i_ "g"]; [k_ T_BREAK]; [k_ T_END]]) = true.
Proof. vm_compute. reflexivity. Qed.
Example C05_parse_ex_missing_return :
  rejected (run [[k_ T_FUNC; i_ "f"; k_ T_COLON; k_ T_NUM]; [k_ T_IF; k_ T_TRUE]; [k_ T_RETURN; n_ "1"]; [k_ T_END]; [k_ T_END]]) = true.
Proof. vm_compute. reflexivity. Qed.
Example C05_parse_ex_unreachable :
  rejected (run [[k_ T_WHILE; k_ T_TRUE]; [k_ T_BREAK]; [i_ "print"; n_ "1"]; [k_ T_END]]) = true.
Proof. vm_compute. reflexivity. Qed.
Example C05_parse_ex_return_at_top_level : rejected (run [[k_ T_RETURN]]) = true.
Proof. vm_compute. reflexivity. Qed.
Example C05_parse_ex_bare_return_in_func_with_type :
  rejected (run [[k_ T_FUNC; i_ "f"; k_ T_COLON; k_ T_NUM]; [k_ T_RETURN]; [k_ T_END]]) = true.
Proof. vm_compute. reflexivity. Qed.
Example C05_parse_ex_func_not_at_top_level :
  rejected (run [[k_ T_IF; k_ T_TRUE]; [k_ T_FUNC; i_ "g"]; [i_ "print"; n_ "1"]; [k_ T_END]; [k_ T_END]]) = true.
Proof. vm_compute. reflexivity. Qed.
Example C05_parse_ex_stray_text :
  rejected (run [[i_ "print"; n_ "1"; k_ T_RPAREN]]) = true /\
  rejected (run [[k_ T_IF; k_ T_TRUE]; [i_ "print"; n_ "1"]; [k_ T_END; i_ "garbage"]]) = true.
Proof. vm_compute. split; reflexivity. Qed.

(* the remaining rules: rejected witnesses (theorems: Props/C05_scope.v) *)
Example C05_parse_ex_undeclared_variable : rejected (run [[i_ "print"; i_ "x"]]) = true.
Proof. vm_compute. reflexivity. Qed.
Example C05_parse_ex_unused_variable : rejected (run [[i_ "x"; k_ T_DECLARE; n_ "1"]]) = true.
Proof. vm_compute. reflexivity. Qed.
Example C05_parse_ex_unused_parameter_and_loop_variable :
  rejected (run [[k_ T_FUNC; i_ "g"; i_ "q"; k_ T_COLON; k_ T_NUM]; [i_ "print"; n_ "1"]; [k_ T_END]]) = true /\
  rejected (run [[k_ T_FOR; i_ "i"; k_ T_DECLARE; k_ T_RANGE; n_ "3"]; [i_ "print"; n_ "1"]; [k_ T_END]]) = true.
Proof. vm_compute. split; reflexivity. Qed.
Example C05_parse_ex_redeclaration :
  rejected (run [[i_ "x"; k_ T_DECLARE; n_ "1"]; [i_ "x"; k_ T_DECLARE; n_ "2"]; [i_ "print"; i_ "x"]]) = true.
Proof. vm_compute. reflexivity. Qed.
Example C05_parse_ex_unknown_function : rejected (run [[i_ "foo"; n_ "1"]]) = true.
Proof. vm_compute. reflexivity. Qed.
Example C05_parse_ex_wrong_argument_count :
  rejected (run [[i_ "print"; k_ T_LPAREN; i_ "len"; n_ "1"; n_ "2"; k_ T_RPAREN]]) = true /\
  rejected (run [[i_ "print"; k_ T_LPAREN; i_ "len"; k_ T_RPAREN]]) = true.
Proof. vm_compute. split; reflexivity. Qed.
(* type mismatch: whenever the typing oracle objects, the program is rejected *)
Example C05_parse_ex_type_mismatch :
  rejected (parse {| b_funcs := b_funcs B1; b_arity := b_arity B1; b_globals := b_globals B1; b_events := b_events B1;
                     b_tyerr := fun s _ _ => match s with TS_binary => true | _ => false end |}
                  (prog [[i_ "print"; n_ "1"; k_ T_PLUS; (T_STRING_LIT, "a"%string)]]) (2, 1)) = true.
Proof. vm_compute. reflexivity. Qed.
Example C05_parse_ex_value_returned_from_procedure :
  (* `return 1` in a procedure: a typing matter (the oracle stands for returnType.accepts) *)
  rejected (parse {| b_funcs := b_funcs B1; b_arity := b_arity B1; b_globals := b_globals B1; b_events := b_events B1;
                     b_tyerr := fun s _ _ => match s with TS_return_type => true | _ => false end |}
                  (prog [[k_ T_FUNC; i_ "g"]; [k_ T_RETURN; n_ "1"]; [k_ T_END]]) (4, 1)) = true.
Proof. vm_compute. reflexivity. Qed.
