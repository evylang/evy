(* C06 — Formatting changes nothing but whitespace.
   Property theorems only, each an instance of a lemma of FormatProofs.

   Model: Format.v (format.go + multiline.go, function by function) over the
   formatter's view of the tree, FmtAst.v (nodes + the comments / wss /
   multiline side tables).  [format all_fixes] is the code as it is, [format no_fixes]
   the code before the two repairs of C07; both satisfy C06.

   What is proved here is the formatter half of the property, for ALL trees and
   side tables satisfying [wf_prog] (token texts are lexically atomic, comments
   start with "//" and hold no newline, string literals are well delimited, the
   multiline items of a literal list exactly its elements / keys): the output
   text, with white space outside string literals and comments removed, is the
   concatenation of the tree's tokens in source order.  [wf_prog] is evaluated
   by the harness on every tree the real parser produces (it never fails there).
   The parser half ("the formatter's tokens parse back to the tree") is proved, on fragments,
   over the parser models in C06_lex.v, C06_roundtrip.v, C06_stmt.v, C06_block.v, C06_funcs.v and
   C06_program.v; on the implementation it is checked by the token-sequence oracle of harness/c06.go. *)
From Coq Require Import ZArith NArith List Bool.
From Coq Require Import String.
From EvyV Require Import Base FmtAst Format FormatProofs.
Import ListNotations.
Open Scope N_scope.

Theorem C06_format_emits_tree_tokens : forall (fixed : fixes) (p : fprog),
  wf_prog p = true ->
  strip_ws (format fixed p) = List.concat (tokens_of_ast p).
Proof. exact format_emits_tree_tokens. Qed.
Print Assumptions C06_format_emits_tree_tokens.

(* without any hypothesis: the token-carrying pieces written by the formatter
   are, one by one and in order, the tokens of the tree (comments included) *)
Theorem C06_written_tokens_are_the_tree_tokens : forall (fixed : fixes) (p : fprog),
  toks (fmt_prog fixed p) = tokens_of_ast p.
Proof. exact fmt_prog_toks. Qed.
Print Assumptions C06_written_tokens_are_the_tree_tokens.

(* every expression / statement separately, at every indentation level *)
Theorem C06_expr_tokens : forall (fixed : fixes) (e : fexpr) (lvl : nat),
  toks (fmt_expr fixed lvl e) = expr_tokens e.
Proof. exact toks_expr. Qed.
Print Assumptions C06_expr_tokens.

Theorem C06_stmt_tokens : forall (fixed : fixes) (s : fstmt) (lvl : nat),
  toks (fmt_stmt fixed lvl s) = stmt_tokens s.
Proof. exact toks_stmt. Qed.
Print Assumptions C06_stmt_tokens.

(* formatMultiline drops newline items only: no element, key or comment of a
   multi-line literal is lost by the blank-run squeezing *)
Theorem C06_multiline_squeeze_keeps_tokens : forall (els : list (list str)) (items : list str),
  arr_item_tokens (format_multiline items) els = arr_item_tokens items els.
Proof. intros els items. exact (arr_item_tokens_fm els items 0). Qed.
Print Assumptions C06_multiline_squeeze_keeps_tokens.

(*  x := [1 // one
         2
    ] // c
    if x[0] > 0 // c1
        print "a b" 6/2
    end                                              *)
Definition C06_example : fprog :=
  [ SInferredDecl (s_ "x"%string)
      (FArr [k_el; s_ "// one"%string ++ k_nl; k_el; k_nl] [FNum 0 (s_ "1"%string); FNum 0 (s_ "2"%string)]) (s_ "// c  "%string);
    SIf (CBlock (FBin OpGt false (FIdx (FVar (s_ "x"%string)) (FNum 0 (s_ "0"%string))) (FNum 0 (s_ "0"%string))) (s_ "// c1"%string)
           [SCall (s_ "print"%string) [FStr (s_ "a b"%string) (s_ """a b"""%string); FBin OpSlash true (FNum 0 (s_ "6"%string)) (FNum 0 (s_ "2"%string))] []])
        [] None [] ].

Example C06_example_wf : wf_prog C06_example = true.
Proof. vm_compute. reflexivity. Qed.

Example C06_example_text :
  format no_fixes C06_example =
  s_ "x := [1 // one"%string ++ k_nl ++ s_ "    2"%string ++ k_nl ++ s_ "] // c"%string ++ k_nl ++
  s_ "if x[0] > 0 // c1"%string ++ k_nl ++ s_ "    print ""a b"" 6/2"%string ++ k_nl ++ s_ "end"%string ++ k_nl.
Proof. vm_compute. reflexivity. Qed.

Example C06_example_stripped :
  strip_ws (format no_fixes C06_example) = s_ "x:=[1// one2]// cifx[0]>0// c1print""a b""6/2end"%string.
Proof. vm_compute. reflexivity. Qed.

(* the hypothesis is not idle: a "name" holding a blank is not a token *)
Example C06_wf_needed :
  let p := [SInferredDecl (s_ "x"%string) (FVar (s_ "a b"%string)) []] in
  wf_prog p = false /\ strip_ws (format no_fixes p) <> List.concat (tokens_of_ast p).
Proof. vm_compute. split; [reflexivity | discriminate]. Qed.
