(* C06, round trip at block level (FormatParseBlockProofs.v), against Parser.v's parseStatement.
   (also: if / else if / else, for)

   C06_roundtrip_statement_partial: for every statement st that satisfies [sok fr G st], in every
   parser state s that stands on the tokens the formatter writes for st at any indentation level
   (followed by the end of the line and by any further input r), whose scope chain is G and whose
   frames are fr,
       parseStatement  returns exactly [stmt_tree st],  reports no error,  and leaves the cursor on
       the first token of the next line.
   C06_roundtrip_block_partial: the same for the statement list of a block (parseBlockWithEndTokens'
   loop), with the scope context threaded from statement to statement.

   _partial — the fragment is exactly the inductive definition [sok] / [boks]:
   - one-line statements: typed and inferred declarations, assignment to a variable or to  a[i]  m.k
     a[i][j].k ... (any chain of index and dot steps on a variable), call statements,
     return (with and without value), break; values / arguments / conditions in the expression
     fragment of C06_roundtrip.v ([top_ok], [item_ok]);
   - while statements, for statements (with and without loop variable, range with one, two or three
     expressions) and if / else if ... / else statements whose blocks are again such lists of
     statements (any nesting depth), blank lines between statements included (the formatter squeezes
     a run of blank statements into one line, and the tree compared is squeezed likewise:
     [body_trees]);
   - NOT covered here: func, on (C06_funcs.v), comments (Parser.v's trees do not carry them), whole
     programs (Parser.parse with the signature pre-pass: C06_program.v).
   The scoping side conditions are not stated on parser states: they are the conditions of the
   declarative scope checker of ParserScope.v on the checker's context G (declare / cvisible /
   use_vars / the scope of a block is closed with every variable used), chained by scope_stmt /
   scope_block on the tree; the simulation theorem ParserScope.stmt_sim is what transports them along the parser's run.
   Remaining semantic hypothesis: the typing oracle is silent (types are not modelled).  (That a call
   statement's first argument does not start with  = . : :=  is proved: rt_head_not_assign.) *)
From Coq Require Import List String NArith ZArith Bool Arith.
From EvyV Require Import Base FmtAst Format Pratt Parser ParserRules ParserScope FormatParse FormatParseListProofs
  FormatParseStmtProofs FormatParseTargetProofs FormatParseBlockProofs.
From EvyV.Gen Require Import Prec.
Import ListNotations.
Local Open Scope nat_scope.

Theorem C06_roundtrip_statement_partial :
  forall (B : benv), (forall s t n, b_tyerr B s t n = false) ->
  forall (fixed : fixes) (F : list (str * finfo)) (fr : frs) (G : ctx) (st : fstmt),
  sok B F fr G st ->
  forall (lvl fuel : nat) (s : pst) (r : list token),
  sz st <= fuel ->
  ST F s (toks_of_pieces (fmt_stmt fixed lvl st) ++ mk T_NL :: r) G fr ->
  is_ws (look0 (skip1 r)) = false ->
  exists s', parse_statement B fuel s = Ok (Some (stmt_tree st)) s' /\ at_toks s' (skip1 r) [] /\ peek_ok s' (skip1 r).
Proof. intros. eapply stmt_roundtrip; eassumption. Qed.
Print Assumptions C06_roundtrip_statement_partial.

Theorem C06_roundtrip_block_partial :
  forall (B : benv), (forall s t n, b_tyerr B s t n = false) ->
  forall (fixed : fixes) (F : list (str * finfo)) (fr : frs) (G : ctx) (terms blank : bool) (body : list fstmt),
  boks B F fr G terms blank body ->
  forall (lvl f fuel : nat) (els : bool) (acc : list stmt) (s : pst) (endq : list token) (tk : token) (r' : list token),
  szb blank body <= f -> szb blank body < fuel ->
  skip1 endq = tk :: r' -> at_end els (ttype tk) = true ->
  ST F s (skip1 (body_toks fixed (S lvl) blank body ++ endq)) G fr ->
  exists s' G', block_loop (parse_statement B f) fuel els acc terms s
                = Ok (Block (rev acc ++ body_trees blank body) (terms || existsb always_terms (body_trees blank body))) s'
                /\ ST F s' (tk :: r') G' fr /\ frame_used G'.
Proof. exact body_roundtrip. Qed.
Print Assumptions C06_roundtrip_block_partial.

(* the else-if chain of an if statement (parseIfStatement's loop) *)
Theorem C06_roundtrip_else_if_partial :
  forall (B : benv), (forall s t n, b_tyerr B s t n = false) ->
  forall (fixed : fixes) (F : list (str * finfo)) (fr : frs) (G : ctx) (cbs : list cblock) (Gout : ctx),
  coks B F fr G cbs Gout ->
  forall (lvl f fuel : nat) (acc : list (option tree * block)) (s : pst) (endq : list token) (tk : token) (r' : list token),
  S (szc cbs) <= f -> List.length cbs < fuel ->
  skip1 endq = tk :: r' -> at_end true (ttype tk) = true ->
  (ttype tk = T_ELSE -> ttype (peek_of (tk :: r')) <> T_IF) ->
  ST F s (skip1 (elif_toks fixed lvl cbs ++ endq)) G fr ->
  exists s', else_if_loop B (parse_statement B f) fuel f acc s = Ok (rev acc ++ map cb_tree cbs) s' /\ ST F s' (tk :: r') Gout fr.
Proof. exact branches_roundtrip. Qed.
Print Assumptions C06_roundtrip_else_if_partial.

(* ---------- non-vacuity ---------- *)
(* the side conditions are satisfiable:   while true / break / end   in a scope without variables *)
Example C06_block_sok_example :
  forall B, sok B [] [(false, false, false)] [[]] (FmtAst.SWhile (FBool true) [] [FmtAst.SBreak []] []).
Proof.
  intros B. eapply sok_while with (G1 := [[]; []]).
  - left. vm_compute. repeat split; constructor.
  - discriminate.
  - reflexivity.
  - eapply boks_cons with (G' := [[]; []]); [reflexivity | apply sok_break; reflexivity | reflexivity |].
    apply boks_nil. reflexivity.
Qed.

(* and the models run:  the tokens of
       while i < 3
           i = i + 1

           if i == 1
               break
           else if i == 2
               i = 0
           else
               while true
                   break
               end
           end
       end
   parse back to the statement's tree *)
Definition C06_block_B : benv :=
  {| b_funcs := []; b_arity := []; b_globals := []; b_events := []; b_tyerr := fun _ _ _ => false |}.
Definition C06_block_state (toks : list token) : pst :=
  {| cs := Nat.iter 1 (fun c => c) (advance (init_state (mk T_NL :: toks)));
     scs := [{| sc_vars := [{| v_name := s_ "i"%string; v_used := false; v_pos := 0 |}]; sc_ret := false; sc_retval := false; sc_loop := false |}];
     fns := []; bodies := []; hds := [] |}.

Example C06_block_example :
  let i := FVar (s_ "i"%string) in
  let num := fun n : string => FNum 0%Z (s_ n) in
  let w := FmtAst.SWhile (FBin OpLt false i (num "3"%string)) []
             [FmtAst.SAssign i (FBin OpPlus false i (num "1"%string)) [];
              FmtAst.SEmpty []; FmtAst.SEmpty [];
              FmtAst.SIf (CBlock (FBin OpEq false i (num "1"%string)) [] [FmtAst.SBreak []])
                         [CBlock (FBin OpEq false i (num "2"%string)) [] [FmtAst.SAssign i (num "0"%string) []]]
                         (Some ([], [FmtAst.SWhile (FBool true) [] [FmtAst.SBreak []] []])) []] [] in
  exists s', parse_statement C06_block_B 20 (C06_block_state (toks_of_pieces (fmt_stmt current_fixes 0 w) ++ [mk T_NL]))
             = Ok (Some (stmt_tree w)) s' /\ rest (cs s') = [] /\ errs (cs s') = [].
Proof. vm_compute. eexists; repeat split; reflexivity. Qed.
