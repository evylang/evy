(* C06, round trip of `func` declarations and `on` handlers at parseProgram's loop (FormatParseFuncProofs.v), against
   Parser.parse_func / parse_event_handler / program_loop = parser.go parseFunc, parseEventHandler,
   parseProgram.  Property theorems only.

   The tree of the re-parse is [prog_trees nl 0 false p], nl = nlAfter of p: p's own statement trees
   (stmt_tree, comments dropped, positions dropped), runs of blank statements squeezed into one empty
   statement as the formatter squeezes them, and ONE EMPTY STATEMENT after every index of nlAfter - the
   blank line formatProgram inserts between a func / on declaration and a directly adjacent statement
   or declaration (where the source already has a blank line nlAfter has no index:
   C07_blank_line_logic_idempotent).

   Hypotheses of the func theorems, all boolean / checkable on the exported tree and all guaranteed by
   an ACCEPTED first parse:
     ident_text n, param_okb, rt_okb   names lex as identifiers, parameter / return types are printable
                                       (parseFuncDefSignature reports anything else);
     sig_ok n rt ps v fi               the entry of p.funcs for n (written by the signature pre-pass for
                                       THIS declaration) has the declaration's return flag and parameter names;
     mem_str n bd = false              no earlier func of the program has this name (parseFunc: "redeclaration");
     declare_all ... = Some G1         the parameters are distinct and are not builtin / function names
                                       (addParamsToScope -> validateVarDecl);
     boks (fn_fr ret) G1 body          the body is in the statement fragment of C06_block.v, in a scope
                                       that allows return (with a value iff ret);
     ret -> the body always terminates (parseFunc: "missing return");
     scope_stmt ... = Some G'          the declarative scope checker passes the declaration (every
                                       parameter and local is used), C05_scope_accept_scoped. *)
From Coq Require Import List String NArith ZArith Bool Arith.
From EvyV Require Import Base FmtAst Format Pratt Parser ParserRules ParserScope ParserCursor FormatParse FormatParseListProofs
  FormatParseStmtProofs FormatParseBlockProofs FormatParseFuncProofs.
From EvyV.Gen Require Import Prec.
Import ListNotations.
Local Open Scope nat_scope.

(* parseStatement and everything below it never touches the set of defined function bodies nor the set
   of registered event handlers: they change at top level only *)
Theorem C06_statements_keep_func_and_handler_tables :
  forall (B : benv) (fuel : nat) (s : pst) (r : option stmt) (s' : pst),
  parse_statement B fuel s = Ok r s' -> bodies s' = bodies s /\ hds s' = hds s.
Proof. exact stmt_keeps_tables. Qed.
Print Assumptions C06_statements_keep_func_and_handler_tables.

(* one func declaration at top level: name, optional return type, parameters, optional variadic parameter, body *)
Theorem C06_roundtrip_func_decl_partial :
  forall (B : benv), (forall s t n, b_tyerr B s t n = false) ->
  forall (fx : fixes) (F : list (str * finfo)) (f : nat) (s : pst) (n : str) (rt : option fty) (ps : list (str * fty))
         (v : option (str * fty)) (body : list fstmt) (r : list token) (G : ctx) (fi : finfo) (G1 : ctx),
  ident_text n = true -> opt_okb rt_okb rt = true -> forallb param_okb ps = true -> opt_okb param_okb v = true ->
  sig_ok F n rt ps v fi -> mem_str n (bodies s) = false ->
  declare_all (tabs_of B F) (map fst (fi_params fi)) ([] :: G) = Some G1 ->
  boks B F (fn_fr (fi_ret fi)) G1 false false body -> body_trees false body <> [] ->
  (fi_ret fi = true -> existsb always_terms (body_trees false body) = true) ->
  S (szb false body) <= f ->
  ST F s (toks_of_pieces (fmt_stmt fx 0 (FmtAst.SFunc n rt ps v [] body [])) ++ mk T_NL :: r) G top_fr ->
  is_ws (look0 (skip1 r)) = false ->
  exists s', parse_func B f s = Ok (Some (stmt_tree (FmtAst.SFunc n rt ps v [] body []))) s' /\
             at_toks s' (skip1 r) [] /\ peek_ok s' (skip1 r) /\ kb s' = (n :: bodies s, hds s).
Proof. intros. eapply func_rt; eassumption. Qed.
Print Assumptions C06_roundtrip_func_decl_partial.

(* one event handler at top level: on name [param:type ...], body.  Hypotheses (all reported as errors by
   parseEventHandler / addEventParamsToScope otherwise): the event exists, no handler for it yet, the
   parameters are none or exactly the event's, with the event's types *)
Theorem C06_roundtrip_on_handler_partial :
  forall (B : benv), (forall s t n, b_tyerr B s t n = false) ->
  forall (fx : fixes) (F : list (str * finfo)) (f : nat) (s : pst) (n : str) (ps : list (str * fty))
         (body : list fstmt) (r : list token) (G : ctx) (ex : list ty) (G1 : ctx),
  ident_text n = true -> forallb param_okb ps = true ->
  lookup_ev n (b_events B) = Some ex -> (ps = [] \/ map param_ty ps = map Some ex) -> mem_str n (hds s) = false ->
  declare_all (tabs_of B F) (map fst ps) ([] :: G) = Some G1 ->
  boks B F hd_fr G1 false false body -> body_trees false body <> [] ->
  S (szb false body) <= f ->
  ST F s (toks_of_pieces (fmt_stmt fx 0 (FmtAst.SOn n ps [] body [])) ++ mk T_NL :: r) G top_fr ->
  is_ws (look0 (skip1 r)) = false ->
  exists s', parse_event_handler B f s = Ok (Some (stmt_tree (FmtAst.SOn n ps [] body []))) s' /\
             at_toks s' (skip1 r) [] /\ peek_ok s' (skip1 r) /\ kb s' = (bodies s, n :: hds s).
Proof. intros. eapply on_rt; eassumption. Qed.
Print Assumptions C06_roundtrip_on_handler_partial.

(* where the formatter inserts no blank line (nlAfter empty: an already formatted program,
   C07_blank_line_logic_stable) the tree is the squeezed tree of C06_program.v *)
Theorem C06_no_blank_line_inserted_same_tree :
  forall (l : list fstmt) (i : nat) (e : bool), prog_trees [] i e l = body_trees e l.
Proof. exact prog_trees_plain. Qed.
Print Assumptions C06_no_blank_line_inserted_same_tree.

(* parseProgram's loop over a program of statements, func declarations and event handlers - every
   statement form, comment-free - for ANY function table F
   (the table is fixed before the loop starts) and any set nl of indices after which the formatter
   writes a blank line *)
Theorem C06_roundtrip_program_loop_funcs_partial :
  forall (B : benv), (forall s t n, b_tyerr B s t n = false) ->
  forall (fx : fixes) (F : list (str * finfo)) (nl : list nat) (i : nat) (bd hs : list str) (G : ctx) (e : bool)
         (body : list fstmt) (Gout : ctx),
  fpoks B F nl i bd hs G e body Gout ->
  forall (fuel : nat) (acc : list stmt) (s : pst),
  psz nl i e body < fuel -> ST F s (ptoks fx nl i e body) G top_fr -> kb s = (bd, hs) ->
  exists s', program_loop B fuel acc false s = Ok (rev acc ++ prog_trees nl i e body) s' /\ ST F s' [] Gout top_fr.
Proof. exact program_loop_funcs. Qed.
Print Assumptions C06_roundtrip_program_loop_funcs_partial.

(* non-vacuity: the model runs on a program with a typed func with parameters, a variadic procedure with a
   bare return, an event handler with parameters and one without.
       x := 1
       func add:num a:num b:num
           return a + b
       end
       func say words:string...
           if x == 1
               return
           end
           print words
       end
       on down x:num y:num
           print x y
       end
       on up
           say "a"
       end
       print (add x 2)                                                                       *)
Definition C06_funcs_B : benv :=
  {| b_funcs := [(s_ "print"%string, false)]; b_arity := []; b_globals := [];
     b_events := [(s_ "down"%string, [TyNum; TyNum]); (s_ "up"%string, [])]; b_tyerr := fun _ _ _ => false |}.
Definition C06_funcs_prog : list fstmt :=
  let v := fun n : string => FVar (s_ n) in
  let num := fun n : string => FNum 0%Z (s_ n) in
  let tnum := FTy TNnum None in
  [FmtAst.SInferredDecl (s_ "x"%string) (num "1"%string) [];
   FmtAst.SFunc (s_ "add"%string) (Some tnum) [(s_ "a"%string, tnum); (s_ "b"%string, tnum)] None []
     [FmtAst.SReturn (Some (FBin OpPlus false (v "a"%string) (v "b"%string))) []] [];
   FmtAst.SFunc (s_ "say"%string) None [] (Some (s_ "words"%string, FTy TNstring None)) []
     [FmtAst.SIf (CBlock (FBin OpEq false (v "x"%string) (num "1"%string)) [] [FmtAst.SReturn None []]) [] None [];
      FmtAst.SCall (s_ "print"%string) [v "words"%string] []] [];
   FmtAst.SOn (s_ "down"%string) [(s_ "x"%string, tnum); (s_ "y"%string, tnum)] []
     [FmtAst.SCall (s_ "print"%string) [v "x"%string; v "y"%string] []] [];
   FmtAst.SOn (s_ "up"%string) [] [] [FmtAst.SCall (s_ "say"%string) [FStr [] (s_ """a"""%string)] []] [];
   FmtAst.SCall (s_ "print"%string) [FGroup (FCall (s_ "add"%string) [v "x"%string; num "2"%string])] []].

Example C06_funcs_program_example :
  let p := C06_funcs_prog in
  let nl := nl_after (fix_nl current_fixes) (map stmt_kind p) in
  let toks := toks_of_pieces (fmt_prog current_fixes p) in
  nl = [0; 1; 2; 3; 4] /\
  parse C06_funcs_B (combine toks (map (fun _ => (0, 0)) toks)) (0, 0) = Accept (prog_trees nl 0 false p).
Proof. vm_compute. split; reflexivity. Qed.
