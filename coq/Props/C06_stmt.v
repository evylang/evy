(* C06 — "the result is accepted again and has the same syntax tree", statement level, for the
   one-line statements.  Property theorems only; proofs are [exact <lemma of FormatParseStmtProofs>].

   Models composed: Format.fmt_stmt (format.go) -> FormatParse.toks_of_pieces -> Parser.v
   (parser.go: parseInferredDeclStatement, parseFunCallStatement, parseReturnStatement,
   parseBreakStatement, with assertEOL / advancePastNL, the scope bookkeeping and the collected
   read marks), which calls Pratt.v for the expressions.

   _partial, exactly:
   - comment-free statements: Parser.v's statement trees carry no comments (as Pratt.v's trees
     carry no multiline items), so a statement with a trailing comment is outside;
   - the statement kinds below; the block statements (Props/C06_block.v)
     (if / while / for / func / on) are not done;
   - the value / arguments satisfy [top_ok] / [item_ok] (C06_roundtrip.v: the layered fragment,
     array and map literals, parenthesised and niladic calls as whole expressions, and a call
     with arguments as the whole value);
   - the state before the statement: [at_toks s toks e] — the cursor is at the statement's first
     token, the whitespace-sensitivity stack is [false], the errors so far are e; the typing
     oracle of the models is silent; the scoping facts the first parse established are
     hypotheses ([decl_ok], [in_loop], [has_ret], p.funcs knows the callee with the right arity).
   Conclusion each time: the statement parser returns exactly the statement's tree
   ([fexpr_tree] of its expressions), reports no new error, and the cursor is at the first
   token of the next line ([skip1]: advancePastNL also skips that line's indentation). *)
From Coq Require Import List String NArith ZArith Bool Arith.
From EvyV Require Import Base FmtAst Format Pratt PrattProofs Parser FormatParse FormatParseProofs FormatParseListProofs FormatParseStmtProofs FormatParseTargetProofs.
From EvyV.Gen Require Import Prec.
Import ListNotations.
Local Open Scope nat_scope.

Theorem C06_roundtrip_inferred_decl_partial :
  forall (B : benv), (forall s t n, b_tyerr B s t n = false) ->
  forall (fixed : fixes) (lvl : nat) (s : pst) (x : str) (v : fexpr) (r : list token) (e : list (perr * nat)),
  ident_text x = true -> decl_ok B x s -> top_ok (env_of B s) v ->
  at_toks s (toks_of_pieces (fmt_stmt fixed lvl (FmtAst.SInferredDecl x v [])) ++ mk T_NL :: r) e ->
  is_ws (look0 (skip1 r)) = false ->
  exists s', parse_inferred_decl_stmt B s = Ok (Some (Parser.SInferredDecl x (fexpr_tree v))) s' /\ at_toks s' (skip1 r) e /\ peek_ok s' (skip1 r).
Proof. intros. eapply inferred_decl_roundtrip; eassumption. Qed.
Print Assumptions C06_roundtrip_inferred_decl_partial.

Theorem C06_roundtrip_call_stmt_partial :
  forall (B : benv), (forall s t n, b_tyerr B s t n = false) ->
  forall (fixed : fixes) (lvl : nat) (s : pst) (n : str) (args : list fexpr) (fi : finfo) (r : list token) (e : list (perr * nat)),
  ident_text n = true -> lookup_fn n (fns s) = Some fi ->
  arity_wrong (env_of B s) n (List.length args) = false ->
  Forall (item_ok (env_of B s) true) args ->
  at_toks s (toks_of_pieces (fmt_stmt fixed lvl (FmtAst.SCall n args [])) ++ mk T_NL :: r) e ->
  is_ws (look0 (skip1 r)) = false ->
  exists s', parse_call_stmt B s = Ok (Some (Parser.SCallStmt (TCall n (map fexpr_tree args)))) s' /\ at_toks s' (skip1 r) e /\ peek_ok s' (skip1 r).
Proof. intros. eapply call_stmt_roundtrip; eassumption. Qed.
Print Assumptions C06_roundtrip_call_stmt_partial.

Theorem C06_roundtrip_return_value_partial :
  forall (B : benv), (forall s t n, b_tyerr B s t n = false) ->
  forall (fixed : fixes) (lvl : nat) (s : pst) (v : fexpr) (r : list token) (e : list (perr * nat)),
  has_ret s = true -> top_ok (env_of B s) v ->
  at_toks s (toks_of_pieces (fmt_stmt fixed lvl (FmtAst.SReturn (Some v) [])) ++ mk T_NL :: r) e ->
  is_ws (look0 (skip1 r)) = false ->
  exists s', parse_return_stmt B s = Ok (Some (Parser.SReturn (Some (fexpr_tree v)))) s' /\ at_toks s' (skip1 r) e /\ peek_ok s' (skip1 r).
Proof. intros. eapply return_value_roundtrip; eassumption. Qed.
Print Assumptions C06_roundtrip_return_value_partial.

Theorem C06_roundtrip_bare_return_partial :
  forall (B : benv) (fixed : fixes) (lvl : nat) (s : pst) (r : list token) (e : list (perr * nat)),
  has_ret s = true -> ret_value s = false ->
  at_toks s (toks_of_pieces (fmt_stmt fixed lvl (FmtAst.SReturn None [])) ++ mk T_NL :: r) e ->
  is_ws (look0 (skip1 r)) = false ->
  exists s', parse_return_stmt B s = Ok (Some (Parser.SReturn None)) s' /\ at_toks s' (skip1 r) e /\ peek_ok s' (skip1 r).
Proof. intros. eapply return_bare_roundtrip; eassumption. Qed.
Print Assumptions C06_roundtrip_bare_return_partial.

Theorem C06_roundtrip_break_partial :
  forall (fixed : fixes) (lvl : nat) (s : pst) (r : list token) (e : list (perr * nat)),
  in_loop s = true ->
  at_toks s (toks_of_pieces (fmt_stmt fixed lvl (FmtAst.SBreak [])) ++ mk T_NL :: r) e ->
  is_ws (look0 (skip1 r)) = false ->
  exists s', parse_break_stmt s = Ok (Some Parser.SBreak) s' /\ at_toks s' (skip1 r) e /\ peek_ok s' (skip1 r).
Proof. intros. eapply break_roundtrip; eassumption. Qed.
Print Assumptions C06_roundtrip_break_partial.

Theorem C06_roundtrip_typed_decl_partial :
  forall (B : benv) (fixed : fixes) (lvl : nat) (s : pst) (x : str) (t : fty) (ty : Pratt.ty) (r : list token) (e : list (perr * nat)),
  ident_text x = true -> fty_ty t = Some ty -> decl_ok B x s ->
  at_toks s (toks_of_pieces (fmt_stmt fixed lvl (FmtAst.STypedDecl x t [])) ++ mk T_NL :: r) e ->
  is_ws (look0 (skip1 r)) = false ->
  exists s', parse_typed_decl_stmt B s = Ok (Some (Parser.STypedDecl x (Some ty))) s' /\ at_toks s' (skip1 r) e /\ peek_ok s' (skip1 r).
Proof. intros. eapply typed_decl_roundtrip; eassumption. Qed.
Print Assumptions C06_roundtrip_typed_decl_partial.

(* x = v with a variable as target (a[i] = v and m.k = v are not covered) *)
Theorem C06_roundtrip_assign_var_partial :
  forall (B : benv), (forall s t n, b_tyerr B s t n = false) ->
  forall (fixed : fixes) (lvl : nat) (s : pst) (x : str) (v : fexpr) (r : list token) (e : list (perr * nat)),
  ident_text x = true -> Parser.is_func x s = false -> scope_get x s = true -> top_ok (env_of B s) v ->
  at_toks s (toks_of_pieces (fmt_stmt fixed lvl (FmtAst.SAssign (FVar x) v [])) ++ mk T_NL :: r) e ->
  is_ws (look0 (skip1 r)) = false ->
  exists s', parse_assign_stmt B s = Ok (Some (Parser.SAssign (TVar x) (fexpr_tree v))) s' /\ at_toks s' (skip1 r) e /\ peek_ok s' (skip1 r).
Proof. intros. eapply assign_var_roundtrip; eassumption. Qed.
Print Assumptions C06_roundtrip_assign_var_partial.

(* t = v  with t a variable followed by any chain of  [i]  and  .k  (parseAssignmentTarget's loop) *)
Theorem C06_roundtrip_assign_target_partial :
  forall (B : benv), (forall s t n, b_tyerr B s t n = false) ->
  forall (fixed : fixes) (lvl : nat) (s : pst) (t : fexpr) (x : str) (steps : list tstep) (v : fexpr) (r : list token) (e : list (perr * nat)),
  tgt_split t = Some (x, steps) -> ident_text x = true -> Parser.is_func x s = false -> scope_get x s = true ->
  Forall (step_ok (env_of B s)) steps -> top_ok (env_of B s) v ->
  at_toks s (toks_of_pieces (fmt_stmt fixed lvl (FmtAst.SAssign t v [])) ++ mk T_NL :: r) e ->
  is_ws (look0 (skip1 r)) = false ->
  exists s', parse_assign_stmt B s = Ok (Some (Parser.SAssign (fexpr_tree t) (fexpr_tree v))) s' /\ at_toks s' (skip1 r) e /\ peek_ok s' (skip1 r).
Proof. intros. eapply assign_target_roundtrip; eassumption. Qed.
Print Assumptions C06_roundtrip_assign_target_partial.

(* ---------- non-vacuity: the hypotheses are satisfiable and the models run ---------- *)
(*   x := a[i + 1] * 2     and     print x [1 2] (len a)     in a scope that declares a and i *)
Definition C06_stmt_B : benv :=
  {| b_funcs := []; b_arity := []; b_globals := []; b_events := []; b_tyerr := fun _ _ _ => false |}.
Definition C06_stmt_state (toks : list token) : pst :=
  let v := fun n : string => {| v_name := s_ n; v_used := false; v_pos := 0 |} in
  {| cs := init_state toks;
     scs := [{| sc_vars := [v "a"%string; v "i"%string]; sc_ret := false; sc_retval := false; sc_loop := false |}];
     fns := [(s_ "print"%string, {| fi_nil := false; fi_ret := false; fi_arity := None; fi_params := [] |});
             (s_ "len"%string, {| fi_nil := false; fi_ret := true; fi_arity := Some 1; fi_params := [] |})];
     bodies := []; hds := [] |}.

Example C06_stmt_example :
  let v := fun n : string => FVar (s_ n) in
  let decl := FmtAst.SInferredDecl (s_ "x"%string)
                (FBin OpAsterisk false (FIdx (v "a"%string) (FBin OpPlus false (v "i"%string) (FNum 0 (s_ "1"%string)))) (FNum 0 (s_ "2"%string))) [] in
  let call := FmtAst.SCall (s_ "print"%string)
                [v "a"%string; FArr [k_el; k_el] [FNum 0 (s_ "1"%string); FNum 0 (s_ "2"%string)];
                 FGroup (FCall (s_ "len"%string) [v "a"%string])] [] in
  let t1 := toks_of_pieces (fmt_stmt current_fixes 0 decl) ++ [mk T_NL] in
  let t2 := toks_of_pieces (fmt_stmt current_fixes 0 call) ++ [mk T_NL] in
  (exists s', parse_inferred_decl_stmt C06_stmt_B (C06_stmt_state t1)
     = Ok (Some (Parser.SInferredDecl (s_ "x"%string)
                   (TBin T_ASTERISK (TIndex (TVar (s_ "a"%string)) (TBin T_PLUS (TVar (s_ "i"%string)) (TNum (s_ "1"%string)))) (TNum (s_ "2"%string))))) s'
     /\ rest (cs s') = [] /\ errs (cs s') = []) /\
  (exists s', parse_call_stmt C06_stmt_B (C06_stmt_state t2)
     = Ok (Some (Parser.SCallStmt (TCall (s_ "print"%string)
                   [TVar (s_ "a"%string); TArr [TNum (s_ "1"%string); TNum (s_ "2"%string)];
                    TGroup (TCall (s_ "len"%string) [TVar (s_ "a"%string)])]))) s'
     /\ rest (cs s') = [] /\ errs (cs s') = []).
Proof. vm_compute. split; eexists; repeat split; reflexivity. Qed.
