(* C07 — Formatting is canonical and idempotent.
   Property theorems only, each an instance of a lemma of the Format*Proofs files.

   Model: Format.v (format.go + multiline.go).  [current_fixes] = [all_fixes] is the
   code as it is now (/repo 6dbe4ed: nlAfter marks the statement directly before
   the comment run; c2656fe: the closing bracket of a multi-line literal is indented
   also after a trailing comment item); [no_fixes] / [nl_after false] / [skel_step false]
   are the code before those commits, kept for the regression lemmas.

   Proved for ALL formatter trees + side tables satisfying wf_prog:
     - shape: every line is 4k spaces followed by text without white space at
       either end, or is empty; never two consecutive empty lines; no line of
       blanks ([shape_lines], a scanner over the code points defined in
       Format.v next to the model; the examples below show what it rejects);
     - the text ends with a newline; it ends with EXACTLY one when the last
       top-level statement is not a blank line — and with two when it is
       (refuted: the code keeps one trailing blank line, as format_test.go expects).
   Proved for ALL statement-kind skeletons (blank / comment / statement / func):
     - a statement that nlAfter marks is always followed by a non-blank one
       (so the inserted blank line never doubles an existing one), both variants;
     - one formatting pass of the model in force is idempotent on the skeleton and
       leaves nothing marked;
     - nlAfter as it was before 6dbe4ed is NOT idempotent (regression lemma; harness/c07.go
       replays the witness on the implementation).
   `evy fmt -c`: the model of main.go's check accepts t iff t = format (parse t);
   it accepts the formatter's own output iff formatting that output again
   changes nothing.

   Not proved here (needs the parser model, route A): the text-level statement
   format (parse (format (parse src))) = format (parse src) and insensitivity
   to white-space variants; both are decided on the implementation by
   harness/c07.go.  The tie between [skel_step] and the real re-parse is checked
   there too (skeleton-step-differs). *)
From Coq Require Import ZArith NArith List Bool String.
From EvyV Require Import Base FmtAst Format FormatProofs FormatNlProofs FormatShapeProofs FormatSpecProofs FormatDepthProofs FmtCheckProofs.
From EvyV Require FormatParseFuncProofs.
Import ListNotations.
Open Scope N_scope.

Theorem C07_format_shape : forall (fixed : fixes) (p : fprog),
  wf_prog p = true -> shape_lines (format fixed p) = true.
Proof. exact format_shape. Qed.
Print Assumptions C07_format_shape.

(* the same, read line by line: every newline-terminated line of the output is empty or
   4k spaces followed by a non-empty text with no white space at either end, and no two
   consecutive lines are empty ([lines_of], [line_ok], [nde] are defined in FormatSpecProofs.v) *)
Theorem C07_format_lines : forall (fixed : fixes) (p : fprog),
  wf_prog p = true ->
  Forall line_ok (lines_of (format fixed p)) /\ nde false (lines_of (format fixed p)).
Proof. exact format_lines_ok. Qed.
Print Assumptions C07_format_lines.

(* the scanner used above means what it should, for every text *)
Theorem C07_shape_lines_meaning : forall s : str,
  shape_lines s = true -> Forall line_ok (lines_of s) /\ nde false (lines_of s).
Proof. exact shape_lines_spec. Qed.
Print Assumptions C07_shape_lines_meaning.

Theorem C07_ends_one_nl_meaning : forall s : str,
  ends_one_nl s = true -> s = [10] \/ exists t c, s = t ++ [c; 10] /\ c <> 10.
Proof. exact ends_one_nl_spec. Qed.
Print Assumptions C07_ends_one_nl_meaning.

Theorem C07_format_single_final_newline : forall (fixed : fixes) (p : fprog),
  wf_prog p = true -> p <> [] -> is_blank (last p (SEmpty [])) = false ->
  ends_one_nl (format fixed p) = true.
Proof. exact format_single_final_newline. Qed.
Print Assumptions C07_format_single_final_newline.

(* the code keeps a trailing blank line: `print 1` followed by blank lines *)
Theorem C07_single_final_newline_refuted : exists p : fprog,
  wf_prog p = true /\ ends_one_nl (format no_fixes p) = false /\ ends_one_nl (format all_fixes p) = false.
Proof.
  exists [SCall (s_ "print") [FNum 0 (s_ "1")] []; SEmpty []; SEmpty []].
  vm_compute. repeat split; reflexivity.
Qed.
Print Assumptions C07_single_final_newline_refuted.

(* nlAfter never asks for a blank line in front of a blank line (all skeletons, both variants) *)
Theorem C07_marked_statement_is_followed_by_nonblank : forall (fixed : bool) (ks : list skind) (i : nat),
  mem_nat i (nl_after fixed ks) = true ->
  exists k, nth_error ks (S i) = Some k /\ k <> KEmpty.
Proof. exact nl_after_next_nonblank. Qed.
Print Assumptions C07_marked_statement_is_followed_by_nonblank.

(* idempotence of the blank-line logic (nlAfter after blank-run squeezing) of the model in
   force ([current_fixes]: nlAfter as repaired by /repo 6dbe4ed), for every skeleton *)
Theorem C07_blank_line_logic_idempotent : forall ks : list skind,
  skel_step (fix_nl current_fixes) (skel_step (fix_nl current_fixes) ks) = skel_step (fix_nl current_fixes) ks.
Proof. exact skel_step_fixed_idempotent. Qed.
Print Assumptions C07_blank_line_logic_idempotent.

Theorem C07_blank_line_logic_stable : forall ks : list skind,
  nl_after (fix_nl current_fixes) (skel_step (fix_nl current_fixes) ks) = [].
Proof. exact skel_step_fixed_stable. Qed.
Print Assumptions C07_blank_line_logic_stable.

(* regression lemma about nlAfter as it was before 6dbe4ed (it marked the FIRST statement of
   the run): not idempotent.  a := 1 / b := 2 / // c / func f *)
Theorem C07_format_idempotent_before_fix_refuted : exists ks : list skind,
  skel_step false (skel_step false ks) <> skel_step false ks.
Proof. exists [KStmt; KStmt; KComment; KFunc]. vm_compute. discriminate. Qed.
Print Assumptions C07_format_idempotent_before_fix_refuted.

(* exact indentation: a non-blank statement at block depth d ([at_depth], defined in
   FormatDepthProofs.v from the tree: 0 at top level, +1 per enclosing if/else/while/for/func/on
   body) is written at the beginning of a line behind exactly 4*d spaces, and its own text
   starts with a non-blank character *)
Theorem C07_statement_at_exact_depth : forall (fixed : fixes) (p : fprog) (d : nat) (s : fstmt),
  at_depth p d s -> is_blank s = false -> wf_stmt s = true ->
  exists pre post,
    format fixed p = pre ++ spaces (4 * d) ++ render (fmt_stmt fixed d s) ++ [10] ++ post
    /\ (pre = [] \/ exists q, pre = q ++ [10])
    /\ exists c r, render (fmt_stmt fixed d s) = c :: r /\ is_space c = false.
Proof. exact stmt_at_exact_depth. Qed.
Print Assumptions C07_statement_at_exact_depth.

(* the output skeleton of one pass never has two consecutive blank lines *)
Theorem C07_output_skeleton_has_no_adjacent_blank_lines : forall ks : list skind,
  no_adj_empty (skel_step (fix_nl current_fixes) ks) = true.
Proof. exact skel_step_no_adj_empty. Qed.
Print Assumptions C07_output_skeleton_has_no_adjacent_blank_lines.

(* idempotence of the formatter model at top level, as far as it can be said without a parser
   model: ANY tree whose top-level statement kinds are the skeleton of a formatter output is
   written statement by statement — the second pass inserts no blank line and squeezes none
   (the harness checks that the kinds of the real re-parse are that skeleton) *)
Theorem C07_second_pass_is_plain : forall (p : fprog) (ks : list skind),
  map stmt_kind p = skel_step (fix_nl current_fixes) ks ->
  fmt_prog current_fixes p = flat_map (plain_line current_fixes) p.
Proof. intros p ks H. exact (second_pass_is_plain current_fixes p ks eq_refl H). Qed.
Print Assumptions C07_second_pass_is_plain.

(* Tie to the parser model (round trip of C06_funcs.v): the tree [prog_trees nl 0 false p] that
   Parser.program_loop returns for the formatter's tokens of a comment-free p has, as its top-level statement
   kinds, exactly one step of the blank-line logic on p's kinds.  With C07_blank_line_logic_idempotent /
   C07_blank_line_logic_stable: on the re-parsed tree a second pass marks nothing and squeezes nothing.
   _partial: this is idempotence of the blank-line structure on the fragment of
   C06_roundtrip_program_loop_funcs_partial, not of the text - Parser.v's trees do not carry the types and
   literal texts the formatter prints, so format (parse (format p)) is not a function of them. *)
Theorem C07_format_idempotent_fragment_partial : forall (p : fprog), p <> [] ->
  Forall (fun x => stmt_kind x <> KComment) p ->
  let nl := nl_after (fix_nl current_fixes) (map stmt_kind p) in
  let ks' := map FormatParseFuncProofs.pkind (FormatParseFuncProofs.prog_trees nl 0%nat false p) in
  ks' = skel_step (fix_nl current_fixes) (map stmt_kind p) /\
  nl_after (fix_nl current_fixes) ks' = [] /\
  skel_step (fix_nl current_fixes) ks' = ks'.
Proof. exact FormatParseFuncProofs.reparse_skeleton_step. Qed.
Print Assumptions C07_format_idempotent_fragment_partial.

(* `evy fmt -c` *)
Theorem C07_check_accepts_iff_formatted : forall (parse : str -> option fprog) (fixed : fixes) (t : str),
  fmt_check parse fixed t = true <-> exists p, parse t = Some p /\ t = format fixed p.
Proof. exact fmt_check_iff. Qed.
Print Assumptions C07_check_accepts_iff_formatted.

(* what --check accepts has the shape of the formatter's output, on the bytes of the text: so no white space of any
   kind (blank, tab, the CR of a CRLF line ending, FF, VT, NBSP ...) directly before a newline is ever accepted
   (the parser is a parameter that yields well-formed trees; harness/c07.go runs byte-level variants of texts
   through the real binary against this) *)
Theorem C07_check_accepted_text_is_shaped : forall (parse : str -> option fprog) (fixed : fixes) (t : str),
  (forall p, parse t = Some p -> wf_prog p = true) ->
  fmt_check parse fixed t = true -> shape_lines t = true.
Proof. exact check_accepted_is_shaped. Qed.
Print Assumptions C07_check_accepted_text_is_shaped.

Theorem C07_check_rejects_space_before_newline : forall (parse : str -> option fprog) (fixed : fixes) (a b : str) (w : N),
  (forall p, parse (a ++ w :: 10 :: b) = Some p -> wf_prog p = true) ->
  is_space w = true -> w <> 10 ->
  fmt_check parse fixed (a ++ w :: 10 :: b) = false.
Proof. exact check_rejects_space_before_newline. Qed.
Print Assumptions C07_check_rejects_space_before_newline.

Theorem C07_check_rejects_crlf : forall (parse : str -> option fprog) (fixed : fixes) (a b : str),
  (forall p, parse (a ++ 13 :: 10 :: b) = Some p -> wf_prog p = true) ->
  fmt_check parse fixed (a ++ 13 :: 10 :: b) = false.
Proof. exact check_rejects_crlf. Qed.
Print Assumptions C07_check_rejects_crlf.

Theorem C07_check_accepts_own_output : forall (parse : str -> option fprog) (fixed : fixes) (p p' : fprog),
  parse (format fixed p) = Some p' ->
  (fmt_check parse fixed (format fixed p) = true <-> format fixed p' = format fixed p).
Proof. exact check_accepts_own_output. Qed.
Print Assumptions C07_check_accepts_own_output.

Definition C07_asg (n v : string) : fstmt := SInferredDecl (s_ n) (FNum 0 (s_ v)) [].
Definition C07_func : fstmt := SFunc (s_ "f") None [] None [] [SCall (s_ "print") [FVar (s_ "a"); FVar (s_ "b")] []] [].

(* the tree of `a := 1 / b := 2 / // c / func f ...` and the tree of the re-parse of its formatted text *)
Definition C07_witness : fprog := [C07_asg "a" "1"; C07_asg "b" "2"; SEmpty (s_ "// c"); C07_func].
Definition C07_witness_reparsed : fprog :=
  [C07_asg "a" "1"; SEmpty []; C07_asg "b" "2"; SEmpty (s_ "// c"); C07_func].
(* the tree of the re-parse of the REPAIRED formatter's output *)
Definition C07_witness_reparsed_fixed : fprog :=
  [C07_asg "a" "1"; C07_asg "b" "2"; SEmpty []; SEmpty (s_ "// c"); C07_func].

Example C07_witness_text :
  wf_prog C07_witness = true /\
  format no_fixes C07_witness =
    s_ "a := 1" ++ k_nl ++ k_nl ++ s_ "b := 2" ++ k_nl ++ s_ "// c" ++ k_nl ++ s_ "func f" ++ k_nl ++ s_ "    print a b" ++ k_nl ++ s_ "end" ++ k_nl /\
  format no_fixes C07_witness_reparsed <> format no_fixes C07_witness /\
  format all_fixes C07_witness_reparsed_fixed = format all_fixes C07_witness /\
  format all_fixes C07_witness =
    s_ "a := 1" ++ k_nl ++ s_ "b := 2" ++ k_nl ++ k_nl ++ s_ "// c" ++ k_nl ++ s_ "func f" ++ k_nl ++ s_ "    print a b" ++ k_nl ++ s_ "end" ++ k_nl.
Proof. vm_compute. repeat split; try reflexivity; discriminate. Qed.

(* the shape predicate is not trivially true *)
Example C07_shape_rejects :
  shape_lines (s_ "x := 1  " ++ k_nl) = false /\          (* trailing blanks *)
  shape_lines (s_ "x" ++ k_nl ++ k_nl ++ k_nl) = false /\  (* two empty lines *)
  shape_lines (s_ "  x" ++ k_nl) = false /\                (* indentation not a multiple of 4 *)
  shape_lines (s_ "    " ++ k_nl) = false /\               (* a line of blanks *)
  shape_lines (s_ "if true" ++ k_nl ++ s_ "    x := [1 // c" ++ k_nl ++ s_ "    ]" ++ k_nl ++ s_ "end" ++ k_nl) = true.
Proof. vm_compute. repeat split; reflexivity. Qed.

(* the closing bracket after a trailing comment item: column 0 inside a block before c2656fe, indented since *)
Example C07_close_bracket_after_comment :
  let p := [SIf (CBlock (FBool true) [] [SInferredDecl (s_ "x") (FArr [k_el; s_ "// c" ++ k_nl] [FNum 0 (s_ "1")]) []]) [] None []] in
  wf_prog p = true /\
  format no_fixes p = s_ "if true" ++ k_nl ++ s_ "    x := [1 // c" ++ k_nl ++ s_ "]" ++ k_nl ++ s_ "end" ++ k_nl /\
  format all_fixes p = s_ "if true" ++ k_nl ++ s_ "    x := [1 // c" ++ k_nl ++ s_ "    ]" ++ k_nl ++ s_ "end" ++ k_nl.
Proof. vm_compute. repeat split; reflexivity. Qed.

(* a statement three blocks deep *)
Example C07_depth_example :
  let inner := SCall (s_ "print") [FNum 0 (s_ "1")] [] in
  let p := [SFunc (s_ "f") None [] None []
              [SWhile (FBool true) [] [SEmpty []; SIf (CBlock (FBool true) [] [inner]) [] None []] []] []] in
  at_depth p 3 inner.
Proof.
  right. eexists. split; [left; reflexivity|].
  eapply nested_step; [left; reflexivity | left; reflexivity|].
  eapply nested_step; [left; reflexivity | right; left; reflexivity|].
  eapply nested_direct; [left; reflexivity | left; reflexivity].
Qed.

