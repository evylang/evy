(* C11 — Index and slice laws for arrays and strings.
   Property theorems only; every proof is [exact <lemma of IndexProofs>].

   Vocabulary.  [float_to_Z f = Some i] (Base.v) says: the binary64 number f
   is finite and denotes the integer i (decoded from Prim2SF; -0 denotes 0).
   It is [None] for NaN, ±Inf and every non-integer.  This is a total case
   split over all floats.  [zlen s] is the length of s as a Z; the hypothesis
   [zlen s < 2^63] is Go's invariant len(s) <= maxInt.
   The model (Index.v) computes  i := int(f); f != float64(i)  with Go's
   amd64 conversion written out; [rt f] is the statement that this round trip
   accepts exactly the integers that fit in int64 ([C11_roundtrip_exact], proved for
   every float below). *)
From Coq Require Import ZArith List.
From Coq Require Floats.
Notation float := PrimFloat.float.
From EvyV Require Import Base Index IndexProofs.
Import ListNotations.
Open Scope Z_scope.

(* ---- the conversion link, for EVERY float ----
   Go's test  index.V == float64(int(index.V))  (amd64 conversion written out
   in Index.go_int / go_float64) succeeds exactly when f denotes an integer
   that fits in int64, and then int(f) is that integer. *)
Theorem C11_roundtrip_exact : forall f : float,
  go_index_int f = float_int f.
Proof. exact rt_all. Qed.
Print Assumptions C11_roundtrip_exact.

(* ---- s[i] ---- *)
(* success iff i is an integer with -n <= i < n; the result is element i mod n,
   i.e. negative indices count from the end *)
Theorem C11_index_spec : forall (A : Type) (s : list A) (f : float) (x : A),
  zlen s < 2 ^ 63 ->
  (arr_index s f = Ok x <->
   exists i, float_to_Z f = Some i /\ - zlen s <= i < zlen s /\
             nth_error s (Z.to_nat (i mod zlen s)) = Some x).
Proof. exact (fun A s f x H => index_spec s f H (rt_all f) x). Qed.
Print Assumptions C11_index_spec.

(* every other read is an evy panic of the documented kind: IndexValue iff f is
   not an integer Go's int can hold, Bounds iff it is such an integer outside
   [-n, n) — and never the Slice kind or a host crash *)
Theorem C11_index_error_kind : forall (A : Type) (s : list A) (f : float) (e : perr),
  arr_index s f = Panic e <->
  (e = EIndexValue /\ float_int f = None) \/
  (e = EBounds /\ exists i, float_int f = Some i /\ ~ (- zlen s <= i < zlen s)).
Proof. exact @index_panic. Qed.
Print Assumptions C11_index_error_kind.

Theorem C11_float_int_none : forall f : float,
  float_int f = None <->
  float_to_Z f = None \/ exists i, float_to_Z f = Some i /\ ~ (- 2 ^ 63 <= i < 2 ^ 63).
Proof. exact float_int_none. Qed.
Print Assumptions C11_float_int_none.

(* documented behaviour, not hidden: integers beyond the int64 range are
   reported as IndexValue ("not an integer"), not as Bounds *)
Theorem C11_index_kind_huge : forall (A : Type) (s : list A) (f : float) (i : Z),
  zlen s < 2 ^ 63 -> float_to_Z f = Some i -> ~ (- 2 ^ 63 <= i < 2 ^ 63) ->
  arr_index s f = Panic EIndexValue.
Proof. exact @index_kind_huge. Qed.
Print Assumptions C11_index_kind_huge.

Theorem C11_index_no_hostcrash : forall (A : Type) (s : list A) (f : float),
  arr_index s f <> HostCrash.
Proof. exact @index_no_crash. Qed.
Print Assumptions C11_index_no_hostcrash.

(* ---- a[i] = v ---- *)
(* success iff the same condition; then exactly position i mod n changes *)
Theorem C11_set_index_spec : forall (A : Type) (s : list A) (f : float) (v : A) (s' : list A),
  zlen s < 2 ^ 63 ->
  (arr_set_index s f v = Ok s' <->
   exists i, float_to_Z f = Some i /\ - zlen s <= i < zlen s /\
             List.length s' = List.length s /\
             nth_error s' (Z.to_nat (i mod zlen s)) = Some v /\
             (forall k, k <> Z.to_nat (i mod zlen s) -> nth_error s' k = nth_error s k)).
Proof. exact (fun A s f v s' H => set_index_spec s f H (rt_all f) v s'). Qed.
Print Assumptions C11_set_index_spec.

(* same domain and same error kind as the read; a failing store returns no
   array (SetIndex returns before writing), so nothing has been written *)
Theorem C11_set_index_same_domain : forall (A : Type) (s : list A) (f : float) (v : A),
  ((exists s', arr_set_index s f v = Ok s') <-> (exists x, arr_index s f = Ok x)) /\
  (forall e, arr_set_index s f v = Panic e <-> arr_index s f = Panic e) /\
  arr_set_index s f v <> HostCrash.
Proof.
  exact (fun A s f v => conj (set_index_ok_iff s f v) (conj (set_index_panic s f v) (set_index_no_crash s f v))).
Qed.
Print Assumptions C11_set_index_same_domain.

(* ---- s[a:b] ---- *)
(* success iff, after adding n to negative bounds (a missing bound being 0 / n),
   0 <= a <= b <= n; the result is copyOrRef of exactly the elements a .. b-1 *)
Theorem C11_slice_spec : forall (A : Type) (copy : A -> A) (s : list A) (st en : option float) (r : list A),
  zlen s < 2 ^ 63 ->
  (arr_slice copy s st en = Ok r <->
   exists a b, bound_ok (zlen s) st 0 a /\ bound_ok (zlen s) en (zlen s) b /\ a <= b /\
               r = map copy (sub s a b)).
Proof. exact (fun A copy s st en r H => slice_spec copy s st en H (ort_all st) (ort_all en) r). Qed.
Print Assumptions C11_slice_spec.

Theorem C11_bound_ok_range : forall n o dflt v, 0 <= dflt <= n -> bound_ok n o dflt v -> 0 <= v <= n.
Proof. exact bound_ok_range. Qed.
Print Assumptions C11_bound_ok_range.

(* [sub s a b] has b - a elements and element k is element a + k of s *)
Theorem C11_slice_elements : forall (A : Type) (s : list A) (a b : Z),
  0 <= a <= b -> b <= zlen s ->
  List.length (sub s a b) = Z.to_nat (b - a) /\
  forall k, (k < Z.to_nat (b - a))%nat -> nth_error (sub s a b) k = nth_error s (Z.to_nat a + k).
Proof. exact @slice_elements. Qed.
Print Assumptions C11_slice_elements.

(* error kinds of a slice, in evaluation order: the start bound's own error,
   else the end bound's, else Slice iff the normalised bounds cross *)
Theorem C11_slice_error_kind : forall (A : Type) (copy : A -> A) (s : list A) (st en : option float) (e : perr),
  zlen s < 2 ^ 63 ->
  (arr_slice copy s st en = Panic e <->
   bound_ref (zlen s) st 0 = Panic e \/
   (exists a, bound_ref (zlen s) st 0 = Ok a /\ bound_ref (zlen s) en (zlen s) = Panic e) \/
   (e = ESlice /\ exists a b, bound_ok (zlen s) st 0 a /\ bound_ok (zlen s) en (zlen s) b /\ b < a)).
Proof. exact (fun A copy s st en e H => slice_panic copy s st en H e). Qed.
Print Assumptions C11_slice_error_kind.

(* a single bound's error: IndexValue iff not an int64 integer, Bounds iff outside [-n, n] *)
Theorem C11_bound_error_kind : forall n limit f e,
  idx_ref n limit f = Panic e <->
  (e = EIndexValue /\ float_int f = None) \/
  (e = EBounds /\ exists i, float_int f = Some i /\ ~ (- n <= i <= limit)).
Proof. exact idx_ref_panic. Qed.
Print Assumptions C11_bound_error_kind.

Theorem C11_slice_no_hostcrash : forall (A : Type) (copy : A -> A) (s : list A) (st en : option float),
  zlen s < 2 ^ 63 -> arr_slice copy s st en <> HostCrash.
Proof. exact (fun A copy s st en _ => slice_no_crash copy s st en). Qed.
Print Assumptions C11_slice_no_hostcrash.

(* ---- strings: the same laws on code points ---- *)
Theorem C11_str_index_spec : forall (s : str) (f : float) (r : str),
  zlen s < 2 ^ 63 ->
  (str_index s f = Ok r <->
   exists i c, float_to_Z f = Some i /\ - zlen s <= i < zlen s /\
               nth_error s (Z.to_nat (i mod zlen s)) = Some c /\ r = [c]).
Proof. exact str_index_spec. Qed.
Print Assumptions C11_str_index_spec.

Theorem C11_str_index_errors : forall (s : str) (f : float),
  zlen s < 2 ^ 63 ->
  (forall e, str_index s f = Panic e <-> arr_index s f = Panic e) /\ str_index s f <> HostCrash.
Proof. exact (fun s f _ => conj (str_index_panic s f) (str_index_no_crash s f)). Qed.
Print Assumptions C11_str_index_errors.

Theorem C11_str_slice_is_slice : forall (s : str) (st en : option float),
  zlen s < 2 ^ 63 -> str_slice s st en = arr_slice (fun c => c) s st en.
Proof. exact (fun s st en _ => str_slice_arr s st en). Qed.
Print Assumptions C11_str_slice_is_slice.

(* ---- freshness ---- *)
(* the slice is a new array object; every existing object is unchanged *)
Theorem C11_slice_fresh : forall h a st en h' b,
  h_slice h a st en = Ok (h', b) ->
  b = List.length h /\ h_get h b = None /\
  (forall a', (a' < List.length h)%nat -> h_get h' a' = h_get h a') /\
  exists s r, h_get h a = Some s /\ arr_slice copy_or_ref s st en = Ok r /\ h_get h' b = Some r.
Proof. exact h_slice_fresh. Qed.
Print Assumptions C11_slice_fresh.

(* its elements are the same values — for inner arrays the same addresses — as
   positions a .. b-1 of the original (inner arrays are shared, as copyOrRef does) *)
Theorem C11_slice_contents : forall h a st en h' b s,
  h_get h a = Some s -> zlen s < 2 ^ 63 ->
  h_slice h a st en = Ok (h', b) ->
  exists x y, bound_ok (zlen s) st 0 x /\ bound_ok (zlen s) en (zlen s) y /\ x <= y /\
              h_get h' b = Some (sub s x y) /\ h_get h' a = Some s.
Proof. exact h_slice_contents. Qed.
Print Assumptions C11_slice_contents.

(* a store changes exactly one array object, at exactly the addressed position *)
Theorem C11_store_frame : forall h a f v h',
  h_set_index h a f v = Ok h' ->
  List.length h' = List.length h /\
  (forall a', a' <> a -> h_get h' a' = h_get h a') /\
  exists s s', h_get h a = Some s /\ h_get h' a = Some s' /\ arr_set_index s f v = Ok s'.
Proof. exact h_set_index_frame. Qed.
Print Assumptions C11_store_frame.

(* mutating the slice leaves the original (and every older array) unchanged,
   mutating any older array leaves the slice unchanged *)
Theorem C11_slice_then_store_independent : forall h a st en h1 b,
  h_slice h a st en = Ok (h1, b) ->
  (forall f v h2, h_set_index h1 b f v = Ok h2 ->
     forall a', (a' < List.length h)%nat -> h_get h2 a' = h_get h a') /\
  (forall a0 f v h2, (a0 < List.length h)%nat -> h_set_index h1 a0 f v = Ok h2 ->
     h_get h2 b = h_get h1 b).
Proof. exact slice_then_store_independent. Qed.
Print Assumptions C11_slice_then_store_independent.

(* ---------- non-vacuity and boundary witnesses (closed by vm_compute) ---------- *)
(* float constants without importing Floats (so that axiom names are printed qualified) *)
Definition F (z : Z) : float := float_of_Z z.
Definition half : float := PrimFloat.div (F 1) (F 2).
Definition negzero : float := PrimFloat.opp (F 0).
Definition tiny : float := float_of_bits 1.            (* 5e-324 *)
Definition ex3 : list Z := [10; 20; 30].

Example C11_ex_len : zlen ex3 < 2 ^ 63.
Proof. vm_compute. reflexivity. Qed.

Example C11_ex_index :
  map (arr_index ex3) [F 0; F 2; F (-1); F (-3); negzero] =
  [Ok 10; Ok 30; Ok 30; Ok 10; Ok 10] /\
  map (arr_index ex3) [F 3; F (-4); F (- 2 ^ 63)] = [Panic EBounds; Panic EBounds; Panic EBounds] /\
  map (arr_index ex3) [half; PrimFloat.nan; PrimFloat.infinity; PrimFloat.neg_infinity; F (2 ^ 63); F (2 ^ 1000); tiny] =
  [Panic EIndexValue; Panic EIndexValue; Panic EIndexValue; Panic EIndexValue; Panic EIndexValue; Panic EIndexValue; Panic EIndexValue].
Proof. vm_compute. repeat split. Qed.

Example C11_ex_float_to_Z :
  float_to_Z (F (-1)) = Some (-1) /\ float_to_Z (F (2 ^ 63)) = Some (2 ^ 63) /\
  float_to_Z half = None /\ float_to_Z PrimFloat.nan = None /\ float_to_Z negzero = Some 0.
Proof. vm_compute. repeat split. Qed.

Example C11_ex_slice :
  arr_slice (fun x => x) ex3 (Some (F 1)) None = Ok [20; 30] /\
  arr_slice (fun x => x) ex3 None (Some (F (-1))) = Ok [10; 20] /\
  arr_slice (fun x => x) ex3 (Some (F 3)) (Some (F 3)) = Ok [] /\
  arr_slice (fun x => x) ex3 (Some (F (-3))) (Some negzero) = Ok [] /\
  arr_slice (fun x => x) ex3 (Some (F 2)) (Some (F 1)) = Panic ESlice /\
  arr_slice (fun x => x) ex3 (Some (F 4)) (Some half) = Panic EBounds /\
  arr_slice (fun x => x) ex3 (Some half) (Some (F 9)) = Panic EIndexValue /\
  str_slice [97%N; 228%N; 26085%N] (Some (F 1)) (Some (F (-1))) = Ok [228%N].
Proof. vm_compute. repeat split. Qed.

Example C11_ex_set_index :
  arr_set_index ex3 (F (-1)) 7 = Ok [10; 20; 7] /\ arr_set_index ex3 (F 3) 7 = Panic EBounds /\
  arr_set_index ex3 half 7 = Panic EIndexValue.
Proof. vm_compute. repeat split. Qed.

(* aa := [[1] [2]]; bb := aa[1:]; bb[0][0] = 8 is seen through aa (shared inner
   array), bb[0] = [7] is not (fresh outer array) *)
Example C11_ex_sharing :
  let h0 : heap := [[VNum (F 1)]; [VNum (F 2)]; [VArr 0; VArr 1]] in
  exists h1 h2 h3,
    h_slice h0 2 (Some (F 1)) None = Ok (h1, 3%nat) /\ h_get h1 3 = Some [VArr 1] /\
    h_set_index h1 1 (F 0) (VNum (F 8)) = Ok h2 /\ h_get h2 1 = Some [VNum (F 8)] /\ h_get h2 2 = Some [VArr 0; VArr 1] /\
    h_set_index (h2 ++ [[VNum (F 7)]]) 3 (F 0) (VArr 4) = Ok h3 /\
    h_get h3 3 = Some [VArr 4] /\ h_get h3 2 = Some [VArr 0; VArr 1].
Proof. vm_compute. do 3 eexists. repeat split. Qed.
