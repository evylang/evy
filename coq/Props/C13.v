(* C13 — Built-in functions do what their documentation says.
   Property theorems only: each puts lemmas of BuiltinsProofs together or is a closed
   computation on the regenerated signature table. *)
From Coq Require Import ZArith NArith List Bool.
From Coq Require Floats.
From Coq Require Strings.String.
Import Coq.Strings.String.StringSyntax.
From EvyV Require Import Base BuiltinTy Builtins BuiltinsSpec BuiltinsProofs.
From EvyV.Gen Require Import BuiltinSigs DocLiterals.
Import ListNotations.
Local Open Scope string_scope.
Local Open Scope list_scope.

(* the declaration table (regenerated from evaluator.BuiltinDecls()) is the documented one: its
   entries that differ from docs/builtins.md are exactly join, printf, sprintf (see
   BuiltinsSpec.known_sig_deviations); nothing is missing on either side; events and predefined
   globals as documented *)
Theorem C13_builtin_table_documented :
  sig_diffs builtin_sigs documented_impl = known_sig_deviations /\
  (forall n, In n (sig_diffs documented_impl builtin_sigs) -> In n known_sig_deviations) /\
  List.length builtin_sigs = List.length documented_impl /\
  event_sigs = [("animate", [TNum]); ("down", [TNum; TNum]); ("input", [TStr; TStr]);
                ("key", [TStr]); ("move", [TNum; TNum]); ("up", [TNum; TNum])] /\
  global_sigs = [("err", TBool); ("errmsg", TStr); ("pi", TNum)].
Proof.
  split; [vm_compute; reflexivity|]. split.
  - intros n H. vm_compute in H. vm_compute. tauto.
  - repeat split; vm_compute; reflexivity.
Qed.
Print Assumptions C13_builtin_table_documented.

(* every declared built-in is either modelled by the dispatcher call_builtin (42:
   all of "Input and Output", "Types", "Map", "Program control", "Conversion",
   "String", "Random", "Math" of docs/builtins.md, plus hsl and clear's argument
   check) or one of the 17 canvas drawing commands that belong to C19 *)
Theorem C13_builtin_coverage :
  forallb (fun sg => Bool.eqb (dispatched sg) (negb (existsb (String.eqb (b_name sg)) canvas_builtins))) builtin_sigs = true /\
  List.length (filter dispatched builtin_sigs) = 42%nat /\
  List.length canvas_builtins = 17%nat.
Proof. vm_compute. repeat split; reflexivity. Qed.
Print Assumptions C13_builtin_coverage.

Theorem C13_len_codepoints : forall s a b,
  len_str s = List.length s /\
  len_str (a ++ b) = (len_str a + len_str b)%nat /\
  List.length (split s []) = len_str s /\
  (len_str s <= utf8_len s)%nat /\
  (utf8_len s = len_str s <-> Forall (fun c => (c < 128)%N) s).
Proof.
  intros s a b. split; [reflexivity|]. split; [apply len_str_app|]. split; [apply len_split_chars|].
  split; [apply utf8_len_ge | apply utf8_len_ascii].
Qed.
Print Assumptions C13_len_codepoints.

Theorem C13_split_join : forall s sep, join (split s sep) sep = s.
Proof. exact split_join. Qed.
Print Assumptions C13_split_join.

Theorem C13_split_spec : forall s sep, sep <> [] ->
  SplitSpec sep s (split s sep) /\ (forall ps, SplitSpec sep s ps -> ps = split s sep).
Proof.
  intros s sep H. split; [apply split_spec, H|]. intros ps Hp.
  eapply split_spec_unique; [exact H | exact Hp | apply split_spec, H].
Qed.
Print Assumptions C13_split_spec.

Theorem C13_split_empty_cases : forall s sep,
  split s [] = map (fun c => [c]) s /\ split [] [] = [] /\ (sep <> [] -> split [] sep = [[]]).
Proof. intros s sep. split; [reflexivity|]. split; [reflexivity | apply split_empty_string]. Qed.
Print Assumptions C13_split_empty_cases.

(* index (the model in force, mirroring indexFunc since 79c1bbb): the position
   in characters of the first occurrence, -1 exactly when there is none *)
Theorem C13_index_spec : forall s sub,
  (forall i, index_chars s sub = Z.of_nat i <-> FirstOcc sub s i) /\
  (index_chars s sub = (-1)%Z <-> NoOcc sub s).
Proof. exact index_chars_spec. Qed.
Print Assumptions C13_index_spec.

(* regression (fixed by 79c1bbb): the old byte-offset index found the same
   occurrence but agreed with the documented position only behind ASCII prefixes *)
Theorem C13_index_bytes_before_fix_refuted :
  (exists s sub i, FirstOcc sub s i /\ index_bytes_before_fix s sub <> Z.of_nat i) /\
  (forall s sub i, FirstOcc sub s i ->
     (index_bytes_before_fix s sub = index_chars s sub <-> Forall (fun c => (c < 128)%N) (firstn i s))).
Proof.
  split.
  - exists [228%N; 98%N], [98%N], 1%nat. split.
    + apply index_cp_some_iff. vm_compute. reflexivity.
    + vm_compute. discriminate.
  - intros s sub i. apply index_bytes_before_fix_eq_iff.
Qed.
Print Assumptions C13_index_bytes_before_fix_refuted.

Theorem C13_startswith_endswith : forall s p,
  (startswith s p = true <-> IsPrefix p s) /\ (endswith s p = true <-> IsSuffix p s).
Proof. intros s p. split; [apply startswith_spec | apply endswith_spec]. Qed.
Print Assumptions C13_startswith_endswith.

Theorem C13_trim_spec : forall s cut,
  exists l r, s = l ++ trim s cut ++ r /\ Forall (InCut cut) l /\ Forall (InCut cut) r /\
              match trim s cut with [] => True | c :: _ => ~ In c cut end /\
              match last_opt (trim s cut) with None => True | Some c => ~ In c cut end.
Proof. exact trim_spec. Qed.
Print Assumptions C13_trim_spec.

Theorem C13_replace_spec : forall s old new, old <> [] ->
  ReplSpec old new s (replace s old new) /\
  (forall r, ReplSpec old new s r -> r = replace s old new) /\
  replace s old new = join (split s old) new.
Proof.
  intros s old new H. split; [apply replace_spec, H|]. split.
  - intros r Hr. eapply repl_spec_unique; [exact H | exact Hr | apply replace_spec, H].
  - apply replace_is_join_split, H.
Qed.
Print Assumptions C13_replace_spec.

Theorem C13_replace_empty_old : forall s new, new <> [] ->
  replace s [] new = new ++ flat_map (fun c => c :: new) s.
Proof. exact replace_empty_old. Qed.
Print Assumptions C13_replace_empty_old.

Theorem C13_err_protocol : forall (o : oracles) (h : list hcall) (st : errst),
  hrun o st h = match last_conv h with Some c => documented_state o c | None => st end.
Proof. exact err_protocol. Qed.
Print Assumptions C13_err_protocol.

(* … and the same for real programs: in ANY sequence of calls of ANY built-ins
   with ANY arguments (run through the dispatcher call_builtin and evalFunccall's
   bookkeeping), err/errmsg observed after the i-th executed call describe the
   last str2num/str2bool call among the first i+1 calls; no other built-in
   touches them *)
Theorem C13_err_protocol_programs : forall o ff calls st t i cr,
  nth_error (fst (fst (fst (run_calls o ff calls st t)))) i = Some cr ->
  c_err cr = match last_conv (firstn (S i) (calls_hist calls)) with
             | Some c => documented_state o c
             | None => b_err st
             end.
Proof. exact run_calls_err_protocol. Qed.
Print Assumptions C13_err_protocol_programs.

Theorem C13_str2bool_literals : forall s,
  (parse_bool s = Some true <-> In s true_literals) /\
  (parse_bool s = Some false <-> In s false_literals) /\
  (parse_bool s = None <-> ~ In s (true_literals ++ false_literals)).
Proof. intros s. split; [apply parse_bool_true|]. split; [apply parse_bool_false | apply parse_bool_none]. Qed.
Print Assumptions C13_str2bool_literals.

(* str2bool accepts exactly the literals docs/builtins.md documents — the
   documented lists are REGENERATED from docs/builtins.md (Gen/DocLiterals.v), so
   a drift between the documentation and strconv.ParseBool's literal set breaks
   this obligation *)
Theorem C13_str2bool_documented_literals : forall s,
  (parse_bool s = Some true <-> In s (map s_ doc_true_literals)) /\
  (parse_bool s = Some false <-> In s (map s_ doc_false_literals)) /\
  (parse_bool s = None <-> ~ In s (map s_ (doc_true_literals ++ doc_false_literals))).
Proof.
  assert (T1 : forallb (fun x => mem_str x true_literals) (map s_ doc_true_literals) = true) by (vm_compute; reflexivity).
  assert (T2 : forallb (fun x => mem_str x (map s_ doc_true_literals)) true_literals = true) by (vm_compute; reflexivity).
  assert (F1 : forallb (fun x => mem_str x false_literals) (map s_ doc_false_literals) = true) by (vm_compute; reflexivity).
  assert (F2 : forallb (fun x => mem_str x (map s_ doc_false_literals)) false_literals = true) by (vm_compute; reflexivity).
  rewrite forallb_forall in T1, T2, F1, F2.
  assert (TT : forall s, In s (map s_ doc_true_literals) <-> In s true_literals).
  { intros s. split; intros H; [apply T1 in H | apply T2 in H]; apply mem_str_In in H; exact H. }
  assert (FF : forall s, In s (map s_ doc_false_literals) <-> In s false_literals).
  { intros s. split; intros H; [apply F1 in H | apply F2 in H]; apply mem_str_In in H; exact H. }
  intros s. rewrite TT, FF. split; [apply parse_bool_true|]. split; [apply parse_bool_false|].
  rewrite parse_bool_none, map_app, !in_app_iff, TT, FF. reflexivity.
Qed.
Print Assumptions C13_str2bool_documented_literals.

(* regression (docs fixed by 3dac639): docs/builtins.md used to list only
   true True TRUE 1 / false False FALSE 0 *)
Definition documented_bool_literals_before_fix : list str :=
  [s_ "true"; s_ "True"; s_ "TRUE"; s_ "1"; s_ "false"; s_ "False"; s_ "FALSE"; s_ "0"].
Theorem C13_str2bool_doc_literals_before_fix_refuted :
  exists s, ~ In s documented_bool_literals_before_fix /\ parse_bool s = Some true.
Proof.
  exists (s_ "t"). split; [|vm_compute; reflexivity].
  intros H. apply mem_str_In in H. vm_compute in H. discriminate.
Qed.
Print Assumptions C13_str2bool_doc_literals_before_fix_refuted.

(* "Otherwise, the function returns 0 and sets err" (model in force, since e40074a):
   whenever str2num sets err the result is 0 and errmsg names the input *)
Theorem C13_str2num_failure_zero : forall o s st,
  (forall f, o_parse_float o s <> PFOk f) ->
  str2num o s st = (fc_zero, {| e_err := true; e_msg := s_ "str2num: cannot parse " ++ quote o s |}).
Proof.
  intros o s st H. unfold str2num. destruct (o_parse_float o s) as [f| |f]; [exfalso; exact (H f eq_refl) | reflexivity | reflexivity].
Qed.
Print Assumptions C13_str2num_failure_zero.

Theorem C13_str2num_success : forall o s st f,
  o_parse_float o s = PFOk f -> str2num o s st = (f, {| e_err := false; e_msg := [] |}).
Proof. intros o s st f H. unfold str2num. rewrite H. reflexivity. Qed.
Print Assumptions C13_str2num_success.

Definition const_oracles (pf : parse_res) : oracles :=
  {| o_num_str := fun _ => []; o_fmt_float := fun _ _ => []; o_upper := fun c => c; o_lower := fun c => c;
     o_is_letter := fun c => ((65 <=? c) && (c <=? 90) || (97 <=? c) && (c <=? 122))%N;
     o_is_print := fun c => ((32 <=? c) && (c <? 127))%N;
     o_parse_float := fun _ => pf; o_math := fun _ _ => fc_zero; o_rand := fun _ => 0%Z; o_rand1 := fc_zero |}.

(* regression (fixed by e40074a): ParseFloat's ±Inf for a range error was returned with err set *)
Theorem C13_str2num_before_fix_refuted :
  exists o s st, e_err (snd (str2num_before_fix o s st)) = true /\ fst (str2num_before_fix o s st) <> fc_zero.
Proof.
  exists (const_oracles (PFRange fc_inf)), (s_ "1e999"), err_init. split; [reflexivity|].
  intros H. apply (f_equal (fun x => PrimFloat.eqb x fc_zero)) in H. vm_compute in H. discriminate.
Qed.
Print Assumptions C13_str2num_before_fix_refuted.

(* model in force (randFunc since 30a294b), under the PRNG contract 0 <= r < n:
   for 1 <= n <= 2^31-1 the result is an integer in [0, int32(n)) with
   1 <= int32(n) < 2^31; for EVERY other n — NaN, ±Inf, 0, negative, 2^31 … —
   the documented panic; the host crash (Int31n with n <= 0) is unreachable *)
Theorem C13_rand_range : forall (o : oracles),
  (forall n, (0 < n)%Z -> (0 <= o_rand o n < n)%Z) ->
  forall upper,
  if PrimFloat.leb fc_one upper && PrimFloat.leb upper fc_int31max
  then exists z, rand_model o upper = ORet (VNum (float_of_Z z)) /\ (0 <= z < go_int32 upper)%Z /\ (1 <= go_int32 upper < 2 ^ 31)%Z
  else rand_model o upper = OPanic BadArguments.
Proof. exact rand_range. Qed.
Print Assumptions C13_rand_range.

Theorem C13_rand_no_host_crash : forall o upper, rand_model o upper <> OHostCrash.
Proof. exact rand_no_host_crash. Qed.
Print Assumptions C13_rand_no_host_crash.

Theorem C13_rand_nan_panics : forall o, rand_model o fc_nan = OPanic BadArguments.
Proof. intros o. vm_compute. reflexivity. Qed.
Print Assumptions C13_rand_nan_panics.

(* regression (fixed by 30a294b): `upper < 1 || upper > 2147483647` let NaN through to Int31n *)
Theorem C13_rand_nan_before_fix_refuted : forall o, rand_model_before_fix o fc_nan = OHostCrash.
Proof. intros o. vm_compute. reflexivity. Qed.
Print Assumptions C13_rand_nan_before_fix_refuted.

(* docs/builtins.md: hsl:string hue:num [saturation:num [lightness:num [alpha:num]]];
   "hue must be between 0 and 360", the others "between 0 and 100", defaults
   100 / 50 / 100, result a CSS hsl function string. The model in force
   (hslFunc since 1433667): the documented panic for 0 or >= 5 arguments and for
   any value outside its range — NaN included; otherwise the documented text *)
Theorem C13_hsl_spec : forall o nums,
  ((List.length nums = 0 \/ 5 <= List.length nums)%nat -> hsl_model o nums = OPanic BadArguments) /\
  ((1 <= List.length nums <= 4)%nat ->
   hsl_model o nums =
   if hsl_args_ok nums
   then ORet (VStr (hsl_text o (nth 0 nums fc_zero) (nth 1 nums fc_100) (nth 2 nums fc_50) (nth 3 nums fc_100)))
   else OPanic BadArguments).
Proof. intros o nums. split; [apply hsl_arg_count | apply hsl_model_spec]. Qed.
Print Assumptions C13_hsl_spec.

Theorem C13_hsl_defaults : forall o h sa l,
  hsl_model o [h] = hsl_model o [h; fc_100; fc_50; fc_100] /\
  hsl_model o [h; sa] = hsl_model o [h; sa; fc_50; fc_100] /\
  hsl_model o [h; sa; l] = hsl_model o [h; sa; l; fc_100].
Proof. exact hsl_defaults. Qed.
Print Assumptions C13_hsl_defaults.

Theorem C13_hsl_nan_panics : forall o, hsl_in_range fc_nan fc_360 = false /\ hsl_model o [fc_nan] = OPanic BadArguments.
Proof. intros o. vm_compute. split; reflexivity. Qed.
Print Assumptions C13_hsl_nan_panics.

(* regression (fixed by 1433667): the old tests `x < 0 || x > max` let NaN pass —
   and differed from the model in force ONLY there *)
Theorem C13_hsl_nan_before_fix_refuted : forall o,
  hsl_before_fix o [fc_nan] = ORet (VStr (hsl_text o fc_nan fc_100 fc_50 fc_100)) /\
  (forall nums, Forall (fun x => is_nan x = false) nums -> hsl_before_fix o nums = hsl_model o nums).
Proof. intros o. split; [vm_compute; reflexivity | apply hsl_before_fix_agrees]. Qed.
Print Assumptions C13_hsl_nan_before_fix_refuted.

(* model in force (lexer.IsIdent since 09cb4c8): a key is printed bare iff it is
   an identifier (letter/underscore, then letters, digits, underscores), quoted otherwise *)
Theorem C13_repr_keys : forall o k,
  (is_ident o k = true <-> IdentSpec o k) /\
  (key_repr o k = k <-> IdentSpec o k) /\ (key_repr o k = quote o k <-> ~ IdentSpec o k).
Proof. intros o k. split; [apply is_ident_spec | apply key_repr_spec]. Qed.
Print Assumptions C13_repr_keys.

(* regression (fixed by 09cb4c8): the first character was never examined *)
Theorem C13_repr_keys_before_fix_refuted :
  (exists o k, ~ IdentSpec o k /\ key_repr_before_fix o k = k) /\
  (forall o c t, is_ident_before_fix o (c :: t) = ident_rest o t).
Proof.
  split.
  - exists (const_oracles PFSyntax), (s_ "1a"). split; [|vm_compute; reflexivity].
    intros H. apply is_ident_spec in H. vm_compute in H. discriminate.
  - intros o c t. apply (is_ident_before_fix_unfold o (c :: t)).
Qed.
Print Assumptions C13_repr_keys_before_fix_refuted.

(* printf: a mismatched verb does not panic *)
Theorem C13_printf_mismatch_refuted :
  exists o, fst (fst (call_builtin o (s_ "sprintf") [VStr (s_ "%s"); VNum fc_one] {| b_err := err_init; b_inputs := [] |}))
            = ORet (VStr (o_fmt_float o {| f_sharp := false; f_zero := false; f_plus := false; f_minus := false;
                                           f_space := false; f_wid := None; f_prec := None; f_verb := 115%N |} fc_one)).
Proof. exists (const_oracles PFSyntax). vm_compute. reflexivity. Qed.
Print Assumptions C13_printf_mismatch_refuted.

Theorem C13_test_bookkeeping : forall ff outs,
  let '(t, stop) := run_tests ff outs ti_init in
  let ex := executed ff outs in
  t_total t = List.length ex /\
  fail_count t = List.length (filter is_fail ex) /\
  (success_count t + fail_count t = t_total t)%nat /\
  t_errors t = fail_msgs ex /\
  (stop = None <-> forallb (fun r => negb (ends_run ff r)) outs = true) /\
  (classify stop t = RcOk <-> stop = None /\ fail_count t = 0%nat).
Proof. exact test_bookkeeping. Qed.
Print Assumptions C13_test_bookkeeping.

(* … and the same for real programs: any sequence of `test` calls with any
   arguments, run through the dispatcher and evalFunccall's bookkeeping; the
   outcomes are those of testFunc on the any-wrapped arguments *)
Theorem C13_test_bookkeeping_programs : forall o ff argss st,
  let outs := map (fun a => test_func o (map wrap_any a)) argss in
  let '(_, _, t, stop) := run_calls o ff (test_calls argss) st ti_init in
  let ex := executed ff outs in
  t_total t = List.length ex /\
  fail_count t = List.length (filter is_fail ex) /\
  (success_count t + fail_count t = t_total t)%nat /\
  t_errors t = fail_msgs ex /\
  (stop = None <-> forallb (fun r => negb (ends_run ff r)) outs = true) /\
  (classify stop t = RcOk <-> stop = None /\ fail_count t = 0%nat).
Proof. exact test_bookkeeping_programs. Qed.
Print Assumptions C13_test_bookkeeping_programs.

(* the message of a failed test: none with <= 2 arguments; with exactly 3 the
   third argument verbatim — whatever characters it contains, no oracle, no
   formatting; with >= 4 sprintf of the third argument over the rest
   (docs: "test 1 val "val is %v" val" = "test 1 val (sprintf "val is %v" val)");
   and the failure text is "want != got: <repr want> != <repr got>" + that part *)
Theorem C13_test_message : forall o a b m msg,
  any_inner m = VStr msg ->
  (forall args, (List.length args <= 2)%nat -> test_message o args = Some []) /\
  test_message o [a; b; m] = Some (s_ " (" ++ msg ++ s_ ")") /\
  (forall x rest, test_message o (a :: b :: m :: x :: rest)
                  = option_map (fun r => s_ " (" ++ r ++ s_ ")") (sprintf o msg (x :: rest))) /\
  (same a b = false ->
   test_func o [a; b] = OTestFail (s_ "want != got: " ++ vrepr o a ++ s_ " != " ++ vrepr o b) /\
   test_func o [a; b; m] = OTestFail (s_ "want != got: " ++ vrepr o a ++ s_ " != " ++ vrepr o b ++ s_ " (" ++ msg ++ s_ ")")).
Proof.
  intros o a b m msg H. split; [intros args; apply test_message_none|].
  split; [apply test_message_three, H|]. split; [intros x rest; apply test_message_format, H|].
  intros S. split.
  - rewrite (test_func_failure o a b [] [] S I eq_refl). rewrite app_nil_r. reflexivity.
  - apply test_func_failure; [exact S | exists msg; exact H | apply test_message_three, H].
Qed.
Print Assumptions C13_test_message.

Theorem C13_test_summary : forall ns t,
  report ns t =
  if ns || Nat.eqb (t_total t) 0 then None
  else if Nat.eqb (fail_count t) 0
       then Some (green_mark ++ nat_str (success_count t) ++ s_ " passed test" ++ plural_suffix (success_count t) ++ [10%N])
       else Some (cross_mark ++ nat_str (fail_count t) ++ s_ " failed test" ++ plural_suffix (fail_count t) ++ [10%N]
                  ++ check_mark ++ nat_str (success_count t) ++ s_ " passed test" ++ plural_suffix (success_count t) ++ [10%N]).
Proof. exact report_spec. Qed.
Print Assumptions C13_test_summary.

Theorem C13_exit_status : forall f,
  (0 <= exit_status f < 256)%Z /\
  (forall z, float_to_Z f = Some z -> (- 2 ^ 63 <= z < 2 ^ 63)%Z -> exit_status f = (z mod 256)%Z) /\
  (forall z, float_to_Z f = Some z -> (0 <= z < 256)%Z -> exit_status f = z) /\
  (float_trunc f = None -> exit_status f = 0%Z).
Proof.
  intros f. split; [apply exit_status_range|]. split; [apply exit_status_int|].
  split; [apply exit_status_small | apply exit_status_nonfinite].
Qed.
Print Assumptions C13_exit_status.

Example C13_ex_split : split (s_ "a,b,,c") (s_ ",") = [s_ "a"; s_ "b"; []; s_ "c"]
  /\ split (s_ "abcabc") (s_ "bc") = [s_ "a"; s_ "a"; []] /\ split (s_ "aaa") (s_ "aa") = [[]; s_ "a"].
Proof. vm_compute. repeat split; reflexivity. Qed.

Example C13_ex_replace : replace (s_ "abc123xyzabc abc") (s_ "abc") (s_ "ABC") = s_ "ABC123xyzABC ABC"
  /\ replace (s_ "aaa") (s_ "aa") (s_ "b") = s_ "ba" /\ replace (s_ "ab") [] (s_ "-") = s_ "-a-b-".
Proof. vm_compute. repeat split; reflexivity. Qed.

Example C13_ex_trim : trim (s_ ".,..abc.de.") (s_ ".,") = s_ "abc.de" /\ trim (s_ "...") (s_ ".") = [].
Proof. vm_compute. split; reflexivity. Qed.

Example C13_ex_first_occ : FirstOcc (s_ "de") (s_ "abcde") 3.
Proof. apply index_cp_some_iff. vm_compute. reflexivity. Qed.

(* the oracle contract of C13_rand_range is satisfiable, and the theorem's ORet case is inhabited *)
Example C13_ex_rand : (forall n, (0 < n)%Z -> (0 <= o_rand (const_oracles PFSyntax) n < n)%Z)
  /\ rand_model (const_oracles PFSyntax) (fc_lit 3) = ORet (VNum fc_zero)
  /\ rand_model (const_oracles PFSyntax) fc_zero = OPanic BadArguments
  /\ rand_model (const_oracles PFSyntax) (fc_lit 2147483648) = OPanic BadArguments
  /\ rand_model (const_oracles PFSyntax) fc_inf = OPanic BadArguments
  /\ PrimFloat.leb fc_one (fc_lit 3) && PrimFloat.leb (fc_lit 3) fc_int31max = true.
Proof. split; [intros n H; simpl; split; [apply Z.le_refl | exact H] | vm_compute; repeat split; reflexivity]. Qed.

Example C13_ex_err_history :
  let o := const_oracles PFSyntax in
  hrun o err_init [HStr2Num (s_ "x"); HOther; HStr2Bool (s_ "true"); HOther] = {| e_err := false; e_msg := [] |}
  /\ e_err (hrun o err_init [HStr2Bool (s_ "true"); HStr2Num (s_ "x"); HOther]) = true.
Proof. vm_compute. split; reflexivity. Qed.

Example C13_ex_keys :
  let o := const_oracles PFSyntax in
  key_repr o (s_ "ok_1") = s_ "ok_1" /\ key_repr o (s_ "a b") = s_ """a b""" /\ key_repr o (s_ "1a") = s_ """1a"""
  /\ key_repr_before_fix o (s_ "1a") = s_ "1a".
Proof. vm_compute. repeat split; reflexivity. Qed.

Example C13_ex_tests :
  run_tests false [ORet VNone; OTestFail (s_ "m"); ORet VNone; OPanic BadArguments; ORet VNone] ti_init
    = ({| t_total := 4; t_errors := [s_ "m"] |}, Some (OPanic BadArguments))
  /\ run_tests true [ORet VNone; OTestFail (s_ "m"); ORet VNone] ti_init
    = ({| t_total := 2; t_errors := [s_ "m"] |}, Some (OTestFail (s_ "m"))).
Proof. vm_compute. split; reflexivity. Qed.

(* a '%' in a plain three-argument message is just a character; with a fourth
   argument the same text is a format string *)
Example C13_ex_test_message :
  let o := const_oracles PFSyntax in
  test_func o [VAny TBool (VBool true); VAny TBool (VBool false); VAny TStr (VStr (s_ "below 100% of target"))]
    = OTestFail (s_ "want != got: true != false (below 100% of target)")
  /\ test_func o [VAny TBool (VBool true); VAny TBool (VBool false); VAny TStr (VStr (s_ "is %v%%")); VAny TStr (VStr (s_ "x"))]
    = OTestFail (s_ "want != got: true != false (is x%)")
  /\ test_func o [VAny TBool (VBool true); VAny TBool (VBool false); VAny TStr (VStr (s_ "is %v%%"))]
    = OTestFail (s_ "want != got: true != false (is %v%%)").
Proof. vm_compute. repeat split; reflexivity. Qed.

(* hsl: integer arguments are printed as their digits (no oracle involved);
   the accepted range is inhabited and has both kinds of neighbours *)
Example C13_ex_hsl :
  let o := const_oracles PFSyntax in
  hsl_model o [fc_lit 120] = ORet (VStr (s_ "hsl(120deg 100% 50% / 100%)"))
  /\ hsl_model o [fc_lit 360; fc_zero; fc_lit 100; fc_lit 7] = ORet (VStr (s_ "hsl(360deg 0% 100% / 7%)"))
  /\ hsl_model o [fc_lit 361] = OPanic BadArguments /\ hsl_model o [fc_lit 1; fc_lit 101] = OPanic BadArguments
  /\ hsl_model o [fc_lit (-1)] = OPanic BadArguments /\ hsl_model o [] = OPanic BadArguments
  /\ hsl_model o [fc_one; fc_one; fc_one; fc_one; fc_one] = OPanic BadArguments
  /\ hsl_args_ok [fc_lit 120; fc_half] = true /\ Forall (fun x => is_nan x = false) [fc_lit 120; fc_half].
Proof. vm_compute. repeat split; try reflexivity. repeat constructor. Qed.

Example C13_ex_exit :
  exit_status (fc_lit 256) = 0%Z /\ exit_status (fc_lit (-1)) = 255%Z /\ exit_status fc_half = 0%Z /\ exit_status (fc_lit 3) = 3%Z
  /\ exit_status fc_nan = 0%Z /\ exit_status fc_inf = 0%Z /\ float_to_Z (fc_lit 257) = Some 257%Z.
Proof. vm_compute. repeat split; reflexivity. Qed.

Example C13_ex_math :
  go_floor (fc_frac (-1) 2) = fc_lit (-1) /\ go_ceil (fc_frac 21 10) = fc_lit 3 /\ go_round (fc_frac 5 2) = fc_lit 3
  /\ go_round (fc_frac (-5) 2) = fc_lit (-3) /\ go_min (fc_lit 3) fc_one = fc_one /\ go_max (fc_lit 3) fc_one = fc_lit 3.
Proof. vm_compute. repeat split; reflexivity. Qed.
