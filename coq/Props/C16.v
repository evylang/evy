(* C16 — Compiled bytecode behaves like the tree-walking evaluator.
   Property theorems only; proofs are [exact <lemma of CompileProofs>]. *)
From Coq Require Import ZArith NArith List String.
From EvyV Require Import Base Bytecode SymTab Vm VmProofs Compile CompileSem CompileProofs CompileWfProofs CompileStmtProofs CompileJumpProofs CompileHoleProofs CompileCtlProofs CompileSemProofs CompileSymProofs CompileLocProofs CompileCoverProofs.
Import ListNotations.
Open Scope list_scope.

(* The full statement (not proved): for every supported program, under the
   agreement guard excluding the recorded VM divergence classes, the VM run on
   the compiled code ends with every global equal to the evaluator's.  What is
   proved below: the compiler-side half for unsupported nodes, and the
   simulation for the expression fragment.  The rest of the tie is the
   implementation-level oracle of the harness (VM vs evaluator on every
   generated program). *)

(* ---------- unsupported nodes ---------- *)
(* The model in force mirrors /repo at HEAD (after e02ff38: a default case in
   Compile's switch, errors for unknown unary operators and untranslated
   assignment targets).  For EVERY program: if the compiler succeeds, every
   node of the program has a translation — nothing is silently left out. *)
Theorem C16_compile_rejects_unsupported : forall (p : slist) (st : cstate),
  compile p = COk st -> supported_slist p = true.
Proof. exact compile_rejects_unsupported. Qed.
Print Assumptions C16_compile_rejects_unsupported.

(* Regression lemmas: the compiler as it was before e02ff38 accepted programs
   it did not translate.  `print 1` (a FuncCallStmt) compiled to the EMPTY
   program without an error … *)
Theorem C16_compile_rejects_unsupported_before_fix :
  exists (p : slist) (st : cstate),
    compile_before_fix p = COk st /\ supported_slist p = false /\ ccode st = [] /\
    compile p = CErr ErrUnsupportedNode.
Proof.
  exists (SCons (SUnsupported (s_ "*parser.FuncCallStmt")) SNil). eexists.
  split; [vm_compute; reflexivity|]. split; [reflexivity|]. split; reflexivity.
Qed.
Print Assumptions C16_compile_rejects_unsupported_before_fix.

(* … and `m.a = 2` pushed the value and never consumed it (unbalanced stack). *)
Theorem C16_compile_dot_assign_unbalanced_before_fix :
  exists (p : slist) (st : cstate),
    compile_before_fix p = COk st /\ supported_slist p = false /\
    wf_check {| bcode := ccode st; nconsts := N.of_nat (List.length (cconsts st));
                gcount := st_global_count (csym st); lcount := st_local_count (csym st) |} = false /\
    compile p = CErr ErrUnsupportedNode.
Proof.
  exists (SCons (SAssign (EUnsupported (s_ "*parser.DotExpression")) (ENum PrimFloat.two)) SNil). eexists.
  split; [vm_compute; reflexivity|]. split; [reflexivity|]. split; vm_compute; reflexivity.
Qed.
Print Assumptions C16_compile_dot_assign_unbalanced_before_fix.

(* ---------- the expression fragment is compiled correctly ---------- *)
(* For every expression built from number/bool/string literals, array
   literals `[e1 e2 …]` (nested), map literals `{k1:e1 k2:e2 …}` (no key twice:
   len(Pairs) = len(Order); the value is the list of pairs in source order, as
   OpMap rebuilds it), global variables, unary - and !, the binary
   operators on numbers and strings, array concatenation `a + b` and
   repetition `a * n` (a bad count is an error: undefined), ==/!= as
   value.Equals (arrays and maps structurally), slices `x[a:b]` of strings
   and arrays (missing bounds are OpNone) and index reads `a[i]` on strings
   (by code point), arrays (negative indices count from the end) and maps
   (`m[k]` with a string key; an index error or a missing key leaves eval_expr
   undefined)  (efrag), compiled from any compiler state: wherever the emitted
   segment is placed in a program whose constant table starts with the
   compiler's constants, running the VM model from the segment's first
   instruction executes exactly the segment and leaves the stack as it was
   plus ONE value: the value of the direct big-step semantics eval_expr
   (IEEE binary64 as Coq primitive floats).  Guard (explicit): the VM stack
   has room for the expression's depth.  No size guard is needed any more: an
   index that does not fit 16 bits makes the compiler fail (e351c68). *)
Theorem C16_compile_correct_partial : forall e : expr, efrag e = true ->
  forall env st st' v,
    compile_expr true e st = COk st' -> eval_expr env e = Some v -> sym_static (csym st) ->
    csym st' = csym st /\
    exists seg newc,
      ccode st' = ccode st ++ seg /\ cconsts st' = cconsts st ++ newc /\
      forall p s more pre post,
        pcode p = pre ++ seg ++ post ->
        pconsts p = map const_value (cconsts st') ++ more ->
        ip s = N.of_nat (List.length pre) ->
        globals_hold env (csym st) (globals s) ->
        (N.of_nat (List.length (locals s)) + N.of_nat (List.length (ostack s)) + edepth e <= Gen.Opcodes.StackSize)%N ->
        exists n, vm_steps n p s =
                  Running {| ip := (ip s + N.of_nat (List.length seg))%N; ostack := v :: ostack s;
                             locals := locals s; globals := globals s |}.
Proof. exact compile_expr_correct. Qed.
Print Assumptions C16_compile_correct_partial.

(* ---------- straight-line programs are compiled correctly ---------- *)
(* For every top-level program of declarations `x := e` and assignments
   `x = e` of global variables with e in the expression fragment: if the
   compiler succeeds and the direct big-step semantics exec_slist of the
   statements is defined (no division by zero, no dynamic type contradicting
   the static annotation), then the VM model started by NewVM on the compiled
   program runs to the end of the code, halts there with an empty operand
   stack, and every global slot the compiler assigned to a variable holds the
   value the semantics gives that variable.  Guard: the deepest expression
   fits the VM stack. *)
Theorem C16_compile_correct_straightline : forall (p : slist) (st : cstate) (env' : genv),
  sfrag p = true -> compile p = COk st -> exec_slist (fun _ => None) p = Some env' ->
  (prog_depth p <= Gen.Opcodes.StackSize)%N ->
  let prog := program_of (bytecode_of st) in
  exists s, reaches prog (vm_init prog) s /\
            vm_step prog s = Halted s /\ ostack s = [] /\
            forall n y v, st_resolve n (csym st) = Some y -> env' n = Some v ->
                          nth_error (globals s) (N.to_nat (sidx y)) = Some v.
Proof. exact compile_correct_straightline. Qed.
Print Assumptions C16_compile_correct_straightline.

(* ---------- statements with control flow are compiled correctly ---------- *)
(* Fragment psfrag: a top-level sequence of declarations `x := e` and of
   statements built from assignments `x = e` to globals, `if c … {else if c …}
   [else …] end` chains, `while c … end`, `for range [start] stop [step] … end`
   (step ranges without a loop variable anywhere, and — at TOP LEVEL only —
   `for i := range …` WITH a loop variable, which the compiler makes a global:
   the semantics assigns none to i, then the index in every round; a zero step
   is a run-time error, so the semantics is undefined there; likewise
   `for x := range iterable` — and `for range iterable` without loop variable,
   anywhere — over the elements of an array, the characters of a string or the
   keys of a map, counted like the VM with a number starting at 0) and `break` (inside a loop only: nb_stmt), arbitrarily nested, all expressions in efrag
   (_partial: no loop variables inside blocks, no block-local declarations, no element stores `a[i] = e` / `m[k] = e`).  The boolean of a result of exec_l says that a break is
   under way; the innermost loop ends it.  The VM keeps the state of a range
   loop (index, step, stop) on the operand stack: the simulation carries the
   stack `base` below the statement, and OpDrop removes the state at the exit
   and after a break.  The semantics exec_l is a
   fuel-indexed big-step semantics defined in CompileSem.v on top of
   eval_expr (IEEE primitive floats); a while loop consumes fuel per iteration.
   For every such program: if the compiler succeeds and the semantics is
   defined for SOME fuel (the program terminates without a run-time error),
   the VM model started by NewVM on the compiled program runs to the end of
   the code, halts there with an empty operand stack, and every global slot
   holds the value the semantics gives that variable.  Proof: the compiler's
   byte-level back-patching is shown to produce the layout LAY (lay_all; for a
   chain: the code with pending end jumps, LAYC false, is turned into the
   final one by the patching of compileIfStatement, layc_patch), and the
   simulation sim_all goes by induction on the fuel, re-entering a loop at
   its start pc after the back jump, leaving a chain through the end jump
   of the block that ran, and following a break jump to the end of its loop
   (lay_brk_patch: compileWhileStatement's patching of c.breaks gives every
   pending break jump of the body that target and changes nothing else). *)
Theorem C16_compile_correct_ctl_partial : forall (p : slist) (st : cstate) (fuel : nat) (env' : genv),
  psfrag p = true -> compile p = COk st -> exec_l fuel p (fun _ => None) = Some (env', false) ->
  (ldepth p <= Gen.Opcodes.StackSize)%N ->
  let prog := program_of (bytecode_of st) in
  exists s, reaches prog (vm_init prog) s /\
            vm_step prog s = Halted s /\ ostack s = [] /\
            forall n y v, st_resolve n (csym st) = Some y -> env' n = Some v ->
                          nth_error (globals s) (N.to_nat (sidx y)) = Some v.
Proof. exact compile_correct_ctl. Qed.
Print Assumptions C16_compile_correct_ctl_partial.

(* ---------- … with block-local variables ---------- *)
(* Fragment lpfrag: like psfrag, but declarations `x := e` and for loops WITH a
   loop variable may stand anywhere — at top level (the compiler makes the
   variable a global) and inside the blocks of if / else-if / else, while and
   for (the compiler makes it a LOCAL of the block's scope and gives it a slot
   of the VM's locals area; slots are reused once a block is closed) —, and
   assignments `x = e` go to whatever the name resolves to.  Expressions are
   in efrag and read globals and locals (_partial: no element
   stores `a[i] = e` / `m[k] = e` — Vm.v has value semantics for arrays and
   maps, its OpSetIndex only checks —, no function calls, hence no call frames).  The semantics lx_l
   (CompileSem.v) is the fuel-indexed big-step semantics of before over an
   environment WITH BLOCK SCOPES: a list of frames, innermost first, the last
   one the globals; a block pushes an empty frame and pops it at its end (also
   when a break leaves it); `x := e` binds in the innermost frame, `x = e`
   updates the innermost frame that has x, a loop variable lives in the frame
   of the block around the loop's body (declared once, before the first
   round, set in every round — like the compiler, which defines it in a scope
   of its own around the body's).  For every such program: if the compiler
   succeeds and the semantics is defined for SOME fuel, the VM model started
   by NewVM runs to the end of the code, halts there with an empty operand
   stack, and every global holds the value the semantics gives it.
   Proof (CompileLocProofs.v): the simulation relation RELs maps every frame
   of the environment to one scope of the compiler's symbol table (the
   compile-time scope stack, replayed by the layout judgment LY) and says that
   the slot of each binding, visible or shadowed — a global slot or a slot of
   the locals area — holds the frame's value.  A store to one name keeps the
   relation for all others because slots of simultaneously live bindings are
   distinct (NOSHARE, from SymTabProofs.chain_no_sharing); a slot reused by a
   later block is dead in the environment by then.  The stack guard
   counts the locals area: LocalCount + the deepest statement fit the stack. *)
Theorem C16_compile_correct_locals_partial : forall (p : slist) (st : cstate) (fuel : nat) (env' : senv),
  lpfrag p = true -> compile p = COk st -> lx_l fuel p [[]] = Some (env', false) ->
  (st_local_count (csym st) + ldepth p <= Gen.Opcodes.StackSize)%N ->
  let prog := program_of (bytecode_of st) in
  exists s, reaches prog (vm_init prog) s /\
            vm_step prog s = Halted s /\ ostack s = [] /\
            forall n y v, st_resolve n (csym st) = Some y -> slook n env' = Some v ->
                          nth_error (globals s) (N.to_nat (sidx y)) = Some v.
Proof. exact compile_correct_locals. Qed.
Print Assumptions C16_compile_correct_locals_partial.

(* ---------- how much of the compiler's input the fragment is ---------- *)
(* EVERY program the compiler accepts lies in the fragment lfrag, unless it has
   an element store `a[i] = e` / `m[k] = e`.  [plain_slist] (CompileSem.v)
   says: no assignment whose target is an index expression — and two shapes
   the parser never produces: a map literal with a key twice (len(Pairs) <>
   len(Order); "duplicated map key" is a parse error) and a block as a
   statement of its own.  (Function calls, typed declarations, `m.k`, and / or
   … have no translation at HEAD: C16_compile_rejects_unsupported.) *)
Theorem C16_compile_covered : forall (p : slist) (st : cstate),
  compile p = COk st -> plain_slist p = true -> lfrag_slist p = true.
Proof. exact compile_covered. Qed.
Print Assumptions C16_compile_covered.

(* … hence compile_correct_locals for every accepted program without element
   stores (_partial: element stores — Vm.v has value semantics for arrays and
   maps, its OpSetIndex only checks —; nb_slist: no break outside a loop, a
   parse error; termination without run-time error and the stack guard as
   before). *)
Theorem C16_compile_correct_plain_partial : forall (p : slist) (st : cstate) (fuel : nat) (env' : senv),
  compile p = COk st -> plain_slist p = true -> nb_slist p = true ->
  lx_l fuel p [[]] = Some (env', false) ->
  (st_local_count (csym st) + ldepth p <= Gen.Opcodes.StackSize)%N ->
  let prog := program_of (bytecode_of st) in
  exists s, reaches prog (vm_init prog) s /\
            vm_step prog s = Halted s /\ ostack s = [] /\
            forall n y v, st_resolve n (csym st) = Some y -> slook n env' = Some v ->
                          nth_error (globals s) (N.to_nat (sidx y)) = Some v.
Proof. exact compile_correct_plain. Qed.
Print Assumptions C16_compile_correct_plain_partial.

(* ---------- the compiler's output is well formed (straight-line fragment) ---------- *)
(* For every top-level program made of declarations `x := e` and assignments
   `x = e` with e in the expression fragment: IF THE COMPILER SUCCEEDS, what it
   emits satisfies the judgment WF of C17.  No size guard: operands beyond 16
   bits are compile errors at HEAD.  (_partial: programs with jumps —
   if/while/for and their back-patching — are not covered by this theorem;
   they are covered per emitted program by the verified validator wf_check of
   C17, which the C17 harness runs on the real compiler's output and Example
   C16_ex_program_wf below runs on the model.) *)
Theorem C16_compile_wf_partial : forall (p : slist) (st : cstate),
  sfrag p = true -> compile p = COk st ->
  WF {| bcode := out_code (bytecode_of st); nconsts := N.of_nat (List.length (out_consts (bytecode_of st)));
        gcount := out_gcount (bytecode_of st); lcount := out_lcount (bytecode_of st) |}.
Proof. exact compile_wf_partial. Qed.
Print Assumptions C16_compile_wf_partial.

(* Regression lemma: before e351c68, from a compiler state that already held
   65536 constants the literal 1 was compiled to `OpConstant 0` (Make
   truncated); the model in force rejects the same input. *)
Theorem C16_compile_wf_large_before_fix :
  exists st : cstate,
    N.of_nat (List.length (cconsts st)) = 65536%N /\
    match compile_expr false (ENum PrimFloat.one) st with
    | COk st' =>
        N.of_nat (List.length (cconsts st')) = 65537%N /\
        match decode1 (ccode st') with
        | Some (i, rest) => iop i = Gen.Opcodes.OpConstant /\ arg0 i = 0%N /\ rest = []
        | None => False
        end
    | CErr _ => False
    end /\
    compile_expr true (ENum PrimFloat.one) st = CErr ErrOperandRange.
Proof.
  (* only the number of constants matters: the list itself is never evaluated *)
  set (n := N.to_nat 65536).
  assert (Hn : Z.of_nat n = 65536%Z) by (unfold n; rewrite N_nat_Z; reflexivity).
  exists {| ccode := []; cconsts := repeat (KNum PrimFloat.zero) n; csym := new_symtab; cbreaks := [] |}.
  cbn [compile_expr]. unfold emit_const, emit. cbn [cconsts ccode]. rewrite repeat_length, Hn.
  split; [unfold n; apply N2Nat.id|]. split; [|reflexivity].
  change (make_before_fix (N_of_opc Constant) [65536%Z]) with (Some [N_of_opc Constant; 0; 0]%N).
  cbn [cconsts ccode app]. rewrite app_length, repeat_length, Nat.add_comm.
  split; [unfold n; rewrite Nat2N.inj_succ, N2Nat.id; reflexivity|]. repeat split.
Qed.
Print Assumptions C16_compile_wf_large_before_fix.

(* ---------- the compiler's output is well formed: code with jumps ---------- *)
(* Fragment pfrag2 (= cfrag on every top-level statement): declarations
   `x := e` and `for x := range …` loops WITH a loop variable (step ranges and
   iterables) — at top level the compiler makes x a global, inside a block a
   LOCAL of the block's scope —, assignments `x = e` to globals and locals,
   if / else-if / else chains, while, break, `for range …` without a loop
   variable — arbitrarily nested, with all expressions in the expression
   fragment efrag (reads of globals and locals, array and map literals, index reads, slices;
   element stores `a[i] = e` / `m[k] = e` are in this fragment: for WF they are
   three expressions and OpSetIndex; by C17_compile_wf_all the fragment is
   every program the compiler accepts).  For every such program: if the compiler
   succeeds and leaves no pending break (a break outside a loop, which the
   parser rejects), its output satisfies WF with LocalCount = the
   nestedMaxIndex of the compiler's root table:
   - every jump operand the compiler back-patches (condition exits, end-of-if
     jumps, loop-back jumps, breaks) lands on an instruction boundary inside
     the program, and the stack states agree at every join (incl. the OpDrop
     of the range loops), counted ABOVE the LocalCount slots the VM reserves
     (WFg_shift: the transfer function does not depend on that base);
   - every OpGetLocal / OpSetLocal operand is below LocalCount: the symbol the
     compiler resolved or defined is live in the table at that moment
     (SymTabProofs.live_below_bound) and SymTabProofs.bound only grows along
     the compilation (bound_step; the relation SX of CompileSymProofs.v is
     what a compiled statement may do to the table).
   No size guard: out-of-range operands and jump targets are compile errors
   at HEAD (e351c68). *)
Theorem C16_compile_wf_ctl_partial : forall (p : slist) (st : cstate),
  pfrag2 p = true -> compile p = COk st -> cbreaks st = [] ->
  WF {| bcode := out_code (bytecode_of st); nconsts := N.of_nat (List.length (out_consts (bytecode_of st)));
        gcount := out_gcount (bytecode_of st); lcount := out_lcount (bytecode_of st) |}.
Proof. exact compile_wf_ctl2. Qed.
Print Assumptions C16_compile_wf_ctl_partial.

(* … hence C17's VM-safety theorem applies to everything the compiler
   produces for the fragment: no stack underflow, no out-of-range operand, no
   fetch off an instruction boundary, sp = LocalCount at the end. *)
Theorem C16_compile_vm_safe_ctl_partial : forall (p : slist) (st : cstate),
  pfrag2 p = true -> compile p = COk st -> cbreaks st = [] ->
  let prog := program_of (bytecode_of st) in
  forall s, reachable prog s ->
    (plcount prog <= sp_of s)%N /\
    match vm_step prog s with
    | Running _ | Failed _ => True
    | Halted s' => ip s' = N.of_nat (List.length (pcode prog)) /\ sp_of s' = plcount prog
    | Crashed c => c = CType
    end.
Proof.
  intros p st HF HC HB prog. apply wf_vm_safe_partial.
  unfold prog, info_of, program_of. cbn [pcode pconsts pgcount plcount]. rewrite map_length.
  apply (compile_wf_ctl2 p st HF HC HB).
Qed.
Print Assumptions C16_compile_vm_safe_ctl_partial.

(* ---------- regression lemmas for the repaired VM divergences ---------- *)
(* 8c3c11e: `a[1.5] = 9` used to store at index 1 (int() truncation); it is ErrIndexValue now *)
Theorem C16_vm_fractional_index_write_before_fix :
  let args := [VNum (PrimFloat.div (float_of_Z 3) (float_of_Z 2)); VArr [VNum (float_of_Z 1); VNum (float_of_Z 2); VNum (float_of_Z 3)]; VNum (float_of_Z 9)] in
  set_index_check_before_fix args = None /\ set_index_check args = Some (PErr EIndexValue).
Proof. vm_compute. split; reflexivity. Qed.
Print Assumptions C16_vm_fractional_index_write_before_fix.

(* 6a7e6f1: `"äb"[0]` used to be the byte "\xc3"; it is the character "ä" now *)
Theorem C16_vm_byte_strings_before_fix :
  index_value_before_fix (VStr [195; 164; 98]%N) (VNum (float_of_Z 0)) = POk (VStr [195]%N) /\
  index_value (VStr [195; 164; 98]%N) (VNum (float_of_Z 0)) = POk (VStr [195; 164]%N) /\
  utf8_decode [195; 164; 98]%N = [228; 98]%N.
Proof. vm_compute. repeat split; reflexivity. Qed.
Print Assumptions C16_vm_byte_strings_before_fix.

(* fc6a6b3: a step range with step 0 used to run zero times (OpStepRange pushed
   `false`); OpStepRange returns ErrRangeValue now *)
Theorem C16_vm_zero_step_before_fix :
  let stk := [VNum (float_of_Z 1); VNum (float_of_Z 0); VNum (float_of_Z 5)] in
  (exists rest, step_range 0 stk = Some (VBool false :: rest)) /\
  forall p, exec p {| ip := 0%N; ostack := stk; locals := []; globals := [] |} StepRange 0%N 3%N = Failed ERangeValue.
Proof. split; [eexists; vm_compute; reflexivity|intro p; vm_compute; reflexivity]. Qed.
Print Assumptions C16_vm_zero_step_before_fix.
(* (66b6227, repetition deep copy: this model has value semantics for arrays, the
   old sharing cannot be expressed in it; the class is guarded by the harness) *)

(* ---------- non-vacuity ---------- *)
Definition ex_ctl : slist :=
  SCons (SDecl (s_ "x") (ENum (float_of_Z 0)))
 (SCons (SDecl (s_ "s") (EStr (s_ "ab")))
 (SCons (SWhile (EBool true)
          (SCons (SAssign (EVar (s_ "x")) (EBin BPlus TNum TNum (EVar (s_ "x")) (ENum (float_of_Z 1))))
          (SCons (SIf (EBin BGt TNum TNum (EVar (s_ "x")) (ENum (float_of_Z 3))) (SCons SBreak SNil)
                      (CCons (EBin BEq TNum TNum (EVar (s_ "x")) (ENum (float_of_Z 2)))
                             (SCons (SForIter None TStr (EVar (s_ "s"))
                                       (SCons (SIf (EBool false) (SCons SBreak SNil) CNil NoElse) SNil)) SNil) CNil)
                      (Else (SCons (SForStep None ONoneE (ENum (float_of_Z 2)) ONoneE
                                      (SCons (SAssign (EVar (s_ "x")) (EBin BPlus TNum TNum (EVar (s_ "x")) (ENum (float_of_Z 0)))) SNil)) SNil))) SNil)))
 (SCons (SForStep (Some (s_ "i")) ONoneE (ENum (float_of_Z 3)) ONoneE
          (SCons (SIf (EBin BEq TNum TNum (EVar (s_ "i")) (ENum (float_of_Z 2))) (SCons SBreak SNil) CNil NoElse)
          (SCons (SAssign (EVar (s_ "x")) (EBin BPlus TNum TNum (EVar (s_ "x")) (EVar (s_ "i")))) SNil))) SNil))).

(* x := 0; s := 0; while x < 5: x = x + 1; if x % 2 == 1: s = s + x else s = s - 1 end end *)
Definition ex_sem : slist :=
  SCons (SDecl (s_ "x") (ENum (float_of_Z 0)))
 (SCons (SDecl (s_ "t") (ENum (float_of_Z 0)))
 (SCons (SWhile (EBin BLt TNum TNum (EVar (s_ "x")) (ENum (float_of_Z 5)))
          (SCons (SAssign (EVar (s_ "x")) (EBin BPlus TNum TNum (EVar (s_ "x")) (ENum (float_of_Z 1))))
          (SCons (SIf (EBin BEq TNum TNum (EBin BPercent TNum TNum (EVar (s_ "x")) (ENum (float_of_Z 2))) (ENum (float_of_Z 1)))
                      (SCons (SAssign (EVar (s_ "t")) (EBin BPlus TNum TNum (EVar (s_ "t")) (EVar (s_ "x")))) SNil)
                      CNil
                      (Else (SCons (SAssign (EVar (s_ "t")) (EBin BMinus TNum TNum (EVar (s_ "t")) (ENum (float_of_Z 1)))) SNil))) SNil))) SNil)).

Example C16_ex_sem_defined :
  psfrag ex_sem = true /\ (ldepth ex_sem <= Gen.Opcodes.StackSize)%N /\
  match exec_l 40 ex_sem (fun _ => None) with
  | Some (env, false) => env (s_ "x") = Some (VNum (float_of_Z 5)) /\ env (s_ "t") = Some (VNum (float_of_Z 7))
  | _ => False
  end /\
  match compile ex_sem with
  | COk st => match vm_run 2000 (program_of (bytecode_of st)) (vm_init (program_of (bytecode_of st))) with
              | FHalted s => nth_error (globals s) 1 = Some (VNum (float_of_Z 7))
              | _ => False
              end
  | CErr _ => False
  end.
Proof. vm_compute. repeat split; try reflexivity. discriminate. Qed.

(* x := 0; t := 0; while x < 6: x = x + 1
     if x == 1: t = t + 10 else if x == 2: t = t + 100 else if x == 3: t = t + 1000 else t = t + 1 end end *)
Definition ex_elif : slist :=
  let xeq k := EBin BEq TNum TNum (EVar (s_ "x")) (ENum (float_of_Z k)) in
  let tadd k := SCons (SAssign (EVar (s_ "t")) (EBin BPlus TNum TNum (EVar (s_ "t")) (ENum (float_of_Z k)))) SNil in
  SCons (SDecl (s_ "x") (ENum (float_of_Z 0)))
 (SCons (SDecl (s_ "t") (ENum (float_of_Z 0)))
 (SCons (SWhile (EBin BLt TNum TNum (EVar (s_ "x")) (ENum (float_of_Z 6)))
          (SCons (SAssign (EVar (s_ "x")) (EBin BPlus TNum TNum (EVar (s_ "x")) (ENum (float_of_Z 1))))
          (SCons (SIf (xeq 1%Z) (tadd 10%Z)
                      (CCons (xeq 2%Z) (tadd 100%Z) (CCons (xeq 3%Z) (tadd 1000%Z) CNil))
                      (Else (tadd 1%Z))) SNil))) SNil)).

Example C16_ex_elif_defined :
  psfrag ex_elif = true /\ (ldepth ex_elif <= Gen.Opcodes.StackSize)%N /\
  match exec_l 40 ex_elif (fun _ => None) with
  | Some (env, false) => env (s_ "x") = Some (VNum (float_of_Z 6)) /\ env (s_ "t") = Some (VNum (float_of_Z 1113))
  | _ => False
  end /\
  match compile ex_elif with
  | COk st => match vm_run 2000 (program_of (bytecode_of st)) (vm_init (program_of (bytecode_of st))) with
              | FHalted s => nth_error (globals s) 1 = Some (VNum (float_of_Z 1113))
              | _ => False
              end
  | CErr _ => False
  end.
Proof. vm_compute. repeat split; try reflexivity. discriminate. Qed.

(* x := 0; t := 0
   while true: x = x + 1
     if x == 2: t = t + 100 else if x == 4: break else t = t + 1 end
     t = t + 10
   end        -- x = 4, t = 1 + 10 + 100 + 10 + 1 + 10 = 132 *)
Definition ex_break : slist :=
  let xeq k := EBin BEq TNum TNum (EVar (s_ "x")) (ENum (float_of_Z k)) in
  let tadd k := SAssign (EVar (s_ "t")) (EBin BPlus TNum TNum (EVar (s_ "t")) (ENum (float_of_Z k))) in
  SCons (SDecl (s_ "x") (ENum (float_of_Z 0)))
 (SCons (SDecl (s_ "t") (ENum (float_of_Z 0)))
 (SCons (SWhile (EBool true)
          (SCons (SAssign (EVar (s_ "x")) (EBin BPlus TNum TNum (EVar (s_ "x")) (ENum (float_of_Z 1))))
          (SCons (SIf (xeq 2%Z) (SCons (tadd 100%Z) SNil)
                      (CCons (xeq 4%Z) (SCons SBreak SNil) CNil)
                      (Else (SCons (tadd 1%Z) SNil)))
          (SCons (tadd 10%Z) SNil)))) SNil)).

Example C16_ex_break_defined :
  psfrag ex_break = true /\ (ldepth ex_break <= Gen.Opcodes.StackSize)%N /\
  match exec_l 40 ex_break (fun _ => None) with
  | Some (env, false) => env (s_ "x") = Some (VNum (float_of_Z 4)) /\ env (s_ "t") = Some (VNum (float_of_Z 132))
  | _ => False
  end /\
  match compile ex_break with
  | COk st => match vm_run 2000 (program_of (bytecode_of st)) (vm_init (program_of (bytecode_of st))) with
              | FHalted s => nth_error (globals s) 1 = Some (VNum (float_of_Z 132))
              | _ => False
              end
  | CErr _ => False
  end.
Proof. vm_compute. repeat split; try reflexivity. discriminate. Qed.

(* x := 0; t := 0
   for range 5: x = x + 1
     for range 10 0 -4: t = t + x          // 10, 6, 2: three rounds
       if t > 12: break end end end        -- x = 5, t = 24 *)
Definition ex_for : slist :=
  let num k := ENum (float_of_Z k) in
  let add v e := SAssign (EVar (s_ v)) (EBin BPlus TNum TNum (EVar (s_ v)) e) in
  SCons (SDecl (s_ "x") (num 0%Z))
 (SCons (SDecl (s_ "t") (num 0%Z))
 (SCons (SForStep None ONoneE (num 5%Z) ONoneE
          (SCons (add "x" (num 1%Z))
          (SCons (SForStep None (OSome (num 10%Z)) (num 0%Z) (OSome (num (-4)%Z))
                    (SCons (add "t" (EVar (s_ "x")))
                    (SCons (SIf (EBin BGt TNum TNum (EVar (s_ "t")) (num 12%Z)) (SCons SBreak SNil) CNil NoElse) SNil))) SNil))) SNil)).

Example C16_ex_for_defined :
  psfrag ex_for = true /\ (ldepth ex_for <= Gen.Opcodes.StackSize)%N /\
  match exec_l 60 ex_for (fun _ => None) with
  | Some (env, false) => env (s_ "x") = Some (VNum (float_of_Z 5)) /\ env (s_ "t") = Some (VNum (float_of_Z 24))
  | _ => False
  end /\
  match compile ex_for with
  | COk st => match vm_run 4000 (program_of (bytecode_of st)) (vm_init (program_of (bytecode_of st))) with
              | FHalted s => nth_error (globals s) 1 = Some (VNum (float_of_Z 24)) /\ ostack s = []
              | _ => False
              end
  | CErr _ => False
  end.
Proof. vm_compute. repeat split; try reflexivity. discriminate. Qed.

(* t := 0
   for i := range 1 6: t = t + i
     if i == 4: break end end              -- t = 10, i = 4 (a global) *)
Definition ex_forlv : slist :=
  let num k := ENum (float_of_Z k) in
  SCons (SDecl (s_ "t") (num 0%Z))
 (SCons (SForStep (Some (s_ "i")) (OSome (num 1%Z)) (num 6%Z) ONoneE
          (SCons (SAssign (EVar (s_ "t")) (EBin BPlus TNum TNum (EVar (s_ "t")) (EVar (s_ "i"))))
          (SCons (SIf (EBin BEq TNum TNum (EVar (s_ "i")) (num 4%Z)) (SCons SBreak SNil) CNil NoElse) SNil))) SNil).

Example C16_ex_forlv_defined :
  psfrag ex_forlv = true /\ (ldepth ex_forlv <= Gen.Opcodes.StackSize)%N /\
  match exec_l 60 ex_forlv (fun _ => None) with
  | Some (env, false) => env (s_ "t") = Some (VNum (float_of_Z 10)) /\ env (s_ "i") = Some (VNum (float_of_Z 4))
  | _ => False
  end /\
  match compile ex_forlv with
  | COk st => match vm_run 4000 (program_of (bytecode_of st)) (vm_init (program_of (bytecode_of st))) with
              | FHalted s => globals s = [VNum (float_of_Z 10); VNum (float_of_Z 4)] /\ ostack s = []
              | _ => False
              end
  | CErr _ => False
  end.
Proof. vm_compute. repeat split; try reflexivity. discriminate. Qed.

(* a := [10 20 30]; x := a[1] + a[-1]; s := "hello"; c := s[1]; b := [[1 2] [3]]; y := b[0][1]
   -- x = 50, c = "e", y = 2 (array literals and index reads are in efrag) *)
Definition ex_arr : slist :=
  let num k := ENum (float_of_Z k) in
  let arr3 a b c := EArr (ECons a (ECons b (ECons c ENil))) in
  SCons (SDecl (s_ "a") (arr3 (num 10%Z) (num 20%Z) (num 30%Z)))
 (SCons (SDecl (s_ "x") (EBin BPlus TNum TNum (EIndex (EVar (s_ "a")) (num 1%Z)) (EIndex (EVar (s_ "a")) (num (-1)%Z))))
 (SCons (SDecl (s_ "s") (EStr (s_ "hello")))
 (SCons (SDecl (s_ "c") (EIndex (EVar (s_ "s")) (num 1%Z)))
 (SCons (SDecl (s_ "b") (EArr (ECons (EArr (ECons (num 1%Z) (ECons (num 2%Z) ENil))) (ECons (EArr (ECons (num 3%Z) ENil)) ENil))))
 (SCons (SDecl (s_ "y") (EIndex (EIndex (EVar (s_ "b")) (num 0%Z)) (num 1%Z))) SNil))))).

Example C16_ex_arr_defined :
  psfrag ex_arr = true /\ (ldepth ex_arr <= Gen.Opcodes.StackSize)%N /\
  match exec_l 20 ex_arr (fun _ => None) with
  | Some (env, false) => env (s_ "x") = Some (VNum (float_of_Z 50)) /\ env (s_ "c") = Some (VStr [101%N]) /\
                         env (s_ "y") = Some (VNum (float_of_Z 2))
  | _ => False
  end /\
  match compile ex_arr with
  | COk st => match vm_run 4000 (program_of (bytecode_of st)) (vm_init (program_of (bytecode_of st))) with
              | FHalted s => nth_error (globals s) 1 = Some (VNum (float_of_Z 50)) /\ nth_error (globals s) 3 = Some (VStr [101%N]) /\
                             nth_error (globals s) 5 = Some (VNum (float_of_Z 2))
              | _ => False
              end
  | CErr _ => False
  end.
Proof. vm_compute. repeat split; try reflexivity. discriminate. Qed.

(* t := 0; w := ""
   for x := range [3 4 5]: t = t + x end
   for c := range "ab": w = c + w end        -- t = 12, w = "ba", x = 5, c = "b" *)
Definition ex_foriter : slist :=
  let num k := ENum (float_of_Z k) in
  SCons (SDecl (s_ "t") (num 0%Z))
 (SCons (SDecl (s_ "w") (EStr (s_ "")))
 (SCons (SForIter (Some (s_ "x")) TArr (EArr (ECons (num 3%Z) (ECons (num 4%Z) (ECons (num 5%Z) ENil))))
          (SCons (SAssign (EVar (s_ "t")) (EBin BPlus TNum TNum (EVar (s_ "t")) (EVar (s_ "x")))) SNil))
 (SCons (SForIter (Some (s_ "c")) TStr (EStr (s_ "ab"))
          (SCons (SAssign (EVar (s_ "w")) (EBin BPlus TStr TStr (EVar (s_ "c")) (EVar (s_ "w")))) SNil)) SNil))).

Example C16_ex_foriter_defined :
  psfrag ex_foriter = true /\ (ldepth ex_foriter <= Gen.Opcodes.StackSize)%N /\
  match exec_l 60 ex_foriter (fun _ => None) with
  | Some (env, false) => env (s_ "t") = Some (VNum (float_of_Z 12)) /\ env (s_ "w") = Some (VStr [98%N; 97%N]) /\
                         env (s_ "x") = Some (VNum (float_of_Z 5))
  | _ => False
  end /\
  match compile ex_foriter with
  | COk st => match vm_run 4000 (program_of (bytecode_of st)) (vm_init (program_of (bytecode_of st))) with
              | FHalted s => globals s = [VNum (float_of_Z 12); VStr [98%N; 97%N]; VNum (float_of_Z 5); VStr [98%N]] /\ ostack s = []
              | _ => False
              end
  | CErr _ => False
  end.
Proof. vm_compute. repeat split; try reflexivity. discriminate. Qed.

(* n := 0; for range [7 8 9]: for range "ab": n = n + 1 end end   -- n = 6 *)
Definition ex_foriter0 : slist :=
  let num k := ENum (float_of_Z k) in
  SCons (SDecl (s_ "n") (num 0%Z))
 (SCons (SForIter None TArr (EArr (ECons (num 7%Z) (ECons (num 8%Z) (ECons (num 9%Z) ENil))))
          (SCons (SForIter None TStr (EStr (s_ "ab"))
                    (SCons (SAssign (EVar (s_ "n")) (EBin BPlus TNum TNum (EVar (s_ "n")) (num 1%Z))) SNil)) SNil)) SNil).

Example C16_ex_foriter0_defined :
  psfrag ex_foriter0 = true /\ (ldepth ex_foriter0 <= Gen.Opcodes.StackSize)%N /\
  match exec_l 60 ex_foriter0 (fun _ => None) with
  | Some (env, false) => env (s_ "n") = Some (VNum (float_of_Z 6))
  | _ => False
  end /\
  match compile ex_foriter0 with
  | COk st => match vm_run 4000 (program_of (bytecode_of st)) (vm_init (program_of (bytecode_of st))) with
              | FHalted s => globals s = [VNum (float_of_Z 6)] /\ ostack s = []
              | _ => False
              end
  | CErr _ => False
  end.
Proof. vm_compute. repeat split; try reflexivity. discriminate. Qed.

(* m := {a:1 b:2}; x := m["b"] + {c:5}["c"]; t := ""; for k := range m: t = t + k end
   -- x = 7, t = "ab" (map literals are in efrag; m[k] goes through index_value) *)
Definition ex_map : slist :=
  let num k := ENum (float_of_Z k) in
  SCons (SDecl (s_ "m") (EMap (PCons (s_ "a") (num 1%Z) (PCons (s_ "b") (num 2%Z) PNil)) 2%Z))
 (SCons (SDecl (s_ "x") (EBin BPlus TNum TNum (EIndex (EVar (s_ "m")) (EStr (s_ "b")))
                                             (EIndex (EMap (PCons (s_ "c") (num 5%Z) PNil) 1%Z) (EStr (s_ "c")))))
 (SCons (SDecl (s_ "t") (EStr (s_ "")))
 (SCons (SForIter (Some (s_ "k")) TMap (EVar (s_ "m"))
          (SCons (SAssign (EVar (s_ "t")) (EBin BPlus TStr TStr (EVar (s_ "t")) (EVar (s_ "k")))) SNil)) SNil))).

Example C16_ex_map_defined :
  psfrag ex_map = true /\ lpfrag ex_map = true /\ (ldepth ex_map <= Gen.Opcodes.StackSize)%N /\
  match exec_l 40 ex_map (fun _ => None) with
  | Some (env, false) => env (s_ "x") = Some (VNum (float_of_Z 7)) /\ env (s_ "t") = Some (VStr [97%N; 98%N]) /\
                         env (s_ "m") = Some (VMap [([97%N], VNum (float_of_Z 1)); ([98%N], VNum (float_of_Z 2))])
  | _ => False
  end /\
  match compile ex_map with
  | COk st => match vm_run 4000 (program_of (bytecode_of st)) (vm_init (program_of (bytecode_of st))) with
              | FHalted s => nth_error (globals s) 1 = Some (VNum (float_of_Z 7)) /\ nth_error (globals s) 2 = Some (VStr [97%N; 98%N]) /\ ostack s = []
              | _ => False
              end
  | CErr _ => False
  end.
Proof. vm_compute. repeat split; try reflexivity. discriminate. Qed.

(* a := [1 2 3]; b := a[1:] + [9] * 2; s := "hello"[1:3]; q := a[:2] == [1 2]; r := {x:a} == {x:[1 2 3]}
   -- b = [2 3 9 9], s = "el", q = true, r = true (slices, concatenation, repetition, structural ==) *)
Definition ex_slice : slist :=
  let num k := ENum (float_of_Z k) in
  let arr3 a b c := EArr (ECons a (ECons b (ECons c ENil))) in
  SCons (SDecl (s_ "a") (arr3 (num 1%Z) (num 2%Z) (num 3%Z)))
 (SCons (SDecl (s_ "b") (EBin BPlus TArr TArr (ESlice (EVar (s_ "a")) (OSome (num 1%Z)) ONoneE)
                                             (EBin BStar TArr TNum (EArr (ECons (num 9%Z) ENil)) (num 2%Z))))
 (SCons (SDecl (s_ "s") (ESlice (EStr (s_ "hello")) (OSome (num 1%Z)) (OSome (num 3%Z))))
 (SCons (SDecl (s_ "q") (EBin BEq TArr TArr (ESlice (EVar (s_ "a")) ONoneE (OSome (num 2%Z))) (EArr (ECons (num 1%Z) (ECons (num 2%Z) ENil)))))
 (SCons (SDecl (s_ "r") (EBin BEq TMap TMap (EMap (PCons (s_ "x") (EVar (s_ "a")) PNil) 1%Z)
                                           (EMap (PCons (s_ "x") (arr3 (num 1%Z) (num 2%Z) (num 3%Z)) PNil) 1%Z))) SNil)))).

Example C16_ex_slice_defined :
  psfrag ex_slice = true /\ lpfrag ex_slice = true /\ (ldepth ex_slice <= Gen.Opcodes.StackSize)%N /\
  match exec_l 40 ex_slice (fun _ => None) with
  | Some (env, false) => env (s_ "b") = Some (VArr [VNum (float_of_Z 2); VNum (float_of_Z 3); VNum (float_of_Z 9); VNum (float_of_Z 9)]) /\
                         env (s_ "s") = Some (VStr [101%N; 108%N]) /\ env (s_ "q") = Some (VBool true) /\ env (s_ "r") = Some (VBool true)
  | _ => False
  end /\
  match compile ex_slice with
  | COk st => match vm_run 4000 (program_of (bytecode_of st)) (vm_init (program_of (bytecode_of st))) with
              | FHalted s => nth_error (globals s) 2 = Some (VStr [101%N; 108%N]) /\ nth_error (globals s) 3 = Some (VBool true) /\
                             nth_error (globals s) 4 = Some (VBool true) /\ ostack s = []
              | _ => False
              end
  | CErr _ => False
  end.
Proof. vm_compute. repeat split; try reflexivity. discriminate. Qed.

(* a break outside a loop is outside the fragment *)
Example C16_ex_break_outside : psfrag (SCons SBreak SNil) = false.
Proof. reflexivity. Qed.

Example C16_ex_ctl_fragment :
  pfrag2 ex_ctl = true /\
  match compile ex_ctl with
  | COk st => cbreaks st = [] /\
      (let bc := bytecode_of st in
       wf_check {| bcode := out_code bc; nconsts := N.of_nat (List.length (out_consts bc));
                   gcount := out_gcount bc; lcount := out_lcount bc |} = true) /\
      match vm_run 2000 (program_of (bytecode_of st)) (vm_init (program_of (bytecode_of st))) with
      | FHalted s => nth_error (globals s) 0 = Some (VNum (float_of_Z 5))
      | _ => False
      end
  | CErr _ => False
  end.
Proof. vm_compute. repeat split; reflexivity. Qed.

(* x := 0
   while x < 3
     y := x + 1                         // local slot 0
     if y == 2: z := y * 2  x = x + z   // local slot 1
     else:      w := 1      x = x + w   // local slot 1 again (z is dead)
     end
     for i := range 2: x = x + i end    // loop variable: local slot 1
   end          // x = 4; LocalCount = 4 (Pop adds nestedMaxIndex and index) *)
Definition ex_locals : slist :=
  let num k := ENum (float_of_Z k) in
  let xadd e := SAssign (EVar (s_ "x")) (EBin BPlus TNum TNum (EVar (s_ "x")) e) in
  SCons (SDecl (s_ "x") (num 0%Z))
 (SCons (SWhile (EBin BLt TNum TNum (EVar (s_ "x")) (num 3%Z))
          (SCons (SDecl (s_ "y") (EBin BPlus TNum TNum (EVar (s_ "x")) (num 1%Z)))
          (SCons (SIf (EBin BEq TNum TNum (EVar (s_ "y")) (num 2%Z))
                      (SCons (SDecl (s_ "z") (EBin BStar TNum TNum (EVar (s_ "y")) (num 2%Z))) (SCons (xadd (EVar (s_ "z"))) SNil))
                      CNil
                      (Else (SCons (SDecl (s_ "w") (num 1%Z)) (SCons (xadd (EVar (s_ "w"))) SNil))))
          (SCons (SForStep (Some (s_ "i")) ONoneE (num 2%Z) ONoneE (SCons (xadd (EVar (s_ "i"))) SNil)) SNil)))) SNil).

Example C16_ex_locals_fragment :
  pfrag2 ex_locals = true /\
  match compile ex_locals with
  | COk st => cbreaks st = [] /\ out_lcount (bytecode_of st) = 4%N /\
      (let bc := bytecode_of st in
       wf_check {| bcode := out_code bc; nconsts := N.of_nat (List.length (out_consts bc));
                   gcount := out_gcount bc; lcount := out_lcount bc |} = true) /\
      match vm_run 2000 (program_of (bytecode_of st)) (vm_init (program_of (bytecode_of st))) with
      | FHalted s => nth_error (globals s) 0 = Some (VNum (float_of_Z 4))
      | _ => False
      end
  | CErr _ => False
  end.
Proof. vm_compute. repeat split; reflexivity. Qed.

(* the scoped semantics on ex_locals (block-local y, z / w sharing a slot, loop
   variable i inside the while body), and a loop variable nested in a for body
   with a shadowing declaration and a break:
   t := 0
   for i := range 3
     x := i * 10                      // local of the body
     for j := range [1 2 3]           // loop variable: local
       if j == 3: break end
       x := x + j                     // a NEW x in the inner body (shadows), dies with it
       t = t + x
     end
     t = t + x                        // the outer x, untouched
   end                                // t = (1+2) + 0 + (11+12) + 10 + (21+22) + 20 = 99 *)
Definition ex_nested : slist :=
  let num k := ENum (float_of_Z k) in
  let tadd e := SAssign (EVar (s_ "t")) (EBin BPlus TNum TNum (EVar (s_ "t")) e) in
  SCons (SDecl (s_ "t") (num 0%Z))
 (SCons (SForStep (Some (s_ "i")) ONoneE (num 3%Z) ONoneE
          (SCons (SDecl (s_ "x") (EBin BStar TNum TNum (EVar (s_ "i")) (num 10%Z)))
          (SCons (SForIter (Some (s_ "j")) TArr (EArr (ECons (num 1%Z) (ECons (num 2%Z) (ECons (num 3%Z) ENil))))
                    (SCons (SIf (EBin BEq TNum TNum (EVar (s_ "j")) (num 3%Z)) (SCons SBreak SNil) CNil NoElse)
                    (SCons (SDecl (s_ "x") (EBin BPlus TNum TNum (EVar (s_ "x")) (EVar (s_ "j"))))
                    (SCons (tadd (EVar (s_ "x"))) SNil))))
          (SCons (tadd (EVar (s_ "x"))) SNil)))) SNil).

Example C16_ex_locals_defined :
  lpfrag ex_locals = true /\
  match compile ex_locals with
  | COk st => (st_local_count (csym st) + ldepth ex_locals <= Gen.Opcodes.StackSize)%N /\
      match vm_run 2000 (program_of (bytecode_of st)) (vm_init (program_of (bytecode_of st))) with
      | FHalted s => globals s = [VNum (float_of_Z 4)] /\ ostack s = []
      | _ => False
      end
  | CErr _ => False
  end /\
  match lx_l 60 ex_locals [[]] with
  | Some (env, false) => slook (s_ "x") env = Some (VNum (float_of_Z 4)) /\ slook (s_ "y") env = None /\ List.length env = 1%nat
  | _ => False
  end.
Proof. vm_compute. repeat split; try reflexivity; discriminate. Qed.

Example C16_ex_nested_defined :
  lpfrag ex_nested = true /\
  match compile ex_nested with
  | COk st => (st_local_count (csym st) + ldepth ex_nested <= Gen.Opcodes.StackSize)%N /\
      match vm_run 4000 (program_of (bytecode_of st)) (vm_init (program_of (bytecode_of st))) with
      | FHalted s => nth_error (globals s) 0 = Some (VNum (float_of_Z 99)) /\ ostack s = []
      | _ => False
      end
  | CErr _ => False
  end /\
  match lx_l 80 ex_nested [[]] with
  | Some (env, false) => slook (s_ "t") env = Some (VNum (float_of_Z 99)) /\ slook (s_ "i") env = Some (VNum (float_of_Z 2)) /\
                         slook (s_ "x") env = None
  | _ => False
  end.
Proof. vm_compute. repeat split; try reflexivity; discriminate. Qed.

Example C16_ex_straightline_semantics :
  let p := SCons (SDecl (s_ "x") (ENum (float_of_Z 7)))
          (SCons (SDecl (s_ "b") (EBin BLt TNum TNum (EBin BPlus TNum TNum (EVar (s_ "x")) (ENum (float_of_Z 2))) (ENum (float_of_Z 30))))
          (SCons (SAssign (EVar (s_ "x")) (EUn UMinus (EVar (s_ "x")))) SNil)) in
  match exec_slist (fun _ => None) p with
  | Some env => env (s_ "x") = Some (VNum (float_of_Z (-7))) /\ env (s_ "b") = Some (VBool true)
  | None => False
  end /\ (prog_depth p <= Gen.Opcodes.StackSize)%N.
Proof. vm_compute. repeat split; try reflexivity. discriminate. Qed.

(* an element store is what plain excludes: a := [1 2]; a[0] = 5 compiles, and is not plain *)
Example C16_ex_store_not_plain :
  let p := SCons (SDecl (s_ "a") (EArr (ECons (ENum (float_of_Z 1)) (ECons (ENum (float_of_Z 2)) ENil))))
          (SCons (SAssign (EIndex (EVar (s_ "a")) (ENum (float_of_Z 0))) (ENum (float_of_Z 5))) SNil) in
  (match compile p with COk _ => True | CErr _ => False end) /\ plain_slist p = false /\ lfrag_slist p = false /\
  plain_slist ex_nested = true /\ plain_slist ex_slice = true /\ plain_slist ex_map = true.
Proof. vm_compute. repeat split; reflexivity. Qed.

Example C16_ex_wf_fragment :
  let p := SCons (SDecl (s_ "x") (ENum (float_of_Z 7)))
          (SCons (SDecl (s_ "b") (EBin BLt TNum TNum (EBin BPlus TNum TNum (EVar (s_ "x")) (ENum (float_of_Z 2))) (ENum (float_of_Z 30))))
          (SCons (SAssign (EVar (s_ "x")) (EUn UMinus (EVar (s_ "x")))) SNil)) in
  sfrag p = true /\ match compile p with COk st => List.length (ccode st) = 27%nat | CErr _ => False end.
Proof. vm_compute. split; reflexivity. Qed.

(* x := 7 already compiled; then (x + 2) * 3 < 30 and "ab" + "c" == "abc" *)
Definition ex_st : cstate :=
  match compile_stmt true (SDecl (s_ "x") (ENum (float_of_Z 7))) cinit with COk st => st | CErr _ => cinit end.
Definition ex_e : expr :=
  EBin BLt TNum TNum
       (EBin BStar TNum TNum (EGroup (EBin BPlus TNum TNum (EVar (s_ "x")) (ENum (float_of_Z 2)))) (ENum (float_of_Z 3)))
       (EUn UMinus (EUn UMinus (ENum (float_of_Z 30)))).
Definition ex_env : genv := fun n => if str_eqb n (s_ "x") then Some (VNum (float_of_Z 7)) else None.

Example C16_ex_fragment : efrag ex_e = true /\ eval_expr ex_env ex_e = Some (VBool true).
Proof. vm_compute. split; reflexivity. Qed.

Example C16_ex_runs :
  match compile_expr true ex_e ex_st with
  | COk st' =>
      let p := program_of (bytecode_of st') in
      match vm_run 100 p (vm_init p) with
      | FHalted s => ostack s = [VBool true] /\ nth_error (globals s) 0 = Some (VNum (float_of_Z 7))
      | _ => False
      end
  | CErr _ => False
  end.
Proof. vm_compute. split; reflexivity. Qed.

(* a whole program through the model: while/if/break/for with patched jumps
   is accepted by the verified validator of C17 *)
Definition ex_prog : slist :=
  SCons (SDecl (s_ "x") (ENum (float_of_Z 0)))
 (SCons (SWhile (EBool true)
          (SCons (SAssign (EVar (s_ "x")) (EBin BPlus TNum TNum (EVar (s_ "x")) (ENum (float_of_Z 1))))
          (SCons (SIf (EBin BGt TNum TNum (EVar (s_ "x")) (ENum (float_of_Z 3))) (SCons SBreak SNil) CNil NoElse) SNil)))
 (SCons (SForStep (Some (s_ "i")) ONoneE (ENum (float_of_Z 3)) ONoneE
          (SCons (SDecl (s_ "y") (EVar (s_ "i")))
          (SCons (SAssign (EVar (s_ "x")) (EBin BPlus TNum TNum (EVar (s_ "x")) (EVar (s_ "y")))) SNil))) SNil)).

Example C16_ex_program_wf :
  match compile ex_prog with
  | COk st =>
      let bc := bytecode_of st in
      wf_check {| bcode := out_code bc; nconsts := N.of_nat (List.length (out_consts bc));
                  gcount := out_gcount bc; lcount := out_lcount bc |} = true /\
      match vm_run 1000 (program_of bc) (vm_init (program_of bc)) with
      | FHalted s => nth_error (globals s) 0 = Some (VNum (float_of_Z 7))
      | _ => False
      end
  | CErr _ => False
  end.
Proof. vm_compute. split; reflexivity. Qed.
