(* C16 — the source semantics of compile_correct tied to the evaluator model.
   Property theorems only; proofs are [exact <lemma>] of CompileSemTie / CompileSemTieVm.

   compile_correct_* (Props/C16.v) relate the VM model to CompileSem.lx_l, a big-step semantics
   over VALUE environments; every evaluator check of the development runs against coq/Sem.v,
   where every value is a heap cell.  Here: on the fragment [tfrag_l] (number / bool / ASCII
   string literals, variables, groups, unary - !, + - * / % and the comparisons on numbers, + and
   the comparisons on strings, array literals, a[i] on arrays and strings, + on arrays, == != when
   one operand is manifestly a number, string or bool ([scalar_valued]); declarations anywhere,
   assignments to variables, if / else if / else, while, break, the empty statement), whenever
   lx_l is defined the Sem.v run of the same program ends normally, prints nothing, and every
   variable of lx_l's final environment is a global of the final Sem state whose cell reads
   back ([holds]; [reify] for basic cells) as that value.  _partial: maps, slices, array
   repetition, == on arrays, non-ASCII strings and the for loops are not covered (why: the head of
   CompileSemTie.v). *)
From Coq Require Import ZArith NArith List String Bool Floats.
From EvyV Require Import Base Num Ast Omap Sem CompileSemTie CompileSemTieVm.
From EvyV Require Bytecode SymTab Vm VmProofs Compile CompileSem CompileStmtProofs.
Require EvyV.Gen.Opcodes.
Import ListNotations.

(* expressions: from related environments the Sem evaluation succeeds with a cell holding
   the value of Compile.eval_expr, only allocating and yielding *)
Theorem C16_tie_expr_partial : forall P e x, xrel e x -> forall lenv E s v,
  tfrag_e e = true -> Compile.eval_expr (fun n => CompileSem.slook n lenv) e = Some v ->
  envrel lenv E s -> good s -> ev_ok P E x s v.
Proof. exact tie_expr. Qed.
Print Assumptions C16_tie_expr_partial.

(* statements, statement lists, condition chains and while loops, for every fuel of lx *)
Theorem C16_tie_statements_partial : forall P f,
  stmt_tie P f /\ list_tie P f /\ conds_tie P f /\ while_tie P f.
Proof. exact tie_all. Qed.
Print Assumptions C16_tie_statements_partial.

(* whole programs: P is any Ast program whose statements are p with arbitrary type annotations *)
Theorem C16_tie_program_partial : forall (P : program) (p : Compile.slist) fuel env' s0,
  CompileSem.lx_l fuel p [[]] = Some (env', false) ->
  lrel p (p_stmts P) -> tfrag_l p = true ->
  good s0 -> st_total s0 = 0%nat -> st_fails s0 = 0%nat ->
  exists N s1, (forall n, (N <= n)%nat -> run_program n P s0 = (ODone, s1)) /\
               st_trace s1 = st_trace s0 /\
               forall n v, CompileSem.slook n env' = Some v -> sem_global s1 n v.
Proof. exact (fun P p fuel env' s0 H Rl Fl => tie_program P p fuel [[]] env' s0 H Rl Fl (envrel_nil s0)). Qed.
Print Assumptions C16_tie_program_partial.

(* the canonical translation is related to its source on the fragment *)
Theorem C16_tie_translation : forall l, tfrag_l l = true -> lrel l (tr_l l).
Proof. exact tr_l_rel. Qed.
Print Assumptions C16_tie_translation.

(* reading back is the relation used in the proofs *)
Theorem C16_tie_reify : forall h l v,
  (reify h l = Some v -> holds h l v) /\ (scalar v -> holds h l v -> reify h l = Some v).
Proof. intros h l v. split; [apply reify_holds | apply holds_reify]. Qed.
Print Assumptions C16_tie_reify.

(* the expression lists of array literals *)
Theorem C16_tie_expr_list_partial : forall P l xl, xlrel l xl -> forall lenv E s vs,
  tfrag_el l = true -> Compile.eval_list (fun n => CompileSem.slook n lenv) l = Some vs ->
  envrel lenv E s -> good s -> evs_ok P E xl s vs.
Proof. exact (fun P => proj2 (tie_expr_all P)). Qed.
Print Assumptions C16_tie_expr_list_partial.

(* VM model = evaluator model: compile_correct_locals composed with the tie *)
Theorem C16_vm_equals_evaluator_model_partial :
  forall (P : program) (p : Compile.slist) (st : Compile.cstate) (fuel : nat) (env' : CompileSem.senv) input ff ay,
  tfrag_l p = true -> lrel p (p_stmts P) ->
  CompileSem.lpfrag p = true -> Compile.compile p = Compile.COk st ->
  CompileSem.lx_l fuel p [[]] = Some (env', false) ->
  (SymTab.st_local_count (Compile.csym st) + CompileSem.ldepth p <= Gen.Opcodes.StackSize)%N ->
  let prog := Compile.program_of (Compile.bytecode_of st) in
  exists sv N s1,
    CompileStmtProofs.reaches prog (Vm.vm_init prog) sv /\ Vm.vm_step prog sv = Vm.Halted sv /\
    Vm.ostack sv = [] /\
    (forall n, (N <= n)%nat -> run_program n P (init_state None input ff ay) = (ODone, s1)) /\
    st_trace s1 = [] /\
    forall n y v, SymTab.st_resolve n (Compile.csym st) = Some y -> CompileSem.slook n env' = Some v ->
                  nth_error (Vm.globals sv) (N.to_nat (SymTab.sidx y)) = Some v /\
                  sem_global s1 n v.
Proof.
  exact (fun P p st fuel env' input ff ay Ft Rl Fl Hc Hx Hd =>
           vm_equals_evaluator_model_partial P p st fuel env' _ Ft Rl Fl Hc Hx Hd (good_init input ff ay) eq_refl eq_refl).
Qed.
Print Assumptions C16_vm_equals_evaluator_model_partial.

(* ---------- Example: the hypotheses hold on a concrete program, and the conclusion is what
   both sides compute ---------- *)
(* x := 1
   s := "a"
   while x < 4
       x = x + 1
       if x == 3
           t := s + "b"
           s = t
       end
   end *)
Definition ex_p : Compile.slist :=
  Compile.SCons (Compile.SDecl (s_ "x") (Compile.ENum 1%float))
  (Compile.SCons (Compile.SDecl (s_ "s") (Compile.EStr (s_ "a")))
  (Compile.SCons (Compile.SWhile (Compile.EBin Compile.BLt Compile.TNum Compile.TNum (Compile.EVar (s_ "x")) (Compile.ENum 4%float))
     (Compile.SCons (Compile.SAssign (Compile.EVar (s_ "x")) (Compile.EBin Compile.BPlus Compile.TNum Compile.TNum (Compile.EVar (s_ "x")) (Compile.ENum 1%float)))
     (Compile.SCons (Compile.SIf (Compile.EBin Compile.BEq Compile.TNum Compile.TNum (Compile.EVar (s_ "x")) (Compile.ENum 3%float))
                 (Compile.SCons (Compile.SDecl (s_ "t") (Compile.EBin Compile.BPlus Compile.TStr Compile.TStr (Compile.EVar (s_ "s")) (Compile.EStr (s_ "b"))))
                 (Compile.SCons (Compile.SAssign (Compile.EVar (s_ "s")) (Compile.EVar (s_ "t"))) Compile.SNil))
                 Compile.CNil Compile.NoElse)
      Compile.SNil)))
   Compile.SNil)).
Definition ex_P : program := {| p_funcs := []; p_handlers := []; p_stmts := tr_l ex_p |}.

Example C16_tie_ex_hyps :
  tfrag_l ex_p = true /\ CompileSem.lpfrag ex_p = true /\
  (exists st, Compile.compile ex_p = Compile.COk st) /\
  (exists env', CompileSem.lx_l 40 ex_p [[]] = Some (env', false) /\
                CompileSem.slook (s_ "x") env' = Some (Vm.VNum 4%float) /\
                CompileSem.slook (s_ "s") env' = Some (Vm.VStr (s_ "ab"))).
Proof.
  split; [reflexivity|]. split; [reflexivity|]. split.
  - destruct (Compile.compile ex_p) eqn:Q; [eexists; reflexivity|]. vm_compute in Q. discriminate Q.
  - eexists. split; [vm_compute; reflexivity|]. split; vm_compute; reflexivity.
Qed.

Example C16_tie_ex_sem :
  let r := run_program 200 ex_P (init_state None [] false false) in
  fst r = ODone /\
  option_map (reify (st_heap (snd r))) (frame_get (s_ "x") (st_globals (snd r))) = Some (Some (Vm.VNum 4%float)) /\
  option_map (reify (st_heap (snd r))) (frame_get (s_ "s") (st_globals (snd r))) = Some (Some (Vm.VStr (s_ "ab"))).
Proof. vm_compute. repeat split; reflexivity. Qed.

(* arrays, indexing, concatenation, string indexing:
   a := [1 2]
   b := a + [3]
   x := b[2]
   s := "hey"
   c := s[1]
   e := a[0] == 1 *)
Definition ex_q : Compile.slist :=
  Compile.SCons (Compile.SDecl (s_ "a") (Compile.EArr (Compile.ECons (Compile.ENum 1%float) (Compile.ECons (Compile.ENum 2%float) Compile.ENil))))
  (Compile.SCons (Compile.SDecl (s_ "b") (Compile.EBin Compile.BPlus Compile.TArr Compile.TArr (Compile.EVar (s_ "a")) (Compile.EArr (Compile.ECons (Compile.ENum 3%float) Compile.ENil))))
  (Compile.SCons (Compile.SDecl (s_ "x") (Compile.EIndex (Compile.EVar (s_ "b")) (Compile.ENum 2%float)))
  (Compile.SCons (Compile.SDecl (s_ "s") (Compile.EStr (s_ "hey")))
  (Compile.SCons (Compile.SDecl (s_ "c") (Compile.EIndex (Compile.EVar (s_ "s")) (Compile.ENum 1%float)))
  (Compile.SCons (Compile.SDecl (s_ "e") (Compile.EBin Compile.BEq Compile.TNum Compile.TNum (Compile.EIndex (Compile.EVar (s_ "a")) (Compile.ENum 0%float)) (Compile.ENum 1%float)))
   Compile.SNil))))).
Definition ex_Q : program := {| p_funcs := []; p_handlers := []; p_stmts := tr_l ex_q |}.

Example C16_tie_ex_arrays :
  tfrag_l ex_q = true /\ CompileSem.lpfrag ex_q = true /\
  (exists env', CompileSem.lx_l 40 ex_q [[]] = Some (env', false) /\
                CompileSem.slook (s_ "x") env' = Some (Vm.VNum 3%float) /\
                CompileSem.slook (s_ "c") env' = Some (Vm.VStr (s_ "e")) /\
                CompileSem.slook (s_ "e") env' = Some (Vm.VBool true) /\
                CompileSem.slook (s_ "b") env' = Some (Vm.VArr [Vm.VNum 1%float; Vm.VNum 2%float; Vm.VNum 3%float])) /\
  (let r := run_program 200 ex_Q (init_state None [] false false) in
   fst r = ODone /\
   option_map (reify (st_heap (snd r))) (frame_get (s_ "x") (st_globals (snd r))) = Some (Some (Vm.VNum 3%float)) /\
   option_map (reify (st_heap (snd r))) (frame_get (s_ "c") (st_globals (snd r))) = Some (Some (Vm.VStr (s_ "e"))) /\
   option_map (reify (st_heap (snd r))) (frame_get (s_ "e") (st_globals (snd r))) = Some (Some (Vm.VBool true))).
Proof.
  split; [reflexivity|]. split; [reflexivity|]. split.
  - eexists. split; [vm_compute; reflexivity|]. repeat split; vm_compute; reflexivity.
  - vm_compute. repeat split; reflexivity.
Qed.
