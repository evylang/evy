(* C18 — `evy fmt` never damages a source file and --check tells the truth.
   Property theorems only, each an instance of a lemma of FmtCmdProofs.

   All theorems quantify over: the formatter (fmt1 : parse + format of one evy
   source, None = does not parse; parts/join : how a file is split into evy
   sources and put together again — identity for x.evy, txtar for x.txtar),
   the initial file system, the target and temp paths, EVERY schedule of call
   outcomes (any number of failing or short reads/writes/closes/renames…, not
   only single failures) and EVERY kill point. *)
From Coq Require Import ZArith NArith List.
From EvyV Require Import Base FmtCmd FmtCmdProofs.
Import ListNotations.

(* the run never ends by exhausting the model's fuel (termination of the read and write loops) *)
Theorem C18_run_never_out_of_fuel : forall fmt1 parts join v c target tmp fs sched kill,
  r_status (run fmt1 parts join v c target tmp fs sched kill) <> OutOfFuel.
Proof. exact run_no_fuel. Qed.
Print Assumptions C18_run_never_out_of_fuel.

(* fmt -w (protocol in force and the one before the fix alike): in every reachable final state the target holds what it
   held before (bytes AND mode) or the complete formatted text; and exit status 0
   implies the latter *)
Theorem C18_fmt_w_atomic : forall fmt1 parts join v target tmp fs sched kill,
  let r := run fmt1 parts join v CmdWrite target tmp fs sched kill in
  (files (r_fs r) target = files fs target \/
   exists f0 out m, files fs target = Some f0 /\ fmt_all fmt1 parts join (f_data f0) = Some out /\
                    files (r_fs r) target = Some {| f_data := out; f_mode := m |}) /\
  (r_status r = Exit 0 ->
   exists f0 out m, files fs target = Some f0 /\ fmt_all fmt1 parts join (f_data f0) = Some out /\
                    files (r_fs r) target = Some {| f_data := out; f_mode := m |}).
Proof. exact fmt_w_atomic. Qed.
Print Assumptions C18_fmt_w_atomic.

(* what may remain after a kill or a failure: every other path is untouched, except
   the temp path, which did not exist before and holds a prefix of the formatted text *)
Theorem C18_fmt_w_leftover_only_temp : forall fmt1 parts join v target tmp fs sched kill q,
  let r := run fmt1 parts join v CmdWrite target tmp fs sched kill in
  q <> target ->
  files (r_fs r) q = files fs q \/
  (q = tmp /\ files fs tmp = None /\
   exists f0 out f rest, files fs target = Some f0 /\ fmt_all fmt1 parts join (f_data f0) = Some out /\
                         files (r_fs r) tmp = Some f /\ out = f_data f ++ rest).
Proof. exact fmt_w_leftover. Qed.
Print Assumptions C18_fmt_w_leftover_only_temp.

(* permission bits are preserved — unguarded, for the protocol in force (main.go since
   commit c62275b: stat; fchmod the temp file to the target's bits before the rename) *)
Theorem C18_fmt_w_mode_preserved : forall fmt1 parts join target tmp fs sched kill f,
  files (r_fs (run fmt1 parts join Current CmdWrite target tmp fs sched kill)) target = Some f ->
  exists f0, files fs target = Some f0 /\ f_mode f = f_mode f0.
Proof. exact fmt_w_mode_preserved. Qed.
Print Assumptions C18_fmt_w_mode_preserved.

(* the protocol in force cleans up: when the process has exited (was not killed), the temp path
   holds what it held before (nothing, if the temp file had been created), unless the clean-up
   unlink itself failed *)
Theorem C18_fmt_w_no_temp_left : forall fmt1 parts join target tmp fs sched kill n,
  let r := run fmt1 parts join Current CmdWrite target tmp fs sched kill in
  r_status r = Exit n ->
  files (r_fs r) tmp = files fs tmp \/ exists e, In (CUnlink tmp, RErr e) (r_trace r).
Proof. exact fmt_w_no_temp_left. Qed.
Print Assumptions C18_fmt_w_no_temp_left.

Definition ex_target : path := [97; 46; 101; 118; 121]%N.          (* a.evy *)
Definition ex_tmp : path := [101; 118; 121; 49]%N.                  (* evy1 *)
Definition ex_fs (d : bytes) : fsys :=
  {| files := fun q => if str_eqb q ex_target then Some {| f_data := d; f_mode := 420 |} else None; dirw := true |}.

(* regression lemmas about the protocol before the fix (write_atomically_before_fix).
   It did NOT preserve the mode: a 0644 file ends with 0600 ... *)
Theorem C18_fmt_w_mode_preserved_before_fix_refuted :
  exists fs target tmp sched kill f0 f,
    files fs target = Some f0 /\
    files (r_fs (run (fun b => Some b) evy_parts evy_join BeforeFix CmdWrite target tmp fs sched kill)) target = Some f /\
    f_mode f <> f_mode f0.
Proof.
  exists (ex_fs [120; 10]%N), ex_target, ex_tmp, [], 100%nat.
  exists {| f_data := [120; 10]%N; f_mode := 420 |}, {| f_data := [120; 10]%N; f_mode := 384 |}.
  vm_compute. repeat split; try reflexivity. discriminate.
Qed.
Print Assumptions C18_fmt_w_mode_preserved_before_fix_refuted.

(* ... in fact every successful run of it left mode 0600 ... *)
Theorem C18_fmt_w_before_fix_success_sets_0600 : forall fmt1 parts join target tmp fs sched kill,
  let r := run fmt1 parts join BeforeFix CmdWrite target tmp fs sched kill in
  r_status r = Exit 0 -> exists f, files (r_fs r) target = Some f /\ f_mode f = mode0600.
Proof. exact fmt_w_before_fix_success_mode. Qed.
Print Assumptions C18_fmt_w_before_fix_success_sets_0600.

(* ... and preserved it only under the guard "it was 0600 already" *)
Theorem C18_fmt_w_mode_preserved_before_fix_partial : forall fmt1 parts join target tmp fs sched kill f f0,
  files fs target = Some f0 -> f_mode f0 = mode0600 ->
  files (r_fs (run fmt1 parts join BeforeFix CmdWrite target tmp fs sched kill)) target = Some f ->
  f_mode f = f_mode f0.
Proof. exact fmt_w_mode_preserved_before_fix_guarded. Qed.
Print Assumptions C18_fmt_w_mode_preserved_before_fix_partial.

(* a file that does not parse: the only system calls are the reads of the target
   (open/fstat/read/close), the file system is unchanged, the status is not 0 —
   for -w, -c and plain fmt alike *)
Theorem C18_unparsable_untouched : forall fmt1 parts join v c target tmp fs sched kill f0,
  files fs target = Some f0 -> fmt_all fmt1 parts join (f_data f0) = None ->
  let r := run fmt1 parts join v c target tmp fs sched kill in
  r_fs r = fs /\ Forall (fun e => is_read_call target (fst e)) (r_trace r) /\ r_status r <> Exit 0.
Proof. exact unparsable_untouched. Qed.
Print Assumptions C18_unparsable_untouched.

(* fmt -c performs no write under any schedule, and status 0 is never a lie *)
Theorem C18_check_no_write_and_sound : forall fmt1 parts join v target tmp fs sched kill,
  let r := run fmt1 parts join v CmdCheck target tmp fs sched kill in
  r_fs r = fs /\ Forall (fun e => is_read_call target (fst e)) (r_trace r) /\
  (r_status r = Exit 0 -> exists f0, files fs target = Some f0 /\ check_ok fmt1 parts (f_data f0) = true).
Proof. exact check_no_write. Qed.
Print Assumptions C18_check_no_write_and_sound.

(* without faults the status is 0 exactly for formatted input ... *)
Theorem C18_check_truth : forall fmt1 parts join v target tmp fs k f0,
  files fs target = Some f0 ->
  r_status (run fmt1 parts join v CmdCheck target tmp fs [] (5 + k)) =
  if check_ok fmt1 parts (f_data f0) then Exit 0 else Exit 1.
Proof. exact check_truth_nofault. Qed.
Print Assumptions C18_check_truth.

(* ... where, for a plain .evy file, "formatted" is  src = format src *)
Theorem C18_check_ok_is_fixpoint_of_format : forall fmt1 src,
  check_ok fmt1 evy_parts src = true <-> fmt_all fmt1 evy_parts evy_join src = Some src.
Proof. exact evy_check_ok_iff. Qed.
Print Assumptions C18_check_ok_is_fixpoint_of_format.

(* several files in one invocation.  fmt -c f1 … fn: no write under any schedule; only reads of
   listed files; status 0 is never a lie about ANY of the files *)
Theorem C18_check_multi_no_write_and_sound : forall fmt1 parts join v fl fs sched kill,
  let r := run_files fmt1 parts join v CmdCheck fl fs sched kill in
  r_fs r = fs /\
  Forall (fun e => exists t, In t (map fst fl) /\ is_read_call t (fst e)) (r_trace r) /\
  (r_status r = Exit 0 ->
   Forall (fun t => exists f0, files fs t = Some f0 /\ check_ok fmt1 parts (f_data f0) = true) (map fst fl)).
Proof. exact check_multi_no_write. Qed.
Print Assumptions C18_check_multi_no_write_and_sound.

(* without faults: status 0 iff EVERY file is formatted (whatever the order of the files) *)
Theorem C18_check_truth_multi : forall fmt1 parts join v fl fs k,
  (forall t, In t (map fst fl) -> files fs t <> None) ->
  r_status (run_files fmt1 parts join v CmdCheck fl fs [] (5 * List.length fl + k)) =
  if all_ok fmt1 parts fs fl then Exit 0 else Exit 1.
Proof. exact check_truth_multi. Qed.
Print Assumptions C18_check_truth_multi.

(* fmt -w f1 … fn (distinct targets, temp names that are not targets): under every schedule and
   kill point a prefix of the targets holds the complete formatted text (with the protocol's final
   mode), at most one target is "old or formatted", every later target and every other path that
   is not a temp name is untouched; status 0 implies all are formatted *)
Theorem C18_fmt_w_multi_atomic : forall fmt1 parts join v fl fs sched kill,
  NoDup (map fst fl) -> (forall p, In p fl -> ~ In (snd p) (map fst fl)) ->
  let r := run_files fmt1 parts join v CmdWrite fl fs sched kill in
  progress fmt1 parts join v fs (r_fs r) (map fst fl) /\ frame fl fs (r_fs r) /\
  (r_status r = Exit 0 -> Forall (formatted_to fmt1 parts join v fs (r_fs r)) (map fst fl)) /\
  r_status r <> OutOfFuel.
Proof. exact fmt_w_multi_atomic. Qed.
Print Assumptions C18_fmt_w_multi_atomic.

(* read pointwise: each target independently holds its old entry or the formatted text *)
Theorem C18_fmt_w_multi_each : forall fmt1 parts join v fs fs' ts t,
  progress fmt1 parts join v fs fs' ts -> In t ts ->
  files fs' t = files fs t \/ formatted_to fmt1 parts join v fs fs' t.
Proof. exact progress_each. Qed.
Print Assumptions C18_fmt_w_multi_each.

(* an unparsable file among several: it and every file after it are untouched *)
Theorem C18_multi_unparsable_untouched : forall fmt1 parts join v fs fs' pre t post f0,
  progress fmt1 parts join v fs fs' (pre ++ t :: post) ->
  files fs t = Some f0 -> fmt_all fmt1 parts join (f_data f0) = None ->
  files fs' t = files fs t /\ forall t', In t' post -> files fs' t' = files fs t'.
Proof. exact progress_unparsable. Qed.
Print Assumptions C18_multi_unparsable_untouched.

(* stdin mode (no files): -w is refused; -c exits 0 iff stdin = format stdin; plain fmt exits 0 iff
   stdin parses and then prints exactly the formatted text *)
Theorem C18_stdin_truth : forall fmt1 c input,
  (fst (fmt_stdin fmt1 c input) = Exit 0 <->
   match c with
   | CmdWrite => False
   | CmdCheck => fmt1 input = Some input
   | CmdPlain => fmt1 input <> None
   end) /\
  (c = CmdPlain -> forall o, fmt1 input = Some o -> snd (fmt_stdin fmt1 c input) = o).
Proof. exact stdin_truth. Qed.
Print Assumptions C18_stdin_truth.

(* a toy formatter: drops every space (32); input containing 63 '?' does not parse *)
Definition ex_fmt (b : bytes) : option bytes :=
  if existsb (N.eqb 63) b then None else Some (filter (fun c => negb (N.eqb c 32)) b).

(* killed during the write after a short write of 1 byte: target intact, temp holds a 1-byte prefix *)
Example C18_ex_kill_mid_write :
  let r := run ex_fmt evy_parts evy_join Current CmdWrite ex_target ex_tmp (ex_fs [120; 32; 121; 10]%N)
               [OOk; OOk; OOk; OOk; OOk; OOk; OOk; OCount 1] 8 in
  files (r_fs r) ex_target = Some {| f_data := [120; 32; 121; 10]%N; f_mode := 420 |} /\
  files (r_fs r) ex_tmp = Some {| f_data := [120]%N; f_mode := 384 |} /\ r_status r = Killed.
Proof. vm_compute. repeat split; reflexivity. Qed.

(* before the fix: ENOSPC from the second write after a short first one: exit 1, target intact, temp file left behind *)
Example C18_ex_enospc_before_fix :
  let r := run ex_fmt evy_parts evy_join BeforeFix CmdWrite ex_target ex_tmp (ex_fs [120; 32; 121; 10]%N)
               [OOk; OOk; OOk; OOk; OOk; OOk; OCount 2; OErr ENOSPC] 100 in
  files (r_fs r) ex_target = Some {| f_data := [120; 32; 121; 10]%N; f_mode := 420 |} /\
  files (r_fs r) ex_tmp = Some {| f_data := [120; 121]%N; f_mode := 384 |} /\ r_status r = Exit 1.
Proof. vm_compute. repeat split; reflexivity. Qed.

(* the same under the protocol in force: temp file removed *)
Example C18_ex_enospc :
  let r := run ex_fmt evy_parts evy_join Current CmdWrite ex_target ex_tmp (ex_fs [120; 32; 121; 10]%N)
               [OOk; OOk; OOk; OOk; OOk; OOk; OOk; OCount 2; OErr ENOSPC] 100 in
  files (r_fs r) ex_target = Some {| f_data := [120; 32; 121; 10]%N; f_mode := 420 |} /\
  files (r_fs r) ex_tmp = None /\ r_status r = Exit 1.
Proof. vm_compute. repeat split; reflexivity. Qed.

(* fault-free: formatted text; mode 0600 before the fix, 0644 kept now *)
Example C18_ex_success :
  files (r_fs (run ex_fmt evy_parts evy_join BeforeFix CmdWrite ex_target ex_tmp (ex_fs [120; 32; 121; 10]%N) [] 100)) ex_target
    = Some {| f_data := [120; 121; 10]%N; f_mode := 384 |} /\
  files (r_fs (run ex_fmt evy_parts evy_join Current CmdWrite ex_target ex_tmp (ex_fs [120; 32; 121; 10]%N) [] 100)) ex_target
    = Some {| f_data := [120; 121; 10]%N; f_mode := 420 |}.
Proof. vm_compute. split; reflexivity. Qed.

(* unparsable: five read calls, exit 1 *)
Example C18_ex_unparsable :
  let r := run ex_fmt evy_parts evy_join Current CmdWrite ex_target ex_tmp (ex_fs [63; 10]%N) [] 100 in
  List.length (r_trace r) = 5%nat /\ r_status r = Exit 1 /\ fmt_all ex_fmt evy_parts evy_join [63; 10]%N = None.
Proof. vm_compute. repeat split; reflexivity. Qed.

(* check mode: 0 for formatted, 1 for unformatted *)
Example C18_ex_check :
  r_status (run ex_fmt evy_parts evy_join Current CmdCheck ex_target ex_tmp (ex_fs [120; 121; 10]%N) [] 100) = Exit 0 /\
  r_status (run ex_fmt evy_parts evy_join Current CmdCheck ex_target ex_tmp (ex_fs [120; 32; 121; 10]%N) [] 100) = Exit 1.
Proof. vm_compute. split; reflexivity. Qed.

(* regression: before the fix an ENOSPC left the temp file behind although the process exited normally *)
Theorem C18_fmt_w_no_temp_left_before_fix_refuted :
  exists sched kill,
    let r := run ex_fmt evy_parts evy_join BeforeFix CmdWrite ex_target ex_tmp (ex_fs [120; 32; 121; 10]%N) sched kill in
    r_status r = Exit 1 /\ files (ex_fs [120; 32; 121; 10]%N) ex_tmp = None /\ files (r_fs r) ex_tmp <> None /\
    forall e, ~ In (CUnlink ex_tmp, RErr e) (r_trace r).
Proof.
  exists [OOk; OOk; OOk; OOk; OOk; OOk; OCount 2; OErr ENOSPC], 100%nat.
  vm_compute. repeat split; try discriminate.
  intros e H. repeat (destruct H as [H|H]; [discriminate|]). exact H.
Qed.
Print Assumptions C18_fmt_w_no_temp_left_before_fix_refuted.

(* two files, the unformatted one FIRST: check must say 1 (the order must not matter) *)
Definition ex_t2 : path := [98; 46; 101; 118; 121]%N.                  (* b.evy *)
Definition ex_fs2 (d1 d2 : bytes) : fsys :=
  {| files := fun q => if str_eqb q ex_target then Some {| f_data := d1; f_mode := 420 |}
                       else if str_eqb q ex_t2 then Some {| f_data := d2; f_mode := 384 |} else None;
     dirw := true |}.
Example C18_ex_check_two_files :
  r_status (run_files ex_fmt evy_parts evy_join Current CmdCheck [(ex_target, ex_tmp); (ex_t2, ex_tmp)]
              (ex_fs2 [120; 32; 121; 10]%N [120; 10]%N) [] 100) = Exit 1 /\
  r_status (run_files ex_fmt evy_parts evy_join Current CmdCheck [(ex_target, ex_tmp); (ex_t2, ex_tmp)]
              (ex_fs2 [120; 10]%N [120; 32; 121; 10]%N) [] 100) = Exit 1 /\
  r_status (run_files ex_fmt evy_parts evy_join Current CmdCheck [(ex_target, ex_tmp); (ex_t2, ex_tmp)]
              (ex_fs2 [120; 10]%N [121; 10]%N) [] 100) = Exit 0.
Proof. vm_compute. repeat split; reflexivity. Qed.

(* -w over [unparsable; unformatted]: exit 1 and the second file is not touched *)
Example C18_ex_write_two_files :
  let r := run_files ex_fmt evy_parts evy_join Current CmdWrite [(ex_target, ex_tmp); (ex_t2, ex_tmp)]
             (ex_fs2 [63; 10]%N [120; 32; 121; 10]%N) [] 100 in
  r_status r = Exit 1 /\ files (r_fs r) ex_t2 = Some {| f_data := [120; 32; 121; 10]%N; f_mode := 384 |}.
Proof. vm_compute. split; reflexivity. Qed.

(* the formatter is a function of the BYTES: with a formatter that rejects byte 13 (CR, as evy's
   lexer does), a file that is formatted except for CRLF line endings is NOT reported as formatted
   and is left untouched by -w *)
Definition ex_fmt_cr (b : bytes) : option bytes :=
  if existsb (N.eqb 13) b then None else Some (filter (fun c => negb (N.eqb c 32)) b).
Example C18_ex_crlf :
  let crlf := [120; 13; 10]%N in
  r_status (run ex_fmt_cr evy_parts evy_join Current CmdCheck ex_target ex_tmp (ex_fs crlf) [] 100) = Exit 1 /\
  (let r := run ex_fmt_cr evy_parts evy_join Current CmdWrite ex_target ex_tmp (ex_fs crlf) [] 100 in
   r_status r = Exit 1 /\ files (r_fs r) ex_target = Some {| f_data := crlf; f_mode := 420 |} /\
   List.length (r_trace r) = 5%nat) /\
  fst (fmt_stdin ex_fmt_cr CmdCheck crlf) = Exit 1.
Proof. vm_compute. repeat split; reflexivity. Qed.
