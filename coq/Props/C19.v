(* C19 — SVG output is well formed and shows exactly what was drawn.
   Property theorems only; every proof is [exact <lemma of SvgProofs>].

   [run fx fuel pre_init (program l)] is the model of svg.GraphicsPlatform
   executing NewGraphicsPlatform (which itself calls Clear("white")) followed by
   the calls l; [render] is what WriteSVG encodes (after its final Push);
   [flatten] resolves the attributes inherited from <g> and <svg> (and SVG's
   initial values) to one (geometry, paint, font) triple per leaf shape;
   [spec fx fuel] pairs each drawing call, in order, with its geometry and the
   pen / font in force when it was issued.  [fx : fixes] has one switch per
   recorded defect: [cur] is /repo HEAD (lone-element fix 7a67899 and gridn
   check 292a02f are in), [all] has every proposed fix, [none] is the code
   before the fix commits.  [spec all] is the intended meaning.  [None] = a
   gridn loop did not end within [fuel] rounds (OutOfFuel), which no theorem
   treats as success. *)
(* Floats is deliberately not imported before the theorems, so that Print
   Assumptions names the kernel's float primitives with their module prefix. *)
From Coq Require Import ZArith List String.
From Coq Require Floats.
From EvyV Require Import Base Svg SvgProofs.
From EvyV.Gen Require Import SvgConsts.
Import ListNotations.

(* ---- the model in force (HEAD) ---- *)
(* Over all histories: the document shows [spec cur], i.e. the intended meaning
   except for the four remaining local deviations (ellipse y, text paint,
   baseline names, default family), each refuted below.  The only guard left is
   the text-paint one: no text pushed alone with an unset stroke colour and a
   set, non-default fill colour (guard cur checks nothing else: fx_lone is on). *)
Theorem C19_svg_shows_what_was_drawn : forall (fuel : nat) (l : list cmd) (st : state),
  run cur fuel pre_init (program l) = Some st ->
  guard cur fuel pre_init (program l) = true ->
  spec cur fuel (program l) = Some (flatten (render cur st)).
Proof. intros fuel l. exact (shows_what_was_drawn cur fuel (program l)). Qed.
Print Assumptions C19_svg_shows_what_was_drawn.

(* the model in force against the INTENDED meaning ([intended b]: every switch
   about what is shown is on; b says which grid loop computes the positions —
   the one the model in force runs); the guard excludes exactly the calls the
   remaining deviations are about: no ellipse, no text *)
Theorem C19_svg_shows_what_was_drawn_guarded : forall (fuel : nat) (l : list cmd) (st : state),
  run cur fuel pre_init (program l) = Some st ->
  forallb no_dev l = true ->
  spec (intended (fx_gridn_bound cur)) fuel (program l) = Some (flatten (render cur st)).
Proof. intros fuel l st. exact (shows_what_was_drawn_guarded cur fuel l st eq_refl). Qed.
Print Assumptions C19_svg_shows_what_was_drawn_guarded.

(* ---- full strength, no guard, for the model with every proposed fix ---- *)
Theorem C19_svg_shows_what_was_drawn_fixed : forall (fuel : nat) (l : list cmd) (st : state),
  run all fuel pre_init (program l) = Some st ->
  spec all fuel (program l) = Some (flatten (render all st)).
Proof. intros fuel l. exact (shows_what_was_drawn_fixed fuel (program l)). Qed.
Print Assumptions C19_svg_shows_what_was_drawn_fixed.

(* ---- regression: the code before 7a67899 needed the lone clear / lone grid guard ---- *)
Theorem C19_svg_shows_what_was_drawn_before_fix : forall (fuel : nat) (l : list cmd) (st : state),
  run none fuel pre_init (program l) = Some st ->
  guard none fuel pre_init (program l) = true ->
  spec none fuel (program l) = Some (flatten (render none st)).
Proof. intros fuel l. exact (shows_what_was_drawn none fuel (program l)). Qed.
Print Assumptions C19_svg_shows_what_was_drawn_before_fix.

(* no document is written exactly when the specification has no value (a gridn
   loop that does not end), for every variant *)
Theorem C19_hangs_iff_spec_undefined : forall (fx : fixes) (fuel : nat) (l : list cmd),
  run fx fuel pre_init l = None <-> spec fx fuel l = None.
Proof. exact hangs_iff_spec_undefined. Qed.
Print Assumptions C19_hangs_iff_spec_undefined.

(* one shape per drawing call, in order *)
Theorem C19_one_shape_per_drawing_call : forall (fx : fixes) (fuel : nat) (kk : core) (c : cmd),
  (is_draw c = true -> is_gridn c = false -> exists sh, spec_shapes fx fuel kk c = Some [sh]) /\
  (is_draw c = false -> spec_shapes fx fuel kk c = Some []).
Proof. intros. split; [apply spec_one_shape | apply spec_no_shape]. Qed.
Print Assumptions C19_one_shape_per_drawing_call.

Theorem C19_shape_count : forall (fx : fixes) (fuel : nat) (l : list cmd) (kk : core) (out : list fshape),
  forallb (fun c => negb (is_gridn c)) l = true ->
  spec_from fx fuel kk l = Some out ->
  List.length out = List.length (filter is_draw l).
Proof. exact spec_count. Qed.
Print Assumptions C19_shape_count.

(* ---- gridn: termination ---- *)
(* With the bound (proposed_fixes/C19-gridn-tiny-unit.diff: gridnFunc rejects
   units below minGridUnit = 0.01 and NaN; Gridn counts its rounds with an
   integer, at most maxGridRounds + 1 of them) termination is UNCONDITIONAL:
   for every binary64 unit whatsoever and every fuel the loop ends, with at most
   2 * (maxGridRounds + 1) = 2 * (100/0.01 + 1) lines.  No measure hypothesis. *)
Theorem C19_gridn_terminates : forall (fx : fixes) (fuel : nat) (unit : PrimFloat.float),
  fx_gridn_bound fx = true ->
  exists l, grid_lines fx fuel unit = Some l /\ (List.length l <= 2 * Z.to_nat (grid_max_rounds + 1))%nat.
Proof. exact gridn_terminates_bounded. Qed.
Print Assumptions C19_gridn_terminates.

(* … hence a document is written for EVERY history (the `terminates` half of the property) *)
Theorem C19_never_hangs : forall (fx : fixes) (fuel : nat) (l : list cmd),
  fx_gridn_bound fx = true -> exists st, run fx fuel pre_init l = Some st.
Proof. intros fx fuel l H. exact (never_hangs fx fuel l H pre_init). Qed.
Print Assumptions C19_never_hangs.

(* … and every gridn call that reaches the platform has a unit >= minGridUnit (so not NaN, not tiny) *)
Theorem C19_gridn_unit_at_least_min : forall (fx : fixes) (l : list cmd) (u : PrimFloat.float) (c : str),
  fx_gridn_bound fx = true -> In (CGridn u c) (effective fx l) -> PrimFloat.leb grid_min_unit u = true.
Proof. exact effective_units_at_least_min. Qed.
Print Assumptions C19_gridn_unit_at_least_min.

(* the check of 292a02f (unit <= 0), for any variant that has it and not yet the bound *)
Theorem C19_gridn_nonpositive_unit_rejected : forall (fx : fixes) (l : list cmd) (u : PrimFloat.float) (c : str),
  fx_gridn fx = true -> fx_gridn_bound fx = false ->
  (PrimFloat.leb u PrimFloat.zero = true -> wrapper_accepts fx (CGridn u c) = false) /\
  (In (CGridn u c) (effective fx l) -> PrimFloat.leb u PrimFloat.zero = false).
Proof.
  intros fx l u c G B. split.
  - exact (gridn_nonpositive_rejected fx u c G B).
  - exact (effective_units_positive fx l u c G B).
Qed.
Print Assumptions C19_gridn_nonpositive_unit_rejected.

(* ---- gridn: the accumulating loop `for i := 0.0; i <= 1000; i += unit` (before the bound) ---- *)
(* all that can be said of it: it ends under the ABSTRACT condition that a
   natural-number measure of the loop variable strictly decreases in every round entered *)
Theorem C19_gridn_terminates_partial_before_fix : forall (unit : PrimFloat.float) (m : PrimFloat.float -> nat),
  (forall i, PrimFloat.leb i grid_bound = true -> (m (fadd i (tx unit)) < m i)%nat) ->
  exists fuel l, old_loop fuel unit = Some l.
Proof. exact gridn_terminates_if_measure. Qed.
Print Assumptions C19_gridn_terminates_partial_before_fix.

(* "it terminates for every positive unit" is false: with unit 1e-17 (which the
   check unit <= 0 lets through) the loop variable stalls at 1: 1 + 10*1e-17 = 1
   in binary64 and 1 <= 1000, so from there the loop never ends, whatever the fuel *)
(* [float_of_bits 4352464011485697175] is the binary64 number 1e-17 (see C19_refuted_gridn_tiny_unit) *)
Theorem C19_gridn_stalls_before_fix :
  fadd PrimFloat.one (tx (float_of_bits 4352464011485697175%Z)) = PrimFloat.one /\
  (forall fuel cnt, grid_loop fuel PrimFloat.one (tx (float_of_bits 4352464011485697175%Z)) cnt = None).
Proof.
  assert (E : fadd PrimFloat.one (tx (float_of_bits 4352464011485697175%Z)) = PrimFloat.one) by (vm_compute; reflexivity).
  split; [exact E|]. apply grid_loop_stuck; [vm_compute; reflexivity | exact E].
Qed.
Print Assumptions C19_gridn_stalls_before_fix.

(* regression (before 292a02f): units 0 and -infinity reached the loop, which
   then never ends, whatever the fuel *)
Theorem C19_gridn_never_ends_before_fix :
  (forall c, wrapper_accepts none (CGridn PrimFloat.zero c) = true) /\
  (forall fuel, old_loop fuel PrimFloat.zero = None) /\
  (forall c, wrapper_accepts none (CGridn PrimFloat.neg_infinity c) = true) /\
  (forall fuel, old_loop fuel PrimFloat.neg_infinity = None).
Proof.
  split; [reflexivity|]. split; [exact gridn_zero_never_ends|].
  split; [reflexivity | exact gridn_neg_infinity_never_ends].
Qed.
Print Assumptions C19_gridn_never_ends_before_fix.

(* ---------- refutations ---------- *)
Import Floats.
Definition shows (fx_model fx_spec : fixes) (fuel : nat) (l : list cmd) : Prop :=
  exists st, run fx_model fuel pre_init (program l) = Some st /\
             spec fx_spec fuel (program l) = Some (flatten (render fx_model st)).
Definition refutes (fx_model fx_spec : fixes) (l : list cmd) : Prop :=
  exists st, run fx_model 100 pre_init (program l) = Some st /\
             spec fx_spec 100 (program l) <> Some (flatten (render fx_model st)).

Local Open Scope string_scope.
Ltac refute := eexists; split; [vm_compute; reflexivity | vm_compute; let H := fresh in (intro H; discriminate H)].
Ltac holds := eexists; split; [vm_compute; reflexivity | vm_compute; reflexivity].

(* [cur] with exactly one more switch on: what the document would have to show
   if only that deviation were repaired *)
Definition cur_ellipse : fixes := mkFx true true true (fx_gridn_bound cur) false false false.
Definition cur_text : fixes := mkFx false true true (fx_gridn_bound cur) true false false.
Definition cur_baseline : fixes := mkFx false true true (fx_gridn_bound cur) false true false.
Definition cur_family : fixes := mkFx false true true (fx_gridn_bound cur) false false true.
(* the code with the unit <= 0 check but without the bound (HEAD until the bound lands) *)
Definition unbounded : fixes := mkFx false true true false false false false.

(* [cur] says of the gridn bound what the translator found in the source *)
Example C19_cur_mirrors_source : fx_gridn_bound cur = grid_bound_in_source.
Proof. reflexivity. Qed.

(* remaining deviation 5 (finding gridn-tiny-unit-does-not-terminate) — `gridn 0.00000000000000001 "red"`:
   accepted by the check unit <= 0, and the loop stalls (theorem above with the
   exact literal; here the decimal one); the bound rejects it, as it rejects NaN *)
Example C19_refuted_gridn_tiny_unit :
  wrapper_accepts unbounded (CGridn 1e-17 (s_ "red")) = true /\
  float_of_bits 4352464011485697175%Z = 1e-17%float /\
  fadd 1 (tx 1e-17) = 1%float /\ old_loop 2000 1e-17 = None /\
  wrapper_accepts all (CGridn 1e-17 (s_ "red")) = false /\
  wrapper_accepts all (CGridn nan (s_ "red")) = false /\
  wrapper_accepts all (CGridn 0.01 (s_ "red")) = true.
Proof. vm_compute. repeat split; reflexivity. Qed.

(* remaining deviation 1 — `ellipse 50 20 10`: cy = 200 instead of 800 *)
Definition second_cy (o : option (list fshape)) : float :=
  match o with Some (_ :: (GEllipse _ y _ _ _, _, _) :: _) => y | _ => 0%float end.
Example C19_refuted_ellipse_cy_not_flipped :
  refutes cur cur_ellipse [CEllipse 50 20 10 10 0] /\ guard cur 100 pre_init (program [CEllipse 50 20 10 10 0]) = true.
Proof.
  split; [|vm_compute; reflexivity].
  eexists; split; [vm_compute; reflexivity|]. intro H.
  apply (f_equal second_cy) in H. apply (f_equal (fun x => PrimFloat.eqb x 800)) in H.
  vm_compute in H. discriminate H.
Qed.

(* remaining deviation 2 — `stroke "blue"` / `fill "red"` / `text "x"`: filled and stroked blue *)
Example C19_refuted_text_painted_with_stroke_colour :
  refutes cur cur_text [CStroke (s_ "blue"); CFill (s_ "red"); CText (s_ "x")].
Proof. refute. Qed.
(* … and its guard clause: `stroke ""` / `fill "red"` / `text "x"`, the text pushed alone *)
Example C19_refuted_lone_text_stroke_unset :
  refutes cur cur [CStroke []; CFill (s_ "red"); CText (s_ "x")] /\
  guard cur 100 pre_init (program [CStroke []; CFill (s_ "red"); CText (s_ "x")]) = false.
Proof. split; [refute | vm_compute; reflexivity]. Qed.

(* remaining deviation 3 — `font {baseline:"top"}` / `text "x"`: dominant-baseline="top" *)
Example C19_refuted_font_baseline_not_mapped :
  refutes cur cur_baseline [CFont (mkFP None None None None (Some (s_ "top")) None None); CText (s_ "x")].
Proof. refute. Qed.

(* remaining deviation 4 — `text "x"`: no font-family anywhere *)
Example C19_refuted_default_font_family_not_written :
  refutes cur cur_family [CText (s_ "x")].
Proof. refute. Qed.

(* ---------- regression lemmas for the repaired defects ---------- *)
(* `color "red"` / `clear "blue"` / `width 2` / `circle 1`: before 7a67899 the lone clear was written fill="red" *)
Example C19_lone_clear_before_fix :
  refutes none none [CColor (s_ "red"); CClear (s_ "blue"); CWidth 2; CCircle 1] /\
  shows cur cur 100 [CColor (s_ "red"); CClear (s_ "blue"); CWidth 2; CCircle 1].
Proof. split; [refute | holds]. Qed.

(* `width 0.1` / `clear "blue"`: value equal to the default, pointer not: all attributes were wiped *)
Example C19_lone_clear_after_width_before_fix :
  refutes none none [CWidth 0.1; CClear (s_ "blue")] /\ shows cur cur 100 [CWidth 0.1; CClear (s_ "blue")].
Proof. split; [refute | holds]. Qed.

(* `color "red"` / `gridn 50 "green"` / `color "blue"` *)
Example C19_lone_grid_before_fix :
  refutes none none [CColor (s_ "red"); CGridn 50 (s_ "green"); CColor (s_ "blue")] /\
  shows cur cur 100 [CColor (s_ "red"); CGridn 50 (s_ "green"); CColor (s_ "blue")].
Proof. split; [refute | holds]. Qed.

(* `circle 1` / `gridn 0 "red"` / `circle 2`: with the check in force only the first circle reaches the platform *)
Example C19_gridn_zero_rejected :
  effective cur [CCircle 1; CGridn 0 (s_ "red"); CCircle 2] = [CCircle 1] /\
  rejected cur [CCircle 1; CGridn 0 (s_ "red"); CCircle 2] = true /\
  effective none [CCircle 1; CGridn 0 (s_ "red"); CCircle 2] = [CCircle 1; CGridn 0 (s_ "red"); CCircle 2].
Proof. vm_compute. repeat split; reflexivity. Qed.

(* ---------- non-vacuity ---------- *)
Definition sample : list cmd :=
  [CMove 20 0; CRect 10 30; CColor (s_ "red"); CCircle 10; CGridn 50 (s_ "gray");
   CWidth 2; CDash [5%float; 3%float]; CLine 50 50; CPoly [(10%float, 20%float); (30%float, 40%float)];
   CFill (s_ "none"); CFont (mkFP (Some (s_ "serif")) (Some 4%float) None None None (Some (s_ "center")) None);
   CClear (s_ "blue"); CRect 1 1; CStroke (s_ "blue"); CText (s_ "<b>&")].

Example C19_ex_hypotheses :
  guard cur 100 pre_init (program sample) = true /\ shows cur cur 100 sample /\
  (exists out, spec cur 100 (program sample) = Some out /\ List.length out = 14%nat).
Proof.
  split; [vm_compute; reflexivity|].
  split; (eexists; split; [vm_compute; reflexivity | vm_compute; reflexivity]).
Qed.

Example C19_ex_fixed : shows all all 100 sample.
Proof. holds. Qed.

Example C19_ex_before_fix_hypotheses : guard none 100 pre_init (program sample) = true /\ shows none none 100 sample.
Proof. split; [vm_compute; reflexivity | holds]. Qed.

Example C19_ex_guarded_hypotheses :
  let l := [CMove 20 0; CRect 10 30; CColor (s_ "red"); CClear (s_ "blue"); CWidth 2; CGridn 50 (s_ "gray"); CStroke (s_ "x"); CLine 1 1] in
  forallb no_dev l = true /\ shows cur (intended (fx_gridn_bound cur)) 100 l.
Proof. split; [vm_compute; reflexivity | holds]. Qed.

(* the measure hypothesis is satisfiable: gridn (0/0) and gridn (1/0) *)
Example C19_ex_gridn_nan_terminates : exists fuel l, old_loop fuel nan = Some l.
Proof.
  exact (gridn_terminates_if_measure nan one_round nan_measure).
Qed.
Example C19_ex_gridn_infinity_terminates : exists fuel l, old_loop fuel infinity = Some l.
Proof.
  exact (gridn_terminates_if_measure infinity one_round infinity_measure).
Qed.

(* bounded facts: both loops draw the same 22 lines for the default grid; the
   smallest accepted unit 0.01 draws 20002 lines, within the bound 2 * 10001 *)
Example C19_ex_grid_default :
  (exists l, old_loop 102 10 = Some l /\ List.length l = 22%nat /\ grid_lines all 0 10 = Some l) /\
  (exists l, grid_lines all 0 0.01 = Some l /\ Z.of_nat (List.length l) = 20002%Z).
Proof.
  split.
  - eexists; split; [vm_compute; reflexivity | split; vm_compute; reflexivity].
  - (* the witness is left unevaluated, so that only its length is computed *)
    exists (grid_count (tx 0.01)). split; [reflexivity | vm_compute; reflexivity].
Qed.
