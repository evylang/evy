(* SealProofs.v — lemmas about Seal.v (framing, envelope round trip, tamper
   safety under named idealisations, front-matter state machine, answer
   verification). *)
From Coq Require Import ZArith NArith List Bool String Lia ZifyBool ZifyNat ZifyN.
From EvyV Require Import Base Seal.
Import ListNotations.
Open Scope N_scope.

Lemma be16_decode n : n < 65536 -> ((n / 256) mod 256) * 256 + n mod 256 = n.
Proof.
  intro H.
  assert (Hq : n / 256 < 256) by (apply N.div_lt_upper_bound; lia).
  rewrite (N.mod_small _ _ Hq).
  pose proof (N.div_mod' n 256). lia.
Qed.

Lemma unframe_cons v hi lo rest :
  unframe (v :: hi :: lo :: rest) =
  if N.of_nat (S (S (S (List.length rest)))) <? hi * 256 + lo + 3 then None
  else Some (firstn (N.to_nat (hi * 256 + lo)) rest, skipn (N.to_nat (hi * 256 + lo)) rest).
Proof. reflexivity. Qed.

Lemma unframe_layout v hi lo r a :
  N.of_nat (List.length r) = hi * 256 + lo -> unframe (v :: hi :: lo :: r ++ a) = Some (r, a).
Proof.
  intro H. rewrite unframe_cons.
  replace (N.of_nat (S (S (S (List.length (r ++ a)))))) with (N.of_nat (List.length r) + N.of_nat (List.length a) + 3)
    by (rewrite app_length; lia).
  destruct (N.ltb_spec (N.of_nat (List.length r) + N.of_nat (List.length a) + 3) (hi * 256 + lo + 3)) as [L|L]; [lia|].
  rewrite <- H, Nnat.Nat2N.id.
  rewrite firstn_app, firstn_all, Nat.sub_diag, skipn_app, skipn_all, Nat.sub_diag. simpl.
  rewrite app_nil_r. reflexivity.
Qed.

Lemma frame_roundtrip r a :
  N.of_nat (List.length r) < 65536 -> unframe (frame r a) = Some (r, a).
Proof.
  intro H. unfold frame, be16. cbn [app].
  apply unframe_layout. symmetry. apply be16_decode. exact H.
Qed.

(* the exact language accepted by unframe, and what it returns *)
Lemma unframe_exact c r a :
  unframe c = Some (r, a) <->
  exists v hi lo, c = v :: hi :: lo :: r ++ a /\ N.of_nat (List.length r) = hi * 256 + lo.
Proof.
  split; [|intros (v & hi & lo & -> & H); apply unframe_layout; exact H].
  destruct c as [|v [|hi [|lo rest]]]; try discriminate.
  rewrite unframe_cons.
  destruct (N.ltb_spec (N.of_nat (S (S (S (List.length rest))))) (hi * 256 + lo + 3)) as [L|L]; [discriminate|].
  intro E. inversion E; subst. exists v, hi, lo. split.
  - rewrite firstn_skipn. reflexivity.
  - rewrite firstn_length_le by lia. lia.
Qed.

Lemma unframe_too_short c :
  (List.length c < 3)%nat -> unframe c = None.
Proof. destruct c as [|v [|hi [|lo rest]]]; simpl List.length; intro; try reflexivity; lia. Qed.

Lemma unframe_shorter_than_declared v hi lo rest :
  N.of_nat (List.length rest) < hi * 256 + lo -> unframe (v :: hi :: lo :: rest) = None.
Proof.
  intro H. rewrite unframe_cons.
  destruct (N.ltb_spec (N.of_nat (S (S (S (List.length rest))))) (hi * 256 + lo + 3)) as [L|L]; [reflexivity|lia].
Qed.

Lemma frame_not_nil r a : frame r a <> [].
Proof. discriminate. Qed.

Section EnvelopeProofs.
  Variables PK SK RND : Type.
  Variable parse_pub : str -> option PK.
  Variable parse_priv : str -> option SK.
  Variable rsa_enc : PK -> RND -> bytes -> option bytes.
  Variable rsa_dec : SK -> bytes -> option bytes.
  Variable gcm_seal : bytes -> bytes -> bytes.
  Variable gcm_open : bytes -> bytes -> option bytes.
  Variable b64_enc : bytes -> str.
  Variable b64_dec : str -> option bytes.

  Notation encrypt := (encrypt PK RND parse_pub rsa_enc gcm_seal b64_enc).
  Notation decrypt := (decrypt SK parse_priv rsa_dec gcm_open b64_dec).
  Notation hybrid_encrypt := (hybrid_encrypt PK RND rsa_enc gcm_seal).
  Notation hybrid_decrypt := (hybrid_decrypt SK rsa_dec gcm_open).
  Notation seal_fm := (seal_fm PK RND parse_pub rsa_enc gcm_seal b64_enc).
  Notation unseal_fm := (unseal_fm SK parse_priv rsa_dec gcm_open b64_dec).

  (* functional correctness of the primitives (what the library documents) *)
  Definition KeyPair (pk : PK) (sk : SK) : Prop :=
    forall rnd k rc, rsa_enc pk rnd k = Some rc -> rsa_dec sk rc = Some k.
  Definition RsaLen : Prop :=
    forall pk rnd k rc, rsa_enc pk rnd k = Some rc -> N.of_nat (List.length rc) < 65536.
  Definition GcmRoundtrip : Prop :=
    forall k p, aes_key_ok k = true -> gcm_open k (gcm_seal k p) = Some p.
  Definition B64Roundtrip : Prop := forall b, b64_dec (b64_enc b) = Some b.
  Definition B64NonNil : Prop := forall b, b64_enc b = [] -> b = [].

  (* cryptographic idealisations (true only up to negligible probability and
     only for alterations made without the ability to run Encrypt afresh):
     relative to ONE genuine envelope with session key k, plaintext p, RSA
     part rc made for private key sk *)
  Definition IdealGcmIntegrity (k p : bytes) : Prop :=
    forall a' p', gcm_open k a' = Some p' -> a' = gcm_seal k p.
  Definition IdealOaepIntegrity (sk : SK) (rc : bytes) : Prop :=
    forall sk' r' k', rsa_dec sk' r' = Some k' ->
                      (sk' = sk /\ r' = rc) \/ (forall a', gcm_open k' a' = None).

  Lemma hybrid_roundtrip pk sk k rnd p c :
    KeyPair pk sk -> RsaLen -> GcmRoundtrip ->
    hybrid_encrypt pk k rnd p = Ok c -> hybrid_decrypt sk c = Ok p.
  Proof.
    intros KP RL GR. unfold Seal.hybrid_encrypt, Seal.hybrid_decrypt.
    destruct (aes_key_ok k) eqn:AK; [|discriminate]. cbn [negb].
    destruct (rsa_enc pk rnd k) as [rc|] eqn:RE; [|discriminate].
    intro E. inversion E; subst c. clear E.
    rewrite frame_roundtrip by (eapply RL; eauto).
    rewrite (KP _ _ _ RE), AK. cbn [negb]. rewrite GR by exact AK. reflexivity.
  Qed.

  Lemma encrypt_decrypt pubs privs pk sk :
    parse_pub pubs = Some pk -> parse_priv privs = Some sk -> KeyPair pk sk ->
    RsaLen -> GcmRoundtrip -> B64Roundtrip ->
    forall k rnd p c, encrypt pubs k rnd p = Ok c -> decrypt privs c = Ok p.
  Proof.
    intros PP PS KP RL GR BR k rnd p c. unfold Seal.encrypt, Seal.decrypt. rewrite PP.
    destruct (hybrid_encrypt pk k rnd p) as [bs|e] eqn:HE; [|discriminate].
    intro E. inversion E; subst c. rewrite BR, PS. eapply hybrid_roundtrip; eauto.
  Qed.

  Lemma encrypt_succeeds pubs pk k rnd p :
    parse_pub pubs = Some pk -> List.length k = session_key_bytes -> rsa_enc pk rnd k <> None ->
    exists c, encrypt pubs k rnd p = Ok c.
  Proof.
    intros PP LK RE. unfold Seal.encrypt, Seal.hybrid_encrypt. rewrite PP.
    unfold aes_key_ok. rewrite LK. cbn.
    destruct (rsa_enc pk rnd k); [eexists; reflexivity|congruence].
  Qed.

  Lemma encrypt_not_nil pubs k rnd p c : B64NonNil -> encrypt pubs k rnd p = Ok c -> c <> [].
  Proof.
    intros NN. unfold Seal.encrypt, Seal.hybrid_encrypt.
    destruct (parse_pub pubs); [|discriminate].
    destruct (negb (aes_key_ok k)); [discriminate|].
    destruct (rsa_enc p0 rnd k); [|discriminate].
    intro E. inversion E. intro Z. apply NN in Z. exact (frame_not_nil _ _ Z).
  Qed.

  (* tamper safety: whatever string is presented, with whatever private key
     string, a successful Decrypt returns the sealed plaintext *)
  Lemma tamper_safe sk k rc p :
    rsa_dec sk rc = Some k -> gcm_open k (gcm_seal k p) = Some p ->
    IdealGcmIntegrity k p -> IdealOaepIntegrity sk rc ->
    forall privs' c' p', decrypt privs' c' = Ok p' -> p' = p.
  Proof.
    intros RD GO IG IO privs' c' p'. unfold Seal.decrypt, Seal.hybrid_decrypt.
    destruct (b64_dec c') as [bs|]; [|discriminate].
    destruct (parse_priv privs') as [sk'|]; [|discriminate].
    destruct (unframe bs) as [[r' a']|]; [|discriminate].
    destruct (rsa_dec sk' r') as [k'|] eqn:RD'; [|discriminate].
    destruct (negb (aes_key_ok k')); [discriminate|].
    destruct (gcm_open k' a') as [q|] eqn:GO'; [|discriminate].
    intro E. inversion E; subst q. clear E.
    destruct (IO _ _ _ RD') as [[-> ->]|NO].
    - rewrite RD in RD'. inversion RD'; subst k'.
      apply IG in GO' as A. subst a'. rewrite GO in GO'. congruence.
    - rewrite NO in GO'. discriminate.
  Qed.

  Lemma seal_fm_sealed pubs k rnd f : answer f = [] -> sealed f <> [] -> seal_fm pubs k rnd f = Ok f.
  Proof.
    destruct f as [ty a s]; cbn [answer sealed]. intros -> H.
    destruct s; [congruence | reflexivity].
  Qed.

  Lemma seal_fm_cases pubs k rnd f f' : seal_fm pubs k rnd f = Ok f' ->
    (answer f = [] /\ sealed f <> [] /\ f' = f) \/
    (answer f <> [] /\ exists c, encrypt pubs k rnd (answer f) = Ok c /\ f' = mkFm (fm_type f) [] c).
  Proof.
    destruct f as [ty [|a0 a] s]; unfold Seal.seal_fm; cbn [answer sealed fm_type is_nil andb negb].
    - destruct s; [discriminate|]. intro E; inversion E. left. repeat split; discriminate.
    - destruct (encrypt pubs k rnd (a0 :: a)) as [c|e]; [|discriminate].
      intro E; inversion E. right. split; [discriminate | eauto].
  Qed.

  Lemma unseal_fm_unsealed privs f : sealed f = [] -> answer f <> [] -> unseal_fm privs f = Ok f.
  Proof.
    destruct f as [ty a s]; cbn [answer sealed]. intros -> H.
    destruct a; [congruence | reflexivity].
  Qed.

  (* something is sealed: the answer field plays no part *)
  Lemma unseal_fm_sealed privs f : sealed f <> [] ->
    unseal_fm privs f =
    match decrypt privs (sealed f) with Err e => Err e | Ok a => Ok (mkFm (fm_type f) a []) end.
  Proof.
    destruct f as [ty a [|s0 s]]; cbn [sealed]; [congruence|]. intros _.
    unfold Seal.unseal_fm. cbn [answer sealed is_nil]. rewrite andb_false_r. reflexivity.
  Qed.

  Lemma unseal_fm_cases privs f f' : unseal_fm privs f = Ok f' ->
    (sealed f = [] /\ answer f <> [] /\ f' = f) \/
    (sealed f <> [] /\ exists a, decrypt privs (sealed f) = Ok a /\ f' = mkFm (fm_type f) a []).
  Proof.
    destruct (sealed f) as [|s0 s] eqn:S.
    - destruct f as [ty a s]; cbn [sealed] in S; subst s. destruct a; [discriminate|].
      intro E. inversion E. left. repeat split; discriminate.
    - assert (N : sealed f <> []) by congruence. rewrite (unseal_fm_sealed _ _ N), S.
      destruct (decrypt privs (s0 :: s)) as [a|e]; [|discriminate].
      intro E. inversion E. right. split; [discriminate | eauto].
  Qed.

  Lemma seal_fm_never_both pubs k rnd f f' :
    seal_fm pubs k rnd f = Ok f' -> answer f' = [].
  Proof. intro E. apply seal_fm_cases in E as [(A & _ & ->) | (_ & c & _ & ->)]; [exact A | reflexivity]. Qed.

  Lemma unseal_fm_never_both privs f f' :
    unseal_fm privs f = Ok f' -> sealed f' = [].
  Proof. intro E. apply unseal_fm_cases in E as [(S & _ & ->) | (_ & a & _ & ->)]; [exact S | reflexivity]. Qed.

  Lemma seal_fm_sealed_after pubs k rnd f f' :
    B64NonNil -> seal_fm pubs k rnd f = Ok f' -> sealed f' <> [].
  Proof.
    intros NN E. apply seal_fm_cases in E as [(_ & S & ->) | (_ & c & EN & ->)]; [exact S|].
    exact (encrypt_not_nil _ _ _ _ _ NN EN).
  Qed.

  Lemma seal_unseal_fm pubs privs pk sk :
    parse_pub pubs = Some pk -> parse_priv privs = Some sk -> KeyPair pk sk ->
    RsaLen -> GcmRoundtrip -> B64Roundtrip -> B64NonNil ->
    forall k rnd f f', sealed f = [] -> seal_fm pubs k rnd f = Ok f' ->
                       unseal_fm privs f' = Ok f /\ answer f' = [] /\ sealed f' <> [].
  Proof.
    intros PP PS KP RL GR BR NN k rnd f f' S E.
    pose proof (seal_fm_sealed_after _ _ _ _ _ NN E) as SN.
    split; [|split; [exact (seal_fm_never_both _ _ _ _ _ E) | exact SN]].
    rewrite (unseal_fm_sealed _ _ SN).
    apply seal_fm_cases in E as [(_ & S' & _) | (_ & c & EN & ->)]; [congruence|]. cbn [sealed fm_type].
    rewrite (encrypt_decrypt _ _ _ _ PP PS KP RL GR BR _ _ _ _ EN).
    destruct f as [ty a s]; cbn [sealed] in S; subst s. reflexivity.
  Qed.

  Lemma seal_fm_idempotent pubs :
    B64NonNil ->
    forall k rnd f f', seal_fm pubs k rnd f = Ok f' ->
                       forall k' rnd', seal_fm pubs k' rnd' f' = Ok f'.
  Proof.
    intros NN k rnd f f' E k' rnd'.
    apply seal_fm_sealed; [exact (seal_fm_never_both _ _ _ _ _ E) | exact (seal_fm_sealed_after _ _ _ _ _ NN E)].
  Qed.

  Lemma unseal_fm_idempotent privs f f' :
    unseal_fm privs f = Ok f' -> answer f' <> [] -> unseal_fm privs f' = Ok f'.
  Proof. intros E A. apply unseal_fm_unsealed; [exact (unseal_fm_never_both _ _ _ E) | exact A]. Qed.
End EnvelopeProofs.

Lemma mem_nat_In i l : mem_nat i l = true <-> In i l.
Proof.
  unfold mem_nat. rewrite existsb_exists. split.
  - intros (x & Hx & E). apply Nat.eqb_eq in E. subst. exact Hx.
  - intro H. exists i. split; [exact H|apply Nat.eqb_refl].
Qed.

(* the two tests of the loop body together: marked and matching must coincide *)
Lemma verify_choice_from_cons i marks o t gen :
  verify_choice_from i marks (o :: t) gen =
  if Bool.eqb (mem_nat i marks) (str_eqb gen o) then verify_choice_from (S i) marks t gen else Err EWrongAnswer.
Proof. cbn [verify_choice_from]. destruct (mem_nat i marks), (str_eqb gen o); reflexivity. Qed.

Lemma verify_choice_from_spec outs : forall i marks gen,
  verify_choice_from i marks outs gen = Ok tt <->
  (forall j o, nth_error outs j = Some o -> (In (i + j)%nat marks <-> o = gen)).
Proof.
  induction outs as [|o t IH]; intros i marks gen.
  - split; [|reflexivity]. intros _ [|j] o' H; discriminate.
  - rewrite verify_choice_from_cons.
    assert (Hd : Bool.eqb (mem_nat i marks) (str_eqb gen o) = true <-> (In i marks <-> o = gen)).
    { rewrite eqb_true_iff, eq_iff_eq_true, mem_nat_In, str_eqb_eq. split; intros H; rewrite H; split; congruence. }
    destruct (Bool.eqb _ _).
    + rewrite IH. split.
      * intros H [|j] o' Hj; cbn in Hj.
        -- inversion Hj; subst. rewrite Nat.add_0_r. apply Hd. reflexivity.
        -- rewrite <- Nat.add_succ_comm. apply H. exact Hj.
      * intros H j o' Hj. rewrite Nat.add_succ_comm. apply H. exact Hj.
    + split; [discriminate|]. intro H. specialize (H 0%nat o eq_refl). rewrite Nat.add_0_r in H.
      apply Hd in H. discriminate.
Qed.

(* the walk alone (the function before commit 1e7a3a9) accepts exactly when,
   among the EXISTING choices, the marked ones are the ones whose output equals
   the question's *)
Lemma verify_choice_before_fix_iff marks outs gen :
  verify_choice_before_fix marks outs gen = Ok tt <->
  (forall j o, nth_error outs j = Some o -> (In j marks <-> o = gen)).
Proof. unfold verify_choice_before_fix. rewrite verify_choice_from_spec. reflexivity. Qed.

Lemma verify_choice_from_result outs : forall i marks gen,
  verify_choice_from i marks outs gen = Ok tt \/ verify_choice_from i marks outs gen = Err EWrongAnswer.
Proof.
  induction outs as [|o t IH]; intros; [left; reflexivity|].
  rewrite verify_choice_from_cons. destruct (Bool.eqb _ _); [apply IH | right; reflexivity].
Qed.

(* the property's statement: the marked choices are PRECISELY the choices
   whose output equals the question's output *)
Definition marks_exact (marks : list nat) (outs : list str) (gen : str) : Prop :=
  forall j, In j marks <-> nth_error outs j = Some gen.

Lemma marks_exact_in_range marks outs gen :
  marks_exact marks outs gen -> forall m, In m marks -> (m < List.length outs)%nat.
Proof. intros H m I. apply H in I. apply nth_error_Some. congruence. Qed.

Lemma verify_choice_before_fix_guarded marks outs gen :
  (forall m, In m marks -> (m < List.length outs)%nat) ->
  (verify_choice_before_fix marks outs gen = Ok tt <-> marks_exact marks outs gen).
Proof.
  intro G. rewrite verify_choice_before_fix_iff. unfold marks_exact. split.
  - intros H j. split.
    + intro I. pose proof (G _ I) as L. apply nth_error_Some in L.
      destruct (nth_error outs j) as [o|] eqn:N; [|congruence].
      f_equal. apply (H j o N). exact I.
    + intro N. apply (H j gen N). reflexivity.
  - intros H j o N. split.
    + intro I. apply H in I. congruence.
    + intro E. subst o. apply H. exact N.
Qed.

(* verifyAnswerInRange decides "every mark names an existing choice" *)
Lemma marks_in_range_spec marks n :
  marks_in_range marks n = true <-> (forall m, In m marks -> (m < n)%nat).
Proof.
  unfold marks_in_range. destruct marks as [|m0 t].
  - split; [intros _ m []|reflexivity].
  - rewrite Nat.ltb_lt, list_max_lt by discriminate. rewrite Forall_forall. reflexivity.
Qed.

Lemma verify_choice_iff marks outs gen :
  verify_choice marks outs gen = Ok tt <-> marks_exact marks outs gen.
Proof.
  unfold verify_choice.
  destruct (marks_in_range marks (List.length outs)) eqn:F.
  - apply verify_choice_before_fix_guarded. apply marks_in_range_spec. exact F.
  - split; [discriminate|]. intro H. exfalso.
    assert (marks_in_range marks (List.length outs) = true); [|congruence].
    apply marks_in_range_spec. intros m I. eapply marks_exact_in_range; eauto.
Qed.

Lemma verify_choice_result marks outs gen :
  verify_choice marks outs gen = Ok tt \/ verify_choice marks outs gen = Err EWrongAnswer.
Proof.
  unfold verify_choice. destruct (marks_in_range _ _); [apply verify_choice_from_result|right; reflexivity].
Qed.

(* the fix changed nothing where every mark names an existing choice *)
Lemma verify_choice_agrees_before_fix marks outs gen :
  (forall m, In m marks -> (m < List.length outs)%nat) ->
  verify_choice marks outs gen = verify_choice_before_fix marks outs gen.
Proof.
  intro G. unfold verify_choice.
  replace (marks_in_range marks (List.length outs)) with true; [reflexivity|].
  symmetry. apply marks_in_range_spec. exact G.
Qed.

Definition enc_flag (b : bool) : str := [if b then 1 else 0].

Lemma enc_flag_eqb want p : str_eqb (enc_flag want) (enc_flag p) = Bool.eqb p want.
Proof. destruct want, p; reflexivity. Qed.

Lemma verify_flags_from_as_choice want perrs : forall i marks,
  verify_flags_from want i marks perrs = verify_choice_from i marks (map enc_flag perrs) (enc_flag want).
Proof.
  induction perrs as [|p t IH]; intros i marks; cbn [verify_flags_from verify_choice_from map]; [reflexivity|].
  rewrite enc_flag_eqb, IH. reflexivity.
Qed.

Lemma verify_parse_flags_as_choice want marks perrs :
  verify_parse_flags want marks perrs = verify_choice marks (map enc_flag perrs) (enc_flag want).
Proof.
  unfold verify_parse_flags, verify_choice. rewrite map_length, verify_flags_from_as_choice. reflexivity.
Qed.

(* accepted exactly when the marked files are PRECISELY the files whose
   parse-error flag is the wanted one *)
Lemma verify_parse_flags_iff want marks perrs :
  verify_parse_flags want marks perrs = Ok tt <->
  (forall j, In j marks <-> nth_error perrs j = Some want).
Proof.
  rewrite verify_parse_flags_as_choice, verify_choice_iff. unfold marks_exact.
  assert (E : forall j, nth_error (map enc_flag perrs) j = Some (enc_flag want) <-> nth_error perrs j = Some want).
  { intro j. rewrite nth_error_map. destruct (nth_error perrs j) as [p|]; cbn; [|split; discriminate].
    split; intro H; [|congruence]. destruct p, want; try reflexivity; discriminate. }
  split; intros H j; specialize (H j); rewrite H; [apply E|symmetry; apply E].
Qed.

(* text answers: strings.TrimSpace *)
Definition all_space (s : str) : Prop := Forall (fun c => is_space c = true) s.
Definition no_lead (s : str) : Prop := match s with c :: _ => is_space c = false | [] => True end.
Definition tight (s : str) : Prop := no_lead s /\ no_lead (rev s).

Definition same_mod_space (q a : str) : Prop :=
  exists l1 r1 l2 r2 core,
    q = l1 ++ core ++ r1 /\ a = l2 ++ core ++ r2 /\
    all_space l1 /\ all_space r1 /\ all_space l2 /\ all_space r2 /\ tight core.

Lemma drop_space_decomp s :
  exists l, s = l ++ drop_space s /\ all_space l /\ no_lead (drop_space s).
Proof.
  induction s as [|c t IH]; cbn [drop_space].
  - exists []. repeat split; constructor.
  - destruct (is_space c) eqn:E.
    + destruct IH as (l & H1 & H2 & H3). exists (c :: l). repeat split.
      * cbn. congruence.
      * constructor; assumption.
      * exact H3.
    + exists []. repeat split; [constructor|exact E].
Qed.

Lemma drop_space_all l s : all_space l -> drop_space (l ++ s) = drop_space s.
Proof. induction 1 as [|c l Hc _ IH]; cbn [app drop_space]; [reflexivity|]. rewrite Hc. exact IH. Qed.

Lemma drop_space_no_lead s : no_lead s -> drop_space s = s.
Proof. destruct s as [|c t]; cbn; [reflexivity|]. intros ->. reflexivity. Qed.

Lemma drop_space_only l : all_space l -> drop_space l = [].
Proof. intro H. rewrite <- (app_nil_r l). rewrite drop_space_all by exact H. reflexivity. Qed.

Lemma all_space_rev l : all_space l -> all_space (rev l).
Proof. apply Forall_rev. Qed.

Lemma trim_unique l core r :
  all_space l -> all_space r -> tight core -> trim (l ++ core ++ r) = core.
Proof.
  intros Hl Hr [T1 T2]. unfold trim. rewrite drop_space_all by exact Hl.
  destruct core as [|c t].
  - cbn [app]. rewrite (drop_space_only r Hr). reflexivity.
  - rewrite (drop_space_no_lead ((c :: t) ++ r)) by exact T1.
    rewrite rev_app_distr, drop_space_all by (apply all_space_rev; exact Hr).
    rewrite (drop_space_no_lead (rev (c :: t))) by exact T2. apply rev_involutive.
Qed.

Lemma trim_decomp s :
  exists l r, s = l ++ trim s ++ r /\ all_space l /\ all_space r /\ tight (trim s).
Proof.
  unfold trim.
  destruct (drop_space_decomp s) as (l & H1 & H2 & H3).
  destruct (drop_space_decomp (rev (drop_space s))) as (l' & G1 & G2 & G3).
  set (d := drop_space s) in *. set (d' := drop_space (rev d)) in *.
  assert (D : d = rev d' ++ rev l').
  { rewrite <- (rev_involutive d), G1, rev_app_distr. reflexivity. }
  exists l, (rev l'). repeat split.
  - rewrite <- D. exact H1.
  - exact H2.
  - apply all_space_rev. exact G2.
  - destruct (rev d') as [|c t] eqn:R; [exact I|].
    rewrite D in H3. exact H3.
  - rewrite rev_involutive. exact G3.
Qed.

Lemma trim_eq_iff q a : trim q = trim a <-> same_mod_space q a.
Proof.
  split.
  - intro E.
    destruct (trim_decomp q) as (l1 & r1 & Q & A1 & A2 & T1 & T2).
    destruct (trim_decomp a) as (l2 & r2 & A & B1 & B2 & _).
    exists l1, r1, l2, r2, (trim q). rewrite <- E in A. repeat split; assumption.
  - intros (l1 & r1 & l2 & r2 & core & -> & -> & A1 & A2 & B1 & B2 & T).
    rewrite !trim_unique by assumption. reflexivity.
Qed.

Lemma verify_text_iff run is_src qout atext :
  verify_text run is_src qout atext = Ok tt <->
  same_mod_space qout (if is_src then run (trim atext) else atext).
Proof.
  unfold verify_text. rewrite <- trim_eq_iff.
  destruct is_src; destruct (str_eqb (trim qout) _) eqn:E.
  1,3: apply str_eqb_eq in E; tauto.
  all: apply str_eqb_neq in E; split; [discriminate|contradiction].
Qed.

Lemma answer_marks_single text marks :
  answer_marks SingleChoice text = Ok marks <->
  exists c, text = [c] /\ 97 <= c <= 122 /\ marks = [N.to_nat (c - 97)].
Proof.
  unfold answer_marks, validate_single. split.
  - destruct text as [|c [|c' t]]; try discriminate.
    destruct (N.leb_spec 97 c); destruct (N.leb_spec c 122); cbn [andb]; try discriminate.
    intro E. inversion E. exists c. repeat split; assumption.
  - intros (c & -> & [L1 L2] & ->).
    destruct (N.leb_spec 97 c); destruct (N.leb_spec c 122); cbn [andb]; try lia. reflexivity.
Qed.

Lemma verify_default_is_match :
  load_verification None = Ok VMatch /\ load_verification (Some (s_ "match")) = Ok VMatch.
Proof. split; reflexivity. Qed.

Lemma load_verification_spec v m :
  load_verification v = Ok m <->
  (v = None /\ m = VMatch) \/ (v = Some (s_ "match") /\ m = VMatch) \/ (v = Some (s_ "none") /\ m = VNone) \/
  (v = Some (s_ "parse-error") /\ m = VParseError) \/ (v = Some (s_ "no-parse-error") /\ m = VNoParseError).
Proof.
  split.
  - destruct v as [s|]; cbn [load_verification].
    + destruct (str_eqb s (s_ "match")) eqn:E1; [apply str_eqb_eq in E1; subst; intro H; inversion H; tauto|].
      destruct (str_eqb s (s_ "none")) eqn:E2; [apply str_eqb_eq in E2; subst; intro H; inversion H; tauto|].
      destruct (str_eqb s (s_ "parse-error")) eqn:E3; [apply str_eqb_eq in E3; subst; intro H; inversion H; tauto|].
      destruct (str_eqb s (s_ "no-parse-error")) eqn:E4; [apply str_eqb_eq in E4; subst; intro H; inversion H; tauto|].
      discriminate.
    + intro H; inversion H; tauto.
  - intros [[-> ->]|[[-> ->]|[[-> ->]|[[-> ->]|[-> ->]]]]]; reflexivity.
Qed.

Lemma load_verification_result v : (exists m, load_verification v = Ok m) \/ load_verification v = Err EInvalidFm.
Proof.
  destruct v as [s|]; cbn [load_verification]; [|left; eexists; reflexivity].
  repeat match goal with |- context [if ?b then _ else _] => destruct b; [left; eexists; reflexivity|] end.
  right; reflexivity.
Qed.

Section QuestionProofs.
  Variable SK : Type.
  Variable parse_priv : str -> option SK.
  Variable rsa_dec : SK -> bytes -> option bytes.
  Variable gcm_open : bytes -> bytes -> option bytes.
  Variable b64_dec : str -> option bytes.
  Variable run : str -> str.
  Notation qv := (question_verify SK parse_priv rsa_dec gcm_open b64_dec run verify_choice).

  Definition choice_type (t : atype) : Prop := t = SingleChoice \/ t = MultipleChoice.

  (* an unsealed question: the answer field is the answer text, no key is needed *)
  Lemma answer_text_unsealed privs ty a :
    answer_text SK parse_priv rsa_dec gcm_open b64_dec privs (mkFm ty a []) =
    if is_nil a then Err ENoAnswer else Ok a.
  Proof. unfold answer_text. cbn [sealed answer is_nil negb andb]. destruct a; reflexivity. Qed.

  (* an unsealed choice question under match verification is accepted exactly
     when its answer denotes marks and these are precisely the matching choices *)
  Lemma question_verify_match_choice_iff ignore privs f is_src outs gen perrs :
    sealed f = [] -> choice_type (fm_type f) ->
    (qv ignore privs VMatch f is_src outs gen perrs = Ok tt <->
     answer f <> [] /\ exists marks, answer_marks (fm_type f) (answer f) = Ok marks /\ marks_exact marks outs gen).
  Proof.
    destruct f as [ty a s]. cbn [sealed fm_type answer]. intros -> CT.
    unfold question_verify. rewrite answer_text_unsealed. cbn [sealed fm_type is_nil negb]. rewrite andb_false_r.
    destruct a as [|a0 a]; cbn [is_nil]; [split; [discriminate | intros [H _]; congruence]|].
    destruct (answer_marks ty (a0 :: a)) as [marks|e] eqn:AM.
    - assert (R : match ty with SingleChoice | MultipleChoice => verify_choice marks outs gen
                                | TextAnswer => verify_text run is_src gen (a0 :: a) end = verify_choice marks outs gen)
        by (destruct CT as [-> | ->]; reflexivity).
      rewrite R, verify_choice_iff. split.
      + intro H. split; [discriminate|]. exists marks. split; [reflexivity|exact H].
      + intros [_ (m' & E & H)]. inversion E; subst. exact H.
    - split; [discriminate|]. intros [_ (m' & E & _)]. discriminate.
  Qed.

  (* verification: none accepts every unsealed question whose answer is well formed *)
  Lemma question_verify_none_iff ignore privs f is_src outs gen perrs :
    sealed f = [] ->
    (qv ignore privs VNone f is_src outs gen perrs = Ok tt <->
     answer f <> [] /\ exists marks, answer_marks (fm_type f) (answer f) = Ok marks).
  Proof.
    destruct f as [ty a s]. cbn [sealed fm_type answer]. intros ->.
    unfold question_verify. rewrite answer_text_unsealed. cbn [sealed fm_type is_nil negb]. rewrite andb_false_r.
    destruct a as [|a0 a]; cbn [is_nil]; [split; [discriminate | intros [H _]; congruence]|].
    destruct (answer_marks ty (a0 :: a)) as [marks|e].
    - split; [intros _; split; [discriminate|eexists; reflexivity]|reflexivity].
    - split; [discriminate|]. intros [_ (m' & E)]. discriminate.
  Qed.
End QuestionProofs.

Section HistoryProofs.
  Variable SK : Type.
  Variable parse_priv : str -> option SK.
  Variable rsa_dec : SK -> bytes -> option bytes.
  Variable gcm_open : bytes -> bytes -> option bytes.
  Variable b64_dec : str -> option bytes.
  Variable run : str -> str.
  Notation v1 := (verify_one SK parse_priv rsa_dec gcm_open b64_dec run).
  Notation vh := (verify_history SK parse_priv rsa_dec gcm_open b64_dec run).

  Lemma verify_history_acc qs : forall acc,
    fold_left (fun verdicts q => verdicts ++ [v1 q]) qs acc = acc ++ map v1 qs.
  Proof.
    induction qs as [|q t IH]; intro acc; cbn [fold_left map]; [rewrite app_nil_r; reflexivity|].
    rewrite IH, <- app_assoc. reflexivity.
  Qed.

  Lemma verify_history_is_map qs : vh qs = map v1 qs.
  Proof. unfold verify_history. rewrite verify_history_acc. reflexivity. Qed.

  (* the verdict of a question does not depend on what was verified before or after it,
     nor on how often: it is its verdict when verified alone *)
  Lemma verify_history_position pre q post :
    nth_error (vh (pre ++ q :: post)) (List.length pre) = Some (v1 q) /\ vh [q] = [v1 q].
  Proof.
    split; [|reflexivity].
    rewrite verify_history_is_map, map_app, nth_error_app2 by (rewrite map_length; apply le_n).
    rewrite map_length, Nat.sub_diag. reflexivity.
  Qed.
End HistoryProofs.
