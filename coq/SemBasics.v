(* SemBasics.v — the laws of the state monad of Sem.v, the elementary facts about heap cells and
   frames, and the unfolding equations of the evaluator functions, each for arbitrary fuel, program
   and state. *)
From Coq Require Import ZArith NArith List String Bool Floats FMapPositive Lia.
From EvyV Require Import Base Num Ast Omap Sem.
Import ListNotations.

Lemma bindM_ok {A B} (m : M A) (f : A -> M B) s a s1 : m s = (Ok a, s1) -> bindM m f s = f a s1.
Proof. intro H. unfold bindM. rewrite H. reflexivity. Qed.
Lemma bindM_er {A B} (m : M A) (f : A -> M B) s e s1 : m s = (Er e, s1) -> bindM m f s = (Er e, s1).
Proof. intro H. unfold bindM. rewrite H. reflexivity. Qed.

Lemma bind_inv {A B} (m : M A) (f : A -> M B) s r s' :
  bindM m f s = (r, s') ->
  (exists a s1, m s = (Ok a, s1) /\ f a s1 = (r, s')) \/ (exists e, m s = (Er e, s') /\ r = Er e).
Proof.
  unfold bindM. destruct (m s) as [[a|e] s1]; intro H.
  - left; eauto.
  - right; exists e. inversion H; subst; auto.
Qed.
Lemma bindM_inv {A B} (m : M A) (f : A -> M B) s b s' :
  bindM m f s = (Ok b, s') -> exists a s1, m s = (Ok a, s1) /\ f a s1 = (Ok b, s').
Proof. intro H. destruct (bind_inv _ _ _ _ _ H) as [X | (e & _ & X)]; [exact X | discriminate X]. Qed.

(* the laws hold pointwise (no functional extensionality) *)
Lemma bindM_ret_l {A B} (a : A) (f : A -> M B) s : bindM (ret a) f s = f a s.
Proof. reflexivity. Qed.
Lemma bindM_ret_r {A} (m : M A) s : bindM m ret s = m s.
Proof. unfold bindM, ret; destruct (m s) as [[a|er] s1]; reflexivity. Qed.
Lemma bindM_assoc {A B C} (m : M A) (f : A -> M B) (g : B -> M C) s :
  bindM (bindM m f) g s = bindM m (fun a => bindM (f a) g) s.
Proof. unfold bindM; destruct (m s) as [[a|er] s1]; reflexivity. Qed.
Lemma bindM_cong {A B} (m m' : M A) (f : A -> M B) s : m s = m' s -> bindM m f s = bindM m' f s.
Proof. unfold bindM. intros ->. reflexivity. Qed.
Lemma bindM_ext {A B} (m : M A) (f g : A -> M B) s :
  (forall a s1, f a s1 = g a s1) -> bindM m f s = bindM m g s.
Proof. intro H; unfold bindM; destruct (m s) as [[a|er] s1]; [apply H | reflexivity]. Qed.

Lemma upd_heap_same s : upd_heap (st_heap s) s = s.
Proof. destruct s; reflexivity. Qed.

Lemma hget_halloc_new h v : hget (snd (halloc h v)) (hnext h) = Some v.
Proof. apply PositiveMap.gss. Qed.
Lemma hget_halloc_other h v l : l <> hnext h -> hget (snd (halloc h v)) l = hget h l.
Proof. intro H. apply PositiveMap.gso. exact H. Qed.

Lemma alloc_run v s : alloc v s = (Ok (hnext (st_heap s)), upd_heap (snd (halloc (st_heap s) v)) s).
Proof. reflexivity. Qed.
Lemma load_hget l s v : hget (st_heap s) l = Some v -> load l s = (Ok v, s).
Proof. intro H; unfold load; rewrite H; reflexivity. Qed.

Lemma str_eqb_sym a b : str_eqb a b = str_eqb b a.
Proof.
  destruct (str_eqb a b) eqn:E.
  - apply str_eqb_eq in E; subst. symmetry; apply str_eqb_refl.
  - destruct (str_eqb b a) eqn:F; [|reflexivity]. apply str_eqb_eq in F; subst.
    rewrite str_eqb_refl in E; discriminate.
Qed.

Lemma ty_eqb_refl t : ty_eqb t t = true.
Proof. induction t; cbn; auto. Qed.
Lemma ty_eqb_sym : forall t u, ty_eqb t u = ty_eqb u t.
Proof. induction t; destruct u; cbn; auto. Qed.

Lemma SFcompare_antisym x y :
  SpecFloat.SFcompare y x = option_map CompOpp (SpecFloat.SFcompare x y).
Proof.
  destruct x as [sx|sx| |sx mx ex], y as [sy|sy| |sy my ey]; simpl; try reflexivity;
    try (destruct sx; reflexivity); try (destruct sy; reflexivity); try (destruct sx, sy; reflexivity).
  change (Pos.compare_cont Eq my mx) with (Pos.compare my mx).
  change (Pos.compare_cont Eq mx my) with (Pos.compare mx my).
  rewrite (Z.compare_antisym ex ey), (Pos.compare_antisym mx my).
  destruct sx, sy; try reflexivity; destruct (ex ?= ey)%Z; simpl; try reflexivity.
Qed.

Lemma frame_get_replace_same n l f : frame_get n f <> None -> frame_get n (frame_replace n l f) = Some l.
Proof.
  induction f as [|[k l'] t IH]; simpl; [congruence|].
  destruct (str_eqb k n) eqn:E; simpl; rewrite E; [reflexivity | exact IH].
Qed.
Lemma frame_get_replace_other n k l f : k <> n -> frame_get k (frame_replace n l f) = frame_get k f.
Proof.
  intro N. induction f as [|[k' l'] t IH]; simpl; [reflexivity|].
  destruct (str_eqb k' n) eqn:E; simpl; [|rewrite IH; reflexivity].
  apply str_eqb_eq in E; subst k'. apply str_eqb_neq in N. rewrite str_eqb_sym, N. reflexivity.
Qed.
Lemma frame_get_set_same n l f : frame_get n (frame_set n l f) = Some l.
Proof.
  unfold frame_set. destruct (frame_get n f) eqn:E.
  - apply frame_get_replace_same. congruence.
  - simpl. rewrite str_eqb_refl. reflexivity.
Qed.
Lemma frame_get_set_other n k l f : k <> n -> frame_get k (frame_set n l f) = frame_get k f.
Proof.
  intro N. unfold frame_set. destruct (frame_get n f).
  - apply frame_get_replace_other, N.
  - simpl. apply str_eqb_neq in N. rewrite str_eqb_sym, N. reflexivity.
Qed.

Lemma frame_get_In n f : frame_get n f <> None <-> In n (map fst f).
Proof.
  induction f as [|[k l] t IH]; simpl; [split; [congruence | tauto]|].
  destruct (str_eqb k n) eqn:E.
  - apply str_eqb_eq in E. split; [intros _; left; exact E | discriminate].
  - apply str_eqb_neq in E. rewrite IH. split; [tauto | intros [H|H]; [contradiction | exact H]].
Qed.
Lemma frame_get_None n f : frame_get n f = None <-> ~ In n (map fst f).
Proof. rewrite <- frame_get_In. destruct (frame_get n f); intuition congruence. Qed.

Lemma frame_replace_names n l f : map fst (frame_replace n l f) = map fst f.
Proof.
  induction f as [|[k l'] t IH]; simpl; [reflexivity|].
  destruct (str_eqb k n); simpl; [reflexivity | f_equal; exact IH].
Qed.

(* scope.set is a map assignment: a name that is there keeps its position *)
Lemma frame_set_names n l f :
  map fst (frame_set n l f) = if mem_str n (map fst f) then map fst f else n :: map fst f.
Proof.
  unfold frame_set. destruct (frame_get n f) eqn:E.
  - rewrite frame_replace_names.
    destruct (mem_str n (map fst f)) eqn:M; [reflexivity|].
    assert (frame_get n f = None) as X; [|congruence].
    apply frame_get_None. intro H. apply mem_str_In in H. congruence.
  - apply frame_get_None in E. destruct (mem_str n (map fst f)) eqn:M; [|reflexivity].
    apply mem_str_In in M. contradiction.
Qed.

Lemma n_err_not_underscore : str_eqb n_err underscore = false. Proof. reflexivity. Qed.
Lemma n_errmsg_not_underscore : str_eqb n_errmsg underscore = false. Proof. reflexivity. Qed.

Lemma value_depth_S : exists d, value_depth = S d.
Proof. exists (Z.to_nat 3999). reflexivity. Qed.

(* C14: once the stop flag is set nothing is evaluated *)
Lemma tick_stopped s : st_stopped s = true -> tick s = (Er EStopped, s).
Proof. intro H. unfold tick. rewrite H. reflexivity. Qed.

Lemma tick_run s : st_stopped s = false /\ st_stop_at s = None ->
  tick s = (Ok tt, upd_yield (S (st_yields s)) false s).
Proof. intros [H1 H2]. unfold tick. rewrite H1, H2. reflexivity. Qed.

Lemma eval_expr_stopped n P e x s :
  st_stopped s = true -> eval_expr (S n) P e x s = (Er EStopped, s).
Proof. intro H. cbn [eval_expr]. unfold bindM. rewrite (tick_stopped s H). reflexivity. Qed.

Lemma exec_stmt_stopped n P e x s :
  st_stopped s = true -> exec_stmt (S n) P e x s = (Er EStopped, s).
Proof. intro H. cbn [exec_stmt]. unfold bindM. rewrite (tick_stopped s H). reflexivity. Qed.

Lemma exec_block_stopped n P e l s :
  st_stopped s = true -> exec_block (S n) P e l s = (Er EStopped, s).
Proof. intro H. cbn [exec_block]. unfold bindM. rewrite (tick_stopped s H). reflexivity. Qed.

(* a stopped state is never left: every entry point reports "stopped" and appends no effect
   other than the test summary *)
Lemma run_program_stopped n P s :
  st_stopped s = true ->
  run_program n P s = (OErr EStopped, test_report s).
Proof. intro H. unfold run_program, bindM. rewrite (tick_stopped s H). reflexivity. Qed.

(* the yield at which the flag is raised is the last one (corrected order) *)
Lemma tick_raise s k :
  st_stopped s = false -> st_stop_at s = Some k -> st_yields s = k -> st_check_after_yield s = true ->
  exists s', tick s = (Er EStopped, s') /\ st_stopped s' = true /\ st_trace s' = st_trace s /\ st_yields s' = S k.
Proof.
  intros H1 H2 H3 H4. unfold tick. rewrite H1, H2. cbv zeta. rewrite H3, Nat.eqb_refl, H4. simpl.
  eexists; split; [reflexivity|]. simpl. auto.
Qed.

Lemma tick_ok_yields s s' : tick s = (Ok tt, s') -> st_yields s' = S (st_yields s) /\ st_trace s' = st_trace s.
Proof.
  unfold tick. destruct (st_stopped s); [discriminate|].
  destruct (match st_stop_at s with Some k => Nat.eqb k (st_yields s) | None => false end && st_check_after_yield s);
    intro H; inversion H; subst; simpl; auto.
Qed.

Definition after {A} (m : M A) (s : state) : state := snd (m s).

(* evalExprList: head first, copy, then the rest, in source order *)
Lemma eval_exprs_nil n P e : eval_exprs (S n) P e [] = ret [].
Proof. reflexivity. Qed.
Lemma eval_exprs_cons n P e x t :
  eval_exprs (S n) P e (x :: t) =
  (let* v := eval_expr n P e x in let* d := depth_fuel in let* c := copy_or_ref d v in
   let* r := eval_exprs n P e t in ret (c :: r)).
Proof. reflexivity. Qed.

(* C10: statement lists stop at the first control signal *)
Lemma exec_stmts_nil f P e : exec_stmts (S f) P e [] = ret (SigNone, e).
Proof. reflexivity. Qed.
Lemma exec_stmts_cons f P e s t :
  exec_stmts (S f) P e (s :: t) =
  (let* (sig, e1) := exec_stmt f P e s in
   if is_ctl sig then ret (sig, e1) else exec_stmts f P e1 t).
Proof. reflexivity. Qed.

Lemma exec_block_unfold f P e l : exec_block (S f) P e l = (let* _ := tick in exec_stmts f P e l).
Proof. reflexivity. Qed.

(* evalConditionalBlock: the condition and the block share one fresh frame *)
Lemma exec_cond_unfold f P e c body :
  exec_cond (S f) P e c body =
  (let* l := eval_expr f P ([] :: e) c in
   let* v := load l in
   match v with
   | HBool true => let* (sig, e2) := exec_block f P ([] :: e) body in ret (Some sig, tl e2)
   | HBool false => ret (None, e)
   | _ => internal "conditional not a bool"
   end).
Proof. reflexivity. Qed.

Lemma break_ends_statement_list n P e t s :
  st_stopped s = false ->
  forall s1, tick s = (Ok tt, s1) ->
  exec_stmts (S (S n)) P e (SBreak :: t) s = (Ok (SigBreak, e), s1).
Proof.
  intros _ s1 Ht. rewrite exec_stmts_cons. cbn [exec_stmt]. unfold bindM. rewrite Ht. reflexivity.
Qed.

(* while: the condition is evaluated (in a fresh frame) before every iteration *)
Lemma exec_while_unfold n P e c body :
  exec_while (S n) P e c body =
  (let* (r, e1) := exec_cond n P e c body in
   match r with
   | None => ret (SigNone, e1)
   | Some SigBreak => ret (SigNone, e1)
   | Some (SigReturn v) => ret (SigReturn v, e1)
   | Some SigNone => exec_while n P e1 c body
   end).
Proof. reflexivity. Qed.

(* C09: copyOrRef copies basic values and shares composite ones *)
Lemma copy_or_ref_basic n l s v :
  hget (st_heap s) l = Some v ->
  (match v with HNum _ | HStr _ | HBool _ => True | _ => False end) ->
  copy_or_ref (S n) l s = (Ok (hnext (st_heap s)), upd_heap (snd (halloc (st_heap s) v)) s).
Proof.
  intros Hg Hb. cbn [copy_or_ref]. unfold bindM, load. rewrite Hg.
  destruct v; try contradiction; reflexivity.
Qed.

Lemma copy_or_ref_composite n l s v :
  hget (st_heap s) l = Some v ->
  (match v with HArr _ | HMap _ => True | _ => False end) ->
  copy_or_ref (S n) l s = (Ok l, s).
Proof.
  intros Hg Hb. cbn [copy_or_ref]. unfold bindM, load. rewrite Hg.
  destruct v; try contradiction; reflexivity.
Qed.

Lemma halloc_fresh h v l : hget h l <> None -> (forall k, hget h k <> None -> Pos.lt k (hnext h)) ->
  l <> fst (halloc h v) /\ hget (snd (halloc h v)) l = hget h l.
Proof.
  intros Hl Hinv. specialize (Hinv l Hl). unfold halloc, hget in *. simpl. split; [lia|].
  rewrite PositiveMap.gso by lia. reflexivity.
Qed.

(* C15: an event is its handler's body run in a fresh frame over the same state *)
Lemma handle_event_unfold n P name args s h :
  find_handler name (p_handlers P) = Some h ->
  handle_event n P name args s =
  match (let* fr := bind_payload (h_params h) args [] in
         let* _ := exec_block n P [fr] (h_body h) in ret tt) s with
  | (Er e, s1) => (OErr e, s1)
  | (Ok _, s1) => (ODone, s1)
  end.
Proof. intro H. unfold handle_event. rewrite H. reflexivity. Qed.

(* C02: the operator table is total on its rows *)
Lemma bin_num_no_internal op x y s :
  In op [BPlus; BMinus; BAsterisk; BSlash; BPercent; BGt; BLt; BGtEq; BLtEq] ->
  exists l s', bin_num op x y s = (Ok l, s').
Proof.
  intro H. simpl in H.
  repeat (destruct H as [<-|H]; [unfold bin_num, alloc; destruct (halloc _ _); eauto|]). contradiction.
Qed.
