(* SemEvents.v — C15: events run their handlers in order, isolated, on shared
   globals.  Lemmas and proofs about [bind_payload], [handle_event], the event
   fold of [sem_case], and the comparison of event delivery with a call of a
   user procedure ([bind_params], user branch of [eval_call]). *)
From Coq Require Import ZArith NArith PArith List String Bool Floats FMapPositive Lia.
From EvyV Require Import Base Num Ast Omap Sem SemBasics SemPure SemWalkProofs.
Import ListNotations.

(* [n] consecutive addresses from [p] *)
Fixpoint loc_seq (p : positive) (n : nat) : list loc :=
  match n with O => [] | S k => p :: loc_seq (Pos.succ p) k end.

(* allocating a list of values one after the other *)
Fixpoint halloc_list (h : heap) (vs : list hval) : heap :=
  match vs with [] => h | v :: t => halloc_list (snd (halloc h v)) t end.

Lemma loc_seq_length p n : List.length (loc_seq p n) = n.
Proof. revert p; induction n as [|n IH]; intro p; cbn; [reflexivity | now rewrite IH]. Qed.

Lemma loc_seq_ge p n l : In l (loc_seq p n) -> (p <= l)%positive.
Proof.
  revert p; induction n as [|n IH]; intros p H; cbn in H; [contradiction|].
  destruct H as [<- | H]; [lia|]. apply IH in H. lia.
Qed.

Lemma loc_seq_NoDup p n : NoDup (loc_seq p n).
Proof.
  revert p; induction n as [|n IH]; intro p; cbn; constructor; [|apply IH].
  intro H. apply loc_seq_ge in H. lia.
Qed.

Lemma hnext_halloc_list h vs :
  loc_seq (hnext h) (List.length vs) ++ [hnext (halloc_list h vs)] = loc_seq (hnext h) (S (List.length vs)).
Proof.
  revert h; induction vs as [|v t IH]; intro h; [reflexivity|].
  cbn [List.length halloc_list]. change (loc_seq (hnext h) (S (List.length t)))
    with (hnext h :: loc_seq (hnext (snd (halloc h v))) (List.length t)).
  rewrite <- app_comm_cons, IH. reflexivity.
Qed.

Lemma hnext_halloc_list_le h vs : (hnext h <= hnext (halloc_list h vs))%positive.
Proof.
  revert h; induction vs as [|v t IH]; intro h; cbn [halloc_list]; [lia|].
  specialize (IH (snd (halloc h v))).
  change (hnext (snd (halloc h v))) with (Pos.succ (hnext h)) in IH. lia.
Qed.

Lemma halloc_list_old h vs l : (l < hnext h)%positive -> hget (halloc_list h vs) l = hget h l.
Proof.
  revert h; induction vs as [|v t IH]; intros h Hl; cbn [halloc_list]; [reflexivity|].
  rewrite IH; [apply hget_halloc_other; lia |].
  change (hnext (snd (halloc h v))) with (Pos.succ (hnext h)). lia.
Qed.

Lemma halloc_list_new h vs :
  Forall2 (fun l v => hget (halloc_list h vs) l = Some v) (loc_seq (hnext h) (List.length vs)) vs.
Proof.
  revert h; induction vs as [|v t IH]; intro h; cbn [List.length loc_seq halloc_list]; constructor.
  - rewrite halloc_list_old; [apply hget_halloc_new |].
    change (hnext (snd (halloc h v))) with (Pos.succ (hnext h)). lia.
  - exact (IH (snd (halloc h v))).
Qed.

(* what both [bind_payload] and [bind_params] do to the frame: parameters in
   order, "_" binds nothing, a repeated name replaces (scope.set is a map
   assignment) *)
Fixpoint bind_frame (ps : list (str * ty)) (ls : list loc) (fr : frame) : frame :=
  match ps, ls with
  | (n, _) :: ps', l :: ls' => bind_frame ps' ls' (if str_eqb n underscore then fr else frame_set n l fr)
  | _, _ => fr
  end.

(* the names of a frame built by binding come from the frame it started from or
   from the named parameters *)
Lemma bind_frame_names ps : forall ls fr n,
  In n (map fst (bind_frame ps ls fr)) ->
  In n (map fst fr) \/ (In n (map fst ps) /\ n <> underscore).
Proof.
  induction ps as [|[k t] ps IH]; intros ls fr n H; cbn [bind_frame] in H; [left; exact H|].
  destruct ls as [|l ls]; [left; exact H|].
  apply IH in H. destruct H as [H | [H U]]; [|right; split; [right; exact H | exact U]].
  destruct (str_eqb k underscore) eqn:E; [left; exact H|].
  rewrite frame_set_names in H. destruct (mem_str k (map fst fr)); [left; exact H|].
  destruct H as [<- | H]; [|left; exact H].
  right; split; [left; reflexivity | apply str_eqb_neq; exact E].
Qed.

(* two frames with the same names in the same order whose cells are related *)
Definition frame_sim (R : loc -> loc -> Prop) (f1 f2 : frame) : Prop :=
  Forall2 (fun x y => fst x = fst y /\ R (snd x) (snd y)) f1 f2.

Lemma frame_sim_names R f1 f2 : frame_sim R f1 f2 -> map fst f1 = map fst f2.
Proof. induction 1 as [|x y f1 f2 [E _] _ IH]; cbn; [reflexivity | now rewrite E, IH]. Qed.

Lemma frame_sim_get R f1 f2 n : frame_sim R f1 f2 ->
  match frame_get n f1, frame_get n f2 with
  | Some l1, Some l2 => R l1 l2
  | None, None => True
  | _, _ => False
  end.
Proof.
  induction 1 as [|[k1 l1] [k2 l2] f1 f2 [E HR] _ IH]; cbn; [exact I|].
  cbn in E, HR. subst k2. destruct (str_eqb k1 n); [exact HR | exact IH].
Qed.

Lemma frame_sim_replace R f1 f2 n l1 l2 : frame_sim R f1 f2 -> R l1 l2 ->
  frame_sim R (frame_replace n l1 f1) (frame_replace n l2 f2).
Proof.
  intros H HR. induction H as [|[k1 a1] [k2 a2] f1 f2 [E Ha] Ht IH]; cbn; [constructor|].
  cbn in E, Ha. subst k2. destruct (str_eqb k1 n); constructor; cbn; auto.
Qed.

Lemma frame_sim_set R f1 f2 n l1 l2 : frame_sim R f1 f2 -> R l1 l2 ->
  frame_sim R (frame_set n l1 f1) (frame_set n l2 f2).
Proof.
  intros H HR. unfold frame_set. pose proof (frame_sim_get R f1 f2 n H) as G.
  destruct (frame_get n f1), (frame_get n f2); try contradiction.
  - apply frame_sim_replace; assumption.
  - constructor; [split; [reflexivity | exact HR] | exact H].
Qed.

Lemma bind_frame_sim R ps : forall ls1 ls2 f1 f2,
  frame_sim R f1 f2 ->
  Forall2 R (firstn (List.length ps) ls1) (firstn (List.length ps) ls2) ->
  frame_sim R (bind_frame ps ls1 f1) (bind_frame ps ls2 f2).
Proof.
  induction ps as [|[n t] ps IH]; intros ls1 ls2 f1 f2 Hf Hl; cbn [bind_frame]; [exact Hf|].
  destruct ls1 as [|a1 ls1], ls2 as [|a2 ls2]; cbn in Hl; try (inversion Hl; fail); [exact Hf|].
  inversion Hl; subst. apply IH; [|assumption].
  destruct (str_eqb n underscore); [exact Hf | apply frame_sim_set; assumption].
Qed.

Definition hval_of_payload (a : payload) : hval :=
  match a with PvNum x => HNum x | PvStr x => HStr x | PvBool x => HBool x end.
Definition payload_ty (a : payload) : ty :=
  match a with PvNum _ => TNum | PvStr _ => TStr | PvBool _ => TBool end.

(* valueFromAny *)
Definition payload_hval (t : ty) (a : payload) : option hval :=
  match t, a with
  | TNum, PvNum x => Some (HNum x)
  | TStr, PvStr x => Some (HStr x)
  | TBool, PvBool x => Some (HBool x)
  | _, _ => None
  end.

Lemma payload_hval_spec t a :
  payload_hval t a = if ty_eqb t (payload_ty a) then Some (hval_of_payload a) else None.
Proof. destruct t, a; reflexivity. Qed.

(* the values allocated while binding, and how binding ends *)
Inductive pv_result :=
| PvOk (vs : list hval)            (* every declared parameter received a value of its kind *)
| PvMissing (vs : list hval)       (* the payload ran out; vs were allocated before *)
| PvMismatch (vs : list hval).     (* a value of the wrong kind; vs were allocated before *)

Definition pv_cons (v : hval) (r : pv_result) : pv_result :=
  match r with
  | PvOk vs => PvOk (v :: vs) | PvMissing vs => PvMissing (v :: vs) | PvMismatch vs => PvMismatch (v :: vs)
  end.

Fixpoint payload_vals (ps : list (str * ty)) (args : list payload) : pv_result :=
  match ps with
  | [] => PvOk []
  | (_, t) :: rest =>
      match args with
      | [] => PvMissing []
      | a :: more => match payload_hval t a with
                     | None => PvMismatch []
                     | Some v => pv_cons v (payload_vals rest more)
                     end
      end
  end.

Definition err_missing_payload : err := EHostCrash (s_ "not enough arguments for event").

Definition bind_payload_result (ps : list (str * ty)) (args : list payload) (fr : frame) (s : state)
  : res frame * state :=
  match payload_vals ps args with
  | PvOk vs => (Ok (bind_frame ps (loc_seq (hnext (st_heap s)) (List.length vs)) fr),
                upd_heap (halloc_list (st_heap s) vs) s)
  | PvMissing vs => (Er err_missing_payload, upd_heap (halloc_list (st_heap s) vs) s)
  | PvMismatch vs => (Er (EPanic PkAnyConversion), upd_heap (halloc_list (st_heap s) vs) s)
  end.

Lemma bind_payload_cons n t rest a more fr s :
  bind_payload ((n, t) :: rest) (a :: more) fr s =
  match payload_hval t a with
  | Some v => bind_payload rest more (if str_eqb n underscore then fr else frame_set n (hnext (st_heap s)) fr)
                           (upd_heap (snd (halloc (st_heap s) v)) s)
  | None => (Er (EPanic PkAnyConversion), s)
  end.
Proof. destruct t, a; reflexivity. Qed.

Theorem bind_payload_exact ps : forall args fr s,
  bind_payload ps args fr s = bind_payload_result ps args fr s.
Proof.
  induction ps as [|[n t] rest IH]; intros args fr s.
  - unfold bind_payload_result; cbn. unfold ret. now rewrite upd_heap_same.
  - destruct args as [|a more].
    + unfold bind_payload_result; cbn. now rewrite upd_heap_same.
    + rewrite bind_payload_cons. unfold bind_payload_result. cbn [payload_vals].
      destruct (payload_hval t a) as [v|]; [|cbn; now rewrite upd_heap_same].
      rewrite IH. unfold bind_payload_result.
      destruct (payload_vals rest more); reflexivity.
Qed.

Lemma payload_vals_ok ps : forall args vs, payload_vals ps args = PvOk vs ->
  vs = map hval_of_payload (firstn (List.length ps) args) /\
  (List.length ps <= List.length args)%nat /\
  Forall2 (fun p a => snd p = payload_ty a) ps (firstn (List.length ps) args).
Proof.
  induction ps as [|[n t] rest IH]; intros args vs H; cbn in H.
  - inversion H; subst. cbn. repeat split; [lia | constructor].
  - destruct args as [|a more]; [discriminate|].
    rewrite payload_hval_spec in H. destruct (ty_eqb t (payload_ty a)) eqn:E; [|discriminate].
    destruct (payload_vals rest more) as [vs'| |] eqn:E'; try discriminate.
    cbn in H. inversion H; subst. destruct (IH _ _ E') as (-> & L & F).
    cbn. repeat split; [lia|]. constructor; [|exact F].
    cbn. destruct t, a; cbn in E; try discriminate; reflexivity.
Qed.

Lemma payload_vals_length ps args vs : payload_vals ps args = PvOk vs -> List.length vs = List.length ps.
Proof.
  intro H. apply payload_vals_ok in H as (-> & L & _).
  rewrite map_length, firstn_length. lia.
Qed.

(* conversely: enough values of the declared kinds always bind *)
Lemma payload_vals_typed ps : forall args,
  (List.length ps <= List.length args)%nat ->
  Forall2 (fun p a => snd p = payload_ty a) ps (firstn (List.length ps) args) ->
  payload_vals ps args = PvOk (map hval_of_payload (firstn (List.length ps) args)).
Proof.
  induction ps as [|[n t] rest IH]; intros args L F; [reflexivity|].
  destruct args as [|a more]; [cbn in L; lia|]. cbn in F. inversion F; subst.
  cbn [payload_vals]. rewrite payload_hval_spec. cbn in H2. subst t.
  replace (ty_eqb (payload_ty a) (payload_ty a)) with true by (destruct a; reflexivity).
  rewrite IH; [reflexivity | cbn in L; lia | assumption].
Qed.

Theorem payload_binds_iff_typed ps args :
  (exists vs, payload_vals ps args = PvOk vs) <->
  ((List.length ps <= List.length args)%nat /\
   Forall2 (fun p a => snd p = payload_ty a) ps (firstn (List.length ps) args)).
Proof.
  split.
  - intros [vs H]. apply payload_vals_ok in H as (_ & L & F). exact (conj L F).
  - intros [L F]. eexists. exact (payload_vals_typed ps args L F).
Qed.

(* the payload beyond the declared parameters is never looked at *)
Lemma payload_vals_firstn ps : forall args,
  payload_vals ps args = payload_vals ps (firstn (List.length ps) args).
Proof.
  induction ps as [|[n t] rest IH]; intro args; [reflexivity|].
  destruct args as [|a more]; [reflexivity|]. cbn. destruct (payload_hval t a); [|reflexivity].
  now rewrite <- IH.
Qed.

Theorem bind_payload_firstn ps args fr s :
  bind_payload ps args fr s = bind_payload ps (firstn (List.length ps) args) fr s.
Proof. rewrite !bind_payload_exact. unfold bind_payload_result. now rewrite <- payload_vals_firstn. Qed.

Theorem bind_payload_extra_ignored ps args extra fr s :
  (List.length ps <= List.length args)%nat ->
  bind_payload ps (args ++ extra) fr s = bind_payload ps args fr s.
Proof.
  intro L. rewrite (bind_payload_firstn ps (args ++ extra)), (bind_payload_firstn ps args).
  rewrite firstn_app. replace (List.length ps - List.length args)%nat with 0%nat by lia.
  cbn. now rewrite app_nil_r.
Qed.

(* a handler without parameters ignores the whole payload *)
Lemma bind_payload_no_params args fr s : bind_payload [] args fr s = (Ok fr, s).
Proof. reflexivity. Qed.

(* "_" takes (and converts) its payload value, allocates it, and binds nothing *)
Lemma bind_payload_underscore t rest a more fr s :
  bind_payload ((underscore, t) :: rest) (a :: more) fr s =
  match payload_hval t a with
  | Some v => bind_payload rest more fr (upd_heap (snd (halloc (st_heap s) v)) s)
  | None => (Er (EPanic PkAnyConversion), s)
  end.
Proof. rewrite bind_payload_cons. reflexivity. Qed.

(* what a successful binding leaves behind *)
Theorem bind_payload_ok ps args fr s fr1 s1 :
  bind_payload ps args fr s = (Ok fr1, s1) ->
  let vs := map hval_of_payload (firstn (List.length ps) args) in
  let ls := loc_seq (hnext (st_heap s)) (List.length ps) in
  payload_vals ps args = PvOk vs /\
  fr1 = bind_frame ps ls fr /\
  s1 = upd_heap (halloc_list (st_heap s) vs) s /\
  st_globals s1 = st_globals s /\ st_trace s1 = st_trace s /\ st_yields s1 = st_yields s /\
  Forall2 (fun l v => hget (st_heap s1) l = Some v) ls vs /\
  (forall l, (l < hnext (st_heap s))%positive -> hget (st_heap s1) l = hget (st_heap s) l).
Proof.
  rewrite bind_payload_exact. unfold bind_payload_result.
  destruct (payload_vals ps args) as [vs'| |] eqn:E; intro H; inversion H; subst; clear H.
  pose proof (payload_vals_length _ _ _ E) as L.
  apply payload_vals_ok in E as E2. destruct E2 as (-> & _ & _).
  cbv zeta. rewrite L. repeat split; try reflexivity.
  - cbn [st_heap upd_heap].
    pose proof (halloc_list_new (st_heap s) (map hval_of_payload (firstn (List.length ps) args))) as X.
    rewrite L in X. exact X.
  - intros l Hl. cbn [st_heap upd_heap]. apply halloc_list_old; exact Hl.
Qed.

(* how HandleEvent reports the result of the body: signal and final
   environment of the handler are dropped *)
Definition event_outcome (r : res (signal * env) * state) : outcome * state :=
  match r with
  | (Ok _, s1) => (ODone, s1)
  | (Er e, s1) => (OErr e, s1)
  end.

Definition err_no_handler : err := EHostCrash (s_ "no event handler").

(* C1: the unfolding equation.  One [exec_block] of the body, from the frame
   that binds only the declared parameters, in the state that differs from the
   incoming one only by the freshly allocated payload cells. *)
Theorem handle_event_exact fuel P name args s :
  handle_event fuel P name args s =
  match find_handler name (p_handlers P) with
  | None => (OErr err_no_handler, s)
  | Some h =>
      match payload_vals (h_params h) args with
      | PvOk vs =>
          event_outcome
            (exec_block fuel P [bind_frame (h_params h) (loc_seq (hnext (st_heap s)) (List.length vs)) []]
                        (h_body h) (upd_heap (halloc_list (st_heap s) vs) s))
      | PvMissing vs => (OErr err_missing_payload, upd_heap (halloc_list (st_heap s) vs) s)
      | PvMismatch vs => (OErr (EPanic PkAnyConversion), upd_heap (halloc_list (st_heap s) vs) s)
      end
  end.
Proof.
  unfold handle_event. destruct (find_handler name (p_handlers P)) as [h|]; [|reflexivity].
  unfold bindM. rewrite bind_payload_exact. unfold bind_payload_result.
  destruct (payload_vals (h_params h) args) as [vs|vs|vs]; try reflexivity.
  unfold event_outcome.
  destruct (exec_block fuel P _ (h_body h) _) as [[[sig e]|er] s1]; reflexivity.
Qed.

(* the same equation in terms of bind_payload itself *)
Lemma handle_event_bind fuel P name args s h :
  find_handler name (p_handlers P) = Some h ->
  handle_event fuel P name args s =
  match bind_payload (h_params h) args [] s with
  | (Ok fr, s1) => event_outcome (exec_block fuel P [fr] (h_body h) s1)
  | (Er e, s1) => (OErr e, s1)
  end.
Proof.
  intro H. unfold handle_event. rewrite H. unfold bindM.
  destruct (bind_payload (h_params h) args [] s) as [[fr|e] s1]; [|reflexivity].
  unfold event_outcome. destruct (exec_block fuel P [fr] (h_body h) s1) as [[[sig e]|er] s2]; reflexivity.
Qed.

Lemma handle_event_no_handler fuel P name args s :
  find_handler name (p_handlers P) = None ->
  handle_event fuel P name args s = (OErr err_no_handler, s).
Proof. intro H. unfold handle_event. now rewrite H. Qed.

(* the payload beyond the declared parameters does not matter *)
Theorem handle_event_extra_ignored fuel P name args extra s h :
  find_handler name (p_handlers P) = Some h ->
  (List.length (h_params h) <= List.length args)%nat ->
  handle_event fuel P name (args ++ extra) s = handle_event fuel P name args s.
Proof.
  intros H L. rewrite !(handle_event_bind _ _ _ _ _ _ H).
  now rewrite bind_payload_extra_ignored.
Qed.

Theorem handle_event_no_params fuel P name args s h :
  find_handler name (p_handlers P) = Some h -> h_params h = [] ->
  handle_event fuel P name args s = event_outcome (exec_block fuel P [[]] (h_body h) s).
Proof. intros H E. rewrite (handle_event_bind _ _ _ _ _ _ H), E. reflexivity. Qed.

(* handler_locals_do_not_survive, part 1: the environment the body starts in
   names nothing but the handler's own named parameters *)
Theorem handler_scope_is_fresh ps ls n :
  In n (map fst (bind_frame ps ls [])) -> In n (map fst ps) /\ n <> underscore.
Proof. intro H. apply bind_frame_names in H. destruct H as [[]|H]; exact H. Qed.

Definition ev := (str * list payload)%type.

(* outcomes of the events in order, and the final state *)
Fixpoint handle_events (fuel : nat) (P : program) (es : list ev) (s : state) : list outcome * state :=
  match es with
  | [] => ([], s)
  | e :: t =>
      let '(o, s1) := handle_event fuel P (fst e) (snd e) s in
      let '(os, s2) := handle_events fuel P t s1 in
      (o :: os, s2)
  end.

(* (state before, outcome, state after) of each event *)
Fixpoint event_runs (fuel : nat) (P : program) (es : list ev) (s : state) : list (state * outcome * state) :=
  match es with
  | [] => []
  | e :: t =>
      let '(o, s1) := handle_event fuel P (fst e) (snd e) s in
      (s, o, s1) :: event_runs fuel P t s1
  end.

Lemma handle_events_cons fuel P e es s :
  handle_events fuel P (e :: es) s =
  let '(o, s1) := handle_event fuel P (fst e) (snd e) s in
  let '(os, s2) := handle_events fuel P es s1 in (o :: os, s2).
Proof. reflexivity. Qed.

Theorem handle_events_app fuel P es1 : forall es2 s,
  handle_events fuel P (es1 ++ es2) s =
  let '(os1, s1) := handle_events fuel P es1 s in
  let '(os2, s2) := handle_events fuel P es2 s1 in (os1 ++ os2, s2).
Proof.
  induction es1 as [|e t IH]; intros es2 s; cbn [app handle_events].
  - destruct (handle_events fuel P es2 s); reflexivity.
  - destruct (handle_event fuel P (fst e) (snd e) s) as [o s1]. rewrite IH.
    destruct (handle_events fuel P t s1) as [os1 s2].
    destruct (handle_events fuel P es2 s2) as [os2 s3]. reflexivity.
Qed.

Lemma event_runs_app fuel P es1 : forall es2 s,
  event_runs fuel P (es1 ++ es2) s =
  event_runs fuel P es1 s ++ event_runs fuel P es2 (snd (handle_events fuel P es1 s)).
Proof.
  induction es1 as [|e t IH]; intros es2 s; cbn [app event_runs handle_events]; [reflexivity|].
  destruct (handle_event fuel P (fst e) (snd e) s) as [o s1]. rewrite IH.
  destruct (handle_events fuel P t s1) as [os s2]. reflexivity.
Qed.

Lemma event_runs_outcomes fuel P es : forall s,
  map (fun r => snd (fst r)) (event_runs fuel P es s) = fst (handle_events fuel P es s).
Proof.
  induction es as [|e t IH]; intro s; cbn [event_runs handle_events]; [reflexivity|].
  destruct (handle_event fuel P (fst e) (snd e) s) as [o s1]. specialize (IH s1).
  destruct (handle_events fuel P t s1) as [os s2]. cbn in *. now rewrite IH.
Qed.

(* globals_persist: each event starts in exactly the state (heap, globals,
   trace, ...) the previous one ended in; the first starts in the given state *)
Fixpoint chained (s : state) (rs : list (state * outcome * state)) (final : state) : Prop :=
  match rs with
  | [] => final = s
  | (b, _, a) :: t => b = s /\ chained a t final
  end.

Theorem globals_persist fuel P es : forall s,
  chained s (event_runs fuel P es s) (snd (handle_events fuel P es s)) /\
  Forall2 (fun e r => handle_event fuel P (fst e) (snd e) (fst (fst r)) = (snd (fst r), snd r))
          es (event_runs fuel P es s).
Proof.
  induction es as [|e t IH]; intro s; cbn [event_runs handle_events].
  - split; [reflexivity | constructor].
  - destruct (handle_event fuel P (fst e) (snd e) s) as [o s1] eqn:E. destruct (IH s1) as [C F].
    destruct (handle_events fuel P t s1) as [os s2]. cbn [chained snd] in *.
    split; [split; [reflexivity | exact C] | constructor; [exact E | exact F]].
Qed.

(* the fold of [sem_case] is this sequence *)
Definition sem_step (fl : nat) (P : program) (acc : list sx * state) (e : ev) : list sx * state :=
  let '(rs, s) := acc in
  let '(o', s') := handle_event fl P (fst e) (snd e) s in
  (rs ++ [enc_result o' s' (List.length (st_trace s))], s').

Definition enc_run (r : state * outcome * state) : sx :=
  enc_result (snd (fst r)) (snd r) (List.length (st_trace (fst (fst r)))).

Lemma sem_fold_runs fl P es : forall rs s,
  fold_left (sem_step fl P) es (rs, s) =
  (rs ++ map enc_run (event_runs fl P es s), snd (handle_events fl P es s)).
Proof.
  induction es as [|e t IH]; intros rs s; cbn [fold_left event_runs handle_events].
  - cbn. now rewrite app_nil_r.
  - unfold sem_step at 2. destruct (handle_event fl P (fst e) (snd e) s) as [o s1]. rewrite IH.
    destruct (handle_events fl P t s1) as [os s2]. cbn [map snd]. rewrite <- app_assoc. reflexivity.
Qed.

Theorem sem_case_events p stop inp ff ay fuel evs P input events :
  dec_program p = Some P -> dec_strs inp = Some input -> dec_list dec_event evs = Some events ->
  sem_case (Lst [p; stop; Lst inp; Sym ff; Sym ay; Int fuel; Lst evs]) =
  let stop_at := match stop with Int k => Some (Z.to_nat k) | _ => None end in
  let fl := Z.to_nat fuel in
  let s0 := init_state stop_at input (str_eqb ff sy_true) (str_eqb ay sy_true) in
  let '(o, s1) := run_program fl P s0 in
  Lst (enc_result o s1 0 :: map enc_run (event_runs fl P events s1)).
Proof.
  intros H1 H2 H3. unfold sem_case. rewrite H1, H2, H3. cbv zeta.
  destruct (run_program _ P _) as [o s1].
  change (fold_left _ events ([], s1)) with (fold_left (sem_step (Z.to_nat fuel) P) events ([], s1)).
  rewrite sem_fold_runs. reflexivity.
Qed.

Definition err_missing_arg : err := EHostCrash (s_ "index out of range: missing argument").

(* bind_params, exactly: no allocation, no state change; the cells of the
   arguments themselves are bound *)
Theorem bind_params_exact ps : forall vals fr s,
  bind_params ps vals fr s =
  if Nat.leb (List.length ps) (List.length vals)
  then (Ok (bind_frame ps vals fr, skipn (List.length ps) vals), s)
  else (Er err_missing_arg, s).
Proof.
  induction ps as [|[n t] ps IH]; intros vals fr s; [reflexivity|].
  destruct vals as [|a rest]; [reflexivity|].
  cbn [bind_params List.length skipn bind_frame]. rewrite IH. reflexivity.
Qed.

(* the part of evalFunccall after the arguments have been evaluated and copied,
   for a user-defined function [fd] *)
Definition call_user (f : nat) (P : program) (fd : funcdef) (vals : list loc) : M (option loc) :=
  let* (fr, rest) := bind_params (fn_params fd) vals [] in
  let* fr' := match fn_variadic fd with
              | Some (vn, _) => let* a := alloc (HArr vals) in
                                ret (if str_eqb vn underscore then fr else frame_set vn a fr)
              | None => ret fr
              end in
  let* (sig, _) := exec_block f P [fr'] (fn_body fd) in
  match sig with
  | SigReturn v => ret v
  | _ => let* l := alloc HNone in ret (Some l)
  end.

Lemma eval_call_S f P e name args :
  eval_call (S f) P e name args =
  (let* vals := eval_exprs f P e args in
   if str_eqb name n_test then let* _ := run_test vals in ret None
   else match builtin name e vals with
        | Some m => m
        | None =>
            if existsb (str_eqb name) unmodelled_builtins then fail (EUnsupported name)
            else match find_func name (p_funcs P) with
                 | None => crash "nil FuncDef"
                 | Some fd => call_user f P fd vals
                 end
        end).
Proof. reflexivity. Qed.

(* names that reach the user-function branch of evalFunccall *)
Definition user_fn_name (name : str) : Prop :=
  str_eqb name n_test = false /\ builtin name [] [] = None /\
  existsb (str_eqb name) unmodelled_builtins = false.

Theorem eval_call_user_unfold f P e name args fd s :
  user_fn_name name -> find_func name (p_funcs P) = Some fd ->
  eval_call (S f) P e name args s =
  match eval_exprs f P e args s with
  | (Ok vals, s') => call_user f P fd vals s'
  | (Er er, s') => (Er er, s')
  end.
Proof.
  intros (Ht & Hb & Hu) Hf. rewrite eval_call_S. unfold bindM at 1.
  destruct (eval_exprs f P e args s) as [[vals|er] s']; [|reflexivity].
  rewrite Ht, (builtin_none_indep _ _ _ e vals Hb), Hu, Hf. reflexivity.
Qed.

(* how evalFunccall reports the result of the body *)
Definition call_outcome (r : res (signal * env) * state) : res (option loc) * state :=
  match r with
  | (Ok (SigReturn v, _), s1) => (Ok v, s1)
  | (Ok (_, _), s1) => (Ok (Some (hnext (st_heap s1))), upd_heap (snd (halloc (st_heap s1) HNone)) s1)
  | (Er e, s1) => (Er e, s1)
  end.

(* ... for a non-variadic procedure with enough arguments: the body runs once,
   from the frame binding the parameters to the argument cells, in the
   unchanged state *)
Theorem call_user_unfold f P fd vals s :
  fn_variadic fd = None ->
  call_user f P fd vals s =
  if Nat.leb (List.length (fn_params fd)) (List.length vals)
  then call_outcome (exec_block f P [bind_frame (fn_params fd) vals []] (fn_body fd) s)
  else (Er err_missing_arg, s).
Proof.
  intro Hv. unfold call_user. unfold bindM at 1. rewrite bind_params_exact.
  destruct (Nat.leb _ _); [|reflexivity].
  rewrite Hv. unfold bindM, ret, call_outcome.
  destruct (exec_block f P _ (fn_body fd) s) as [[[sig e1]|er] s1]; [|reflexivity].
  destruct sig; reflexivity.
Qed.

Lemma Forall2_len {A B} (R : A -> B -> Prop) l1 l2 : Forall2 R l1 l2 -> List.length l1 = List.length l2.
Proof. induction 1; cbn; congruence. Qed.

(* an argument cell holds the payload value *)
Definition holds (h : heap) (l : loc) (a : payload) : Prop := hget h l = Some (hval_of_payload a).

(* cells of the two frames hold equal values *)
Definition same_value (h1 h2 : heap) (l1 l2 : loc) : Prop :=
  exists v, hget h1 l1 = Some v /\ hget h2 l2 = Some v.

Lemma payload_cells_sim h1 h2 ps : forall args vs vals ls,
  payload_vals ps args = PvOk vs ->
  Forall2 (holds h2) vals args ->
  Forall2 (fun l v => hget h1 l = Some v) ls vs ->
  Forall2 (same_value h1 h2) (firstn (List.length ps) ls) (firstn (List.length ps) vals).
Proof.
  induction ps as [|[n t] ps IH]; intros args vs vals ls Hp Hv Hl; [constructor|].
  cbn [payload_vals] in Hp. destruct args as [|a more]; [discriminate|].
  rewrite payload_hval_spec in Hp. destruct (ty_eqb t (payload_ty a)); [|discriminate].
  destruct (payload_vals ps more) as [vs'| |] eqn:E; try discriminate.
  cbn in Hp. inversion Hp; subst vs; clear Hp.
  inversion Hv as [|v a' vals' more' Hva Hv']; subst.
  inversion Hl as [|l v0 ls' vs0 Hlv Hl']; subst.
  cbn [List.length firstn]. constructor; [|eapply IH; eassumption].
  exists (hval_of_payload a). split; [exact Hlv | exact Hva].
Qed.

(* C2 (a)+(b): delivering an event (from state s) and calling a procedure with
   the same parameter list (from any state s' whose argument cells hold the
   payload values) build frames with the same names in the same order whose
   cells hold equal values; the event allocates one fresh cell per declared
   parameter and changes nothing else, binding the call changes nothing *)
Theorem event_and_call_frames ps args vals s s' fr1 s1 :
  bind_payload ps args [] s = (Ok fr1, s1) ->
  Forall2 (holds (st_heap s')) vals args ->
  exists fr2,
    bind_params ps vals [] s' = (Ok (fr2, skipn (List.length ps) vals), s') /\
    fr1 = bind_frame ps (loc_seq (hnext (st_heap s)) (List.length ps)) [] /\
    fr2 = bind_frame ps vals [] /\
    frame_sim (same_value (st_heap s1) (st_heap s')) fr1 fr2 /\
    map fst fr1 = map fst fr2 /\
    (forall n l1, frame_get n fr1 = Some l1 ->
       exists l2 v, frame_get n fr2 = Some l2 /\ hget (st_heap s1) l1 = Some v /\ hget (st_heap s') l2 = Some v) /\
    st_globals s1 = st_globals s /\ st_trace s1 = st_trace s /\ st_yields s1 = st_yields s /\
    (forall l, (l < hnext (st_heap s))%positive -> hget (st_heap s1) l = hget (st_heap s) l).
Proof.
  intros Hb Hv. apply bind_payload_ok in Hb. cbv zeta in Hb.
  destruct Hb as (Hp & Hfr & Hs & Hg & Ht & Hy & Hnew & Hold).
  pose proof (payload_vals_ok _ _ _ Hp) as (_ & Hlen & _).
  assert (List.length vals = List.length args) as Lv by (eapply Forall2_len; eassumption).
  exists (bind_frame ps vals []).
  assert (frame_sim (same_value (st_heap s1) (st_heap s')) fr1 (bind_frame ps vals [])) as Sim.
  { rewrite Hfr. apply bind_frame_sim; [constructor|].
    eapply payload_cells_sim; eassumption. }
  repeat split; try assumption.
  - rewrite bind_params_exact. rewrite Lv.
    destruct (Nat.leb (List.length ps) (List.length args)) eqn:E; [reflexivity|].
    apply Nat.leb_gt in E. lia.
  - eapply frame_sim_names; exact Sim.
  - intros n l1 G. pose proof (frame_sim_get _ _ _ n Sim) as X. rewrite G in X.
    destruct (frame_get n (bind_frame ps vals [])) as [l2|]; [|contradiction].
    destruct X as (v & X1 & X2). exists l2, v. repeat split; assumption.
Qed.

(* C2 (c): from those frames both continue with exactly one exec_block of the
   same body *)
Theorem events_as_calls_partial fuel P name args s s' h fname fd vals fr1 s1 :
  find_handler name (p_handlers P) = Some h ->
  find_func fname (p_funcs P) = Some fd ->
  fn_params fd = h_params h -> fn_variadic fd = None -> fn_body fd = h_body h ->
  bind_payload (h_params h) args [] s = (Ok fr1, s1) ->
  Forall2 (holds (st_heap s')) vals args ->
  let fr2 := bind_frame (h_params h) vals [] in
  handle_event fuel P name args s = event_outcome (exec_block fuel P [fr1] (h_body h) s1) /\
  call_user fuel P fd vals s' = call_outcome (exec_block fuel P [fr2] (h_body h) s') /\
  frame_sim (same_value (st_heap s1) (st_heap s')) fr1 fr2 /\
  st_globals s1 = st_globals s /\ st_trace s1 = st_trace s /\ st_yields s1 = st_yields s /\
  (forall l, (l < hnext (st_heap s))%positive -> hget (st_heap s1) l = hget (st_heap s) l).
Proof.
  intros Hh Hf Hps Hvar Hbody Hb Hv fr2.
  destruct (event_and_call_frames _ _ _ _ _ _ _ Hb Hv) as (fr2' & Hbp & _ & E2 & Sim & _ & _ & Hg & Ht & Hy & Hold).
  subst fr2'. repeat split; try assumption.
  - rewrite (handle_event_bind _ _ _ _ _ _ Hh), Hb. reflexivity.
  - rewrite (call_user_unfold _ _ _ _ _ Hvar), Hps, Hbody.
    rewrite bind_params_exact in Hbp.
    destruct (Nat.leb (List.length (h_params h)) (List.length vals)); [reflexivity | discriminate].
Qed.

(* C2, exact form: delivering an event IS calling the procedure on freshly
   allocated cells holding the payload prefix.  Both sides run the same
   [exec_block] from the same environment and the same state, so outcome,
   trace, yields, globals and heap agree literally; the only difference is the
   [HNone] result cell the call allocates when the body ends without [return]. *)
Definition outcome_of_call {A} (r : res A) : outcome :=
  match r with Ok _ => ODone | Er e => OErr e end.

Theorem event_is_call_on_fresh_cells fuel P name args s h fname fd vs :
  find_handler name (p_handlers P) = Some h ->
  find_func fname (p_funcs P) = Some fd ->
  fn_params fd = h_params h -> fn_variadic fd = None -> fn_body fd = h_body h ->
  payload_vals (h_params h) args = PvOk vs ->
  let s1 := upd_heap (halloc_list (st_heap s) vs) s in
  let ls := loc_seq (hnext (st_heap s)) (List.length vs) in
  let fr := bind_frame (h_params h) ls [] in
  handle_event fuel P name args s = event_outcome (exec_block fuel P [fr] (h_body h) s1) /\
  call_user fuel P fd ls s1 = call_outcome (exec_block fuel P [fr] (h_body h) s1) /\
  (let '(o, s') := handle_event fuel P name args s in
   let '(r, s'') := call_user fuel P fd ls s1 in
   o = outcome_of_call r /\
   (s'' = s' \/ s'' = upd_heap (snd (halloc (st_heap s') HNone)) s')).
Proof.
  intros Hh Hf Hps Hvar Hbody Hp s1 ls fr.
  assert (handle_event fuel P name args s = event_outcome (exec_block fuel P [fr] (h_body h) s1)) as E1.
  { rewrite handle_event_exact, Hh, Hp. reflexivity. }
  assert (call_user fuel P fd ls s1 = call_outcome (exec_block fuel P [fr] (h_body h) s1)) as E2.
  { rewrite (call_user_unfold _ _ _ _ _ Hvar), Hps, Hbody.
    replace (Nat.leb (List.length (h_params h)) (List.length ls)) with true; [reflexivity|].
    unfold ls. rewrite loc_seq_length, (payload_vals_length _ _ _ Hp). symmetry; apply Nat.leb_refl. }
  split; [exact E1|]. split; [exact E2|]. rewrite E1, E2.
  unfold event_outcome, call_outcome.
  destruct (exec_block fuel P [fr] (h_body h) s1) as [[[sig e1]|er] s2].
  - destruct sig; cbn; auto.
  - cbn; auto.
Qed.

(* the call an event corresponds to: payload prefix as literals *)
Definition payload_expr (a : payload) : expr :=
  match a with PvNum x => ENum x | PvStr x => EStr x | PvBool x => EBool x end.

Definition call_event (fuel : nat) (P : program) (pn : str -> str) (e : ev) (s : state) : outcome * state :=
  let k := match find_handler (fst e) (p_handlers P) with
           | Some h => List.length (h_params h) | None => 0%nat end in
  match eval_call (S fuel) P [] (pn (fst e)) (map payload_expr (firstn k (snd e))) s with
  | (r, s1) => (outcome_of_call r, s1)
  end.

Fixpoint call_events (fuel : nat) (P : program) (pn : str -> str) (es : list ev) (s : state)
  : list outcome * state :=
  match es with
  | [] => ([], s)
  | e :: t =>
      let '(o, s1) := call_event fuel P pn e s in
      let '(os, s2) := call_events fuel P pn t s1 in
      (o :: os, s2)
  end.

(* every handler [on e params body] has a twin procedure [pn e] *)
Definition procs_mirror_handlers (P : program) (pn : str -> str) : Prop :=
  forall h, In h (p_handlers P) ->
    user_fn_name (pn (h_name h)) /\
    exists fd, find_func (pn (h_name h)) (p_funcs P) = Some fd /\
               fn_params fd = h_params h /\ fn_variadic fd = None /\ fn_body fd = h_body h.

(* what the platform and the verif hooks can see, except the yield count
   (evaluating the argument literals of a call yields, delivering an event does
   not) *)
Definition same_observables (s1 s2 : state) : Prop :=
  st_trace s1 = st_trace s2 /\ st_input s1 = st_input s2 /\
  st_total s1 = st_total s2 /\ st_fails s1 = st_fails s2 /\
  dump_globals s1 = dump_globals s2.      (* globals equal up to a renaming of cells *)

(* the full statement; it is not proved *)
Definition events_as_calls_full : Prop :=
  forall fuel P pn (es : list ev) s,
    procs_mirror_handlers P pn ->
    st_stop_at s = None -> st_stopped s = false ->
    (forall e, In e es -> exists h vs, find_handler (fst e) (p_handlers P) = Some h /\
                                       payload_vals (h_params h) (snd e) = PvOk vs) ->
    let '(os1, s1) := handle_events fuel P es s in
    let '(os2, s2) := call_events fuel P pn es s in
    ~ In (OErr EOutOfFuel) os1 -> ~ In (OErr EOutOfFuel) os2 ->
    os1 = os2 /\ same_observables s1 s2.

(* no stop request pending: every yield succeeds *)
Definition tick_ok (s : state) : Prop := st_stopped s = false /\ st_stop_at s = None.

(* the heap after evaluating one literal argument: the literal's cell, then its
   copy (copyOrRef) *)
Definition lit_heap (a : payload) (h : heap) : heap :=
  snd (halloc (snd (halloc h (hval_of_payload a))) (hval_of_payload a)).
Definition lit_state (a : payload) (s : state) : state :=
  upd_heap (lit_heap a (st_heap s)) (upd_yield (S (st_yields s)) false s).

Lemma lit_heap_copy a h : hget (lit_heap a h) (Pos.succ (hnext h)) = Some (hval_of_payload a).
Proof. exact (hget_halloc_new (snd (halloc h (hval_of_payload a))) (hval_of_payload a)). Qed.

Lemma lit_heap_old a h l : (l < hnext h)%positive -> hget (lit_heap a h) l = hget h l.
Proof.
  intro H. unfold lit_heap. rewrite hget_halloc_other.
  - apply hget_halloc_other. lia.
  - change (hnext (snd (halloc h (hval_of_payload a)))) with (Pos.succ (hnext h)). lia.
Qed.

Lemma eval_expr_literal f P e a s : tick_ok s ->
  eval_expr (S f) P e (payload_expr a) s =
  (Ok (hnext (st_heap s)),
   upd_heap (snd (halloc (st_heap s) (hval_of_payload a))) (upd_yield (S (st_yields s)) false s)).
Proof.
  intro T. destruct a; cbn [eval_expr payload_expr];
    (erewrite bindM_ok by (apply tick_run; exact T)); reflexivity.
Qed.

Lemma eval_exprs_lit_cons f P e a rest s : tick_ok s ->
  eval_exprs (S (S f)) P e (payload_expr a :: rest) s =
  match eval_exprs (S f) P e rest (lit_state a s) with
  | (Ok r, s2) => (Ok (Pos.succ (hnext (st_heap s)) :: r), s2)
  | (Er er, s2) => (Er er, s2)
  end.
Proof.
  intro T. rewrite eval_exprs_cons.
  erewrite bindM_ok by (apply eval_expr_literal; exact T).
  erewrite bindM_ok by (unfold depth_fuel; reflexivity).
  destruct value_depth_S as [d Hd]. rewrite Hd.
  erewrite bindM_ok by (apply copy_or_ref_basic with (v := hval_of_payload a);
                        [cbn [st_heap upd_heap]; apply hget_halloc_new | destruct a; exact I]).
  unfold bindM, ret. reflexivity.
Qed.

(* cells of the evaluated literal arguments, and the state afterwards *)
Fixpoint lit_run (args : list payload) (s : state) : list loc * state :=
  match args with
  | [] => ([], s)
  | a :: t => let '(ls, s2) := lit_run t (lit_state a s) in (Pos.succ (hnext (st_heap s)) :: ls, s2)
  end.

Lemma tick_ok_lit_state a s : tick_ok s -> tick_ok (lit_state a s).
Proof. intros [H1 H2]; split; [reflexivity | exact H2]. Qed.

Theorem eval_exprs_literals P e args : forall f s,
  tick_ok s -> (List.length args < f)%nat ->
  eval_exprs f P e (map payload_expr args) s = (Ok (fst (lit_run args s)), snd (lit_run args s)).
Proof.
  induction args as [|a t IH]; intros f s T L.
  - destruct f as [|f]; [cbn in L; lia | reflexivity].
  - destruct f as [|[|f]]; try (cbn in L; lia). cbn [map].
    rewrite eval_exprs_lit_cons by exact T.
    rewrite IH; [|apply tick_ok_lit_state; exact T | cbn in L; lia].
    cbn [lit_run]. destruct (lit_run t (lit_state a s)); reflexivity.
Qed.

Lemma lit_run_props args : forall s ls s2, lit_run args s = (ls, s2) ->
  Forall2 (holds (st_heap s2)) ls args /\
  st_globals s2 = st_globals s /\ st_trace s2 = st_trace s /\
  st_yields s2 = (st_yields s + List.length args)%nat /\
  st_input s2 = st_input s /\ st_total s2 = st_total s /\ st_fails s2 = st_fails s /\
  (hnext (st_heap s) <= hnext (st_heap s2))%positive /\
  (forall l, (l < hnext (st_heap s))%positive -> hget (st_heap s2) l = hget (st_heap s) l) /\
  Forall (fun l => (hnext (st_heap s) <= l)%positive) ls.
Proof.
  induction args as [|a t IH]; intros s ls s2 H; cbn [lit_run] in H.
  - inversion H; subst. cbn. rewrite Nat.add_0_r. repeat split; try constructor. lia.
  - destruct (lit_run t (lit_state a s)) as [ls' s2'] eqn:E. inversion H; subst; clear H.
    destruct (IH _ _ _ E) as (F & G & Tr & Y & I & To & Fa & N & O & Fr).
    change (st_heap (lit_state a s)) with (lit_heap a (st_heap s)) in *.
    change (hnext (lit_heap a (st_heap s))) with (Pos.succ (Pos.succ (hnext (st_heap s)))) in *.
    repeat split; try assumption.
    + constructor; [|exact F]. unfold holds. rewrite O by lia. apply lit_heap_copy.
    + rewrite Y. cbn. lia.
    + lia.
    + intros l Hl. rewrite O by lia. apply lit_heap_old. exact Hl.
    + constructor; [lia|]. eapply Forall_impl; [|exact Fr]. cbn. intros; lia.
Qed.

(* C2 with the call written as evy source would: `fname lit1 lit2 ...`.
   Event and call reduce to one exec_block of the same body with the same fuel,
   from frames with the same names and equal values, in states with the same
   globals and trace and the same old cells; the call has yielded once per
   argument and allocated two cells per argument instead of one per parameter. *)
Theorem event_vs_literal_call fuel P e name args s h fname fd vs :
  find_handler name (p_handlers P) = Some h ->
  user_fn_name fname -> find_func fname (p_funcs P) = Some fd ->
  fn_params fd = h_params h -> fn_variadic fd = None -> fn_body fd = h_body h ->
  payload_vals (h_params h) args = PvOk vs ->
  tick_ok s -> (List.length args < fuel)%nat ->
  let s1 := upd_heap (halloc_list (st_heap s) vs) s in
  let fr1 := bind_frame (h_params h) (loc_seq (hnext (st_heap s)) (List.length vs)) [] in
  let vals := fst (lit_run args s) in
  let s2 := snd (lit_run args s) in
  let fr2 := bind_frame (h_params h) vals [] in
  handle_event fuel P name args s = event_outcome (exec_block fuel P [fr1] (h_body h) s1) /\
  eval_call (S fuel) P e fname (map payload_expr args) s = call_outcome (exec_block fuel P [fr2] (h_body h) s2) /\
  frame_sim (same_value (st_heap s1) (st_heap s2)) fr1 fr2 /\
  st_globals s1 = st_globals s2 /\ st_trace s1 = st_trace s2 /\
  st_yields s2 = (st_yields s1 + List.length args)%nat /\
  (forall l, (l < hnext (st_heap s))%positive -> hget (st_heap s1) l = hget (st_heap s2) l).
Proof.
  intros Hh Hu Hf Hps Hvar Hbody Hp T L s1 fr1 vals s2 fr2.
  assert (bind_payload (h_params h) args [] s = (Ok fr1, s1)) as Hb.
  { rewrite bind_payload_exact. unfold bind_payload_result. rewrite Hp. reflexivity. }
  destruct (lit_run args s) as [vals' s2'] eqn:E. cbn [fst snd] in vals, s2. subst vals s2.
  destruct (lit_run_props _ _ _ _ E) as (F & G & Tr & Y & _ & _ & _ & _ & O & _).
  destruct (events_as_calls_partial fuel P name args s s2' h fname fd vals' fr1 s1 Hh Hf Hps Hvar Hbody Hb F)
    as (E1 & E2 & Sim & G1 & T1 & Y1 & O1).
  split; [exact E1|]. split.
  - rewrite (eval_call_user_unfold _ _ _ _ _ _ _ Hu Hf).
    rewrite eval_exprs_literals by assumption. rewrite E. cbn [fst snd]. exact E2.
  - split; [exact Sim|]. repeat split.
    + congruence.
    + congruence.
    + rewrite Y, Y1. reflexivity.
    + intros l Hl. rewrite O1, O by exact Hl. reflexivity.
Qed.

Lemma find_handler_In n hs h : find_handler n hs = Some h -> In h hs /\ h_name h = n.
Proof.
  induction hs as [|x t IH]; cbn; [discriminate|].
  destruct (str_eqb (h_name x) n) eqn:E.
  - intro H; inversion H; subst. split; [left; reflexivity | apply str_eqb_eq; exact E].
  - intro H. destruct (IH H). split; [right|]; assumption.
Qed.

(* for each delivered event (b = state before, o = outcome, a = state after):
   the twin procedure called from b on fresh cells holding the payload ends
   with the same outcome in the state a, up to the HNone result cell *)
Definition run_is_call (fuel : nat) (P : program) (pn : str -> str) (e : ev) (r : state * outcome * state) : Prop :=
  let '(b, o, a) := r in
  exists h fd vs,
    find_handler (fst e) (p_handlers P) = Some h /\
    find_func (pn (fst e)) (p_funcs P) = Some fd /\
    payload_vals (h_params h) (snd e) = PvOk vs /\
    let '(rc, a') := call_user fuel P fd (loc_seq (hnext (st_heap b)) (List.length vs))
                               (upd_heap (halloc_list (st_heap b) vs) b) in
    o = outcome_of_call rc /\ (a' = a \/ a' = upd_heap (snd (halloc (st_heap a) HNone)) a).

Theorem event_runs_are_calls fuel P pn es : forall s,
  procs_mirror_handlers P pn ->
  (forall e, In e es -> exists h vs, find_handler (fst e) (p_handlers P) = Some h /\
                                     payload_vals (h_params h) (snd e) = PvOk vs) ->
  Forall2 (run_is_call fuel P pn) es (event_runs fuel P es s).
Proof.
  induction es as [|e t IH]; intros s M W; cbn [event_runs]; [constructor|].
  destruct (handle_event fuel P (fst e) (snd e) s) as [o s1] eqn:E.
  constructor; [|apply IH; [exact M | intros e' He'; apply W; right; exact He']].
  destruct (W e (or_introl eq_refl)) as (h & vs & Hh & Hp).
  destruct (find_handler_In _ _ _ Hh) as [Hin Hname].
  destruct (M h Hin) as (_ & fd & Hf & Hps & Hvar & Hbody). rewrite Hname in Hf.
  unfold run_is_call. exists h, fd, vs. repeat split; try assumption.
  pose proof (event_is_call_on_fresh_cells fuel P (fst e) (snd e) s h _ fd vs Hh Hf Hps Hvar Hbody Hp) as X.
  cbv zeta in X. destruct X as (_ & _ & X). rewrite E in X. exact X.
Qed.

(* a missing value is a host crash in both, with different messages *)
Lemma missing_payload_vs_missing_arg :
  err_missing_payload <> err_missing_arg.
Proof. intro H. vm_compute in H. discriminate H. Qed.

(* calls do not look at the declared parameter types, events convert
   (valueFromAny) and fail on another kind, also for "_" and also for types
   other than num/string/bool *)
Lemma payload_vals_other_type n t rest a more :
  t <> TNum -> t <> TStr -> t <> TBool ->
  payload_vals ((n, t) :: rest) (a :: more) = PvMismatch [].
Proof. intros; destruct t, a; cbn; congruence. Qed.

(* MODEL vs GO: HandleEvent tests len(args) < len(params) BEFORE converting any
   value; bind_payload converts parameter by parameter, so a short payload
   whose early value has the wrong kind ends as PkAnyConversion in the model
   where Go panics "not enough arguments" *)
Lemma short_payload_with_wrong_kind_is_mismatch n1 n2 x :
  payload_vals [(n1, TNum); (n2, TNum)] [PvStr x] = PvMismatch [].
Proof. reflexivity. Qed.

Definition x_print (a : expr) : stmt := SCallStmt (s_ "print") [a].
Definition x_n : expr := EVar (s_ "n") TNum.

(* n := 0
   on down x:num y:num
     n = n + 1
     print n x y
   end *)
Definition ex_counter : program :=
  {| p_funcs := [];
     p_handlers :=
       [{| h_name := s_ "down"; h_params := [(s_ "x", TNum); (s_ "y", TNum)];
           h_body := [SAssign x_n (EBin BPlus TNum x_n (ENum 1%float));
                      SCallStmt (s_ "print") [x_n; EVar (s_ "x") TNum; EVar (s_ "y") TNum]] |}];
     p_stmts := [SDecl (s_ "n") TNum (ENum 0%float)] |}.

(* on down x:num
     t := 7
     print t x
   end
   on up
     print t          // the local of the previous event
   end
   on key k:string
     print x          // the parameter of another handler
   end
   on move _:num y:num
     print y
   end
   on input s:string
     return           // ignored
   end *)
Definition ex_locals : program :=
  {| p_funcs := [];
     p_handlers :=
       [{| h_name := s_ "down"; h_params := [(s_ "x", TNum)];
           h_body := [SDecl (s_ "t") TNum (ENum 7%float);
                      SCallStmt (s_ "print") [EVar (s_ "t") TNum; EVar (s_ "x") TNum]] |};
        {| h_name := s_ "up"; h_params := [];
           h_body := [x_print (EVar (s_ "t") TNum)] |};
        {| h_name := s_ "key"; h_params := [(s_ "k", TStr)];
           h_body := [x_print (EVar (s_ "x") TNum)] |};
        {| h_name := s_ "move"; h_params := [(underscore, TNum); (s_ "y", TNum)];
           h_body := [x_print (EVar (s_ "y") TNum)] |};
        {| h_name := s_ "input"; h_params := [(s_ "s", TStr)];
           h_body := [SReturn None] |}];
     p_stmts := [] |}.

(* n := 0
   func down_ x:num s:string      // twin of the handler
     n = n + 1
     print n x s
   end
   on down x:num s:string
     n = n + 1
     print n x s
   end *)
Definition ex_twin_body : list stmt :=
  [SAssign x_n (EBin BPlus TNum x_n (ENum 1%float));
   SCallStmt (s_ "print") [x_n; EVar (s_ "x") TNum; EVar (s_ "s") TStr]].
Definition ex_twin_params : list (str * ty) := [(s_ "x", TNum); (s_ "s", TStr)].
Definition ex_twin_fd : funcdef :=
  {| fn_name := s_ "down_"; fn_params := ex_twin_params; fn_variadic := None; fn_ret := TNone;
     fn_body := ex_twin_body |}.
Definition ex_twin_h : handler :=
  {| h_name := s_ "down"; h_params := ex_twin_params; h_body := ex_twin_body |}.
Definition ex_twin : program :=
  {| p_funcs := [ex_twin_fd]; p_handlers := [ex_twin_h];
     p_stmts := [SDecl (s_ "n") TNum (ENum 0%float)] |}.

Definition ex_s0 : state := init_state None [] false false.
Definition ex_after (P : program) : state := snd (run_program 100 P ex_s0).
Definition nl : piece := PStr [10%N].
