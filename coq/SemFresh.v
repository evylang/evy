(* SemFresh.v — property C09, parts A1 and A4: what is fresh and what is shared.
   A1  copy_or_ref (the exact behaviour on each kind of cell)
   A4  indexing shares the element cell; slicing and + build a fresh array cell
       whose elements are copy_or_ref'd; * deep-copies: nothing reachable from
       the result existed before. *)
From Coq Require Import ZArith NArith PArith List String Bool Floats FMapPositive Lia.
From EvyV Require Import Base Num Ast Omap Sem SemBasics SemPure SemStoreBase.
Import ListNotations.
Local Open Scope positive_scope.

(* arrays and maps: the same cell, nothing changes (for every positive fuel) *)
Theorem composite_shared fuel l s v :
  hget (st_heap s) l = Some v -> is_composite v = true ->
  copy_or_ref (S fuel) l s = (Ok l, s).
Proof. intros H C. apply (copy_or_ref_composite fuel l s v H). destruct v; try discriminate; exact I. Qed.

(* basic cells: one allocation at hnext, holding the same value *)
Theorem basic_copied fuel l s v :
  hget (st_heap s) l = Some v -> is_basic v = true ->
  copy_or_ref (S fuel) l s = (Ok (hnext (st_heap s)), upd_heap (snd (halloc (st_heap s) v)) s).
Proof. intros H C. apply (copy_or_ref_basic fuel l s v H). destruct v; try discriminate; exact I. Qed.

(* copy_rel read from the content of the argument cell *)
Lemma copy_rel_inv N h' l c v :
  hget h' l = Some v -> copy_rel N h' l c ->
  match v with
  | HNum _ | HStr _ | HBool _ => N <= c /\ hget h' c = Some v
  | HArr _ | HMap _ => c = l
  | HAny t i => N <= c /\ exists i', hget h' c = Some (HAny t i') /\ c <> i' /\ copy_rel N h' i i'
  | HNone => False
  end.
Proof.
  intros H C. destruct C as [l c w Hw Bw Hc Hn | l w Hw Cw | l c t i i' Hw];
    rewrite H in Hw; inversion Hw; subst; [destruct w; try discriminate; auto .. | eauto].
Qed.
Lemma copy_rel_composite_inv N h' l c v :
  hget h' l = Some v -> is_composite v = true -> copy_rel N h' l c -> c = l.
Proof. intros H B C. pose proof (copy_rel_inv _ _ _ _ _ H C) as X. destruct v; try discriminate; exact X. Qed.

(* A1, in one statement: whatever the fuel, a successful copy_or_ref only extends the heap
   (every existing cell keeps its content, nothing but the heap changes) and
   - for a num/string/bool cell the result is a cell that did not exist, holding an equal value;
   - for an array/map cell the result is the cell itself;
   - for an any cell the result is a box that did not exist, whose content is, recursively,
     the copy_or_ref of the old content (fresh for a basic content, shared for a composite). *)
Theorem copy_or_ref_fresh fuel l s c s' :
  wf s -> copy_or_ref fuel l s = (Ok c, s') ->
  wf s' /\ heap_extends (st_heap s) (st_heap s') /\ s' = upd_heap (st_heap s') s /\
  copy_rel (hnext (st_heap s)) (st_heap s') l c /\
  match hget (st_heap s) l with
  | Some (HNum _ as v) | Some (HStr _ as v) | Some (HBool _ as v) =>
      hnext (st_heap s) <= c /\ hget (st_heap s) c = None /\ hget (st_heap s') c = Some v
  | Some (HArr _) | Some (HMap _) => c = l /\ s' = s
  | Some (HAny t i) =>
      hnext (st_heap s) <= c /\ hget (st_heap s) c = None /\
      exists i', hget (st_heap s') c = Some (HAny t i') /\ copy_rel (hnext (st_heap s)) (st_heap s') i i'
  | _ => False
  end.
Proof.
  intros W H. destruct (copy_or_ref_spec _ _ _ _ _ H W) as [(E & W' & U) X].
  destruct (X _ eq_refl) as [C _].
  split; [auto|split; [auto|split; [auto|split; [auto|]]]].
  destruct fuel as [|f]; [simpl in H; apply fail_inv in H; destruct H; discriminate|].
  destruct (hget (st_heap s) l) as [v|] eqn:G.
  2: { simpl in H. unfold bindM, load in H. rewrite G in H. inversion H. }
  pose proof (copy_rel_inv _ _ _ _ _ (proj2 E _ _ G) C) as X'.
  destruct v.
  1-3: destruct X' as [A B]; (split; [auto | split; [apply W; auto | auto]]).
  - destruct X' as [A (i' & B & _ & D)]. split; [auto | split; [apply W; auto | eauto]].
  - rewrite (composite_shared f l s _ G eq_refl) in H. inversion H; auto.
  - rewrite (composite_shared f l s _ G eq_refl) in H. inversion H; auto.
  - simpl in H. unfold bindM, load in H. rewrite G in H. inversion H.
Qed.

Lemma Forall2_impl {A B} (P Q : A -> B -> Prop) l l' :
  (forall a b, P a b -> Q a b) -> Forall2 P l l' -> Forall2 Q l l'.
Proof. intros H F. induction F; constructor; auto. Qed.

Section MapMExt.
  Context {A B : Type} (fm : A -> M B) (Q : A -> positive -> heap -> B -> Prop).
  Hypothesis Qmono : forall a N N' h h' b, N' <= N -> heap_extends h h' -> Q a N h b -> Q a N' h' b.
  Hypothesis Hfm : forall a s r s', fm a s = (r, s') -> wf s ->
    only_extends s s' /\ forall b, r = Ok b -> Q a (hnext (st_heap s)) (st_heap s') b.

  Lemma mapM_ext l : forall s r s', mapM fm l s = (r, s') -> wf s ->
    only_extends s s' /\
    forall bs, r = Ok bs -> Forall2 (fun a b => Q a (hnext (st_heap s)) (st_heap s') b) l bs.
  Proof.
    induction l as [|a t IH]; intros s r s' H W; simpl in H.
    - apply ret_inv in H; destruct H as [-> ->]. split; [apply only_extends_refl; auto|].
      intros bs E; inversion E; constructor.
    - apply bind_inv in H. destruct H as [(b & s1 & H1 & H) | (x & H1 & ->)];
        destruct (Hfm _ _ _ _ H1 W) as [E1 Q1]; [|split; [auto|discriminate]].
      pose proof (proj1 (proj2 E1)) as W1.
      apply bind_inv in H. destruct H as [(bs & s2 & H2 & H) | (x & H2 & ->)];
        destruct (IH _ _ _ H2 W1) as [E2 Q2].
      2: { split; [eapply only_extends_trans; eauto | discriminate]. }
      apply ret_inv in H; destruct H as [-> ->].
      split; [eapply only_extends_trans; eauto|].
      intros bs' E; inversion E; subst; clear E. constructor.
      + eapply Qmono; [| |apply Q1; reflexivity]; [lia | apply E2].
      + specialize (Q2 _ eq_refl). eapply Forall2_impl; [|exact Q2].
        intros a' b' HQ. eapply Qmono; [| |exact HQ]; [apply E1 | apply heap_extends_refl].
  Qed.
End MapMExt.

Lemma mapM_copy_spec d ls s r s' :
  mapM (copy_or_ref d) ls s = (r, s') -> wf s ->
  only_extends s s' /\
  forall cs, r = Ok cs -> Forall2 (fun l c => copy_rel (hnext (st_heap s)) (st_heap s') l c) ls cs.
Proof.
  apply (mapM_ext (copy_or_ref d) (fun l N h c => copy_rel N h l c)).
  - intros a N N' h h' b LN E C. eapply copy_rel_mono; eauto.
  - intros a s0 r0 s0' H W. destruct (copy_or_ref_spec _ _ _ _ _ H W) as [E X]. split; auto.
    intros b Eb. apply X; auto.
Qed.

(* a[i] on an array IS the element cell (no copy, state as after the operands) *)
Theorem eindex_shares n P e t a i s s0 s1 s2 la li els fi k l :
  tick s = (Ok tt, s0) ->
  eval_expr n P e a s0 = (Ok la, s1) ->
  eval_expr n P e i s1 = (Ok li, s2) ->
  hget (st_heap s2) la = Some (HArr els) ->
  hget (st_heap s2) li = Some (HNum fi) ->
  normalize_index fi (List.length els) false = Ok k ->
  nth_error els k = Some l ->
  eval_expr (S n) P e (EIndex t a i) s = (Ok l, s2).
Proof.
  intros T A I Ha Hi Nk Nth. cbn [eval_expr]. unfold bindM at 1. rewrite T.
  unfold bindM at 1. rewrite A. unfold bindM at 1. rewrite I.
  unfold bindM at 1. unfold load at 1. rewrite Ha.
  unfold bindM at 1. unfold load_num, bindM, load. rewrite Hi. unfold ret at 1.
  unfold lift. rewrite Nk, Nth. reflexivity.
Qed.

(* m[k] / m.k on a map IS the value cell *)
Theorem edot_shares n P e t a key s s0 s1 la om l :
  tick s = (Ok tt, s0) ->
  eval_expr n P e a s0 = (Ok la, s1) ->
  hget (st_heap s1) la = Some (HMap om) ->
  oget key om = Some l ->
  eval_expr (S n) P e (EDot t a key) s = (Ok l, s1).
Proof.
  intros T A Ha G. cbn [eval_expr]. unfold bindM at 1. rewrite T.
  unfold bindM at 1. rewrite A. unfold bindM at 1. unfold load at 1. rewrite Ha. rewrite G. reflexivity.
Qed.

(* a cell allocated at the end of a run that only extended the heap *)
Lemma alloc_after s s1 v c s' :
  wf s -> only_extends s s1 -> alloc v s1 = (Ok c, s') ->
  heap_extends (st_heap s) (st_heap s') /\ s' = upd_heap (st_heap s') s /\
  hnext (st_heap s) <= c /\ hget (st_heap s) c = None /\ hget (st_heap s') c = Some v /\
  heap_extends (st_heap s1) (st_heap s').
Proof.
  intros W (E1 & W1 & U1) H. apply alloc_inv in H. destruct H as [Ec ->]. inversion Ec; subst c. simpl.
  pose proof (heap_extends_halloc (st_heap s1) v W1) as E2.
  split; [eapply heap_extends_trans; eauto|].
  split; [generalize (snd (halloc (st_heap s1) v)); intro h; rewrite U1; reflexivity|].
  split; [apply E1|]. split; [apply W, E1|]. split; [apply hget_halloc_new | exact E2].
Qed.

(* the tail of ESlice on an array, as a named term *)
Definition slice_arr (els : list loc) (llo lhi : option loc) : M loc :=
  let* (s0, e0) := slice_bounds llo lhi (List.length els) in
  let* d := depth_fuel in
  let* els' := mapM (copy_or_ref d) (firstn (e0 - s0) (skipn s0 els)) in
  alloc (HArr els').

Lemma eslice_unfold n P e t a lo hi :
  eval_expr (S n) P e (ESlice t a lo hi) =
  (let* _ := tick in
   let* la := eval_expr n P e a in
   let* llo := match lo with Some y => let* l := eval_expr n P e y in ret (Some l) | None => ret None end in
   let* lhi := match hi with Some y => let* l := eval_expr n P e y in ret (Some l) | None => ret None end in
   let* va := load la in
   match va with
   | HArr els => slice_arr els llo lhi
   | HStr s =>
       let* (s0, e0) := slice_bounds llo lhi (List.length s) in
       alloc (HStr (firstn (e0 - s0) (skipn s0 s)))
   | _ => internal "expected string or array before ["
   end).
Proof. reflexivity. Qed.

(* a slice is a fresh array cell; its elements are the copy_or_ref of the selected elements:
   basic elements are fresh cells, array/map elements are shared with the sliced array *)
Theorem slice_fresh els llo lhi s c s' :
  wf s -> slice_arr els llo lhi s = (Ok c, s') ->
  exists lo hi els',
    slice_bounds llo lhi (List.length els) s = (Ok (lo, hi), s) /\
    heap_extends (st_heap s) (st_heap s') /\ s' = upd_heap (st_heap s') s /\
    hnext (st_heap s) <= c /\ hget (st_heap s) c = None /\
    hget (st_heap s') c = Some (HArr els') /\
    Forall2 (copy_rel (hnext (st_heap s)) (st_heap s')) (firstn (hi - lo) (skipn lo els)) els'.
Proof.
  intros W H. unfold slice_arr in H.
  apply bind_inv in H. destruct H as [([lo hi] & s1 & H1 & H) | (x & H1 & E)]; [|discriminate].
  pose proof (ro_slice_bounds _ _ _ _ _ _ H1); subst s1.
  apply bind_inv in H. destruct H as [(d & s1 & H2 & H) | (x & H2 & E)]; [|discriminate].
  apply depth_fuel_inv in H2; destruct H2 as [_ ->].
  apply bind_inv in H. destruct H as [(els' & s1 & H3 & H) | (x & H3 & E)]; [|discriminate].
  destruct (mapM_copy_spec _ _ _ _ _ H3 W) as [X1 F]. specialize (F _ eq_refl).
  destruct (alloc_after _ _ _ _ _ W X1 H) as (A1 & A2 & A3 & A4 & A5 & A6).
  exists lo, hi, els'. split; [exact H1|]. repeat (split; [assumption|]).
  eapply Forall2_impl; [|exact F]. intros a b C. eapply copy_rel_mono; [| exact A6 | exact C]. lia.
Qed.

(* xs + ys: a fresh array cell whose elements are the copy_or_ref of both operands' elements *)
Theorem concat_fresh xs r ys s c s' :
  wf s -> hget (st_heap s) r = Some (HArr ys) -> bin_arr BPlus xs r s = (Ok c, s') ->
  exists xs' ys',
    heap_extends (st_heap s) (st_heap s') /\ s' = upd_heap (st_heap s') s /\
    hnext (st_heap s) <= c /\ hget (st_heap s) c = None /\
    hget (st_heap s') c = Some (HArr (xs' ++ ys')) /\
    Forall2 (copy_rel (hnext (st_heap s)) (st_heap s')) xs xs' /\
    Forall2 (copy_rel (hnext (st_heap s)) (st_heap s')) ys ys'.
Proof.
  intros W Hr H. unfold bin_arr in H.
  apply bind_inv in H. destruct H as [(rv & s1 & H1 & H) | (x & H1 & E)]; [|discriminate].
  apply load_inv in H1. destruct H1 as [-> [(v & Ev & Hv) | [Ev _]]]; [|discriminate].
  inversion Ev; subst v; clear Ev. rewrite Hr in Hv. inversion Hv; subst rv; clear Hv.
  apply bind_inv in H. destruct H as [(d & s1 & H2 & H) | (x & H2 & E)]; [|discriminate].
  apply depth_fuel_inv in H2; destruct H2 as [_ ->].
  apply bind_inv in H. destruct H as [(xs' & s1 & H3 & H) | (x & H3 & E)]; [|discriminate].
  destruct (mapM_copy_spec _ _ _ _ _ H3 W) as [X1 F1]. specialize (F1 _ eq_refl).
  apply bind_inv in H. destruct H as [(ys' & s2 & H4 & H) | (x & H4 & E)]; [|discriminate].
  destruct (mapM_copy_spec _ _ _ _ _ H4 (proj1 (proj2 X1))) as [X2 F2]. specialize (F2 _ eq_refl).
  destruct (alloc_after _ _ _ _ _ W (only_extends_trans _ _ _ X1 X2) H) as (A1 & A2 & A3 & A4 & A5 & A6).
  exists xs', ys'. repeat (split; [assumption|]). split.
  - eapply Forall2_impl; [|exact F1]. intros a b C. eapply copy_rel_mono; [| |exact C]; [lia|].
    eapply heap_extends_trans; [apply X2 | exact A6].
  - eapply Forall2_impl; [|exact F2]. intros a b C. eapply copy_rel_mono; [| exact A6 | exact C]. apply X1.
Qed.

(* cells reachable from a cell through any-contents, array elements and map values *)
Inductive reach (h : heap) : loc -> loc -> Prop :=
| reach_refl l : reach h l l
| reach_any l t i x : hget h l = Some (HAny t i) -> reach h i x -> reach h l x
| reach_arr l els i x : hget h l = Some (HArr els) -> In i els -> reach h i x -> reach h l x
| reach_map l m k i x : hget h l = Some (HMap m) -> In (k, i) (pairs m) -> reach h i x -> reach h l x.

(* everything reachable from c is allocated and at or above N *)
Definition all_fresh (N : positive) (h : heap) (c : loc) : Prop :=
  forall x, reach h c x -> N <= x /\ hget h x <> None.

Lemma all_fresh_child_any N h c t i : all_fresh N h c -> hget h c = Some (HAny t i) -> all_fresh N h i.
Proof. intros F H x R. apply F. eapply reach_any; eauto. Qed.
Lemma all_fresh_child_arr N h c els i : all_fresh N h c -> hget h c = Some (HArr els) -> In i els -> all_fresh N h i.
Proof. intros F H I x R. apply F. eapply reach_arr; eauto. Qed.
Lemma all_fresh_child_map N h c m k i :
  all_fresh N h c -> hget h c = Some (HMap m) -> In (k, i) (pairs m) -> all_fresh N h i.
Proof. intros F H I x R. apply F. eapply reach_map; eauto. Qed.

Lemma reach_back N h h' c x :
  heap_extends h h' -> all_fresh N h c -> reach h' c x -> reach h c x.
Proof.
  intros [_ E] F R. induction R as [l | l t i x H R IH | l els i x H I R IH | l m k i x H I R IH].
  - constructor.
  - destruct (F l (reach_refl _ _)) as [_ Hl]. destruct (hget h l) as [v|] eqn:G; [|congruence].
    pose proof (E _ _ G) as G'. rewrite H in G'. inversion G'; subst v.
    eapply reach_any; eauto. apply IH. eapply all_fresh_child_any; eauto.
  - destruct (F l (reach_refl _ _)) as [_ Hl]. destruct (hget h l) as [v|] eqn:G; [|congruence].
    pose proof (E _ _ G) as G'. rewrite H in G'. inversion G'; subst v.
    eapply reach_arr; eauto. apply IH. eapply all_fresh_child_arr; eauto.
  - destruct (F l (reach_refl _ _)) as [_ Hl]. destruct (hget h l) as [v|] eqn:G; [|congruence].
    pose proof (E _ _ G) as G'. rewrite H in G'. inversion G'; subst v.
    eapply reach_map; eauto. apply IH. eapply all_fresh_child_map; eauto.
Qed.

Lemma all_fresh_mono N N' h h' c :
  N' <= N -> heap_extends h h' -> all_fresh N h c -> all_fresh N' h' c.
Proof.
  intros LN E F x R. apply (reach_back N h h' c x E F) in R. destruct (F x R) as [A B].
  split; [lia|]. destruct (hget h x) as [v|] eqn:G; [|congruence]. rewrite (proj2 E _ _ G). discriminate.
Qed.

(* a freshly allocated cell all of whose children are all_fresh *)
Lemma all_fresh_new N h v :
  fresh_ok h -> N <= hnext h ->
  match v with
  | HAny _ i => all_fresh N h i
  | HArr els => Forall (all_fresh N h) els
  | HMap m => Forall (fun p => all_fresh N h (snd p)) (pairs m)
  | _ => True
  end ->
  all_fresh N (snd (halloc h v)) (hnext h).
Proof.
  intros W LN Hv x R.
  assert (E : heap_extends h (snd (halloc h v))) by (apply heap_extends_halloc; auto).
  pose proof (hget_halloc_new h v) as G.
  inversion R as [l | l t i x0 H R' | l els i x0 H I R' | l m k i x0 H I R']; subst.
  - split; [auto | rewrite G; discriminate].
  - rewrite G in H; inversion H; subst v. eapply all_fresh_mono; [| exact E | exact Hv | exact R']. lia.
  - rewrite G in H; inversion H; subst v. rewrite Forall_forall in Hv.
    eapply all_fresh_mono; [| exact E | apply Hv; exact I | exact R']. lia.
  - rewrite G in H; inversion H; subst v. rewrite Forall_forall in Hv.
    eapply all_fresh_mono; [| exact E | apply (Hv (k, i)); exact I | exact R']. lia.
Qed.

Lemma Forall2_Forall_r {A B} (Q : B -> Prop) (l : list A) (l' : list B) :
  Forall2 (fun _ b => Q b) l l' -> Forall Q l'.
Proof. intro F. induction F; constructor; auto. Qed.

Lemma mapM_all_fresh (g : loc -> M loc) :
  (forall l s r s', g l s = (r, s') -> wf s ->
     only_extends s s' /\ forall c, r = Ok c -> all_fresh (hnext (st_heap s)) (st_heap s') c) ->
  forall ls s r s', mapM g ls s = (r, s') -> wf s ->
    only_extends s s' /\ forall cs, r = Ok cs -> Forall (all_fresh (hnext (st_heap s)) (st_heap s')) cs.
Proof.
  intros Hg ls s r s' H W.
  destruct (mapM_ext g (fun _ N h c => all_fresh N h c)
              ltac:(intros; eapply all_fresh_mono; eauto) Hg _ _ _ _ H W) as [X1 X2].
  split; [exact X1 | intros cs E; eapply Forall2_Forall_r, X2, E].
Qed.

Lemma deep_copy_spec fuel : forall l s r s',
  deep_copy fuel l s = (r, s') -> wf s ->
  only_extends s s' /\ forall c, r = Ok c -> all_fresh (hnext (st_heap s)) (st_heap s') c.
Proof.
  induction fuel as [|f IH]; intros l s r s' H W;
    (split; [exact (only_extends_ho _ _ _ _ (ho_deep_copy _ l) W H)|]); simpl in H.
  { apply crash_inv in H; destruct H as [-> _]. discriminate. }
  apply bind_inv in H. destruct H as [(v & s1 & H1 & H) | (e & H1 & ->)];
    apply load_inv in H1; destruct H1 as [-> H1]; [|discriminate].
  destruct H1 as [(v' & Hv & Hg) | [? _]]; [|discriminate]. inversion Hv; subst v'; clear Hv.
  destruct v.
  1-3: apply alloc_inv in H; destruct H as [-> ->];
       intros c E; inversion E; subst; clear E; simpl; apply all_fresh_new; auto; lia.
  - (* any *)
    apply bind_inv in H. destruct H as [(i' & s1 & H1 & H) | (e & H1 & ->)]; [|discriminate].
    destruct (IH _ _ _ _ H1 W) as [(E1 & W1 & _) X2]. specialize (X2 _ eq_refl).
    apply alloc_inv in H; destruct H as [-> ->].
    intros c E; inversion E; subst; clear E. simpl. apply all_fresh_new; auto. apply E1.
  - (* array *)
    apply bind_inv in H. destruct H as [(els' & s1 & H1 & H) | (e & H1 & ->)]; [|discriminate].
    destruct (mapM_all_fresh _ (IH) _ _ _ _ H1 W) as [(E1 & W1 & _) X2]. specialize (X2 _ eq_refl).
    apply alloc_inv in H; destruct H as [-> ->].
    intros c E; inversion E; subst; clear E. simpl. apply all_fresh_new; auto. apply E1.
  - (* map *)
    match type of H with bindM (mapM ?g _) _ _ = _ =>
      assert (Hgm : forall k s0 r0 s0', g k s0 = (r0, s0') -> wf s0 ->
                only_extends s0 s0' /\
                forall b, r0 = Ok b -> all_fresh (hnext (st_heap s0)) (st_heap s0') (snd b))
    end.
    { intros k s0 r0 s0' Hk W0. simpl in Hk. destruct (plookup k (pairs m)) as [i|].
      - apply bind_inv in Hk. destruct Hk as [(i' & s2 & K1 & Hk) | (e & K1 & ->)];
          destruct (IH _ _ _ _ K1 W0) as [Y1 Y2]; [|split; [auto|discriminate]].
        apply ret_inv in Hk; destruct Hk as [-> ->]. split; auto.
        intros b E; inversion E; subst; simpl. apply Y2; auto.
      - apply crash_inv in Hk; destruct Hk as [-> ->]. split; [apply only_extends_refl; auto|discriminate]. }
    apply bind_inv in H. destruct H as [(ps & s1 & H1 & H) | (e & H1 & ->)]; [|discriminate].
    destruct (mapM_ext _ (fun _ N h (p : str * loc) => all_fresh N h (snd p))
                ltac:(intros; eapply all_fresh_mono; eauto) Hgm _ _ _ _ H1 W) as [(E1 & W1 & _) X2].
    specialize (X2 _ eq_refl). apply alloc_inv in H; destruct H as [-> ->].
    intros c E; inversion E; subst; clear E. simpl. apply all_fresh_new; auto; [apply E1|].
    simpl. eapply Forall2_Forall_r; exact X2.
  - apply crash_inv in H; destruct H as [-> _]. discriminate.
Qed.

(* xs * n: a fresh array cell, and NOTHING reachable from it existed before — nested arrays,
   maps and any-boxes are copied too (deepCopy) *)
Theorem repeat_fresh xs r s c s' :
  wf s -> bin_arr BAsterisk xs r s = (Ok c, s') ->
  heap_extends (st_heap s) (st_heap s') /\ s' = upd_heap (st_heap s') s /\
  (exists els', hget (st_heap s') c = Some (HArr els')) /\
  forall x, reach (st_heap s') c x -> hnext (st_heap s) <= x /\ hget (st_heap s) x = None.
Proof.
  intros W H. unfold bin_arr in H.
  apply bind_inv in H. destruct H as [(fl & s1 & H1 & H) | (x & H1 & E)]; [|discriminate].
  pose proof (ro_load_num _ _ _ _ H1); subst s1. clear H1.
  destruct (go_int_exact fl) as [n|]; [|apply fail_inv in H; destruct H; discriminate].
  destruct (Z.ltb n 0); [apply fail_inv in H; destruct H; discriminate|].
  destruct (Z.ltb max_alloc _); [apply fail_inv in H; destruct H; discriminate|].
  apply bind_inv in H. destruct H as [(d & s1 & H2 & H) | (x & H2 & E)]; [|discriminate].
  apply depth_fuel_inv in H2; destruct H2 as [Ed ->]. inversion Ed; subst d; clear Ed.
  apply bind_inv in H. destruct H as [(parts & s1 & H3 & H) | (x & H3 & E)]; [|discriminate].
  assert (Qm : forall (a : unit) N N' h h' (b : list loc), N' <= N -> heap_extends h h' ->
                 Forall (all_fresh N h) b -> Forall (all_fresh N' h') b).
  { intros a N N' h h' b LN E F. eapply Forall_impl; [|exact F]. intros; eapply all_fresh_mono; eauto. }
  assert (Hg : forall (a : unit) s0 r0 s0', mapM (deep_copy value_depth) xs s0 = (r0, s0') -> wf s0 ->
                 only_extends s0 s0' /\
                 forall b, r0 = Ok b -> Forall (all_fresh (hnext (st_heap s0)) (st_heap s0')) b).
  { intros a. apply mapM_all_fresh. apply deep_copy_spec. }
  destruct (mapM_ext (fun _ : unit => mapM (deep_copy value_depth) xs)
              (fun _ N h (p : list loc) => Forall (all_fresh N h) p) Qm Hg _ _ _ _ H3 W) as [X1 X2].
  specialize (X2 _ eq_refl). pose proof X1 as (E1 & W1 & U1).
  apply alloc_inv in H. destruct H as [Ec ->]. inversion Ec; subst c; clear Ec.
  assert (AF : all_fresh (hnext (st_heap s)) (snd (halloc (st_heap s1) (HArr (List.concat parts)))) (hnext (st_heap s1))).
  { apply all_fresh_new; auto; [apply E1|].
    apply Forall2_Forall_r in X2. clear -X2. induction X2; simpl; [constructor|].
    apply Forall_app; split; auto. }
  split; [|split; [|split]]; simpl.
  - eapply heap_extends_trans; [exact E1 | apply heap_extends_halloc; auto].
  - generalize (snd (halloc (st_heap s1) (HArr (List.concat parts)))). intro h. rewrite U1. reflexivity.
  - eexists. apply hget_halloc_new.
  - intros x R. destruct (AF x R) as [A _]. split; [auto | apply W; auto].
Qed.
