(* SemIso.v — the evaluator of Sem.v is invariant under a renaming of heap
   locations and under garbage: from isomorphic states and related environments
   all nine mutually recursive functions produce equal outcomes, equal traces
   and isomorphic final states (SemIsoBase.v defines the relation). *)
From Coq Require Import ZArith NArith PArith List String Bool Floats FMapPositive Lia.
From EvyV Require Import Base Num Ast Omap Sem SemStoreBase SemStore SemIsoBase SemIsoLib.
From EvyV Require SemScope SemOrder.
Import ListNotations.
Local Open Scope positive_scope.

Definition serel : lmap -> signal * env -> signal * env -> Prop := pairrel sigrel envrel.
Definition oserel : lmap -> option signal * env -> option signal * env -> Prop := pairrel (optrel sigrel) envrel.
Global Instance Mono_serel : Mono serel. Proof. unfold serel; typeclasses eauto. Qed.
Global Instance Mono_oserel : Mono oserel. Proof. unfold oserel; typeclasses eauto. Qed.

Lemma envrel_push f e1 e2 : envrel f e1 e2 -> envrel f ([] :: e1) ([] :: e2).
Proof. intro E. constructor; [constructor | exact E]. Qed.
Lemma envrel_tl f e1 e2 : envrel f e1 e2 -> envrel f (tl e1) (tl e2).
Proof. intro E. destruct E; simpl; [constructor | assumption]. Qed.
Lemma envrel_single f fr1 fr2 : framerel f fr1 fr2 -> envrel f [fr1] [fr2].
Proof. intro F. constructor; [exact F | constructor]. Qed.
#[export] Hint Resolve envrel_push envrel_tl envrel_single : iso.

Lemma lrels_list_set f xs ys k v1 v2 : lrels f xs ys -> lrel f v1 v2 -> lrels f (list_set xs k v1) (list_set ys k v2).
Proof.
  intros X V. revert k. induction X; intros [|k]; simpl; try constructor; auto. apply IHX.
Qed.

Lemma eval_expr_EBin n P e op t a b :
  eval_expr (S n) P e (EBin op t a b) =
  (let* _ := tick in
   let* la := eval_expr n P e a in
   let* va0 := load la in
   let* lb := if SemOrder.short_of op va0 then ret la else eval_expr n P e b in
   match op with
   | BEq => let* d := depth_fuel in let* r := equals d la lb in alloc (HBool r)
   | BNotEq => let* d := depth_fuel in let* r := equals d la lb in alloc (HBool (negb r))
   | _ => SemOrder.bin_dispatch op la lb
   end).
Proof. reflexivity. Qed.

Lemma short_of_rel f op v1 v2 : hvrel f v1 v2 -> SemOrder.short_of op v1 = SemOrder.short_of op v2.
Proof. intro H. destruct H; reflexivity. Qed.

Lemma sim_bin_dispatch f op la1 la2 lb1 lb2 :
  lrel f la1 la2 -> lrel f lb1 lb2 -> sim f lrel (SemOrder.bin_dispatch op la1 lb1) (SemOrder.bin_dispatch op la2 lb2).
Proof.
  intros A B. unfold SemOrder.bin_dispatch. sbind prim.
  match goal with H : hvrel _ _ _ |- _ => destruct H end; try prim.
  - sbind prim. deq. apply sim_bin_num.
  - sbind prim. deq. apply sim_bin_str.
  - sbind prim. deq. apply sim_bin_bool.
  - apply sim_bin_arr; assumption.
Qed.

Lemma sim_map_set_key f m1 m2 k v1 v2 :
  lrel f m1 m2 -> lrel f v1 v2 -> sim f (eqrel unit) (map_set_key m1 k v1) (map_set_key m2 k v2).
Proof.
  intros A B. unfold map_set_key. sbind prim.
  match goal with H : hvrel _ _ _ |- _ => destruct H end; try prim.
  apply sim_store; [assumption | apply oset_rel; assumption].
Qed.

Lemma sim_map_next f om1 om2 m1 m2 ks :
  framerel f (pairs om1) (pairs om2) -> lrel f m1 m2 ->
  sim f (optrel (pairrel lrel rngrel)) (SemScope.map_next m1 om1 ks) (SemScope.map_next m2 om2 ks).
Proof.
  intros F L. induction ks as [|k t IH]; simpl; [apply sim_ret; exact I|].
  rewrite (ohas_rel _ k _ _ F). destruct (ohas k om2); [|exact IH].
  sbind prim. apply sim_ret. split; simpl; [assumption | constructor; assumption].
Qed.

Lemma sim_for_next f r1 r2 :
  rngrel f r1 r2 -> sim f (optrel (pairrel lrel rngrel)) (SemScope.for_next r1) (SemScope.for_next r2).
Proof.
  intro H. destruct H; simpl.
  - destruct (SemScope.step_done _ _ _); [apply sim_ret; exact I|].
    sbind prim. apply sim_ret. split; simpl; [assumption | constructor].
  - sbind prim. match goal with H : hvrel _ _ _ |- _ => destruct H end; try prim.
    pose proof (listrel_nth _ _ _ _ k H0) as N.
    destruct (nth_error xs k), (nth_error ys k); simpl in N; try contradiction.
    + apply sim_ret. split; simpl; [assumption | constructor; assumption].
    + apply sim_ret. exact I.
  - destruct (nth_error s k); [|apply sim_ret; exact I].
    sbind prim. apply sim_ret. split; simpl; [assumption | constructor].
  - sbind prim. match goal with H : hvrel _ _ _ |- _ => destruct H end; try prim.
    apply sim_map_next; assumption.
Qed.

Section Step.
  Variable P : program.
  Variable n : nat.
  Hypothesis IHexpr : forall f e1 e2 x, envrel f e1 e2 -> sim f lrel (eval_expr n P e1 x) (eval_expr n P e2 x).
  Hypothesis IHexprs : forall f e1 e2 l, envrel f e1 e2 -> sim f lrels (eval_exprs n P e1 l) (eval_exprs n P e2 l).
  Hypothesis IHcall : forall f e1 e2 nm args, envrel f e1 e2 ->
      sim f (optrel lrel) (eval_call n P e1 nm args) (eval_call n P e2 nm args).
  Hypothesis IHstmt : forall f e1 e2 st, envrel f e1 e2 -> sim f serel (exec_stmt n P e1 st) (exec_stmt n P e2 st).
  Hypothesis IHstmts : forall f e1 e2 l, envrel f e1 e2 -> sim f serel (exec_stmts n P e1 l) (exec_stmts n P e2 l).
  Hypothesis IHblock : forall f e1 e2 l, envrel f e1 e2 -> sim f serel (exec_block n P e1 l) (exec_block n P e2 l).
  Hypothesis IHcond : forall f e1 e2 c b, envrel f e1 e2 -> sim f oserel (exec_cond n P e1 c b) (exec_cond n P e2 c b).
  Hypothesis IHwhile : forall f e1 e2 c b, envrel f e1 e2 -> sim f serel (exec_while n P e1 c b) (exec_while n P e2 c b).
  Hypothesis IHfor : forall f e1 e2 var r1 r2 b, envrel f e1 e2 -> rngrel f r1 r2 ->
      sim f serel (exec_for n P e1 var r1 b) (exec_for n P e2 var r2 b).

  Ltac ih :=
    first [ apply IHexpr; solve [eauto with iso] | apply IHexprs; solve [eauto with iso]
          | apply IHcall; solve [eauto with iso] | apply IHstmt; solve [eauto with iso]
          | apply IHstmts; solve [eauto with iso] | apply IHblock; solve [eauto with iso]
          | apply IHcond; solve [eauto with iso] | apply IHwhile; solve [eauto with iso]
          | apply IHfor; solve [eauto with iso] ].

  Lemma sim_range_num f e1 e2 o d : envrel f e1 e2 ->
    sim f (eqrel float) (SemScope.range_num n P e1 o d) (SemScope.range_num n P e2 o d).
  Proof.
    intro E. unfold SemScope.range_num. sbind ih. sbind prim. match goal with H : hvrel _ _ _ |- _ => destruct H end; prim.
  Qed.

  Lemma sim_bind_loopvar f (var : option str) (m1 m2 : M loc) e1 e2 :
    sim f lrel m1 m2 -> envrel f e1 e2 ->
    sim f envrel (SemScope.bind_loopvar var m1 e1) (SemScope.bind_loopvar var m2 e2).
  Proof.
    intros Hm E. destruct var; simpl; [|apply sim_ret; assumption].
    sbind ltac:(exact Hm). apply sim_set_var; assumption.
  Qed.

  Ltac sub2 :=
    first [ sub1 | ih
          | apply sim_range_num; solve [eauto with iso]
          | apply sim_bind_loopvar; [first [prim | apply sim_zero_val] | solve [eauto with iso]]
          | apply sim_copy_or_ref; eassumption
          | apply sim_zero_val
          | apply sim_set_var; [eassumption | solve [eauto with iso]]
          | apply sim_update_var; [eassumption | solve [eauto with iso]]
          | apply sim_map_set_key; eassumption
          | apply sim_store; [eassumption | constructor; apply lrels_list_set; assumption]
          | apply sim_bin_dispatch; eassumption
          | apply sim_equals; eassumption
          | apply sim_for_next; eassumption
          | apply sim_ret; solve [split; simpl; eauto with iso; constructor; eauto with iso]
          | apply sim_ret; split; simpl; [constructor; simpl; solve [auto] | solve [eauto with iso]] ].

  Ltac dpair :=
    repeat match goal with
           | R : pairrel _ _ _ ?a ?b |- _ => destruct a, b; destruct R; simpl fst in *; simpl snd in *
           | R : serel _ ?a ?b |- _ => unfold serel in R
           | R : oserel _ ?a ?b |- _ => unfold oserel in R
           end.

  Ltac istep :=
    first
      [ match goal with
        | |- sim _ _ (bindM _ _) (bindM _ _) => sbind sub2; deq; dpair
        | H : hvrel _ ?v1 ?v2 |- sim _ _ (match ?v1 with _ => _ end) _ => destruct H; lens
        | H : sigrel _ ?v1 ?v2 |- sim _ _ (match ?v1 with _ => _ end) _ => destruct H
        | H : optrel _ _ ?v1 ?v2 |- sim _ _ (match ?v1 with _ => _ end) _ =>
            destruct v1, v2; simpl in H; try contradiction; dpair
        | H : lrels _ ?x1 ?x2 |- sim _ _ (match nth_error ?x1 ?k with _ => _ end) _ =>
            let N := fresh "N" in pose proof (listrel_nth _ _ _ _ k H) as N;
            destruct (nth_error x1 k), (nth_error x2 k); simpl in N; try contradiction
        | H : framerel _ (pairs ?m1) (pairs ?m2) |- sim _ _ (match oget ?k ?m1 with _ => _ end) _ =>
            let N := fresh "N" in pose proof (oget_rel _ k _ _ H) as N;
            destruct (oget k m1), (oget k m2); simpl in N; try contradiction
        | |- sim _ _ (match ?x with _ => _ end) (match ?x with _ => _ end) => destruct x
        | |- sim _ _ (if ?x then _ else _) (if ?x then _ else _) => destruct x
        | |- sim _ _ (let '(_, _) := ?x in _) (let '(_, _) := ?x in _) => destruct x
        end
      | sub2 ].
  Ltac isolve := repeat istep.

  Lemma sim_emap_go f e1 e2 d ps : envrel f e1 e2 ->
    sim f framerel (emap_go (eval_expr n P e1) d ps) (emap_go (eval_expr n P e2) d ps).
  Proof.
    intro E. revert f E. induction ps as [|[k a] t IH]; intros f E; simpl; [apply sim_ret; constructor|].
    sbind ih. sbind sub2. sbind ltac:(apply IH; assumption).
    apply sim_ret. constructor; [split; simpl; [reflexivity | assumption] | assumption].
  Qed.

  Lemma sim_opt_eval f e1 e2 o : envrel f e1 e2 ->
    sim f (optrel lrel)
      (match o with Some y => let* l := eval_expr n P e1 y in ret (Some l) | None => ret None end)
      (match o with Some y => let* l := eval_expr n P e2 y in ret (Some l) | None => ret None end).
  Proof.
    intro E. destruct o; [|apply sim_ret; exact I]. sbind ih. apply sim_ret. assumption.
  Qed.

  Lemma step_expr f e1 e2 x : envrel f e1 e2 -> sim f lrel (eval_expr (S n) P e1 x) (eval_expr (S n) P e2 x).
  Proof.
    intro E. destruct x.
    7: { rewrite !eval_expr_EMap. sbind sub2. sbind sub2. deq.
         sbind ltac:(apply sim_emap_go; assumption). apply sim_alloc. constructor; [reflexivity | assumption]. }
    9: { rewrite !eval_expr_EBin. sbind sub2. sbind sub2. sbind sub2.
          match goal with H : hvrel _ ?v1 ?v2 |- _ => rewrite (short_of_rel _ op _ _ H) end.
          sbind ltac:(instantiate (1 := lrel); match goal with |- sim _ _ (if ?c then _ else _) _ => destruct c end; sub2).
          destruct op; isolve. }
    10: { cbn [eval_expr]. sbind sub2. sbind sub2.
          sbind ltac:(apply sim_opt_eval; assumption). sbind ltac:(apply sim_opt_eval; assumption).
          sbind sub2. match goal with H : hvrel _ _ _ |- _ => destruct H end; try prim.
          - sbind ltac:(apply sim_slice_bounds; assumption). deq.
            match goal with |- sim _ _ (let '(_, _) := ?p in _) _ => destruct p end. prim.
          - lens. sbind ltac:(apply sim_slice_bounds; assumption). deq.
            match goal with |- sim _ _ (let '(_, _) := ?p in _) _ => destruct p as [s0 e0] end.
            sbind sub2. deq.
            sbind ltac:(eapply (sim_mapM lrel lrel);
                        [intros; apply sim_copy_or_ref; eassumption | apply listrel_firstn, listrel_skipn; eassumption]).
            prim. }
    all: cbn [eval_expr]; isolve.
  Qed.

  Lemma step_exprs f e1 e2 l : envrel f e1 e2 -> sim f lrels (eval_exprs (S n) P e1 l) (eval_exprs (S n) P e2 l).
  Proof.
    intro E. cbn [eval_exprs]. destruct l; [apply sim_ret; constructor|].
    sbind sub2. sbind sub2. deq. sbind sub2. sbind sub2. apply sim_ret. constructor; assumption.
  Qed.

  Lemma step_call f e1 e2 nm args : envrel f e1 e2 ->
    sim f (optrel lrel) (eval_call (S n) P e1 nm args) (eval_call (S n) P e2 nm args).
  Proof.
    intro E. cbn [eval_call]. sbind sub2.
    destruct (str_eqb nm n_test).
    { sbind ltac:(apply sim_run_test; assumption). apply sim_ret. exact I. }
    match goal with A : lrels ?g ?a ?b, E' : envrel ?g _ _ |- _ => pose proof (sim_builtin nm g _ _ _ _ E' A) as B end.
    destruct (builtin nm e1 a), (builtin nm e2 b); simpl in B; try contradiction; [exact B|].
    destruct (existsb _ _); [prim|].
    destruct (find_func nm (p_funcs P)) as [fd|]; [|prim].
    sbind ltac:(apply sim_bind_params; [eassumption | constructor]). dpair.
    sbind ltac:(instantiate (1 := framerel)).
    - destruct (fn_variadic fd) as [[vn vt]|]; [|apply sim_ret; assumption].
      sbind sub2. apply sim_ret. destruct (str_eqb vn underscore); [assumption | apply framerel_set; assumption].
    - isolve.
  Qed.

  Lemma sim_if_go f els conds : forall e1 e2, envrel f e1 e2 ->
    sim f serel (if_go (exec_cond n P) (exec_block n P) els conds e1)
                (if_go (exec_cond n P) (exec_block n P) els conds e2).
  Proof.
    revert f. induction conds as [|[c body] t IH]; intros f e1 e2 E; simpl.
    - destruct els; isolve.
    - sbind sub2. dpair.
      match goal with H : optrel sigrel _ ?o1 ?o2 |- _ => destruct o1, o2; simpl in H; try contradiction end.
      + apply sim_ret. split; assumption.
      + apply IH; assumption.
  Qed.

  Lemma step_stmt f e1 e2 st : envrel f e1 e2 -> sim f serel (exec_stmt (S n) P e1 st) (exec_stmt (S n) P e2 st).
  Proof.
    intro E. destruct st.
    6: { rewrite !exec_stmt_SIf. sbind sub2. apply sim_if_go; assumption. }
    7: { rewrite !SemScope.exec_stmt_for. sbind sub2. eapply (sim_bind _ (pairrel rngrel envrel)).
         - unfold SemScope.for_init. destruct r; isolve.
         - intros f' a1 a2 E' H; up E'. dpair. isolve. }
    all: cbn [exec_stmt]; isolve.
  Qed.

  Lemma step_stmts f e1 e2 l : envrel f e1 e2 -> sim f serel (exec_stmts (S n) P e1 l) (exec_stmts (S n) P e2 l).
  Proof.
    intro E. cbn [exec_stmts]. destruct l; [isolve|].
    sbind sub2. dpair.
    match goal with H : sigrel _ ?s1 ?s2 |- _ => destruct H end; simpl; isolve.
  Qed.

  Lemma step_block f e1 e2 l : envrel f e1 e2 -> sim f serel (exec_block (S n) P e1 l) (exec_block (S n) P e2 l).
  Proof. intro E. cbn [exec_block]. isolve. Qed.

  Lemma step_cond f e1 e2 c b : envrel f e1 e2 -> sim f oserel (exec_cond (S n) P e1 c b) (exec_cond (S n) P e2 c b).
  Proof. intro E. cbn [exec_cond]. isolve. Qed.

  Lemma step_while f e1 e2 c b : envrel f e1 e2 -> sim f serel (exec_while (S n) P e1 c b) (exec_while (S n) P e2 c b).
  Proof. intro E. cbn [exec_while]. isolve. Qed.

  Lemma step_for f e1 e2 var r1 r2 b : envrel f e1 e2 -> rngrel f r1 r2 ->
    sim f serel (exec_for (S n) P e1 var r1 b) (exec_for (S n) P e2 var r2 b).
  Proof. intros E Rg. rewrite !SemScope.exec_for_unfold. unfold SemScope.for_iter. isolve. Qed.
End Step.

(* all nine functions, every fuel: invariance under heap isomorphism and garbage *)
Theorem evaluator_iso P : forall n,
  (forall f e1 e2 x, envrel f e1 e2 -> sim f lrel (eval_expr n P e1 x) (eval_expr n P e2 x)) /\
  (forall f e1 e2 l, envrel f e1 e2 -> sim f lrels (eval_exprs n P e1 l) (eval_exprs n P e2 l)) /\
  (forall f e1 e2 nm args, envrel f e1 e2 ->
      sim f (optrel lrel) (eval_call n P e1 nm args) (eval_call n P e2 nm args)) /\
  (forall f e1 e2 st, envrel f e1 e2 -> sim f serel (exec_stmt n P e1 st) (exec_stmt n P e2 st)) /\
  (forall f e1 e2 l, envrel f e1 e2 -> sim f serel (exec_stmts n P e1 l) (exec_stmts n P e2 l)) /\
  (forall f e1 e2 l, envrel f e1 e2 -> sim f serel (exec_block n P e1 l) (exec_block n P e2 l)) /\
  (forall f e1 e2 c b, envrel f e1 e2 -> sim f oserel (exec_cond n P e1 c b) (exec_cond n P e2 c b)) /\
  (forall f e1 e2 c b, envrel f e1 e2 -> sim f serel (exec_while n P e1 c b) (exec_while n P e2 c b)) /\
  (forall f e1 e2 var r1 r2 b, envrel f e1 e2 -> rngrel f r1 r2 ->
      sim f serel (exec_for n P e1 var r1 b) (exec_for n P e2 var r2 b)).
Proof.
  induction n as [|n IH].
  - repeat apply conj; intros; simpl; apply sim_fail.
  - destruct IH as (I1 & I2 & I3 & I4 & I5 & I6 & I7 & I8 & I9).
    repeat apply conj; intros.
    + apply step_expr; auto.
    + apply step_exprs; auto.
    + apply step_call; auto.
    + apply step_stmt; auto.
    + apply step_stmts; auto.
    + apply step_block; auto.
    + apply step_cond; auto.
    + apply step_while; auto.
    + apply step_for; auto.
Qed.

Definition exec_block_iso P n := proj1 (proj2 (proj2 (proj2 (proj2 (proj2 (evaluator_iso P n)))))).
Definition exec_stmts_iso P n := proj1 (proj2 (proj2 (proj2 (proj2 (evaluator_iso P n))))).
Definition eval_call_iso P n := proj1 (proj2 (proj2 (evaluator_iso P n))).

(* the relational statement on (outcome, state) pairs *)
Definition run_iso (f : lmap) (r1 r2 : outcome * state) : Prop :=
  fst r1 = fst r2 /\ exists f', ext f f' /\ iso f' (snd r1) (snd r2).

Lemma iso_test_report f s1 s2 : iso f s1 s2 -> iso f (test_report s1) (test_report s2).
Proof.
  intro I. unfold test_report. rewrite <- (iso_total _ _ _ I), <- (iso_fails _ _ _ I).
  destruct (Nat.eqb (st_total s1) 0); [exact I | apply iso_cons_trace, I].
Qed.

(* Evaluator.Eval *)
Theorem run_program_iso fuel P f s1 s2 :
  iso f s1 s2 -> run_iso f (run_program fuel P s1) (run_program fuel P s2).
Proof.
  intro I. unfold run_program.
  set (m := let* _ := tick in let* _ := exec_stmts fuel P [] (p_stmts P) in ret tt).
  assert (S : sim f (eqrel unit) m m).
  { unfold m. sbind prim. sbind ltac:(apply exec_stmts_iso; constructor). prim. }
  destruct (S s1 s2 I) as (f' & E & I' & Rr). destruct (m s1) as [r1 t1], (m s2) as [r2 t2].
  simpl in I', Rr. pose proof (iso_test_report _ _ _ I') as IT.
  destruct r1 as [u1|er1], r2 as [u2|er2]; simpl in Rr; try contradiction.
  - rewrite <- (iso_fails _ _ _ IT). destruct (Nat.ltb 0 _); split; simpl; eauto.
  - subst er2. split; [reflexivity|]. exists f'. split; auto. simpl. destruct er1; auto.
Qed.

(* Evaluator.HandleEvent *)
Theorem handle_event_iso fuel P name args f s1 s2 :
  iso f s1 s2 -> run_iso f (handle_event fuel P name args s1) (handle_event fuel P name args s2).
Proof.
  intro I. unfold handle_event. destruct (find_handler name (p_handlers P)) as [h|].
  2: { split; [reflexivity|]. exists f. split; [apply ext_refl | exact I]. }
  set (m := let* fr := bind_payload (h_params h) args [] in let* _ := exec_block fuel P [fr] (h_body h) in ret tt).
  assert (S : sim f (eqrel unit) m m).
  { unfold m. sbind ltac:(apply sim_bind_payload; constructor).
    sbind ltac:(apply exec_block_iso; apply envrel_single; assumption). prim. }
  destruct (S s1 s2 I) as (f' & E & I' & Rr). destruct (m s1) as [r1 t1], (m s2) as [r2 t2].
  simpl in I', Rr. destruct r1, r2; simpl in Rr; try contradiction; split; simpl; eauto; congruence.
Qed.
