(* SemIsoApps.v — consequences of the invariance of the evaluator under heap
   isomorphism and garbage (SemIso.v):
   (a) C15: delivering an event = calling the twin procedure on argument cells
       that hold the payload values (equal outcomes, equal traces, isomorphic
       final states), for single events and for whole histories with literal
       arguments;
   (b) C09: runs from states that differ only outside a closed set of cells
       containing the roots (i.e. in garbage) give the same observables. *)
From Coq Require Import ZArith NArith PArith List String Bool Floats FMapPositive Lia.
From EvyV Require Import Base Num Ast Omap Sem SemBasics SemOrder SemStoreBase SemIsoBase SemIsoLib SemIso SemEvents.
Import ListNotations.
Local Open Scope positive_scope.

Definition alloc_st (s : state) (v : hval) : state := upd_heap (snd (halloc (st_heap s) v)) s.

Lemma iso_left_alloc f s1 s2 v : iso f s1 s2 -> iso f (alloc_st s1 v) s2.
Proof.
  intro I. pose proof (iso_wf1 _ _ _ I) as W1. pose proof (iso_cells _ _ _ I) as C.
  destruct I. constructor; auto.
  - unfold wf, alloc_st; fields. apply fresh_ok_halloc; auto.
  - intros a b H. destruct (C a b H) as (v1 & v2 & G1 & G2 & R).
    exists v1, v2. split; auto. unfold alloc_st; fields. apply hget_halloc_old; auto.
Qed.

(* the yield counter does not matter when no stop request can come *)
Lemma iso_right_yield f s1 s2 y :
  iso f s1 s2 -> st_stop_at s2 = None -> st_stopped s2 = false -> iso f s1 (upd_yield y false s2).
Proof.
  intros I N S. eapply iso_same_heap; eauto; simpl; try (destruct I; assumption).
  - rewrite <- S. apply (iso_stopped _ _ _ I).
  - left. rewrite (iso_stop_at _ _ _ I). exact N.
Qed.

Definition holds_in (s : state) (v : loc) (a : payload) : Prop :=
  hget (st_heap s) v = Some (hval_of_payload a).

Lemma payload_vs_params ps : forall args vals fr1 fr2 f s1 s2 fr1' s1',
  iso f s1 s2 -> framerel f fr1 fr2 ->
  Forall2 (holds_in s2) vals (firstn (List.length ps) args) ->
  NoDup vals -> (forall v a, In v vals -> f a <> Some v) ->
  bind_payload ps args fr1 s1 = (Ok fr1', s1') ->
  exists fr2' rest f',
    bind_params ps vals fr2 s2 = (Ok (fr2', rest), s2) /\
    ext f f' /\ iso f' s1' s2 /\ framerel f' fr1' fr2'.
Proof.
  induction ps as [|[n t] ps IH]; intros args vals fr1 fr2 f s1 s2 fr1' s1' I F H ND NR B; simpl in B |- *.
  - inversion B; subst. exists fr2, vals, f. split; [reflexivity|]. split; [apply ext_refl|]. split; auto.
  - destruct args as [|a more]; [inversion B|]. cbn [List.length firstn] in H.
    inversion H as [|v a' vals' more' Hv H']; subst.
    assert (Hex : exists hv : hval, (match t, a with
                       | TNum, PvNum x => alloc (HNum x)
                       | TStr, PvStr x => alloc (HStr x)
                       | TBool, PvBool x => alloc (HBool x)
                       | _, _ => fail (EPanic PkAnyConversion)
                       end) = alloc hv /\ hv = hval_of_payload a /\ is_basic hv = true).
    { destruct t, a; try (unfold bindM, fail in B; simpl in B; discriminate B); eexists; repeat split. }
    destruct Hex as (x & Ex & Hx & Bx). rewrite Ex in B. unfold bindM in B. rewrite alloc_run in B.
    subst x. inversion ND as [|? ? Nin ND']; subst.
    destruct (iso_left_alloc_to f s1 s2 (hval_of_payload a) v (hval_of_payload a) I Hv) as [I1 E1].
    { destruct a; constructor. }
    { intros a0. apply NR. left; reflexivity. }
    set (f1 := extend f (hnext (st_heap s1)) v) in *.
    eapply IH in B; [ | exact I1 | | exact H' | exact ND' | ].
    + destruct B as (fr2' & rest & f' & B2 & E2 & I2 & F2).
      exists fr2', rest, f'. split; [exact B2|]. split; [eapply ext_trans; eauto|]. split; auto.
    + assert (F1 : framerel f1 fr1 fr2) by (eapply mono; eauto).
      destruct (str_eqb n underscore); auto. apply framerel_set; auto.
      unfold lrel, f1, extend. rewrite Pos.eqb_refl. reflexivity.
    + intros v' a0 Hin Q. unfold f1, extend in Q.
      destruct (Pos.eqb_spec a0 (hnext (st_heap s1))).
      * inversion Q; subst v'. contradiction.
      * eapply NR; [right; exact Hin | exact Q].
Qed.

Theorem event_as_call fuel P name args h fd vals f sE sC :
  find_handler name (p_handlers P) = Some h ->
  fn_params fd = h_params h -> fn_variadic fd = None -> fn_body fd = h_body h ->
  iso f sE sC ->
  Forall2 (holds_in sC) vals (firstn (List.length (h_params h)) args) ->
  NoDup vals -> (forall v a, In v vals -> f a <> Some v) ->
  (forall e s', bind_payload (h_params h) args [] sE <> (Er e, s')) ->
  fst (handle_event fuel P name args sE) = outcome_of_call (fst (call_user fuel P fd vals sC)) /\
  exists f', ext f f' /\ iso f' (snd (handle_event fuel P name args sE)) (snd (call_user fuel P fd vals sC)).
Proof.
  intros Hh Hp Hv Hb I H ND NR OKp. unfold handle_event, call_user. rewrite Hh, Hp, Hv, Hb.
  destruct (bind_payload (h_params h) args [] sE) as [[fr1|e] s1] eqn:B; [|exfalso; eapply OKp; eauto].
  destruct (payload_vs_params _ _ _ _ [] _ _ _ _ _ I ltac:(constructor) H ND NR B)
    as (fr2 & rest & f1 & B2 & E1 & I1 & F1).
  destruct (exec_block_iso P fuel f1 [fr1] [fr2] (h_body h) (envrel_single _ _ _ F1) s1 sC I1)
    as (f2 & E2 & I2 & Rr).
  unfold bindM, ret. rewrite B, B2. cbn beta iota.
  destruct (exec_block fuel P [fr1] (h_body h) s1) as [[[sig1 e1]|er1] t1],
           (exec_block fuel P [fr2] (h_body h) sC) as [[[sig2 e2]|er2] t2];
    simpl in Rr, I2; try contradiction.
  - destruct Rr as [Rs _]. simpl in Rs.
    assert (Ex : ext f f2) by (eapply ext_trans; eauto).
    destruct Rs; try rewrite alloc_run; cbn [fst snd outcome_of_call].
    + split; [reflexivity|]. exists f2. split; auto. apply (iso_right_alloc _ _ _ HNone I2).
    + split; [reflexivity|]. exists f2. split; auto. apply (iso_right_alloc _ _ _ HNone I2).
    + split; [reflexivity|]. exists f2. split; auto.
  - subst er2. simpl. split; [reflexivity|]. exists f2. split; auto. eapply ext_trans; eauto.
Qed.

Lemma seen_id_iso f l1 l2 seen1 seen2 n1 n2 :
  inj f -> lrel f l1 l2 -> lrels f seen1 seen2 -> seen_id l1 seen1 n1 = seen_id l2 seen2 n2.
Proof.
  intros J L S. induction S as [|x1 x2 t1 t2 Hx S IH]; simpl; auto.
  rewrite (listrel_length _ _ _ _ S).
  destruct (Pos.eqb_spec x1 l1) as [->|N1], (Pos.eqb_spec x2 l2) as [->|N2]; auto.
  - exfalso. apply N2. unfold lrel in *. congruence.
  - exfalso. apply N1. eapply J; eauto.
Qed.

(* the two sides of a dump in step: equal output so far, related lists of cells seen *)
Definition outrel {X} (f : lmap) (a1 a2 : X * list loc) : Prop :=
  fst a1 = fst a2 /\ lrels f (snd a1) (snd a2).

Lemma fold_outrel {X Y Z} f (RX : X -> Y -> Prop) (g1 : Z * list loc -> X -> Z * list loc) g2 :
  (forall a1 a2 x y, outrel f a1 a2 -> RX x y -> outrel f (g1 a1 x) (g2 a2 y)) ->
  forall xs ys, Forall2 RX xs ys -> forall a1 a2, outrel f a1 a2 -> outrel f (fold_left g1 xs a1) (fold_left g2 ys a2).
Proof. intros Hg xs ys F. induction F; simpl; auto. Qed.

(* one more dumped cell appended (wrapped by w) to the output so far *)
Lemma dump_step f n h1 h2 (w : sx -> sx) a1 a2 x y :
  (forall l1 l2 seen1 seen2, lrel f l1 l2 -> lrels f seen1 seen2 ->
     outrel f (dump n h1 l1 seen1) (dump n h2 l2 seen2)) ->
  outrel f a1 a2 -> lrel f x y ->
  outrel f (let '(ds, sn) := a1 in let '(d, sn') := dump n h1 x sn in (ds ++ [w d], sn'))
           (let '(ds, sn) := a2 in let '(d, sn') := dump n h2 y sn in (ds ++ [w d], sn')).
Proof.
  intros IH A Hx. destruct a1 as [ds1 sn1], a2 as [ds2 sn2], A as [E A]; simpl in E, A; subst ds2.
  destruct (IH x y sn1 sn2 Hx A) as [D1 D2].
  destruct (dump n h1 x sn1), (dump n h2 y sn2); simpl in *; subst; split; auto.
Qed.

Lemma dump_iso f s1 s2 : iso f s1 s2 -> forall fuel l1 l2 seen1 seen2,
  lrel f l1 l2 -> lrels f seen1 seen2 ->
  outrel f (dump fuel (st_heap s1) l1 seen1) (dump fuel (st_heap s2) l2 seen2).
Proof.
  intro I. pose proof (iso_inj _ _ _ I) as J.
  induction fuel as [|n IH]; intros l1 l2 seen1 seen2 L S; simpl; [split; auto|].
  rewrite (seen_id_iso f l1 l2 seen1 seen2 0 0 J L S).
  destruct (seen_id l2 seen2 0); [split; auto|].
  destruct (iso_cells _ _ _ I _ _ L) as (v1 & v2 & G1 & G2 & V). rewrite G1, G2.
  assert (S1 : lrels f (l1 :: seen1) (l2 :: seen2)) by (constructor; auto).
  rewrite (listrel_length _ _ _ _ S).
  destruct V; simpl; try (split; auto; fail).
  - destruct (IH i j (l1 :: seen1) (l2 :: seen2) H S1) as [D1 D2].
    destruct (dump n (st_heap s1) i (l1 :: seen1)), (dump n (st_heap s2) j (l2 :: seen2)); simpl in *.
    subst. split; auto.
  - match goal with |- context [fold_left ?g xs ?a] => set (r1 := fold_left g xs a) end.
    match goal with |- context [fold_left ?g ys ?a] => set (r2 := fold_left g ys a) end.
    assert (F : outrel f r1 r2).
    { apply (fold_outrel f (lrel f)); [|exact H|split; [reflexivity | exact S1]].
      intros a1 a2 x y A Hx. apply (dump_step f n _ _ (fun d => d)); assumption. }
    destruct r1, r2, F as [F1 F2]; simpl in *; subst; split; auto.
  - rewrite <- H.
    match goal with |- context [fold_left ?g (order m1) ?a] => set (r1 := fold_left g (order m1) a) end.
    match goal with |- context [fold_left ?g (order m1) ?a] => set (r2 := fold_left g (order m1) a) end.
    assert (F : outrel f r1 r2).
    { apply (fold_outrel f eq); [| clear; induction (order m1); constructor; auto | split; [reflexivity | exact S1]].
      intros a1 a2 k ? A <-. pose proof (framerel_plookup f k _ _ H0) as G.
      destruct (plookup k (pairs m1)) as [i1|], (plookup k (pairs m2)) as [i2|]; simpl in G; try contradiction.
      - apply (dump_step f n _ _ (fun d => Lst [Str k; d])); assumption.
      - destruct a1, a2, A as [E A]; simpl in *; subst; split; auto. }
    destruct r1, r2, F as [F1 F2]; simpl in *; subst; split; auto.
Qed.

Lemma insert_sorted_rel f x1 x2 l1 l2 :
  bindrel f x1 x2 -> framerel f l1 l2 -> framerel f (insert_sorted x1 l1) (insert_sorted x2 l2).
Proof.
  intros X L. induction L as [|y1 y2 t1 t2 Hy L IH]; simpl; [constructor; [exact X | constructor]|].
  destruct X as [X1 X2], Hy as [Y1 Y2]. unfold eqrel in X1, Y1. rewrite <- X1, <- Y1.
  destruct (str_ltb (fst x1) (fst y1)).
  - constructor; [split; assumption | constructor; [split; assumption | exact L]].
  - constructor; [split; assumption | apply IH].
Qed.
Lemma sort_frame_rel f g1 g2 : framerel f g1 g2 -> framerel f (sort_frame g1) (sort_frame g2).
Proof.
  intro G. unfold sort_frame. induction G; simpl; [constructor|]. apply insert_sorted_rel; auto.
Qed.

(* the hook's dump of the globals (values and sharing structure) does not see the renaming *)
Theorem dump_globals_iso f s1 s2 : iso f s1 s2 -> dump_globals s1 = dump_globals s2.
Proof.
  intro I. unfold dump_globals. generalize value_depth. intro d.
  pose proof (sort_frame_rel _ _ _ (iso_glob _ _ _ I)) as G.
  match goal with |- context [fold_left ?g (sort_frame (st_globals s1)) ?a] =>
    set (r1 := fold_left g (sort_frame (st_globals s1)) a) end.
  match goal with |- context [fold_left ?g (sort_frame (st_globals s2)) ?a] =>
    set (r2 := fold_left g (sort_frame (st_globals s2)) a) end.
  assert (F : outrel f r1 r2).
  { apply (fold_outrel f (bindrel f)); [|exact G|split; [reflexivity | constructor]].
    intros a1 a2 x1 x2 A [Hx1 Hx2]. unfold eqrel in Hx1. rewrite <- Hx1.
    apply (dump_step f d _ _ (fun y => Lst [Str (fst x1); y])); [apply dump_iso; exact I | exact A | exact Hx2]. }
  destruct r1, r2, F as [F1 _]; simpl in *; subst; reflexivity.
Qed.

(* everything the platform and the verif hooks observe *)
Theorem iso_same_observables f s1 s2 : iso f s1 s2 -> same_observables s1 s2.
Proof.
  intro I. unfold same_observables. repeat split; try (destruct I; assumption).
  eapply dump_globals_iso; eauto.
Qed.

Definition keeps_ok (s s' : state) : Prop := tick_ok s -> tick_ok s'.

Lemma keeps_ok_tick s : st_stopped s = false ->
  keeps_ok s (upd_yield (S (st_yields s))
                (match st_stop_at s with Some k => Nat.eqb k (st_yields s) | None => false end) s).
Proof. intros _ [H1 H2]. split; simpl; [rewrite H2; reflexivity | exact H2]. Qed.

Definition eval_keeps_ok :=
  eval_resp keeps_ok (fun s H => H) (fun a b c H1 H2 H => H2 (H1 H))
    (fun h s H => H) (fun g s H => H) keeps_ok_tick
    (fun i s H => H) (fun t f s H => H) (fun ev s H => H).

Lemma eval_call_keeps_ok n P e nm args s r s' :
  eval_call n P e nm args s = (r, s') -> tick_ok s -> tick_ok s'.
Proof. intro H. exact (proj1 (proj2 (proj2 (eval_keeps_ok n))) P e nm args s r s' H). Qed.

Lemma lit_state_eq a s :
  lit_state a s = alloc_st (alloc_st (upd_yield (S (st_yields s)) false s) (hval_of_payload a)) (hval_of_payload a).
Proof. reflexivity. Qed.

Lemma lit_run_props args : forall f sE s,
  iso f sE s -> tick_ok s ->
  let ls := fst (lit_run args s) in
  let s2 := snd (lit_run args s) in
  iso f sE s2 /\ tick_ok s2 /\ Forall2 (holds_in s2) ls args /\ NoDup ls /\
  (forall v, In v ls -> hnext (st_heap s) <= v) /\
  (forall l v, hget (st_heap s) l = Some v -> hget (st_heap s2) l = Some v).
Proof.
  induction args as [|a t IH]; intros f sE s I T; simpl.
  - split; [exact I|]. split; [exact T|]. split; [constructor|]. split; [constructor|].
    split; [intros v []| auto].
  - assert (I1 : iso f sE (lit_state a s)).
    { rewrite lit_state_eq. apply iso_right_alloc, iso_right_alloc. destruct T. apply iso_right_yield; auto. }
    pose proof (tick_ok_lit_state a s T) as T1.
    destruct (IH f sE (lit_state a s) I1 T1) as (I2 & T2 & H2 & ND2 & G2 & X2).
    destruct (lit_run t (lit_state a s)) as [ls s2] eqn:L. simpl in *.
    pose proof (iso_wf2 _ _ _ I) as W.
    split; [exact I2|]. split; [exact T2|]. split; [|split; [|split]].
    + constructor; [|exact H2]. unfold holds_in. apply X2. apply lit_heap_copy.
    + constructor; [|exact ND2]. intro Hin. apply G2 in Hin. simpl in Hin. lia.
    + intros v [<-|Hin]; [lia|]. apply G2 in Hin. simpl in Hin. lia.
    + intros l v Hl. apply X2. unfold lit_state; fields. rewrite lit_heap_old; auto.
      eapply wf_alloc_lt; eauto.
Qed.

Lemma find_handler_In n hs h : find_handler n hs = Some h -> In h hs /\ h_name h = n.
Proof.
  induction hs as [|x t IH]; simpl; [discriminate|].
  destruct (str_eqb (h_name x) n) eqn:Q; [intros [= <-]; split; [left; auto | apply str_eqb_eq; auto]|].
  intro H. destruct (IH H). auto.
Qed.

Theorem event_as_literal_call fuel P pn (e : ev) h f sE sC :
  procs_mirror_handlers P pn ->
  find_handler (fst e) (p_handlers P) = Some h ->
  (forall er s', bind_payload (h_params h) (snd e) [] sE <> (Er er, s')) ->
  (List.length (h_params h) < fuel)%nat ->
  iso f sE sC -> tick_ok sC ->
  fst (handle_event fuel P (fst e) (snd e) sE) = fst (call_event fuel P pn e sC) /\
  tick_ok (snd (call_event fuel P pn e sC)) /\
  exists f', ext f f' /\ iso f' (snd (handle_event fuel P (fst e) (snd e) sE)) (snd (call_event fuel P pn e sC)).
Proof.
  intros PM Hh OKp Lf I T.
  destruct (find_handler_In _ _ _ Hh) as [Hin Hn].
  destruct (PM h Hin) as (UF & fd & Ff & Fp & Fv & Fb). rewrite Hn in UF, Ff.
  unfold call_event. rewrite Hh.
  set (args' := firstn (List.length (h_params h)) (snd e)).
  assert (La : (List.length args' < fuel)%nat).
  { unfold args'. rewrite firstn_length. lia. }
  pose proof (eval_call_keeps_ok (S fuel) P [] (pn (fst e)) (map payload_expr args') sC) as KO.
  rewrite (eval_call_user_unfold fuel P [] (pn (fst e)) (map payload_expr args') fd sC UF Ff) in *.
  rewrite (eval_exprs_literals P [] args' fuel sC T La) in *.
  destruct (lit_run_props args' f sE sC I T) as (I2 & T2 & H2 & ND2 & G2 & _).
  set (vals := fst (lit_run args' sC)) in *. set (sC2 := snd (lit_run args' sC)) in *.
  destruct (event_as_call fuel P (fst e) (snd e) h fd vals f sE sC2 Hh Fp Fv Fb I2 H2 ND2) as [O (f' & E' & I')].
  { intros v a Hv Q. apply G2 in Hv.
    destruct (iso_cells _ _ _ I _ _ Q) as (_ & w & _ & Gw & _).
    pose proof (wf_alloc_lt _ _ _ (iso_wf2 _ _ _ I) Gw). lia. }
  { exact OKp. }
  destruct (call_user fuel P fd vals sC2) as [r2 s2] eqn:CU. simpl in *.
  split; [exact O|]. split; [eapply KO; eauto | eauto].
Qed.

Theorem events_as_calls fuel P pn : forall (es : list ev) f sE sC,
  procs_mirror_handlers P pn ->
  iso f sE sC -> tick_ok sC ->
  (forall e, In e es -> exists h vs,
       find_handler (fst e) (p_handlers P) = Some h /\
       payload_vals (h_params h) (snd e) = PvOk vs /\ (List.length (h_params h) < fuel)%nat) ->
  fst (handle_events fuel P es sE) = fst (call_events fuel P pn es sC) /\
  exists f', ext f f' /\ iso f' (snd (handle_events fuel P es sE)) (snd (call_events fuel P pn es sC)).
Proof.
  induction es as [|e t IH]; intros f sE sC PM I T H; simpl.
  - split; auto. exists f. split; [apply ext_refl | exact I].
  - destruct (H e (or_introl eq_refl)) as (h & vs & Hh & Pv & Lf).
    destruct (event_as_literal_call fuel P pn e h f sE sC PM Hh) as (O1 & T1 & f1 & E1 & I1); auto.
    { intros er s'. rewrite bind_payload_exact. unfold bind_payload_result. rewrite Pv. discriminate. }
    destruct (handle_event fuel P (fst e) (snd e) sE) as [o1 s1].
    destruct (call_event fuel P pn e sC) as [o2 s2]. simpl in *.
    destruct (IH f1 s1 s2 PM I1 T1) as (O2 & f2 & E2 & I2).
    { intros e' He'. apply H. right; exact He'. }
    destruct (handle_events fuel P t s1) as [os1 s1'], (call_events fuel P pn t s2) as [os2 s2']. simpl in *.
    split; [congruence|]. exists f2. split; [eapply ext_trans; eauto | exact I2].
Qed.

Definition refs (v : hval) : list loc :=
  match v with HAny _ i => [i] | HArr els => els | HMap m => map snd (pairs m) | _ => [] end.

(* the partial identity on a set of cells *)
Definition pid (D : loc -> bool) : lmap := fun l => if D l then Some l else None.

(* s1 and s2 agree on the set D, which contains the global roots and is closed under
   references; outside D (garbage) the two heaps are unrelated *)
Record agree (D : loc -> bool) (s1 s2 : state) : Prop := {
  ag_wf1 : wf s1;
  ag_wf2 : wf s2;
  ag_cells : forall l, D l = true ->
             exists v, hget (st_heap s1) l = Some v /\ hget (st_heap s2) l = Some v /\
                       Forall (fun c => D c = true) (refs v);
  ag_glob : st_globals s1 = st_globals s2;
  ag_roots : Forall (fun nl => D (snd nl) = true) (st_globals s1);
  ag_trace : st_trace s1 = st_trace s2;
  ag_stopped : st_stopped s1 = st_stopped s2;
  ag_stop_at : st_stop_at s1 = st_stop_at s2;
  ag_yields : st_yields s1 = st_yields s2;
  ag_cay : st_check_after_yield s1 = st_check_after_yield s2;
  ag_input : st_input s1 = st_input s2;
  ag_total : st_total s1 = st_total s2;
  ag_fails : st_fails s1 = st_fails s2;
  ag_failfast : st_failfast s1 = st_failfast s2 }.

Lemma pid_lrels D l : Forall (fun c => D c = true) l -> lrels (pid D) l l.
Proof. intro F. induction F; constructor; auto. unfold lrel, pid. rewrite H. reflexivity. Qed.
Lemma pid_framerel D (fr : frame) : Forall (fun nl => D (snd nl) = true) fr -> framerel (pid D) fr fr.
Proof.
  intro F. induction F as [|[n l] t H F IH]; constructor; auto. split; simpl; [reflexivity|].
  unfold lrel, pid. simpl in H. rewrite H. reflexivity.
Qed.
Lemma pid_hvrel D v : Forall (fun c => D c = true) (refs v) -> hvrel (pid D) v v.
Proof.
  intro F. destruct v; simpl in F; constructor; auto.
  - inversion F; subst. unfold lrel, pid. rewrite H1. reflexivity.
  - apply pid_lrels; auto.
  - apply pid_framerel. clear -F. induction (pairs m) as [|[k l] t IH]; simpl in *; constructor; inversion F; auto.
Qed.

Lemma agree_iso D s1 s2 : agree D s1 s2 -> iso (pid D) s1 s2.
Proof.
  intro A. destruct A. constructor; auto.
  - intros a a' b Ha Ha'. unfold pid in *. destruct (D a), (D a'); congruence.
  - intros a b H. unfold pid in H. destruct (D a) eqn:Da; inversion H; subst b.
    destruct (ag_cells0 a Da) as (v & G1 & G2 & F). exists v, v. repeat split; auto. apply pid_hvrel; auto.
  - rewrite <- ag_glob0. apply pid_framerel; auto.
Qed.

(* whole runs from states that differ only in garbage: same outcome, same observables (trace,
   input, test counters, structural dump of the globals), isomorphic final states *)
Theorem garbage_noninterference_run D fuel P s1 s2 :
  agree D s1 s2 ->
  fst (run_program fuel P s1) = fst (run_program fuel P s2) /\
  same_observables (snd (run_program fuel P s1)) (snd (run_program fuel P s2)) /\
  exists f', ext (pid D) f' /\ iso f' (snd (run_program fuel P s1)) (snd (run_program fuel P s2)).
Proof.
  intro A. destruct (run_program_iso fuel P _ _ _ (agree_iso _ _ _ A)) as [O (f' & E & I)].
  split; [exact O|]. split; [eapply iso_same_observables; eauto | eauto].
Qed.

Theorem garbage_noninterference_event D fuel P name args s1 s2 :
  agree D s1 s2 ->
  fst (handle_event fuel P name args s1) = fst (handle_event fuel P name args s2) /\
  same_observables (snd (handle_event fuel P name args s1)) (snd (handle_event fuel P name args s2)) /\
  exists f', ext (pid D) f' /\
             iso f' (snd (handle_event fuel P name args s1)) (snd (handle_event fuel P name args s2)).
Proof.
  intro A. destruct (handle_event_iso fuel P name args _ _ _ (agree_iso _ _ _ A)) as [O (f' & E & I)].
  split; [exact O|]. split; [eapply iso_same_observables; eauto | eauto].
Qed.

(* statements in an environment whose cells are in D *)
Theorem garbage_noninterference_stmts D n P (e : env) l s1 s2 :
  agree D s1 s2 -> Forall (Forall (fun nl => D (snd nl) = true)) e ->
  exists f', ext (pid D) f' /\
    iso f' (snd (exec_stmts n P e l s1)) (snd (exec_stmts n P e l s2)) /\
    rrel (serel f') (fst (exec_stmts n P e l s1)) (fst (exec_stmts n P e l s2)).
Proof.
  intros A He. apply (exec_stmts_iso P n (pid D) e e l); [|apply agree_iso; exact A].
  induction He; constructor; auto. apply pid_framerel; auto.
Qed.

(* both sides start from the same state s, all of whose cells are live (D = allocated cells);
   a fuel bound per event stands in place of the exclusion of EOutOfFuel outcomes *)
Theorem events_as_calls_observables D fuel P pn (es : list ev) s :
  procs_mirror_handlers P pn -> agree D s s ->
  st_stop_at s = None -> st_stopped s = false ->
  (forall e, In e es -> exists h vs,
       find_handler (fst e) (p_handlers P) = Some h /\
       payload_vals (h_params h) (snd e) = PvOk vs /\ (List.length (h_params h) < fuel)%nat) ->
  fst (handle_events fuel P es s) = fst (call_events fuel P pn es s) /\
  same_observables (snd (handle_events fuel P es s)) (snd (call_events fuel P pn es s)).
Proof.
  intros PM A N S H.
  destruct (events_as_calls fuel P pn es (pid D) s s PM (agree_iso _ _ _ A) (conj S N) H) as [O (f' & E & I)].
  split; [exact O | eapply iso_same_observables; eauto].
Qed.
