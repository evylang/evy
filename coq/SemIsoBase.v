(* SemIsoBase.v — invariance of the evaluator of Sem.v under a renaming of heap
   locations, in the presence of garbage: the simulation relation, the
   relational Hoare judgment [sim] and the primitives of the state monad.

   [f : loc -> option loc] is a partial injection from the cells of the first
   state to the cells of the second.  Cells outside its domain / range are not
   constrained at all (garbage).  Related cells hold related values: basic
   values equal, any / array / map cells componentwise through f. *)
From Coq Require Import ZArith NArith PArith List String Bool Floats FMapPositive Lia.
From EvyV Require Import Base Num Ast Omap Sem SemBasics SemStoreBase.
Import ListNotations.
Local Open Scope positive_scope.

Definition lmap := loc -> option loc.
Definition ext (f f' : lmap) : Prop := forall a b, f a = Some b -> f' a = Some b.
Definition inj (f : lmap) : Prop := forall a a' b, f a = Some b -> f a' = Some b -> a = a'.

Lemma ext_refl f : ext f f. Proof. intros a b H; exact H. Qed.
Lemma ext_trans f g h : ext f g -> ext g h -> ext f h.
Proof. intros A B a b H. apply B, A, H. Qed.

(* relations indexed by the location map, monotone in it *)
Class Mono {A} (R : lmap -> A -> A -> Prop) : Prop :=
  mono : forall f f' a b, ext f f' -> R f a b -> R f' a b.

Definition lrel : lmap -> loc -> loc -> Prop := fun f a b => f a = Some b.
Definition eqrel (A : Type) : lmap -> A -> A -> Prop := fun _ a b => a = b.
Definition listrel {A} (R : lmap -> A -> A -> Prop) : lmap -> list A -> list A -> Prop :=
  fun f => Forall2 (R f).
Definition optrel {A} (R : lmap -> A -> A -> Prop) : lmap -> option A -> option A -> Prop :=
  fun f a b => match a, b with Some x, Some y => R f x y | None, None => True | _, _ => False end.
Definition pairrel {A B} (RA : lmap -> A -> A -> Prop) (RB : lmap -> B -> B -> Prop)
  : lmap -> A * B -> A * B -> Prop :=
  fun f p q => RA f (fst p) (fst q) /\ RB f (snd p) (snd q).

Global Instance Mono_lrel : Mono lrel.
Proof. intros f f' a b E H. apply E, H. Qed.
Global Instance Mono_eqrel A : Mono (eqrel A).
Proof. intros f f' a b E H. exact H. Qed.
Global Instance Mono_listrel {A} (R : lmap -> A -> A -> Prop) `{Mono A R} : Mono (listrel R).
Proof. intros f f' a b E F. induction F; constructor; eauto; try (eapply mono; eauto). Qed.
Global Instance Mono_optrel {A} (R : lmap -> A -> A -> Prop) `{Mono A R} : Mono (optrel R).
Proof. intros f f' [a|] [b|] E F; simpl in *; auto. eapply mono; eauto. Qed.
Global Instance Mono_pairrel {A B} (RA : lmap -> A -> A -> Prop) (RB : lmap -> B -> B -> Prop)
       `{Mono A RA} `{Mono B RB} : Mono (pairrel RA RB).
Proof. intros f f' a b E [F G]. split; eapply mono; eauto. Qed.

(* binding (name, cell) / (key, cell): same name, related cells *)
Definition bindrel : lmap -> str * loc -> str * loc -> Prop := pairrel (eqrel str) lrel.
Definition framerel : lmap -> frame -> frame -> Prop := listrel bindrel.
Definition envrel : lmap -> env -> env -> Prop := listrel framerel.
Definition lrels : lmap -> list loc -> list loc -> Prop := listrel lrel.

Global Instance Mono_bindrel : Mono bindrel. Proof. unfold bindrel; typeclasses eauto. Qed.
Global Instance Mono_framerel : Mono framerel. Proof. unfold framerel; typeclasses eauto. Qed.
Global Instance Mono_envrel : Mono envrel. Proof. unfold envrel; typeclasses eauto. Qed.
Global Instance Mono_lrels : Mono lrels. Proof. unfold lrels; typeclasses eauto. Qed.

Inductive hvrel (f : lmap) : hval -> hval -> Prop :=
| hr_num x : hvrel f (HNum x) (HNum x)
| hr_str x : hvrel f (HStr x) (HStr x)
| hr_bool x : hvrel f (HBool x) (HBool x)
| hr_any t i j : lrel f i j -> hvrel f (HAny t i) (HAny t j)
| hr_arr xs ys : lrels f xs ys -> hvrel f (HArr xs) (HArr ys)
| hr_map m1 m2 : order m1 = order m2 -> framerel f (pairs m1) (pairs m2) -> hvrel f (HMap m1) (HMap m2)
| hr_none : hvrel f HNone HNone.

Global Instance Mono_hvrel : Mono hvrel.
Proof.
  intros f f' a b E H. destruct H; constructor; auto; eapply mono; eauto.
Qed.

Inductive sigrel (f : lmap) : signal -> signal -> Prop :=
| sr_none : sigrel f SigNone SigNone
| sr_break : sigrel f SigBreak SigBreak
| sr_ret v1 v2 : optrel lrel f v1 v2 -> sigrel f (SigReturn v1) (SigReturn v2).
Global Instance Mono_sigrel : Mono sigrel.
Proof. intros f f' a b E H. destruct H; constructor. eapply mono; eauto. Qed.

Inductive rngrel (f : lmap) : ranger -> ranger -> Prop :=
| rr_step a b c : rngrel f (RgStep a b c) (RgStep a b c)
| rr_arr a1 a2 k : lrel f a1 a2 -> rngrel f (RgArr a1 k) (RgArr a2 k)
| rr_str s k : rngrel f (RgStr s k) (RgStr s k)
| rr_map m1 m2 todo : lrel f m1 m2 -> rngrel f (RgMap m1 todo) (RgMap m2 todo).
Global Instance Mono_rngrel : Mono rngrel.
Proof. intros f f' a b E H. destruct H; constructor; eapply mono; eauto. Qed.

Record iso (f : lmap) (s1 s2 : state) : Prop := {
  iso_wf1 : wf s1;
  iso_wf2 : wf s2;
  iso_inj : inj f;
  iso_cells : forall a b, f a = Some b ->
              exists v1 v2, hget (st_heap s1) a = Some v1 /\ hget (st_heap s2) b = Some v2 /\ hvrel f v1 v2;
  iso_glob : framerel f (st_globals s1) (st_globals s2);
  iso_trace : st_trace s1 = st_trace s2;
  iso_stopped : st_stopped s1 = st_stopped s2;
  iso_stop_at : st_stop_at s1 = st_stop_at s2;
  (* the yield counters agree, or no stop request can ever come and they do not matter *)
  iso_yields : st_stop_at s1 = None \/ st_yields s1 = st_yields s2;
  iso_cay : st_check_after_yield s1 = st_check_after_yield s2;
  iso_input : st_input s1 = st_input s2;
  iso_total : st_total s1 = st_total s2;
  iso_fails : st_fails s1 = st_fails s2;
  iso_failfast : st_failfast s1 = st_failfast s2 }.

(* results: equal errors, related values *)
Definition rrel {A} (R : A -> A -> Prop) (r1 r2 : res A) : Prop :=
  match r1, r2 with
  | Ok a, Ok b => R a b
  | Er e1, Er e2 => e1 = e2
  | _, _ => False
  end.

(* the relational judgment: from f-isomorphic states the two computations end in
   f'-isomorphic states for an extension f' of f, with f'-related results *)
Definition sim {A} (f : lmap) (R : lmap -> A -> A -> Prop) (m1 m2 : M A) : Prop :=
  forall s1 s2, iso f s1 s2 ->
    exists f', ext f f' /\ iso f' (snd (m1 s1)) (snd (m2 s2)) /\ rrel (R f') (fst (m1 s1)) (fst (m2 s2)).

Lemma sim_ret {A} f (R : lmap -> A -> A -> Prop) a1 a2 : R f a1 a2 -> sim f R (ret a1) (ret a2).
Proof. intros H s1 s2 I. exists f. split; [apply ext_refl|]. split; auto. Qed.

Lemma sim_fail {A} f (R : lmap -> A -> A -> Prop) e : sim f R (fail e) (fail e).
Proof. intros s1 s2 I. exists f. split; [apply ext_refl|]. split; simpl; auto. Qed.
Lemma sim_crash {A} f (R : lmap -> A -> A -> Prop) w : sim f R (crash w) (crash w).
Proof. apply sim_fail. Qed.
Lemma sim_internal {A} f (R : lmap -> A -> A -> Prop) w : sim f R (internal w) (internal w).
Proof. apply sim_fail. Qed.

Lemma sim_bind {A B} f (RA : lmap -> A -> A -> Prop) (RB : lmap -> B -> B -> Prop)
      (m1 m2 : M A) (k1 k2 : A -> M B) :
  sim f RA m1 m2 ->
  (forall f' a1 a2, ext f f' -> RA f' a1 a2 -> sim f' RB (k1 a1) (k2 a2)) ->
  sim f RB (bindM m1 k1) (bindM m2 k2).
Proof.
  intros Hm Hk s1 s2 I. destruct (Hm s1 s2 I) as (f' & E & I' & Rr). unfold bindM.
  destruct (m1 s1) as [[a1|e1] t1], (m2 s2) as [[a2|e2] t2]; simpl in *; try contradiction.
  - destruct (Hk f' a1 a2 E Rr t1 t2 I') as (f'' & E' & I'' & Rr').
    exists f''. split; [eapply ext_trans; eauto|]. auto.
  - exists f'. auto.
Qed.

Lemma sim_conseq {A} f (R R' : lmap -> A -> A -> Prop) m1 m2 :
  (forall f' a b, R f' a b -> R' f' a b) -> sim f R m1 m2 -> sim f R' m1 m2.
Proof.
  intros H Hm s1 s2 I. destruct (Hm s1 s2 I) as (f' & E & I' & Rr). exists f'. split; auto. split; auto.
  destruct (fst (m1 s1)), (fst (m2 s2)); simpl in *; auto.
Qed.

(* a computation that reads only: same state, result by a function of the state *)
Lemma sim_pure {A} f (R : lmap -> A -> A -> Prop) (m1 m2 : M A) :
  (forall s1 s2, iso f s1 s2 -> snd (m1 s1) = s1 /\ snd (m2 s2) = s2 /\ rrel (R f) (fst (m1 s1)) (fst (m2 s2))) ->
  sim f R m1 m2.
Proof.
  intros H s1 s2 I. destruct (H s1 s2 I) as (E1 & E2 & Rr). exists f. split; [apply ext_refl|].
  rewrite E1, E2. auto.
Qed.

Lemma iso_same_heap f s1 s2 t1 t2 :
  iso f s1 s2 ->
  st_heap t1 = st_heap s1 -> st_heap t2 = st_heap s2 ->
  st_globals t1 = st_globals s1 -> st_globals t2 = st_globals s2 ->
  st_trace t1 = st_trace t2 -> st_stopped t1 = st_stopped t2 -> st_stop_at t1 = st_stop_at t2 ->
  (st_stop_at t1 = None \/ st_yields t1 = st_yields t2) ->
  st_check_after_yield t1 = st_check_after_yield t2 -> st_input t1 = st_input t2 ->
  st_total t1 = st_total t2 -> st_fails t1 = st_fails t2 -> st_failfast t1 = st_failfast t2 ->
  iso f t1 t2.
Proof.
  intros I H1 H2 G1 G2. intros. destruct I. constructor; auto.
  - unfold wf; rewrite H1; auto.
  - unfold wf; rewrite H2; auto.
  - rewrite H1, H2; auto.
  - rewrite G1, G2; auto.
Qed.

Lemma iso_upd_trace f s1 s2 t1 t2 : iso f s1 s2 -> t1 = t2 -> iso f (upd_trace t1 s1) (upd_trace t2 s2).
Proof. intros I ->. destruct I. constructor; simpl; auto. Qed.
Lemma iso_upd_input f s1 s2 i1 i2 : iso f s1 s2 -> i1 = i2 -> iso f (upd_input i1 s1) (upd_input i2 s2).
Proof. intros I ->. destruct I. constructor; simpl; auto. Qed.
Lemma iso_cons_trace f s1 s2 ev :
  iso f s1 s2 -> iso f (upd_trace (ev :: st_trace s1) s1) (upd_trace (ev :: st_trace s2) s2).
Proof. intro I. apply iso_upd_trace; [exact I | f_equal; apply (iso_trace _ _ _ I)]. Qed.

Lemma sim_tick f : sim f (eqrel unit) tick tick.
Proof.
  intros s1 s2 I. exists f. split; [apply ext_refl|]. unfold tick.
  pose proof (iso_stopped _ _ _ I) as Hs. pose proof (iso_stop_at _ _ _ I) as Ha.
  pose proof (iso_yields _ _ _ I) as Hy. pose proof (iso_cay _ _ _ I) as Hc.
  rewrite <- Hs. destruct (st_stopped s1) eqn:S1; [simpl; split; auto|].
  rewrite <- Ha, <- Hc.
  assert (Hr : match st_stop_at s1 with Some k => Nat.eqb k (st_yields s1) | None => false end =
               match st_stop_at s1 with Some k => Nat.eqb k (st_yields s2) | None => false end).
  { destruct (st_stop_at s1); auto. destruct Hy as [Q|Q]; [discriminate | rewrite Q; auto]. }
  rewrite <- Hr.
  set (raised := match st_stop_at s1 with Some k => Nat.eqb k (st_yields s1) | None => false end).
  assert (I' : iso f (upd_yield (S (st_yields s1)) raised s1) (upd_yield (S (st_yields s2)) raised s2)).
  { eapply iso_same_heap; eauto; simpl; try (destruct I; assumption).
    destruct Hy as [Q|Q]; [left; auto | right; congruence]. }
  destruct (raised && st_check_after_yield s1); simpl; split; auto; reflexivity.
Qed.

Lemma sim_emitE f ev : sim f (eqrel unit) (emitE ev) (emitE ev).
Proof.
  intros s1 s2 I. exists f. split; [apply ext_refl|]. split; [|reflexivity]. apply iso_cons_trace, I.
Qed.

Lemma sim_depth_fuel f : sim f (eqrel nat) depth_fuel depth_fuel.
Proof. apply sim_pure. intros; simpl; repeat split; reflexivity. Qed.

Lemma sim_lift {A} f (r : res A) : sim f (eqrel A) (lift r) (lift r).
Proof. apply sim_pure. intros; simpl; repeat split; auto. destruct r; reflexivity. Qed.

Lemma sim_load f l1 l2 : lrel f l1 l2 -> sim f hvrel (load l1) (load l2).
Proof.
  intros L. apply sim_pure. intros s1 s2 I. destruct (iso_cells _ _ _ I _ _ L) as (v1 & v2 & G1 & G2 & H).
  unfold load. rewrite G1, G2. simpl. auto.
Qed.

Definition extend (f : lmap) (a b : loc) : lmap := fun x => if Pos.eqb x a then Some b else f x.

Lemma iso_not_dom_fresh f s1 s2 : iso f s1 s2 -> f (hnext (st_heap s1)) = None.
Proof.
  intro I. destruct (f (hnext (st_heap s1))) as [b|] eqn:E; auto.
  destruct (iso_cells _ _ _ I _ _ E) as (v1 & _ & G & _). rewrite (iso_wf1 _ _ _ I) in G by lia. discriminate.
Qed.
Lemma iso_not_ran_fresh f s1 s2 a : iso f s1 s2 -> f a <> Some (hnext (st_heap s2)).
Proof.
  intros I E. destruct (iso_cells _ _ _ I _ _ E) as (_ & v2 & _ & G & _).
  rewrite (iso_wf2 _ _ _ I) in G by lia. discriminate.
Qed.

Lemma ext_extend_to f s1 s2 b : iso f s1 s2 -> ext f (extend f (hnext (st_heap s1)) b).
Proof.
  intros I x y H. unfold extend. destruct (Pos.eqb_spec x (hnext (st_heap s1))) as [->|N]; auto.
  rewrite (iso_not_dom_fresh _ _ _ I) in H. discriminate.
Qed.

Ltac fields := cbn [st_heap st_globals st_trace st_yields st_stop_at st_stopped st_input st_total
                    st_fails st_failfast st_check_after_yield upd_heap upd_globals upd_trace
                    upd_yield upd_input upd_tests fst snd].

(* garbage on the right: an allocation the left side does not make *)
Lemma iso_right_alloc f s1 s2 v : iso f s1 s2 -> iso f s1 (upd_heap (snd (halloc (st_heap s2) v)) s2).
Proof.
  intro I. pose proof (iso_wf2 _ _ _ I) as W2. pose proof (iso_cells _ _ _ I) as C.
  destruct I. constructor; auto.
  - unfold wf; fields. apply fresh_ok_halloc; auto.
  - intros a b H. destruct (C a b H) as (v1 & v2 & G1 & G2 & R).
    exists v1, v2. split; auto. split; auto. fields. apply hget_halloc_old; auto.
Qed.

(* a fresh cell on the left is matched with an existing cell on the right that holds a related
   value and is not yet in the range of f *)
Lemma iso_left_alloc_to f s1 s2 v1 b v2 :
  iso f s1 s2 -> hget (st_heap s2) b = Some v2 -> hvrel f v1 v2 -> (forall a, f a <> Some b) ->
  iso (extend f (hnext (st_heap s1)) b) (upd_heap (snd (halloc (st_heap s1) v1)) s1) s2 /\
  ext f (extend f (hnext (st_heap s1)) b).
Proof.
  intros I G V NR. pose proof (iso_wf1 _ _ _ I) as W1. pose proof (ext_extend_to f s1 s2 b I) as E.
  split; auto. constructor; fields; try (destruct I; assumption).
  - apply fresh_ok_halloc; auto.
  - intros x x' y Hx Hx'. unfold extend in *.
    destruct (Pos.eqb_spec x (hnext (st_heap s1))) as [->|Nx], (Pos.eqb_spec x' (hnext (st_heap s1))) as [->|Nx']; auto.
    + inversion Hx; subst y. exfalso. eapply NR; eauto.
    + inversion Hx'; subst y. exfalso. eapply NR; eauto.
    + eapply (iso_inj _ _ _ I); eauto.
  - intros x y Hxy. unfold extend in Hxy. destruct (Pos.eqb_spec x (hnext (st_heap s1))) as [->|Nx].
    + inversion Hxy; subst y. exists v1, v2. rewrite hget_halloc_new. repeat split; auto. eapply mono; eauto.
    + destruct (iso_cells _ _ _ I _ _ Hxy) as (w1 & w2 & G1 & G2 & H).
      exists w1, w2. split; [apply hget_halloc_old; auto|]. split; auto. eapply mono; eauto.
  - eapply mono; eauto. apply (iso_glob _ _ _ I).
Qed.

(* both sides allocate: garbage on the right, then matched from the left *)
Lemma sim_alloc f v1 v2 : hvrel f v1 v2 -> sim f lrel (alloc v1) (alloc v2).
Proof.
  intros V s1 s2 I. rewrite !alloc_run. fields.
  destruct (iso_left_alloc_to f s1 _ v1 (hnext (st_heap s2)) v2 (iso_right_alloc _ _ _ v2 I)) as [I' E].
  - fields. apply hget_halloc_new.
  - exact V.
  - intro x. apply (iso_not_ran_fresh _ _ _ x I).
  - exists (extend f (hnext (st_heap s1)) (hnext (st_heap s2))). split; [exact E|]. split; [exact I'|].
    unfold rrel, lrel, extend. rewrite Pos.eqb_refl. reflexivity.
Qed.

Lemma sim_store f l1 l2 v1 v2 :
  lrel f l1 l2 -> hvrel f v1 v2 -> sim f (eqrel unit) (store l1 v1) (store l2 v2).
Proof.
  intros L V s1 s2 I. exists f. split; [apply ext_refl|]. split; [|reflexivity]. simpl.
  destruct (iso_cells _ _ _ I _ _ L) as (w1 & w2 & G1 & G2 & _).
  constructor; simpl; try (destruct I; assumption).
  - eapply fresh_ok_hset; eauto. apply (iso_wf1 _ _ _ I).
  - eapply fresh_ok_hset; eauto. apply (iso_wf2 _ _ _ I).
  - intros x y Hxy. destruct (Pos.eq_dec x l1) as [->|Nx].
    + assert (y = l2) by (unfold lrel in L; congruence). subst y.
      exists v1, v2. rewrite !hget_hset_same. auto.
    + assert (y <> l2).
      { intro; subst y. apply Nx. eapply (iso_inj _ _ _ I); eauto. }
      rewrite !hget_hset_other by auto. apply (iso_cells _ _ _ I); auto.
Qed.

Lemma framerel_get f n fr1 fr2 : framerel f fr1 fr2 -> optrel lrel f (frame_get n fr1) (frame_get n fr2).
Proof.
  intro F. induction F as [|[k1 a1] [k2 a2] t1 t2 [K L] F IH]; simpl; auto.
  simpl in K, L. unfold eqrel in K. subst k2. destruct (str_eqb k1 n); auto.
Qed.

Lemma framerel_replace f n l1 l2 fr1 fr2 :
  lrel f l1 l2 -> framerel f fr1 fr2 -> framerel f (frame_replace n l1 fr1) (frame_replace n l2 fr2).
Proof.
  intros L F. induction F as [|[k1 a1] [k2 a2] t1 t2 [K A] F IH]; simpl; [constructor|].
  simpl in K, A. unfold eqrel in K. subst k2. destruct (str_eqb k1 n).
  - constructor; auto. split; simpl; auto. reflexivity.
  - constructor; auto. split; simpl; auto. reflexivity.
Qed.

Lemma framerel_set f n l1 l2 fr1 fr2 :
  lrel f l1 l2 -> framerel f fr1 fr2 -> framerel f (frame_set n l1 fr1) (frame_set n l2 fr2).
Proof.
  intros L F. unfold frame_set. pose proof (framerel_get f n _ _ F) as G.
  destruct (frame_get n fr1), (frame_get n fr2); simpl in G; try contradiction.
  - apply framerel_replace; auto.
  - constructor; auto. split; simpl; auto. reflexivity.
Qed.

Lemma envrel_get f n e1 e2 : envrel f e1 e2 -> optrel lrel f (env_get n e1) (env_get n e2).
Proof.
  intro E. induction E as [|f1 f2 t1 t2 F E IH]; simpl; auto.
  pose proof (framerel_get f n _ _ F) as G.
  destruct (frame_get n f1), (frame_get n f2); simpl in G; try contradiction; auto.
Qed.

Lemma envrel_update f n l1 l2 e1 e2 :
  lrel f l1 l2 -> envrel f e1 e2 -> optrel envrel f (env_update n l1 e1) (env_update n l2 e2).
Proof.
  intros L E. induction E as [|f1 f2 t1 t2 F E IH]; simpl; auto.
  pose proof (framerel_get f n _ _ F) as G.
  destruct (frame_get n f1), (frame_get n f2); simpl in G; try contradiction.
  - simpl. constructor; auto. apply framerel_replace; auto.
  - destruct (env_update n l1 t1), (env_update n l2 t2); simpl in *; try contradiction; auto.
    constructor; auto.
Qed.

Lemma sim_lookup f n e1 e2 : envrel f e1 e2 -> sim f (optrel lrel) (lookup n e1) (lookup n e2).
Proof.
  intro E. apply sim_pure. intros s1 s2 I. unfold lookup.
  destruct (str_eqb n underscore); [simpl; auto|].
  pose proof (envrel_get f n _ _ E) as G.
  destruct (env_get n e1), (env_get n e2); simpl in G; try contradiction; simpl; auto.
  repeat split; auto. apply framerel_get. apply (iso_glob _ _ _ I).
Qed.

Lemma iso_upd_globals f s1 s2 g1 g2 :
  iso f s1 s2 -> framerel f g1 g2 -> iso f (upd_globals g1 s1) (upd_globals g2 s2).
Proof. intros I G. destruct I. constructor; simpl; auto. Qed.

Lemma sim_set_var f n l1 l2 e1 e2 :
  lrel f l1 l2 -> envrel f e1 e2 -> sim f envrel (set_var n l1 e1) (set_var n l2 e2).
Proof.
  intros L E s1 s2 I. exists f. split; [apply ext_refl|]. unfold set_var.
  destruct (str_eqb n underscore); [simpl; auto|].
  inversion E as [|f1 f2 t1 t2 F E']; subst; simpl.
  - split; [|constructor]. apply iso_upd_globals; auto. apply framerel_set; auto. apply (iso_glob _ _ _ I).
  - split; auto. constructor; auto. apply framerel_set; auto.
Qed.

Lemma sim_update_var f n l1 l2 e1 e2 :
  lrel f l1 l2 -> envrel f e1 e2 -> sim f envrel (update_var n l1 e1) (update_var n l2 e2).
Proof.
  intros L E s1 s2 I. exists f. split; [apply ext_refl|]. unfold update_var.
  destruct (str_eqb n underscore); [simpl; auto|].
  pose proof (envrel_update f n _ _ _ _ L E) as U.
  destruct (env_update n l1 e1), (env_update n l2 e2); simpl in U; try contradiction; simpl; auto.
  pose proof (framerel_get f n _ _ (iso_glob _ _ _ I)) as G.
  destruct (frame_get n (st_globals s1)), (frame_get n (st_globals s2)); simpl in G; try contradiction; simpl.
  - split; auto. apply iso_upd_globals; auto. apply framerel_replace; auto. apply (iso_glob _ _ _ I).
  - split; auto.
Qed.

Lemma sim_load_num f l1 l2 : lrel f l1 l2 -> sim f (eqrel float) (load_num l1) (load_num l2).
Proof.
  intro L. unfold load_num. eapply sim_bind; [apply sim_load; eauto|].
  intros f' v1 v2 E V. destruct V; try apply sim_crash. apply sim_ret. reflexivity.
Qed.
Lemma sim_load_str f l1 l2 : lrel f l1 l2 -> sim f (eqrel str) (load_str l1) (load_str l2).
Proof.
  intro L. unfold load_str. eapply sim_bind; [apply sim_load; eauto|].
  intros f' v1 v2 E V. destruct V; try apply sim_crash. apply sim_ret. reflexivity.
Qed.
Lemma sim_load_bool f l1 l2 : lrel f l1 l2 -> sim f (eqrel bool) (load_bool l1) (load_bool l2).
Proof.
  intro L. unfold load_bool. eapply sim_bind; [apply sim_load; eauto|].
  intros f' v1 v2 E V. destruct V; try apply sim_crash. apply sim_ret. reflexivity.
Qed.

Lemma sim_mapM {A B} (RA : lmap -> A -> A -> Prop) (RB : lmap -> B -> B -> Prop)
      `{Mono A RA} `{Mono B RB} (g1 g2 : A -> M B) l1 : forall f l2,
  (forall f', ext f f' -> forall a1 a2, RA f' a1 a2 -> sim f' RB (g1 a1) (g2 a2)) ->
  listrel RA f l1 l2 -> sim f (listrel RB) (mapM g1 l1) (mapM g2 l2).
Proof.
  induction l1 as [|a1 t1 IH]; intros f l2 Hg L; inversion L as [|x a2 y t2 Ha Ht]; subst; simpl.
  - apply sim_ret. constructor.
  - eapply sim_bind; [apply Hg; [apply ext_refl | exact Ha]|]. intros f' b1 b2 E Hb.
    eapply sim_bind; [apply IH; [intros f'' E'; apply Hg; eapply ext_trans; eauto | eapply mono; eauto]|].
    intros f'' r1 r2 E' Hr. apply sim_ret. constructor; auto. eapply mono; eauto.
Qed.

Lemma listrel_eq {A} f (l1 l2 : list A) : listrel (eqrel A) f l1 l2 -> l1 = l2.
Proof. intro F. induction F; auto. unfold eqrel in *. congruence. Qed.
Lemma listrel_eq_refl {A} f (l : list A) : listrel (eqrel A) f l l.
Proof. induction l; constructor; auto. reflexivity. Qed.
Lemma listrel_length {A} (R : lmap -> A -> A -> Prop) f l1 l2 : listrel R f l1 l2 -> List.length l1 = List.length l2.
Proof. intro F. induction F; simpl; auto. Qed.
Lemma listrel_app {A} (R : lmap -> A -> A -> Prop) f a1 a2 b1 b2 :
  listrel R f a1 a2 -> listrel R f b1 b2 -> listrel R f (a1 ++ b1) (a2 ++ b2).
Proof. intros F G. induction F; simpl; auto. constructor; auto. Qed.
Lemma listrel_nth {A} (R : lmap -> A -> A -> Prop) f l1 l2 k :
  listrel R f l1 l2 -> optrel R f (nth_error l1 k) (nth_error l2 k).
Proof. intro F. revert k. induction F; intros [|k]; simpl; auto. Qed.
Lemma listrel_firstn {A} (R : lmap -> A -> A -> Prop) f l1 l2 k :
  listrel R f l1 l2 -> listrel R f (firstn k l1) (firstn k l2).
Proof.
  intro F. revert k. induction F; intros [|k]; simpl; try constructor; auto. apply IHF.
Qed.
Lemma listrel_skipn {A} (R : lmap -> A -> A -> Prop) f l1 l2 k :
  listrel R f l1 l2 -> listrel R f (skipn k l1) (skipn k l2).
Proof.
  intro F. revert k. induction F; intros [|k]; simpl; try (constructor; auto; fail); auto.
Qed.

Lemma framerel_plookup f k p1 p2 : framerel f p1 p2 -> optrel lrel f (plookup k p1) (plookup k p2).
Proof.
  intro F. induction F as [|[k1 a1] [k2 a2] t1 t2 [K L] F IH]; simpl; auto.
  simpl in K, L. unfold eqrel in K. subst k2. destruct (str_eqb k1 k); auto.
Qed.
Lemma framerel_keys f p1 p2 : framerel f p1 p2 -> map fst p1 = map fst p2.
Proof. intro F. induction F as [|[k1 a1] [k2 a2] t1 t2 [K L] F IH]; simpl; auto. simpl in K. unfold eqrel in K. congruence. Qed.

(* carry every relation hypothesis at f over to the extension f' *)
Ltac up E :=
  repeat match goal with
         | H : Forall2 (lrel ?f) ?a ?b |- _ => change (lrels f a b) in H
         | H : Forall2 (?R ?f) ?a ?b |- _ => change (listrel R f a b) in H
         | H : ?R ?f ?a ?b |- _ =>
             match type of E with ext f ?f' => apply (mono f f' a b E) in H end
         end.

Ltac sbind tac :=
  eapply sim_bind;
  [ tac
  | let f' := fresh "f" in let a1 := fresh "a" in let a2 := fresh "b" in
    let E := fresh "E" in let H := fresh "R" in
    intros f' a1 a2 E H; up E ].
