(* SemIsoLib.v — the value helpers and built-ins of Sem.v are invariant under a
   renaming of heap locations (see SemIsoBase.v). *)
From Coq Require Import ZArith NArith PArith List String Bool Floats FMapPositive Lia.
From EvyV Require Import Base Num Ast Omap Sem SemPure SemStoreBase SemIsoBase.
Import ListNotations.
Local Open Scope positive_scope.

(* the sim rule of an elementary access; related cells are taken from the context *)
Ltac prim :=
  first
    [ apply sim_tick | apply sim_emitE | apply sim_depth_fuel | apply sim_lift
    | apply sim_fail | apply sim_crash | apply sim_internal
    | apply sim_load; eassumption
    | apply sim_load_num; eassumption | apply sim_load_str; eassumption | apply sim_load_bool; eassumption
    | apply sim_alloc; solve [constructor; eauto | repeat constructor]
    | apply sim_store; [eassumption | solve [constructor; eauto]]
    | apply sim_lookup; eassumption
    | apply sim_ret; solve [reflexivity | eassumption | constructor; eauto] ].

Ltac dopt :=
  match goal with R : optrel _ _ ?x ?y |- _ => destruct x, y; simpl in R; try contradiction end.
Ltac deq := repeat match goal with R : eqrel _ _ ?x ?y |- _ => unfold eqrel in R; subst end.

Lemma sim_copy_or_ref fuel : forall f l1 l2, lrel f l1 l2 -> sim f lrel (copy_or_ref fuel l1) (copy_or_ref fuel l2).
Proof.
  induction fuel as [|n IH]; intros f l1 l2 L; simpl; [apply sim_fail|].
  sbind prim. destruct R; try prim.
  sbind ltac:(apply IH; eassumption). prim.
Qed.

Lemma sim_deep_copy fuel : forall f l1 l2, lrel f l1 l2 -> sim f lrel (deep_copy fuel l1) (deep_copy fuel l2).
Proof.
  induction fuel as [|n IH]; intros f l1 l2 L; simpl; [apply sim_crash|].
  sbind prim. destruct R; try prim.
  - sbind ltac:(apply IH; eassumption). prim.
  - sbind ltac:(eapply (sim_mapM lrel lrel); [intros; apply IH; eassumption | eassumption]).
    prim.
  - rewrite <- H.
    sbind ltac:(eapply (sim_mapM (eqrel str) bindrel);
                [ | apply listrel_eq_refl]).
    + intros f' E' k1 k2 K. unfold eqrel in K. subst k2.
      pose proof (framerel_plookup f' k1 _ _ (mono _ _ _ _ E' H0)) as G.
      destruct (plookup k1 (pairs m1)), (plookup k1 (pairs m2)); simpl in G; try contradiction; [|prim].
      sbind ltac:(apply IH; eassumption). apply sim_ret. split; [reflexivity | exact R].
    + apply sim_alloc. constructor; [reflexivity | exact R].
Qed.

Lemma sim_show fuel : forall repr f l1 l2, lrel f l1 l2 ->
  sim f (eqrel (list piece)) (show fuel repr l1) (show fuel repr l2).
Proof.
  induction fuel as [|n IH]; intros repr f l1 l2 L; simpl; [apply sim_crash|].
  sbind prim. destruct R; try prim.
  - destruct repr; [destruct (go_quote x)|]; prim.
  - apply IH; assumption.
  - sbind ltac:(eapply (sim_mapM lrel (eqrel (list piece))); [intros; apply IH; eassumption | eassumption]).
    apply listrel_eq in R. subst. prim.
  - rewrite <- H.
    sbind ltac:(eapply (sim_mapM (eqrel str) (eqrel (list piece)));
                [ | apply listrel_eq_refl]).
    + intros f' E' k1 k2 K. unfold eqrel in K. subst k2.
      pose proof (framerel_plookup f' k1 _ _ (mono _ _ _ _ E' H0)) as G.
      destruct (plookup k1 (pairs m1)), (plookup k1 (pairs m2)); simpl in G; try contradiction; [|prim].
      sbind ltac:(apply IH; eassumption). unfold eqrel in R. subst. prim.
    + apply listrel_eq in R. subst. prim.
Qed.

Lemma sim_show_str f l1 l2 : lrel f l1 l2 -> sim f (eqrel str) (show_str l1) (show_str l2).
Proof.
  intro L. unfold show_str. sbind prim. unfold eqrel in R; subst.
  sbind ltac:(apply sim_show; eassumption). unfold eqrel in R; subst.
  destruct (pieces_str b0); prim.
Qed.

Lemma sim_join_args f a1 a2 sep : lrels f a1 a2 -> sim f (eqrel (list piece)) (join_args a1 sep) (join_args a2 sep).
Proof.
  intro L. unfold join_args. sbind prim. unfold eqrel in R; subst.
  sbind ltac:(eapply (sim_mapM lrel (eqrel (list piece))); [intros; apply sim_show; eassumption | eassumption]).
  apply listrel_eq in R. subst. prim.
Qed.

Section PairwiseGo.
  Variable eq1 : loc -> loc -> M bool.
  Hypothesis eq_sim : forall f a1 a2 b1 b2, lrel f a1 a2 -> lrel f b1 b2 -> sim f (eqrel bool) (eq1 a1 b1) (eq1 a2 b2).

  Definition go_arr := fix go (xs ys : list loc) : M bool :=
          match xs, ys with
          | x :: xt, y :: yt => let* e := eq1 x y in if e then go xt yt else ret false
          | _, _ => ret true
          end.
  Definition go_map (p2 : list (str * loc)) := fix go (ps : list (str * loc)) : M bool :=
          match ps with
          | [] => ret true
          | (k, i) :: t =>
              match plookup k p2 with
              | None => ret false
              | Some j => let* e := eq1 i j in if e then go t else ret false
              end
          end.

  Lemma sim_go_arr : forall xs1 xs2 ys1 ys2 f, lrels f xs1 xs2 -> lrels f ys1 ys2 ->
    sim f (eqrel bool) (go_arr xs1 ys1) (go_arr xs2 ys2).
  Proof.
    induction xs1 as [|x1 t1 IH]; intros xs2 ys1 ys2 f X Y; inversion X; subst; simpl; [prim|].
    inversion Y; subst; [prim|].
    sbind ltac:(apply eq_sim; eassumption). unfold eqrel in R; subst. destruct b; [|prim].
    apply IH; assumption.
  Qed.

  Lemma sim_go_map : forall ps1 ps2 q1 q2 f, framerel f ps1 ps2 -> framerel f q1 q2 ->
    sim f (eqrel bool) (go_map q1 ps1) (go_map q2 ps2).
  Proof.
    induction ps1 as [|[k1 i1] t1 IH]; intros ps2 q1 q2 f X Y; inversion X as [|? [k2 i2] ? t2 [K L] X']; subst; simpl; [prim|].
    simpl in K, L. unfold eqrel in K. subst k2.
    pose proof (framerel_plookup f k1 _ _ Y) as G.
    destruct (plookup k1 q1), (plookup k1 q2); simpl in G; try contradiction; [|prim].
    sbind ltac:(apply eq_sim; eassumption). unfold eqrel in R; subst. destruct b; [|prim].
    apply IH; assumption.
  Qed.
End PairwiseGo.

Lemma sim_equals fuel : forall f a1 a2 b1 b2, lrel f a1 a2 -> lrel f b1 b2 ->
  sim f (eqrel bool) (equals fuel a1 b1) (equals fuel a2 b2).
Proof.
  induction fuel as [|n IH]; intros f a1 a2 b1 b2 A B; simpl; [apply sim_crash|].
  sbind prim. sbind prim.
  destruct R, R0; try prim.
  - destruct (ty_eqb _ _); [apply IH; assumption | prim].
  - rewrite (listrel_length _ _ _ _ H), (listrel_length _ _ _ _ H0).
    destruct (negb _); [prim|]. apply (sim_go_arr (equals n) IH); assumption.
  - rewrite (listrel_length _ _ _ _ H0), (listrel_length _ _ _ _ H2).
    destruct (negb _); [prim|]. apply (sim_go_map (equals n) IH); assumption.
Qed.

Lemma sim_same fuel : forall f a1 a2 b1 b2, lrel f a1 a2 -> lrel f b1 b2 ->
  sim f (eqrel bool) (same fuel a1 b1) (same fuel a2 b2).
Proof.
  induction fuel as [|n IH]; intros f a1 a2 b1 b2 A B; simpl; [apply sim_crash|].
  sbind prim. sbind prim.
  destruct R, R0; try prim; try (apply IH; assumption).
  - rewrite (listrel_length _ _ _ _ H), (listrel_length _ _ _ _ H0).
    destruct (negb _); [prim|]. apply (sim_go_arr (same n) IH); assumption.
  - rewrite (listrel_length _ _ _ _ H0), (listrel_length _ _ _ _ H2).
    destruct (negb _); [prim|]. apply (sim_go_map (same n) IH); assumption.
Qed.

Lemma sim_zero_val f t : sim f lrel (zero_val t) (zero_val t).
Proof. destruct t; simpl; try prim. sbind prim. prim. Qed.

Lemma sim_bin_num f op x y : sim f lrel (bin_num op x y) (bin_num op x y).
Proof. destruct op; simpl; prim. Qed.
Lemma sim_bin_str f op x y : sim f lrel (bin_str op x y) (bin_str op x y).
Proof. destruct op; simpl; prim. Qed.
Lemma sim_bin_bool f op x y : sim f lrel (bin_bool op x y) (bin_bool op x y).
Proof. destruct op; simpl; prim. Qed.

Lemma lrels_concat f (p1 p2 : list (list loc)) : listrel lrels f p1 p2 -> lrels f (List.concat p1) (List.concat p2).
Proof. intro F. induction F; simpl; [constructor|]. apply listrel_app; auto. Qed.

Lemma sim_bin_arr f op xs1 xs2 r1 r2 :
  lrels f xs1 xs2 -> lrel f r1 r2 -> sim f lrel (bin_arr op xs1 r1) (bin_arr op xs2 r2).
Proof.
  intros X L. destruct op; simpl; try prim.
  - sbind prim. destruct R; try prim.
    sbind prim. unfold eqrel in R; subst.
    sbind ltac:(eapply (sim_mapM lrel lrel); [intros; apply sim_copy_or_ref; eassumption | eassumption]).
    sbind ltac:(eapply (sim_mapM lrel lrel); [intros; apply sim_copy_or_ref; eassumption | eassumption]).
    apply sim_alloc. constructor. apply listrel_app; assumption.
  - sbind prim. unfold eqrel in R; subst. destruct (go_int_exact b); [|prim].
    destruct (Z.ltb z 0); [prim|].
    rewrite (listrel_length _ _ _ _ X). destruct (Z.ltb max_alloc _); [prim|].
    sbind prim. unfold eqrel in R; subst.
    sbind ltac:(eapply (sim_mapM (eqrel unit) lrels);
                [ | apply listrel_eq_refl]).
    + intros f' E' u1 u2 _.
      eapply (sim_mapM lrel lrel); [intros; apply sim_deep_copy; eassumption |].
      eapply mono; eauto.
    + apply sim_alloc. constructor. apply lrels_concat. assumption.
Qed.

Lemma sim_slice_bounds f lo1 lo2 hi1 hi2 len :
  optrel lrel f lo1 lo2 -> optrel lrel f hi1 hi2 ->
  sim f (eqrel (nat * nat)) (slice_bounds lo1 hi1 len) (slice_bounds lo2 hi2 len).
Proof.
  intros A B. unfold slice_bounds.
  sbind ltac:(instantiate (1 := eqrel nat)).
  - destruct lo1, lo2; simpl in A; try contradiction; [|prim].
    sbind prim. unfold eqrel in R; subst. prim.
  - unfold eqrel in R; subst.
    sbind ltac:(instantiate (1 := eqrel nat)).
    + destruct hi1, hi2; simpl in B; try contradiction; [|prim].
      sbind prim. unfold eqrel in R; subst. prim.
    + unfold eqrel in R; subst. destruct (Nat.ltb _ _); prim.
Qed.

Lemma sim_unwrap_any f l1 l2 : lrel f l1 l2 -> sim f hvrel (unwrap_any l1) (unwrap_any l2).
Proof. intro L. unfold unwrap_any. sbind prim. destruct R; prim. Qed.

Lemma sim_none_val f : sim f (optrel lrel) none_val none_val.
Proof. unfold none_val. sbind prim. apply sim_ret. exact R. Qed.

Lemma sim_global_err f e1 e2 is_err msg :
  envrel f e1 e2 -> sim f (eqrel unit) (global_err e1 is_err msg) (global_err e2 is_err msg).
Proof.
  intro E. unfold global_err.
  sbind prim. dopt; [|prim].
  sbind prim. match goal with H : hvrel _ _ _ |- _ => destruct H; try prim end.
  sbind prim. sbind prim. dopt; [|prim].
  sbind prim. match goal with H : hvrel _ _ _ |- _ => destruct H; try prim end.
  destruct (pieces_str msg); prim.
Qed.

Lemma framerel_premove f k p1 p2 : framerel f p1 p2 -> framerel f (premove k p1) (premove k p2).
Proof.
  intro F. induction F as [|[k1 a1] [k2 a2] t1 t2 [K L] F IH]; simpl; [constructor|].
  simpl in K, L. unfold eqrel in K. subst k2. destruct (str_eqb k1 k); auto.
  constructor; auto. split; simpl; auto. reflexivity.
Qed.
Lemma ohas_rel f k m1 m2 : framerel f (pairs m1) (pairs m2) -> ohas k m1 = ohas k m2.
Proof.
  intro F. unfold ohas. pose proof (framerel_plookup f k _ _ F) as G.
  destruct (plookup k (pairs m1)), (plookup k (pairs m2)); simpl in G; try contradiction; auto.
Qed.
Lemma oget_rel f k m1 m2 : framerel f (pairs m1) (pairs m2) -> optrel lrel f (oget k m1) (oget k m2).
Proof. intro F. unfold oget. apply framerel_plookup; auto. Qed.
Lemma odel_rel f k m1 m2 :
  order m1 = order m2 -> framerel f (pairs m1) (pairs m2) -> hvrel f (HMap (odel k m1)) (HMap (odel k m2)).
Proof.
  intros O F. unfold odel. pose proof (framerel_plookup f k _ _ F) as G.
  destruct (plookup k (pairs m1)), (plookup k (pairs m2)); simpl in G; try contradiction.
  - constructor; simpl; [congruence | apply framerel_premove; auto].
  - constructor; auto.
Qed.
Lemma oset_rel f k v1 v2 m1 m2 :
  lrel f v1 v2 -> order m1 = order m2 -> framerel f (pairs m1) (pairs m2) ->
  hvrel f (HMap (oset k v1 m1)) (HMap (oset k v2 m2)).
Proof.
  intros L O F. unfold oset. pose proof (framerel_plookup f k _ _ F) as G.
  assert (P : framerel f (pset k v1 (pairs m1)) (pset k v2 (pairs m2))).
  { unfold pset. constructor; [split; simpl; auto; reflexivity | apply framerel_premove; auto]. }
  destruct (plookup k (pairs m1)), (plookup k (pairs m2)); simpl in G; try contradiction;
    constructor; simpl; auto; congruence.
Qed.

Lemma sim_alloc_strs f (l : list str) :
  sim f lrels (mapM (fun p => alloc (HStr p)) l) (mapM (fun p => alloc (HStr p)) l).
Proof.
  eapply (sim_mapM (eqrel str) lrel); [ | apply listrel_eq_refl].
  intros f' E' k1 k2 K. unfold eqrel in K. subst k2. prim.
Qed.
Lemma sim_load_nums f a1 a2 : lrels f a1 a2 ->
  sim f (eqrel (list float)) (mapM load_num a1) (mapM load_num a2).
Proof.
  intro A. eapply sim_conseq; [|eapply (sim_mapM lrel (eqrel float)); [ | exact A]].
  - intros f' x y H. apply listrel_eq in H. exact H.
  - intros f' E' k1 k2 K. apply sim_load_num. exact K.
Qed.

(* unwrapBasicvalue over the argument cells of sprintf / printf *)
Definition farg_of (a : loc) : M Builtins.farg :=
  let* v := unwrap_any a in
  match v with
  | HNum x => ret (Builtins.FNum x)
  | HStr x => ret (Builtins.FStr x)
  | HBool b => ret (Builtins.FBool b)
  | _ => let* x := show_str a in ret (Builtins.FStr x)
  end.
Lemma sim_fargs f r1 r2 : lrels f r1 r2 ->
  sim f (eqrel (list Builtins.farg)) (mapM farg_of r1) (mapM farg_of r2).
Proof.
  intro A. eapply sim_conseq; [|eapply (sim_mapM lrel (eqrel Builtins.farg)); [ | exact A]].
  - intros f' x y H. apply listrel_eq in H. exact H.
  - intros f' E' k1 k2 K. unfold farg_of. sbind ltac:(apply sim_unwrap_any; exact K).
    match goal with H : hvrel _ _ _ |- _ => destruct H end; try prim;
      (sbind ltac:(apply sim_show_str; eassumption); deq; prim).
Qed.

Lemma sim_read_body f : sim f (optrel lrel) read_body read_body.
Proof.
  intros s1 s2 I. pose proof (iso_input _ _ _ I) as Hi. unfold read_body. rewrite <- Hi.
  assert (S : forall v, sim f (optrel lrel) (let* l := alloc (HStr v) in ret (Some l))
                                             (let* l := alloc (HStr v) in ret (Some l))).
  { intro v. sbind prim. apply sim_ret. exact R. }
  destruct (st_input s1) as [|x t]; apply S.
  - apply iso_cons_trace, I.
  - apply iso_upd_input; [apply iso_cons_trace, I | reflexivity].
Qed.

(* the built-ins, row by row (SemPure.when_both) *)
Ltac sargs :=
  repeat match goal with
         | H : lrels _ ?l1 ?l2 |- sim _ _ (match ?l1 with _ => _ end) _ =>
             unfold lrels, listrel in H; inversion H; subst; clear H
         | H : Forall2 (lrel _) ?l1 ?l2 |- sim _ _ (match ?l1 with _ => _ end) _ =>
             inversion H; subst; clear H
         end.

Ltac sub1 :=
  first [ prim | apply sim_none_val
        | apply sim_join_args; solve [eassumption | constructor; eauto]
        | apply sim_unwrap_any; eassumption
        | apply sim_global_err; eassumption | apply sim_show_str; eassumption
        | apply sim_alloc_strs | apply sim_load_nums; assumption | apply sim_fargs; assumption
        | apply sim_read_body ].

Ltac lens :=
  repeat match goal with
         | H : framerel _ (pairs ?m1) (pairs ?m2) |- context [List.length (pairs ?m1)] =>
             rewrite (listrel_length _ _ _ _ H)
         | H : lrels _ ?x1 ?x2 |- context [List.length ?x1] => rewrite (listrel_length _ _ _ _ H)
         | H : framerel _ (pairs ?m1) (pairs ?m2) |- context [ohas ?k ?m1] => rewrite (ohas_rel _ k _ _ H)
         | H : order ?m1 = order ?m2 |- context [order ?m1] => rewrite H
         end.

Ltac sstep :=
  first
    [ match goal with
      | H : framerel _ (pairs ?m1) (pairs ?m2), O : order ?m1 = order ?m2
        |- sim _ _ (bindM (store _ (HMap (odel _ ?m1))) _) _ =>
          sbind ltac:(apply sim_store; [eassumption | apply odel_rel; assumption])
      | |- sim _ _ (bindM _ _) (bindM _ _) => sbind sub1; deq
      | H : hvrel _ ?v1 ?v2 |- sim _ _ (match ?v1 with _ => _ end) _ => destruct H; lens
      | |- sim _ _ (match ?x with _ => _ end) (match ?x with _ => _ end) => destruct x
      | |- sim _ _ (if ?x then _ else _) (if ?x then _ else _) => destruct x
      end
    | sub1 ].
Ltac ssolve := sargs; repeat sstep.

(* the pure string and math built-ins (Sem.pure_builtin) *)
Lemma sim_pure_builtin name f a1 a2 :
  lrels f a1 a2 -> when_both (sim f (optrel lrel)) (pure_builtin name a1) (pure_builtin name a2).
Proof. intros A. unfold pure_builtin. rows ssolve. exact I. Qed.

Lemma sim_builtin name f e1 e2 a1 a2 :
  envrel f e1 e2 -> lrels f a1 a2 -> when_both (sim f (optrel lrel)) (builtin name e1 a1) (builtin name e2 a2).
Proof. intros E A. unfold builtin. rows ssolve. apply sim_pure_builtin; assumption. Qed.

Lemma iso_upd_tests f s1 s2 t1 fl1 t2 fl2 :
  iso f s1 s2 -> t1 = t2 -> fl1 = fl2 -> iso f (upd_tests t1 fl1 s1) (upd_tests t2 fl2 s2).
Proof. intros I -> ->. destruct I. constructor; simpl; auto. Qed.

Lemma iso_bump f s1 s2 b : iso f s1 s2 -> iso f (rt_bump b s1) (rt_bump b s2).
Proof.
  intro I. unfold rt_bump. apply iso_upd_tests; auto.
  - f_equal; destruct I; assumption.
  - destruct b; [f_equal|]; destruct I; assumption.
Qed.

Lemma sim_rt_validate f a1 a2 : lrels f a1 a2 -> sim f (eqrel unit) (rt_validate a1) (rt_validate a2).
Proof.
  intro A. unfold rt_validate. unfold lrels, listrel in A.
  inversion A as [|x1 x2 t1 t2 Hx A1]; subst; [prim|].
  inversion A1 as [|y1 y2 u1 u2 Hy A2]; subst.
  - ssolve.
  - inversion A2 as [|z1 z2 w1 w2 Hz A3]; subst; [prim|]. ssolve.
Qed.
Lemma sim_rt_verdict f d a1 a2 : lrels f a1 a2 -> sim f (eqrel bool) (rt_verdict d a1) (rt_verdict d a2).
Proof.
  intro A. unfold rt_verdict. unfold lrels, listrel in A.
  inversion A as [|x1 x2 t1 t2 Hx A1]; subst; [prim|].
  inversion A1 as [|y1 y2 u1 u2 Hy A2]; subst.
  - ssolve.
  - apply sim_same; assumption.
Qed.

Lemma sim_run_test f a1 a2 : lrels f a1 a2 -> sim f (eqrel unit) (run_test a1) (run_test a2).
Proof.
  intro A. rewrite !run_test_eq. sbind prim. deq.
  intros s1 s2 I. unfold rt_body.
  destruct (sim_rt_validate _ _ _ A s1 s2 I) as (f' & E' & I' & Rr).
  destruct (rt_validate a1 s1) as [[u1|er1] t1], (rt_validate a2 s2) as [[u2|er2] t2];
    simpl in Rr, I'; try contradiction.
  2: { exists f'. split; auto. split; [|exact Rr]. simpl. apply iso_bump; auto. }
  destruct (sim_rt_verdict _ b _ _ (mono _ _ _ _ E' A) t1 t2 I') as (f'' & E'' & I'' & Rr').
  destruct (rt_verdict b a1 t1) as [[[|]|er1] r1], (rt_verdict b a2 t2) as [[[|]|er2] r2];
    simpl in Rr', I''; unfold eqrel in Rr'; try contradiction; try discriminate.
  - exists f''. split; [eapply ext_trans; eauto|]. split; [|reflexivity]. simpl. apply iso_bump; auto.
  - exists f''. split; [eapply ext_trans; eauto|].
    pose proof (iso_bump _ _ _ true I'') as I3. cbv zeta.
    replace (st_failfast (rt_bump true r2)) with (st_failfast (rt_bump true r1))
      by (apply (iso_failfast _ _ _ I3)).
    destruct (st_failfast (rt_bump true r1)); simpl; split; auto; reflexivity.
  - exists f''. split; [eapply ext_trans; eauto|]. split; [|exact Rr']. simpl. apply iso_bump; auto.
Qed.

Lemma sim_bind_params f ps : forall a1 a2 fr1 fr2,
  lrels f a1 a2 -> framerel f fr1 fr2 ->
  sim f (pairrel framerel lrels) (bind_params ps a1 fr1) (bind_params ps a2 fr2).
Proof.
  induction ps as [|[n t] ps IH]; intros a1 a2 fr1 fr2 A F; simpl.
  - apply sim_ret. split; assumption.
  - unfold lrels, listrel in A. inversion A as [|x1 x2 t1 t2 Hx A']; subst; [prim|].
    apply IH; [exact A'|]. destruct (str_eqb n underscore); auto. apply framerel_set; auto.
Qed.

Lemma sim_bind_payload f ps : forall args fr1 fr2,
  framerel f fr1 fr2 -> sim f framerel (bind_payload ps args fr1) (bind_payload ps args fr2).
Proof.
  induction ps as [|[n t] ps IH] in f |- *; intros args fr1 fr2 F; simpl.
  - apply sim_ret. assumption.
  - destruct args as [|a more]; [prim|].
    sbind ltac:(instantiate (1 := lrel); destruct t, a; prim).
    apply IH. destruct (str_eqb n underscore); auto. apply framerel_set; auto.
Qed.
