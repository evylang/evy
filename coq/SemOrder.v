(* SemOrder.v — C01, evaluation-order part: short-circuit and/or, left-to-right
   evaluation (unfolding equations + trace concatenation), the binary-operator
   table, and the laws of deep equality (value.Equals). *)
From Coq Require Import ZArith NArith List String Bool Floats FMapPositive Permutation Lia.
From EvyV Require Import Base Num Ast Omap OmapProofs Sem SemBasics SemPure SemWalkProofs.
Import ListNotations.
Open Scope Z_scope.

(* what an EBin node does once both operand cells are known (op not == / !=):
   it reads the LEFT cell now — after the right operand ran — and dispatches *)
Definition bin_dispatch (op : binop) (la lb : loc) : M loc :=
  let* va := load la in
  match va with
  | HNum y => let* z := load_num lb in bin_num op y z
  | HStr y => let* z := load_str lb in bin_str op y z
  | HBool y => let* z := load_bool lb in bin_bool op y z
  | HArr xs => bin_arr op xs lb
  | _ => internal "unknown operation (binary)"
  end.

Lemma bin_dispatch_num op la lb s x y :
  hget (st_heap s) la = Some (HNum x) -> hget (st_heap s) lb = Some (HNum y) ->
  bin_dispatch op la lb s = bin_num op x y s.
Proof.
  intros Hx Hy. unfold bin_dispatch, load_num.
  rewrite (bindM_ok _ _ _ _ _ (load_hget _ _ _ Hx)), bindM_assoc, (bindM_ok _ _ _ _ _ (load_hget _ _ _ Hy)). reflexivity.
Qed.
Lemma bin_dispatch_str op la lb s x y :
  hget (st_heap s) la = Some (HStr x) -> hget (st_heap s) lb = Some (HStr y) ->
  bin_dispatch op la lb s = bin_str op x y s.
Proof.
  intros Hx Hy. unfold bin_dispatch, load_str.
  rewrite (bindM_ok _ _ _ _ _ (load_hget _ _ _ Hx)), bindM_assoc, (bindM_ok _ _ _ _ _ (load_hget _ _ _ Hy)). reflexivity.
Qed.
Lemma bin_dispatch_bool op la lb s x y :
  hget (st_heap s) la = Some (HBool x) -> hget (st_heap s) lb = Some (HBool y) ->
  bin_dispatch op la lb s = bin_bool op x y s.
Proof.
  intros Hx Hy. unfold bin_dispatch, load_bool.
  rewrite (bindM_ok _ _ _ _ _ (load_hget _ _ _ Hx)), bindM_assoc, (bindM_ok _ _ _ _ _ (load_hget _ _ _ Hy)). reflexivity.
Qed.
Lemma bin_dispatch_arr op la lb s xs :
  hget (st_heap s) la = Some (HArr xs) -> bin_dispatch op la lb s = bin_arr op xs lb s.
Proof. intro Hx. unfold bin_dispatch. rewrite (bindM_ok _ _ _ _ _ (load_hget _ _ _ Hx)). reflexivity. Qed.

Definition not_eq_op (op : binop) : Prop := op <> BEq /\ op <> BNotEq.

Definition short_of (op : binop) (v : hval) : bool :=
  match op, v with
  | BAnd, HBool false => true
  | BOr, HBool true => true
  | _, _ => false
  end.

(* the operator proper, once both operand cells are there: == and != go to [equals]
   without looking at the operand kind *)
Definition bin_tail (op : binop) (la lb : loc) : M loc :=
  match op with
  | BEq => let* d := depth_fuel in let* r := equals d la lb in alloc (HBool r)
  | BNotEq => let* d := depth_fuel in let* r := equals d la lb in alloc (HBool (negb r))
  | _ => bin_dispatch op la lb
  end.

(* binary expression: yield, left operand, short-circuit test on the left
   value, right operand, then the operator *)
Lemma eval_bin_order : forall n P e op t a b,
  eval_expr (S n) P e (EBin op t a b) =
    (let* _ := tick in
     let* la := eval_expr n P e a in
     let* va0 := load la in
     let* lb := if short_of op va0 then ret la else eval_expr n P e b in
     bin_tail op la lb).
Proof. reflexivity. Qed.

(* the node after its own yield (s to s1) and its left operand (s1 to s2, fuel n) *)
Lemma ebin_after_left n P e op t l r s s1 la s2 v0 :
  tick s = (Ok tt, s1) -> eval_expr n P e l s1 = (Ok la, s2) -> hget (st_heap s2) la = Some v0 ->
  eval_expr (S n) P e (EBin op t l r) s =
  (let* lb := if short_of op v0 then ret la else eval_expr n P e r in bin_tail op la lb) s2.
Proof.
  intros Ht Hl Hv.
  rewrite eval_bin_order, (bindM_ok _ _ _ _ _ Ht), (bindM_ok _ _ _ _ _ Hl), (bindM_ok _ _ _ _ _ (load_hget _ _ _ Hv)).
  reflexivity.
Qed.

(* the left value decides (and: false, or: true): the right operand is never evaluated;
   the result is a new cell holding that value, allocated in the state reached by the
   left operand *)
Lemma ebin_short n P e op t l r s s1 la s2 b :
  tick s = (Ok tt, s1) ->
  eval_expr n P e l s1 = (Ok la, s2) ->
  hget (st_heap s2) la = Some (HBool b) -> short_of op (HBool b) = true ->
  eval_expr (S n) P e (EBin op t l r) s = alloc (HBool b) s2.
Proof.
  intros Ht Hl Hv Hs.
  rewrite (ebin_after_left _ _ _ _ t _ r _ _ _ _ _ Ht Hl Hv), Hs, bindM_ret_l.
  destruct op; try discriminate Hs; destruct b; try discriminate Hs;
    cbn [bin_tail]; rewrite (bin_dispatch_bool _ _ _ _ _ _ Hv Hv); reflexivity.
Qed.

Lemma ebin_short_state n P e op t l r s s1 la s2 b :
  tick s = (Ok tt, s1) ->
  eval_expr n P e l s1 = (Ok la, s2) ->
  hget (st_heap s2) la = Some (HBool b) -> short_of op (HBool b) = true ->
  eval_expr (S n) P e (EBin op t l r) s =
    (Ok (hnext (st_heap s2)), upd_heap (snd (halloc (st_heap s2) (HBool b))) s2)
  /\ st_trace (snd (eval_expr (S n) P e (EBin op t l r) s)) = st_trace s2.
Proof.
  intros Ht Hl Hv Hs.
  rewrite (ebin_short _ _ _ _ t _ r _ _ _ _ _ Ht Hl Hv Hs). split; reflexivity.
Qed.

(* the left value does not decide (op not == / !=): the right operand IS evaluated next,
   from the state the left operand reached; then the operator is applied *)
Lemma ebin_no_short n P e op t l r s s1 la s2 v0 :
  not_eq_op op ->
  tick s = (Ok tt, s1) ->
  eval_expr n P e l s1 = (Ok la, s2) -> hget (st_heap s2) la = Some v0 -> short_of op v0 = false ->
  eval_expr (S n) P e (EBin op t l r) s = (let* lb := eval_expr n P e r in bin_dispatch op la lb) s2.
Proof.
  intros [N1 N2] Ht Hl Hx Hs.
  rewrite (ebin_after_left _ _ _ _ t _ r _ _ _ _ _ Ht Hl Hx), Hs. destruct op; try congruence; reflexivity.
Qed.

Lemma ebin_general n P e op t l r s s1 la s2 v0 lb s3 :
  not_eq_op op ->
  tick s = (Ok tt, s1) ->
  eval_expr n P e l s1 = (Ok la, s2) -> hget (st_heap s2) la = Some v0 -> short_of op v0 = false ->
  eval_expr n P e r s2 = (Ok lb, s3) ->
  eval_expr (S n) P e (EBin op t l r) s = bin_dispatch op la lb s3.
Proof.
  intros N Ht Hl Hx Hs Hr.
  rewrite (ebin_no_short _ _ _ _ _ _ _ _ _ _ _ _ N Ht Hl Hx Hs), (bindM_ok _ _ _ _ _ Hr). reflexivity.
Qed.

Lemma not_eq_and : not_eq_op BAnd. Proof. split; discriminate. Qed.
Lemma not_eq_or : not_eq_op BOr. Proof. split; discriminate. Qed.

(* both operands bool: x is the content of the left cell AFTER the right operand ran (the
   same true/false unless the right operand updated that very cell in place), y the right value *)
Lemma ebin_bool n P e op t l r s s1 la s2 x0 lb s3 x y :
  not_eq_op op ->
  tick s = (Ok tt, s1) ->
  eval_expr n P e l s1 = (Ok la, s2) -> hget (st_heap s2) la = Some (HBool x0) ->
  short_of op (HBool x0) = false ->
  eval_expr n P e r s2 = (Ok lb, s3) ->
  hget (st_heap s3) la = Some (HBool x) -> hget (st_heap s3) lb = Some (HBool y) ->
  eval_expr (S n) P e (EBin op t l r) s = bin_bool op x y s3.
Proof.
  intros N Ht Hl Hx0 Hs Hr Hx Hy.
  rewrite (ebin_general _ _ _ _ _ _ _ _ _ _ _ _ _ _ N Ht Hl Hx0 Hs Hr). apply bin_dispatch_bool; assumption.
Qed.

(* an error (or stop) in the left operand is the result: nothing else runs *)
Lemma ebin_left_error n P e op t l r s s1 er s2 :
  tick s = (Ok tt, s1) ->
  eval_expr n P e l s1 = (Er er, s2) ->
  eval_expr (S n) P e (EBin op t l r) s = (Er er, s2).
Proof.
  intros Ht Hl. cbn [eval_expr].
  rewrite (bindM_ok _ _ _ _ _ Ht), (bindM_er _ _ _ _ _ Hl). reflexivity.
Qed.

(* index expression: the indexed value before the index *)
Lemma eval_index_order : forall n P e t a i,
  eval_expr (S n) P e (EIndex t a i) =
    (let* _ := tick in
     let* la := eval_expr n P e a in
     let* li := eval_expr n P e i in
     let* va := load la in
     match va with
     | HArr els =>
         let* fi := load_num li in
         let* k := lift (normalize_index fi (List.length els) false) in
         match nth_error els k with Some l => ret l | None => crash "index out of range" end
     | HStr s =>
         let* fi := load_num li in
         let* k := lift (normalize_index fi (List.length s) false) in
         match nth_error s k with Some c => alloc (HStr [c]) | None => crash "index out of range" end
     | HMap om =>
         let* vi := load li in
         match vi with
         | HStr k => match oget k om with Some l => ret l | None => fail (EPanic PkMapKey) end
         | _ => internal "expected string for map index"
         end
     | _ => internal "expected array, string or map with index"
     end).
Proof. reflexivity. Qed.

(* slice expression: sliced value, low bound, high bound *)
Lemma eval_slice_order : forall n P e t a lo hi,
  eval_expr (S n) P e (ESlice t a lo hi) =
    (let* _ := tick in
     let* la := eval_expr n P e a in
     let* llo := match lo with Some y => let* l := eval_expr n P e y in ret (Some l) | None => ret None end in
     let* lhi := match hi with Some y => let* l := eval_expr n P e y in ret (Some l) | None => ret None end in
     let* va := load la in
     match va with
     | HArr els =>
         let* (s0, e0) := slice_bounds llo lhi (List.length els) in
         let* d := depth_fuel in
         let* els' := mapM (copy_or_ref d) (firstn (e0 - s0) (skipn s0 els)) in
         alloc (HArr els')
     | HStr s =>
         let* (s0, e0) := slice_bounds llo lhi (List.length s) in
         alloc (HStr (firstn (e0 - s0) (skipn s0 s)))
     | _ => internal "expected string or array before ["
     end).
Proof. reflexivity. Qed.

(* array literal: its elements through evalExprList *)
Lemma eval_arr_order : forall n P e t es,
  eval_expr (S n) P e (EArr t es) =
    (let* _ := tick in let* els := eval_exprs n P e es in alloc (HArr els)).
Proof. reflexivity. Qed.

(* map literal: values in key-list order; as a standalone recursive function *)
Section MapPairs.
  Variables (n : nat) (P : program) (e : env) (d : nat).
  Fixpoint eval_map_pairs (ps : list (str * expr)) : M (list (str * loc)) :=
    match ps with
    | [] => ret []
    | (k, a) :: t =>
        let* l := eval_expr n P e a in
        let* c := copy_or_ref d l in
        let* r := eval_map_pairs t in
        ret ((k, c) :: r)
    end.
End MapPairs.

Lemma eval_map_order : forall n P e t ps,
  eval_expr (S n) P e (EMap t ps) =
    (let* _ := tick in
     let* d := depth_fuel in
     let* vals := eval_map_pairs n P e d ps in
     alloc (HMap {| pairs := vals; order := map fst ps |})).
Proof. reflexivity. Qed.

(* assignment: the right-hand side (then copyOrRef) before the sub-expressions
   of the target; within an indexed target the container before the index *)
Lemma exec_assign_order : forall n P e target x,
  exec_stmt (S n) P e (SAssign target x) =
    (let* _ := tick in
     let* v0 := eval_expr n P e x in
     let* d := depth_fuel in
     let* v := copy_or_ref d v0 in
     match target with
     | EVar name _ => let* e' := update_var name v e in ret (SigNone, e')
     | EIndex _ a i =>
         let* la := eval_expr n P e a in
         let* li := eval_expr n P e i in
         let* va := load la in
         match va with
         | HArr els =>
             let* fi := load_num li in
             let* k := lift (normalize_index fi (List.length els) false) in
             let* _ := store la (HArr (list_set els k v)) in
             ret (SigNone, e)
         | HMap _ =>
             let* k := load_str li in
             let* _ := map_set_key la k v in
             ret (SigNone, e)
         | _ => internal "expected array or map assignment target with index"
         end
     | EDot _ a key =>
         let* la := eval_expr n P e a in
         let* va := load la in
         match va with
         | HMap _ => let* _ := map_set_key la key v in ret (SigNone, e)
         | _ => internal "expected map before ."
         end
     | _ => internal "bad assignment target"
     end).
Proof. reflexivity. Qed.

(* declaration: value, copyOrRef, binding *)
Lemma exec_decl_order : forall n P e name t x,
  exec_stmt (S n) P e (SDecl name t x) =
    (let* _ := tick in
     let* v := eval_expr n P e x in
     let* d := depth_fuel in
     let* c := copy_or_ref d v in
     let* e' := set_var name c e in
     ret (SigNone, e')).
Proof. reflexivity. Qed.

(* call: all arguments (left to right, through evalExprList) before the callee *)
Lemma eval_call_order : forall n P e name args,
  eval_call (S n) P e name args =
    (let* vals := eval_exprs n P e args in
     if str_eqb name n_test then let* _ := run_test vals in ret None
     else
     match builtin name e vals with
     | Some m => m
     | None =>
         if existsb (str_eqb name) unmodelled_builtins then fail (EUnsupported name)
         else
         match find_func name (p_funcs P) with
         | None => crash "nil FuncDef"
         | Some fd =>
             let* (fr, rest) := bind_params (fn_params fd) vals [] in
             let* fr' := match fn_variadic fd with
                         | Some (vn, _) => let* a := alloc (HArr vals) in
                                           ret (if str_eqb vn underscore then fr else frame_set vn a fr)
                         | None => ret fr
                         end in
             let* (sig, _) := exec_block n P [fr'] (fn_body fd) in
             match sig with
             | SigReturn v => ret v
             | _ => let* l := alloc HNone in ret (Some l)
             end
         end
     end).
Proof. reflexivity. Qed.

Lemma eval_callexpr_order : forall n P e name t args,
  eval_expr (S n) P e (ECall name t args) =
    (let* _ := tick in
     let* r := eval_call n P e name args in
     match r with Some l => ret l | None => alloc HNone end).
Proof. reflexivity. Qed.

(* statements run in order; a control signal ends the list *)
Lemma exec_stmts_cons : forall n P e s t,
  exec_stmts (S n) P e (s :: t) =
    (let* (sig, e1) := exec_stmt n P e s in
     if is_ctl sig then ret (sig, e1) else exec_stmts n P e1 t).
Proof. exact SemBasics.exec_stmts_cons. Qed.

(* eval_exprs on a concatenation, with the exact fuel:
   eval_exprs spends one unit of fuel per list element (the element at
   position i is evaluated with fuel  n - 1 - i), and one more unit for the
   final [] — so a list xs can be evaluated completely only with fuel
   > length xs, and the part ys of xs ++ ys starts with fuel n - length xs. *)
Lemma eval_exprs_app : forall P e xs ys k s,
  eval_exprs (List.length xs + S k) P e (xs ++ ys) s =
    (let* vs := eval_exprs (List.length xs + S k) P e xs in
     let* ws := eval_exprs (S k) P e ys in
     ret (vs ++ ws)) s.
Proof.
  intros P e xs; induction xs as [|x xs IH]; intros ys k s.
  - change (List.length (@nil expr) + S k)%nat with (S k). change ([] ++ ys) with ys.
    rewrite eval_exprs_nil. unfold bindM at 1, ret at 1. cbn [app].
    symmetry. apply bindM_ret_r.
  - change (List.length (x :: xs) + S k)%nat with (S (List.length xs + S k)).
    change ((x :: xs) ++ ys) with (x :: (xs ++ ys)).
    rewrite !eval_exprs_cons.
    rewrite bindM_assoc. apply bindM_ext; intros v s1.
    rewrite bindM_assoc. apply bindM_ext; intros d s2.
    rewrite bindM_assoc. apply bindM_ext; intros c s3.
    rewrite bindM_assoc, (bindM_cong _ _ _ _ (IH ys k s3)), bindM_assoc. apply bindM_ext; intros vs s4.
    rewrite bindM_assoc. reflexivity.
Qed.

Corollary eval_exprs_app_ok : forall P e xs ys k s vs s1 ws s2,
  eval_exprs (List.length xs + S k) P e xs s = (Ok vs, s1) ->
  eval_exprs (S k) P e ys s1 = (Ok ws, s2) ->
  eval_exprs (List.length xs + S k) P e (xs ++ ys) s = (Ok (vs ++ ws), s2).
Proof.
  intros. rewrite eval_exprs_app. rewrite (bindM_ok _ _ _ _ _ H), (bindM_ok _ _ _ _ _ H0). reflexivity.
Qed.

(* an error among the first part stops everything: ys is never evaluated *)
Corollary eval_exprs_app_err : forall P e xs ys k s er s1,
  eval_exprs (List.length xs + S k) P e xs s = (Er er, s1) ->
  eval_exprs (List.length xs + S k) P e (xs ++ ys) s = (Er er, s1).
Proof. intros. rewrite eval_exprs_app. rewrite (bindM_er _ _ _ _ _ H). reflexivity. Qed.

(* the operator table of docs/spec.md:
    | `+` `-` `*` `/` `%` | num           | num    | arithmetic    |
    | `+`                 | string        | string | concatenation |
    | `+`                 | array         | array  | concatenation |
    | `*`                 | array * num   | array  | repetition    |
    | `and` `or`          | bool          | bool   | logical       |
    | `<` `<=` `>` `>=`   | num           | bool   | comparison    |
    | `<` `<=` `>` `>=`   | string        | bool   | comparison    |
    | `==` `!=`           | all types     | bool   | comparison    |
   The last row is not dispatched on the operand kind: eval_expr's EBin case
   sends BEq / BNotEq to [equals] before looking at the left operand (see
   eval_bin_order, and ebin_eq / ebin_noteq below). *)
Inductive okind := KNum | KStr | KBool | KArr.

Definition op_table : list (okind * binop) :=
  [ (KNum, BPlus); (KNum, BMinus); (KNum, BAsterisk); (KNum, BSlash); (KNum, BPercent);
    (KStr, BPlus);
    (KArr, BPlus);
    (KArr, BAsterisk);
    (KBool, BAnd); (KBool, BOr);
    (KNum, BLt); (KNum, BLtEq); (KNum, BGt); (KNum, BGtEq);
    (KStr, BLt); (KStr, BLtEq); (KStr, BGt); (KStr, BGtEq) ].

Definition okind_eqb (a b : okind) : bool :=
  match a, b with KNum, KNum | KStr, KStr | KBool, KBool | KArr, KArr => true | _, _ => false end.
Definition binop_eqb (a b : binop) : bool :=
  match a, b with
  | BPlus, BPlus | BMinus, BMinus | BSlash, BSlash | BAsterisk, BAsterisk | BPercent, BPercent
  | BOr, BOr | BAnd, BAnd | BEq, BEq | BNotEq, BNotEq | BLt, BLt | BGt, BGt | BLtEq, BLtEq | BGtEq, BGtEq => true
  | _, _ => false
  end.
Definition in_table (k : okind) (op : binop) : bool :=
  existsb (fun p => okind_eqb (fst p) k && binop_eqb (snd p) op) op_table.

Lemma okind_eqb_eq a b : okind_eqb a b = true <-> a = b.
Proof. destruct a, b; split; intro H; (reflexivity || discriminate H). Qed.
Lemma binop_eqb_eq a b : binop_eqb a b = true <-> a = b.
Proof. destruct a, b; split; intro H; (reflexivity || discriminate H). Qed.

Lemma in_table_In k op : in_table k op = true <-> In (k, op) op_table.
Proof.
  unfold in_table. rewrite existsb_exists. split.
  - intros ([k' op'] & Hin & H). apply andb_true_iff in H. destruct H as [H1 H2].
    apply okind_eqb_eq in H1. apply binop_eqb_eq in H2. simpl in *. now subst.
  - intro H. exists (k, op). split; [exact H|]. simpl.
    apply andb_true_iff. split; [now apply okind_eqb_eq | now apply binop_eqb_eq].
Qed.

(* the documented meaning, stated independently of bin_* *)
Definition num_meaning (op : binop) (x y : float) : option hval :=
  match op with
  | BPlus => Some (HNum (x + y)%float)           (* IEEE-754 binary64 addition *)
  | BMinus => Some (HNum (x - y)%float)
  | BAsterisk => Some (HNum (x * y)%float)
  | BSlash => Some (HNum (x / y)%float)
  | BPercent => Some (HNum (fmod x y))           (* Go math.Mod *)
  | BLt => Some (HBool (x <? y)%float)
  | BLtEq => Some (HBool (x <=? y)%float)
  | BGt => Some (HBool (y <? x)%float)
  | BGtEq => Some (HBool (y <=? x)%float)
  | BAnd | BOr | BEq | BNotEq => None
  end.

Definition str_meaning (op : binop) (x y : str) : option hval :=
  match op with
  | BPlus => Some (HStr (x ++ y))
  | BLt => Some (HBool (str_ltb x y))
  | BLtEq => Some (HBool (negb (str_ltb y x)))
  | BGt => Some (HBool (str_ltb y x))
  | BGtEq => Some (HBool (negb (str_ltb x y)))
  | _ => None
  end.

Definition bool_meaning (op : binop) (x y : bool) : option hval :=
  match op with
  | BAnd => Some (HBool (x && y))
  | BOr => Some (HBool (x || y))
  | _ => None
  end.

(* what "returns a new cell holding v" means *)
Definition allocates (v : hval) (s : state) (r : res loc * state) : Prop :=
  r = (Ok (hnext (st_heap s)), upd_heap (snd (halloc (st_heap s) v)) s) /\
  hget (st_heap (snd r)) (hnext (st_heap s)) = Some v /\
  (forall l, l <> hnext (st_heap s) -> hget (st_heap (snd r)) l = hget (st_heap s) l) /\
  st_trace (snd r) = st_trace s.

Lemma alloc_allocates v s : allocates v s (alloc v s).
Proof.
  unfold allocates, alloc, halloc, hget; cbn. repeat split.
  - apply PositiveMap.gss.
  - intros l Hl. apply PositiveMap.gso. exact Hl.
Qed.

Lemma bin_num_table : forall op x y s,
  match num_meaning op x y with
  | Some v => in_table KNum op = true /\ allocates v s (bin_num op x y s)
  | None => in_table KNum op = false /\ exists why, bin_num op x y s = (Er (EInternal why), s)
  end.
Proof.
  intros op x y s; destruct op; cbn [num_meaning bin_num];
    (split; [reflexivity|]); try apply alloc_allocates; eexists; reflexivity.
Qed.

Lemma bin_str_table : forall op x y s,
  match str_meaning op x y with
  | Some v => in_table KStr op = true /\ allocates v s (bin_str op x y s)
  | None => in_table KStr op = false /\ exists why, bin_str op x y s = (Er (EInternal why), s)
  end.
Proof.
  intros op x y s; destruct op; cbn [str_meaning bin_str];
    (split; [reflexivity|]); try apply alloc_allocates; eexists; reflexivity.
Qed.

Lemma bin_bool_table : forall op x y s,
  match bool_meaning op x y with
  | Some v => in_table KBool op = true /\ allocates v s (bin_bool op x y s)
  | None => in_table KBool op = false /\ exists why, bin_bool op x y s = (Er (EInternal why), s)
  end.
Proof.
  intros op x y s; destruct op; cbn [bool_meaning bin_bool];
    (split; [reflexivity|]); try apply alloc_allocates; eexists; reflexivity.
Qed.

(* arrays: + is concatenation of the copyOrRef'd elements of both operands
   (left elements first), * is repetition of deep copies; every other
   operator is an internal error, whatever the right operand is *)
Lemma bin_arr_table_unlisted : forall op xs r s,
  in_table KArr op = false -> exists why, bin_arr op xs r s = (Er (EInternal why), s).
Proof. intros op xs r s H; destruct op; try discriminate H; eexists; reflexivity. Qed.

Lemma bin_arr_concat : forall xs r ys s,
  hget (st_heap s) r = Some (HArr ys) ->
  in_table KArr BPlus = true /\
  bin_arr BPlus xs r s =
    (let* d := depth_fuel in
     let* xs' := mapM (copy_or_ref d) xs in
     let* ys' := mapM (copy_or_ref d) ys in
     alloc (HArr (xs' ++ ys'))) s.
Proof.
  intros. split; [reflexivity|]. unfold bin_arr. rewrite (bindM_ok _ _ _ _ _ (load_hget _ _ _ H)). reflexivity.
Qed.

Lemma bin_arr_repeat xs r f n s :
  hget (st_heap s) r = Some (HNum f) ->
  go_int_exact f = Some n -> 0 <= n -> Z.of_nat (List.length xs) * n <= max_alloc ->
  in_table KArr BAsterisk = true /\
  bin_arr BAsterisk xs r s =
    (let* d := depth_fuel in
     let* parts := mapM (fun _ => mapM (deep_copy d) xs) (repeat tt (Z.to_nat n)) in
     alloc (HArr (List.concat parts))) s.
Proof.
  intros H Hi Hn Hm. split; [reflexivity|]. unfold bin_arr, load_num.
  rewrite bindM_assoc, (bindM_ok _ _ _ _ _ (load_hget _ _ _ H)). unfold bindM at 1, ret at 1.
  rewrite Hi. destruct (n <? 0) eqn:E1; [apply Z.ltb_lt in E1; lia|].
  destruct (max_alloc <? Z.of_nat (List.length xs) * n) eqn:E2; [apply Z.ltb_lt in E2; lia|].
  reflexivity.
Qed.

Lemma bin_arr_repeat_bad xs r f s :
  hget (st_heap s) r = Some (HNum f) ->
  (go_int_exact f = None \/ exists n, go_int_exact f = Some n /\ n < 0) ->
  bin_arr BAsterisk xs r s = (Er (EPanic PkBadRepetition), s).
Proof.
  intros H Hi. unfold bin_arr, load_num.
  rewrite bindM_assoc, (bindM_ok _ _ _ _ _ (load_hget _ _ _ H)). unfold bindM at 1, ret at 1.
  destruct Hi as [Hi | [n [Hi Hn]]]; rewrite Hi; [reflexivity|].
  apply Z.ltb_lt in Hn. rewrite Hn. reflexivity.
Qed.

(* the dispatch in eval_expr: which bin_* function an EBin node reaches.
   The left cell is read twice: when the left operand returns (state s2, for
   the short-circuit test) and again after the right operand (state s3); the
   operator is applied to the value read at s3. *)
Lemma ebin_num n P e op t l r s s1 la s2 x0 lb s3 x y :
  not_eq_op op ->
  tick s = (Ok tt, s1) ->
  eval_expr n P e l s1 = (Ok la, s2) -> hget (st_heap s2) la = Some (HNum x0) ->
  eval_expr n P e r s2 = (Ok lb, s3) ->
  hget (st_heap s3) la = Some (HNum x) -> hget (st_heap s3) lb = Some (HNum y) ->
  eval_expr (S n) P e (EBin op t l r) s = bin_num op x y s3.
Proof.
  intros N Ht Hl Hx0 Hr Hx Hy.
  rewrite (ebin_general _ _ _ _ _ _ _ _ _ _ _ _ _ _ N Ht Hl Hx0 ltac:(destruct op; reflexivity) Hr).
  apply bin_dispatch_num; assumption.
Qed.

Lemma ebin_str n P e op t l r s s1 la s2 x0 lb s3 x y :
  not_eq_op op ->
  tick s = (Ok tt, s1) ->
  eval_expr n P e l s1 = (Ok la, s2) -> hget (st_heap s2) la = Some (HStr x0) ->
  eval_expr n P e r s2 = (Ok lb, s3) ->
  hget (st_heap s3) la = Some (HStr x) -> hget (st_heap s3) lb = Some (HStr y) ->
  eval_expr (S n) P e (EBin op t l r) s = bin_str op x y s3.
Proof.
  intros N Ht Hl Hx0 Hr Hx Hy.
  rewrite (ebin_general _ _ _ _ _ _ _ _ _ _ _ _ _ _ N Ht Hl Hx0 ltac:(destruct op; reflexivity) Hr).
  apply bin_dispatch_str; assumption.
Qed.

Lemma ebin_arr n P e op t l r s s1 la s2 xs0 lb s3 xs :
  not_eq_op op ->
  tick s = (Ok tt, s1) ->
  eval_expr n P e l s1 = (Ok la, s2) -> hget (st_heap s2) la = Some (HArr xs0) ->
  eval_expr n P e r s2 = (Ok lb, s3) ->
  hget (st_heap s3) la = Some (HArr xs) ->
  eval_expr (S n) P e (EBin op t l r) s = bin_arr op xs lb s3.
Proof.
  intros N Ht Hl Hx0 Hr Hx.
  rewrite (ebin_general _ _ _ _ _ _ _ _ _ _ _ _ _ _ N Ht Hl Hx0 ltac:(destruct op; reflexivity) Hr).
  apply bin_dispatch_arr; assumption.
Qed.

Lemma ebin_eq n P e t l r s s1 la s2 lb s3 :
  tick s = (Ok tt, s1) ->
  eval_expr n P e l s1 = (Ok la, s2) -> (exists v, hget (st_heap s2) la = Some v) ->
  eval_expr n P e r s2 = (Ok lb, s3) ->
  eval_expr (S n) P e (EBin BEq t l r) s =
    (let* b := equals value_depth la lb in alloc (HBool b)) s3 /\
  eval_expr (S n) P e (EBin BNotEq t l r) s =
    (let* b := equals value_depth la lb in alloc (HBool (negb b))) s3.
Proof.
  intros Ht Hl [v Hx] Hr.
  rewrite !(ebin_after_left _ _ _ _ t _ r _ _ _ _ _ Ht Hl Hx). cbn [short_of].
  rewrite !(bindM_ok _ _ _ _ _ Hr). split; reflexivity.
Qed.

(* [equals] never changes the state; it is the following function of the heap. *)
Definition nil_value : err := EHostCrash (s_ "nil value").

Fixpoint all2 (p : loc -> loc -> res bool) (xs ys : list loc) : res bool :=
  match xs, ys with
  | x :: xt, y :: yt =>
      match p x y with Ok true => all2 p xt yt | Ok false => Ok false | Er e => Er e end
  | _, _ => Ok true
  end.

Fixpoint allp (p : loc -> loc -> res bool) (m2 : list (str * loc)) (ps : list (str * loc)) : res bool :=
  match ps with
  | [] => Ok true
  | (k, i) :: t =>
      match plookup k m2 with
      | None => Ok false
      | Some j => match p i j with Ok true => allp p m2 t | Ok false => Ok false | Er e => Er e end
      end
  end.

Definition eqv (p : loc -> loc -> res bool) (va vb : hval) : res bool :=
  match va, vb with
  | HNum x, HNum y => Ok (PrimFloat.eqb x y)
  | HStr x, HStr y => Ok (str_eqb x y)
  | HBool x, HBool y => Ok (Bool.eqb x y)
  | HAny t i, HAny u j => if ty_eqb (ty_shape t) (ty_shape u) then p i j else Ok false
  | HArr xs, HArr ys =>
      if negb (Nat.eqb (List.length xs) (List.length ys)) then Ok false else all2 p xs ys
  | HMap m1, HMap m2 =>
      if negb (Nat.eqb (List.length (pairs m1)) (List.length (pairs m2))) then Ok false
      else allp p (pairs m2) (pairs m1)
  | HNone, _ => Ok false
  | _, _ => Er (EHostCrash (s_ "Equals called with mismatched value kinds"))
  end.

Fixpoint eqh (h : heap) (fuel : nat) (a b : loc) : res bool :=
  match fuel with
  | O => Er (EHostCrash (s_ "stack overflow in Equals"))
  | S f =>
      match hget h a with
      | None => Er nil_value
      | Some va =>
          match hget h b with
          | None => Er nil_value
          | Some vb => eqv (eqh h f) va vb
          end
      end
  end.

Lemma equals_eqh : forall fuel a b s, equals fuel a b s = (eqh (st_heap s) fuel a b, s).
Proof.
  induction fuel as [|f IH]; intros a b s; [reflexivity|].
  cbn [equals eqh]. unfold bindM at 1, load at 1.
  destruct (hget (st_heap s) a) as [va|]; [|reflexivity].
  unfold bindM at 1, load at 1.
  destruct (hget (st_heap s) b) as [vb|]; [|reflexivity].
  destruct va, vb; try reflexivity; cbn [eqv].
  - destruct (ty_eqb (ty_shape t) (ty_shape t0)); [apply IH | reflexivity].
  - destruct (negb (Nat.eqb (List.length els) (List.length els0))); [reflexivity|].
    generalize els0. induction els as [|x xt IHx]; intros [|y yt]; try reflexivity.
    cbn [all2]. unfold bindM. rewrite IH. destruct (eqh (st_heap s) f x y) as [[|]|]; try reflexivity.
    apply IHx.
  - destruct (negb (Nat.eqb (List.length (pairs m)) (List.length (pairs m0)))); [reflexivity|].
    induction (pairs m) as [|[k i] t IHp]; [reflexivity|].
    cbn [allp]. destruct (plookup k (pairs m0)) as [j|]; [|reflexivity].
    unfold bindM. rewrite IH. destruct (eqh (st_heap s) f i j) as [[|]|]; try reflexivity.
    apply IHp.
Qed.

Lemma equals_pure : forall fuel a b s r s', equals fuel a b s = (r, s') -> s' = s.
Proof. intros fuel a b s r s' H. rewrite equals_eqh in H. congruence. Qed.

Lemma all2_true p : forall xs ys, List.length xs = List.length ys ->
  (all2 p xs ys = Ok true <-> Forall2 (fun x y => p x y = Ok true) xs ys).
Proof.
  induction xs as [|x xt IH]; intros [|y yt] L; try discriminate L; cbn [all2].
  - split; [constructor | reflexivity].
  - injection L as L. specialize (IH yt L). split.
    + destruct (p x y) as [[|]|] eqn:E; try discriminate. intro H. constructor; [exact E | apply IH; exact H].
    + intro H; inversion H; subst. rewrite H3. apply IH; assumption.
Qed.

Lemma allp_true p m2 : forall ps,
  allp p m2 ps = Ok true <->
  (forall k i, In (k, i) ps -> exists j, plookup k m2 = Some j /\ p i j = Ok true).
Proof.
  induction ps as [|[k i] t IH]; cbn [allp].
  - split; [intros _ k i [] | reflexivity].
  - split.
    + destruct (plookup k m2) as [j|] eqn:E; [|discriminate].
      destruct (p i j) as [[|]|] eqn:F; try discriminate. intros H k' i' [Hin|Hin].
      * inversion Hin; subst. exists j; split; assumption.
      * apply IH; assumption.
    + intro H. destruct (H k i (or_introl eq_refl)) as [j [E F]]. rewrite E, F.
      apply IH. intros k' i' Hin. apply H. right; exact Hin.
Qed.

Lemma plookup_In {V} k (m : list (str * V)) v : plookup k m = Some v -> In (k, v) m.
Proof.
  induction m as [|[k' v'] t IH]; [discriminate|]. cbn [plookup].
  destruct (str_eqb k' k) eqn:E.
  - intro H; inversion H; subst. apply str_eqb_eq in E; subst. left; reflexivity.
  - intro H; right; apply IH; exact H.
Qed.

Lemma plookup_nodup {V} k (m : list (str * V)) v :
  NoDup (map fst m) -> In (k, v) m -> plookup k m = Some v.
Proof.
  induction m as [|[k' v'] t IH]; [intros _ []|]. cbn [map fst plookup]. intros N [H|H].
  - inversion H; subst. rewrite str_eqb_refl. reflexivity.
  - inversion N; subst. destruct (str_eqb k' k) eqn:E.
    + apply str_eqb_eq in E; subst. exfalso. apply H2. apply (in_map fst) in H. exact H.
    + apply IH; assumption.
Qed.

(* [good h fuel l]: the value tree under l is well-founded within the fuel
   (hence acyclic and without dangling or HNone cells), contains no NaN, and
   every map has a duplicate-free key list in Pairs. *)
Fixpoint good (h : heap) (fuel : nat) (l : loc) : Prop :=
  match fuel with
  | O => False
  | S f =>
      match hget h l with
      | Some (HNum x) => PrimFloat.eqb x x = true
      | Some (HStr _) | Some (HBool _) => True
      | Some (HAny _ i) => good h f i
      | Some (HArr els) => Forall (good h f) els
      | Some (HMap m) => NoDup (map fst (pairs m)) /\ Forall (fun kv => good h f (snd kv)) (pairs m)
      | Some HNone | None => False
      end
  end.

Lemma eqh_refl : forall h fuel l, good h fuel l -> eqh h fuel l l = Ok true.
Proof.
  intros h; induction fuel as [|f IH]; intros l G; [destruct G|].
  cbn [good eqh] in *. destruct (hget h l) as [[x|x|x|t i|els|m|]|]; try contradiction; cbn [eqv].
  - rewrite G; reflexivity.
  - rewrite str_eqb_refl; reflexivity.
  - destruct x; reflexivity.
  - rewrite ty_eqb_refl. apply IH; exact G.
  - rewrite Nat.eqb_refl. cbn [negb]. apply all2_true; [reflexivity|].
    induction G; constructor; [apply IH; assumption | assumption].
  - rewrite Nat.eqb_refl. cbn [negb]. destruct G as [N G]. apply allp_true.
    intros k i Hin. exists i. split; [apply plookup_nodup; assumption|].
    apply IH. rewrite Forall_forall in G. apply (G (k, i)); exact Hin.
Qed.

Theorem equals_refl : forall fuel l s,
  good (st_heap s) fuel l -> equals fuel l l s = (Ok true, s).
Proof. intros. rewrite equals_eqh, eqh_refl; [reflexivity | assumption]. Qed.

(* NaN is the reason for the side condition: NaN == NaN is false *)
Lemma equals_refl_needs_nanfree :
  exists s l, hget (st_heap s) l = Some (HNum nan) /\ equals 1 l l s = (Ok false, s).
Proof.
  exists (snd (alloc (HNum nan) (init_state None [] false false))), 4%positive.
  split; vm_compute; reflexivity.
Qed.

(* IEEE equality of primitive floats is symmetric (through the standard
   library's specification of PrimFloat.eqb: eqb_spec of Coq.Floats) *)
Lemma feqb_sym : forall x y, PrimFloat.eqb x y = PrimFloat.eqb y x.
Proof.
  intros x y. rewrite !FloatAxioms.eqb_spec. unfold SpecFloat.SFeqb.
  rewrite (SFcompare_antisym (Prim2SF x) (Prim2SF y)).
  destruct (SpecFloat.SFcompare (Prim2SF x) (Prim2SF y)) as [[]|]; reflexivity.
Qed.

Lemma bool_eqb_sym a b : Bool.eqb a b = Bool.eqb b a.
Proof. destruct a, b; reflexivity. Qed.

(* every map cell of the heap has a duplicate-free key list (Go: Pairs is a hash map) *)
Definition maps_nodup (h : heap) : Prop :=
  forall l m, hget h l = Some (HMap m) -> NoDup (map fst (pairs m)).

Lemma Forall2_flip_impl {A B} (R : A -> B -> Prop) (Q : B -> A -> Prop) xs ys :
  (forall x y, R x y -> Q y x) -> Forall2 R xs ys -> Forall2 Q ys xs.
Proof. intro HI; induction 1; constructor; auto. Qed.

Lemma eqh_sym_true : forall h, maps_nodup h ->
  forall fuel a b, eqh h fuel a b = Ok true -> eqh h fuel b a = Ok true.
Proof.
  intros h ND; induction fuel as [|f IH]; intros a b H; [discriminate H|].
  cbn [eqh] in *.
  destruct (hget h a) as [va|] eqn:Ea; [|discriminate].
  destruct (hget h b) as [vb|] eqn:Eb; [|discriminate].
  destruct va, vb; cbn [eqv] in *; try discriminate.
  - rewrite feqb_sym; exact H.
  - rewrite str_eqb_sym; exact H.
  - rewrite bool_eqb_sym; exact H.
  - rewrite ty_eqb_sym. destruct (ty_eqb (ty_shape t) (ty_shape t0)); [apply IH; exact H | discriminate].
  - rewrite Nat.eqb_sym.
    destruct (Nat.eqb (List.length els) (List.length els0)) eqn:L; cbn [negb] in *; [|discriminate].
    apply Nat.eqb_eq in L. apply all2_true; [symmetry; exact L|].
    apply (all2_true _ _ _ L) in H.
    eapply Forall2_flip_impl; [|exact H]. intros x y Hxy. apply IH; exact Hxy.
  - rewrite Nat.eqb_sym.
    destruct (Nat.eqb (List.length (pairs m)) (List.length (pairs m0))) eqn:L; cbn [negb] in *; [|discriminate].
    apply Nat.eqb_eq in L. rewrite allp_true in H. apply allp_true.
    pose proof (ND _ _ Ea) as N1. pose proof (ND _ _ Eb) as N2.
    (* keys of m ⊆ keys of m0, same length, no duplicates => keys of m0 ⊆ keys of m *)
    assert (I1 : incl (map fst (pairs m)) (map fst (pairs m0))).
    { intros k Hk. apply in_map_iff in Hk as [[k' i] [E Hin]]. cbn in E; subst k'.
      destruct (H k i Hin) as [j [Hj _]]. apply plookup_In in Hj. apply (in_map fst) in Hj. exact Hj. }
    assert (I2 : incl (map fst (pairs m0)) (map fst (pairs m))).
    { apply NoDup_length_incl; [exact N1 | rewrite !map_length; rewrite L; apply le_n | exact I1]. }
    intros k j Hin.
    assert (Hk : In k (map fst (pairs m))) by (apply I2; apply (in_map fst) in Hin; exact Hin).
    destruct (plookup k (pairs m)) as [i|] eqn:Ei; [|apply plookup_None_keys in Ei; destruct (Ei Hk)].
    exists i; split; [reflexivity|].
    destruct (H k i (plookup_In _ _ _ Ei)) as [j' [Hj' E]].
    rewrite (plookup_nodup _ _ _ N2 Hin) in Hj'. inversion Hj'; subst j'.
    apply IH; exact E.
Qed.

Theorem equals_sym_true fuel a b s :
  maps_nodup (st_heap s) ->
  equals fuel a b s = (Ok true, s) -> equals fuel b a s = (Ok true, s).
Proof.
  intros ND H. rewrite equals_eqh in *. inversion H as [H1].
  rewrite H1. rewrite (eqh_sym_true _ ND _ _ _ H1). reflexivity.
Qed.

Theorem equals_sym_agree fuel a b s r r' s1 s2 :
  maps_nodup (st_heap s) ->
  equals fuel a b s = (Ok r, s1) -> equals fuel b a s = (Ok r', s2) -> r = r'.
Proof.
  intros ND H1 H2. rewrite equals_eqh in *.
  inversion H1 as [[E1 S1]]; inversion H2 as [[E2 S2]].
  destruct r, r'; try reflexivity.
  - apply (eqh_sym_true _ ND) in E1. congruence.
  - apply (eqh_sym_true _ ND) in E2. congruence.
Qed.

(* unrestricted symmetry is FALSE of the model, in three corners *)
Definition st_of (vs : list hval) : state :=
  fold_left (fun s v => snd (alloc v s)) vs (init_state None [] false false).
(* cells of [st_of vs] are numbered from 4 (1..3 are err, errmsg, pi) *)

(* (1) a none value on the left compares false, on the right it is a host crash *)
Lemma equals_symmetric_refuted_none :
  exists fuel a b s e,
    equals fuel a b s = (Ok false, s) /\ equals fuel b a s = (Er (EHostCrash e), s).
Proof.
  exists 1%nat, 4%positive, 5%positive, (st_of [HNone; HNum 1%float]). eexists.
  split; vm_compute; reflexivity.
Qed.

(* (2) maps with a duplicated key in Pairs (impossible for a Go hash map):
   {a:1 a:2} == {a:1 b:2} is true, the converse is false *)
Lemma equals_symmetric_refuted_dupkeys :
  exists fuel a b s,
    equals fuel a b s = (Ok true, s) /\ equals fuel b a s = (Ok false, s).
Proof.
  exists 2%nat, 6%positive, 7%positive,
    (st_of [HNum 1%float; HNum 1%float;
            HMap {| pairs := [(s_ "a", 4%positive); (s_ "a", 5%positive)]; order := [] |};
            HMap {| pairs := [(s_ "a", 4%positive); (s_ "b", 5%positive)]; order := [] |}]).
  split; vm_compute; reflexivity.
Qed.

(* (3) ill-typed maps (values of different kinds under one key): the verdict
   "different" in one direction can be a host crash in the other, because the
   traversal follows the LEFT map's Pairs *)
Lemma equals_symmetric_refuted_illtyped :
  exists fuel a b s e,
    maps_nodup (st_heap s) /\
    equals fuel a b s = (Ok false, s) /\ equals fuel b a s = (Er (EHostCrash e), s).
Proof.
  exists 2%nat, 8%positive, 9%positive,
    (st_of [HNum 1%float; HStr (s_ "x"); HNum 2%float; HNum 3%float;
            HMap {| pairs := [(s_ "a", 4%positive); (s_ "b", 5%positive)]; order := [] |};
            HMap {| pairs := [(s_ "b", 7%positive); (s_ "a", 6%positive)]; order := [] |}]).
  eexists. split; [|split; vm_compute; reflexivity].
  intros l m H. unfold hget in H. apply PositiveMap.elements_correct in H.
  vm_compute in H.
  repeat (destruct H as [H|H];
          [inversion H; subst; cbn;
           repeat (apply NoDup_cons; [cbn; intuition discriminate|]); apply NoDup_nil|]).
  contradiction.
Qed.

Lemma all2_ext p q xs : forall ys, (forall a b, p a b = q a b) -> all2 p xs ys = all2 q xs ys.
Proof.
  induction xs as [|x xt IH]; intros [|y yt] E; try reflexivity. cbn [all2]. rewrite E.
  destruct (q x y) as [[|]|]; try reflexivity. apply IH; exact E.
Qed.

Lemma allp_ext p q m2 ps : (forall a b, p a b = q a b) -> allp p m2 ps = allp q m2 ps.
Proof.
  intro E. induction ps as [|[k i] t IH]; [reflexivity|]. cbn [allp].
  destruct (plookup k m2) as [j|]; [|reflexivity]. rewrite E.
  destruct (q i j) as [[|]|]; try reflexivity. exact IH.
Qed.

Lemma eqv_ext p q va vb : (forall a b, p a b = q a b) -> eqv p va vb = eqv q va vb.
Proof.
  intro E. destruct va, vb; cbn [eqv]; try reflexivity.
  - rewrite E; reflexivity.
  - rewrite (all2_ext p q _ _ E); reflexivity.
  - rewrite (allp_ext p q _ _ E); reflexivity.
Qed.

(* (a) the [order] field (the Order slice of mapVal) is never consulted: two
   heaps that differ only in the order fields of their map cells give the same
   result — verdict or error — for every pair of cells *)
Definition strip_order (v : hval) : hval :=
  match v with HMap m => HMap {| pairs := pairs m; order := [] |} | _ => v end.

Definition same_upto_order (h h' : heap) : Prop :=
  forall l, option_map strip_order (hget h l) = option_map strip_order (hget h' l).

Lemma eqv_strip p va vb : eqv p va vb = eqv p (strip_order va) (strip_order vb).
Proof. destruct va, vb; reflexivity. Qed.

Lemma eqh_order_insensitive : forall h h', same_upto_order h h' ->
  forall fuel a b, eqh h fuel a b = eqh h' fuel a b.
Proof.
  intros h h' R; induction fuel as [|f IH]; intros a b; [reflexivity|]. cbn [eqh].
  pose proof (R a) as Ra. pose proof (R b) as Rb.
  destruct (hget h a) as [va|], (hget h' a) as [va'|]; try discriminate Ra; [|reflexivity].
  destruct (hget h b) as [vb|], (hget h' b) as [vb'|]; try discriminate Rb; [|reflexivity].
  cbn in Ra, Rb. inversion Ra as [Ea]; inversion Rb as [Eb].
  rewrite (eqv_strip _ va vb), (eqv_strip _ va' vb'), Ea, Eb. apply eqv_ext. exact IH.
Qed.

Theorem equals_order_insensitive : forall fuel a b s s',
  same_upto_order (st_heap s) (st_heap s') ->
  fst (equals fuel a b s) = fst (equals fuel a b s').
Proof. intros. rewrite !equals_eqh. cbn. apply eqh_order_insensitive; assumption. Qed.

(* (b) the position of the entries in Pairs (the model's association list for
   Go's hash map) does not matter either: if the map cells of two heaps hold
   permutations of the same duplicate-free entries, "equal" in one heap is
   "equal" in the other, and verdicts never disagree. *)
Inductive perm_val : hval -> hval -> Prop :=
| pv_map m m' : Permutation (pairs m) (pairs m') -> NoDup (map fst (pairs m)) -> perm_val (HMap m) (HMap m')
| pv_same v : perm_val v v.

Definition perm_heap (h h' : heap) : Prop :=
  forall l, match hget h l, hget h' l with
            | Some v, Some v' => perm_val v v'
            | None, None => True
            | _, _ => False
            end.

Lemma plookup_perm {V} k (m m' : list (str * V)) :
  Permutation m m' -> NoDup (map fst m) -> plookup k m = plookup k m'.
Proof.
  intros Pm N.
  assert (N' : NoDup (map fst m')) by (eapply Permutation_NoDup; [apply Permutation_map; exact Pm | exact N]).
  destruct (plookup k m) as [v|] eqn:E.
  - symmetry. apply plookup_nodup; [exact N'|]. eapply Permutation_in; [exact Pm|]. apply plookup_In; exact E.
  - symmetry. apply plookup_None_keys. apply plookup_None_keys in E. intro H. apply E.
    eapply Permutation_in; [apply Permutation_sym; apply Permutation_map; exact Pm | exact H].
Qed.

Lemma perm_val_sym v v' : perm_val v v' -> perm_val v' v.
Proof.
  destruct 1 as [m m' Pm N|v]; [|constructor 2]. constructor.
  - apply Permutation_sym; exact Pm.
  - eapply Permutation_NoDup; [apply Permutation_map; exact Pm | exact N].
Qed.

Lemma perm_heap_sym h h' : perm_heap h h' -> perm_heap h' h.
Proof.
  intros R l. specialize (R l). destruct (hget h l), (hget h' l); try contradiction; auto.
  apply perm_val_sym; exact R.
Qed.

Lemma eqv_perm_true p q va va' vb vb' :
  (forall a b, p a b = Ok true -> q a b = Ok true) ->
  perm_val va va' -> perm_val vb vb' ->
  eqv p va vb = Ok true -> eqv q va' vb' = Ok true.
Proof.
  intros PQ Ra Rb H.
  assert (G : forall m1 m1' m2 m2',
             Permutation (pairs m1) (pairs m1') ->
             (forall k, plookup k (pairs m2) = plookup k (pairs m2')) ->
             List.length (pairs m2) = List.length (pairs m2') ->
             eqv p (HMap m1) (HMap m2) = Ok true -> eqv q (HMap m1') (HMap m2') = Ok true).
  { intros m1 m1' m2 m2' P1 L2 Len H0. cbn [eqv] in *.
    rewrite <- (Permutation_length P1), <- Len.
    destruct (negb (Nat.eqb (List.length (pairs m1)) (List.length (pairs m2)))); [discriminate|].
    rewrite allp_true in H0. apply allp_true. intros k i Hin.
    destruct (H0 k i) as [j [Hj E]]; [eapply Permutation_in; [apply Permutation_sym; exact P1 | exact Hin]|].
    exists j. rewrite <- L2. split; [exact Hj | apply PQ; exact E]. }
  assert (Base : forall va vb, eqv p va vb = Ok true -> eqv q va vb = Ok true).
  { intros [x|x|x|t i|xs|m1|] [y|y|y|u j|ys|m2|] H0; cbn [eqv] in *; try discriminate; try exact H0.
    - destruct (ty_eqb (ty_shape t) (ty_shape u)); [apply PQ; exact H0 | discriminate].
    - destruct (Nat.eqb (List.length xs) (List.length ys)) eqn:L; cbn [negb] in *; [|discriminate].
      apply Nat.eqb_eq in L. apply (all2_true _ _ _ L) in H0. apply (all2_true _ _ _ L).
      clear L. induction H0; constructor; auto.
    - change (eqv q (HMap m1) (HMap m2) = Ok true). apply (G m1 m1 m2 m2); [apply Permutation_refl | reflexivity | reflexivity | exact H0]. }
  destruct Ra as [m1 m1' P1 N1|va]; destruct Rb as [m2 m2' P2 N2|vb].
  - apply (G m1 m1' m2 m2'); [exact P1 | intro k; apply plookup_perm; assumption | apply Permutation_length; exact P2 | exact H].
  - destruct vb as [y|y|y|u j|ys|m2|]; try discriminate H.
    apply (G m1 m1' m2 m2); [exact P1 | reflexivity | reflexivity | exact H].
  - destruct va as [x|x|x|t i|xs|m1|]; try discriminate H.
    apply (G m1 m1 m2 m2'); [apply Permutation_refl | intro k; apply plookup_perm; assumption | apply Permutation_length; exact P2 | exact H].
  - apply Base; exact H.
Qed.

Lemma eqh_perm_true : forall h h', perm_heap h h' ->
  forall fuel a b, eqh h fuel a b = Ok true -> eqh h' fuel a b = Ok true.
Proof.
  intros h h' R; induction fuel as [|f IH]; intros a b H; [discriminate H|]. cbn [eqh] in *.
  pose proof (R a) as Ra. pose proof (R b) as Rb.
  destruct (hget h a) as [va|]; [|discriminate H]. destruct (hget h' a) as [va'|]; [|contradiction].
  destruct (hget h b) as [vb|]; [|discriminate H]. destruct (hget h' b) as [vb'|]; [|contradiction].
  eapply eqv_perm_true; [exact IH | exact Ra | exact Rb | exact H].
Qed.

Theorem equals_pairs_permutation fuel a b s s' :
  perm_heap (st_heap s) (st_heap s') ->
  (fst (equals fuel a b s) = Ok true <-> fst (equals fuel a b s') = Ok true) /\
  (forall r r', fst (equals fuel a b s) = Ok r -> fst (equals fuel a b s') = Ok r' -> r = r').
Proof.
  intros R. rewrite !equals_eqh. cbn [fst].
  assert (T : eqh (st_heap s) fuel a b = Ok true <-> eqh (st_heap s') fuel a b = Ok true).
  { split; apply eqh_perm_true; [exact R | apply perm_heap_sym; exact R]. }
  split; [exact T|]. intros r r' H1 H2. destruct r, r'; try reflexivity.
  - apply T in H1. congruence.
  - apply T in H2. congruence.
Qed.

(* Generic form: any preorder on states that all the elementary state updates
   respect is respected by every computation of the evaluator. *)
Section Resp.
  Variable I : state -> state -> Prop.
  Hypothesis I_refl : forall s, I s s.
  Hypothesis I_trans : forall a b c, I a b -> I b c -> I a c.
  Hypothesis I_heap : forall h s, I s (upd_heap h s).
  Hypothesis I_globals : forall g s, I s (upd_globals g s).
  (* the one update of the yield counter / stop flag that [tick] performs *)
  Hypothesis I_yield : forall s, st_stopped s = false ->
    I s (upd_yield (S (st_yields s))
                   (match st_stop_at s with Some k => Nat.eqb k (st_yields s) | None => false end) s).
  Hypothesis I_input : forall i s, I s (upd_input i s).
  Hypothesis I_tests : forall t f s, I s (upd_tests t f s).
  Hypothesis I_emit : forall ev s, I s (upd_trace (ev :: st_trace s) s).

  Definition resp {A} (m : M A) : Prop := forall s r s', m s = (r, s') -> I s s'.

  Lemma resp_bind {A B} (m : M A) (f : A -> M B) :
    resp m -> (forall a, resp (f a)) -> resp (bindM m f).
  Proof.
    intros Hm Hf s r s' H. unfold bindM in H. destruct (m s) as [[a|er] s1] eqn:E.
    - eapply I_trans; [eapply Hm; exact E | eapply Hf; exact H].
    - inversion H; subst. eapply Hm; exact E.
  Qed.

  Lemma resp_tick : resp tick.
  Proof.
    intros s r s' H. unfold tick in H. destruct (st_stopped s) eqn:S; [inversion H; apply I_refl|].
    cbv zeta in H. destruct (_ && _); inversion H; subst; apply I_yield; exact S.
  Qed.

  (* a computation that factors through the heap (SemPure: every pure built-in) *)
  Lemma resp_heap_only {A} (m : M A) : heap_only m -> resp m.
  Proof.
    intros HO s r s' H. destruct (heap_only_run m s r s' HO H) as (E & _ & _). rewrite E. apply I_heap.
  Qed.

  Lemma resp_read_line : resp read_line.
  Proof.
    intros s r s' H. unfold read_line in H.
    destruct (st_input s) as [|x t]; inversion H; subst; (eapply I_trans; [apply (I_emit EvRead)|]).
    - apply I_refl.
    - apply I_input.
  Qed.

  (* the accesses that are a single state update *)
  Ltac raw :=
    let s := fresh "s" in let r := fresh "r" in let s' := fresh "s'" in let H := fresh "H" in
    intros s r s' H; cbv zeta in H;
    repeat match type of H with context [match ?x with _ => _ end] => destruct x end;
    inversion H; subst; first [apply I_refl | apply I_heap | apply I_globals | apply I_emit].

  Theorem prim_resp {A} (m : M A) : Prim m -> resp m.
  Proof.
    induction 1.
    - now apply resp_heap_only.
    - unfold store. raw.
    - unfold emitE. raw.
    - unfold lookup. raw.
    - unfold set_var. raw.
    - unfold update_var. raw.
    - apply resp_read_line.
    - now apply resp_bind.
    - intros s r s' E. rewrite <- H in E. eauto.
  Qed.

  Lemma resp_run_test args : resp (run_test args).
  Proof.
    intros s r s' H. rewrite run_test_eq in H. destruct (test_verdict args s) as [x s2] eqn:E.
    eapply I_trans; [exact (prim_resp _ (prim_test_verdict args) _ _ _ E)|].
    destruct x as [[|]|e]; cbn in H; [|destruct (st_failfast s2)|]; inversion H; subst; apply I_tests.
  Qed.

  Theorem primT_resp {A} (m : M A) : PrimT m -> resp m.
  Proof.
    induction 1.
    - now apply prim_resp.
    - apply resp_tick.
    - apply resp_run_test.
    - now apply resp_bind.
    - intros s r s' E. rewrite <- H in E. eauto.
  Qed.

  Lemma eval_resp : forall n,
    (forall P e x, resp (eval_expr n P e x)) /\
    (forall P e l, resp (eval_exprs n P e l)) /\
    (forall P e name args, resp (eval_call n P e name args)) /\
    (forall P e s, resp (exec_stmt n P e s)) /\
    (forall P e l, resp (exec_stmts n P e l)) /\
    (forall P e l, resp (exec_block n P e l)) /\
    (forall P e c b, resp (exec_cond n P e c b)) /\
    (forall P e c b, resp (exec_while n P e c b)) /\
    (forall P e v rg b, resp (exec_for n P e v rg b)).
  Proof.
    intro n. destruct (primT_all n) as (H1 & H2 & H3 & H4 & H5 & H6 & H7 & H8 & H9).
    repeat split; intros; apply primT_resp; auto.
  Qed.
End Resp.

Definition extends (s s' : state) : Prop := exists evs, st_trace s' = evs ++ st_trace s.

Lemma extends_refl s : extends s s.
Proof. exists []; reflexivity. Qed.
Lemma extends_trans a b c : extends a b -> extends b c -> extends a c.
Proof. intros [x Hx] [y Hy]. exists (y ++ x). rewrite Hy, Hx, app_assoc. reflexivity. Qed.

Definition eval_extends := eval_resp extends extends_refl extends_trans
  (fun h s => extends_refl s) (fun g s => extends_refl s) (fun s _ => extends_refl _)
  (fun i s => extends_refl s) (fun t f s => extends_refl s)
  (fun ev s => ex_intro _ [ev] eq_refl).

(* the events emitted between s and s' (newest first, like st_trace) *)
Definition emitted (s s' : state) : list event :=
  firstn (List.length (st_trace s') - List.length (st_trace s)) (st_trace s').

Lemma emitted_spec s s' : extends s s' -> st_trace s' = emitted s s' ++ st_trace s.
Proof.
  intros [evs H]. unfold emitted. rewrite H at 2. rewrite H at 1. f_equal.
  rewrite H, app_length, Nat.add_sub. rewrite firstn_app, Nat.sub_diag, firstn_all. cbn. rewrite app_nil_r. reflexivity.
Qed.

Lemma emitted_concat s s1 s2 :
  extends s s1 -> extends s1 s2 -> emitted s s2 = emitted s1 s2 ++ emitted s s1.
Proof.
  intros E1 E2. pose proof (emitted_spec _ _ E1) as H1. pose proof (emitted_spec _ _ E2) as H2.
  pose proof (emitted_spec _ _ (extends_trans _ _ _ E1 E2)) as H3.
  rewrite H2, H1, app_assoc in H3. apply app_inv_tail in H3. symmetry; exact H3.
Qed.

(* trace_concat: evaluating xs ++ ys is evaluating xs, then ys from the state
   xs left, and the events are those of xs followed (in time) by those of ys
   (fuels as in eval_exprs_app) *)
Theorem trace_concat P e xs ys k s vs s1 ws s2 :
  eval_exprs (List.length xs + S k) P e xs s = (Ok vs, s1) ->
  eval_exprs (S k) P e ys s1 = (Ok ws, s2) ->
  eval_exprs (List.length xs + S k) P e (xs ++ ys) s = (Ok (vs ++ ws), s2) /\
  emitted s s2 = emitted s1 s2 ++ emitted s s1 /\
  rev (emitted s s2) = rev (emitted s s1) ++ rev (emitted s1 s2).
Proof.
  intros H1 H2.
  split; [eapply eval_exprs_app_ok; eassumption|].
  assert (E : emitted s s2 = emitted s1 s2 ++ emitted s s1).
  { apply emitted_concat.
    - eapply (proj1 (proj2 (eval_extends _))); exact H1.
    - eapply (proj1 (proj2 (eval_extends _))); exact H2. }
  split; [exact E | rewrite E, rev_app_distr; reflexivity].
Qed.

(* the same for any two consecutive evaluator runs, e.g. the two operands of
   a binary expression: the left operand's events precede the right operand's *)
Theorem trace_concat_exprs n m P e l r s la s1 rb s2 :
  eval_expr n P e l s = (Ok la, s1) ->
  eval_expr m P e r s1 = (rb, s2) ->
  rev (emitted s s2) = rev (emitted s s1) ++ rev (emitted s1 s2).
Proof.
  intros H1 H2.
  rewrite (emitted_concat s s1 s2), rev_app_distr; [reflexivity| |].
  - eapply (proj1 (eval_extends _)); exact H1.
  - eapply (proj1 (eval_extends _)); exact H2.
Qed.

(* A run that ends in anything but "out of fuel" is reproduced, result and
   state, by every larger fuel. *)
Definition mono {A} (m m' : M A) : Prop :=
  forall s r s', m s = (r, s') -> r <> Er EOutOfFuel -> m' s = (r, s').

Lemma mono_refl {A} (m : M A) : mono m m.
Proof. intros s r s' H _; exact H. Qed.

Lemma mono_oof {A} (m' : M A) : mono (fail EOutOfFuel) m'.
Proof. intros s r s' H N. inversion H; subst. contradiction N; reflexivity. Qed.

Lemma mono_bind {A B} (m m' : M A) (f f' : A -> M B) :
  mono m m' -> (forall a, mono (f a) (f' a)) -> mono (bindM m f) (bindM m' f').
Proof.
  intros Hm Hf s r s' H N. unfold bindM in H. destruct (m s) as [[a|er] s1] eqn:E.
  - rewrite (bindM_ok _ _ _ _ _ (Hm _ _ _ E ltac:(discriminate))). apply Hf; assumption.
  - inversion H; subst.
    assert (N' : @Er A er <> Er EOutOfFuel) by (intro X; apply N; inversion X; reflexivity).
    rewrite (bindM_er _ _ _ _ _ (Hm _ _ _ E N')). reflexivity.
Qed.

(* the two sides are the same term up to the fuel of the recursive calls, which the
   induction hypotheses relate: go by the syntax *)
Ltac mn_step :=
  match goal with
  | |- mono ?x ?x => apply mono_refl
  | |- mono (bindM _ _) (bindM _ _) => apply mono_bind; [|intros]
  | H : context [mono _ _] |- mono _ _ => apply H
  | |- mono ?m _ => match m with match ?x with _ => _ end => is_var x; destruct x end
  | |- mono ?m _ => match m with match ?x with _ => _ end => destruct x end
  end.
Ltac mn := repeat mn_step.

Lemma eval_mono : forall n m, (n <= m)%nat ->
  (forall P e x, mono (eval_expr n P e x) (eval_expr m P e x)) /\
  (forall P e l, mono (eval_exprs n P e l) (eval_exprs m P e l)) /\
  (forall P e name args, mono (eval_call n P e name args) (eval_call m P e name args)) /\
  (forall P e s, mono (exec_stmt n P e s) (exec_stmt m P e s)) /\
  (forall P e l, mono (exec_stmts n P e l) (exec_stmts m P e l)) /\
  (forall P e l, mono (exec_block n P e l) (exec_block m P e l)) /\
  (forall P e c b, mono (exec_cond n P e c b) (exec_cond m P e c b)) /\
  (forall P e c b, mono (exec_while n P e c b) (exec_while m P e c b)) /\
  (forall P e v rg b, mono (exec_for n P e v rg b) (exec_for m P e v rg b)).
Proof.
  induction n as [|n IH]; intros m Hle.
  - repeat split; intros; apply mono_oof.
  - destruct m as [|m]; [lia|]. assert (Hle' : (n <= m)%nat) by lia.
    destruct (IH m Hle') as (IH1 & IH2 & IH3 & IH4 & IH5 & IH6 & IH7 & IH8 & IH9). clear IH.
    repeat split; intros.
    + cbn [eval_expr].
      destruct x as [v|v|v|name t|a t|t es|t ps|name t args|op a|op t a b|t a i|t a lo hi|t a key|a|t a]; mn.
      induction ps as [|[kk aa] ps IHps]; cbn beta iota fix; mn.
    + cbn [eval_exprs]. mn.
    + cbn [eval_call]. mn.
    + cbn [exec_stmt]. destruct s as [name t x|target x|name args|[x|]| |conds els|c body|var vt r body|]; mn.
      revert e. induction conds as [|[c body] conds IHc]; intro e; cbn beta iota fix; mn.
    + cbn [exec_stmts]. mn.
    + cbn [exec_block]. mn.
    + cbn [exec_cond]. mn.
    + cbn [exec_while]. mn.
    + cbn [exec_for]. mn.
Qed.

Theorem fuel_mono : forall n m, (n <= m)%nat ->
  (forall P e x s r s', eval_expr n P e x s = (r, s') -> r <> Er EOutOfFuel -> eval_expr m P e x s = (r, s')) /\
  (forall P e l s r s', eval_exprs n P e l s = (r, s') -> r <> Er EOutOfFuel -> eval_exprs m P e l s = (r, s')) /\
  (forall P e name args s r s', eval_call n P e name args s = (r, s') -> r <> Er EOutOfFuel ->
                                eval_call m P e name args s = (r, s')) /\
  (forall P e st s r s', exec_stmt n P e st s = (r, s') -> r <> Er EOutOfFuel -> exec_stmt m P e st s = (r, s')) /\
  (forall P e l s r s', exec_stmts n P e l s = (r, s') -> r <> Er EOutOfFuel -> exec_stmts m P e l s = (r, s')) /\
  (forall P e l s r s', exec_block n P e l s = (r, s') -> r <> Er EOutOfFuel -> exec_block m P e l s = (r, s')) /\
  (forall P e c b s r s', exec_cond n P e c b s = (r, s') -> r <> Er EOutOfFuel -> exec_cond m P e c b s = (r, s')) /\
  (forall P e c b s r s', exec_while n P e c b s = (r, s') -> r <> Er EOutOfFuel -> exec_while m P e c b s = (r, s')) /\
  (forall P e v rg b s r s', exec_for n P e v rg b s = (r, s') -> r <> Er EOutOfFuel ->
                             exec_for m P e v rg b s = (r, s')).
Proof.
  exact eval_mono.
Qed.

(* trace_concat for arbitrary fuels: whatever fuels made xs and ys succeed,
   xs ++ ys succeeds with (and above) length xs + 1 + max n m *)
Theorem trace_concat_general n m P e xs ys s vs s1 ws s2 :
  eval_exprs n P e xs s = (Ok vs, s1) ->
  eval_exprs m P e ys s1 = (Ok ws, s2) ->
  forall k, (List.length xs + S (Nat.max n m) <= k)%nat ->
  eval_exprs k P e (xs ++ ys) s = (Ok (vs ++ ws), s2) /\
  rev (emitted s s2) = rev (emitted s s1) ++ rev (emitted s1 s2).
Proof.
  intros H1 H2 k Hk.
  pose proof (Nat.le_max_l n m) as L1. pose proof (Nat.le_max_r n m) as L2.
  remember (Nat.max n m) as j eqn:Ej. clear Ej.
  assert (A1 : (n <= List.length xs + S j)%nat) by lia.
  assert (A2 : (m <= S j)%nat) by lia.
  assert (G1 : eval_exprs (List.length xs + S j) P e xs s = (Ok vs, s1)).
  { eapply (proj1 (proj2 (fuel_mono _ _ A1))); [exact H1 | discriminate]. }
  assert (G2 : eval_exprs (S j) P e ys s1 = (Ok ws, s2)).
  { eapply (proj1 (proj2 (fuel_mono _ _ A2))); [exact H2 | discriminate]. }
  destruct (trace_concat _ _ _ _ _ _ _ _ _ _ G1 G2) as (T1 & _ & T3).
  split; [|exact T3].
  eapply (proj1 (proj2 (fuel_mono _ _ Hk))); [exact T1 | discriminate].
Qed.

Definition same_trace (s s' : state) : Prop := st_trace s' = st_trace s.

Lemma ho_equals n a b : heap_only (equals n a b).
Proof.
  assert (E : forall h, hfun (equals n a b) h = (eqh h n a b, h)) by (intro; unfold hfun; now rewrite equals_eqh).
  split.
  - intro s. rewrite E, equals_eqh. cbn [fst snd]. rewrite upd_heap_same. reflexivity.
  - intros h W. rewrite E. split; [exact W|apply hextends_refl].
Qed.

(* the operator itself (everything after the operands) only reads and allocates: it emits nothing *)
Lemma bin_tail_silent : forall op la lb, resp same_trace (bin_tail op la lb).
Proof.
  intros op la lb. apply resp_heap_only; [reflexivity|].
  assert (D : heap_only (bin_dispatch op la lb)).
  { unfold bin_dispatch, load_num, load_str, load_bool, bin_num, bin_str, bin_bool, bin_arr, internal.
    ho; auto using ho_copy_or_ref, ho_deep_copy. }
  destruct op; try exact D; (apply ho_bind; [apply ho_ret|intro d]; apply ho_bind; [apply ho_equals|intro r]; apply ho_alloc).
Qed.

(* after the yield and a successful left operand (state s2): either the right
   operand is not evaluated and the final trace is that of s2 (short-circuit),
   or it is evaluated from s2 and the final trace is the one it leaves *)
Theorem ebin_trace n P e op t l r s s1 la s2 res s4 :
  tick s = (Ok tt, s1) ->
  eval_expr n P e l s1 = (Ok la, s2) ->
  eval_expr (S n) P e (EBin op t l r) s = (res, s4) ->
  st_trace s4 = st_trace s2 \/
  exists rb s3, eval_expr n P e r s2 = (rb, s3) /\ st_trace s4 = st_trace s3 /\
                rev (emitted s1 s4) = rev (emitted s1 s2) ++ rev (emitted s2 s3).
Proof.
  intros Ht Hl H. rewrite eval_bin_order in H.
  rewrite (bindM_ok _ _ _ _ _ Ht), (bindM_ok _ _ _ _ _ Hl) in H.
  unfold bindM at 1 in H. unfold load at 1 in H.
  destruct (hget (st_heap s2) la) as [v0|]; [|inversion H; subst; left; reflexivity].
  destruct (short_of op v0).
  - left. rewrite bindM_ret_l in H. exact (bin_tail_silent op la la _ _ _ H).
  - right. destruct (eval_expr n P e r s2) as [rb s3] eqn:Hr. exists rb, s3. split; [reflexivity|].
    assert (T : st_trace s4 = st_trace s3).
    { destruct rb as [lb|er].
      - rewrite (bindM_ok _ _ _ _ _ Hr) in H. exact (bin_tail_silent op la lb _ _ _ H).
      - rewrite (bindM_er _ _ _ _ _ Hr) in H. inversion H; subst; reflexivity. }
    split; [exact T|].
    rewrite <- rev_app_distr, <- (emitted_concat s1 s2 s3).
    + unfold emitted. rewrite T. reflexivity.
    + eapply (proj1 (eval_extends _)); exact Hl.
    + eapply (proj1 (eval_extends _)); exact Hr.
Qed.

(* [compat h fuel a b]: within the fuel, wherever equals (in either
   direction) descends into a pair of cells, both hold values of the same
   kind (what the type checker guarantees for == on well-typed operands).
   On such operands equals never crashes, and is symmetric for BOTH verdicts. *)
Fixpoint compat (h : heap) (fuel : nat) (a b : loc) : Prop :=
  match fuel with
  | O => False
  | S f =>
      match hget h a, hget h b with
      | Some (HNum _), Some (HNum _) => True
      | Some (HStr _), Some (HStr _) => True
      | Some (HBool _), Some (HBool _) => True
      | Some (HAny t i), Some (HAny u j) =>
          ty_eqb (ty_shape t) (ty_shape u) = true -> compat h f i j /\ compat h f j i
      | Some (HArr xs), Some (HArr ys) =>
          List.length xs = List.length ys -> Forall2 (fun x y => compat h f x y /\ compat h f y x) xs ys
      | Some (HMap m1), Some (HMap m2) =>
          (forall k i j, In (k, i) (pairs m1) -> plookup k (pairs m2) = Some j -> compat h f i j) /\
          (forall k i j, In (k, j) (pairs m2) -> plookup k (pairs m1) = Some i -> compat h f j i)
      | _, _ => False
      end
  end.

Lemma compat_sym : forall h fuel a b, compat h fuel a b -> compat h fuel b a.
Proof.
  intros h [|f] a b C; [exact C|]. cbn [compat] in *.
  destruct (hget h a) as [[x|x|x|t i|xs|m1|]|], (hget h b) as [[y|y|y|u j|ys|m2|]|]; try exact C; try contradiction.
  - intro E. rewrite ty_eqb_sym in E. destruct (C E); split; assumption.
  - intro L. symmetry in L. specialize (C L).
    eapply Forall2_flip_impl; [|exact C]. cbn. intros x y [H1 H2]; split; assumption.
  - destruct C as [C1 C2]; split; intros k i j H1 H2; [apply (C2 k j i) | apply (C1 k j i)]; assumption.
Qed.

Lemma all2_total p : forall xs ys,
  Forall2 (fun x y => exists r, p x y = Ok r) xs ys -> exists r, all2 p xs ys = Ok r.
Proof.
  induction 1 as [|x y xs ys [r Hr] _ IH]; cbn [all2]; [eexists; reflexivity|].
  rewrite Hr. destruct r; [exact IH | eexists; reflexivity].
Qed.

Lemma allp_total p m2 : forall ps,
  (forall k i j, In (k, i) ps -> plookup k m2 = Some j -> exists r, p i j = Ok r) ->
  exists r, allp p m2 ps = Ok r.
Proof.
  induction ps as [|[k i] t IH]; intro H; cbn [allp]; [eexists; reflexivity|].
  destruct (plookup k m2) as [j|] eqn:E; [|eexists; reflexivity].
  destruct (H k i j (or_introl eq_refl) E) as [r Hr]. rewrite Hr.
  destruct r; [|eexists; reflexivity]. apply IH. intros k' i' j' Hin. apply H. right; exact Hin.
Qed.

Lemma eqh_total : forall h fuel a b, compat h fuel a b -> exists r, eqh h fuel a b = Ok r.
Proof.
  intros h; induction fuel as [|f IH]; intros a b C; [destruct C|]. cbn [compat eqh] in *.
  destruct (hget h a) as [[x|x|x|t i|xs|m1|]|], (hget h b) as [[y|y|y|u j|ys|m2|]|]; try contradiction;
    cbn [eqv]; try (eexists; reflexivity).
  - destruct (ty_eqb (ty_shape t) (ty_shape u)); [|eexists; reflexivity]. apply IH. apply C; reflexivity.
  - destruct (Nat.eqb (List.length xs) (List.length ys)) eqn:L; cbn [negb]; [|eexists; reflexivity].
    apply Nat.eqb_eq in L. apply all2_total. specialize (C L).
    clear L. induction C as [|x y xs ys [H1 _] _ IHC]; constructor; [apply IH; exact H1 | exact IHC].
  - destruct (negb (Nat.eqb (List.length (pairs m1)) (List.length (pairs m2)))); [eexists; reflexivity|].
    apply allp_total. intros k i j Hin Hj. apply IH. eapply (proj1 C); eassumption.
Qed.

Theorem equals_sym_full fuel a b s :
  maps_nodup (st_heap s) -> compat (st_heap s) fuel a b ->
  exists r, equals fuel a b s = (Ok r, s) /\ equals fuel b a s = (Ok r, s).
Proof.
  intros ND C. rewrite !equals_eqh.
  destruct (eqh_total _ _ _ _ C) as [r Hr]. destruct (eqh_total _ _ _ _ (compat_sym _ _ _ _ C)) as [r' Hr'].
  exists r. rewrite Hr, Hr'. split; [reflexivity|].
  assert (r = r'); [|subst; reflexivity].
  destruct r, r'; try reflexivity.
  - apply (eqh_sym_true _ ND) in Hr. congruence.
  - apply (eqh_sym_true _ ND) in Hr'. congruence.
Qed.
