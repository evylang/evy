(* SemPrivacy.v — property C09, part A3: the cells bound to err / errmsg are
   private (referenced from nowhere else), which is what makes the exception
   in A2 (SemStore.v) harmless. *)
From Coq Require Import ZArith NArith PArith List String Bool Floats FMapPositive Lia.
From EvyV Require Import Base Num Ast Omap Sem SemBasics SemStoreBase SemFresh SemStore.
Import ListNotations.
Local Open Scope positive_scope.

(* evalAssignment before the fix, variable target: rebinding WITHOUT copyOrRef *)
Definition exec_assign_nocopy (n : nat) (P : program) (e : env) (name : str) (x : expr)
  : M (signal * env) :=
  let* _ := tick in
  let* v := eval_expr n P e x in
  let* e' := update_var name v e in
  ret (SigNone, e').

Definition read_global (name : str) (s : state) : option hval :=
  match frame_get name (st_globals s) with
  | Some l => hget (st_heap s) l
  | None => None
  end.

Definition P0 : program := {| p_funcs := []; p_handlers := []; p_stmts := [] |}.
Definition nx : str := Eval compute in s_ "x".
Definition nn : str := Eval compute in s_ "n".
Definition s_init : state := init_state None [] false false.
(* x := false *)
Definition st_decl_x : stmt := SDecl nx TBool (EBool false).
(* n := str2num "hi"   — fails, sets err = true *)
Definition st_fail : stmt :=
  SDecl nn TNum (ECall (s_ "str2num") TNum [EStr (s_ "hi")]).

Definition after (m : M (signal * env)) (s : state) : state := snd (m s).

(* with the old assignment `x = err` binds x to the err cell itself, and the failing str2num
   that follows changes what x reads from false to true *)
Theorem old_assignment_aliases_err_refuted :
  exists (s1 s2 : state),
    s1 = after (exec_assign_nocopy 10 P0 [] nx (EVar n_err TBool)) (after (exec_stmt 10 P0 [] st_decl_x) s_init) /\
    s2 = after (exec_stmt 10 P0 [] st_fail) s1 /\
    frame_get nx (st_globals s1) = frame_get n_err (st_globals s1) /\
    read_global nx s1 = Some (HBool false) /\
    read_global nx s2 = Some (HBool true).
Proof. eexists; eexists. split; [reflexivity|]. split; [reflexivity|]. vm_compute. auto. Qed.

(* the same two statements with the assignment as it is now (copying): x keeps reading false *)
Example new_assignment_does_not_alias :
  let s1 := after (exec_stmt 10 P0 [] (SAssign (EVar nx TBool) (EVar n_err TBool)))
                  (after (exec_stmt 10 P0 [] st_decl_x) s_init) in
  let s2 := after (exec_stmt 10 P0 [] st_fail) s1 in
  frame_get nx (st_globals s1) <> frame_get n_err (st_globals s1) /\
  read_global nx s1 = Some (HBool false) /\
  read_global nx s2 = Some (HBool false) /\
  read_global n_err s2 = Some (HBool true).
Proof. vm_compute. repeat split; auto. discriminate. Qed.

Definition allocd (s : state) (l : loc) : Prop := hget (st_heap s) l <> None.

(* a cell bound to err / errmsg that holds a basic value (the cells globalErr mutates) *)
Definition err_cell (s : state) (l : loc) : Prop :=
  err_loc (st_globals s) l /\ exists v, hget (st_heap s) l = Some v /\ is_basic v = true.
(* an any-box around such a cell: exists only as a value in flight (EAny (EVar err)) *)
Definition tainted (s : state) (l : loc) : Prop :=
  exists t i, hget (st_heap s) l = Some (HAny t i) /\ err_cell s i.
Definition bad (s : state) (l : loc) : Prop := err_cell s l \/ tainted s l.
Definition clean (s : state) (l : loc) : Prop := allocd s l /\ ~ bad s l.

Definition children (v : hval) : list loc :=
  match v with HArr els => els | HMap m => map snd (pairs m) | _ => [] end.
Definition not_box (v : hval) : Prop := forall t i, v <> HAny t i.

Record priv (s : state) : Prop := {
  pv_wf : wf s;
  (* no array element and no map value is an err cell or a box around one *)
  pv_cont : forall c v, hget (st_heap s) c = Some v -> Forall (clean s) (children v);
  (* boxes hold allocated non-box cells *)
  pv_box : forall c t i, hget (st_heap s) c = Some (HAny t i) ->
                         exists v, hget (st_heap s) i = Some v /\ not_box v;
  (* no other global is bound to an err cell or to a box around one *)
  pv_glob : forall n l, frame_get n (st_globals s) = Some l ->
                        allocd s l /\ (n <> n_err -> n <> n_errmsg -> ~ bad s l);
  pv_distinct : forall l l', frame_get n_err (st_globals s) = Some l ->
                             frame_get n_errmsg (st_globals s) = Some l' -> l <> l' }.

(* local frames hold only clean cells *)
Definition frame_clean (s : state) (f : frame) : Prop := forall n l, frame_get n f = Some l -> clean s l.
Definition env_clean (s : state) (e : env) : Prop := Forall (frame_clean s) e.

(* the one-level invariant gives the reachability statement: from a cell that is not itself an
   err cell or a box around one, NO err cell is reachable through any-contents, array elements
   and map values *)
Theorem priv_reach s : priv s -> forall l x, ~ bad s l -> reach (st_heap s) l x -> ~ err_cell s x.
Proof.
  intros PV l x NB R. induction R as [l | l t i x H R IH | l els i x H I R IH | l m k i x H I R IH].
  - intro E; apply NB; left; exact E.
  - apply IH. intros [E | (t' & i' & Hi & _)].
    + apply NB. right. exists t, i; auto.
    + destruct (pv_box s PV _ _ _ H) as (v & Hv & NBx). rewrite Hv in Hi. inversion Hi; subst.
      eapply NBx; reflexivity.
  - apply IH. pose proof (pv_cont s PV _ _ H) as F. simpl in F. rewrite Forall_forall in F.
    apply F; auto.
  - apply IH. pose proof (pv_cont s PV _ _ H) as F. simpl in F. rewrite Forall_forall in F.
    apply (F i). apply in_map_iff. exists (k, i); auto.
Qed.

(* so: every variable other than err / errmsg, every local, every array element, map value and
   any content reachable from them is a cell that globalErr never writes *)
Corollary priv_global_var s n l x :
  priv s -> frame_get n (st_globals s) = Some l -> n <> n_err -> n <> n_errmsg ->
  reach (st_heap s) l x -> ~ err_cell s x.
Proof. intros PV G N1 N2. apply priv_reach; auto. apply (pv_glob s PV n l G); auto. Qed.
Corollary priv_local_var s e f n l x :
  priv s -> env_clean s e -> In f e -> frame_get n f = Some l -> reach (st_heap s) l x -> ~ err_cell s x.
Proof.
  intros PV EC I G. apply priv_reach; auto. unfold env_clean in EC. rewrite Forall_forall in EC.
  apply (EC f I n l G).
Qed.

(* ---------- the initial state ---------- *)
Lemma init_heap_cases stop input ff ay c v :
  hget (st_heap (init_state stop input ff ay)) c = Some v ->
  (c = 1 /\ v = HBool false) \/ (c = 2 /\ v = HStr []) \/ (c = 3 /\ v = HNum (float_of_bits pi_bits)).
Proof.
  intro H. pose proof (wf_alloc_lt _ _ _ (wf_init stop input ff ay) H) as L.
  change (hnext (st_heap (init_state stop input ff ay))) with 4 in L.
  assert (C : c = 1 \/ c = 2 \/ c = 3) by lia.
  destruct C as [-> | [-> | ->]]; vm_compute in H; inversion H; auto.
Qed.

Lemma init_globals stop input ff ay n l :
  frame_get n (st_globals (init_state stop input ff ay)) = Some l ->
  (n = n_err /\ l = 1) \/ (n = n_errmsg /\ l = 2) \/ (n = s_ "pi" /\ l = 3).
Proof.
  change (st_globals (init_state stop input ff ay)) with [(n_err, 1); (n_errmsg, 2); (s_ "pi", 3)].
  cbn [frame_get].
  destruct (str_eqb n_err n) eqn:E1; [apply str_eqb_eq in E1; intro H; inversion H; auto|].
  destruct (str_eqb n_errmsg n) eqn:E2; [apply str_eqb_eq in E2; intro H; inversion H; auto|].
  destruct (str_eqb (s_ "pi") n) eqn:E3; [apply str_eqb_eq in E3; intro H; inversion H; auto|]. discriminate.
Qed.

Lemma priv_init stop input ff ay : priv (init_state stop input ff ay).
Proof.
  constructor.
  - apply wf_init.
  - intros c v H. apply init_heap_cases in H. destruct H as [[_ ->] | [[_ ->] | [_ ->]]]; constructor.
  - intros c t i H. apply init_heap_cases in H. destruct H as [[_ E] | [[_ E] | [_ E]]]; discriminate.
  - intros n l H. apply init_globals in H.
    destruct H as [[-> ->] | [[-> ->] | [-> ->]]]; (split; [vm_compute; discriminate|]); try congruence.
    intros _ _ [[E _] | (t & i & H & _)].
    + destruct E as [E|E]; vm_compute in E; discriminate.
    + vm_compute in H; discriminate.
  - intros l l' H1 H2. vm_compute in H1, H2. congruence.
Qed.

(* kinds of existing cells are stable (boxes immutable) and the err bindings are the same *)
Definition kinds_stable (s s' : state) : Prop :=
  forall l v, hget (st_heap s) l = Some v -> exists v', hget (st_heap s') l = Some v' /\ same_kind v v'.
Definition same_err (s s' : state) : Prop :=
  forall l, err_loc (st_globals s') l <-> err_loc (st_globals s) l.

Lemma kinds_stable_refl s : kinds_stable s s.
Proof. intros l v G. exists v. split; [exact G | apply same_kind_refl]. Qed.
Lemma kinds_stable_trans a b c : kinds_stable a b -> kinds_stable b c -> kinds_stable a c.
Proof.
  intros K1 K2 l v G. destruct (K1 _ _ G) as (v' & G' & S1). destruct (K2 _ _ G') as (v'' & G'' & S2).
  exists v''; split; auto. eapply same_kind_trans; eauto.
Qed.
Lemma same_err_refl s : same_err s s.
Proof. intro; tauto. Qed.
Lemma same_err_trans a b c : same_err a b -> same_err b c -> same_err a c.
Proof. intros E1 E2 l. destruct (E1 l), (E2 l). split; auto. Qed.

Lemma allocd_stable s s' l : kinds_stable s s' -> allocd s l -> allocd s' l.
Proof.
  intros K A. unfold allocd in *. destruct (hget (st_heap s) l) as [v|] eqn:G; [|congruence].
  destruct (K _ _ G) as (v' & G' & _). congruence.
Qed.

Lemma err_cell_back s s' x :
  kinds_stable s s' -> same_err s s' -> allocd s x -> err_cell s' x -> err_cell s x.
Proof.
  intros K E A [EL (v' & G' & B)]. split; [apply E; auto|].
  unfold allocd in A. destruct (hget (st_heap s) x) as [v|] eqn:G; [|congruence].
  destruct (K _ _ G) as (v'' & G'' & SK). rewrite G' in G''. inversion G''; subst v''.
  exists v; split; auto. rewrite (same_kind_basic _ _ SK); auto.
Qed.

Lemma bad_back s s' x :
  priv s -> kinds_stable s s' -> same_err s s' -> allocd s x -> bad s' x -> bad s x.
Proof.
  intros PV K E A [EC | (t & i & G' & EC)].
  - left. eapply err_cell_back; eauto.
  - right. unfold allocd in A. destruct (hget (st_heap s) x) as [v|] eqn:G; [|congruence].
    destruct (K _ _ G) as (v'' & G'' & SK). rewrite G' in G''. inversion G''; subst v''.
    destruct v; simpl in SK; try contradiction. destruct SK as [-> ->].
    exists t, i. split; auto. eapply err_cell_back; eauto.
    destruct (pv_box s PV _ _ _ G) as (w & Hw & _). unfold allocd; congruence.
Qed.

Lemma clean_stable s s' x :
  priv s -> kinds_stable s s' -> same_err s s' -> clean s x -> clean s' x.
Proof.
  intros PV K E [A NB]. split; [eapply allocd_stable; eauto|]. intro B. apply NB. eapply bad_back; eauto.
Qed.

Lemma R_kinds_stable s s' : R s s' -> kinds_stable s s'.
Proof. intros [_ K _ _]. exact K. Qed.

Definition alloc_state (s : state) (v : hval) : state := upd_heap (snd (halloc (st_heap s) v)) s.

Lemma st_heap_alloc_state s v : st_heap (alloc_state s v) = snd (halloc (st_heap s) v).
Proof. reflexivity. Qed.
Lemma st_globals_alloc_state s v : st_globals (alloc_state s v) = st_globals s.
Proof. reflexivity. Qed.

Lemma alloc_state_kinds s v : wf s -> kinds_stable s (alloc_state s v).
Proof.
  intros W l x G. exists x. split; [|apply same_kind_refl].
  rewrite st_heap_alloc_state. apply hget_halloc_old; auto.
Qed.
Lemma alloc_state_same_err s v : same_err s (alloc_state s v).
Proof. intro l. rewrite st_globals_alloc_state. tauto. Qed.

Lemma new_cell_not_err_loc s : priv s -> ~ err_loc (st_globals s) (hnext (st_heap s)).
Proof.
  intros PV [E|E]; destruct (pv_glob s PV _ _ E) as [A _]; apply A; apply (pv_wf s PV); lia.
Qed.

(* the new cell is clean unless it is a box around an err cell *)
Lemma alloc_state_new_clean s v :
  priv s -> (forall t i, v = HAny t i -> ~ err_cell s i /\ allocd s i) ->
  clean (alloc_state s v) (hnext (st_heap s)).
Proof.
  intros PV Hv. pose proof (pv_wf s PV) as W. split.
  - unfold allocd. rewrite st_heap_alloc_state, hget_halloc_new. discriminate.
  - intros [[EL _] | (t & i & G & EC)].
    + rewrite st_globals_alloc_state in EL. apply (new_cell_not_err_loc s PV EL).
    + rewrite st_heap_alloc_state, hget_halloc_new in G. inversion G; subst v.
      destruct (Hv _ _ eq_refl) as [NE A]. apply NE.
      eapply err_cell_back; eauto using alloc_state_kinds, alloc_state_same_err.
Qed.

Lemma alloc_state_priv s v :
  priv s -> Forall (clean s) (children v) ->
  (forall t i, v = HAny t i -> exists w, hget (st_heap s) i = Some w /\ not_box w) ->
  priv (alloc_state s v).
Proof.
  intros PV Hc Hb. pose proof (pv_wf s PV) as W.
  pose proof (alloc_state_kinds s v W) as K. pose proof (alloc_state_same_err s v) as E.
  constructor.
  - apply fresh_ok_halloc; auto.
  - intros c x G. rewrite st_heap_alloc_state in G. destruct (Pos.eq_dec c (hnext (st_heap s))) as [->|N].
    + rewrite hget_halloc_new in G. inversion G; subst x.
      eapply Forall_impl; [|exact Hc]. intros; eapply clean_stable; eauto.
    + rewrite hget_halloc_other in G by auto.
      eapply Forall_impl; [|exact (pv_cont s PV c x G)]. intros; eapply clean_stable; eauto.
  - intros c t i G. rewrite st_heap_alloc_state in *.
    destruct (Pos.eq_dec c (hnext (st_heap s))) as [->|N].
    + rewrite hget_halloc_new in G. inversion G; subst v.
      destruct (Hb _ _ eq_refl) as (w & Hw & NBx). exists w; split; auto. apply hget_halloc_old; auto.
    + rewrite hget_halloc_other in G by auto.
      destruct (pv_box s PV _ _ _ G) as (w & Hw & NBx). exists w; split; auto. apply hget_halloc_old; auto.
  - intros n l G. rewrite st_globals_alloc_state in G. destruct (pv_glob s PV _ _ G) as [A NB]. split.
    + eapply allocd_stable; eauto.
    + intros N1 N2 B. apply (NB N1 N2). eapply bad_back; eauto.
  - rewrite st_globals_alloc_state. apply (pv_distinct s PV).
Qed.

Lemma composite_clean s l v :
  hget (st_heap s) l = Some v -> is_composite v = true -> clean s l.
Proof.
  intros G C. split; [unfold allocd; congruence|].
  intros [[_ (w & Gw & B)] | (t & i & Gi & _)].
  - rewrite G in Gw; inversion Gw; subst w. destruct v; discriminate.
  - rewrite G in Gi; inversion Gi; subst v. discriminate.
Qed.

Lemma copy_or_ref_clean fuel : forall l s c s',
  priv s -> copy_or_ref fuel l s = (Ok c, s') ->
  priv s' /\ kinds_stable s s' /\ same_err s s' /\ clean s' c /\
  (forall v, hget (st_heap s) l = Some v -> not_box v ->
             exists v', hget (st_heap s') c = Some v' /\ not_box v').
Proof.
  induction fuel as [|f IH]; intros l s c s' PV H; simpl in H.
  { apply fail_inv in H; destruct H; discriminate. }
  pose proof (pv_wf s PV) as W.
  apply bind_inv in H. destruct H as [(v & s1 & H1 & H) | (e & H1 & E)]; [|discriminate].
  apply load_inv in H1. destruct H1 as [-> [(v' & Ev & G) | [Ev _]]]; [|discriminate].
  inversion Ev; subst v'; clear Ev.
  assert (BASIC : is_basic v = true -> alloc v s = (Ok c, s') ->
          priv s' /\ kinds_stable s s' /\ same_err s s' /\ clean s' c /\
          (forall v0, hget (st_heap s) l = Some v0 -> not_box v0 ->
                      exists v', hget (st_heap s') c = Some v' /\ not_box v')).
  { intros B HA. apply alloc_inv in HA. destruct HA as [Ec ->]. inversion Ec; subst c; clear Ec.
    change (upd_heap (snd (halloc (st_heap s) v)) s) with (alloc_state s v).
    split; [apply alloc_state_priv; auto; [destruct v; simpl; auto; discriminate | intros; subst; discriminate]|].
    split; [apply alloc_state_kinds; auto|]. split; [apply alloc_state_same_err|].
    split; [apply alloc_state_new_clean; auto; intros; subst; discriminate|].
    intros v0 _ _. exists v. split; [rewrite st_heap_alloc_state; apply hget_halloc_new
                                    | intros t i Q; subst; discriminate]. }
  destruct v; try (apply BASIC; auto; fail).
  2-3: (* array, map: the cell itself, which is clean *)
       apply ret_inv in H; destruct H as [Ec ->]; inversion Ec; subst c; clear Ec;
       (split; [auto|]); (split; [apply kinds_stable_refl|]); (split; [apply same_err_refl|]);
       (split; [eapply composite_clean; eauto; reflexivity | intros v0 G0 NB0; eauto]).
  - (* any *)
    apply bind_inv in H. destruct H as [(i' & s1 & H1 & H) | (e & H1 & E)]; [|discriminate].
    destruct (IH _ _ _ _ PV H1) as (PV1 & K1 & E1 & C1 & NB1).
    apply alloc_inv in H. destruct H as [Ec ->]. inversion Ec; subst c; clear Ec.
    change (upd_heap (snd (halloc (st_heap s1) (HAny t i'))) s1) with (alloc_state s1 (HAny t i')).
    pose proof (pv_wf s1 PV1) as W1.
    destruct (pv_box s PV _ _ _ G) as (w & Hw & NBw). destruct (NB1 _ Hw NBw) as (w' & Hw' & NBw').
    split; [apply alloc_state_priv; auto; [constructor | intros t0 i0 Q; inversion Q; subst; eauto]|].
    split.
    { intros x y Gx. destruct (K1 _ _ Gx) as (y' & Gy' & SK). exists y'. split; auto.
      rewrite st_heap_alloc_state. apply hget_halloc_old; auto. }
    split; [intro x; rewrite st_globals_alloc_state; apply E1|].
    split.
    { apply alloc_state_new_clean; auto. intros t0 i0 Q; inversion Q; subst.
      destruct C1 as [A NBd]. split; auto. intro EC. apply NBd. left; auto. }
    intros v0 G0 NB0. rewrite G in G0. inversion G0; subst v0. exfalso. eapply NB0; reflexivity.
  - apply crash_inv in H. destruct H; discriminate.
Qed.

(* states that differ only in the globals / in same-kind cell contents *)
Lemma priv_change s s' :
  priv s -> wf s' -> kinds_stable s s' -> kinds_stable s' s -> same_err s s' ->
  (forall c v', hget (st_heap s') c = Some v' -> Forall (clean s') (children v')) ->
  (forall n l, frame_get n (st_globals s') = Some l -> n <> n_err -> n <> n_errmsg -> clean s' l) ->
  (forall n l, frame_get n (st_globals s') = Some l -> n = n_err \/ n = n_errmsg ->
               frame_get n (st_globals s) = Some l) ->
  priv s'.
Proof.
  intros PV W' K K' E Hc Hg He. constructor; auto.
  - intros c t i G. destruct (K' _ _ G) as (v & Gv & SK). destruct v; simpl in SK; try contradiction.
    destruct SK as [<- <-]. destruct (pv_box s PV _ _ _ Gv) as (w & Hw & NBw).
    destruct (K _ _ Hw) as (w' & Hw' & SK'). exists w'. split; auto.
    intros t0 i0 Q; subst. destruct w; simpl in SK'; try contradiction. eapply NBw; reflexivity.
  - intros n l G. destruct (str_eq_dec n n_err) as [->|N1].
    { pose proof (He _ _ G (or_introl eq_refl)) as G0. destruct (pv_glob s PV _ _ G0) as [A _].
      split; [eapply allocd_stable; eauto | congruence]. }
    destruct (str_eq_dec n n_errmsg) as [->|N2].
    { pose proof (He _ _ G (or_intror eq_refl)) as G0. destruct (pv_glob s PV _ _ G0) as [A _].
      split; [eapply allocd_stable; eauto | congruence]. }
    destruct (Hg _ _ G N1 N2) as [A NB]. split; auto.
  - intros l l' G1 G2. apply (pv_distinct s PV); apply He; auto.
Qed.

(* scope.set / scope.update of a clean cell under a name other than err / errmsg, global scope *)
Lemma bind_global_priv s n c g' :
  priv s -> clean s c -> name_ok n = true ->
  (g' = frame_set n c (st_globals s) \/ g' = frame_replace n c (st_globals s)) ->
  priv (upd_globals g' s).
Proof.
  intros PV C N Hg. pose proof (name_ok_neq _ N) as [N1 N2].
  assert (K : kinds_stable s (upd_globals g' s)) by exact (kinds_stable_refl s).
  assert (K' : kinds_stable (upd_globals g' s) s) by exact (kinds_stable_refl s).
  assert (FG : forall m, m <> n -> frame_get m g' = frame_get m (st_globals s)).
  { intros m Hm. destruct Hg as [-> | ->]; [apply frame_get_set_other | apply frame_get_replace_other]; auto. }
  assert (E : same_err s (upd_globals g' s)).
  { intro l. unfold err_loc; simpl. rewrite !FG by congruence. tauto. }
  apply (priv_change s); auto.
  - apply (pv_wf s PV).
  - intros c0 v' G. eapply Forall_impl; [|exact (pv_cont s PV c0 v' G)]. intros; eapply clean_stable; eauto.
  - intros m l G M1 M2. simpl in G. destruct (str_eq_dec m n) as [->|Hm].
    + assert (l = c).
      { destruct Hg as [-> | ->].
        - rewrite frame_get_set_same in G; congruence.
        - destruct (frame_get n (st_globals s)) eqn:F0.
          + rewrite frame_get_replace_same in G by congruence; congruence.
          + exfalso. clear -G F0. induction (st_globals s) as [|[k y] t IH]; simpl in *; [discriminate|].
            destruct (str_eqb k n) eqn:Q; simpl in G; rewrite Q in G; [discriminate | auto]. }
      subst l. eapply clean_stable; eauto.
    + rewrite FG in G by auto. destruct (pv_glob s PV _ _ G) as [A NB].
      eapply clean_stable; eauto. split; auto.
  - intros m l G M. simpl in G. rewrite FG in G; auto. destruct M; subst; congruence.
Qed.

Lemma frame_clean_set s n c f : frame_clean s f -> clean s c -> frame_clean s (frame_set n c f).
Proof.
  intros F C m l G. destruct (str_eq_dec m n) as [->|N].
  - rewrite frame_get_set_same in G. inversion G; subst; auto.
  - rewrite frame_get_set_other in G by auto. eauto.
Qed.

(* set_var with a clean cell: SDecl after copy_or_ref, loop variables, parameters *)
Lemma set_var_priv n c e s r s' :
  priv s -> env_clean s e -> clean s c -> name_ok n = true -> set_var n c e s = (r, s') ->
  priv s' /\ kinds_stable s s' /\ same_err s s' /\ forall e', r = Ok e' -> env_clean s' e'.
Proof.
  unfold set_var. intros PV EC C N H. destruct (str_eqb n underscore).
  { inversion H; subst. split; [auto|].
    split; [apply kinds_stable_refl|].
    split; [apply same_err_refl|]. intros ? Q; inversion Q; subst; auto. }
  destruct e as [|f t]; inversion H; subst; clear H.
  - assert (PV' : priv (upd_globals (frame_set n c (st_globals s)) s)) by (eapply bind_global_priv; eauto).
    split; auto. split; [exact (kinds_stable_refl s)|].
    split; [|intros ? Q; inversion Q; subst; constructor].
    pose proof (name_ok_neq _ N) as [N1 N2]. intro l. unfold err_loc; simpl.
    rewrite !frame_get_set_other by congruence. tauto.
  - split; auto. split; [apply kinds_stable_refl|].
    split; [apply same_err_refl|]. intros ? Q; inversion Q; subst. inversion EC; subst.
    constructor; auto. apply frame_clean_set; auto.
Qed.

(* element store  a[i] = v  with a clean v *)
Lemma children_list_set els k (v : loc) x : In x (list_set els k v) -> In x els \/ x = v.
Proof.
  revert k. induction els as [|a t IH]; intros k H; simpl in H; [tauto|].
  destruct k; simpl in H.
  - destruct H; [right; auto | left; right; auto].
  - destruct H; [left; left; auto|]. destruct (IH _ H); [left; right; auto | right; auto].
Qed.

(* overwriting a cell by a value of the same kind *)
Lemma hset_stable s l v0 v :
  hget (st_heap s) l = Some v0 -> same_kind v0 v ->
  kinds_stable s (upd_heap (hset (st_heap s) l v) s) /\ kinds_stable (upd_heap (hset (st_heap s) l v) s) s /\
  same_err s (upd_heap (hset (st_heap s) l v) s).
Proof.
  intros G SK. split; [|split; [|exact (same_err_refl s)]]; intros x y Gx; simpl in *;
    (destruct (Pos.eq_dec x l) as [->|N];
     [rewrite hget_hset_same in * | rewrite hget_hset_other in * by auto; exists y; split; auto using same_kind_refl]).
  - exists v. split; auto. congruence.
  - inversion Gx; subst y. exists v0. split; auto using same_kind_sym.
Qed.

Lemma store_same_kind_priv s la v0 v :
  priv s -> hget (st_heap s) la = Some v0 -> same_kind v0 v -> Forall (clean s) (children v) ->
  priv (upd_heap (hset (st_heap s) la v) s) /\
  kinds_stable s (upd_heap (hset (st_heap s) la v) s) /\ same_err s (upd_heap (hset (st_heap s) la v) s).
Proof.
  intros PV G SK Hc. set (s' := upd_heap (hset (st_heap s) la v) s).
  destruct (hset_stable s la v0 v G SK) as (K & K' & E). fold s' in K, K', E.
  split; [|split; auto].
  apply (priv_change s); auto.
  - eapply fresh_ok_hset; eauto. apply (pv_wf s PV).
  - intros c x Gx. unfold s' in Gx; simpl in Gx. destruct (Pos.eq_dec c la) as [->|N].
    + rewrite hget_hset_same in Gx. inversion Gx; subst x.
      eapply Forall_impl; [|exact Hc]. intros; eapply clean_stable; eauto.
    + rewrite hget_hset_other in Gx by auto.
      eapply Forall_impl; [|exact (pv_cont s PV c x Gx)]. intros; eapply clean_stable; eauto.
  - intros n l Gn N1 N2. unfold s' in Gn; simpl in Gn. destruct (pv_glob s PV _ _ Gn) as [A NB].
    eapply clean_stable; eauto. split; auto.
Qed.

Lemma store_elem_priv s la els k v :
  priv s -> hget (st_heap s) la = Some (HArr els) -> clean s v ->
  priv (upd_heap (hset (st_heap s) la (HArr (list_set els k v))) s).
Proof.
  intros PV G C.
  refine (proj1 (store_same_kind_priv s la (HArr els) (HArr (list_set els k v)) PV G I _)).
  simpl. apply Forall_forall. intros x Hx. apply children_list_set in Hx. destruct Hx as [Hx | ->]; auto.
  pose proof (pv_cont s PV _ _ G) as F. simpl in F. rewrite Forall_forall in F. auto.
Qed.

(* m[k] = v / m.k = v with a clean v *)
Lemma premove_subset {V} k (p : list (str * V)) x : In x (premove k p) -> In x p.
Proof.
  induction p as [|[k' y] t IH]; simpl; [tauto|]. destruct (str_eqb k' k); simpl; intuition.
Qed.
Lemma store_key_priv s la om k v :
  priv s -> hget (st_heap s) la = Some (HMap om) -> clean s v ->
  priv (upd_heap (hset (st_heap s) la (HMap (oset k v om))) s).
Proof.
  intros PV G C.
  refine (proj1 (store_same_kind_priv s la (HMap om) (HMap (oset k v om)) PV G I _)).
  pose proof (pv_cont s PV _ _ G) as F. simpl in F. rewrite Forall_forall in F.
  simpl. apply Forall_forall. intros x Hx. apply in_map_iff in Hx. destruct Hx as ([k' y] & <- & Hy).
  unfold oset in Hy. destruct (plookup k (pairs om)); simpl in Hy;
    (destruct Hy as [Q | Hy]; [inversion Q; subst; auto|]);
    apply premove_subset in Hy; apply F; apply in_map_iff; exists (k', y); auto.
Qed.
(* del m k *)
Lemma del_key_priv s la om k :
  priv s -> hget (st_heap s) la = Some (HMap om) ->
  priv (upd_heap (hset (st_heap s) la (HMap (odel k om))) s).
Proof.
  intros PV G.
  refine (proj1 (store_same_kind_priv s la (HMap om) (HMap (odel k om)) PV G I _)).
  pose proof (pv_cont s PV _ _ G) as F. simpl in F. rewrite Forall_forall in F.
  simpl. apply Forall_forall. intros x Hx. apply in_map_iff in Hx. destruct Hx as ([k' y] & <- & Hy).
  unfold odel in Hy. destruct (plookup k (pairs om)); simpl in Hy.
  - apply premove_subset in Hy. apply F; apply in_map_iff; exists (k', y); auto.
  - apply F; apply in_map_iff; exists (k', y); auto.
Qed.

(* globalErr itself: same-kind stores into the err cells keep the invariant *)
Lemma store_err_priv s l v0 v :
  priv s -> hget (st_heap s) l = Some v0 -> is_basic v0 = true -> same_kind v0 v ->
  priv (upd_heap (hset (st_heap s) l v) s).
Proof.
  intros PV G B SK. apply (store_same_kind_priv s l v0 v PV G SK).
  destruct v0, v; simpl in *; try contradiction; try discriminate; constructor.
Qed.

(* eval_exprs (arguments, array literals): whatever eval_expr returns — possibly the err cell
   or a box around it — the list holds copies, all clean.  Stated for any expression evaluator
   [ev] that keeps the invariant (that is what the nine-way induction would supply). *)
Section ExprList.
  Variable ev : expr -> M loc.
  Hypothesis ev_ok : forall x s l s', priv s -> ev x s = (Ok l, s') ->
                                       priv s' /\ kinds_stable s s' /\ same_err s s'.
  Fixpoint exprs_of (d : nat) (l : list expr) : M (list loc) :=
    match l with
    | [] => ret []
    | x :: t => let* v := ev x in let* c := copy_or_ref d v in let* r := exprs_of d t in ret (c :: r)
    end.

  Lemma exprs_of_clean d l : forall s cs s',
    priv s -> exprs_of d l s = (Ok cs, s') ->
    priv s' /\ kinds_stable s s' /\ same_err s s' /\ Forall (clean s') cs.
  Proof.
    induction l as [|x t IH]; intros s cs s' PV H; simpl in H.
    - apply ret_inv in H. destruct H as [Q ->]. inversion Q; subst. split; [auto|].
      split; [apply kinds_stable_refl|].
      split; [apply same_err_refl | constructor].
    - apply bind_inv in H. destruct H as [(v & s1 & H1 & H) | (e & _ & Q)]; [|discriminate].
      destruct (ev_ok _ _ _ _ PV H1) as (PV1 & K1 & E1).
      apply bind_inv in H. destruct H as [(c & s2 & H2 & H) | (e & _ & Q)]; [|discriminate].
      destruct (copy_or_ref_clean _ _ _ _ _ PV1 H2) as (PV2 & K2 & E2 & C2 & _).
      apply bind_inv in H. destruct H as [(r & s3 & H3 & H) | (e & _ & Q)]; [|discriminate].
      destruct (IH _ _ _ PV2 H3) as (PV3 & K3 & E3 & C3).
      apply ret_inv in H. destruct H as [Q ->]. inversion Q; subst.
      split; auto. split; [eauto using kinds_stable_trans|]. split; [eauto using same_err_trans|].
      constructor; auto. apply (clean_stable s2 s3); auto.
  Qed.
End ExprList.

Lemma env_clean_stable s s' e :
  priv s -> kinds_stable s s' -> same_err s s' -> env_clean s e -> env_clean s' e.
Proof.
  intros PV K E EC. unfold env_clean in *. eapply Forall_impl; [|exact EC].
  intros f F n l G. eapply clean_stable; eauto.
Qed.

(* x := e  (after e has been evaluated to the in-flight cell v): copy, then bind *)
Lemma decl_binding_priv d v n e s1 c s2 r s3 :
  priv s1 -> env_clean s1 e -> name_ok n = true ->
  copy_or_ref d v s1 = (Ok c, s2) -> set_var n c e s2 = (r, s3) ->
  priv s3 /\ forall e', r = Ok e' -> env_clean s3 e'.
Proof.
  intros PV EC N HC HS. destruct (copy_or_ref_clean _ _ _ _ _ PV HC) as (PV2 & K2 & E2 & C2 & _).
  destruct (set_var_priv _ _ _ _ _ _ PV2 (env_clean_stable _ _ _ PV K2 E2 EC) C2 N HS) as (PV3 & _ & _ & H).
  auto.
Qed.

(* a[i] = e  (after e has been evaluated to v and a to la): copy, then element store *)
Lemma assign_elem_priv d v s1 c s2 la els k :
  priv s1 -> copy_or_ref d v s1 = (Ok c, s2) -> hget (st_heap s2) la = Some (HArr els) ->
  priv (upd_heap (hset (st_heap s2) la (HArr (list_set els k c))) s2).
Proof.
  intros PV HC G. destruct (copy_or_ref_clean _ _ _ _ _ PV HC) as (PV2 & _ & _ & C2 & _).
  apply store_elem_priv; auto.
Qed.

(* m[k] = e / m.k = e *)
Lemma assign_key_priv d v s1 c s2 la om k :
  priv s1 -> copy_or_ref d v s1 = (Ok c, s2) -> hget (st_heap s2) la = Some (HMap om) ->
  priv (upd_heap (hset (st_heap s2) la (HMap (oset k c om))) s2).
Proof.
  intros PV HC G. destruct (copy_or_ref_clean _ _ _ _ _ PV HC) as (PV2 & _ & _ & C2 & _).
  apply store_key_priv; auto.
Qed.

(* A3, the whole-run statement (stated, NOT proved): every state reached by a run of
   a program that declares no variable named err / errmsg, and by the events delivered after it,
   satisfies the privacy invariant.  What is proved above: the invariant holds initially
   (priv_init), gives the reachability statement (priv_reach), is kept by allocation, by
   copy_or_ref (whose result is always clean: copy_or_ref_clean), by binding a clean cell to a
   variable (set_var_priv, bind_global_priv), by element / key stores of a clean cell and del
   (store_elem_priv, store_key_priv, del_key_priv), by globalErr's own stores (store_err_priv)
   and by evalExprList over any invariant-keeping expression evaluator (exprs_of_clean).
   Missing: threading these through the nine mutually recursive functions (with the side
   conditions: the value in flight — result of eval_expr, SigReturn (Some v) — is allocated but
   may be an err cell or a box around one; every frame of the environment is clean), and the
   rebinding `err = e` itself (update_var n_err c with c the fresh copy). *)
Definition err_cells_private_full : Prop :=
  forall fuel P stop input ff ay o s1,
    no_err_decl P = true ->
    run_program fuel P (init_state stop input ff ay) = (o, s1) ->
    priv s1 /\
    forall evs o2 s2,
      fold_left (fun acc ev => handle_event fuel P (fst ev) (snd ev) (snd acc)) evs (o, s1) = (o2, s2) ->
      priv s2.
