(* SemPure.v — the pure string and math built-ins of Sem.v (pure_builtin): one generic
   statement, used by every proof file that cases on the built-in dispatcher; and the row
   lemmas (when_some, when_both) by which a property is carried through a dispatcher.

   A computation is [heap_only] when it factors through the heap: its result and its new heap
   are a function g of the old heap alone, every other field of the state (globals — hence the
   err / errmsg bindings —, trace, input, yield counter, stop flags, test counters) is left as
   it was; and g only EXTENDS the heap: nothing at or above hnext before, every existing cell
   keeps its content (so the cells bound to err / errmsg keep theirs), the new cells are the
   allocated results.  pure_builtin_spec: every pure built-in is heap_only. *)
From Coq Require Import ZArith NArith PArith List String Bool Floats FMapPositive Lia.
From EvyV Require Import Base Num Ast Omap Sem SemBasics.
Import ListNotations.
Local Open Scope positive_scope.

(* the state with heap h and every other field at a default: a computation that factors
   through the heap is determined by its runs from these states *)
Definition mk (h : heap) : state :=
  {| st_heap := h; st_globals := []; st_trace := []; st_yields := 0; st_stop_at := None;
     st_stopped := false; st_input := []; st_total := 0; st_fails := 0; st_failfast := false;
     st_check_after_yield := false |}.
Definition hfun {A} (m : M A) (h : heap) : res A * heap := (fst (m (mk h)), st_heap (snd (m (mk h)))).

Definition factors {A} (m : M A) : Prop :=
  forall s, m s = (fst (hfun m (st_heap s)), upd_heap (snd (hfun m (st_heap s))) s).

Definition hfresh (h : heap) : Prop := forall l, hnext h <= l -> hget h l = None.
Definition hextends (h h' : heap) : Prop :=
  hnext h <= hnext h' /\ forall l v, hget h l = Some v -> hget h' l = Some v.

Definition extending {A} (m : M A) : Prop :=
  forall h, hfresh h -> hfresh (snd (hfun m h)) /\ hextends h (snd (hfun m h)).

Definition heap_only {A} (m : M A) : Prop := factors m /\ extending m.

Lemma hextends_refl h : hextends h h. Proof. split; [lia | auto]. Qed.
Lemma hextends_trans a b c : hextends a b -> hextends b c -> hextends a c.
Proof. intros [A1 A2] [B1 B2]; split; [lia | auto]. Qed.

(* what a heap_only computation does to an arbitrary state *)
Lemma heap_only_run {A} (m : M A) s r s' :
  heap_only m -> m s = (r, s') ->
  s' = upd_heap (st_heap s') s /\
  (hfresh (st_heap s) -> hfresh (st_heap s') /\ hextends (st_heap s) (st_heap s')) /\
  (forall t, st_heap t = st_heap s -> m t = (r, upd_heap (st_heap s') t)).
Proof.
  intros [F E] H. rewrite (F s) in H. inversion H; subst; clear H. split; [reflexivity|]. split.
  - intro W. apply (E _ W).
  - intros t Ht. rewrite (F t), Ht. reflexivity.
Qed.

Lemma ho_const {A} (r : res A) : heap_only (fun s => (r, s)).
Proof.
  split.
  - intro s. unfold hfun; simpl. rewrite upd_heap_same. reflexivity.
  - intros h W. unfold hfun; simpl. split; [exact W | apply hextends_refl].
Qed.
Lemma ho_ret {A} (a : A) : heap_only (ret a). Proof. apply (ho_const (Ok a)). Qed.
Lemma ho_fail {A} e : heap_only (@fail A e). Proof. apply (ho_const (Er e)). Qed.
Lemma ho_crash {A} w : heap_only (@crash A w). Proof. apply ho_fail. Qed.

Lemma ho_bind {A B} (m : M A) (k : A -> M B) :
  heap_only m -> (forall a, heap_only (k a)) -> heap_only (bindM m k).
Proof.
  intros [Fm Em] Hk.
  assert (Hrun : forall s, bindM m k s =
            match fst (hfun m (st_heap s)) with
            | Ok a => (fst (hfun (k a) (snd (hfun m (st_heap s)))),
                       upd_heap (snd (hfun (k a) (snd (hfun m (st_heap s))))) s)
            | Er e => (Er e, upd_heap (snd (hfun m (st_heap s))) s)
            end).
  { intro s. unfold bindM. rewrite (Fm s). cbn [fst snd].
    destruct (fst (hfun m (st_heap s))) as [a|e]; [|reflexivity].
    destruct (Hk a) as [Fk _]. rewrite (Fk _). reflexivity. }
  assert (Hh : forall h, hfun (bindM m k) h =
            match fst (hfun m h) with
            | Ok a => hfun (k a) (snd (hfun m h))
            | Er e => (Er e, snd (hfun m h))
            end).
  { intro h. unfold hfun at 1. rewrite (Hrun (mk h)). cbn [st_heap mk].
    destruct (fst (hfun m h)); cbn [fst snd st_heap upd_heap]; [symmetry; apply surjective_pairing | reflexivity]. }
  split.
  - intro s. rewrite Hrun, Hh. destruct (fst (hfun m (st_heap s))); reflexivity.
  - intros h W. rewrite Hh. destruct (Em h W) as [W1 X1].
    destruct (fst (hfun m h)) as [a|e]; cbn [fst snd].
    + destruct (Hk a) as [_ Ek]. destruct (Ek _ W1) as [W2 X2].
      split; [exact W2 | eapply hextends_trans; eauto].
    + split; assumption.
Qed.

Lemma ho_load l : heap_only (load l).
Proof.
  split.
  - intro s. unfold hfun, load; cbn [st_heap mk]. destruct (hget (st_heap s) l); simpl; rewrite upd_heap_same; reflexivity.
  - intros h W. unfold hfun, load; cbn [st_heap mk]. destruct (hget h l); simpl; (split; [exact W | apply hextends_refl]).
Qed.

Lemma hfresh_halloc h v : hfresh h -> hfresh (snd (halloc h v)).
Proof.
  intros W l Hl. change (hnext (snd (halloc h v))) with (Pos.succ (hnext h)) in Hl.
  rewrite hget_halloc_other by lia. apply W. lia.
Qed.
Lemma hextends_halloc h v : hfresh h -> hextends h (snd (halloc h v)).
Proof.
  intro W. split; [change (hnext (snd (halloc h v))) with (Pos.succ (hnext h)); lia|].
  intros l x Hx. rewrite hget_halloc_other; [exact Hx|].
  intro Q; subst. rewrite (W (hnext h)) in Hx by lia. discriminate.
Qed.

Lemma ho_alloc v : heap_only (alloc v).
Proof.
  split.
  - intro s. reflexivity.
  - intros h W. change (snd (hfun (alloc v) h)) with (snd (halloc h v)).
    split; [apply hfresh_halloc | apply hextends_halloc]; exact W.
Qed.

Lemma ho_mapM {A B} (f : A -> M B) l : (forall a, heap_only (f a)) -> heap_only (mapM f l).
Proof.
  intro Hf. induction l as [|x t IH]; simpl; [apply ho_ret|].
  apply ho_bind; auto. intro. apply ho_bind; auto. intro. apply ho_ret.
Qed.

Lemma ho_load_num l : heap_only (load_num l).
Proof. apply ho_bind; [apply ho_load | intros []; first [apply ho_ret | apply ho_crash]]. Qed.
Lemma ho_load_str l : heap_only (load_str l).
Proof. apply ho_bind; [apply ho_load | intros []; first [apply ho_ret | apply ho_crash]]. Qed.

(* along the syntax of the term; the lemmas about the primitives are tried at the leaves only *)
Ltac ho :=
  repeat first
    [ match goal with
      | |- heap_only (bindM _ _) => apply ho_bind; [|intro]
      | |- heap_only (match ?x with _ => _ end) => destruct x
      | |- heap_only (if ?x then _ else _) => destruct x
      end
    | apply ho_ret | apply ho_fail | apply ho_crash | apply ho_load | apply ho_alloc
    | apply ho_load_num | apply ho_load_str
    | apply ho_mapM; intro ].

Lemma ho_copy_or_ref n : forall l, heap_only (copy_or_ref n l).
Proof. induction n; intro l; simpl; ho; auto. Qed.
Lemma ho_deep_copy n : forall l, heap_only (deep_copy n l).
Proof. induction n; intro l; simpl; ho; auto. Qed.

(* The built-in dispatchers are chains of rows [if <test on the name> then Some <action> else <rest>]:
   a property of every action is proved row by row, the two-sided form for two argument lists. *)
Definition when_some {A} (Q : A -> Prop) (o : option A) : Prop :=
  match o with Some a => Q a | None => True end.
Definition when_both {A} (R : A -> A -> Prop) (o1 o2 : option A) : Prop :=
  match o1, o2 with Some a, Some b => R a b | None, None => True | _, _ => False end.

Lemma when_some_if {A} (Q : A -> Prop) (c : bool) a rest :
  Q a -> when_some Q rest -> when_some Q (if c then Some a else rest).
Proof. destruct c; auto. Qed.
Lemma when_some_eq {A} (Q : A -> Prop) o a : when_some Q o -> o = Some a -> Q a.
Proof. intros H ->. exact H. Qed.
Lemma when_some_impl {A} (Q Q' : A -> Prop) o : (forall a, Q a -> Q' a) -> when_some Q o -> when_some Q' o.
Proof. intro H. destruct o; simpl; auto. Qed.
Lemma when_both_if {A} (R : A -> A -> Prop) (c : bool) a b r1 r2 :
  R a b -> when_both R r1 r2 -> when_both R (if c then Some a else r1) (if c then Some b else r2).
Proof. destruct c; auto. Qed.
Lemma when_both_none {A} (R : A -> A -> Prop) o1 o2 : when_both R o1 o2 -> o1 = None -> o2 = None.
Proof. intros H ->. destruct o2; [contradiction | reflexivity]. Qed.

Ltac rows tac :=
  repeat match goal with
         | |- when_some _ (if _ then _ else _) => apply when_some_if; [tac|]
         | |- when_both _ (if _ then _ else _) (if _ then _ else _) => apply when_both_if; [tac|]
         end.

Lemma pure_builtin_heap_only name args : when_some heap_only (pure_builtin name args).
Proof. unfold pure_builtin. rows ho. exact I. Qed.

Theorem pure_builtin_spec name args m : pure_builtin name args = Some m -> heap_only m.
Proof. apply when_some_eq, pure_builtin_heap_only. Qed.

(* whether a name is a pure built-in depends on the name only *)
Lemma pure_builtin_none_indep name args args' : pure_builtin name args = None -> pure_builtin name args' = None.
Proof.
  apply (when_both_none (fun _ _ => True)). unfold pure_builtin.
  rows ltac:(exact I). exact I.
Qed.

(* on success a pure built-in returns a value (never the "no value" result) *)
Definition returns_some (m : M (option loc)) : Prop := forall s r s', m s = (Ok r, s') -> exists l, r = Some l.

Lemma rs_ret l : returns_some (ret (Some l)).
Proof. intros s r s' H. inversion H. eauto. Qed.
Lemma rs_fail e : returns_some (fail e).
Proof. intros s r s' H. discriminate H. Qed.
Lemma rs_bind {A} (m : M A) k : (forall a, returns_some (k a)) -> returns_some (bindM m k).
Proof.
  intros Hk s r s' H. unfold bindM in H. destruct (m s) as [[a|e] s1]; [eapply Hk; eauto | discriminate H].
Qed.

Lemma pure_builtin_returns name args m s r s' :
  pure_builtin name args = Some m -> m s = (Ok r, s') -> exists l, r = Some l.
Proof.
  intros H. revert s r s'. change (returns_some m). revert H. apply when_some_eq.
  unfold pure_builtin.
  rows ltac:(repeat first [ match goal with
                            | |- returns_some (bindM _ _) => apply rs_bind; intro
                            | |- returns_some (match ?x with _ => _ end) => destruct x
                            | |- returns_some (if ?x then _ else _) => destruct x
                            end
                          | apply rs_ret | apply rs_fail ]).
  exact I.
Qed.
