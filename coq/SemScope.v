(* SemScope.v — C10: lexical scoping and structured control flow of the
   evaluator model Sem.v.  The items of C10: 1 blocks restore the scope, shadowing
   restores the outer variable; 2 a function / handler body sees only parameters,
   its own locals and the globals; 3 break / return signalling; 4 while; 5 for ... range. *)
From Coq Require Import ZArith NArith List String Bool Floats FMapPositive Lia.
From EvyV Require Import Base Num Ast Omap OmapProofs Sem SemBasics SemPure SemWalkProofs.
From EvyV Require SemEvents.
Import ListNotations.

(* state-independent partial-correctness postcondition *)
Definition post {A} (m : M A) (Q : A -> Prop) : Prop :=
  forall s a s', m s = (Ok a, s') -> Q a.

Lemma post_ret {A} (a : A) (Q : A -> Prop) : Q a -> post (ret a) Q.
Proof. intros H s a' s' E. unfold ret in E. inversion E; subst; exact H. Qed.

Lemma post_fail {A} e (Q : A -> Prop) : post (fail e) Q.
Proof. intros s a s' E. unfold fail in E. discriminate. Qed.

Lemma post_crash {A} w (Q : A -> Prop) : post (@crash A w) Q.
Proof. apply post_fail. Qed.

Lemma post_internal {A} w (Q : A -> Prop) : post (@internal A w) Q.
Proof. apply post_fail. Qed.

Lemma post_bind {A B} (m : M A) (f : A -> M B) (R : A -> Prop) (Q : B -> Prop) :
  post m R -> (forall a, R a -> post (f a) Q) -> post (bindM m f) Q.
Proof.
  intros Hm Hf s b s' E. unfold bindM in E.
  destruct (m s) as [[a|er] s1] eqn:Em; [|discriminate].
  exact (Hf a (Hm _ _ _ Em) _ _ _ E).
Qed.

Lemma post_bind_any {A B} (m : M A) (f : A -> M B) (Q : B -> Prop) :
  (forall a, post (f a) Q) -> post (bindM m f) Q.
Proof. intro H. apply post_bind with (R := fun _ => True); [intros ? ? ? ?; exact I | intros a _; apply H]. Qed.

Lemma post_weaken {A} (m : M A) (Q R : A -> Prop) : post m Q -> (forall a, Q a -> R a) -> post m R.
Proof. intros H HQ s a s' E. apply HQ. exact (H _ _ _ E). Qed.

Lemma post_conj {A} (m : M A) (Q R : A -> Prop) : post m Q -> post m R -> post m (fun a => Q a /\ R a).
Proof. intros HQ HR s a s' E. split; [exact (HQ _ _ _ E) | exact (HR _ _ _ E)]. Qed.

Lemma post_imp {A} (m : M A) (H : Prop) (Q : A -> Prop) : (H -> post m Q) -> post m (fun a => H -> Q a).
Proof. intros HQ s a s' E h. exact (HQ h _ _ _ E). Qed.

(* named float constants, so that property files need not import Floats *)
Definition f_zero : float := 0%float.
Definition f_one : float := 1%float.

Definition names (f : frame) : list str := map fst f.
Definition shape (e : env) : list (list str) := map names e.

(* [ext e e']: same depth, outer frames have the same names, the innermost
   frame of e' has the names of the innermost frame of e preceded by newly
   declared ones (same relative order). *)
Definition ext (e e' : env) : Prop :=
  match e, e' with
  | [], [] => True
  | f :: t, f' :: t' => (exists added, names f' = added ++ names f) /\ shape t' = shape t
  | _, _ => False
  end.

Lemma ext_refl e : ext e e.
Proof. destruct e; simpl; [exact I|]. split; [exists []; reflexivity | reflexivity]. Qed.

Lemma ext_trans e1 e2 e3 : ext e1 e2 -> ext e2 e3 -> ext e1 e3.
Proof.
  destruct e1, e2, e3; simpl; try tauto.
  intros [[a1 H1] S1] [[a2 H2] S2]. split; [|congruence].
  exists (a2 ++ a1). rewrite H2, H1, app_assoc. reflexivity.
Qed.

Lemma shape_ext e e' : shape e' = shape e -> ext e e'.
Proof.
  destruct e, e'; simpl; try discriminate; [tauto|].
  intro H. inversion H. split; [exists []; simpl; congruence | unfold shape; congruence].
Qed.

Lemma ext_length e e' : ext e e' -> List.length e' = List.length e.
Proof.
  destruct e, e'; simpl; try tauto. intros [_ H].
  f_equal. unfold shape in H. apply (f_equal (@List.length _)) in H. rewrite !map_length in H. exact H.
Qed.

Lemma ext_tl_shape e e' : ext e e' -> shape (tl e') = shape (tl e).
Proof. destruct e, e'; simpl; tauto. Qed.

(* popping the block frame pushed over e *)
Lemma ext_push_pop e e2 : ext ([] :: e) e2 -> shape (tl e2) = shape e.
Proof. intro H. apply ext_tl_shape in H. exact H. Qed.

Lemma env_update_shape n l e e' : env_update n l e = Some e' -> shape e' = shape e.
Proof.
  revert e'; induction e as [|f t IH]; simpl; intros e' H; [discriminate|].
  destruct (frame_get n f).
  - inversion H; subst. simpl. f_equal. apply frame_replace_names.
  - destruct (env_update n l t) as [t'|]; simpl in H; [|discriminate].
    inversion H; subst. simpl. f_equal. apply IH. reflexivity.
Qed.

Lemma post_set_var n l e : post (set_var n l e) (fun e' => ext e e' /\ tl e' = tl e).
Proof.
  intros s e' s' H. unfold set_var in H.
  destruct (str_eqb n underscore); [inversion H; subst; split; [apply ext_refl|reflexivity]|].
  destruct e as [|f t]; inversion H; subst; simpl; [tauto|].
  split; [|reflexivity]. split; [|reflexivity]. unfold names. rewrite frame_set_names.
  destruct (mem_str n (map fst f)); [exists [] | exists [n]]; reflexivity.
Qed.

(* update_var leaves the environment alone (the name is "_" or a global) or replaces one binding;
   a name of the innermost frame is replaced there *)
Lemma update_var_inv n l e s e' s' :
  update_var n l e s = (Ok e', s') -> e' = e \/ env_update n l e = Some e'.
Proof.
  unfold update_var. destruct (str_eqb n underscore); [intro H; inversion H; auto|].
  destruct (env_update n l e) as [e1|]; [intro H; inversion H; auto|].
  destruct (frame_get n (st_globals s)); intro H; inversion H; auto.
Qed.

Lemma update_var_top n l f t s e' s' :
  update_var n l (f :: t) s = (Ok e', s') -> str_eqb n underscore = false -> In n (names f) ->
  e' = frame_replace n l f :: t.
Proof.
  unfold update_var. intros H U I. apply frame_get_In in I. rewrite U in H. simpl in H.
  destruct (frame_get n f); [inversion H; reflexivity | congruence].
Qed.

Lemma post_update_var n l e : post (update_var n l e) (fun e' => shape e' = shape e).
Proof.
  intros s e' s' H. apply update_var_inv in H as [-> | H]; [reflexivity | eapply env_update_shape; exact H].
Qed.

(* the anonymous local fixpoints of Sem.v, named so that lemmas can speak of them; the originals
   unfold to them by [reflexivity] *)
Section IfGo.
  Variables (f : nat) (P : program) (els : option (list stmt)).
  Fixpoint if_go (cs : list (expr * list stmt)) (e : env) : M (signal * env) :=
    match cs with
    | [] =>
        match els with
        | Some body =>
            let* (sig, e1) := exec_block f P ([] :: e) body in
            ret (sig, tl e1)
        | None => ret (SigNone, e)
        end
    | (c, body) :: t =>
        let* (r, e1) := exec_cond f P e c body in
        match r with
        | Some sig => ret (sig, e1)
        | None => if_go t e1
        end
    end.
End IfGo.

Lemma exec_stmt_if f P e conds els :
  exec_stmt (S f) P e (SIf conds els) = (let* _ := tick in if_go f P els conds e).
Proof. reflexivity. Qed.

Definition range_num (f : nat) (P : program) (e1 : env) (o : option expr) (dflt : float) : M float :=
  let* l := eval_expr f P e1 (match o with Some y => y | None => ENum dflt end) in
  let* v := load l in
  match v with HNum y => ret y | _ => internal "expected number" end.

Definition bind_loopvar (var : option str) (z : M loc) (e1 : env) : M env :=
  match var with
  | Some v => let* l := z in set_var v l e1
  | None => ret e1
  end.

(* newRange / newStepRange: the only place where the range expressions are evaluated *)
Definition for_init (f : nat) (P : program) (e1 : env) (var : option str) (vt : ty) (r : range)
  : M (ranger * env) :=
  match r with
  | RStep start stop step =>
      let* a := range_num f P e1 start 0%float in
      let* b := range_num f P e1 (Some stop) 0%float in
      let* c := range_num f P e1 step 1%float in
      if PrimFloat.eqb c 0 then fail (EPanic PkRangeValue)
      else
        let* e2 := bind_loopvar var (alloc (HNum 0%float)) e1 in
        ret (RgStep a b c, e2)
  | RExpr y =>
      let* l := eval_expr f P e1 y in
      let* v := load l in
      match v with
      | HArr _ => let* e2 := bind_loopvar var (zero_val vt) e1 in ret (RgArr l 0%nat, e2)
      | HStr s => let* e2 := bind_loopvar var (alloc (HStr [])) e1 in ret (RgStr s 0%nat, e2)
      | HMap om => let* e2 := bind_loopvar var (alloc (HStr [])) e1 in ret (RgMap l (order om), e2)
      | _ => internal "bad range type"
      end
  end.

Definition loopvar_name (var : option str) : str := match var with Some v => v | None => underscore end.

Lemma exec_stmt_for f P e var vt r body :
  exec_stmt (S f) P e (SFor var vt r body) =
  (let* _ := tick in
   let* (rg, e2) := for_init f P ([] :: e) var vt r in
   let* (sig, e3) := exec_for f P e2 (loopvar_name var) rg body in
   ret (sig, tl e3)).
Proof. destruct r; reflexivity. Qed.

Section MapNext.
  Variables (m : loc) (om : omap loc).
  Fixpoint map_next (ks : list str) : M (option (loc * ranger)) :=
    match ks with
    | [] => ret None
    | k :: t => if ohas k om then let* l := alloc (HStr k) in ret (Some (l, RgMap m t))
                else map_next t
    end.
End MapNext.

(* ranger.next *)
Definition step_done (cur stop step : float) : bool :=
  (PrimFloat.ltb 0 step && PrimFloat.leb stop cur) || (PrimFloat.ltb step 0 && PrimFloat.leb cur stop).

Definition for_next (rg : ranger) : M (option (loc * ranger)) :=
  match rg with
  | RgStep cur stop step =>
      if step_done cur stop step then ret None
      else let* l := alloc (HNum cur) in ret (Some (l, RgStep (cur + step)%float stop step))
  | RgArr a cur =>
      let* v := load a in
      match v with
      | HArr els => match nth_error els cur with
                    | Some l => ret (Some (l, RgArr a (S cur)))
                    | None => ret None end
      | _ => crash "range over non-array"
      end
  | RgStr s cur =>
      match nth_error s cur with
      | Some c => let* l := alloc (HStr [c]) in ret (Some (l, RgStr s (S cur)))
      | None => ret None
      end
  | RgMap m todo =>
      let* v := load m in
      match v with
      | HMap om => map_next m om todo
      | _ => crash "range over non-map"
      end
  end.

Definition for_iter (f : nat) (P : program) (e : env) (var : str) (body : list stmt)
           (nx : option (loc * ranger)) : M (signal * env) :=
  match nx with
  | None => ret (SigNone, e)
  | Some (l, rg') =>
      let* e1 := update_var var l e in
      (* every iteration runs the body in a scope of its own *)
      let* (sig, e2') := exec_block f P ([] :: e1) body in
      let e2 := tl e2' in
      match sig with
      | SigBreak => ret (SigNone, e2)
      | SigReturn v => ret (SigReturn v, e2)
      | SigNone => exec_for f P e2 var rg' body
      end
  end.

Lemma exec_for_unfold f P e var rg body :
  exec_for (S f) P e var rg body = (let* nx := for_next rg in for_iter f P e var body nx).
Proof. destruct rg; reflexivity. Qed.

Lemma while_unfold f P e c body :
  exec_while (S f) P e c body =
  (let* (r, e1) := exec_cond f P e c body in
   match r with
   | None => ret (SigNone, e1)
   | Some SigBreak => ret (SigNone, e1)
   | Some (SigReturn v) => ret (SigReturn v, e1)
   | Some SigNone => exec_while f P e1 c body
   end).
Proof. exact (exec_while_unfold f P e c body). Qed.

Definition is_decl (s : stmt) : bool := match s with SDecl _ _ _ => true | _ => false end.

(* one step along the syntax of a computation whose postcondition needs nothing of the intermediate results *)
Ltac mstep :=
  match goal with
  | |- post (ret _) _ => apply post_ret
  | |- post (fail _) _ => apply post_fail
  | |- post (crash _) _ => apply post_crash
  | |- post (internal _) _ => apply post_internal
  | |- post (bindM _ _) _ => apply post_bind_any; intro
  | |- post (match ?x with _ => _ end) _ => destruct x
  | |- post (if ?x then _ else _) _ => destruct x
  | |- post (let (_, _) := ?x in _) _ => destruct x
  end.

Definition scope_inv (n : nat) : Prop :=
  (forall P e s, post (exec_stmt n P e s)
     (fun r => ext e (snd r) /\ (is_decl s = false -> shape (snd r) = shape e) /\
               (is_decl s = true -> tl (snd r) = tl e))) /\
  (forall P e l, post (exec_stmts n P e l) (fun r => ext e (snd r))) /\
  (forall P e l, post (exec_block n P e l) (fun r => ext e (snd r))) /\
  (forall P e c body, post (exec_cond n P e c body) (fun r => shape (snd r) = shape e)) /\
  (forall P e c body, post (exec_while n P e c body) (fun r => shape (snd r) = shape e)) /\
  (forall P e var rg body, post (exec_for n P e var rg body) (fun r => shape (snd r) = shape e)).

Lemma stmt_scope_same e e' (b : bool) :
  e' = e -> ext e e' /\ (b = false -> shape e' = shape e) /\ (b = true -> tl e' = tl e).
Proof. intros ->. split; [apply ext_refl | split; reflexivity]. Qed.

Lemma stmt_scope_shape e e' (b : bool) :
  b = false -> shape e' = shape e ->
  ext e e' /\ (b = false -> shape e' = shape e) /\ (b = true -> tl e' = tl e).
Proof. intros D H. split; [apply shape_ext; exact H | split; [intro; exact H | congruence]]. Qed.

Lemma if_go_shape f P els :
  (forall e l, post (exec_block f P e l) (fun r => ext e (snd r))) ->
  (forall e c body, post (exec_cond f P e c body) (fun r => shape (snd r) = shape e)) ->
  forall cs e, post (if_go f P els cs e) (fun r => shape (snd r) = shape e).
Proof.
  intros HB HC cs. induction cs as [|[c body] t IH]; intro e; simpl.
  - destruct els as [body|]; [|apply post_ret; reflexivity].
    eapply post_bind; [apply HB|]. intros [sig e1] H; simpl in *.
    apply post_ret; simpl. apply ext_push_pop; exact H.
  - eapply post_bind; [apply HC|]. intros [r e1] H; simpl in *.
    destruct r; [apply post_ret; exact H|].
    eapply post_weaken; [apply IH|]. intros rr Ha; simpl in *. congruence.
Qed.

Lemma bind_loopvar_ext var z e1 : post (bind_loopvar var z e1) (fun e2 => ext e1 e2).
Proof.
  destruct var; simpl; [|apply post_ret; apply ext_refl].
  apply post_bind_any; intro l. eapply post_weaken; [apply post_set_var|]. intros a [H _]; exact H.
Qed.

(* the environment [for_init] returns is the one [bind_loopvar] made *)
Lemma post_for_init f P e1 var vt r (Q : env -> Prop) :
  (forall z, post (bind_loopvar var z e1) Q) -> post (for_init f P e1 var vt r) (fun p => Q (snd p)).
Proof.
  intro HQ. destruct r; simpl.
  - do 3 (apply post_bind_any; intro). mstep; [mstep|].
    eapply post_bind; [apply HQ|]. intros; apply post_ret; assumption.
  - do 2 (apply post_bind_any; intro). mstep; try apply post_internal;
      (eapply post_bind; [apply HQ|]; intros; apply post_ret; assumption).
Qed.

Lemma for_init_ext f P e1 var vt r : post (for_init f P e1 var vt r) (fun p => ext e1 (snd p)).
Proof. apply post_for_init with (Q := ext e1). intro z. apply bind_loopvar_ext. Qed.

Theorem scope_inv_all : forall n, scope_inv n.
Proof.
  induction n as [|f IH].
  { unfold scope_inv; repeat apply conj; intros; apply post_fail. }
  destruct IH as (Hs & Hss & Hb & Hc & Hw & Hf).
  unfold scope_inv; repeat apply conj.
  - (* exec_stmt *)
    intros P e s. destruct s.
    + (* SDecl *) simpl. do 4 (apply post_bind_any; intro).
      eapply post_bind; [apply post_set_var|]. intros e' [H1 H2].
      apply post_ret; simpl. repeat split; [exact H1 | discriminate | intros _; exact H2].
    + (* SAssign *) simpl. do 4 (apply post_bind_any; intro).
      destruct target; try (apply post_internal).
      * eapply post_bind; [apply post_update_var|]. intros e' H.
        apply post_ret; simpl. apply stmt_scope_shape; [reflexivity | exact H].
      * repeat mstep; simpl; apply stmt_scope_same; reflexivity.
      * repeat mstep; simpl; apply stmt_scope_same; reflexivity.
    + (* SCallStmt *) simpl. repeat mstep. simpl. apply stmt_scope_same; reflexivity.
    + (* SReturn *) simpl. apply post_bind_any; intro. destruct e0; repeat mstep; simpl; apply stmt_scope_same; reflexivity.
    + (* SBreak *) simpl. repeat mstep; simpl; apply stmt_scope_same; reflexivity.
    + (* SIf *) rewrite exec_stmt_if. apply post_bind_any; intro.
      eapply post_weaken; [apply if_go_shape; [apply Hb | apply Hc]|].
      intros rr Ha; simpl in *. apply stmt_scope_shape; [reflexivity | exact Ha].
    + (* SWhile *) simpl. apply post_bind_any; intro.
      eapply post_weaken; [apply Hw|]. intros rr Ha; simpl in *. apply stmt_scope_shape; [reflexivity | exact Ha].
    + (* SFor *) rewrite exec_stmt_for. apply post_bind_any; intro.
      eapply post_bind; [apply for_init_ext|]. intros [rg e2] H2; simpl in H2.
      eapply post_bind; [apply Hf|]. intros [sig e3] H3; simpl in H3.
      apply post_ret; simpl. apply stmt_scope_shape; [reflexivity|].
      apply ext_push_pop. eapply ext_trans; [exact H2 | apply shape_ext; exact H3].
    + (* SNop *) simpl. repeat mstep; simpl; apply stmt_scope_same; reflexivity.
  - (* exec_stmts *)
    intros P e l. destruct l as [|s t]; [rewrite exec_stmts_nil; apply post_ret; apply ext_refl|].
    rewrite exec_stmts_cons. eapply post_bind; [apply Hs|]. intros [sig e1] (H1 & _); simpl in H1.
    destruct (is_ctl sig); [apply post_ret; exact H1|].
    eapply post_weaken; [apply Hss|]. intros rr Ha; simpl in *. eapply ext_trans; eassumption.
  - (* exec_block *)
    intros P e l. rewrite exec_block_unfold. apply post_bind_any; intro. apply Hss.
  - (* exec_cond *)
    intros P e c body. rewrite exec_cond_unfold. do 2 (apply post_bind_any; intro).
    destruct a0; try apply post_internal. destruct b; [|apply post_ret; reflexivity].
    eapply post_bind; [apply Hb|]. intros [sig e2] H; simpl in H.
    apply post_ret; simpl. apply ext_push_pop; exact H.
  - (* exec_while *)
    intros P e c body. rewrite while_unfold.
    eapply post_bind; [apply Hc|]. intros [r e1] H; simpl in H.
    destruct r as [[| |v]|]; try (apply post_ret; exact H).
    eapply post_weaken; [apply Hw|]. intros rr Ha; simpl in *; congruence.
  - (* exec_for *)
    intros P e var rg body. rewrite exec_for_unfold. apply post_bind_any; intros [[l rg']|]; simpl;
      [|apply post_ret; reflexivity].
    eapply post_bind; [apply post_update_var|]. intros e1 H1.
    eapply post_bind; [apply Hb|]. intros [sig e2] H2; cbn [snd] in H2.
    assert (E : shape (tl e2) = shape e) by (rewrite (ext_push_pop _ _ H2); exact H1).
    destruct sig; try (apply post_ret; exact E).
    eapply post_weaken; [apply Hf|]. intros rr Ha; simpl in *. congruence.
Qed.

(* the statement of item 1 in direct form *)
Theorem block_restores_scope n P e s st sig e' st' :
  exec_stmt n P e s st = (Ok (sig, e'), st') ->
  List.length e' = List.length e /\
  shape (tl e') = shape (tl e) /\
  (exists added, names (hd [] e') = added ++ names (hd [] e)) /\
  (is_decl s = false -> shape e' = shape e) /\
  (is_decl s = true -> tl e' = tl e).
Proof.
  intro H. destruct (scope_inv_all n) as (Hs & _). apply Hs in H. simpl in H.
  destruct H as (X & Y & Z). repeat split; try assumption.
  - apply ext_length; exact X.
  - apply ext_tl_shape; exact X.
  - destruct e, e'; simpl in *; try tauto. exists []; reflexivity.
Qed.

Theorem stmts_extend_scope n P e l st sig e' st' :
  exec_stmts n P e l st = (Ok (sig, e'), st') -> ext e e'.
Proof. intro H. destruct (scope_inv_all n) as (_ & Hss & _). apply Hss in H. exact H. Qed.

(* a block body run in a fresh frame over e: after popping, e has its shape back *)
Theorem block_pop_restores n P e body st sig e2 st' :
  exec_block n P ([] :: e) body st = (Ok (sig, e2), st') ->
  shape (tl e2) = shape e /\ List.length e2 = S (List.length e).
Proof.
  intro H. destruct (scope_inv_all n) as (_ & _ & Hb & _). apply Hb in H. cbn [snd] in H.
  split; [apply ext_push_pop; exact H | apply ext_length in H; exact H].
Qed.

Theorem cond_restores_scope n P e c body st r e' st' :
  exec_cond n P e c body st = (Ok (r, e'), st') -> shape e' = shape e.
Proof. intro H. destruct (scope_inv_all n) as (_ & _ & _ & Hc & _). apply Hc in H. exact H. Qed.

Theorem while_restores_scope n P e c body st sig e' st' :
  exec_while n P e c body st = (Ok (sig, e'), st') -> shape e' = shape e.
Proof. intro H. destruct (scope_inv_all n) as (_ & _ & _ & _ & Hw & _). apply Hw in H. exact H. Qed.

Theorem for_restores_scope n P e var rg body st sig e' st' :
  exec_for n P e var rg body st = (Ok (sig, e'), st') -> shape e' = shape e.
Proof. intro H. destruct (scope_inv_all n) as (_ & _ & _ & _ & _ & Hf). apply Hf in H. exact H. Qed.

(* top level: no local frame; declarations go to the globals *)
Theorem toplevel_env_stays_empty n P l st sig e' st' :
  exec_stmts n P [] l st = (Ok (sig, e'), st') -> e' = [].
Proof. intro H. apply stmts_extend_scope in H. destruct e'; simpl in H; [reflexivity | contradiction]. Qed.

(* evalStatments stops at the first statement that signals *)
Lemma stmts_signal_stops f P e s t st sig e1 st1 :
  exec_stmt f P e s st = (Ok (sig, e1), st1) -> is_ctl sig = true ->
  exec_stmts (S f) P e (s :: t) st = (Ok (sig, e1), st1).
Proof. intros H C. rewrite exec_stmts_cons. rewrite (bindM_ok _ _ _ _ _ H). rewrite C. reflexivity. Qed.

Lemma stmts_no_signal_continues f P e s t st e1 st1 :
  exec_stmt f P e s st = (Ok (SigNone, e1), st1) ->
  exec_stmts (S f) P e (s :: t) st = exec_stmts f P e1 t st1.
Proof. intros H. rewrite exec_stmts_cons. rewrite (bindM_ok _ _ _ _ _ H). reflexivity. Qed.

Inductive stmts_run (P : program) : env -> state -> list stmt -> signal -> env -> state -> Prop :=
| sr_nil e st : stmts_run P e st [] SigNone e st
| sr_ctl k e st s t sig e1 st1 :
    exec_stmt k P e s st = (Ok (sig, e1), st1) -> is_ctl sig = true ->
    stmts_run P e st (s :: t) sig e1 st1           (* [t] is not executed *)
| sr_next k e st s t e1 st1 sig e' st' :
    exec_stmt k P e s st = (Ok (SigNone, e1), st1) ->
    stmts_run P e1 st1 t sig e' st' ->
    stmts_run P e st (s :: t) sig e' st'.

Theorem stmts_stop_at_first_signal n P e l st sig e' st' :
  exec_stmts n P e l st = (Ok (sig, e'), st') -> stmts_run P e st l sig e' st'.
Proof.
  revert e l st. induction n as [|f IH]; intros e l st H; [discriminate|].
  destruct l as [|s t].
  - rewrite exec_stmts_nil in H. inversion H; subst. constructor.
  - rewrite exec_stmts_cons in H. apply bindM_inv in H as ([sg e1] & st1 & H1 & H2).
    destruct sg; simpl in H2.
    + eapply sr_next; [exact H1 | apply IH; exact H2].
    + inversion H2; subst. eapply sr_ctl; [exact H1 | reflexivity].
    + inversion H2; subst. eapply sr_ctl; [exact H1 | reflexivity].
Qed.

(* the statements after the signalling one are irrelevant *)
Corollary stmts_after_signal_irrelevant f P e s t t' st sig e1 st1 :
  exec_stmt f P e s st = (Ok (sig, e1), st1) -> is_ctl sig = true ->
  exec_stmts (S f) P e (s :: t) st = exec_stmts (S f) P e (s :: t') st.
Proof. intros H C. rewrite !(stmts_signal_stops _ _ _ _ _ _ _ _ _ H C). reflexivity. Qed.

(* blocks and if pass every signal through unchanged *)
Lemma block_passes_signal f P e l st st0 sig e' st' :
  tick st = (Ok tt, st0) -> exec_stmts f P e l st0 = (Ok (sig, e'), st') ->
  exec_block (S f) P e l st = (Ok (sig, e'), st').
Proof. intros T H. rewrite exec_block_unfold, (bindM_ok _ _ _ _ _ T). exact H. Qed.

Lemma block_signal_inv n P e l st sig e' st' :
  exec_block n P e l st = (Ok (sig, e'), st') ->
  exists st0, stmts_run P e st0 l sig e' st'.
Proof.
  destruct n as [|f]; [discriminate|]. rewrite exec_block_unfold. intro H.
  apply bindM_inv in H as (u & st0 & _ & H). exists st0. eapply stmts_stop_at_first_signal; exact H.
Qed.

Lemma cond_passes_signal f P e c body st l st1 st2 sig e2 st' :
  eval_expr f P ([] :: e) c st = (Ok l, st1) -> load l st1 = (Ok (HBool true), st2) ->
  exec_block f P ([] :: e) body st2 = (Ok (sig, e2), st') ->
  exec_cond (S f) P e c body st = (Ok (Some sig, tl e2), st').
Proof.
  intros H1 H2 H3. rewrite exec_cond_unfold, (bindM_ok _ _ _ _ _ H1), (bindM_ok _ _ _ _ _ H2), (bindM_ok _ _ _ _ _ H3).
  reflexivity.
Qed.

Lemma cond_false_skips f P e c body st l st1 st2 :
  eval_expr f P ([] :: e) c st = (Ok l, st1) -> load l st1 = (Ok (HBool false), st2) ->
  exec_cond (S f) P e c body st = (Ok (None, e), st2).
Proof. intros H1 H2. rewrite exec_cond_unfold, (bindM_ok _ _ _ _ _ H1), (bindM_ok _ _ _ _ _ H2). reflexivity. Qed.

Lemma cond_signal_inv n P e c body st sig e' st' :
  exec_cond n P e c body st = (Ok (Some sig, e'), st') ->
  exists k st0 e2, exec_block k P ([] :: e) body st0 = (Ok (sig, e2), st') /\ e' = tl e2.
Proof.
  destruct n as [|f]; [discriminate|]. rewrite exec_cond_unfold. intro H.
  apply bindM_inv in H as (l & st1 & _ & H). apply bindM_inv in H as (v & st2 & _ & H).
  destruct v; try discriminate. destruct b; [|discriminate].
  apply bindM_inv in H as ([sg e2] & st3 & H3 & H). inversion H; subst.
  exists f, st2, e2. split; [exact H3 | reflexivity].
Qed.

Lemma cond_none_inv n P e c body st e' st' :
  exec_cond n P e c body st = (Ok (None, e'), st') -> e' = e.
Proof.
  destruct n as [|f]; [discriminate|]. rewrite exec_cond_unfold. intro H.
  apply bindM_inv in H as (l & st1 & _ & H). apply bindM_inv in H as (v & st2 & _ & H).
  destruct v; try discriminate. destruct b.
  - apply bindM_inv in H as ([sg e2] & st3 & H3 & H). discriminate.
  - inversion H; reflexivity.
Qed.

Lemma if_go_taken f P els c body t e st sig e1 st1 :
  exec_cond f P e c body st = (Ok (Some sig, e1), st1) ->
  if_go f P els ((c, body) :: t) e st = (Ok (sig, e1), st1).
Proof. intro H. simpl. rewrite (bindM_ok _ _ _ _ _ H). reflexivity. Qed.

Lemma if_go_not_taken f P els c body t e st e1 st1 :
  exec_cond f P e c body st = (Ok (None, e1), st1) ->
  if_go f P els ((c, body) :: t) e st = if_go f P els t e1 st1.
Proof. intro H. simpl. rewrite (bindM_ok _ _ _ _ _ H). reflexivity. Qed.

Lemma if_go_else f P body e st sig e1 st1 :
  exec_block f P ([] :: e) body st = (Ok (sig, e1), st1) ->
  if_go f P (Some body) [] e st = (Ok (sig, tl e1), st1).
Proof. intro H. simpl. rewrite (bindM_ok _ _ _ _ _ H). reflexivity. Qed.

Lemma if_go_no_else f P e st : if_go f P None [] e st = (Ok (SigNone, e), st).
Proof. reflexivity. Qed.

Definition if_bodies (conds : list (expr * list stmt)) (els : option (list stmt)) : list (list stmt) :=
  map snd conds ++ match els with Some b => [b] | None => [] end.

(* the signal of an if statement is exactly the signal of the one block it ran
   (or SigNone when it ran none) *)
Lemma if_go_signal_inv f P els cs e st sig e' st' :
  if_go f P els cs e st = (Ok (sig, e'), st') ->
  (sig = SigNone /\ e' = e) \/
  exists body k st0 e2, In body (if_bodies cs els) /\
     exec_block k P ([] :: e) body st0 = (Ok (sig, e2), st') /\ e' = tl e2.
Proof.
  revert e st. induction cs as [|[c body] t IH]; intros e st H.
  - simpl in H. destruct els as [body|].
    + apply bindM_inv in H as ([sg e1] & st1 & H1 & H). inversion H; subst.
      right. exists body, f, st, e1. repeat split; [left; reflexivity | exact H1].
    + inversion H; subst. left; split; reflexivity.
  - simpl in H. apply bindM_inv in H as ([r e1] & st1 & H1 & H). destruct r as [sg|].
    + inversion H; subst. apply cond_signal_inv in H1 as (k & st0 & e2 & H1 & ->).
      right. exists body, k, st0, e2. repeat split; [left; reflexivity | exact H1].
    + apply cond_none_inv in H1 as ->. apply IH in H as [H | (b & k & st0 & e2 & I & H & E)]; [left; exact H|].
      right. exists b, k, st0, e2. repeat split; [right; exact I | exact H | exact E].
Qed.

Theorem if_signal_is_block_signal n P e conds els st sig e' st' :
  exec_stmt n P e (SIf conds els) st = (Ok (sig, e'), st') ->
  (sig = SigNone /\ e' = e) \/
  exists body k st0 e2, In body (if_bodies conds els) /\
     exec_block k P ([] :: e) body st0 = (Ok (sig, e2), st') /\ e' = tl e2.
Proof.
  destruct n as [|f]; [discriminate|]. rewrite exec_stmt_if. intro H.
  apply bindM_inv in H as (u & st0 & _ & H). eapply if_go_signal_inv; exact H.
Qed.

(* loops: break ends the loop and is consumed; return passes through *)
Lemma while_break_ends_loop f P e c body st e1 st1 :
  exec_cond f P e c body st = (Ok (Some SigBreak, e1), st1) ->
  exec_while (S f) P e c body st = (Ok (SigNone, e1), st1).
Proof. intro H. rewrite while_unfold, (bindM_ok _ _ _ _ _ H). reflexivity. Qed.

Lemma while_return_passes f P e c body st v e1 st1 :
  exec_cond f P e c body st = (Ok (Some (SigReturn v), e1), st1) ->
  exec_while (S f) P e c body st = (Ok (SigReturn v, e1), st1).
Proof. intro H. rewrite while_unfold, (bindM_ok _ _ _ _ _ H). reflexivity. Qed.

Lemma while_iterates f P e c body st e1 st1 :
  exec_cond f P e c body st = (Ok (Some SigNone, e1), st1) ->
  exec_while (S f) P e c body st = exec_while f P e1 c body st1.
Proof. intro H. rewrite while_unfold, (bindM_ok _ _ _ _ _ H). reflexivity. Qed.

Lemma while_false_ends f P e c body st e1 st1 :
  exec_cond f P e c body st = (Ok (None, e1), st1) ->
  exec_while (S f) P e c body st = (Ok (SigNone, e1), st1).
Proof. intro H. rewrite while_unfold, (bindM_ok _ _ _ _ _ H). reflexivity. Qed.

(* while tests its condition before every iteration: the first thing an
   iteration does is evaluate the condition (in a fresh frame); the body is not
   run when it is false *)
Lemma while_tests_first f P e c body st x st1 :
  eval_expr f P ([] :: e) c st = (Er x, st1) ->
  exec_while (S (S f)) P e c body st = (Er x, st1).
Proof.
  intro H. rewrite while_unfold. apply bindM_er. rewrite exec_cond_unfold. apply bindM_er. exact H.
Qed.

Lemma while_false_no_body f P e c body body' st l st1 st2 :
  eval_expr f P ([] :: e) c st = (Ok l, st1) -> load l st1 = (Ok (HBool false), st2) ->
  exec_while (S (S f)) P e c body st = (Ok (SigNone, e), st2) /\
  exec_while (S (S f)) P e c body' st = (Ok (SigNone, e), st2).
Proof.
  intros H1 H2. split; (apply while_false_ends; eapply cond_false_skips; eassumption).
Qed.

Lemma for_break_ends_loop f P e var rg body st l rg' st1 e1 st2 e2 st3 :
  for_next rg st = (Ok (Some (l, rg')), st1) -> update_var var l e st1 = (Ok e1, st2) ->
  exec_block f P ([] :: e1) body st2 = (Ok (SigBreak, e2), st3) ->
  exec_for (S f) P e var rg body st = (Ok (SigNone, tl e2), st3).
Proof.
  intros H1 H2 H3. rewrite exec_for_unfold, (bindM_ok _ _ _ _ _ H1). simpl.
  rewrite (bindM_ok _ _ _ _ _ H2), (bindM_ok _ _ _ _ _ H3). reflexivity.
Qed.

Lemma for_return_passes f P e var rg body st l rg' st1 e1 st2 v e2 st3 :
  for_next rg st = (Ok (Some (l, rg')), st1) -> update_var var l e st1 = (Ok e1, st2) ->
  exec_block f P ([] :: e1) body st2 = (Ok (SigReturn v, e2), st3) ->
  exec_for (S f) P e var rg body st = (Ok (SigReturn v, tl e2), st3).
Proof.
  intros H1 H2 H3. rewrite exec_for_unfold, (bindM_ok _ _ _ _ _ H1). simpl.
  rewrite (bindM_ok _ _ _ _ _ H2), (bindM_ok _ _ _ _ _ H3). reflexivity.
Qed.

Lemma for_iterates f P e var rg body st l rg' st1 e1 st2 e2 st3 :
  for_next rg st = (Ok (Some (l, rg')), st1) -> update_var var l e st1 = (Ok e1, st2) ->
  exec_block f P ([] :: e1) body st2 = (Ok (SigNone, e2), st3) ->
  exec_for (S f) P e var rg body st = exec_for f P (tl e2) var rg' body st3.
Proof.
  intros H1 H2 H3. rewrite exec_for_unfold, (bindM_ok _ _ _ _ _ H1). simpl.
  rewrite (bindM_ok _ _ _ _ _ H2), (bindM_ok _ _ _ _ _ H3). reflexivity.
Qed.

Lemma for_exhausted_ends f P e var rg body st st1 :
  for_next rg st = (Ok None, st1) ->
  exec_for (S f) P e var rg body st = (Ok (SigNone, e), st1).
Proof. intros H1. rewrite exec_for_unfold, (bindM_ok _ _ _ _ _ H1). reflexivity. Qed.

(* a [break] that reaches the enclosing loop is separated from it by if-blocks only *)
Fixpoint break_reachable (s : stmt) : bool :=
  match s with
  | SBreak => true
  | SIf conds els =>
      existsb (fun cb => let '(_, b) := cb in existsb break_reachable b) conds ||
      match els with Some b => existsb break_reachable b | None => false end
  | _ => false
  end.

Fixpoint return_reachable (s : stmt) : bool :=
  match s with
  | SReturn _ => true
  | SIf conds els =>
      existsb (fun cb => let '(_, b) := cb in existsb return_reachable b) conds ||
      match els with Some b => existsb return_reachable b | None => false end
  | SWhile _ b => existsb return_reachable b
  | SFor _ _ _ b => existsb return_reachable b
  | _ => false
  end.

Definition sigQ (sig : signal) (brk rtn : bool) : Prop :=
  (sig = SigBreak -> brk = true) /\ (forall v, sig = SigReturn v -> rtn = true).

Definition signal_inv (n : nat) : Prop :=
  (forall P e s, post (exec_stmt n P e s)
     (fun r => sigQ (fst r) (break_reachable s) (return_reachable s))) /\
  (forall P e l, post (exec_stmts n P e l)
     (fun r => sigQ (fst r) (existsb break_reachable l) (existsb return_reachable l))) /\
  (forall P e l, post (exec_block n P e l)
     (fun r => sigQ (fst r) (existsb break_reachable l) (existsb return_reachable l))) /\
  (forall P e c body, post (exec_cond n P e c body)
     (fun r => forall sig, fst r = Some sig ->
               sigQ sig (existsb break_reachable body) (existsb return_reachable body))) /\
  (forall P e c body, post (exec_while n P e c body)
     (fun r => sigQ (fst r) false (existsb return_reachable body))) /\
  (forall P e var rg body, post (exec_for n P e var rg body)
     (fun r => sigQ (fst r) false (existsb return_reachable body))).

Lemma sigQ_none b r : sigQ SigNone b r.
Proof. split; [discriminate | intros; discriminate]. Qed.

Lemma sigQ_ret v b : sigQ (SigReturn v) b true.
Proof. split; [discriminate | reflexivity]. Qed.

Lemma sigQ_brk r : sigQ SigBreak true r.
Proof. split; [reflexivity | discriminate]. Qed.

Lemma sigQ_mono sig b r b' r' :
  sigQ sig b r -> (b = true -> b' = true) -> (r = true -> r' = true) -> sigQ sig b' r'.
Proof. intros [H1 H2] Hb Hr. split; [intro E; apply Hb, H1, E | intros v E; apply Hr, (H2 v E)]. Qed.

Lemma if_go_signal f P els :
  (forall e l, post (exec_block f P e l)
     (fun r => sigQ (fst r) (existsb break_reachable l) (existsb return_reachable l))) ->
  (forall e c body, post (exec_cond f P e c body)
     (fun r => forall sig, fst r = Some sig ->
               sigQ sig (existsb break_reachable body) (existsb return_reachable body))) ->
  forall cs e, post (if_go f P els cs e)
     (fun r => sigQ (fst r) (break_reachable (SIf cs els)) (return_reachable (SIf cs els))).
Proof.
  intros HB HC cs. induction cs as [|[c body] t IH]; intro e.
  - simpl. destruct els as [body|]; [|apply post_ret; apply sigQ_none].
    eapply post_bind; [apply HB|]. intros [sig e1] H; simpl in H. apply post_ret; exact H.
  - cbn [if_go]. eapply post_bind; [apply HC|]. intros [r e1] H; simpl in H.
    destruct r as [sig|].
    + apply post_ret. cbn [fst]. eapply sigQ_mono; [apply H; reflexivity | |]; simpl; intros ->; reflexivity.
    + eapply post_weaken; [apply IH|]. intros rr Ha; simpl in Ha.
      eapply sigQ_mono; [exact Ha | |]; simpl; intro E;
        rewrite <- orb_assoc, E; apply orb_true_r.
Qed.

Theorem signal_inv_all : forall n, signal_inv n.
Proof.
  induction n as [|f IH].
  { unfold signal_inv; repeat apply conj; intros; apply post_fail. }
  destruct IH as (Hs & Hss & Hb & Hc & Hw & Hf).
  unfold signal_inv; repeat apply conj.
  - intros P e s. destruct s.
    + simpl. repeat mstep; simpl; apply sigQ_none.
    + simpl. do 4 (apply post_bind_any; intro).
      destruct target; try (apply post_internal); repeat mstep; simpl; apply sigQ_none.
    + simpl. repeat mstep; simpl; apply sigQ_none.
    + simpl. apply post_bind_any; intro. destruct e0; repeat mstep; simpl; apply sigQ_ret.
    + simpl. repeat mstep; simpl; apply sigQ_brk.
    + rewrite exec_stmt_if. apply post_bind_any; intro. apply if_go_signal; [apply Hb | apply Hc].
    + simpl. apply post_bind_any; intro. apply Hw.
    + rewrite exec_stmt_for. apply post_bind_any; intro. apply post_bind_any; intros [rg e2].
      eapply post_bind; [apply Hf|]. intros [sig e3] H; simpl in H. apply post_ret; exact H.
    + simpl. repeat mstep; simpl; apply sigQ_none.
  - intros P e l. destruct l as [|s t]; [rewrite exec_stmts_nil; apply post_ret; apply sigQ_none|].
    rewrite exec_stmts_cons. eapply post_bind; [apply Hs|]. intros [sig e1] H; simpl in H.
    destruct (is_ctl sig).
    + apply post_ret. simpl. eapply sigQ_mono; [exact H | |]; intros ->; reflexivity.
    + eapply post_weaken; [apply Hss|]. intros rr Ha; simpl in Ha.
      eapply sigQ_mono; [exact Ha | |]; simpl; intros ->; apply orb_true_r.
  - intros P e l. rewrite exec_block_unfold. apply post_bind_any; intro. apply Hss.
  - intros P e c body. rewrite exec_cond_unfold. do 2 (apply post_bind_any; intro).
    destruct a0; try apply post_internal. destruct b; [|apply post_ret; simpl; discriminate].
    eapply post_bind; [apply Hb|]. intros [sig e2] H; simpl in H.
    apply post_ret; simpl. intros sg E; inversion E; subst. exact H.
  - intros P e c body. rewrite while_unfold.
    eapply post_bind; [apply Hc|]. intros [r e1] H; simpl in H.
    destruct r as [[| |v]|]; try (apply post_ret; apply sigQ_none).
    + apply Hw.
    + apply post_ret. simpl. destruct (H _ eq_refl) as [_ H2]. split; [discriminate | intros w _; exact (H2 v eq_refl)].
  - intros P e var rg body. rewrite exec_for_unfold. apply post_bind_any; intros [[l rg']|]; simpl;
      [|apply post_ret; apply sigQ_none].
    apply post_bind_any; intro e1.
    eapply post_bind; [apply Hb|]. intros [sig e2] H; simpl in H.
    destruct sig; [apply Hf | apply post_ret; apply sigQ_none|].
    apply post_ret. simpl. destruct H as [_ H2]. split; [discriminate | intros w _; exact (H2 v eq_refl)].
Qed.

(* loops never let a break escape *)
Theorem while_consumes_break n P e c body st sig e' st' :
  exec_while n P e c body st = (Ok (sig, e'), st') -> sig <> SigBreak.
Proof.
  intros H E. destruct (signal_inv_all n) as (_ & _ & _ & _ & Hw & _).
  apply Hw in H. destruct H as [H _]. simpl in H. apply H in E. discriminate.
Qed.

Theorem for_consumes_break n P e var rg body st sig e' st' :
  exec_for n P e var rg body st = (Ok (sig, e'), st') -> sig <> SigBreak.
Proof.
  intros H E. destruct (signal_inv_all n) as (_ & _ & _ & _ & _ & Hf).
  apply Hf in H. destruct H as [H _]. simpl in H. apply H in E. discriminate.
Qed.

(* a statement signals break only if it is a [break] under if-blocks only:
   in particular a loop statement never does, whatever its body contains, so a
   break ends exactly the innermost loop around it *)
Theorem break_origin n P e s st e' st' :
  exec_stmt n P e s st = (Ok (SigBreak, e'), st') -> break_reachable s = true.
Proof.
  intros H. destruct (signal_inv_all n) as (Hs & _). apply Hs in H. destruct H as [H _]. exact (H eq_refl).
Qed.

Theorem loop_stmt_never_breaks n P e s st sig e' st' :
  (exists c b, s = SWhile c b) \/ (exists v t r b, s = SFor v t r b) ->
  exec_stmt n P e s st = (Ok (sig, e'), st') -> sig <> SigBreak.
Proof.
  intros K H E. subst sig. apply break_origin in H.
  destruct K as [(c & b & ->) | (v & t & r & b & ->)]; discriminate.
Qed.

Theorem return_origin n P e s st v e' st' :
  exec_stmt n P e s st = (Ok (SigReturn v, e'), st') -> return_reachable s = true.
Proof.
  intros H. destruct (signal_inv_all n) as (Hs & _). apply Hs in H. destruct H as [_ H]. exact (H v eq_refl).
Qed.

(* the frame a call starts in *)
Definition call_frame (fd : funcdef) (vals : list loc) : M frame :=
  let* (fr, rest) := bind_params (fn_params fd) vals [] in
  match fn_variadic fd with
  | Some (vn, _) => let* a := alloc (HArr vals) in
                    ret (if str_eqb vn underscore then fr else frame_set vn a fr)
  | None => ret fr
  end.

(* the part of evalFunccall after the arguments have been evaluated, for a
   user-defined function: no caller environment anywhere *)
Definition call_user (f : nat) (P : program) (fd : funcdef) (vals : list loc) : M (option loc) :=
  let* fr' := call_frame fd vals in
  let* (sig, _) := exec_block f P [fr'] (fn_body fd) in
  match sig with
  | SigReturn v => ret v
  | _ => let* l := alloc HNone in ret (Some l)
  end.

Definition call_dispatch (f : nat) (P : program) (e : env) (name : str) (vals : list loc) : M (option loc) :=
  if str_eqb name n_test then let* _ := run_test vals in ret None
  else
    match builtin name e vals with
    | Some m => m
    | None =>
        if existsb (str_eqb name) unmodelled_builtins then fail (EUnsupported name)
        else match find_func name (p_funcs P) with
             | None => crash "nil FuncDef"
             | Some fd => call_user f P fd vals
             end
    end.

(* pointwise version (no functional extensionality needed) *)
Lemma eval_call_unfold f P e name args st :
  eval_call (S f) P e name args st =
  (let* vals := eval_exprs f P e args in call_dispatch f P e name vals) st.
Proof.
  cbn [eval_call]. apply bindM_ext; intros vals st1. unfold call_dispatch.
  destruct (str_eqb name n_test); [reflexivity|].
  destruct (builtin name e vals); [reflexivity|].
  destruct (existsb (str_eqb name) unmodelled_builtins); [reflexivity|].
  destruct (find_func name (p_funcs P)) as [fd|]; [|reflexivity].
  unfold call_user, call_frame. rewrite bindM_assoc. apply bindM_ext; intros [fr rest] st2. reflexivity.
Qed.

Definition resolves_to (P : program) (name : str) (fd : funcdef) : Prop :=
  str_eqb name n_test = false /\ builtin name [] [] = None /\
  existsb (str_eqb name) unmodelled_builtins = false /\
  find_func name (p_funcs P) = Some fd.

Lemma call_dispatch_user f P e name vals fd :
  resolves_to P name fd -> call_dispatch f P e name vals = call_user f P fd vals.
Proof.
  intros (H1 & H2 & H3 & H4). unfold call_dispatch.
  rewrite H1, (builtin_none_indep _ _ _ e vals H2), H3, H4. reflexivity.
Qed.

(* evalFunccall of a user function = evaluate the arguments in the caller's
   environment, then run [call_user], which does not mention that environment *)
Theorem eval_call_user f P e name args fd st :
  resolves_to P name fd ->
  eval_call (S f) P e name args st =
  (let* vals := eval_exprs f P e args in call_user f P fd vals) st.
Proof.
  intro R. rewrite eval_call_unfold. unfold bindM.
  destruct (eval_exprs f P e args st) as [[vals|x] st1]; [|reflexivity].
  rewrite (call_dispatch_user _ _ _ _ _ _ R). reflexivity.
Qed.

Theorem call_sees_only_params_locals_globals f P name args fd e1 e2 st :
  resolves_to P name fd ->
  eval_exprs f P e1 args st = eval_exprs f P e2 args st ->
  eval_call (S f) P e1 name args st = eval_call (S f) P e2 name args st.
Proof.
  intros R E. rewrite !(eval_call_user _ _ _ _ _ _ _ R). unfold bindM. rewrite E. reflexivity.
Qed.

(* the caller continues in its own environment: a call statement returns it unchanged *)
Theorem call_stmt_keeps_env n P e name args st sig e' st' :
  exec_stmt n P e (SCallStmt name args) st = (Ok (sig, e'), st') -> sig = SigNone /\ e' = e.
Proof.
  destruct n as [|f]; [discriminate|]. cbn [exec_stmt]. intro H.
  apply bindM_inv in H as (u & st0 & _ & H). apply bindM_inv in H as (r & st1 & _ & H).
  inversion H; subst. split; reflexivity.
Qed.

(* return: the call turns SigReturn v into the value v, anything else into a fresh none *)
Lemma call_user_return f P fd vals st fr st1 v e2 st2 :
  call_frame fd vals st = (Ok fr, st1) ->
  exec_block f P [fr] (fn_body fd) st1 = (Ok (SigReturn v, e2), st2) ->
  call_user f P fd vals st = (Ok v, st2).
Proof. intros H1 H2. unfold call_user. rewrite (bindM_ok _ _ _ _ _ H1), (bindM_ok _ _ _ _ _ H2). reflexivity. Qed.

Lemma call_user_no_return f P fd vals st fr st1 sig e2 st2 :
  call_frame fd vals st = (Ok fr, st1) ->
  exec_block f P [fr] (fn_body fd) st1 = (Ok (sig, e2), st2) ->
  (forall v, sig <> SigReturn v) ->
  call_user f P fd vals st = (let* l := alloc HNone in ret (Some l)) st2.
Proof.
  intros H1 H2 N. unfold call_user. rewrite (bindM_ok _ _ _ _ _ H1), (bindM_ok _ _ _ _ _ H2).
  destruct sig; try reflexivity. exfalso; exact (N v eq_refl).
Qed.

(* the frame a call or an event starts in is [SemEvents.bind_frame] of the parameters *)
Lemma bind_frame_incl ps ls fr : incl (names (SemEvents.bind_frame ps ls fr)) (map fst ps ++ names fr).
Proof.
  intros n H. apply in_or_app. apply SemEvents.bind_frame_names in H as [H | [H _]]; [right | left]; exact H.
Qed.

Lemma bind_params_names ps args fr :
  post (bind_params ps args fr) (fun r => incl (names (fst r)) (map fst ps ++ names fr)).
Proof.
  intros s r s' H. rewrite SemEvents.bind_params_exact in H.
  destruct (Nat.leb _ _); inversion H; subst. apply bind_frame_incl.
Qed.

Definition param_names (fd : funcdef) : list str :=
  map fst (fn_params fd) ++ match fn_variadic fd with Some (vn, _) => [vn] | None => [] end.

Theorem call_frame_names fd vals : post (call_frame fd vals) (fun fr => incl (names fr) (param_names fd)).
Proof.
  unfold call_frame, param_names. eapply post_bind; [apply bind_params_names|].
  intros [fr rest] H; simpl in H. rewrite app_nil_r in H.
  destruct (fn_variadic fd) as [[vn vt]|].
  - apply post_bind_any; intro a. apply post_ret.
    destruct (str_eqb vn underscore); [apply incl_appl; exact H|].
    unfold names. rewrite frame_set_names. destruct (mem_str vn (map fst fr)).
    + apply incl_appl; exact H.
    + intros x [<-|Hx]; [apply in_or_app; right; left; reflexivity | apply in_or_app; left; apply H; exact Hx].
  - apply post_ret. rewrite app_nil_r. exact H.
Qed.

(* event handlers: same structure, no caller environment at all *)
Definition handler_run (fuel : nat) (P : program) (h : handler) (args : list payload) : M unit :=
  let* fr := bind_payload (h_params h) args [] in
  let* _ := exec_block fuel P [fr] (h_body h) in ret tt.

Theorem handle_event_handler_run fuel P name args s0 :
  handle_event fuel P name args s0 =
  match find_handler name (p_handlers P) with
  | None => (OErr (EHostCrash (s_ "no event handler")), s0)
  | Some h => match handler_run fuel P h args s0 with
              | (Er e, s1) => (OErr e, s1)
              | (Ok _, s1) => (ODone, s1)
              end
  end.
Proof. reflexivity. Qed.

Lemma bind_payload_names ps args fr :
  post (bind_payload ps args fr) (fun r => incl (names r) (map fst ps ++ names fr)).
Proof.
  intros s r s' H. apply SemEvents.bind_payload_ok in H as (_ & -> & _). apply bind_frame_incl.
Qed.

Theorem handler_frame_names h args :
  post (bind_payload (h_params h) args []) (fun fr => incl (names fr) (map fst (h_params h))).
Proof.
  eapply post_weaken; [apply bind_payload_names|]. intros fr H. simpl in H. rewrite app_nil_r in H. exact H.
Qed.

(* The range is evaluated once, at loop entry: a for statement is  tick; for_init; exec_for; pop
   ([exec_stmt_for]).  Only [for_init] contains the range expressions; [exec_for] receives the
   ranger state (three numbers / the array cell / the string / the key
   snapshot) and never sees an expression again. *)

Lemma for_init_step_unfold f P e1 var vt start stop step :
  for_init f P e1 var vt (RStep start stop step) =
  (let* a := range_num f P e1 start 0%float in
   let* b := range_num f P e1 (Some stop) 0%float in
   let* c := range_num f P e1 step 1%float in
   if PrimFloat.eqb c 0 then fail (EPanic PkRangeValue)
   else let* e2 := bind_loopvar var (alloc (HNum 0%float)) e1 in ret (RgStep a b c, e2)).
Proof. reflexivity. Qed.

(* a zero step panics before any iteration: the result state is the state
   right after the three range expressions were evaluated *)
Theorem for_zero_step_panics f P e var vt start stop step body st st0 a st1 b st2 c st3 :
  tick st = (Ok tt, st0) ->
  range_num f P ([] :: e) start 0%float st0 = (Ok a, st1) ->
  range_num f P ([] :: e) (Some stop) 0%float st1 = (Ok b, st2) ->
  range_num f P ([] :: e) step 1%float st2 = (Ok c, st3) ->
  PrimFloat.eqb c 0 = true ->
  exec_stmt (S f) P e (SFor var vt (RStep start stop step) body) st = (Er (EPanic PkRangeValue), st3).
Proof.
  intros T A B C Z. rewrite exec_stmt_for, (bindM_ok _ _ _ _ _ T). apply bindM_er.
  rewrite for_init_step_unfold, (bindM_ok _ _ _ _ _ A), (bindM_ok _ _ _ _ _ B), (bindM_ok _ _ _ _ _ C), Z.
  reflexivity.
Qed.

(* with a non-zero step the loop runs from the ranger (a, b, c) *)
Theorem for_step_enters_loop f P e var vt start stop step body st st0 a st1 b st2 c st3 :
  tick st = (Ok tt, st0) ->
  range_num f P ([] :: e) start 0%float st0 = (Ok a, st1) ->
  range_num f P ([] :: e) (Some stop) 0%float st1 = (Ok b, st2) ->
  range_num f P ([] :: e) step 1%float st2 = (Ok c, st3) ->
  PrimFloat.eqb c 0 = false ->
  exec_stmt (S f) P e (SFor var vt (RStep start stop step) body) st =
  (let* e2 := bind_loopvar var (alloc (HNum 0%float)) ([] :: e) in
   let* (sig, e3) := exec_for f P e2 (loopvar_name var) (RgStep a b c) body in
   ret (sig, tl e3)) st3.
Proof.
  intros T A B C Z. rewrite exec_stmt_for, (bindM_ok _ _ _ _ _ T), for_init_step_unfold.
  rewrite bindM_assoc, (bindM_ok _ _ _ _ _ A), bindM_assoc, (bindM_ok _ _ _ _ _ B),
    bindM_assoc, (bindM_ok _ _ _ _ _ C), Z, bindM_assoc.
  reflexivity.
Qed.

(* instrumented iteration: the trace of ranger.next() results *)
Inductive for_end := FeDone | FeBreak | FeReturn (v : option loc).

Definition for_end_signal (en : for_end) : signal :=
  match en with FeReturn v => SigReturn v | _ => SigNone end.

Record visit := {
  v_rg : ranger;      (* ranger state before next() *)
  v_st : state;       (* program state when next() was called *)
  v_loc : loc;        (* the cell next() bound the loop variable to *)
  v_st1 : state;      (* program state when next() returned *)
  v_env : env         (* environment the body ran in: a fresh frame over the loop's *)
}.

Definition visit_val (v : visit) : option hval := hget (st_heap (v_st1 v)) (v_loc v).

Inductive for_trace (P : program) (var : str) (body : list stmt)
  : ranger -> env -> state -> list visit -> for_end -> env -> state -> Prop :=
| ft_done rg e st st1 :
    for_next rg st = (Ok None, st1) ->
    for_trace P var body rg e st [] FeDone e st1
| ft_break rg e st l rg' st1 e1 st2 k e2 st3 :
    for_next rg st = (Ok (Some (l, rg')), st1) ->
    update_var var l e st1 = (Ok e1, st2) ->
    exec_block k P ([] :: e1) body st2 = (Ok (SigBreak, e2), st3) ->
    for_trace P var body rg e st [Build_visit rg st l st1 ([] :: e1)] FeBreak (tl e2) st3
| ft_return rg e st l rg' st1 e1 st2 k v e2 st3 :
    for_next rg st = (Ok (Some (l, rg')), st1) ->
    update_var var l e st1 = (Ok e1, st2) ->
    exec_block k P ([] :: e1) body st2 = (Ok (SigReturn v, e2), st3) ->
    for_trace P var body rg e st [Build_visit rg st l st1 ([] :: e1)] (FeReturn v) (tl e2) st3
| ft_next rg e st l rg' st1 e1 st2 k e2 st3 tr en e' st' :
    for_next rg st = (Ok (Some (l, rg')), st1) ->
    update_var var l e st1 = (Ok e1, st2) ->
    exec_block k P ([] :: e1) body st2 = (Ok (SigNone, e2), st3) ->
    for_trace P var body rg' (tl e2) st3 tr en e' st' ->
    for_trace P var body rg e st (Build_visit rg st l st1 ([] :: e1) :: tr) en e' st'.

Theorem exec_for_trace n P e var rg body st sig e' st' :
  exec_for n P e var rg body st = (Ok (sig, e'), st') ->
  exists tr en, for_trace P var body rg e st tr en e' st' /\ sig = for_end_signal en.
Proof.
  revert e rg st. induction n as [|f IH]; intros e rg st H; [discriminate|].
  rewrite exec_for_unfold in H. apply bindM_inv in H as (nx & st1 & H1 & H).
  destruct nx as [[l rg']|]; simpl in H.
  - apply bindM_inv in H as (e1 & st2 & H2 & H). apply bindM_inv in H as ([sg e2] & st3 & H3 & H).
    destruct sg.
    + apply IH in H as (tr & en & HT & ->).
      eexists; exists en. split; [eapply ft_next; eassumption | reflexivity].
    + inversion H; subst. eexists; exists FeBreak. split; [eapply ft_break; eassumption | reflexivity].
    + inversion H; subst. eexists; exists (FeReturn v). split; [eapply ft_return; eassumption | reflexivity].
  - inversion H; subst. exists [], FeDone. split; [apply ft_done; exact H1 | reflexivity].
Qed.

(* the loop variable is bound to the cell delivered by next() while the body runs *)
Lemma update_var_binds var l e st e1 st1 :
  update_var var l e st = (Ok e1, st1) -> str_eqb var underscore = false ->
  In var (names (hd [] e)) ->
  env_get var e1 = Some l /\ In var (names (hd [] e1)).
Proof.
  intros H U I. destruct e as [|fr t]; [contradiction|]. simpl in I.
  rewrite (update_var_top _ _ _ _ _ _ _ H U I). simpl.
  rewrite frame_get_replace_same by (apply frame_get_In; exact I).
  split; [reflexivity|]. unfold names. rewrite frame_replace_names. exact I.
Qed.

Lemma ext_keeps_name var e e' : ext e e' -> In var (names (hd [] e)) -> In var (names (hd [] e')).
Proof.
  destruct e, e'; simpl; try tauto. intros [[added ->] _] H. apply in_or_app; right; exact H.
Qed.

Theorem for_trace_binds_var P var body rg e st tr en e' st' :
  for_trace P var body rg e st tr en e' st' ->
  str_eqb var underscore = false -> In var (names (hd [] e)) ->
  Forall (fun v => env_get var (v_env v) = Some (v_loc v)) tr.
Proof.
  intros H U. induction H; intro I.
  - constructor.
  - constructor; [|constructor]. simpl. eapply update_var_binds; eassumption.
  - constructor; [|constructor]. simpl. eapply update_var_binds; eassumption.
  - destruct (update_var_binds _ _ _ _ _ _ H0 U I) as [B I1].
    constructor; [exact B|]. apply IHfor_trace.
    eapply ext_keeps_name; [apply shape_ext, (block_pop_restores _ _ _ _ _ _ _ _ H1) | exact I1].
Qed.

(* one visit: the body runs in an empty frame over an environment shaped like the loop's,
   and leaves that shape behind *)
Lemma for_visit_shape var l e st1 e1 st2 k P body sig e2 st3 :
  update_var var l e st1 = (Ok e1, st2) -> exec_block k P ([] :: e1) body st2 = (Ok (sig, e2), st3) ->
  shape ([] :: e1) = [] :: shape e /\ shape (tl e2) = shape e.
Proof.
  intros H0 H1. pose proof (post_update_var _ _ _ _ _ _ H0) as S1. apply block_pop_restores in H1 as [S2 _].
  split; [simpl; f_equal; exact S1 | congruence].
Qed.

(* a variable declared by the body in one iteration does not exist in the next one, nor after the loop *)
Theorem for_trace_fresh_scope P var body rg e st tr en e' st' :
  for_trace P var body rg e st tr en e' st' ->
  Forall (fun v => shape (v_env v) = [] :: shape e) tr /\ shape e' = shape e.
Proof.
  intro H. induction H.
  - split; [constructor | reflexivity].
  - destruct (for_visit_shape _ _ _ _ _ _ _ _ _ _ _ _ H0 H1) as [A B]. split; [repeat constructor; exact A | exact B].
  - destruct (for_visit_shape _ _ _ _ _ _ _ _ _ _ _ _ H0 H1) as [A B]. split; [repeat constructor; exact A | exact B].
  - destruct (for_visit_shape _ _ _ _ _ _ _ _ _ _ _ _ H0 H1) as [A B]. destruct IHfor_trace as [F E].
    split; [|congruence]. constructor; [exact A|].
    eapply Forall_impl; [|exact F]. intros v Hv. simpl in Hv. rewrite Hv, B. reflexivity.
Qed.

Local Open Scope nat_scope.

(* the sequence cur, cur+step, cur+step+step, ... (IEEE additions) up to the
   first value for which stepRange.next()'s stop test holds; [k] bounds the
   length so that the definition is total *)
Fixpoint go_steps (k : nat) (cur stop step : float) : list float :=
  match k with
  | O => []
  | S k' => if step_done cur stop step then [] else cur :: go_steps k' (cur + step)%float stop step
  end.

Lemma alloc_inv v st l st1 : alloc v st = (Ok l, st1) -> hget (st_heap st1) l = Some v.
Proof.
  intro H. inversion H; subst. exact (hget_halloc_new (st_heap st) v).
Qed.

Lemma for_next_step_none cur stop step st st1 :
  for_next (RgStep cur stop step) st = (Ok None, st1) -> step_done cur stop step = true /\ st1 = st.
Proof.
  simpl. destruct (step_done cur stop step).
  - intro H; inversion H; split; reflexivity.
  - intro H. apply bindM_inv in H as (l & s1 & _ & H). discriminate.
Qed.

Lemma for_next_step_some cur stop step st l rg' st1 :
  for_next (RgStep cur stop step) st = (Ok (Some (l, rg')), st1) ->
  step_done cur stop step = false /\ rg' = RgStep (cur + step)%float stop step /\
  hget (st_heap st1) l = Some (HNum cur).
Proof.
  simpl. destruct (step_done cur stop step); [discriminate|].
  intro H. apply bindM_inv in H as (l0 & s1 & A & H). inversion H; subst.
  repeat split. eapply alloc_inv; exact A.
Qed.

Theorem for_num_spec P var body a b c e st tr en e' st' :
  for_trace P var body (RgStep a b c) e st tr en e' st' ->
  map visit_val tr = map (fun x => Some (HNum x)) (go_steps (List.length tr) a b c) /\
  (en = FeDone -> go_steps (S (List.length tr)) a b c = go_steps (List.length tr) a b c).
Proof.
  intro H. remember (RgStep a b c) as rg eqn:R. revert a R.
  induction H; intros a R; subst rg.
  - apply for_next_step_none in H as [D _]. split; [reflexivity|]. intros _. simpl. rewrite D. reflexivity.
  - apply for_next_step_some in H as (D & _ & V). split; [|discriminate].
    simpl. rewrite D. unfold visit_val; simpl. rewrite V. reflexivity.
  - apply for_next_step_some in H as (D & _ & V). split; [|discriminate].
    simpl. rewrite D. unfold visit_val; simpl. rewrite V. reflexivity.
  - apply for_next_step_some in H as (D & -> & V).
    destruct (IHfor_trace _ eq_refl) as [I1 I2]. split.
    + cbn [List.length map go_steps]. rewrite D. cbn [map]. rewrite <- I1. unfold visit_val at 1; simpl. rewrite V. reflexivity.
    + intro E. specialize (I2 E). cbn [List.length]. cbn [go_steps] in *. rewrite D. f_equal. exact I2.
Qed.

(* the sequence as C10 words it: continue while
   (step > 0 and cur < stop) or (step < 0 and cur > stop) *)
Definition step_live (cur stop step : float) : bool :=
  (PrimFloat.ltb 0 step && PrimFloat.ltb cur stop) || (PrimFloat.ltb step 0 && PrimFloat.ltb stop cur).

Fixpoint steps (k : nat) (cur stop step : float) : list float :=
  match k with
  | O => []
  | S k' => if step_live cur stop step then cur :: steps k' (cur + step)%float stop step else []
  end.

(* arrays: the live array is re-read at every iteration *)
Lemma load_inv l st v st1 : load l st = (Ok v, st1) -> st1 = st /\ hget (st_heap st) l = Some v.
Proof. unfold load. destruct (hget (st_heap st) l); intro H; inversion H; subst; split; reflexivity. Qed.

Lemma for_next_arr_none a i st st1 :
  for_next (RgArr a i) st = (Ok None, st1) ->
  st1 = st /\ exists els, hget (st_heap st) a = Some (HArr els) /\ List.length els <= i.
Proof.
  simpl. intro H. apply bindM_inv in H as (v & s1 & L & H). apply load_inv in L as [-> L].
  destruct v; try discriminate. destruct (nth_error els i) eqn:N; inversion H; subst.
  split; [reflexivity|]. exists els. split; [exact L | apply nth_error_None; exact N].
Qed.

Lemma for_next_arr_some a i st l rg' st1 :
  for_next (RgArr a i) st = (Ok (Some (l, rg')), st1) ->
  st1 = st /\ rg' = RgArr a (S i) /\
  exists els, hget (st_heap st) a = Some (HArr els) /\ nth_error els i = Some l.
Proof.
  simpl. intro H. apply bindM_inv in H as (v & s1 & L & H). apply load_inv in L as [-> L].
  destruct v; try discriminate. destruct (nth_error els i) eqn:N; inversion H; subst.
  repeat split. exists els. split; [exact L | exact N].
Qed.

Definition arr_visit (a : loc) (i : nat) (v : visit) : Prop :=
  v_rg v = RgArr a i /\ v_st1 v = v_st v /\
  exists els, hget (st_heap (v_st v)) a = Some (HArr els) /\ nth_error els i = Some (v_loc v).

(* iteration number j (from 0) delivers element i0+j of the array as it is
   at that moment; the loop ends normally when the live array has no such element *)
Theorem for_array_spec P var body a i0 e st tr en e' st' :
  for_trace P var body (RgArr a i0) e st tr en e' st' ->
  Forall2 (arr_visit a) (seq i0 (List.length tr)) tr /\
  (en = FeDone -> exists els, hget (st_heap st') a = Some (HArr els) /\
                              List.length els <= i0 + List.length tr).
Proof.
  intro H. remember (RgArr a i0) as rg eqn:R. revert i0 R.
  induction H; intros i0 R; subst rg.
  - apply for_next_arr_none in H as (-> & els & L & N). split; [constructor|].
    intros _. exists els. split; [exact L | simpl; lia].
  - apply for_next_arr_some in H as (-> & _ & els & L & N). split; [|discriminate].
    repeat constructor; simpl. exists els; split; assumption.
  - apply for_next_arr_some in H as (-> & _ & els & L & N). split; [|discriminate].
    repeat constructor; simpl. exists els; split; assumption.
  - apply for_next_arr_some in H as (-> & -> & els & L & N).
    destruct (IHfor_trace _ eq_refl) as [I1 I2]. split.
    + simpl. constructor; [|exact I1]. repeat split; simpl. exists els; split; assumption.
    + intro E. destruct (I2 E) as (els' & L' & N'). exists els'. split; [exact L' | simpl; lia].
Qed.

(* strings: the code points of the string as it was at loop entry *)
Lemma for_next_str_none s i st st1 :
  for_next (RgStr s i) st = (Ok None, st1) -> st1 = st /\ List.length s <= i.
Proof.
  simpl. destruct (nth_error s i) eqn:N.
  - intro H. apply bindM_inv in H as (l & s1 & _ & H). discriminate.
  - intro H; inversion H. split; [reflexivity | apply nth_error_None; exact N].
Qed.

Lemma for_next_str_some s i st l rg' st1 :
  for_next (RgStr s i) st = (Ok (Some (l, rg')), st1) ->
  rg' = RgStr s (S i) /\ exists c, nth_error s i = Some c /\ hget (st_heap st1) l = Some (HStr [c]).
Proof.
  simpl. destruct (nth_error s i) as [c|] eqn:N; [|discriminate].
  intro H. apply bindM_inv in H as (l0 & s1 & A & H). inversion H; subst.
  split; [reflexivity|]. exists c. split; [reflexivity | eapply alloc_inv; exact A].
Qed.

Lemma skipn_nth_cons {A} (l : list A) i c : nth_error l i = Some c -> skipn i l = c :: skipn (S i) l.
Proof.
  revert i; induction l as [|x t IH]; intros [|i] H; simpl in *; try discriminate.
  - inversion H; reflexivity.
  - apply IH; exact H.
Qed.

Theorem for_string_spec P var body s i0 e st tr en e' st' :
  for_trace P var body (RgStr s i0) e st tr en e' st' ->
  map visit_val tr = map (fun c => Some (HStr [c])) (firstn (List.length tr) (skipn i0 s)) /\
  (en = FeDone -> List.length s <= i0 + List.length tr).
Proof.
  intro H. remember (RgStr s i0) as rg eqn:R. revert i0 R.
  induction H; intros i0 R; subst rg.
  - apply for_next_str_none in H as (-> & N). split; [reflexivity | intros _; simpl; lia].
  - apply for_next_str_some in H as (_ & c & N & V). split; [|discriminate].
    simpl. rewrite (skipn_nth_cons _ _ _ N). unfold visit_val; simpl. rewrite V. reflexivity.
  - apply for_next_str_some in H as (_ & c & N & V). split; [|discriminate].
    simpl. rewrite (skipn_nth_cons _ _ _ N). unfold visit_val; simpl. rewrite V. reflexivity.
  - apply for_next_str_some in H as (-> & c & N & V).
    destruct (IHfor_trace _ eq_refl) as [I1 I2]. split.
    + cbn [List.length map]. rewrite (skipn_nth_cons _ _ _ N). cbn [firstn map]. rewrite <- I1.
      unfold visit_val at 1; simpl. rewrite V. reflexivity.
    + intro E. specialize (I2 E). simpl. lia.
Qed.

(* a loop that ends normally from index 0 has visited the whole entry string *)
Corollary for_string_complete P var body s e st tr e' st' :
  for_trace P var body (RgStr s 0) e st tr FeDone e' st' ->
  map visit_val tr = map (fun c => Some (HStr [c])) s.
Proof.
  intro H. pose proof H as H0. apply for_string_spec in H as [H1 H2]. specialize (H2 eq_refl).
  rewrite H1. simpl. rewrite firstn_all2 by (simpl in H2; exact H2). reflexivity.
Qed.

(* maps: the keys of the entry snapshot that are still present when reached *)
Lemma map_next_none m om todo st st1 :
  map_next m om todo st = (Ok None, st1) -> st1 = st /\ Forall (fun k => ohas k om = false) todo.
Proof.
  induction todo as [|k t IH]; simpl.
  - intro H; inversion H. split; [reflexivity | constructor].
  - destruct (ohas k om) eqn:O.
    + intro H. apply bindM_inv in H as (l & s1 & _ & H). discriminate.
    + intro H. apply IH in H as [-> F]. split; [reflexivity | constructor; assumption].
Qed.

Lemma map_next_some m om todo st l rg' st1 :
  map_next m om todo st = (Ok (Some (l, rg')), st1) ->
  exists skipped k rest, todo = skipped ++ k :: rest /\
    Forall (fun x => ohas x om = false) skipped /\ ohas k om = true /\
    rg' = RgMap m rest /\ hget (st_heap st1) l = Some (HStr k).
Proof.
  induction todo as [|k t IH]; simpl; [discriminate|].
  destruct (ohas k om) eqn:O.
  - intro H. apply bindM_inv in H as (l0 & s1 & A & H). inversion H; subst.
    exists [], k, t. repeat split; [constructor | exact O | eapply alloc_inv; exact A].
  - intro H. apply IH in H as (sk & k' & rest & -> & F & O' & R & V).
    exists (k :: sk), k', rest. repeat split; try assumption. constructor; assumption.
Qed.

Inductive map_walk (m : loc) : list str -> list visit -> for_end -> state -> Prop :=
| mw_done todo om stf :
    hget (st_heap stf) m = Some (HMap om) -> Forall (fun k => ohas k om = false) todo ->
    map_walk m todo [] FeDone stf          (* every remaining snapshot key is gone: loop ends *)
| mw_left todo en stf :
    en <> FeDone -> map_walk m todo [] en stf   (* loop left by break/return *)
| mw_visit skipped k rest v tr en stf om :
    v_rg v = RgMap m (skipped ++ k :: rest) ->
    hget (st_heap (v_st v)) m = Some (HMap om) ->       (* the live map when next() runs *)
    Forall (fun x => ohas x om = false) skipped ->      (* deleted meanwhile: skipped *)
    ohas k om = true ->                                 (* still present: visited *)
    visit_val v = Some (HStr k) ->
    map_walk m rest tr en stf ->
    map_walk m (skipped ++ k :: rest) (v :: tr) en stf.

Lemma for_next_map_none m todo st st1 :
  for_next (RgMap m todo) st = (Ok None, st1) ->
  st1 = st /\ exists om, hget (st_heap st) m = Some (HMap om) /\ Forall (fun k => ohas k om = false) todo.
Proof.
  simpl. intro H. apply bindM_inv in H as (v & s1 & L & H). apply load_inv in L as [-> L].
  destruct v; try discriminate. apply map_next_none in H as [-> F].
  split; [reflexivity|]. exists m0. split; assumption.
Qed.

Lemma for_next_map_some m todo st l rg' st1 :
  for_next (RgMap m todo) st = (Ok (Some (l, rg')), st1) ->
  exists om skipped k rest, hget (st_heap st) m = Some (HMap om) /\ todo = skipped ++ k :: rest /\
    Forall (fun x => ohas x om = false) skipped /\ ohas k om = true /\
    rg' = RgMap m rest /\ hget (st_heap st1) l = Some (HStr k).
Proof.
  simpl. intro H. apply bindM_inv in H as (v & s1 & L & H). apply load_inv in L as [-> L].
  destruct v; try discriminate. apply map_next_some in H as (sk & k & rest & E & F & O & R & V).
  exists m0, sk, k, rest. repeat split; assumption.
Qed.

Theorem for_map_spec P var body m todo e st tr en e' st' :
  for_trace P var body (RgMap m todo) e st tr en e' st' -> map_walk m todo tr en st'.
Proof.
  intro H. remember (RgMap m todo) as rg eqn:R. revert todo R.
  induction H; intros todo R; subst rg.
  - apply for_next_map_none in H as (-> & om & L & F). eapply mw_done; eassumption.
  - apply for_next_map_some in H as (om & sk & k' & rest & L & -> & F & O & _ & V).
    eapply mw_visit; try eassumption; try reflexivity. apply mw_left; discriminate.
  - apply for_next_map_some in H as (om & sk & k' & rest & L & -> & F & O & _ & V).
    eapply mw_visit; try eassumption; try reflexivity. apply mw_left; discriminate.
  - apply for_next_map_some in H as (om & sk & k' & rest & L & -> & F & O & -> & V).
    eapply mw_visit; try eassumption; try reflexivity. apply IHfor_trace; reflexivity.
Qed.

(* visited keys, in order, form a subsequence of the entry snapshot *)
Lemma subseq_nil_l {A} (l : list A) : subseq [] l.
Proof. induction l; constructor; assumption. Qed.

Lemma subseq_skip_app {A} (sk l1 l2 : list A) : subseq l1 l2 -> subseq l1 (sk ++ l2).
Proof. induction sk; simpl; [tauto | intro H; constructor; apply IHsk; exact H]. Qed.

Corollary map_walk_subseq m todo tr en stf :
  map_walk m todo tr en stf ->
  exists ks, map visit_val tr = map (fun k => Some (HStr k)) ks /\ subseq ks todo.
Proof.
  induction 1.
  - exists []. split; [reflexivity | apply subseq_nil_l].
  - exists []. split; [reflexivity | apply subseq_nil_l].
  - destruct IHmap_walk as (ks & E & S). exists (k :: ks). split.
    + simpl. rewrite H3, E. reflexivity.
    + apply subseq_skip_app. apply sub_take. exact S.
Qed.

(* [assigns x s]: s contains a variable assignment [x = ...] (at any depth;
   declarations [x := ...] and loop variables named x do not count) *)
Fixpoint assigns (x : str) (s : stmt) : bool :=
  match s with
  | SAssign (EVar n _) _ => str_eqb n x
  | SIf conds els =>
      existsb (fun cb => let '(_, b) := cb in existsb (assigns x) b) conds ||
      match els with Some b => existsb (assigns x) b | None => false end
  | SWhile _ b => existsb (assigns x) b
  | SFor _ _ _ b => existsb (assigns x) b
  | _ => false
  end.

(* the cell bound to x in each frame *)
Definition bindings (x : str) (e : env) : list (option loc) := map (frame_get x) e.

Lemma bindings_tl x e : bindings x (tl e) = tl (bindings x e).
Proof. destruct e; reflexivity. Qed.

Lemma env_update_other x y l e e' :
  env_update y l e = Some e' -> str_eqb y x = false -> bindings x e' = bindings x e.
Proof.
  intros H N. revert e' H. induction e as [|f t IH]; simpl; intros e' H; [discriminate|].
  destruct (frame_get y f).
  - inversion H; subst. simpl. rewrite frame_get_replace_other by (apply str_eqb_neq; rewrite str_eqb_sym; exact N).
    reflexivity.
  - destruct (env_update y l t) as [t'|]; simpl in H; [|discriminate].
    inversion H; subst. simpl. f_equal. apply IH. reflexivity.
Qed.

Lemma post_update_var_other x y l e :
  post (update_var y l e) (fun e' => str_eqb y x = false -> bindings x e' = bindings x e).
Proof.
  intros s e' s' H N. apply update_var_inv in H as [-> | H]; [reflexivity | eapply env_update_other; eassumption].
Qed.

Definition var_in_top (var : str) (e : env) : Prop :=
  str_eqb var underscore = true \/ In var (names (hd [] e)).

Lemma post_update_var_top var l e :
  post (update_var var l e) (fun e' => var_in_top var e -> tl e' = tl e /\ var_in_top var e').
Proof.
  intros s e' s' H V. destruct (str_eqb var underscore) eqn:U.
  - unfold update_var in H. rewrite U in H. inversion H; subst. split; [reflexivity | exact V].
  - destruct V as [V|I]; [congruence|]. destruct e as [|f t]; [contradiction|]. simpl in I.
    rewrite (update_var_top _ _ _ _ _ _ _ H U I).
    split; [reflexivity|]. right. simpl. unfold names. rewrite frame_replace_names. exact I.
Qed.

Lemma var_in_top_ext var e e' : ext e e' -> var_in_top var e -> var_in_top var e'.
Proof. intros X [U|I]; [left; exact U | right; eapply ext_keeps_name; eassumption]. Qed.

Section Shadow.
  Variable x : str.

  Definition keeps (e e' : env) : Prop := bindings x e' = bindings x e.
  Definition keeps_tl (e e' : env) : Prop := bindings x (tl e') = bindings x (tl e).

  Lemma keeps_tl_of e e' : keeps e e' -> keeps_tl e e'.
  Proof. unfold keeps, keeps_tl. rewrite !bindings_tl. intros ->. reflexivity. Qed.

  Definition shadow_inv (n : nat) : Prop :=
    (forall P e s, post (exec_stmt n P e s)
       (fun r => assigns x s = false ->
                 keeps_tl e (snd r) /\ (is_decl s = false -> keeps e (snd r)))) /\
    (forall P e l, post (exec_stmts n P e l)
       (fun r => existsb (assigns x) l = false -> keeps_tl e (snd r))) /\
    (forall P e l, post (exec_block n P e l)
       (fun r => existsb (assigns x) l = false -> keeps_tl e (snd r))) /\
    (forall P e c body, post (exec_cond n P e c body)
       (fun r => existsb (assigns x) body = false -> keeps e (snd r))) /\
    (forall P e c body, post (exec_while n P e c body)
       (fun r => existsb (assigns x) body = false -> keeps e (snd r))) /\
    (forall P e var rg body, post (exec_for n P e var rg body)
       (fun r => var_in_top var e -> existsb (assigns x) body = false -> keeps_tl e (snd r))).

  Lemma stmt_keeps_same e (b : bool) : keeps_tl e e /\ (b = false -> keeps e e).
  Proof. split; [|intro]; reflexivity. Qed.

  Lemma stmt_keeps_of e e' (b : bool) : keeps e e' -> keeps_tl e e' /\ (b = false -> keeps e e').
  Proof. intro H. split; [apply keeps_tl_of; exact H | intro; exact H]. Qed.

  Lemma keeps_push_pop e e2 : keeps_tl ([] :: e) e2 -> keeps e (tl e2).
  Proof. unfold keeps_tl, keeps. simpl. tauto. Qed.

  Lemma if_go_keeps f P els :
    (forall e l, post (exec_block f P e l)
       (fun r => existsb (assigns x) l = false -> keeps_tl e (snd r))) ->
    (forall e c body, post (exec_cond f P e c body)
       (fun r => existsb (assigns x) body = false -> keeps e (snd r))) ->
    forall cs e, post (if_go f P els cs e)
       (fun r => assigns x (SIf cs els) = false -> keeps e (snd r)).
  Proof.
    intros HB HC cs. induction cs as [|[c body] t IH]; intro e.
    - simpl. destruct els as [body|]; [|apply post_ret; intros _; reflexivity].
      eapply post_bind; [apply HB|]. intros [sig e1] H; simpl in H.
      apply post_ret; simpl. intro A. apply keeps_push_pop. apply H. exact A.
    - cbn [if_go]. eapply post_bind; [apply HC|]. intros [r e1] H; simpl in H.
      destruct r as [sig|].
      + apply post_ret; simpl. intro A. apply H.
        apply orb_false_iff in A as [A _]. apply orb_false_iff in A as [A _]. exact A.
      + eapply post_weaken; [apply IH|]. intros rr Ha; simpl in Ha. simpl. intro A.
        apply orb_false_iff in A as [A A2]. apply orb_false_iff in A as [A0 A1].
        unfold keeps in *. rewrite Ha; [apply H; exact A0|]. simpl. rewrite A1, A2. reflexivity.
  Qed.

  Lemma frame_set_has v l f1 : In v (names (frame_set v l f1)).
  Proof.
    unfold names. rewrite frame_set_names.
    destruct (mem_str v (map fst f1)) eqn:M; [apply mem_str_In; exact M | left; reflexivity].
  Qed.

  Lemma bind_loopvar_top var z f1 t :
    post (bind_loopvar var z (f1 :: t))
         (fun e2 => tl e2 = t /\ var_in_top (loopvar_name var) e2).
  Proof.
    destruct var as [v|]; simpl; [|apply post_ret; split; [reflexivity | left; reflexivity]].
    apply post_bind_any; intro l. intros s e2 s' H. unfold set_var in H.
    destruct (str_eqb v underscore) eqn:U; [inversion H; subst; split; [reflexivity | left; exact U]|].
    inversion H; subst. split; [reflexivity|]. right. simpl. apply frame_set_has.
  Qed.

  Lemma for_init_top f P f1 t var vt r :
    post (for_init f P (f1 :: t) var vt r)
         (fun p => tl (snd p) = t /\ var_in_top (loopvar_name var) (snd p)).
  Proof.
    apply post_for_init with (Q := fun e2 => tl e2 = t /\ var_in_top (loopvar_name var) e2).
    intro z. apply bind_loopvar_top.
  Qed.

  Theorem shadow_inv_all : forall n, shadow_inv n.
  Proof.
    induction n as [|f IH].
    { unfold shadow_inv; repeat apply conj; intros; apply post_fail. }
    destruct IH as (Hs & Hss & Hb & Hc & Hw & Hf).
    unfold shadow_inv; repeat apply conj.
    - intros P e s. destruct s.
      + simpl. do 4 (apply post_bind_any; intro).
        eapply post_bind; [apply post_set_var|]. intros e' [_ H2].
        apply post_ret; simpl. intros _. split; [unfold keeps_tl; rewrite H2; reflexivity | discriminate].
      + simpl. do 4 (apply post_bind_any; intro).
        destruct target; try (apply post_internal).
        * eapply post_bind; [apply (post_update_var_other x)|]. intros e' H.
          apply post_ret; simpl. intro A. apply stmt_keeps_of. apply H. exact A.
        * repeat mstep; simpl; intros _; apply stmt_keeps_same.
        * repeat mstep; simpl; intros _; apply stmt_keeps_same.
      + simpl. repeat mstep. simpl. intros _; apply stmt_keeps_same.
      + simpl. apply post_bind_any; intro. destruct e0; repeat mstep; simpl; intros _; apply stmt_keeps_same.
      + simpl. repeat mstep; simpl; intros _; apply stmt_keeps_same.
      + rewrite exec_stmt_if. apply post_bind_any; intro.
        eapply post_weaken; [apply if_go_keeps; [apply Hb | apply Hc]|].
        intros rr Ha A. apply stmt_keeps_of. apply Ha. exact A.
      + simpl. apply post_bind_any; intro.
        eapply post_weaken; [apply Hw|]. intros rr Ha A. apply stmt_keeps_of. apply Ha. exact A.
      + rewrite exec_stmt_for. apply post_bind_any; intro.
        eapply post_bind; [apply for_init_top|]. intros [rg e2] [T V]; simpl in T, V.
        eapply post_bind; [apply Hf|]. intros [sig e3] H3; simpl in H3.
        apply post_ret; simpl. intro A. apply stmt_keeps_of.
        specialize (H3 V A). unfold keeps_tl in H3. rewrite T in H3. exact H3.
      + simpl. repeat mstep; simpl; intros _; apply stmt_keeps_same.
    - intros P e l. destruct l as [|s t]; [rewrite exec_stmts_nil; apply post_ret; intros _; reflexivity|].
      rewrite exec_stmts_cons. eapply post_bind; [apply Hs|]. intros [sig e1] H; simpl in H.
      destruct (is_ctl sig).
      + apply post_ret. simpl. intro A. apply orb_false_iff in A as [A _]. apply H; exact A.
      + eapply post_weaken; [apply Hss|]. intros rr Ha; simpl in Ha. simpl. intro A.
        apply orb_false_iff in A as [A1 A2]. unfold keeps_tl in *. rewrite (Ha A2). apply H; exact A1.
    - intros P e l. rewrite exec_block_unfold. apply post_bind_any; intro. apply Hss.
    - intros P e c body. rewrite exec_cond_unfold. do 2 (apply post_bind_any; intro).
      destruct a0; try apply post_internal. destruct b; [|apply post_ret; intros _; reflexivity].
      eapply post_bind; [apply Hb|]. intros [sig e2] H; simpl in H.
      apply post_ret; simpl. intro A. apply keeps_push_pop. apply H; exact A.
    - intros P e c body. rewrite while_unfold.
      eapply post_bind; [apply Hc|]. intros [r e1] H; simpl in H.
      destruct r as [[| |v]|]; try (apply post_ret; exact H).
      eapply post_weaken; [apply Hw|]. intros rr Ha; simpl in Ha. simpl. intro A.
      unfold keeps in *. rewrite (Ha A). apply H; exact A.
    - intros P e var rg body. rewrite exec_for_unfold. apply post_bind_any; intros [[l rg']|]; simpl;
        [|apply post_ret; intros _ _; reflexivity].
      apply post_imp; intro V. apply post_imp; intro A.
      eapply post_bind; [apply post_update_var_top|]. intros e1 H1. destruct (H1 V) as [T1 V1].
      destruct (scope_inv_all f) as (_ & _ & Hbs & _).
      eapply post_bind; [apply post_conj; [apply Hb | apply Hbs]|]. intros [sig e2] [H2 X2]; simpl in H2, X2.
      specialize (H2 A).
      assert (V2 : var_in_top var (tl e2))
        by (eapply var_in_top_ext; [apply shape_ext, ext_push_pop; exact X2 | exact V1]).
      assert (K : keeps_tl e (tl e2)).
      { unfold keeps_tl in *. cbn [tl] in H2. rewrite (bindings_tl x (tl e2)), H2, <- bindings_tl, T1. reflexivity. }
      destruct sig; try (apply post_ret; exact K).
      eapply post_weaken; [apply Hf|]. intros rr Ha; simpl in Ha.
      unfold keeps_tl in *. rewrite (Ha V2 A). exact K.
  Qed.
End Shadow.

(* A block that contains no assignment [x = ...] leaves x bound, in every
   frame of the enclosing environment, to the cell it was bound to before —
   whatever it declares (shadowing x at any depth), loops over, or calls. *)
Theorem shadowing_restores_outer x n P e body st sig e2 st' :
  exec_block n P ([] :: e) body st = (Ok (sig, e2), st') ->
  existsb (assigns x) body = false ->
  bindings x (tl e2) = bindings x e.
Proof.
  intros H A. destruct (shadow_inv_all x n) as (_ & _ & Hb & _). apply Hb in H. exact (H A).
Qed.

Theorem compound_keeps_bindings x n P e s st sig e' st' :
  exec_stmt n P e s st = (Ok (sig, e'), st') ->
  assigns x s = false ->
  bindings x (tl e') = bindings x (tl e) /\ (is_decl s = false -> bindings x e' = bindings x e).
Proof.
  intros H A. destruct (shadow_inv_all x n) as (Hs & _). apply Hs in H. exact (H A).
Qed.

Theorem for_stmt_trace n P e var vt r body st sig e' st' :
  exec_stmt n P e (SFor var vt r body) st = (Ok (sig, e'), st') ->
  exists f st0 rg e2 st1 tr en e3,
    for_init f P ([] :: e) var vt r st0 = (Ok (rg, e2), st1) /\     (* range evaluated once, here *)
    tl e2 = e /\ var_in_top (loopvar_name var) e2 /\
    for_trace P (loopvar_name var) body rg e2 st1 tr en e3 st' /\
    sig = for_end_signal en /\ e' = tl e3.
Proof.
  destruct n as [|f]; [discriminate|]. rewrite exec_stmt_for. intro H.
  apply bindM_inv in H as (u & st0 & _ & H). apply bindM_inv in H as ([rg e2] & st1 & HI & H).
  apply bindM_inv in H as ([sg e3] & st2 & HF & H). inversion H; subst.
  apply exec_for_trace in HF as (tr & en & HT & ->).
  pose proof (for_init_top f P [] e var vt r _ _ _ HI) as [T V]. simpl in T, V.
  exists f, st0, rg, e2, st1, tr, en, e3. repeat split; assumption.
Qed.

Lemma range_num_inv f P e1 o d st a st1 :
  range_num f P e1 o d st = (Ok a, st1) ->
  exists l, eval_expr f P e1 (match o with Some y => y | None => ENum d end) st = (Ok l, st1) /\
            hget (st_heap st1) l = Some (HNum a).
Proof.
  unfold range_num. intro H. apply bindM_inv in H as (l & s1 & HE & H).
  apply bindM_inv in H as (v & s2 & L & H). apply load_inv in L as [-> L].
  destruct v; try discriminate. inversion H; subst. exists l. split; assumption.
Qed.

(* numeric range: the ranger is built from the three numbers obtained by
   evaluating start / stop / step (defaults 0 and 1) once, in this order *)
Theorem for_init_step_inv f P e1 var vt start stop step st rg e2 st' :
  for_init f P e1 var vt (RStep start stop step) st = (Ok (rg, e2), st') ->
  exists a st1 b st2 c st3,
    range_num f P e1 start 0%float st = (Ok a, st1) /\
    range_num f P e1 (Some stop) 0%float st1 = (Ok b, st2) /\
    range_num f P e1 step 1%float st2 = (Ok c, st3) /\
    PrimFloat.eqb c 0 = false /\ rg = RgStep a b c.
Proof.
  rewrite for_init_step_unfold. intro H.
  apply bindM_inv in H as (a & st1 & A & H). apply bindM_inv in H as (b & st2 & B & H).
  apply bindM_inv in H as (c & st3 & C & H). destruct (PrimFloat.eqb c 0) eqn:Z; [discriminate|].
  apply bindM_inv in H as (e2' & st4 & _ & H). inversion H; subst.
  exists a, st1, b, st2, c, st3. repeat split; assumption.
Qed.

(* array / string / map range: the ranger holds the array CELL (re-read at each
   step), the STRING VALUE at loop entry, the map cell and the KEY ORDER at loop entry *)
Theorem for_init_expr_inv f P e1 var vt y st rg e2 st' :
  for_init f P e1 var vt (RExpr y) st = (Ok (rg, e2), st') ->
  exists l st1, eval_expr f P e1 y st = (Ok l, st1) /\
    match hget (st_heap st1) l with
    | Some (HArr _) => rg = RgArr l 0
    | Some (HStr s) => rg = RgStr s 0
    | Some (HMap om) => rg = RgMap l (order om)
    | _ => False
    end.
Proof.
  simpl. intro H. apply bindM_inv in H as (l & st1 & E & H).
  apply bindM_inv in H as (v & s2 & L & H). apply load_inv in L as [-> L].
  exists l, st1. split; [exact E|]. rewrite L.
  destruct v; try discriminate; apply bindM_inv in H as (e2' & st4 & _ & H); inversion H; reflexivity.
Qed.

(* C10's [steps] agrees with Go's stop test when no NaN is involved *)
Import SpecFloat.

Lemma not_nan_compare x y : is_nan x = false -> is_nan y = false ->
  exists c, SFcompare (Prim2SF x) (Prim2SF y) = Some c.
Proof.
  unfold is_nan. rewrite !FloatAxioms.eqb_spec. unfold SFeqb. intros Hx Hy.
  destruct (Prim2SF x) as [sx|sx| |sx mx ex], (Prim2SF y) as [sy|sy| |sy my ey]; simpl in *;
    try discriminate; eexists; reflexivity.
Qed.

Lemma leb_negb_ltb x y : is_nan x = false -> is_nan y = false ->
  PrimFloat.leb y x = negb (PrimFloat.ltb x y).
Proof.
  intros Hx Hy. rewrite FloatAxioms.leb_spec, FloatAxioms.ltb_spec. unfold SFleb, SFltb.
  rewrite SFcompare_antisym. destruct (not_nan_compare x y Hx Hy) as [c ->]. destruct c; reflexivity.
Qed.

Lemma ltb_asym x y : PrimFloat.ltb x y = true -> PrimFloat.ltb y x = false.
Proof.
  rewrite !FloatAxioms.ltb_spec. unfold SFltb. rewrite (SFcompare_antisym (Prim2SF x) (Prim2SF y)).
  destruct (SFcompare (Prim2SF x) (Prim2SF y)) as [[]|]; simpl; congruence.
Qed.

Lemma nonzero_sign s : is_nan s = false -> PrimFloat.eqb s 0 = false ->
  PrimFloat.ltb 0 s = true \/ PrimFloat.ltb s 0 = true.
Proof.
  intros Hs Hz. assert (H0 : is_nan 0 = false) by reflexivity.
  destruct (not_nan_compare s 0%float Hs H0) as [c Hc].
  rewrite FloatAxioms.eqb_spec in Hz. rewrite !FloatAxioms.ltb_spec. unfold SFeqb, SFltb in *.
  rewrite (SFcompare_antisym (Prim2SF s) (Prim2SF 0)), Hc in *. destruct c; simpl in *; auto; discriminate.
Qed.

Lemma step_live_done cur stop step :
  is_nan cur = false -> is_nan stop = false -> is_nan step = false -> PrimFloat.eqb step 0 = false ->
  step_live cur stop step = negb (step_done cur stop step).
Proof.
  intros Hc Hs Ht Hz. unfold step_live, step_done.
  rewrite (leb_negb_ltb cur stop Hc Hs), (leb_negb_ltb stop cur Hs Hc).
  destruct (nonzero_sign step Ht Hz) as [Q|Q]; rewrite Q, (ltb_asym _ _ Q); simpl;
    rewrite ?orb_false_r, negb_involutive; reflexivity.
Qed.

Fixpoint iter_add (j : nat) (cur step : float) : float :=
  match j with O => cur | S j' => iter_add j' (cur + step)%float step end.

Lemma steps_agree k : forall cur stop step,
  is_nan stop = false -> is_nan step = false -> PrimFloat.eqb step 0 = false ->
  (forall j, j < k -> is_nan (iter_add j cur step) = false) ->
  steps k cur stop step = go_steps k cur stop step.
Proof.
  induction k as [|k IH]; intros cur stop step Hs Ht Hz Hn; [reflexivity|].
  simpl. rewrite step_live_done; try assumption; [|apply (Hn 0); lia].
  destruct (step_done cur stop step); simpl; [reflexivity|]. f_equal.
  apply IH; try assumption. intros j Hj. apply (Hn (S j)). lia.
Qed.

(* for_num_spec with C10's sequence, valid whenever no NaN is involved *)
Theorem for_num_spec_steps P var body a b c e st tr en e' st' :
  for_trace P var body (RgStep a b c) e st tr en e' st' ->
  is_nan b = false -> is_nan c = false -> PrimFloat.eqb c 0 = false ->
  (forall j, j <= List.length tr -> is_nan (iter_add j a c) = false) ->
  map visit_val tr = map (fun x => Some (HNum x)) (steps (List.length tr) a b c) /\
  (en = FeDone -> steps (S (List.length tr)) a b c = steps (List.length tr) a b c).
Proof.
  intros H Hb Hc Hz Hn. apply for_num_spec in H as [H1 H2].
  rewrite !steps_agree; try assumption; [split; assumption | |]; intros j Hj; apply Hn; lia.
Qed.

(* ... and refuted when the start value is NaN: C10's sequence is empty, the loop (in the model as in ranger.go, whose stop test is
   "step > 0 && cur >= stop") never ends *)
Definition f_nan : float := Eval vm_compute in (0 / 0)%float.

Lemma nan_loop_never_ends : forall n P e st r st',
  exec_for n P e underscore (RgStep f_nan 1 1) [] st <> (Ok r, st').
Proof.
  induction n as [|f IH]; intros P e st r st' H; [discriminate|].
  rewrite exec_for_unfold in H. apply bindM_inv in H as (nx & st1 & H1 & H).
  simpl in H1. change (step_done f_nan 1 1) with false in H1. cbv iota in H1.
  apply bindM_inv in H1 as (l & s1 & _ & H1). inversion H1; subst. simpl in H.
  change (f_nan + 1)%float with f_nan in H.
  apply bindM_inv in H as (e1 & st2 & U & H). unfold update_var in U. simpl in U. inversion U; subst.
  apply bindM_inv in H as ([sg e2] & st3 & B & H).
  destruct f as [|f']; [discriminate|]. rewrite exec_block_unfold in B.
  apply bindM_inv in B as (u & st4 & _ & B). destruct f' as [|f'']; [discriminate|].
  rewrite exec_stmts_nil in B. inversion B; subst. exact (IH _ _ _ _ _ H).
Qed.

Theorem for_num_spec_nan_refuted :
  exists a b c, PrimFloat.eqb c 0 = false /\ steps 5 a b c = [] /\
    go_steps 5 a b c = [a; a; a; a; a] /\
    forall n P e st r st', exec_for n P e underscore (RgStep a b c) [] st <> (Ok r, st').
Proof.
  exists f_nan, 1%float, 1%float.
  split; [vm_compute; reflexivity|]. split; [vm_compute; reflexivity|]. split; [vm_compute; reflexivity|].
  apply nan_loop_never_ends.
Qed.

(* the unrestricted statement with C10's sequence is false *)
Definition for_num_spec_full : Prop :=
  forall P var body a b c e st tr en e' st',
    for_trace P var body (RgStep a b c) e st tr en e' st' ->
    PrimFloat.eqb c 0 = false ->
    map visit_val tr = map (fun x => Some (HNum x)) (steps (List.length tr) a b c) /\
    (en = FeDone -> steps (S (List.length tr)) a b c = steps (List.length tr) a b c).

Definition empty_prog : program := {| p_funcs := []; p_handlers := []; p_stmts := [] |}.

Theorem for_num_spec_full_refuted : ~ for_num_spec_full.
Proof.
  intro F.
  assert (T : exists v e' st', for_trace empty_prog underscore [SBreak] (RgStep f_nan 1 1) []
                 (init_state None [] false false) [v] FeBreak e' st').
  { eexists; eexists; eexists. eapply ft_break with (k := 3%nat); reflexivity. }
  destruct T as (v & e' & st' & T). destruct (F _ _ _ _ _ _ _ _ _ _ _ _ T eq_refl) as [T' _]. clear T; rename T' into T.
  simpl in T. change (step_live f_nan 1 1) with false in T. discriminate.
Qed.

Theorem break_leaves_innermost_loop :
  (* a break signal arriving from the body ends the while loop, which reports no signal *)
  (forall f P e c body st e1 st1,
     exec_cond f P e c body st = (Ok (Some SigBreak, e1), st1) ->
     exec_while (S f) P e c body st = (Ok (SigNone, e1), st1)) /\
  (* the same for every kind of for loop *)
  (forall f P e var rg body st l rg' st1 e1 st2 e2 st3,
     for_next rg st = (Ok (Some (l, rg')), st1) -> update_var var l e st1 = (Ok e1, st2) ->
     exec_block f P ([] :: e1) body st2 = (Ok (SigBreak, e2), st3) ->
     exec_for (S f) P e var rg body st = (Ok (SigNone, tl e2), st3)) /\
  (* no loop ever reports a break to its surroundings, whatever its body is *)
  (forall n P e c body st sig e' st',
     exec_while n P e c body st = (Ok (sig, e'), st') -> sig <> SigBreak) /\
  (forall n P e var rg body st sig e' st',
     exec_for n P e var rg body st = (Ok (sig, e'), st') -> sig <> SigBreak) /\
  (* a statement reports a break only if it is a break nested in if-blocks only *)
  (forall n P e s st e' st',
     exec_stmt n P e s st = (Ok (SigBreak, e'), st') -> break_reachable s = true) /\
  (* on the way out: a statement list stops at the signalling statement, and an
     if statement reports exactly the signal of the block it ran *)
  (forall f P e s t st sig e1 st1,
     exec_stmt f P e s st = (Ok (sig, e1), st1) -> is_ctl sig = true ->
     exec_stmts (S f) P e (s :: t) st = (Ok (sig, e1), st1)) /\
  (forall n P e conds els st sig e' st',
     exec_stmt n P e (SIf conds els) st = (Ok (sig, e'), st') ->
     (sig = SigNone /\ e' = e) \/
     exists body k st0 e2, In body (if_bodies conds els) /\
       exec_block k P ([] :: e) body st0 = (Ok (sig, e2), st') /\ e' = tl e2).
Proof.
  repeat apply conj.
  - exact while_break_ends_loop.
  - exact for_break_ends_loop.
  - exact while_consumes_break.
  - exact for_consumes_break.
  - exact break_origin.
  - exact stmts_signal_stops.
  - exact if_signal_is_block_signal.
Qed.

Theorem return_leaves_call :
  (* every enclosing construct passes SigReturn v on unchanged ... *)
  (forall f P e s t st v e1 st1,
     exec_stmt f P e s st = (Ok (SigReturn v, e1), st1) ->
     exec_stmts (S f) P e (s :: t) st = (Ok (SigReturn v, e1), st1)) /\
  (forall f P e l st st0 sig e' st',
     tick st = (Ok tt, st0) -> exec_stmts f P e l st0 = (Ok (sig, e'), st') ->
     exec_block (S f) P e l st = (Ok (sig, e'), st')) /\
  (forall f P e c body st l st1 st2 sig e2 st',
     eval_expr f P ([] :: e) c st = (Ok l, st1) -> load l st1 = (Ok (HBool true), st2) ->
     exec_block f P ([] :: e) body st2 = (Ok (sig, e2), st') ->
     exec_cond (S f) P e c body st = (Ok (Some sig, tl e2), st')) /\
  (forall f P els c body t e st sig e1 st1,
     exec_cond f P e c body st = (Ok (Some sig, e1), st1) ->
     if_go f P els ((c, body) :: t) e st = (Ok (sig, e1), st1)) /\
  (forall f P e c body st v e1 st1,
     exec_cond f P e c body st = (Ok (Some (SigReturn v), e1), st1) ->
     exec_while (S f) P e c body st = (Ok (SigReturn v, e1), st1)) /\
  (forall f P e var rg body st l rg' st1 e1 st2 v e2 st3,
     for_next rg st = (Ok (Some (l, rg')), st1) -> update_var var l e st1 = (Ok e1, st2) ->
     exec_block f P ([] :: e1) body st2 = (Ok (SigReturn v, e2), st3) ->
     exec_for (S f) P e var rg body st = (Ok (SigReturn v, tl e2), st3)) /\
  (* ... and the call consumes it: SigReturn v becomes the call's value, the
     callee environment is dropped *)
  (forall f P fd vals st fr st1 v e2 st2,
     call_frame fd vals st = (Ok fr, st1) ->
     exec_block f P [fr] (fn_body fd) st1 = (Ok (SigReturn v, e2), st2) ->
     call_user f P fd vals st = (Ok v, st2)) /\
  (forall f P fd vals st fr st1 sig e2 st2,
     call_frame fd vals st = (Ok fr, st1) ->
     exec_block f P [fr] (fn_body fd) st1 = (Ok (sig, e2), st2) ->
     (forall v, sig <> SigReturn v) ->
     call_user f P fd vals st = (let* l := alloc HNone in ret (Some l)) st2) /\
  (* a return signal originates from a return statement under if/while/for blocks *)
  (forall n P e s st v e' st',
     exec_stmt n P e s st = (Ok (SigReturn v, e'), st') -> return_reachable s = true).
Proof.
  repeat apply conj.
  - intros. eapply stmts_signal_stops; [eassumption | reflexivity].
  - exact block_passes_signal.
  - exact cond_passes_signal.
  - exact if_go_taken.
  - exact while_return_passes.
  - exact for_return_passes.
  - exact call_user_return.
  - exact call_user_no_return.
  - exact return_origin.
Qed.
