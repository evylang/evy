(* SemSound.v — type soundness of the evaluator model (Sem.v) for programs accepted by the
   certificate checker (Static.v), in the two fragments Static.s1_program and Static.s2_program.
   Store typing S : cell ↦ dynamic type; every expression of static type t evaluates to a cell of
   dynamic type t; no run of the main program or of an event handler ends in EInternal or EHostCrash,
   except, in the second fragment, by exhausting the host stack on a value that contains itself. *)
From Coq Require Import ZArith NArith PArith List String Bool Floats FMapPositive Lia.
From EvyV Require Import Base Num Ast Omap OmapProofs Sem SemBasics SemPure Static StaticProofs.
Import ListNotations.
Open Scope Z_scope.

(* the host crashes that are the exhaustion of the host stack by a value that contains itself *)
Definition overflow_reason (w : str) : Prop :=
  w = s_ "stack overflow in String" \/ w = s_ "stack overflow in Equals" \/
  w = s_ "stack overflow in deepCopy" \/ w = s_ "stack overflow in same".

(* The whole development is parametrised by [strict]:
   strict = true  : `any` never occurs inside a composite type; then values are as deep as their
                    types and NO run ends in an internal error or a host crash;
   strict = false : every value type; the only host crash left is the stack overflow on a cyclic value. *)
Section Sound.
Context (strict : bool).
(* the typing of the program's globals (the frame wt_top computes); it extends the built-in globals *)
Context (Gg : sframe).
Context (HGg : forall n t, sget n global_frame0 = Some t -> sget n Gg = Some t).

Definition safe_err (e : err) : Prop :=
  match e with
  | EInternal _ => False
  | EHostCrash w => strict = false /\ overflow_reason w
  | _ => True
  end.

Definition wp {A} (r : res A * state) (Q : A -> state -> Prop) : Prop :=
  match r with (Ok a, s') => Q a s' | (Er er, _) => safe_err er end.

Lemma wp_bind {A B} (m : M A) (k : A -> M B) s Q :
  wp (m s) (fun a s' => wp (k a s') Q) -> wp (bindM m k s) Q.
Proof. unfold bindM, wp. destruct (m s) as [[a|er] s1]; auto. Qed.

Lemma wp_mono {A} (r : res A * state) (Q Q' : A -> state -> Prop) :
  wp r Q -> (forall a s, Q a s -> Q' a s) -> wp r Q'.
Proof. unfold wp. destruct r as [[a|er] s1]; auto. Qed.

Lemma wp_ret {A} (a : A) s (Q : A -> state -> Prop) : Q a s -> wp (ret a s) Q.
Proof. exact (fun H => H). Qed.

Lemma wp_fail {A} (e : err) s (Q : A -> state -> Prop) : safe_err e -> wp (fail e s) Q.
Proof. exact (fun H => H). Qed.

(* [wbind H]: [H] proves a postcondition of the first computation of a bind; the rest is then shown for
   every result that satisfies it *)
Ltac wbind H := apply wp_bind; eapply wp_mono; [ H | cbv beta ].

Definition sty := PositiveMap.t ty.
Definition sfind (S : sty) (l : loc) : option ty := PositiveMap.find l S.
Definition ext (S S' : sty) : Prop := forall l t, sfind S l = Some t -> sfind S' l = Some t.

Lemma ext_refl S : ext S S. Proof. intros l t H; exact H. Qed.
Lemma ext_trans S1 S2 S3 : ext S1 S2 -> ext S2 S3 -> ext S1 S3.
Proof. intros H1 H2 l t H; auto. Qed.

(* dynamic types: strict: `any` only at the top and bounded nesting; otherwise every value type *)
Definition ty_ok1 (t : ty) : bool :=
  if strict then (ty_s1 t || is_none t) && ty_small t else ty_value t || is_none t.

Inductive cell_ok (S : sty) : hval -> ty -> Prop :=
| CNum f : cell_ok S (HNum f) TNum
| CStr x : cell_ok S (HStr x) TStr
| CBool b : cell_ok S (HBool b) TBool
| CAny u i : u <> TAny -> u <> TNone -> sfind S i = Some u -> cell_ok S (HAny u i) TAny
| CArr u els : Forall (fun i => sfind S i = Some u) els -> cell_ok S (HArr els) (TArr u)
| CEmpty : cell_ok S (HArr []) TEmptyArr
| CMap u m : Inv m -> Forall (fun kv => sfind S (snd kv) = Some u) (pairs m) -> cell_ok S (HMap m) (TMap u)
| CEmptyMap m : pairs m = [] -> order m = [] -> cell_ok S (HMap m) TEmptyMap
| CNone : cell_ok S HNone TNone.

Lemma cell_ok_ext S S' v t : ext S S' -> cell_ok S v t -> cell_ok S' v t.
Proof.
  intros E H; inversion H; subst; constructor; auto;
    (eapply Forall_impl; [|eassumption]); cbv beta; auto.
Qed.

Lemma cell_ok_inv S v t : cell_ok S v t ->
  match t with
  | TNum => exists f, v = HNum f
  | TStr => exists x, v = HStr x
  | TBool => exists b, v = HBool b
  | TAny => exists u i, v = HAny u i /\ u <> TAny /\ u <> TNone /\ sfind S i = Some u
  | TArr u => exists els, v = HArr els /\ Forall (fun i => sfind S i = Some u) els
  | TEmptyArr => v = HArr []
  | TMap u => exists m, v = HMap m /\ Inv m /\ Forall (fun kv => sfind S (snd kv) = Some u) (pairs m)
  | TEmptyMap => exists m, v = HMap m /\ pairs m = [] /\ order m = []
  | TNone => v = HNone
  | _ => False
  end.
Proof. destruct 1; eauto 7. Qed.

Lemma plookup_In {V} k (p : list (str * V)) v : plookup k p = Some v -> In (k, v) p.
Proof.
  induction p as [|[k' v'] p IH]; simpl; [discriminate|].
  destruct (str_eqb k' k) eqn:E.
  - apply str_eqb_eq in E; subst. intros H; inversion H; auto.
  - auto.
Qed.

Lemma map_entry_typed (S : sty) u (m : omap loc) k i :
  Forall (fun kv => sfind S (snd kv) = Some u) (pairs m) -> plookup k (pairs m) = Some i -> sfind S i = Some u.
Proof. intros HF H. apply plookup_In in H. rewrite Forall_forall in HF. exact (HF _ H). Qed.

Lemma map_order_has {V} (m : omap V) k : Inv m -> In k (order m) -> exists i, plookup k (pairs m) = Some i.
Proof.
  intros (_ & _ & H) Hk. apply H in Hk. apply plookup_In_keys in Hk.
  destruct (plookup k (pairs m)); [eauto|congruence].
Qed.

Lemma Inv_oset {V} k (v : V) m : Inv m -> Inv (oset k v m).
Proof. intros H. exact (proj1 (set_R m (abs m) k v (conj H eq_refl))). Qed.

Lemma Inv_odel {V} k (m : omap V) : Inv m -> Inv (odel k m).
Proof. intros H. exact (proj1 (del_R m (abs m) k (conj H eq_refl))). Qed.

Lemma Inv_oempty {V} : Inv (@oempty V).
Proof. exact (proj1 R_empty). Qed.

Lemma Inv_keys {V} (ps : list (str * V)) o : map fst ps = o -> NoDup o -> Inv {| pairs := ps; order := o |}.
Proof. intros <- N. unfold Inv, keys; simpl. repeat split; auto. Qed.

Lemma Forall_premove {V} (P : str * V -> Prop) k p : Forall P p -> Forall P (premove k p).
Proof.
  induction 1 as [|[k' v'] p Hx Hp IH]; simpl; [constructor|].
  destruct (str_eqb k' k); auto.
Qed.

Lemma Forall_pset {V} (P : str * V -> Prop) k v p : P (k, v) -> Forall P p -> Forall P (pset k v p).
Proof. intros H1 H2. Transparent pset. unfold pset. Opaque pset. constructor; auto using Forall_premove. Qed.

Lemma pairs_oset {V} k (v : V) m : pairs (oset k v m) = pset k v (pairs m).
Proof. unfold oset. destruct (plookup k (pairs m)); reflexivity. Qed.

Lemma pairs_odel_Forall {V} (P : str * V -> Prop) k m : Forall P (pairs m) -> Forall P (pairs (odel k m)).
Proof. unfold odel. destruct (plookup k (pairs m)); simpl; auto using Forall_premove. Qed.

Record heap_ok (S : sty) (h : heap) : Prop := {
  ho_cells : forall l t, sfind S l = Some t -> exists v, hget h l = Some v /\ cell_ok S v t;
  ho_dom : forall l t, sfind S l = Some t -> (l < hnext h)%positive;
  ho_tys : forall l t, sfind S l = Some t -> ty_ok1 t = true }.

Definition sframe_sub (a b : sframe) : Prop := forall n t, sget n a = Some t -> sget n b = Some t.

(* a local frame: exactly the statically declared names, at their types *)
Definition frame_ok (S : sty) (sf : sframe) (df : frame) : Prop :=
  (forall n t, sget n sf = Some t -> exists l, frame_get n df = Some l /\ sfind S l = Some t) /\
  (forall n l, frame_get n df = Some l -> sget n sf <> None).

(* the globals: those declared so far, at the types the program gives them; err and errmsg exist *)
Definition globals_ok (S : sty) (g : frame) : Prop :=
  (forall n l, frame_get n g = Some l -> exists t, sget n Gg = Some t /\ sfind S l = Some t) /\
  frame_get n_err g <> None /\ frame_get n_errmsg g <> None.

Inductive env_ok (S : sty) : tyenv -> env -> frame -> Prop :=
| EO_glob gs g : sframe_sub gs Gg -> globals_ok S g -> env_ok S [gs] [] g
| EO_cons sf G df e g : frame_ok S sf df -> env_ok S G e g -> env_ok S (sf :: G) (df :: e) g.

Definition full (e : env) (s : state) : list frame := e ++ [st_globals s].

Definition inv (S : sty) (G : tyenv) (e : env) (s : state) : Prop :=
  heap_ok S (st_heap s) /\ env_ok S G e (st_globals s).

Lemma frame_ok_nil S : frame_ok S [] [].
Proof. split; simpl; intros; discriminate. Qed.

Lemma frame_ok_ext S S' sf df : ext S S' -> frame_ok S sf df -> frame_ok S' sf df.
Proof.
  intros E [H1 H2]; split; auto.
  intros n t Hn. destruct (H1 n t Hn) as (l & Hl & Ht). eauto.
Qed.

Lemma globals_ok_ext S S' g : ext S S' -> globals_ok S g -> globals_ok S' g.
Proof.
  intros E (H1 & H2 & H3); split; auto.
  intros n l Hn. destruct (H1 n l Hn) as (t & Ht & Hl). eauto.
Qed.

Lemma env_ok_ext S S' G e g : ext S S' -> env_ok S G e g -> env_ok S' G e g.
Proof. intros E H; induction H; constructor; eauto using frame_ok_ext, globals_ok_ext. Qed.

Lemma env_ok_length S G e g : env_ok S G e g -> List.length G = Datatypes.S (List.length e).
Proof. induction 1; simpl; auto. Qed.

Lemma env_ok_globals S G e g : env_ok S G e g -> globals_ok S g.
Proof. induction 1; auto. Qed.

Lemma env_ok_reglob S G e g g' : env_ok S G e g -> globals_ok S g' -> env_ok S G e g'.
Proof. intros H Hg; induction H; constructor; auto. Qed.

Lemma env_get_app n e g : env_get n (e ++ [g]) = match env_get n e with Some l => Some l | None => frame_get n g end.
Proof.
  induction e as [|f e IH]; simpl.
  - destruct (frame_get n g); reflexivity.
  - destruct (frame_get n f); auto.
Qed.

Lemma env_lookup_sound S G e g n t l :
  env_ok S G e g -> slookup n G = Some t -> env_get n (e ++ [g]) = Some l -> sfind S l = Some t.
Proof.
  induction 1 as [gs g Hsub (Hg & _)|sf G df e g [H1 H2] He IH]; simpl.
  - destruct (sget n gs) as [t0|] eqn:Hs; [|discriminate]. intros Ht; inversion Ht; subst.
    destruct (frame_get n g) as [l0|] eqn:Hl; [|discriminate]. intros Hx; inversion Hx; subst.
    destruct (Hg _ _ Hl) as (t' & Ht' & Hl'). rewrite (Hsub _ _ Hs) in Ht'. congruence.
  - intros Hs. destruct (sget n sf) as [t0|] eqn:Hg.
    + inversion Hs; subst. destruct (H1 n t Hg) as (l0 & Hl0 & Ht0). rewrite Hl0. congruence.
    + destruct (frame_get n df) as [l0|] eqn:Hd; [exfalso; eapply H2; eauto|]. auto.
Qed.

Lemma lookup_full n e s : str_eqb n underscore = false -> lookup n e s = (Ok (env_get n (full e s)), s).
Proof.
  intros Hn. unfold lookup, full. rewrite Hn, env_get_app. destruct (env_get n e); reflexivity.
Qed.

Lemma tick_wp s : wp (tick s) (fun _ s' => st_heap s' = st_heap s /\ st_globals s' = st_globals s).
Proof.
  unfold tick. destruct (st_stopped s); [exact I|].
  match goal with |- context [if ?c then _ else _] => destruct c end; simpl; auto.
Qed.

Lemma emitE_wp ev s : wp (emitE ev s) (fun _ s' => st_heap s' = st_heap s /\ st_globals s' = st_globals s).
Proof. simpl; auto. Qed.

Lemma heap_ok_alloc S h v t :
  heap_ok S h -> cell_ok S v t -> ty_ok1 t = true ->
  let l := hnext h in
  let S' := PositiveMap.add l t S in
  ext S S' /\ heap_ok S' (snd (halloc h v)) /\ sfind S' l = Some t.
Proof.
  intros [Hc Hd Ht] Hv Hok l S'.
  assert (E : ext S S').
  { intros l0 t0 H0. unfold S', sfind. rewrite PositiveMap.gso; auto.
    intro; subst l0. apply Hd in H0. unfold l in H0. lia. }
  split; [exact E|]. split.
  - constructor.
    + intros l0 t0 H0. unfold S', sfind in H0. unfold hget; simpl.
      destruct (Pos.eq_dec l0 l) as [->|Hne].
      * rewrite PositiveMap.gss in H0. inversion H0; subst.
        exists v. fold l. rewrite PositiveMap.gss. split; auto. eapply cell_ok_ext; eauto.
      * rewrite PositiveMap.gso in H0 by auto. fold l. rewrite PositiveMap.gso by auto.
        destruct (Hc l0 t0 H0) as (v0 & Hg & Hk). exists v0; split; auto. eapply cell_ok_ext; eauto.
    + intros l0 t0 H0. unfold S', sfind in H0. simpl.
      destruct (Pos.eq_dec l0 l) as [->|Hne].
      * unfold l. lia.
      * rewrite PositiveMap.gso in H0 by auto. apply Hd in H0. lia.
    + intros l0 t0 H0. unfold S', sfind in H0.
      destruct (Pos.eq_dec l0 l) as [->|Hne].
      * rewrite PositiveMap.gss in H0. inversion H0; subst; auto.
      * rewrite PositiveMap.gso in H0 by auto. eauto.
  - unfold S', sfind. apply PositiveMap.gss.
Qed.

Lemma alloc_wp S s v t :
  heap_ok S (st_heap s) -> cell_ok S v t -> ty_ok1 t = true ->
  wp (alloc v s) (fun l s' => exists S', ext S S' /\ heap_ok S' (st_heap s') /\ sfind S' l = Some t
                                         /\ st_globals s' = st_globals s).
Proof.
  intros Hh Hv Ht. unfold alloc, wp. simpl.
  destruct (heap_ok_alloc S (st_heap s) v t Hh Hv Ht) as (E & H1 & H2).
  eexists; split; [exact E|]. split; [exact H1|]. split; [exact H2|reflexivity].
Qed.

Lemma load_wp S s l t :
  heap_ok S (st_heap s) -> sfind S l = Some t ->
  wp (load l s) (fun v s' => s' = s /\ cell_ok S v t).
Proof.
  intros Hh Hl. unfold load. destruct (ho_cells _ _ Hh l t Hl) as (v & Hg & Hc). rewrite Hg. simpl; auto.
Qed.

Lemma heap_ok_store S h l v t :
  heap_ok S h -> sfind S l = Some t -> cell_ok S v t -> heap_ok S (hset h l v).
Proof.
  intros [Hc Hd Ht] Hl Hv. constructor; auto.
  intros l0 t0 H0. unfold hget, hset; simpl.
  destruct (Pos.eq_dec l0 l) as [->|Hne].
  - rewrite PositiveMap.gss. rewrite Hl in H0; inversion H0; subst. eauto.
  - rewrite PositiveMap.gso by auto. apply Hc; auto.
Qed.

Lemma store_wp S s l v t :
  heap_ok S (st_heap s) -> sfind S l = Some t -> cell_ok S v t ->
  wp (store l v s) (fun _ s' => heap_ok S (st_heap s') /\ st_globals s' = st_globals s).
Proof. intros. simpl. split; auto. eapply heap_ok_store; eauto. Qed.

Definition hpost {A} (S : sty) (g : frame) (R : sty -> A -> Prop) : A -> state -> Prop :=
  fun a s' => exists S', ext S S' /\ heap_ok S' (st_heap s') /\ st_globals s' = g /\ R S' a.

(* [hdone S']: an [hpost] holds with the store typing S', its parts found among the hypotheses *)
Ltac hdone S' :=
  exists S'; split; [eauto using ext_refl, ext_trans | split; [eassumption | split; [try reflexivity; try congruence | eauto]]].

Lemma alloc_hpost S0 S s v t :
  ext S0 S -> heap_ok S (st_heap s) -> cell_ok S v t -> ty_ok1 t = true ->
  wp (alloc v s) (hpost S0 (st_globals s) (fun S' l => sfind S' l = Some t)).
Proof.
  intros E0 Hh Hv Ht. eapply wp_mono; [eapply alloc_wp; eauto|]. cbv beta.
  intros l s' (S' & E & H1 & H2 & H3). hdone S'.
Qed.

Lemma ty_s1in_not_none t : ty_s1in t = true -> t <> TNone.
Proof. intros H E; subst; discriminate. Qed.

Lemma ty_s1in_value t : ty_s1in t = true -> ty_value t = true.
Proof. induction t; simpl; auto; discriminate. Qed.

Lemma ty_value_not_none t : ty_value t = true -> t <> TNone.
Proof. intros H E; subst; discriminate. Qed.

Ltac ok1t := unfold ty_ok1; case strict; reflexivity.

Lemma ok1_TNum : ty_ok1 TNum = true. Proof. ok1t. Qed.
Lemma ok1_TStr : ty_ok1 TStr = true. Proof. ok1t. Qed.
Lemma ok1_TBool : ty_ok1 TBool = true. Proof. ok1t. Qed.
Lemma ok1_TAny : ty_ok1 TAny = true. Proof. ok1t. Qed.
Lemma ok1_TNone : ty_ok1 TNone = true. Proof. ok1t. Qed.
Lemma ok1_TEmptyArr : ty_ok1 TEmptyArr = true. Proof. ok1t. Qed.
Lemma ok1_TEmptyMap : ty_ok1 TEmptyMap = true. Proof. ok1t. Qed.
Hint Resolve ok1_TNum ok1_TStr ok1_TBool ok1_TAny ok1_TNone ok1_TEmptyArr ok1_TEmptyMap : core.

Lemma ok1_small t : strict = true -> ty_ok1 t = true -> ty_small t = true.
Proof. unfold ty_ok1. intros ->. intros H; apply andb_true_iff in H; tauto. Qed.

Lemma ok1_dyn t : ty_ok1 t = true -> ty_value t = true \/ t = TNone.
Proof.
  unfold ty_ok1. destruct strict; intros H.
  - apply andb_true_iff in H as [H _]. apply orb_true_iff in H as [H|H].
    + left. destruct t; simpl in *; auto using ty_s1in_value; discriminate.
    + right. destruct t; simpl in *; auto; discriminate.
  - apply orb_true_iff in H as [H|H]; auto. right. destruct t; simpl in *; auto; discriminate.
Qed.

Lemma ok1_s1in t : strict = true -> ty_ok1 t = true -> t <> TAny -> t <> TNone -> ty_s1in t = true.
Proof.
  unfold ty_ok1. intros -> H N1 N2. apply andb_true_iff in H as [H _]. apply orb_true_iff in H as [H|H].
  - destruct t; simpl in *; auto; congruence.
  - destruct t; simpl in *; try discriminate; congruence.
Qed.

Lemma ok1_elem t u : (t = TArr u \/ t = TMap u) -> ty_ok1 t = true -> ty_ok1 u = true /\ u <> TNone.
Proof.
  unfold ty_ok1, ty_small. intros Ht H. destruct strict.
  - apply andb_true_iff in H as [H1 H2]. apply Nat.leb_le in H2.
    assert (ty_s1in u = true /\ (ty_depth u <= max_ty_depth)%nat) as [Hs Hd].
    { destruct Ht as [->| ->]; simpl in *; rewrite orb_false_r in H1; split; auto; lia. }
    split; [|intros ->; discriminate].
    apply andb_true_iff; split; [|apply Nat.leb_le; auto].
    apply orb_true_iff; left. destruct u; simpl in *; auto; discriminate.
  - assert (ty_value u = true) by (destruct Ht as [->| ->]; simpl in *; rewrite orb_false_r in H; auto).
    split; [apply orb_true_iff; auto|auto using ty_value_not_none].
Qed.

Lemma ty_ann_fr_ty_ok1 t : ty_ann t = true -> fr_ty strict t = true -> ty_ok1 t = true.
Proof.
  unfold ty_ann, ty_ok1, fr_ty. intros H1 H2. apply andb_true_iff in H1 as [H0 H1]. destruct strict.
  - rewrite H2, H1. reflexivity.
  - rewrite H0. reflexivity.
Qed.

Lemma fr_tyin_fr_ty t : fr_tyin strict t = true -> fr_ty strict t = true.
Proof. unfold fr_tyin, fr_ty. destruct strict; auto. destruct t; auto; discriminate. Qed.

Lemma ty_ann_fr_ok1 t : ty_ann t = true -> fr_tyin strict t = true -> ty_ok1 t = true.
Proof. auto using ty_ann_fr_ty_ok1, fr_tyin_fr_ty. Qed.

Lemma fr_tyin_elem t u : (t = TArr u \/ t = TMap u) -> fr_tyin strict t = true -> fr_tyin strict u = true.
Proof. unfold fr_tyin. destruct strict; auto. intros [->| ->]; auto. Qed.

Lemma copy_or_ref_wp d : forall S s l t,
  heap_ok S (st_heap s) -> sfind S l = Some t -> t <> TNone ->
  wp (copy_or_ref d l s) (hpost S (st_globals s) (fun S' l' => sfind S' l' = Some t)).
Proof.
  induction d as [|d IH]; intros S s l t Hh Hl Hn; [exact I|].
  cbn [copy_or_ref].
  wbind ltac:(eapply load_wp; eauto). intros v s' [-> Hc].
  pose proof (ho_tys _ _ Hh _ _ Hl) as Hok.
  inversion Hc; subst.
  1-3: apply (alloc_hpost S S); auto using ext_refl.
  - wbind ltac:(eapply (IH S s i u); eauto).
    intros i' s1 (S1 & E1 & Hh1 & Hg1 & Hi1). rewrite <- Hg1.
    apply (alloc_hpost S S1); auto. constructor; auto.
  - apply wp_ret. hdone S.
  - apply wp_ret. hdone S.
  - apply wp_ret. hdone S.
  - apply wp_ret. hdone S.
  - congruence.
Qed.

Lemma Forall2_out {A B} (P : B -> Prop) (xs : list A) ys : Forall2 (fun _ b => P b) xs ys -> Forall P ys.
Proof. induction 1; constructor; auto. Qed.

Lemma mapM_wp {A B} (f : A -> M B) (Pa : sty -> A -> Prop) (R : sty -> A -> B -> Prop) g :
  (forall S S' a, ext S S' -> Pa S a -> Pa S' a) ->
  (forall S S' a b, ext S S' -> R S a b -> R S' a b) ->
  (forall S s a, heap_ok S (st_heap s) -> st_globals s = g -> Pa S a ->
      wp (f a s) (hpost S g (fun S' b => R S' a b))) ->
  forall l S s, heap_ok S (st_heap s) -> st_globals s = g -> Forall (Pa S) l ->
    wp (mapM f l s) (hpost S g (fun S' bs => Forall2 (R S') l bs)).
Proof.
  intros MP MR Hf. induction l as [|a l IH]; intros S s Hh Hg Hall; cbn [mapM].
  - apply wp_ret. hdone S.
  - inversion Hall; subst.
    wbind ltac:(eapply Hf; eauto). intros b s1 (S1 & E1 & Hh1 & Hg1 & Hr1).
    wbind ltac:(eapply (IH S1 s1); eauto; eapply Forall_impl; [|eassumption]; cbv beta; eauto).
    intros bs s2 (S2 & E2 & Hh2 & Hg2 & Hr2).
    apply wp_ret. hdone S2.
Qed.

Lemma mapM_pure {A B} (f : A -> M B) l s :
  (forall a, In a l -> wp (f a s) (fun _ s' => s' = s)) -> wp (mapM f l s) (fun _ s' => s' = s).
Proof.
  induction l as [|a l IH]; intros H; cbn [mapM]; [reflexivity|].
  wbind ltac:(apply H; left; reflexivity). intros b s1 ->.
  wbind ltac:(apply IH; intros; apply H; right; assumption). intros bs s1 ->.
  reflexivity.
Qed.

(* [d] levels of recursion suffice to walk a value of type t *)
Definition deep_ok (t : ty) (d : nat) : Prop :=
  (t = TAny /\ (S max_ty_depth < d)%nat) \/ ((ty_s1in t = true \/ t = TNone) /\ (ty_depth t < d)%nat).

Lemma ty_small_le t : ty_small t = true -> (ty_depth t <= max_ty_depth)%nat.
Proof. unfold ty_small. apply Nat.leb_le. Qed.

Lemma deep_ok_elem t u d :
  (t = TArr u \/ t = TMap u) -> (strict = true -> deep_ok t (S d)) -> strict = true -> deep_ok u d.
Proof.
  intros Ht H Hs. destruct (H Hs) as [[Hx _]|[[Hx|Hx] Hy]]; destruct Ht; subst; try discriminate;
    (right; split; [left; exact Hx|simpl in Hy; lia]).
Qed.

Lemma deep_ok_any St h i u d :
  heap_ok St h -> sfind St i = Some u -> u <> TAny -> u <> TNone ->
  (strict = true -> deep_ok TAny (S d)) -> strict = true -> deep_ok u d.
Proof.
  intros Hh Hi N1 N2 H Hs. pose proof (ho_tys _ _ Hh _ _ Hi) as Hok.
  right; split; [left; eauto using ok1_s1in|].
  pose proof (ty_small_le _ (ok1_small _ Hs Hok)).
  destruct (H Hs) as [[_ Hx]|[[Hx|Hx] _]]; try discriminate. lia.
Qed.

Lemma overflow_wp {A} (w : string) s (Q : A -> state -> Prop) t :
  overflow_reason (s_ w) -> (strict = true -> deep_ok t 0) -> wp (crash w s) Q.
Proof.
  intros Hw Hd. unfold crash, fail, wp, safe_err. destruct strict eqn:Es.
  - destruct (Hd eq_refl) as [[_ H]|[_ H]]; lia.
  - auto.
Qed.

Lemma show_wp d : forall S s r l t,
  heap_ok S (st_heap s) -> sfind S l = Some t -> (strict = true -> deep_ok t d) ->
  wp (show d r l s) (fun _ s' => s' = s).
Proof.
  induction d as [|d IH]; intros S s r l t Hh Hl Hd.
  { cbn [show]. eapply overflow_wp; eauto. left; reflexivity. }
  cbn [show].
  wbind ltac:(eapply load_wp; eauto). intros v s' [-> Hc].
  inversion Hc; subst.
  - reflexivity.
  - destruct r; [|reflexivity]. destruct (go_quote x); [reflexivity|exact I].
  - reflexivity.
  - eapply IH; eauto using deep_ok_any.
  - wbind ltac:(apply mapM_pure). 2:{ intros; subst; reflexivity. }
    intros a Ha.
    match goal with Hf : Forall _ els |- _ => rewrite Forall_forall in Hf; specialize (Hf a Ha) end.
    eapply IH; eauto using deep_ok_elem.
  - reflexivity.
  - (* map *)
    wbind ltac:(apply mapM_pure). 2:{ intros; subst; reflexivity. }
    intros k Hk.
    match goal with HI : Inv m |- _ => destruct (map_order_has m k HI Hk) as (i & Hi) end. rewrite Hi.
    wbind ltac:(eapply IH; eauto using map_entry_typed, deep_ok_elem). intros; subst; reflexivity.
  - match goal with Ho : order m = [] |- _ => rewrite Ho end. reflexivity.
  - reflexivity.
Qed.

Lemma shape_compat t u :
  ty_value t = true -> ty_value u = true -> ty_eqb (ty_shape t) (ty_shape u) = true -> ty_compat t u = true.
Proof.
  revert u; induction t; intros u Ht Hu H; destruct u; simpl in *; try discriminate; auto.
Qed.

Section EqGo.
  Context (eqf : loc -> loc -> M bool) (s : state).
  Lemma eq_go_pure : forall xs ys,
    (forall x y, In x xs -> In y ys -> wp (eqf x y s) (fun _ s' => s' = s)) ->
    wp ((fix go (xs ys : list loc) : M bool :=
           match xs, ys with
           | x :: xt, y :: yt => let* e := eqf x y in if e then go xt yt else ret false
           | _, _ => ret true
           end) xs ys s) (fun _ s' => s' = s).
  Proof.
    induction xs as [|x xs IH]; intros ys H; [reflexivity|].
    destruct ys as [|y ys]; [reflexivity|].
    wbind ltac:(apply H; left; reflexivity). intros e s1 ->.
    destruct e; [|reflexivity]. apply IH. intros; apply H; right; assumption.
  Qed.
End EqGo.

Section EqMapGo.
  Context (eqf : loc -> loc -> M bool) (s : state) (p2 : list (str * loc)).
  Lemma eq_mgo_pure : forall ps,
    (forall k i j, In (k, i) ps -> plookup k p2 = Some j -> wp (eqf i j s) (fun _ s' => s' = s)) ->
    wp ((fix go (ps : list (str * loc)) : M bool :=
           match ps with
           | [] => ret true
           | (k, i) :: t =>
               match plookup k p2 with
               | None => ret false
               | Some j => let* e := eqf i j in if e then go t else ret false
               end
           end) ps s) (fun _ s' => s' = s).
  Proof.
    induction ps as [|[k i] ps IH]; intros H; [reflexivity|].
    destruct (plookup k p2) as [j|] eqn:Ej; [|reflexivity].
    wbind ltac:(eapply H; [left; reflexivity|exact Ej]). intros e s1 ->.
    destruct e; [|reflexivity]. apply IH. intros; eapply H; eauto. right; assumption.
  Qed.
End EqMapGo.

Lemma wp_load_known {A} l v (k : hval -> M A) s Q :
  hget (st_heap s) l = Some v -> wp (k v s) Q -> wp (bindM (load l) k s) Q.
Proof. unfold bindM, load. intros ->. exact (fun H => H). Qed.

Lemma equals_wp d : forall S s a b ta tb,
  heap_ok S (st_heap s) -> sfind S a = Some ta -> sfind S b = Some tb ->
  ty_compat ta tb = true -> (strict = true -> deep_ok ta d) -> (strict = true -> deep_ok tb d) ->
  wp (equals d a b s) (fun _ s' => s' = s).
Proof.
  induction d as [|d IH]; intros S s a b ta tb Hh Ha Hb Hc Hda Hdb.
  { cbn [equals]. eapply overflow_wp; eauto. right; left; reflexivity. }
  assert (VAL : forall i u, sfind S i = Some u -> u <> TNone -> ty_value u = true).
  { intros i u Hi Hn. destruct (ok1_dyn _ (ho_tys _ _ Hh _ _ Hi)); congruence. }
  (* the two cells are read first, whatever they hold; their types then say what they hold *)
  destruct (ho_cells _ _ Hh _ _ Ha) as (va & Hga & Hva), (ho_cells _ _ Hh _ _ Hb) as (vb & Hgb & Hvb).
  cbn [equals]. apply (wp_load_known _ _ _ _ _ Hga), (wp_load_known _ _ _ _ _ Hgb).
  apply cell_ok_inv in Hva, Hvb.
  destruct ta, tb; try discriminate Hc; cbn [ty_compat] in Hc.
  1-3: destruct Hva as [x ->], Hvb as [y ->]; reflexivity.
  - destruct Hva as (u & i & -> & Nu & Nu' & Hi), Hvb as (u0 & j & -> & Nu0 & Nu0' & Hj). cbv beta iota.
    destruct (ty_eqb (ty_shape u) (ty_shape u0)) eqn:Hs; [|reflexivity].
    eapply IH; eauto using shape_compat, deep_ok_any.
  - destruct Hva as (xs & -> & Hxs), Hvb as (ys & -> & Hys). cbv beta iota.
    destruct (negb (Nat.eqb (List.length xs) (List.length ys))); [reflexivity|].
    apply eq_go_pure. intros x y Hx Hy. rewrite Forall_forall in Hxs, Hys.
    eapply IH; eauto using deep_ok_elem.
  - destruct Hva as (xs & -> & Hxs). subst vb. cbv beta iota.
    destruct (negb (Nat.eqb (List.length xs) (List.length (@nil loc)))); [reflexivity|].
    apply eq_go_pure. intros x y Hx [].
  - destruct Hva as (m1 & -> & I1 & F1), Hvb as (m2 & -> & I2 & F2). cbv beta iota.
    match goal with |- context [if ?c then _ else _] => destruct c; [reflexivity|] end.
    apply eq_mgo_pure. intros k i j Hin Hj. rewrite Forall_forall in F1. pose proof (F1 _ Hin) as Hti.
    eapply IH; eauto using map_entry_typed, deep_ok_elem.
  - destruct Hva as (m1 & -> & I1 & F1), Hvb as (m2 & -> & P2 & O2). cbv beta iota.
    match goal with |- context [if ?c then _ else _] => destruct c; [reflexivity|] end.
    apply eq_mgo_pure. intros k i j Hin Hj. rewrite P2 in Hj. discriminate.
  - destruct Hvb as (ys & -> & Hys). subst va. cbv beta iota.
    destruct (negb (Nat.eqb (List.length (@nil loc)) (List.length ys))); reflexivity.
  - subst va vb. reflexivity.
  - destruct Hva as (m1 & -> & P1 & O1), Hvb as (m2 & -> & I2 & F2). cbv beta iota.
    match goal with |- context [if ?c then _ else _] => destruct c; [reflexivity|] end.
    rewrite P1. reflexivity.
  - destruct Hva as (m1 & -> & P1 & O1), Hvb as (m2 & -> & P2 & O2). cbv beta iota.
    match goal with |- context [if ?c then _ else _] => destruct c; [reflexivity|] end.
    rewrite P1. reflexivity.
Qed.

(* same(want, got) of the test built-in: walks [got] *)
Lemma same_wp d : forall S s w g tw tg,
  heap_ok S (st_heap s) -> sfind S w = Some tw -> sfind S g = Some tg ->
  (strict = true -> deep_ok tg d) ->
  wp (same d w g s) (fun _ s' => s' = s).
Proof.
  induction d as [|d IH]; intros S s w g tw tg Hh Hw Hg Hd.
  { cbn [same]. eapply overflow_wp; eauto. right; right; right; reflexivity. }
  cbn [same].
  wbind ltac:(eapply load_wp; eauto). intros vg s' [-> Hvg].
  wbind ltac:(eapply load_wp; eauto). intros vw s' [-> Hvw].
  inversion Hvg; subst.
  - destruct vw; reflexivity.
  - destruct vw; reflexivity.
  - destruct vw; reflexivity.
  - (* got is an any *)
    assert (Hdi : strict = true -> deep_ok u d) by eauto using deep_ok_any.
    inversion Hvw; subst; eapply IH; eauto.
  - (* got is an array *)
    inversion Hvw; subst; try reflexivity.
    + match goal with |- context [if ?c then _ else _] => destruct c; [reflexivity|] end.
      apply eq_go_pure. intros x y Hx Hy.
      match goal with H1 : Forall _ els, H2 : Forall _ els0 |- _ => rewrite Forall_forall in H1, H2;
        pose proof (H1 _ Hy); pose proof (H2 _ Hx) end.
      eapply IH; eauto using deep_ok_elem.
    + match goal with |- context [if ?c then _ else _] => destruct c; reflexivity end.
  - (* got is the untyped [] *)
    inversion Hvw; subst; try reflexivity;
      try (match goal with |- context [if ?c then _ else _] => destruct c; [reflexivity|] end);
      try reflexivity; try (apply eq_go_pure; intros x y Hx []).
  - (* got is a map *)
    inversion Hvw; subst; try reflexivity.
    + match goal with |- context [if ?c then _ else _] => destruct c; [reflexivity|] end.
      apply eq_mgo_pure. intros k i j Hin Hj.
      match goal with HF : Forall _ (pairs m0) |- _ => rewrite Forall_forall in HF; pose proof (HF _ Hin) as Hti end.
      simpl in Hti. eapply IH; eauto using map_entry_typed, deep_ok_elem.
    + match goal with |- context [if ?c then _ else _] => destruct c; [reflexivity|] end.
      match goal with Hp : pairs m0 = [] |- _ => rewrite Hp end. reflexivity.
  - (* got is the untyped {} *)
    inversion Hvw; subst; try reflexivity.
    + match goal with |- context [if ?c then _ else _] => destruct c; [reflexivity|] end.
      apply eq_mgo_pure. intros k i j Hin Hj.
      match goal with Hp : pairs m = [] |- _ => rewrite Hp in Hj end. discriminate.
    + match goal with |- context [if ?c then _ else _] => destruct c; [reflexivity|] end.
      match goal with Hp : pairs m0 = [] |- _ => rewrite Hp end. reflexivity.
  - destruct vw; reflexivity.
Qed.

Lemma deep_copy_wp d : forall S s l t,
  heap_ok S (st_heap s) -> sfind S l = Some t -> t <> TNone -> (strict = true -> deep_ok t d) ->
  wp (deep_copy d l s) (hpost S (st_globals s) (fun S' l' => sfind S' l' = Some t)).
Proof.
  induction d as [|d IH]; intros S s l t Hh Hl Hn Hd.
  { cbn [deep_copy]. eapply overflow_wp; eauto. right; right; left; reflexivity. }
  cbn [deep_copy].
  wbind ltac:(eapply load_wp; eauto). intros v s' [-> Hc].
  pose proof (ho_tys _ _ Hh _ _ Hl) as Hok.
  inversion Hc; subst; try congruence.
  1-3: apply (alloc_hpost S S); auto using ext_refl.
  - (* any *)
    wbind ltac:(eapply (IH S s i u); eauto using deep_ok_any).
    intros i' s1 (S1 & E1 & Hh1 & Hg1 & Hi1).
    rewrite <- Hg1. apply (alloc_hpost S S1); auto. constructor; auto.
  - (* array *)
    destruct (ok1_elem (TArr u) u (or_introl eq_refl) Hok) as [Hoku Hnu].
    wbind ltac:(eapply (mapM_wp (deep_copy d) (fun S a => sfind S a = Some u)
                          (fun S a b => sfind S b = Some u) (st_globals s)); eauto).
    1:{ intros S0 s0 a Hh0 Hg0 Ha. rewrite <- Hg0. eapply IH; eauto.
        eauto using deep_ok_elem. }
    intros els' s1 (S1 & E1 & Hh1 & Hg1 & Hr1).
    rewrite <- Hg1. apply (alloc_hpost S S1); auto.
    constructor. exact (Forall2_out _ _ _ Hr1).
  - cbn [mapM]. unfold bindM at 1. cbn [ret].
    apply (alloc_hpost S S); auto using ext_refl.
  - (* map *)
    destruct (ok1_elem (TMap u) u (or_intror eq_refl) Hok) as [Hoku Hnu].
    match goal with HI : Inv m, HF : Forall _ (pairs m) |- _ => rename HI into HInv; rename HF into HFm end.
    wbind ltac:(eapply (mapM_wp
        (fun k => match plookup k (pairs m) with
                  | Some i => let* i' := deep_copy d i in ret (k, i')
                  | None => crash "nil map entry"
                  end)
        (fun S k => exists i, plookup k (pairs m) = Some i /\ sfind S i = Some u)
        (fun S k kv => fst kv = k /\ sfind S (snd kv) = Some u) (st_globals s)); eauto).
    + intros S1 S2 k E12 (i & H1 & H2). eauto.
    + intros S1 S2 k kv E12 [H1 H2]. auto.
    + intros S0 s0 k Hh0 Hg0 (i & Hi & Hti). rewrite Hi.
      wbind ltac:(eapply (IH S0 s0 i u); eauto using deep_ok_elem).
      intros i' s1 (S1 & E1 & Hh1 & Hg1 & Hi1). apply wp_ret. hdone S1.
    + rewrite Forall_forall. intros k Hk. destruct (map_order_has m k HInv Hk) as (i & Hi).
      eauto using map_entry_typed.
    + intros ps s1 (S1 & E1 & Hh1 & Hg1 & Hr1).
      assert (Hk : map fst ps = order m /\ Forall (fun kv => sfind S1 (snd kv) = Some u) ps).
      { clear -Hr1. induction Hr1 as [|k kv o ps [H1 H2] _ [I1 I2]]; simpl; [auto|]. split; [congruence|auto]. }
      destruct Hk as [Hk1 Hk2].
      rewrite <- Hg1. apply (alloc_hpost S S1); auto.
      constructor; simpl; auto. apply Inv_keys; [exact Hk1|apply HInv].
  - match goal with Ho : order m = [] |- _ => rewrite Ho end.
    cbn [mapM]. unfold bindM at 1. cbn [ret].
    apply (alloc_hpost S S); auto using ext_refl. constructor; auto.
Qed.

Lemma str_eqb_sym a b : str_eqb a b = str_eqb b a.
Proof. exact (SemBasics.str_eqb_sym a b). Qed.

Lemma frame_ok_decl S sf df n t l :
  frame_ok S sf df -> sfind S l = Some t -> sget n sf = None ->
  frame_ok S ((n, t) :: sf) (frame_set n l df).
Proof.
  intros [H1 H2] Hl Hn; split.
  - intros k t0. simpl. destruct (str_eqb n k) eqn:E.
    + apply str_eqb_eq in E; subst k. intros H; inversion H; subst.
      exists l; split; auto using frame_get_set_same.
    + intros Hk. rewrite frame_get_set_other; auto.
      apply str_eqb_neq in E; congruence.
  - intros k l0. simpl. destruct (str_eqb n k) eqn:E; [discriminate|].
    apply str_eqb_neq in E. rewrite frame_get_set_other by congruence. eauto.
Qed.

Lemma frame_ok_replace S sf df n t l :
  frame_ok S sf df -> sfind S l = Some t -> sget n sf = Some t -> frame_ok S sf (frame_replace n l df).
Proof.
  intros [H1 H2] Hl Hs; split.
  - intros k t0 Hk. destruct (str_eq_dec k n) as [->|Hne].
    + rewrite Hk in Hs. inversion Hs; subst. destruct (H1 _ _ Hk) as (l0 & Hl0 & _).
      exists l; split; auto. apply frame_get_replace_same. congruence.
    + rewrite frame_get_replace_other by auto. auto.
  - intros k l0 Hk. destruct (str_eq_dec k n) as [->|Hne]; [congruence|].
    rewrite frame_get_replace_other in Hk by auto. eauto.
Qed.

Lemma frame_get_replace_none n k l f : frame_get k f <> None -> frame_get k (frame_replace n l f) <> None.
Proof.
  intros H. destruct (str_eq_dec k n) as [->|Hne].
  - rewrite frame_get_replace_same; congruence.
  - rewrite frame_get_replace_other; auto.
Qed.

Lemma frame_get_set_none n k l f : frame_get k f <> None -> frame_get k (frame_set n l f) <> None.
Proof.
  intros H. destruct (str_eq_dec k n) as [->|Hne].
  - rewrite frame_get_set_same; congruence.
  - rewrite frame_get_set_other; auto.
Qed.

Lemma globals_ok_replace S g n t l :
  globals_ok S g -> sget n Gg = Some t -> sfind S l = Some t -> frame_get n g <> None ->
  globals_ok S (frame_replace n l g).
Proof.
  intros (H1 & H2 & H3) Hs Hl Hn. split; [|split; apply frame_get_replace_none; auto].
  intros k l0 Hk. destruct (str_eq_dec k n) as [->|Hne].
  - rewrite frame_get_replace_same in Hk by auto. inversion Hk; subst. eauto.
  - rewrite frame_get_replace_other in Hk by auto. eauto.
Qed.

Lemma globals_ok_set S g n t l :
  globals_ok S g -> sget n Gg = Some t -> sfind S l = Some t -> globals_ok S (frame_set n l g).
Proof.
  intros (H1 & H2 & H3) Hs Hl. split; [|split; apply frame_get_set_none; auto].
  intros k l0 Hk. destruct (str_eq_dec k n) as [->|Hne].
  - rewrite frame_get_set_same in Hk. inversion Hk; subst. eauto.
  - rewrite frame_get_set_other in Hk by auto. eauto.
Qed.

Lemma env_update_length n l e e' : env_update n l e = Some e' -> List.length e' = List.length e.
Proof.
  revert e'; induction e as [|f e IH]; simpl; intros e' H; [discriminate|].
  destruct (frame_get n f); [inversion H; reflexivity|].
  destruct (env_update n l e); simpl in H; inversion H; subst. simpl; f_equal; auto.
Qed.

Lemma env_update_locals S G e g n t l e' :
  env_ok S G e g -> slookup n G = Some t -> sfind S l = Some t ->
  env_update n l e = Some e' -> env_ok S G e' g.
Proof.
  intros H; revert e'. induction H as [gs g Hsub Hg|sf G df e g Hf He IH]; intros e' Hs Hl Hu; simpl in *; [discriminate|].
  destruct (frame_get n df) as [l0|] eqn:Hd.
  - inversion Hu; subst. constructor; auto.
    destruct Hf as [H1 H2]. destruct (sget n sf) as [t0|] eqn:Hsf; [|exfalso; eapply H2; eauto].
    inversion Hs; subst. eapply frame_ok_replace; eauto. split; auto.
  - destruct (env_update n l e) as [e1|] eqn:Hu'; simpl in Hu; inversion Hu; subst.
    constructor; auto. apply IH; auto.
    destruct (sget n sf) as [t0|] eqn:Hsf; auto.
    destruct Hf as [H1 _]. destruct (H1 _ _ Hsf) as (l0 & Hl0 & _). congruence.
Qed.

(* no local frame binds the name: the checker resolved it in the global frame *)
Lemma env_update_none S G e g n t l :
  env_ok S G e g -> slookup n G = Some t -> env_update n l e = None -> sget n Gg = Some t.
Proof.
  induction 1 as [gs g Hsub Hg|sf G df e g Hf He IH]; simpl.
  - destruct (sget n gs) eqn:Hs; [|discriminate]. intros Ht _; inversion Ht; subst. auto.
  - intros Hs Hu. destruct (frame_get n df) eqn:Hd; [discriminate|].
    destruct (env_update n l e); [discriminate|].
    destruct (sget n sf) as [t0|] eqn:Hsf; auto.
    destruct Hf as [H1 _]. destruct (H1 _ _ Hsf) as (l0 & Hl0 & _). congruence.
Qed.

Lemma update_var_ok S G e s n t l :
  inv S G e s -> slookup n G = Some t -> sfind S l = Some t ->
  wp (update_var n l e s) (fun e' s' => inv S G e' s' /\ List.length e' = List.length e).
Proof.
  intros [Hh He] Hs Hl. unfold update_var.
  destruct (str_eqb n underscore); [simpl; split; [split|]; auto|].
  destruct (env_update n l e) as [e'|] eqn:Hu.
  - simpl. split; [split; eauto using env_update_locals|eauto using env_update_length].
  - destruct (frame_get n (st_globals s)) eqn:Hg; [|exact I].
    simpl. split; auto. split; auto.
    eapply env_ok_reglob; eauto. eapply globals_ok_replace; eauto using env_ok_globals, env_update_none.
    congruence.
Qed.

Lemma set_var_ok S sf G0 e s n t l :
  inv S (sf :: G0) e s -> sfind S l = Some t -> sget n sf = None -> str_eqb n underscore = false ->
  (G0 = [] -> sframe_sub ((n, t) :: sf) Gg) ->
  wp (set_var n l e s) (fun e' s' => inv S (((n, t) :: sf) :: G0) e' s' /\ List.length e' = List.length e).
Proof.
  intros [Hh He] Hl Hn Hus Hsub. unfold set_var. rewrite Hus.
  inversion He; subst.
  - simpl. split; auto. split; auto. constructor; auto.
    eapply globals_ok_set; eauto. apply (Hsub eq_refl). simpl. rewrite str_eqb_refl. reflexivity.
  - simpl. split; auto. split; auto. constructor; auto using frame_ok_decl.
Qed.

Lemma env_ok_push S G e g : env_ok S G e g -> env_ok S (push G) ([] :: e) g.
Proof. intros H. constructor; auto using frame_ok_nil. Qed.

Lemma env_ok_pop S sf G e g :
  env_ok S (sf :: G) e g -> G <> [] -> env_ok S G (tl e) g /\ e <> [].
Proof.
  intros H HG. inversion H; subst; [congruence|]. simpl. split; auto. discriminate.
Qed.

(* growth of the top static frame by declarations *)
Inductive fgrows (sf0 : sframe) : sframe -> Prop :=
| FG_refl : fgrows sf0 sf0
| FG_decl sf n t : fgrows sf0 sf -> sget n sf = None -> binder_ok n = true -> fgrows sf0 ((n, t) :: sf).

Definition grows (G G' : tyenv) : Prop :=
  exists sf0 sf T, G = sf0 :: T /\ G' = sf :: T /\ fgrows sf0 sf.

Lemma fgrows_trans a c d : fgrows a c -> fgrows c d -> fgrows a d.
Proof. intros H1 H2; induction H2; auto. constructor; auto. Qed.

Lemma grows_refl G : G <> [] -> grows G G.
Proof. destruct G as [|sf T]; [congruence|]. intros _. exists sf, sf, T; repeat split; constructor. Qed.

Lemma grows_trans G1 G2 G3 : grows G1 G2 -> grows G2 G3 -> grows G1 G3.
Proof.
  intros (a & c & T & -> & -> & H1) (c' & d & T' & E & -> & H2).
  inversion E; subst. exists a, d, T'; repeat split; eauto using fgrows_trans.
Qed.

Lemma ty_eqb_refl a : ty_eqb a a = true.
Proof. exact (ty_eqb_same a). Qed.

(* err / errmsg resolve to the built-in globals; the program's functions check against the globals *)
Definition funcs_ok (P : program) : Prop :=
  forall fd, In fd (p_funcs P) -> wt_func (p_funcs P) Gg fd = true /\ s1_func strict fd = true.

Definition genv_ok (P : program) (G : tyenv) : Prop :=
  slookup n_err G = Some TBool /\ slookup n_errmsg G = Some TStr /\ funcs_ok P.

Lemma binder_not_reserved n : binder_ok n = true -> n <> n_err /\ n <> n_errmsg /\ str_eqb n underscore = false.
Proof.
  unfold binder_ok. intros H. apply andb_true_iff in H as [H1 H2].
  apply negb_true_iff in H1, H2. split; [|split]; auto.
  - intros ->. vm_compute in H2. discriminate.
  - intros ->. vm_compute in H2. discriminate.
Qed.

Lemma genv_ok_push P G : genv_ok P G -> genv_ok P (push G).
Proof. intros H; exact H. Qed.

Lemma sget_other n k t sf : n <> k -> sget k ((n, t) :: sf) = sget k sf.
Proof. intros H. simpl. destruct (str_eqb n k) eqn:E; auto. apply str_eqb_eq in E; congruence. Qed.

Lemma genv_ok_grows P G G' : grows G G' -> genv_ok P G -> genv_ok P G'.
Proof.
  intros (a & c & T & -> & -> & H) HG. induction H; auto.
  destruct IHfgrows as (I1 & I2 & I3). apply binder_not_reserved in H1 as (N1 & N2 & _).
  unfold genv_ok in *. cbn [slookup] in *. rewrite !sget_other by auto. auto.
Qed.

Lemma genv_ok_frame P G v vt : binder_ok v = true -> genv_ok P G -> genv_ok P ([(v, vt)] :: G).
Proof.
  intros Hb (H1 & H2 & H3). apply binder_not_reserved in Hb as (N1 & N2 & _).
  unfold genv_ok; simpl. destruct (str_eqb v n_err) eqn:E1; [apply str_eqb_eq in E1; congruence|].
  destruct (str_eqb v n_errmsg) eqn:E2; [apply str_eqb_eq in E2; congruence|]. auto.
Qed.

Lemma load_num_wp S s l : heap_ok S (st_heap s) -> sfind S l = Some TNum -> wp (load_num l s) (fun _ s' => s' = s).
Proof.
  intros Hh Hl. unfold load_num. wbind ltac:(eapply load_wp; eauto). intros v s' [-> Hc].
  apply cell_ok_inv in Hc as [x ->]. reflexivity.
Qed.
Lemma load_str_wp S s l : heap_ok S (st_heap s) -> sfind S l = Some TStr -> wp (load_str l s) (fun _ s' => s' = s).
Proof.
  intros Hh Hl. unfold load_str. wbind ltac:(eapply load_wp; eauto). intros v s' [-> Hc].
  apply cell_ok_inv in Hc as [x ->]. reflexivity.
Qed.
Lemma load_bool_wp S s l : heap_ok S (st_heap s) -> sfind S l = Some TBool -> wp (load_bool l s) (fun _ s' => s' = s).
Proof.
  intros Hh Hl. unfold load_bool. wbind ltac:(eapply load_wp; eauto). intros v s' [-> Hc].
  apply cell_ok_inv in Hc as [x ->]. reflexivity.
Qed.

Lemma value_depth_big : (S (S max_ty_depth) < value_depth)%nat.
Proof. unfold value_depth, max_ty_depth. lia. Qed.

Lemma deep_ok_of_ok1 t : strict = true -> ty_ok1 t = true -> deep_ok t value_depth.
Proof.
  intros Hs Hok. pose proof value_depth_big.
  unfold ty_ok1 in Hok. rewrite Hs in Hok. apply andb_true_iff in Hok as [H1 H2]. apply ty_small_le in H2.
  destruct t; simpl in H1; try discriminate;
    try (left; split; [reflexivity|lia]);
    try (right; split; [try rewrite orb_false_r in H1; auto|simpl in *; lia]).
Qed.

Lemma deep_ok_value S h l t : heap_ok S h -> sfind S l = Some t -> strict = true -> deep_ok t value_depth.
Proof. intros Hh Hl Hs. eapply deep_ok_of_ok1; eauto. eapply ho_tys; eauto. Qed.

Lemma ty_ann_value t : ty_ann t = true -> ty_value t = true.
Proof. unfold ty_ann; intros H; apply andb_true_iff in H; tauto. Qed.

Lemma arg_ok_value p a : arg_ok p a = true -> ty_value a = true.
Proof.
  unfold arg_ok. destruct p; try (intros H; apply andb_true_iff in H as [_ H]; auto using ty_ann_value);
    destruct a; try discriminate; auto using ty_ann_value.
Qed.

Lemma s1_expr_EMap t ps : s1_expr strict (EMap t ps) = fr_tyin strict t && s1_pairs strict ps.
Proof. reflexivity. Qed.

Lemma keys_nodup_NoDup l : keys_nodup l = true -> NoDup l.
Proof.
  induction l as [|x l IH]; simpl; intros H; constructor; apply andb_true_iff in H as [H1 H2]; auto.
  apply negb_true_iff in H1. intros Hin. apply mem_str_In in Hin. congruence.
Qed.

Lemma s1_expr_EArr t es : s1_expr strict (EArr t es) = fr_tyin strict t && s1_exprs strict es.
Proof. reflexivity. Qed.
Lemma s1_expr_ECall name t args : s1_expr strict (ECall name t args) = call_frag name && s1_exprs strict args.
Proof. reflexivity. Qed.
Lemma s1_expr_ESlice t l lo hi : s1_expr strict (ESlice t l lo hi) = fr_tyin strict t && s1_expr strict l && s1_opt strict lo && s1_opt strict hi.
Proof. reflexivity. Qed.

Lemma inv_step S S' G e s s' :
  inv S G e s -> ext S S' -> heap_ok S' (st_heap s') -> st_globals s' = st_globals s -> inv S' G e s'.
Proof. intros [Hh He] E Hh' Hg. split; auto. rewrite Hg. eauto using env_ok_ext. Qed.

Lemma inv_store S G e s s' : inv S G e s -> heap_ok S (st_heap s') -> st_globals s' = st_globals s -> inv S G e s'.
Proof. intros Hi Hh Hg. exact (inv_step _ _ _ _ _ _ Hi (ext_refl _) Hh Hg). Qed.

Lemma inv_same S G e s s' :
  inv S G e s -> st_heap s' = st_heap s -> st_globals s' = st_globals s -> inv S G e s'.
Proof. intros Hi H1. apply inv_store; [exact Hi|]. rewrite H1. apply Hi. Qed.

Definition epost (S : sty) (G : tyenv) (e : env) (t : ty) : loc -> state -> Prop :=
  fun l s' => exists S', ext S S' /\ inv S' G e s' /\ sfind S' l = Some t.

Lemma alloc_epost S0 S G e s v t :
  ext S0 S -> inv S G e s -> cell_ok S v t -> ty_ok1 t = true -> wp (alloc v s) (epost S0 G e t).
Proof.
  intros E0 Hi Hv Ht. eapply wp_mono; [eapply alloc_wp; eauto; apply Hi|]. cbv beta.
  intros l s' (S' & E & Hh & Hl & Hg). exists S'; split; [eauto using ext_trans|]. split; auto.
  eapply inv_step; eauto.
Qed.

Lemma epost_weaken S0 S G e t l s : ext S0 S -> epost S G e t l s -> epost S0 G e t l s.
Proof. intros E (S' & E' & H). exists S'; split; eauto using ext_trans. Qed.

Lemma normalize_index_lt f len k : normalize_index f len false = Ok k -> (k < len)%nat.
Proof.
  unfold normalize_index. destruct (go_int_exact f) as [i|]; [|discriminate].
  destruct ((i <? - Z.of_nat len) || (Z.of_nat len - 1 <? i)) eqn:E; [discriminate|].
  intros H; inversion H; subst. apply orb_false_iff in E as [E1 E2].
  apply Z.ltb_ge in E1, E2. destruct (i <? 0) eqn:E3; [apply Z.ltb_lt in E3|apply Z.ltb_ge in E3]; lia.
Qed.

Lemma normalize_index_safe f len b : match normalize_index f len b with Ok _ => True | Er er => safe_err er end.
Proof.
  unfold normalize_index. destruct (go_int_exact f); [|exact I].
  match goal with |- context [if ?c then _ else _] => destruct c end; exact I.
Qed.

Lemma lift_norm_wp f len b s (Q : nat -> state -> Prop) :
  (forall k, normalize_index f len b = Ok k -> Q k s) -> wp (lift (normalize_index f len b) s) Q.
Proof.
  intros H. unfold lift, wp. pose proof (normalize_index_safe f len b).
  destruct (normalize_index f len b); auto.
Qed.

Lemma slice_bounds_wp S s lo hi len :
  heap_ok S (st_heap s) ->
  (forall l, lo = Some l -> sfind S l = Some TNum) -> (forall l, hi = Some l -> sfind S l = Some TNum) ->
  wp (slice_bounds lo hi len s) (fun _ s' => s' = s).
Proof.
  intros Hh Hlo Hhi. unfold slice_bounds.
  apply wp_bind. destruct lo as [l|].
  - wbind ltac:(eapply load_num_wp; eauto). intros f s1 ->. apply lift_norm_wp. intros a _.
    apply wp_bind. destruct hi as [l2|].
    + wbind ltac:(eapply load_num_wp; eauto). intros f2 s1 ->. apply lift_norm_wp. intros b _.
      destruct (Nat.ltb b a); [exact I|reflexivity].
    + apply wp_ret. destruct (Nat.ltb len a); [exact I|reflexivity].
  - apply wp_ret. apply wp_bind. destruct hi as [l2|].
    + wbind ltac:(eapply load_num_wp; eauto). intros f2 s1 ->. apply lift_norm_wp. intros b _.
      destruct (Nat.ltb b 0); [exact I|reflexivity].
    + apply wp_ret. destruct (Nat.ltb len 0); [exact I|reflexivity].
Qed.

Lemma firstn_skipn_nil {A} n m : firstn n (skipn m (@nil A)) = [].
Proof. destruct n, m; reflexivity. Qed.

Lemma Forall_firstn {A} (P : A -> Prop) n l : Forall P l -> Forall P (firstn n l).
Proof. intros H; revert n; induction H; destruct n; simpl; constructor; auto. Qed.
Lemma Forall_skipn {A} (P : A -> Prop) n l : Forall P l -> Forall P (skipn n l).
Proof. intros H; revert n; induction H; destruct n; simpl; auto. Qed.

Lemma Forall2_same_ty (S : sty) ls u ts :
  Forall2 (fun l t => sfind S l = Some t) ls ts -> forallb (ty_eqb u) ts = true ->
  Forall (fun l => sfind S l = Some u) ls.
Proof.
  induction 1; simpl; intros Hf; constructor; apply andb_true_iff in Hf as [H1 H2]; auto.
  apply ty_eqb_eq in H1; congruence.
Qed.

Lemma Forall_ext_ty (S S' : sty) u ls : ext S S' ->
  Forall (fun l => sfind S l = Some u) ls -> Forall (fun l => sfind S' l = Some u) ls.
Proof. intros E H. eapply Forall_impl; [|exact H]. cbv beta; auto. Qed.

Lemma mapM_copy_wp S s d u ls :
  heap_ok S (st_heap s) -> u <> TNone -> Forall (fun l => sfind S l = Some u) ls ->
  wp (mapM (copy_or_ref d) ls s)
     (hpost S (st_globals s) (fun S' ls' => Forall (fun l => sfind S' l = Some u) ls')).
Proof.
  intros Hh Hu Hall.
  eapply wp_mono.
  - eapply (mapM_wp (copy_or_ref d) (fun S a => sfind S a = Some u) (fun S a b => sfind S b = Some u));
      eauto.
    intros S0 s0 a Hh0 Hg0 Ha. rewrite <- Hg0. eapply copy_or_ref_wp; eauto.
  - cbv beta. intros ls' s' (S' & E & Hh' & Hg' & HF). hdone S'. eapply Forall2_out; eauto.
Qed.

Definition bpost (S : sty) (G : tyenv) (e : env) (t : ty) : option loc -> state -> Prop :=
  fun r s' => exists S' l, r = Some l /\ ext S S' /\ inv S' G e s' /\ sfind S' l = Some t.

Lemma ret_alloc_bpost S0 S G e s v t :
  ext S0 S -> inv S G e s -> cell_ok S v t -> ty_ok1 t = true ->
  wp ((let* l := alloc v in ret (Some l)) s) (bpost S0 G e t).
Proof.
  intros E0 Hi Hv Ht. wbind ltac:(eapply alloc_epost; eauto). intros l s' (S' & E & Hi' & Hl).
  apply wp_ret. exists S', l; auto.
Qed.

Lemma none_val_bpost S0 S G e s : ext S0 S -> inv S G e s -> wp (none_val s) (bpost S0 G e TNone).
Proof. intros. unfold none_val. eapply ret_alloc_bpost; eauto. constructor. Qed.

Lemma join_args_wp S s args sep :
  heap_ok S (st_heap s) -> Forall (fun l => exists t, sfind S l = Some t) args ->
  wp (join_args args sep s) (fun _ s' => s' = s).
Proof.
  intros Hh Hall. unfold join_args. unfold bindM at 1. unfold depth_fuel at 1.
  wbind ltac:(apply mapM_pure).
  - intros a Ha. rewrite Forall_forall in Hall. destruct (Hall a Ha) as (t & Ht).
    eapply show_wp; eauto using deep_ok_value.
  - intros p s1 ->. reflexivity.
Qed.

Lemma ne_err_us : str_eqb n_err underscore = false. Proof. exact n_err_not_underscore. Qed.
Lemma ne_errmsg_us : str_eqb n_errmsg underscore = false. Proof. exact n_errmsg_not_underscore. Qed.

Lemma lookup_reserved S G e s n t :
  inv S G e s -> slookup n G = Some t -> (n = n_err \/ n = n_errmsg) ->
  exists l, lookup n e s = (Ok (Some l), s) /\ sfind S l = Some t.
Proof.
  intros [Hh He] Hs Hn.
  assert (Hus : str_eqb n underscore = false) by (destruct Hn as [->| ->]; reflexivity).
  rewrite (lookup_full _ _ _ Hus). unfold full.
  destruct (env_get n (e ++ [st_globals s])) as [l|] eqn:El.
  - exists l; split; auto. eapply env_lookup_sound; eauto.
  - exfalso. rewrite env_get_app in El. destruct (env_get n e); [discriminate|].
    destruct (env_ok_globals _ _ _ _ He) as (_ & G1 & G2). destruct Hn as [->| ->]; congruence.
Qed.

Lemma global_err_wp P S G e s b msg :
  genv_ok P G -> inv S G e s -> wp (global_err e b msg s) (fun _ s' => inv S G e s').
Proof.
  intros (G1 & G2 & _) Hi. pose proof Hi as [Hh He]. unfold global_err.
  destruct (lookup_reserved _ _ _ _ _ _ Hi G1 (or_introl eq_refl)) as (l & Hl & Ht).
  apply wp_bind. rewrite Hl. simpl.
  wbind ltac:(eapply load_wp; eauto). intros v s' [-> Hc]. apply cell_ok_inv in Hc as [b0 ->].
  wbind ltac:(eapply store_wp with (t := TBool); eauto; constructor). intros _ s1 [Hh1 Hg1].
  assert (Hi1 : inv S G e s1) by (eapply inv_store; eauto).
  destruct (lookup_reserved _ _ _ _ _ _ Hi1 G2 (or_intror eq_refl)) as (l2 & Hl2 & Ht2).
  apply wp_bind. rewrite Hl2. simpl.
  wbind ltac:(eapply load_wp; eauto). intros v s' [-> Hc2]. apply cell_ok_inv in Hc2 as [x0 ->].
  destruct (pieces_str msg); [|exact I].
  eapply wp_mono; [eapply store_wp with (t := TStr); eauto; constructor|]. cbv beta.
  intros _ s2 [Hh2 Hg2]. eapply inv_store; eauto.
Qed.

Lemma arg_ok_basic p a : p <> TGenArr -> p <> TGenMap -> arg_ok p a = true -> a = p.
Proof.
  intros N1 N2. unfold arg_ok. destruct p; try congruence;
    intros H; apply andb_true_iff in H as [H _]; apply ty_eqb_eq in H; auto.
Qed.

Lemma variadic_typed (S : sty) p vals ts :
  p <> TGenArr -> p <> TGenMap -> forallb (arg_ok p) ts = true ->
  Forall2 (fun l t => sfind S l = Some t) vals ts -> Forall (fun l => sfind S l = Some p) vals.
Proof.
  intros N1 N2 Hall HF. induction HF as [|l t ls ts' Hl _ IH]; cbn [forallb] in Hall; constructor;
    apply andb_true_iff in Hall as [H1 H2]; auto.
  apply arg_ok_basic in H1; [congruence|exact N1|exact N2].
Qed.

Lemma ty_proper_not_gen p : ty_proper p = true -> p <> TGenArr /\ p <> TGenMap.
Proof. intros H; split; intros ->; discriminate. Qed.

Lemma args_ok_eq ps ts :
  Forall (fun p => ty_proper p = true) ps -> args_ok ps None ts = true -> ts = ps.
Proof.
  intros H; revert ts; induction H as [|p ps Hp _ IH]; intros [|a ts]; simpl; try discriminate; auto.
  intros Ha. apply andb_true_iff in Ha as [H1 H2]. destruct (ty_proper_not_gen _ Hp).
  apply arg_ok_basic in H1; auto. subst. f_equal; auto.
Qed.

Lemma args2 p q ts : args_ok [p; q] None ts = true ->
  exists a b, ts = [a; b] /\ arg_ok p a = true /\ arg_ok q b = true.
Proof.
  destruct ts as [|a [|b [|c ts]]]; simpl; try discriminate.
  - intros H. apply andb_true_iff in H as [_ H]. discriminate.
  - intros H. apply andb_true_iff in H as [H1 H]. apply andb_true_iff in H as [H2 _]. eauto.
  - intros H. apply andb_true_iff in H as [_ H]. apply andb_true_iff in H as [_ H]. discriminate.
Qed.

Lemma Forall2_any (S : sty) vals ts :
  Forall2 (fun l t => sfind S l = Some t) vals ts -> Forall (fun l => exists t, sfind S l = Some t) vals.
Proof. induction 1; constructor; eauto. Qed.

(* a Forall2 over a list of known length, taken apart into one fact per element *)
Ltac fa2 H := repeat match type of H with
  | Forall2 _ _ [] => inversion H; subst; clear H
  | Forall2 _ _ (_ :: _) =>
      let l := fresh "a" in let ls := fresh "ls" in let H1 := fresh "Ha" in let H2 := fresh "HF" in
      inversion H as [|l ? ls ? H1 H2]; subst; clear H; rename H2 into H
  end.

(* the arguments of a built-in whose parameters are basic types: [ts] is the parameter list and [HF]
   becomes one typing fact per argument cell *)
Ltac sig_args Hok HF :=
  unfold sig_args_ok in Hok; cbn [fs_var fs_params] in Hok;
  apply args_ok_eq in Hok; [subst|repeat constructor];
  let HF' := fresh "HF" in rename HF into HF'; fa2 HF'.

Lemma bpost_of_alloc_num S G e s f : inv S G e s ->
  wp ((let* l := alloc (HNum f) in ret (Some l)) s) (bpost S G e TNum).
Proof. intros. eapply ret_alloc_bpost; eauto using ext_refl. constructor. Qed.
Lemma bpost_of_alloc_str S G e s x : inv S G e s ->
  wp ((let* l := alloc (HStr x) in ret (Some l)) s) (bpost S G e TStr).
Proof. intros. eapply ret_alloc_bpost; eauto using ext_refl. constructor. Qed.
Lemma bpost_of_alloc_bool S G e s b : inv S G e s ->
  wp ((let* l := alloc (HBool b) in ret (Some l)) s) (bpost S G e TBool).
Proof. intros. eapply ret_alloc_bpost; eauto using ext_refl. constructor. Qed.

Lemma emit_none_bpost S G e s ev : inv S G e s ->
  wp ((let* _ := emitE ev in none_val) s) (bpost S G e TNone).
Proof.
  intros Hi. wbind ltac:(apply emitE_wp). intros _ s' [H1 H2].
  eapply none_val_bpost; eauto using ext_refl, inv_same.
Qed.

(* the number, or string, in an argument cell is read; the state stays *)
Ltac inv_heap := match goal with H : inv _ _ _ _ |- _ => apply H end.
Ltac load_n := wbind ltac:(eapply load_num_wp; eauto; inv_heap); intros ? ? ->.
Ltac load_s := wbind ltac:(eapply load_str_wp; eauto; inv_heap); intros ? ? ->.

Lemma unwrap_any_wp S s a :
  heap_ok S (st_heap s) -> sfind S a = Some TAny -> wp (unwrap_any a s) (fun _ s' => s' = s).
Proof.
  intros Hh Ha. unfold unwrap_any.
  wbind ltac:(eapply load_wp; eauto). intros v s1 [-> Hc].
  apply cell_ok_inv in Hc as (u & i & -> & _ & _ & Hi).
  eapply wp_mono; [eapply load_wp; eauto|]. cbv beta. intros v2 s2 [-> _]. reflexivity.
Qed.

(* one step of the dispatch on the name in Sem.builtin and Sem.pure_builtin *)
Lemma name_is_elim {A} name lit (a : A) rest r (Q : Prop) :
  (name = s_ lit -> a = r -> Q) -> (rest = Some r -> Q) ->
  (if name_is name lit then Some a else rest) = Some r -> Q.
Proof.
  unfold name_is. intros H1 H2. destruct (str_eqb name (s_ lit)) eqn:E; [|exact H2].
  intros H; injection H as H. apply str_eqb_eq in E. auto.
Qed.

Lemma names_elim {A} name (l : list str) (a : A) rest r (Q : Prop) :
  (In name l -> a = r -> Q) -> (rest = Some r -> Q) ->
  (if existsb (str_eqb name) l then Some a else rest) = Some r -> Q.
Proof.
  intros H1 H2. destruct (existsb (str_eqb name) l) eqn:E; [|exact H2].
  intros H; injection H as H. apply H1; [|exact H].
  apply existsb_exists in E as (x & Hin & Hx). apply str_eqb_eq in Hx. subst x. exact Hin.
Qed.

Lemma pure_builtin_names name vals m : pure_builtin name vals = Some m ->
  In name (map s_ ["upper"; "lower"; "trim"; "replace"; "index"; "split"; "floor"; "ceil"; "round";
                   "pow"; "atan2"; "log"; "sin"; "cos"; "rand"; "rand1"; "hsl"]%string).
Proof.
  unfold pure_builtin.
  repeat (apply name_is_elim; [intros -> _; apply mem_str_In; reflexivity|]).
  discriminate.
Qed.
Lemma pure_builtin_sig name vals m : pure_builtin name vals = Some m -> builtin_sig name <> None.
Proof.
  intros Hb. apply pure_builtin_names in Hb. simpl in Hb.
  repeat destruct Hb as [<-|Hb]; try contradiction; vm_compute; discriminate.
Qed.

(* hslFunc either rejects its arguments or returns a string *)
Lemma hsl_model_shape o nums :
  (exists k, Builtins.hsl_model o nums = Builtins.OPanic k) \/
  (exists t, Builtins.hsl_model o nums = Builtins.ORet (Builtins.VStr t)).
Proof.
  unfold Builtins.hsl_model, Builtins.hsl_with.
  destruct nums as [|h [|a [|b [|c [|d r]]]]];
    repeat match goal with |- context [if ?c then _ else _] => destruct c end; eauto.
Qed.

Lemma pure_builtin_sound S G e s name vals m sg ts :
  pure_builtin name vals = Some m -> builtin_sig name = Some sg ->
  sig_args_ok sg ts = true -> Forall2 (fun l t => sfind S l = Some t) vals ts ->
  inv S G e s ->
  wp (m s) (bpost S G e (fs_ret sg)).
Proof.
  intros Hb Hsig Hok HF Hi. pose proof Hi as [Hh He].
  pose proof (pure_builtin_names _ _ _ Hb) as Hn. simpl in Hn.
  repeat destruct Hn as [<-|Hn]; try contradiction;
    injection Hb as <-; vm_compute in Hsig; injection Hsig as <-; cbn [fs_ret].
  - (* upper *) sig_args Hok HF. load_s. destruct (is_ascii _); [apply bpost_of_alloc_str; auto | exact I].
  - (* lower *) sig_args Hok HF. load_s. destruct (is_ascii _); [apply bpost_of_alloc_str; auto | exact I].
  - (* trim *) sig_args Hok HF. load_s. load_s. apply bpost_of_alloc_str; auto.
  - (* replace *) sig_args Hok HF. load_s. load_s. load_s. apply bpost_of_alloc_str; auto.
  - (* index *) sig_args Hok HF. load_s. load_s. apply bpost_of_alloc_num; auto.
  - (* split: one string cell per part, then the array of them *)
    sig_args Hok HF. load_s. load_s.
    wbind ltac:(eapply (mapM_wp (fun p => alloc (HStr p)) (fun _ _ => True)
                          (fun S' (_ : str) l => sfind S' l = Some TStr) (st_globals s));
                [auto | intros; eauto | | exact Hh | reflexivity | apply Forall_forall; auto]).
    { intros S0 s0 p Hh0 Hg0 _.
      rewrite <- Hg0. apply (alloc_hpost S0 S0); [apply ext_refl | exact Hh0 | apply CStr | apply ok1_TStr]. }
    intros ls s1 (S1 & E1 & Hh1 & Hg1 & HR).
    eapply ret_alloc_bpost; [exact E1 | eapply inv_step; eauto | | ok1t].
    constructor. exact (Forall2_out _ _ _ HR).
  - (* floor *) sig_args Hok HF. load_n. apply bpost_of_alloc_num; auto.
  - (* ceil *) sig_args Hok HF. load_n. apply bpost_of_alloc_num; auto.
  - (* round *) sig_args Hok HF. load_n. apply bpost_of_alloc_num; auto.
  - (* pow *) sig_args Hok HF. load_n. load_n. exact I.
  - (* atan2 *) sig_args Hok HF. load_n. load_n. exact I.
  - (* log *) sig_args Hok HF. load_n. exact I.
  - (* sin *) sig_args Hok HF. load_n. exact I.
  - (* cos *) sig_args Hok HF. load_n. exact I.
  - (* rand *) sig_args Hok HF. load_n. destruct (negb _); exact I.
  - (* rand1 *)
    sig_args Hok HF. exact I.
  - (* hsl: any number of num arguments *)
    unfold sig_args_ok in Hok; cbn [fs_var fs_params] in Hok.
    assert (Hn : Forall (fun l => sfind S l = Some TNum) vals) by (eapply variadic_typed; eauto; discriminate).
    wbind ltac:(apply mapM_pure; intros a Ha; eapply load_num_wp; eauto;
                rewrite Forall_forall in Hn; auto). intros nums s1 ->.
    destruct (hsl_model_shape ascii_oracles nums) as [[k ->] | [t ->]]; [exact I|].
    destruct (forallb small_int nums); [apply bpost_of_alloc_str; auto | exact I].
Qed.

Lemma variadic_any_typed (S : sty) vals ts :
  forallb (arg_ok TAny) ts = true -> Forall2 (fun l t => sfind S l = Some t) vals ts ->
  Forall (fun l => sfind S l = Some TAny) vals.
Proof. apply variadic_typed; discriminate. Qed.

Lemma show_str_wp S s l t :
  heap_ok S (st_heap s) -> sfind S l = Some t -> wp (show_str l s) (fun _ s' => s' = s).
Proof.
  intros Hh Hl. unfold show_str. unfold bindM at 1. unfold depth_fuel at 1.
  wbind ltac:(eapply show_wp; eauto using deep_ok_value). intros p s1 ->.
  destruct (pieces_str p); [reflexivity|exact I].
Qed.

(* the operands of sprintf / printf: every argument is an any-cell; its content is read (a composite
   one is printed by String()), nothing is written *)
Lemma fmt_args_wp S s rest :
  heap_ok S (st_heap s) -> Forall (fun l => sfind S l = Some TAny) rest ->
  wp (mapM (fun a => let* v := unwrap_any a in
                     match v with
                     | HNum x => ret (Builtins.FNum x)
                     | HStr x => ret (Builtins.FStr x)
                     | HBool b => ret (Builtins.FBool b)
                     | _ => let* x := show_str a in ret (Builtins.FStr x)
                     end) rest s) (fun _ s' => s' = s).
Proof.
  intros Hh Hall. apply mapM_pure. intros a Ha. rewrite Forall_forall in Hall. specialize (Hall a Ha).
  wbind ltac:(eapply unwrap_any_wp; eauto). intros v s1 ->.
  destruct v; try reflexivity;
    (wbind ltac:(eapply show_str_wp; eauto); intros x s1 ->; reflexivity).
Qed.

(* the argument of a generic map or array parameter (has, del, join) is a map or an array *)
Lemma gen_map_cell S v ta : arg_ok TGenMap ta = true -> cell_ok S v ta -> exists om, v = HMap om.
Proof.
  intros H Hc. apply cell_ok_inv in Hc.
  destruct ta; try discriminate H; destruct Hc as (om & -> & _); eauto.
Qed.
Lemma gen_arr_cell S v ta : arg_ok TGenArr ta = true -> cell_ok S v ta -> exists els, v = HArr els.
Proof.
  intros H Hc. apply cell_ok_inv in Hc.
  destruct ta; try discriminate H; [destruct Hc as (els & -> & _)|]; eauto.
Qed.

Lemma builtin_sound P S G e s name vals m sg ts :
  builtin name e vals = Some m -> mem_str name s1_builtins = true -> builtin_sig name = Some sg ->
  sig_args_ok sg ts = true -> Forall2 (fun l t => sfind S l = Some t) vals ts ->
  genv_ok P G -> inv S G e s ->
  wp (m s) (bpost S G e (fs_ret sg)).
Proof.
  intros Hb _ Hsig Hok HF HG Hi. pose proof Hi as [Hh He].
  (* Sem.builtin row by row: the names tested one by one, then the three groups of graphics built-ins,
     then Sem.pure_builtin *)
  revert Hb. unfold builtin.
  repeat (apply name_is_elim; [intros -> <-|]).
  23:{ apply names_elim; [intros Hin <-|].
       { simpl in Hin. repeat destruct Hin as [<-|Hin]; try contradiction;
           vm_compute in Hsig; injection Hsig as <-; sig_args Hok HF; load_n; apply emit_none_bpost; auto. }
       apply names_elim; [intros Hin <-|].
       { simpl in Hin. repeat destruct Hin as [<-|Hin]; try contradiction;
           vm_compute in Hsig; injection Hsig as <-; sig_args Hok HF; load_n; load_n; apply emit_none_bpost; auto. }
       apply names_elim; [intros Hin <-|].
       { simpl in Hin. repeat destruct Hin as [<-|Hin]; try contradiction;
           vm_compute in Hsig; injection Hsig as <-; sig_args Hok HF; load_s; apply emit_none_bpost; auto. }
       intros Hb. exact (pure_builtin_sound S G e s _ vals m sg ts Hb Hsig Hok HF Hi). }
  all: vm_compute in Hsig; injection Hsig as <-; cbn [fs_ret].
  - (* print *)
    unfold sig_args_ok in Hok; cbn [fs_var fs_params] in Hok.
    wbind ltac:(eapply join_args_wp; eauto using Forall2_any). intros p s1 ->.
    apply emit_none_bpost; auto.
  - (* sprint *)
    wbind ltac:(eapply join_args_wp; eauto using Forall2_any). intros p s1 ->.
    destruct (pieces_str p); [|exact I]. apply bpost_of_alloc_str; auto.
  - (* read *)
    destruct (st_input s) eqn:Ein.
    + apply bpost_of_alloc_str. eapply inv_same; eauto.
    + apply bpost_of_alloc_str. eapply inv_same; eauto.
  - (* cls *) apply emit_none_bpost; auto.
  - (* sleep *) sig_args Hok HF. load_n. apply emit_none_bpost; auto.
  - (* len *)
    sig_args Hok HF. wbind ltac:(eapply unwrap_any_wp; eauto). intros v s1 ->.
    destruct v; try exact I; apply bpost_of_alloc_num; auto.
  - (* has *)
    unfold sig_args_ok in Hok; cbn [fs_var fs_params] in Hok.
    apply args2 in Hok as (ta & tb & -> & Hok1 & Hok2).
    apply arg_ok_basic in Hok2; [subst|discriminate|discriminate]. fa2 HF.
    wbind ltac:(eapply load_wp; eauto). intros v s1 [-> Hc]. load_s.
    destruct (gen_map_cell _ _ _ Hok1 Hc) as [om ->]. apply bpost_of_alloc_bool; auto.
  - (* del *)
    unfold sig_args_ok in Hok; cbn [fs_var fs_params] in Hok.
    apply args2 in Hok as (ta & tb & -> & Hok1 & Hok2).
    apply arg_ok_basic in Hok2; [subst|discriminate|discriminate]. fa2 HF.
    wbind ltac:(eapply load_wp; eauto). intros v s1 [-> Hc]. load_s.
    assert (Hc' : forall om ks, v = HMap om -> cell_ok S (HMap (odel ks om)) ta).
    { intros om ks ->. inversion Hc; subst.
      - constructor; auto using Inv_odel, pairs_odel_Forall.
      - unfold odel. match goal with Hp : pairs om = [] |- _ => rewrite Hp end. simpl. constructor; auto. }
    destruct (gen_map_cell _ _ _ Hok1 Hc) as [om ->].
    wbind ltac:(eapply store_wp; eauto). intros _ s1 [Hh1 Hg1].
    eapply none_val_bpost; eauto using ext_refl. split; auto. rewrite Hg1; auto.
  - (* typeof *)
    sig_args Hok HF. wbind ltac:(eapply load_wp; eauto). intros v s1 [-> Hc].
    apply cell_ok_inv in Hc as (u & i & -> & _). apply bpost_of_alloc_str; auto.
  - (* str2num *)
    sig_args Hok HF. wbind ltac:(eapply global_err_wp; eauto). intros _ s1 Hi1. load_s.
    destruct (parse_float _); try exact I.
    + apply bpost_of_alloc_num; auto.
    + wbind ltac:(eapply global_err_wp; eauto). intros _ s2 Hi2. apply bpost_of_alloc_num; auto.
  - (* str2bool *)
    sig_args Hok HF. wbind ltac:(eapply global_err_wp; eauto). intros _ s1 Hi1. load_s.
    lazymatch goal with |- wp ((if ?c then _ else _) _) _ => destruct c end;
      [apply bpost_of_alloc_bool; auto|].
    lazymatch goal with |- wp ((if ?c then _ else _) _) _ => destruct c end;
      [apply bpost_of_alloc_bool; auto|].
    wbind ltac:(eapply global_err_wp; eauto). intros _ s2 Hi2. apply bpost_of_alloc_bool; auto.
  - (* exit *) sig_args Hok HF. load_n. exact I.
  - (* panic *) sig_args Hok HF. load_s. exact I.
  - (* join *)
    unfold sig_args_ok in Hok; cbn [fs_var fs_params] in Hok.
    apply args2 in Hok as (ta & tb & -> & Hok1 & Hok2).
    apply arg_ok_basic in Hok2; [subst|discriminate|discriminate]. fa2 HF.
    wbind ltac:(eapply load_wp; eauto). intros v s1 [-> Hc]. load_s.
    assert (Hels : forall els, v = HArr els -> Forall (fun l => exists t, sfind S l = Some t) els).
    { intros els ->. inversion Hc; subst; [|constructor].
      eapply Forall_impl; [|eassumption]. cbv beta; eauto. }
    destruct (gen_arr_cell _ _ _ Hok1 Hc) as [els ->].
    wbind ltac:(eapply join_args_wp; eauto). intros p s1 ->.
    destruct (pieces_str p); [apply bpost_of_alloc_str; auto|exact I].
  - (* startswith *) sig_args Hok HF. load_s. load_s. apply bpost_of_alloc_bool; auto.
  - (* endswith *) sig_args Hok HF. load_s. load_s. apply bpost_of_alloc_bool; auto.
  - (* min: NaN and equal zeros are left to the oracle *) sig_args Hok HF. load_n. load_n.
    destruct (is_nan _ || is_nan _); [exact I|]. destruct (PrimFloat.eqb _ _ && PrimFloat.eqb _ _); [exact I|].
    apply bpost_of_alloc_num; auto.
  - (* max *) sig_args Hok HF. load_n. load_n.
    destruct (is_nan _ || is_nan _); [exact I|]. destruct (PrimFloat.eqb _ _ && PrimFloat.eqb _ _); [exact I|].
    apply bpost_of_alloc_num; auto.
  - (* abs *) sig_args Hok HF. load_n. apply bpost_of_alloc_num; auto.
  - (* sqrt *) sig_args Hok HF. load_n. apply bpost_of_alloc_num; auto.
  - (* sprintf: a missing or non-string format is the evy panic "bad arguments"; what fmt.Sprintf
       would compute with float formatting or %q quoting is ENeedOracle *)
    unfold sig_args_ok in Hok; cbn [fs_var fs_params] in Hok.
    pose proof (variadic_any_typed _ _ _ Hok HF) as Hany.
    destruct vals as [|fa rest]; [exact I|]. inversion Hany as [|? ? Hfa Hrest]; subst.
    wbind ltac:(eapply unwrap_any_wp; eauto). intros fv s1 ->.
    destruct fv; try exact I.
    wbind ltac:(eapply fmt_args_wp; eauto). intros fargs s1 ->.
    destruct (forallb fmt_decidable fargs); [|exact I].
    lazymatch goal with |- wp (match ?c with Some _ => _ | None => _ end _) _ => destruct c end; [|exact I].
    apply bpost_of_alloc_str; auto.
  - (* printf *)
    unfold sig_args_ok in Hok; cbn [fs_var fs_params] in Hok.
    pose proof (variadic_any_typed _ _ _ Hok HF) as Hany.
    destruct vals as [|fa rest]; [exact I|]. inversion Hany as [|? ? Hfa Hrest]; subst.
    wbind ltac:(eapply unwrap_any_wp; eauto). intros fv s1 ->.
    destruct fv; try exact I.
    wbind ltac:(eapply fmt_args_wp; eauto). intros fargs s1 ->.
    destruct (forallb fmt_decidable fargs); [|exact I].
    lazymatch goal with |- wp (match ?c with Some _ => _ | None => _ end _) _ => destruct c end; [|exact I].
    apply emit_none_bpost; auto.
Qed.

Lemma builtin_none name e vals : builtin name e vals = None -> mem_str name s1_builtins = false.
Proof.
  intros Hb. apply not_true_is_false. intros Hm. apply mem_str_In in Hm. simpl in Hm.
  repeat destruct Hm as [<-|Hm]; try contradiction; discriminate Hb.
Qed.

Lemma builtin_some_sig name e vals m : builtin name e vals = Some m -> builtin_sig name <> None.
Proof.
  unfold builtin.
  repeat (apply name_is_elim; [intros -> _; discriminate|]).
  repeat (apply names_elim; [intros Hin _; simpl in Hin; repeat destruct Hin as [<-|Hin]; try contradiction; discriminate|]).
  apply pure_builtin_sig.
Qed.

Lemma lookup_sig_builtin F name : builtin_sig name <> None -> lookup_sig F name = builtin_sig name.
Proof. unfold lookup_sig. destruct (builtin_sig name); congruence. Qed.

Definition exprs_post (S : sty) (G : tyenv) (e : env) (ts : list ty) : list loc -> state -> Prop :=
  fun ls s' => exists S', ext S S' /\ inv S' G e s' /\ Forall2 (fun l t => sfind S' l = Some t) ls ts.

Definition expr_ok (n : nat) (x : expr) : Prop := forall P e G t S s,
  ety (p_funcs P) G x = Some t -> s1_expr strict x = true -> genv_ok P G -> inv S G e s ->
  wp (eval_expr n P e x s) (epost S G e t).

Definition expr_sound (n : nat) : Prop := forall x, expr_ok n x.

Definition exprs_sound (n : nat) : Prop := forall P e es G ts S s,
  etys (p_funcs P) G es = Some ts -> s1_exprs strict es = true -> Forall (fun t => t <> TNone) ts ->
  genv_ok P G -> inv S G e s ->
  wp (eval_exprs n P e es s) (exprs_post S G e ts).

(* the result of a call: a cell of the declared result type, or nothing for a procedure *)
Definition cpost (S : sty) (G : tyenv) (e : env) (t : ty) : option loc -> state -> Prop :=
  fun r s' => exists S', ext S S' /\ inv S' G e s' /\
     match r with Some l => sfind S' l = Some t | None => t = TNone end.

Definition call_sound (n : nat) : Prop := forall P e name args G sg ts S s,
  lookup_sig (p_funcs P) name = Some sg -> etys (p_funcs P) G args = Some ts ->
  sig_args_ok sg ts = true -> call_frag name = true -> s1_exprs strict args = true ->
  genv_ok P G -> inv S G e s ->
  wp (eval_call n P e name args s) (cpost S G e (fs_ret sg)).

(* control signals: break only inside a loop; a returned value has the declared result type *)
Definition sig_ok (S : sty) (ret : option ty) (il : bool) (sig : signal) : Prop :=
  match sig with
  | SigNone => True
  | SigBreak => il = true
  | SigReturn None => ret = Some TNone
  | SigReturn (Some l) => exists t, ret = Some t /\ sfind S l = Some t
  end.

(* statements that always terminate the function do end with a control signal *)
Definition must_ret (rt : bool) (sig : signal) : Prop :=
  rt = true -> sig = SigBreak \/ exists v, sig = SigReturn v.

(* the top-level frame stays inside the program's global typing *)
Definition gsub (G : tyenv) : Prop := match G with [gs] => sframe_sub gs Gg | _ => True end.

Definition spost (S : sty) (G G' : tyenv) (e : env) (ret : option ty) (il rt : bool)
  : signal * env -> state -> Prop :=
  fun r s' => exists S' G'', ext S S' /\ heap_ok S' (st_heap s') /\ grows G G'' /\
     env_ok S' G'' (snd r) (st_globals s') /\ List.length (snd r) = List.length e /\
     (fst r = SigNone -> G'' = G') /\ sig_ok S' ret il (fst r) /\ must_ret rt (fst r).

Definition stmt_ok (n : nat) (st : stmt) : Prop := forall P ret il e G G' S s,
  wt_stmt (p_funcs P) ret il G st = Some G' -> s1_stmt strict st = true -> genv_ok P G -> inv S G e s ->
  gsub G' ->
  wp (exec_stmt n P e st s) (spost S G G' e ret il (stmt_returns st)).

Definition stmt_sound (n : nat) : Prop := forall st, stmt_ok n st.

Definition stmts_sound (n : nat) : Prop := forall P ret il e l G G' S s,
  wt_stmts (p_funcs P) ret il G l = Some G' -> s1_stmts strict l = true -> genv_ok P G -> inv S G e s ->
  gsub G' ->
  wp (exec_stmts n P e l s) (spost S G G' e ret il (always_returns l)).

Definition block_sound (n : nat) : Prop := forall P ret il e l G G' S s,
  wt_stmts (p_funcs P) ret il G l = Some G' -> s1_stmts strict l = true -> genv_ok P G -> inv S G e s ->
  gsub G' ->
  wp (exec_block n P e l s) (spost S G G' e ret il (always_returns l)).

Definition kpost (S : sty) (G : tyenv) (e : env) (ret : option ty) (il : bool) : signal * env -> state -> Prop :=
  fun r s' => exists S', ext S S' /\ inv S' G (snd r) s' /\ List.length (snd r) = List.length e /\
                         sig_ok S' ret il (fst r).

Definition kposto (S : sty) (G : tyenv) (e : env) (ret : option ty) (il rt : bool)
  : option signal * env -> state -> Prop :=
  fun r s' => exists S', ext S S' /\ inv S' G (snd r) s' /\ List.length (snd r) = List.length e /\
     match fst r with Some sig => sig_ok S' ret il sig /\ must_ret rt sig | None => True end.

Definition cond_sound (n : nat) : Prop := forall P ret il e c body G Gb S s,
  ety (p_funcs P) (push G) c = Some TBool -> wt_stmts (p_funcs P) ret il (push G) body = Some Gb ->
  s1_expr strict c = true -> s1_stmts strict body = true -> genv_ok P G -> inv S G e s ->
  wp (exec_cond n P e c body s) (kposto S G e ret il (always_returns body)).

Definition while_sound (n : nat) : Prop := forall P ret e c body G Gb S s,
  ety (p_funcs P) (push G) c = Some TBool -> wt_stmts (p_funcs P) ret true (push G) body = Some Gb ->
  s1_expr strict c = true -> s1_stmts strict body = true -> genv_ok P G -> inv S G e s ->
  wp (exec_while n P e c body s) (kpost S G e ret false).

(* the loop variable (None: `for range ...`) and what the ranger yields *)
Definition rg_ok (S : sty) (named : option ty) (rg : ranger) : Prop :=
  match rg with
  | RgStep _ _ _ => named = None \/ named = Some TNum
  | RgArr a _ => (exists u, sfind S a = Some (TArr u) /\ (named = None \/ named = Some u))
                 \/ sfind S a = Some TEmptyArr
  | RgStr _ _ => named = None \/ named = Some TStr
  | RgMap m _ => ((exists u, sfind S m = Some (TMap u)) \/ sfind S m = Some TEmptyMap)
                 /\ (named = None \/ named = Some TStr)
  end.

Definition for_frame (named : option ty) (var : str) (fr0 : sframe) : Prop :=
  match named with
  | None => var = underscore /\ fr0 = []
  | Some vt => binder_ok var = true /\ fr0 = [(var, vt)]
  end.

Definition for_sound (n : nat) : Prop := forall P ret e var rg body G fr0 named Gb S s,
  wt_stmts (p_funcs P) ret true (push (fr0 :: G)) body = Some Gb -> s1_stmts strict body = true ->
  genv_ok P (fr0 :: G) -> inv S (fr0 :: G) e s ->
  for_frame named var fr0 -> rg_ok S named rg ->
  wp (exec_for n P e var rg body s) (kpost S (fr0 :: G) e ret false).

Definition all_sound (n : nat) : Prop :=
  expr_sound n /\ exprs_sound n /\ call_sound n /\ stmt_sound n /\ stmts_sound n /\ block_sound n /\
  cond_sound n /\ while_sound n /\ for_sound n.

Lemma tick_inv S G e s (Q : unit -> state -> Prop) :
  inv S G e s -> (forall s', inv S G e s' -> Q tt s') -> wp (tick s) Q.
Proof.
  intros Hi HQ. eapply wp_mono; [apply tick_wp|]. cbv beta. intros [] s' [H1 H2].
  apply HQ. eapply inv_same; eauto.
Qed.

Lemma epost_ret S G e t l s : inv S G e s -> sfind S l = Some t -> epost S G e t l s.
Proof. intros. exists S; auto using ext_refl. Qed.

Lemma assert_shape u t :
  ty_value u = true -> ty_proper t = true -> ty_eqb (ty_shape u) (ty_shape t) = true -> u = t.
Proof.
  revert t; induction u; intros t Hu Ht H; destruct t; simpl in *; try discriminate; auto;
    try (f_equal; auto; fail); destruct t; simpl in *; discriminate.
Qed.

Lemma bin_num_wp S0 S G e s op y z t :
  ext S0 S -> inv S G e s -> bin_ty op TNum TNum = Some t -> op <> BEq -> op <> BNotEq ->
  wp (bin_num op y z s) (epost S0 G e t).
Proof.
  intros E Hi Ht N1 N2.
  destruct op; simpl in Ht; try congruence; inversion Ht; subst; simpl;
    eapply alloc_epost; eauto; constructor.
Qed.

Lemma bin_str_wp S0 S G e s op y z t :
  ext S0 S -> inv S G e s -> bin_ty op TStr TStr = Some t -> op <> BEq -> op <> BNotEq ->
  wp (bin_str op y z s) (epost S0 G e t).
Proof.
  intros E Hi Ht N1 N2.
  destruct op; simpl in Ht; try congruence; inversion Ht; subst; simpl;
    eapply alloc_epost; eauto; constructor.
Qed.

Lemma bin_bool_wp S0 S G e s op y z t :
  ext S0 S -> inv S G e s -> bin_ty op TBool TBool = Some t -> op <> BEq -> op <> BNotEq ->
  wp (bin_bool op y z s) (epost S0 G e t).
Proof.
  intros E Hi Ht N1 N2.
  destruct op; simpl in Ht; try congruence; inversion Ht; subst; simpl;
    eapply alloc_epost; eauto; constructor.
Qed.

Lemma Forall_concat_ty (S : sty) u parts :
  Forall (Forall (fun l => sfind S l = Some u)) parts -> Forall (fun l => sfind S l = Some u) (List.concat parts).
Proof. induction 1; simpl; [constructor|apply Forall_app; auto]. Qed.

(* array concatenation: both operands hold cells of type u (or are the untyped []) *)
Lemma concat_wp S0 S G e s u xs ys :
  ext S0 S -> inv S G e s -> ty_ok1 (TArr u) = true -> u <> TNone ->
  Forall (fun l => sfind S l = Some u) xs -> Forall (fun l => sfind S l = Some u) ys ->
  wp ((let* d := depth_fuel in
       let* xs' := mapM (copy_or_ref d) xs in
       let* ys' := mapM (copy_or_ref d) ys in
       alloc (HArr (xs' ++ ys'))) s) (epost S0 G e (TArr u)).
Proof.
  intros E0 Hi Hok Hu Hx Hy. pose proof Hi as [Hh He].
  unfold bindM at 1. unfold depth_fuel at 1.
  wbind ltac:(eapply mapM_copy_wp; eauto). intros xs' s1 (S1 & E1 & Hh1 & Hg1 & Hx1).
  wbind ltac:(eapply (mapM_copy_wp S1); eauto using Forall_ext_ty).
  intros ys' s2 (S2 & E2 & Hh2 & Hg2 & Hy2).
  eapply (alloc_epost S0 S2); [| |constructor; apply Forall_app; split; eauto using Forall_ext_ty|auto].
  - eauto using ext_trans.
  - eapply inv_step; eauto using ext_trans. congruence.
Qed.

Lemma bin_arr_wp S0 S G e s op xs lb ta tb t :
  ext S0 S -> inv S G e s -> bin_ty op ta tb = Some t -> op <> BEq -> op <> BNotEq ->
  cell_ok S (HArr xs) ta -> sfind S lb = Some tb -> ty_ok1 t = true ->
  wp (bin_arr op xs lb s) (epost S0 G e t).
Proof.
  intros E0 Hi Ht N1 N2 Hxs Hlb Hok. pose proof Hi as [Hh He].
  destruct op; try congruence;
    try (inversion Hxs; subst; simpl in Ht; destruct tb; discriminate).
  - (* + *)
    cbn [bin_arr].
    wbind ltac:(eapply load_wp; eauto). intros rv s1 [-> Hrv].
    inversion Hxs; subst; simpl in Ht; destruct tb; try discriminate; inversion Hrv; subst.
    + destruct (ty_eqb u tb) eqn:Eu; [|discriminate]. apply ty_eqb_eq in Eu; subst tb.
      inversion Ht; subst. eapply concat_wp; eauto. eapply ok1_elem; eauto.
    + inversion Ht; subst. eapply concat_wp; eauto. eapply ok1_elem; eauto.
    + inversion Ht; subst. eapply concat_wp; eauto. eapply ok1_elem; eauto.
    + inversion Ht; subst. unfold bindM at 1. unfold depth_fuel at 1. cbn [mapM].
      unfold bindM, ret. eapply alloc_epost; eauto; constructor.
  - (* * *)
    cbn [bin_arr].
    inversion Hxs; subst; simpl in Ht; destruct tb; try discriminate. inversion Ht; subst.
    wbind ltac:(eapply load_num_wp; eauto). intros f s1 ->.
    destruct (go_int_exact f) as [n|]; [|exact I].
    destruct (n <? 0); [exact I|].
    match goal with |- context [if ?c then _ else _] => destruct c; [exact I|] end.
    unfold bindM at 1. unfold depth_fuel at 1.
    destruct (ok1_elem (TArr u) u (or_introl eq_refl) Hok) as [Hoku Hnu].
    wbind ltac:(eapply (mapM_wp (fun _ : unit => mapM (deep_copy value_depth) xs)
                          (fun S _ => Forall (fun l => sfind S l = Some u) xs)
                          (fun S _ b => Forall (fun l => sfind S l = Some u) b) (st_globals s))).
    + intros S1 S2 _ E12 HF. eauto using Forall_ext_ty.
    + intros S1 S2 _ b E12 HF. eauto using Forall_ext_ty.
    + intros S1 s1 _ Hh1 Hg1 HF.
      eapply wp_mono.
      * eapply (mapM_wp (deep_copy value_depth) (fun S a => sfind S a = Some u)
                  (fun S a b => sfind S b = Some u) (st_globals s)); eauto.
        intros S2 s2 a Hh2 Hg2 Ha. rewrite <- Hg2. eapply deep_copy_wp; eauto. intros Hs. eauto using deep_ok_of_ok1.
      * cbv beta. intros b s2 (S2 & E2 & Hh2 & Hg2 & HF2). hdone S2. eapply Forall2_out; eauto.
    + exact Hh.
    + reflexivity.
    + clear -H0. induction (repeat tt (Z.to_nat n)); constructor; auto.
    + intros parts s2 (S2 & E2 & Hh2 & Hg2 & HF2).
      eapply (alloc_epost S0 S2); eauto using ext_trans.
      * eapply inv_step; eauto.
      * constructor. apply Forall_concat_ty. exact (Forall2_out _ _ _ HF2).
Qed.

Lemma wp_depth_fuel {B} (k : nat -> M B) s Q : wp (k value_depth s) Q -> wp (bindM depth_fuel k s) Q.
Proof. exact (fun H => H). Qed.

Lemma bin_ty_compat op a b t : (op = BEq \/ op = BNotEq) -> bin_ty op a b = Some t -> ty_compat a b = true /\ t = TBool.
Proof.
  intros [->| ->]; simpl; destruct (ty_compat a b); try discriminate; intros H; inversion H; auto.
Qed.

(* the operators other than == and != take operands of one basic type *)
Lemma bin_ty_basic op ta tb t :
  op <> BEq -> op <> BNotEq -> bin_ty op ta tb = Some t -> ta = TNum \/ ta = TStr \/ ta = TBool -> tb = ta.
Proof. intros N1 N2 H [->|[->| ->]]; destruct op, tb; simpl in H; congruence. Qed.

Lemma concat_nils (parts : list (list loc)) : Forall (fun b => b = []) parts -> List.concat parts = [].
Proof. induction 1; simpl; auto. subst. auto. Qed.

(* + and * on the untyped []: the result is the empty array, at whatever array type the parser inferred *)
Lemma bin_arr_empty_wp S0 S G e s op lb tb t :
  ext S0 S -> inv S G e s -> bin_empty op TEmptyArr tb t = true -> sfind S lb = Some tb -> ty_ok1 t = true ->
  wp (bin_arr op [] lb s) (epost S0 G e t).
Proof.
  intros E0 Hi Hbe Hlb Hok. pose proof Hi as [Hh He].
  assert (Hcell : cell_ok S (HArr []) t).
  { destruct op, tb; simpl in Hbe; try discriminate; destruct t; try discriminate; constructor; constructor. }
  destruct op; simpl in Hbe; try discriminate; destruct tb; try discriminate.
  - cbn [bin_arr]. wbind ltac:(eapply load_wp; eauto). intros rv s1 [-> Hrv]. inversion Hrv; subst.
    unfold bindM at 1. unfold depth_fuel at 1. cbn [mapM]. unfold bindM, ret.
    eapply alloc_epost; eauto.
  - cbn [bin_arr]. wbind ltac:(eapply load_num_wp; eauto). intros f s1 ->.
    destruct (go_int_exact f) as [n|]; [|exact I].
    destruct (n <? 0); [exact I|].
    match goal with |- context [if ?c then _ else _] => destruct c; [exact I|] end.
    unfold bindM at 1. unfold depth_fuel at 1. cbn [mapM].
    wbind ltac:(eapply (mapM_wp (fun _ : unit => ret (@nil loc)) (fun _ _ => True)
                          (fun _ _ b => b = []) (st_globals s)); eauto).
    + intros S1 s1 _ Hh1 Hg1 _. apply wp_ret. hdone S1.
    + clear. induction (repeat tt (Z.to_nat n)); constructor; auto.
    + intros parts s2 (S2 & E2 & Hh2 & Hg2 & HF2).
      rewrite concat_nils by exact (Forall2_out _ _ _ HF2).
      eapply (alloc_epost S0 S2); eauto using ext_trans, cell_ok_ext. eapply inv_step; eauto.
Qed.

(* the operators other than == and !=: the left cell decides which operation runs *)
Definition bin_other (op : binop) (la lb : loc) : M loc :=
  let* va := load la in
  match va with
  | HNum y => let* z := load_num lb in bin_num op y z
  | HStr y => let* z := load_str lb in bin_str op y z
  | HBool y => let* z := load_bool lb in bin_bool op y z
  | HArr xs => bin_arr op xs lb
  | _ => internal "unknown operation (binary)"
  end.

Lemma bin_other_wp S0 S G e s op la lb ta tb t :
  ext S0 S -> inv S G e s -> sfind S la = Some ta -> sfind S lb = Some tb -> op <> BEq -> op <> BNotEq ->
  (bin_ty op ta tb = Some t \/ bin_empty op ta tb t = true) -> ty_ok1 t = true ->
  wp (bin_other op la lb s) (epost S0 G e t).
Proof.
  intros E0 Hi Hla Hlb N1 N2 [Hbin|Hbe] Hok; pose proof Hi as [Hh He]; unfold bin_other.
  - wbind ltac:(eapply load_wp; eauto). intros va s1 [-> Hva].
    inversion Hva; subst.
    + assert (tb = TNum) by (apply (bin_ty_basic op TNum tb t N1 N2 Hbin); auto). subst.
      wbind ltac:(eapply load_num_wp; eauto). intros z s1 ->. eapply bin_num_wp; eauto.
    + assert (tb = TStr) by (apply (bin_ty_basic op TStr tb t N1 N2 Hbin); auto). subst.
      wbind ltac:(eapply load_str_wp; eauto). intros z s1 ->. eapply bin_str_wp; eauto.
    + assert (tb = TBool) by (apply (bin_ty_basic op TBool tb t N1 N2 Hbin); auto). subst.
      wbind ltac:(eapply load_bool_wp; eauto). intros z s1 ->. eapply bin_bool_wp; eauto.
    + destruct op; simpl in Hbin; congruence.
    + eapply bin_arr_wp; eauto.
    + eapply bin_arr_wp; eauto.
    + destruct op; simpl in Hbin; congruence.
    + destruct op; simpl in Hbin; congruence.
    + destruct op; simpl in Hbin; congruence.
  - (* an operator on the untyped [] *)
    assert (ta = TEmptyArr) by (destruct op, ta; simpl in Hbe; try discriminate; auto). subst ta.
    wbind ltac:(eapply load_wp; eauto). intros va s1 [-> Hva]. inversion Hva; subst.
    eapply bin_arr_empty_wp; eauto.
Qed.

Lemma ebin_tail S0 S G e s op la lb ta tb t :
  ext S0 S -> inv S G e s -> sfind S la = Some ta -> sfind S lb = Some tb ->
  (bin_ty op ta tb = Some t \/ bin_empty op ta tb t = true) -> ty_ok1 t = true ->
  wp ((match op with
       | BEq => let* d := depth_fuel in let* r := equals d la lb in alloc (HBool r)
       | BNotEq => let* d := depth_fuel in let* r := equals d la lb in alloc (HBool (negb r))
       | _ => bin_other op la lb
       end) s) (epost S0 G e t).
Proof.
  intros E0 Hi Hla Hlb Hb Hok; pose proof Hi as [Hh He].
  assert (EQ : forall b : bool, (op = BEq \/ op = BNotEq) ->
            wp ((let* d := depth_fuel in let* r := equals d la lb in alloc (HBool (if b then negb r else r))) s)
               (epost S0 G e t)).
  { intros b Hop. destruct Hb as [Hbin|Hbe]; [|destruct Hop as [->| ->]; discriminate Hbe].
    destruct (bin_ty_compat _ _ _ _ Hop Hbin) as [Hc ->].
    apply wp_depth_fuel.
    wbind ltac:(eapply equals_wp; eauto using deep_ok_value). intros r s1 ->.
    eapply alloc_epost; eauto. constructor. }
  destruct op; try (eapply bin_other_wp; eauto; discriminate).
  - exact (EQ false (or_introl eq_refl)).
  - exact (EQ true (or_intror eq_refl)).
Qed.

Lemma nth_error_lt_some {A} (l : list A) k : (k < List.length l)%nat -> exists x, nth_error l k = Some x.
Proof. intros H. destruct (nth_error l k) eqn:E; eauto. apply nth_error_None in E. lia. Qed.

(* In the lemma for each form of expression and statement what the checker has established is taken
   apart first (StaticProofs: ety_*_inv, wt_*_inv), while the goal is small; then the evaluator takes
   its step: the tick, which keeps the invariant, and the body for that form. *)
Ltac tick_step :=
  cbn [eval_expr exec_stmt]; apply wp_bind; eapply tick_inv; [eassumption|];
  match goal with Hi : inv _ _ _ ?s |- _ => clear s Hi end; intros s Hi; pose proof Hi as [Hh He].

Lemma args_ok_value ps ts : args_ok ps None ts = true -> Forall (fun t => t <> TNone) ts.
Proof.
  revert ts; induction ps as [|p ps IH]; intros [|a ts]; simpl; intros H; try discriminate; constructor.
  - apply andb_true_iff in H as [H _]. apply ty_value_not_none. eapply arg_ok_value; eauto.
  - apply andb_true_iff in H as [_ H]. auto.
Qed.

Lemma sig_args_ok_value sg ts : sig_args_ok sg ts = true -> Forall (fun t => t <> TNone) ts.
Proof.
  unfold sig_args_ok. destruct (fs_var sg) as [v|].
  - destruct (fs_params sg); [|discriminate]. intros H.
    induction ts; constructor; simpl in H; apply andb_true_iff in H as [H1 H2]; auto.
    apply ty_value_not_none. eapply arg_ok_value; eauto.
  - apply args_ok_value.
Qed.

Section ExprStep.
  Context (f : nat) (IHe : expr_sound f) (IHes : exprs_sound f) (IHc : call_sound f).

  Lemma eval_opt_wp P e o G S s :
    etyo (p_funcs P) G o = true -> s1_opt strict o = true -> genv_ok P G -> inv S G e s ->
    wp ((match o with
         | Some y => let* l := eval_expr f P e y in ret (Some l)
         | None => ret None
         end) s)
       (fun r s' => exists S', ext S S' /\ inv S' G e s' /\ forall l, r = Some l -> sfind S' l = Some TNum).
  Proof.
    intros Ht Hs HG Hi. destruct o as [y|].
    - simpl in Ht, Hs. apply opt_ty_eqb_eq in Ht.
      wbind ltac:(eapply IHe; eauto). intros l s1 (S1 & E1 & Hi1 & Hl1).
      apply wp_ret. exists S1; repeat split; auto; try apply Hi1. intros l0 H; inversion H; subst; auto.
    - apply wp_ret. exists S; repeat split; auto using ext_refl; try apply Hi. discriminate.
  Qed.

  (* an operand is evaluated and passed through copyOrRef: declarations, assignments, arguments *)
  Lemma eval_copy_wp {B} P e x G t S s (k : loc -> M B) Q :
    ety (p_funcs P) G x = Some t -> s1_expr strict x = true -> t <> TNone -> genv_ok P G -> inv S G e s ->
    (forall c S' s', ext S S' -> inv S' G e s' -> sfind S' c = Some t -> wp (k c s') Q) ->
    wp ((let* v := eval_expr f P e x in let* d := depth_fuel in let* c := copy_or_ref d v in k c) s) Q.
  Proof.
    intros Hx Hs1 Hn HG Hi Hk.
    wbind ltac:(eapply IHe; eauto). intros v s1 (S1 & E1 & Hi1 & Hv).
    apply wp_depth_fuel.
    wbind ltac:(eapply copy_or_ref_wp; eauto; apply Hi1). intros c s2 (S2 & E2 & Hh2 & Hg2 & Hc).
    apply (Hk c S2 s2); eauto using ext_trans. eapply inv_step; eauto.
  Qed.

  Lemma emap_go_wp P e G u :
    genv_ok P G -> u <> TNone ->
    forall ps ts s S,
      etyps (p_funcs P) G ps = Some ts -> forallb (ty_eqb u) ts = true -> s1_pairs strict ps = true -> inv S G e s ->
      wp ((fix go (ps : list (str * expr)) : M (list (str * loc)) :=
             match ps with
             | [] => ret []
             | (k, a) :: t0 =>
                 let* l := eval_expr f P e a in
                 let* c := copy_or_ref value_depth l in
                 let* r := go t0 in ret ((k, c) :: r)
             end) ps s)
         (fun vals s' => exists S', ext S S' /\ inv S' G e s' /\ map fst vals = map fst ps /\
                                    Forall (fun kv => sfind S' (snd kv) = Some u) vals).
  Proof.
    intros HG Hu. induction ps as [|[k a] ps IHp]; intros ts s S Hty Hall Hs1 Hi.
    - apply wp_ret. exists S; split; [apply ext_refl|split; [exact Hi|split; [reflexivity|constructor]]].
    - cbn [etyps] in Hty. cbn [s1_pairs] in Hs1. apply andb_true_iff in Hs1 as [Hs1a Hs1b].
      destruct (ety (p_funcs P) G a) as [t|] eqn:Ea; [|discriminate].
      destruct (etyps (p_funcs P) G ps) as [ts'|] eqn:Eps; inversion Hty; subst.
      simpl in Hall. apply andb_true_iff in Hall as [Hall1 Hall2]. apply ty_eqb_eq in Hall1; subst t.
      eapply eval_copy_wp; eauto. intros c S2 s2 E2 Hi2 Hc.
      wbind ltac:(eapply (IHp ts' s2 S2); eauto). intros r s3 (S3 & E3 & Hi3 & Hk3 & HF3).
      apply wp_ret. exists S3; split; [eauto using ext_trans|split; [exact Hi3|split]].
      + simpl. congruence.
      + constructor; auto.
  Qed.

  Lemma evar_ok name a : expr_ok (S f) (EVar name a).
  Proof.
    intros P e G t S s Hty _ HG Hi. apply ety_EVar_inv in Hty as (-> & Hus & Hlk & _).
    tick_step.
    apply wp_bind. rewrite (lookup_full _ _ _ Hus). simpl.
    destruct (env_get name (full e s)) as [l|] eqn:El; [|exact I].
    apply wp_ret. apply epost_ret; auto. eapply env_lookup_sound; eauto.
  Qed.

  Lemma eany_ok x a : expr_ok (S f) (EAny x a).
  Proof.
    intros P e G t S s Hty Hs1 HG Hi. apply ety_EAny_inv in Hty as (-> & Hx & N1 & Ha).
    cbn [s1_expr] in Hs1. apply andb_true_iff in Hs1 as [Hs1a Hs1b].
    assert (N2 : a <> TNone) by (apply ty_value_not_none, ty_ann_value; auto).
    tick_step.
    wbind ltac:(eapply IHe; eauto). intros l s1 (S1 & E1 & Hi1 & Hl1).
    wbind ltac:(eapply load_wp; eauto; apply Hi1). intros v s2 [-> Hc].
    destruct v; try (eapply alloc_epost; [exact E1|exact Hi1|constructor; auto|auto]).
    inversion Hc; subst. congruence.
  Qed.

  Lemma earr_ok a es : expr_ok (S f) (EArr a es).
  Proof.
    intros P e G t S s Hty Hs1 HG Hi. apply ety_EArr_inv in Hty as (-> & Ha).
    rewrite s1_expr_EArr in Hs1. apply andb_true_iff in Hs1 as [Hs1a Hs1b].
    assert (H : exists ts, etys (p_funcs P) G es = Some ts /\ Forall (fun t => t <> TNone) ts /\ ty_ok1 a = true /\
                  forall S1 ls, Forall2 (fun l t => sfind S1 l = Some t) ls ts -> cell_ok S1 (HArr ls) a).
    { destruct Ha as [(-> & ->)|(u & ts & -> & Ha & Hts & Hall)].
      - exists []. repeat split; auto. intros S1 ls HF. inversion HF. constructor.
      - exists ts. repeat split; eauto using ty_ann_fr_ok1.
        + apply ty_ann_value in Ha. simpl in Ha. clear -Hall Ha.
          induction ts; constructor; simpl in Hall; apply andb_true_iff in Hall as [H1 H2]; auto.
          apply ty_eqb_eq in H1; subst. auto using ty_value_not_none.
        + intros S1 ls HF. constructor. eapply Forall2_same_ty; eauto. }
    destruct H as (ts & Hts & Hnn & Hok & Hcell).
    tick_step.
    wbind ltac:(eapply IHes; eauto). intros ls s1 (S1 & E1 & Hi1 & HF).
    eapply alloc_epost; eauto.
  Qed.

  Lemma emap_ok a ps : expr_ok (S f) (EMap a ps).
  Proof.
    intros P e G t S s Hty Hs1 HG Hi. apply ety_EMap_inv in Hty as (-> & Ha).
    rewrite s1_expr_EMap in Hs1. apply andb_true_iff in Hs1 as [Hs1a Hs1b].
    destruct Ha as [(-> & ->)|(u & ts & -> & Ha & Hts & Hall & Hnd)].
    - tick_step. apply wp_depth_fuel. cbn [bindM]. unfold bindM at 1. cbn [ret].
      eapply alloc_epost; eauto using ext_refl. constructor; reflexivity.
    - assert (Hu : u <> TNone).
      { apply ty_ann_value in Ha. simpl in Ha. auto using ty_value_not_none. }
      apply keys_nodup_NoDup in Hnd.
      tick_step. apply wp_depth_fuel.
      wbind ltac:(eapply (emap_go_wp P e G u HG Hu ps); eauto).
      intros vals s1 (S1 & E1 & Hi1 & Hk1 & HF1).
      eapply alloc_epost; eauto using ty_ann_fr_ok1.
      constructor; simpl; auto using Inv_keys.
  Qed.

  Lemma ecall_ok name a args : expr_ok (S f) (ECall name a args).
  Proof.
    intros P e G t S s Hty Hs1 HG Hi. apply ety_ECall_inv in Hty as (-> & sg & ts & Hsg & Hts & Hok & <-).
    rewrite s1_expr_ECall in Hs1. apply andb_true_iff in Hs1 as [Hs1a Hs1b].
    tick_step.
    wbind ltac:(eapply IHc; eauto). intros r s1 (S1 & E1 & Hi1 & Hr).
    destruct r as [l|].
    - apply wp_ret. exists S1; auto.
    - rewrite Hr. eapply alloc_epost; eauto. constructor.
  Qed.

  Lemma eun_ok op x : expr_ok (S f) (EUn op x).
  Proof.
    intros P e G t S s Hty Hs1 HG Hi. apply ety_EUn_inv in Hty as [Hx Hop]. cbn [s1_expr] in Hs1.
    tick_step.
    wbind ltac:(eapply IHe; eauto). intros l s1 (S1 & E1 & Hi1 & Hl1).
    wbind ltac:(eapply load_wp; eauto; apply Hi1). intros v s2 [-> Hc]. apply cell_ok_inv in Hc.
    destruct Hop as [[-> ->]|[-> ->]]; destruct Hc as [y ->];
      (eapply alloc_epost; [exact E1|exact Hi1|constructor|auto]).
  Qed.

  Lemma ebin_ok op a x1 x2 : expr_ok (S f) (EBin op a x1 x2).
  Proof.
    intros P e G t S s Hty Hs1 HG Hi.
    apply ety_EBin_inv in Hty as (-> & Ha & ta & tb & Hx1 & Hx2 & Hb).
    cbn [s1_expr] in Hs1.
    apply andb_true_iff in Hs1 as [Hs1 Hs1c]. apply andb_true_iff in Hs1 as [Hs1a Hs1b].
    pose proof (ty_ann_fr_ok1 _ Ha Hs1a) as Hok.
    (* && and || evaluate the right operand only if the left one does not decide *)
    assert (Hsc : (op = BAnd \/ op = BOr) -> ta = TBool /\ tb = TBool).
    { intros [->| ->]; destruct Hb as [Hb|Hb]; destruct ta, tb; simpl in Hb; try discriminate; auto. }
    tick_step.
    wbind ltac:(eapply IHe; eauto). intros la s1 (S1 & E1 & Hi1 & Hla).
    wbind ltac:(eapply load_wp; eauto; apply Hi1). intros va0 s2 [-> Hva0].
    match goal with |- context [if ?c then ret la else _] => destruct c eqn:Esh end.
    - assert (ta = TBool /\ tb = TBool) as [-> ->]
        by (apply Hsc; destruct op; try discriminate; auto).
      apply wp_bind. apply wp_ret.
      eapply (ebin_tail S S1); eauto.
    - wbind ltac:(eapply (IHe x2 P e G tb S1); eauto). intros lb s2 (S2 & E2 & Hi2 & Hlb).
      eapply (ebin_tail S S2); eauto using ext_trans.
  Qed.

  Lemma eindex_ok a x1 x2 : expr_ok (S f) (EIndex a x1 x2).
  Proof.
    intros P e G t S s Hty Hs1 HG Hi.
    apply ety_EIndex_inv in Hty as (-> & _ & ta & ti & Hx1 & Hx2 & Ht).
    cbn [s1_expr] in Hs1.
    apply andb_true_iff in Hs1 as [Hs1 Hs1c]. apply andb_true_iff in Hs1 as [Hs1a Hs1b].
    tick_step.
    wbind ltac:(eapply IHe; eauto). intros la s1 (S1 & E1 & Hi1 & Hla).
    wbind ltac:(eapply (IHe x2 P e G ti S1); eauto). intros li s2 (S2 & E2 & Hi2 & Hli).
    pose proof Hi2 as [Hh2 He2]. assert (E02 : ext S S2) by eauto using ext_trans.
    wbind ltac:(eapply load_wp; eauto). intros va s3 [-> Hva]. apply cell_ok_inv in Hva.
    destruct Ht as [(-> & -> & ->)|[(-> & ->)|(-> & ->)]].
    - (* string *)
      destruct Hva as [x ->].
      wbind ltac:(eapply load_num_wp; eauto). intros fi s3 ->.
      apply wp_bind. apply lift_norm_wp. intros k Hk. apply normalize_index_lt in Hk.
      destruct (nth_error_lt_some _ _ Hk) as (c & ->).
      eapply (alloc_epost S S2); eauto. constructor.
    - (* array *)
      destruct Hva as (els & -> & HF).
      wbind ltac:(eapply load_num_wp; eauto). intros fi s3 ->.
      apply wp_bind. apply lift_norm_wp. intros k Hk. apply normalize_index_lt in Hk.
      destruct (nth_error_lt_some _ _ Hk) as (c & Hc). rewrite Hc.
      apply wp_ret. exists S2; split; [exact E02|split; [exact Hi2|]].
      rewrite Forall_forall in HF; apply HF. eapply nth_error_In; eauto.
    - (* map *)
      destruct Hva as (m & -> & HI & HF).
      wbind ltac:(eapply load_wp; eauto). intros vi s3 [-> Hvi]. apply cell_ok_inv in Hvi as [x ->].
      unfold oget. destruct (plookup x (pairs m)) as [l|] eqn:El; [|exact I].
      apply wp_ret. exists S2; split; [exact E02|split; [exact Hi2|]].
      eauto using map_entry_typed.
  Qed.

  Lemma eslice_ok a x lo hi : expr_ok (S f) (ESlice a x lo hi).
  Proof.
    intros P e G t S s Hty Hs1 HG Hi.
    apply ety_ESlice_inv in Hty as (-> & Hx & Hlo & Hhi & Hta).
    rewrite s1_expr_ESlice in Hs1.
    apply andb_true_iff in Hs1 as [Hs1 Hs1d]. apply andb_true_iff in Hs1 as [Hs1 Hs1c].
    apply andb_true_iff in Hs1 as [Hs1a Hs1b].
    tick_step.
    wbind ltac:(eapply IHe; eauto). intros la s1 (S1 & E1 & Hi1 & Hla).
    wbind ltac:(eapply eval_opt_wp; eauto). intros llo s2 (S2 & E2 & Hi2 & Hllo).
    wbind ltac:(eapply eval_opt_wp; eauto). intros lhi s3 (S3 & E3 & Hi3 & Hlhi).
    pose proof Hi3 as [Hh3 He3]. assert (E03 : ext S S3) by eauto using ext_trans.
    assert (Hla3 : sfind S3 la = Some a) by auto.
    wbind ltac:(eapply load_wp; [exact Hh3|exact Hla3]). intros va s4 [-> Hva]. apply cell_ok_inv in Hva.
    destruct Hta as [->|[(u & ->)| ->]].
    - destruct Hva as [y ->].
      wbind ltac:(eapply slice_bounds_wp; eauto). intros [i j] s4 ->.
      eapply (alloc_epost S S3); eauto. constructor.
    - destruct Hva as (els & -> & HF).
      wbind ltac:(eapply slice_bounds_wp; eauto). intros [i j] s4 ->.
      apply wp_depth_fuel.
      pose proof (ho_tys _ _ Hh3 _ _ Hla3) as Hok.
      destruct (ok1_elem (TArr u) u (or_introl eq_refl) Hok) as [_ Hnu].
      wbind ltac:(eapply mapM_copy_wp with (u := u); eauto using Forall_firstn, Forall_skipn).
      intros els' s5 (S5 & E5 & Hh5 & Hg5 & HF5).
      eapply (alloc_epost S S5); [eauto using ext_trans|eapply inv_step; eauto|constructor; auto|exact Hok].
    - (* a slice of the untyped [] *)
      subst va.
      wbind ltac:(eapply slice_bounds_wp; eauto). intros [i j] s4 ->.
      apply wp_depth_fuel.
      rewrite firstn_skipn_nil. cbn [mapM]. unfold bindM at 1. cbn [ret].
      eapply (alloc_epost S S3); eauto; constructor.
  Qed.

  Lemma edot_ok a x key : expr_ok (S f) (EDot a x key).
  Proof.
    intros P e G t S s Hty Hs1 HG Hi. apply ety_EDot_inv in Hty as (-> & Hx & _).
    cbn [s1_expr] in Hs1. apply andb_true_iff in Hs1 as [Hs1a Hs1b].
    tick_step.
    wbind ltac:(eapply IHe; eauto). intros la s1 (S1 & E1 & Hi1 & Hla).
    wbind ltac:(eapply load_wp; eauto; apply Hi1). intros va s2 [-> Hva].
    apply cell_ok_inv in Hva as (m & -> & HI & HF).
    unfold oget. destruct (plookup key (pairs m)) as [l|] eqn:El; [|exact I].
    apply wp_ret. exists S1; split; [auto|split; [exact Hi1|]]. eauto using map_entry_typed.
  Qed.

  Lemma eassert_ok a x : expr_ok (S f) (EAssert a x).
  Proof.
    intros P e G t S s Hty Hs1 HG Hi. apply ety_EAssert_inv in Hty as (-> & Hx & _ & Hd).
    cbn [s1_expr] in Hs1. apply andb_true_iff in Hs1 as [Hs1a Hs1b].
    pose proof (ty_decl_proper _ Hd) as Hp.
    tick_step.
    wbind ltac:(eapply IHe; eauto). intros la s1 (S1 & E1 & Hi1 & Hla).
    wbind ltac:(eapply load_wp; eauto; apply Hi1). intros va s2 [-> Hva].
    apply cell_ok_inv in Hva as (u & i & -> & Nu & Nu' & Hu).
    destruct (ty_eqb (ty_shape u) (ty_shape a)) eqn:Esh; [|exact I].
    apply assert_shape in Esh; auto.
    2:{ destruct (ok1_dyn _ (ho_tys _ _ (proj1 Hi1) _ _ Hu)); congruence. }
    subst u. apply wp_ret. exists S1; auto.
  Qed.

  Lemma expr_step : expr_sound (S f).
  Proof.
    intros x P e G t S s. destruct x.
    1-3: (* literals *)
      intros Hty _ _ Hi; injection Hty as <-; tick_step;
      eapply alloc_epost; [apply ext_refl|exact Hi|constructor|auto].
    - apply evar_ok.
    - apply eany_ok.
    - apply earr_ok.
    - apply emap_ok.
    - apply ecall_ok.
    - apply eun_ok.
    - apply ebin_ok.
    - apply eindex_ok.
    - apply eslice_ok.
    - apply edot_ok.
    - (* EGroup *) intros Hty Hs1 HG Hi. tick_step. eapply IHe; eauto.
    - apply eassert_ok.
  Qed.

  Lemma exprs_step : exprs_sound (S f).
  Proof.
    intros P e es G ts S s Hty Hs1 Hnn HG Hi. destruct es as [|x es].
    - rewrite eval_exprs_nil. simpl in Hty; inversion Hty; subst. apply wp_ret. exists S; repeat split; auto using ext_refl; apply Hi.
    - rewrite eval_exprs_cons. cbn [etys] in Hty. cbn [s1_exprs] in Hs1. apply andb_true_iff in Hs1 as [Hs1a Hs1b].
      destruct (ety (p_funcs P) G x) as [t|] eqn:Ex; [|discriminate].
      destruct (etys (p_funcs P) G es) as [ts'|] eqn:Ees; inversion Hty; subst.
      inversion Hnn; subst.
      eapply eval_copy_wp; eauto. intros c S2 s2 E2 Hi2 Hc.
      wbind ltac:(eapply (IHes P e es G ts' S2); eauto). intros r s3 (S3 & E3 & Hi3 & HF).
      apply wp_ret. exists S3; split; [eauto using ext_trans|split; [exact Hi3|]].
      constructor; auto.
  Qed.
End ExprStep.

Fixpoint conds_s1 (cs : list (expr * list stmt)) : bool :=
  match cs with [] => true | (c, b) :: r => s1_expr strict c && s1_stmts strict b && conds_s1 r end.

Fixpoint conds_ret (cs : list (expr * list stmt)) : bool :=
  match cs with [] => true | (_, b) :: t => always_returns b && conds_ret t end.

Lemma stmt_returns_SIf conds els : stmt_returns (SIf conds els) =
  match els with Some b => conds_ret conds && always_returns b | None => false end.
Proof. destruct els; reflexivity. Qed.

Lemma s1_stmt_SIf conds els : s1_stmt strict (SIf conds els) =
  conds_s1 conds && match els with Some b => s1_stmts strict b | None => true end.
Proof. reflexivity. Qed.
Lemma s1_stmt_SWhile c body : s1_stmt strict (SWhile c body) = s1_expr strict c && s1_stmts strict body.
Proof. reflexivity. Qed.
Lemma s1_stmt_SFor var vt r body : s1_stmt strict (SFor var vt r body) =
      match var with Some _ => fr_ty strict vt | None => true end
      && match r with
         | RStep a b c => s1_opt strict a && s1_expr strict b && s1_opt strict c
         | RExpr y => s1_expr strict y
         end
      && s1_stmts strict body.
Proof. reflexivity. Qed.
Lemma s1_stmt_SCallStmt name args : s1_stmt strict (SCallStmt name args) = call_frag name && s1_exprs strict args.
Proof. reflexivity. Qed.

Lemma grows_inv sf0 T G' : grows (sf0 :: T) G' -> exists sf, G' = sf :: T /\ fgrows sf0 sf.
Proof. intros (a & c & T' & E & -> & H). inversion E; subst. eauto. Qed.

Lemma inv_nonempty S G e s : inv S G e s -> G <> [].
Proof. intros [_ He] ->. apply env_ok_length in He. simpl in He. lia. Qed.

Lemma sig_ok_ext S S' ret il sig : ext S S' -> sig_ok S ret il sig -> sig_ok S' ret il sig.
Proof. intros E. destruct sig as [| |[l|]]; simpl; auto. intros (t & H1 & H2); eauto. Qed.

Lemma sig_ok_noloop S ret il sig : sig_ok S ret false sig -> sig_ok S ret il sig.
Proof. destruct sig as [| |[l|]]; simpl; auto. discriminate. Qed.

Lemma must_ret_false sig : must_ret false sig.
Proof. intros H; discriminate. Qed.

(* leaving a block: the frame pushed for it is dropped *)
Lemma pop_post S G Gb e ret il rt r s' :
  G <> [] -> spost S (push G) Gb ([] :: e) ret il rt r s' ->
  exists S', ext S S' /\ inv S' G (tl (snd r)) s' /\ List.length (tl (snd r)) = List.length e /\
             sig_ok S' ret il (fst r) /\ must_ret rt (fst r).
Proof.
  intros HG (S' & G'' & E & Hh & Hg & He & Hl & _ & Hs & Hm).
  apply grows_inv in Hg as (sf & -> & _).
  apply env_ok_pop in He as [He Hne]; auto.
  exists S'; split; auto. split; [split; auto|]. split; [|split; auto].
  destruct (snd r); [congruence|]. simpl in *. injection Hl; auto.
Qed.

Lemma inv_push S G e s : inv S G e s -> inv S (push G) ([] :: e) s.
Proof. intros [Hh He]. split; auto. apply env_ok_push; auto. Qed.

Lemma inv_unpush S sf G d e s : inv S (sf :: G) (d :: e) s -> inv S G e s.
Proof. intros [Hh He]. split; auto. inversion He; subst; auto. Qed.

Lemma fgrows_sub a b : fgrows a b -> sframe_sub a b.
Proof.
  induction 1 as [|sf n t Hg IH Hn Hb]; intros k u Hk; auto.
  simpl. destruct (str_eqb n k) eqn:E; [|auto].
  apply str_eqb_eq in E; subst. rewrite (IH _ _ Hk) in Hn. discriminate.
Qed.

Lemma gsub_grows G G' : grows G G' -> gsub G' -> gsub G.
Proof.
  intros (a & c & T & -> & -> & H). destruct T; simpl; auto.
  intros Hs k u Hk. apply Hs. eapply fgrows_sub; eauto.
Qed.

Lemma gsub_push_result G Gb : grows (push G) Gb -> G <> [] -> gsub Gb.
Proof. intros Hg HG. apply grows_inv in Hg as (sf & -> & _). destruct G; [congruence|exact I]. Qed.

Lemma wt_stmt_grows F ret il G st G' : wt_stmt F ret il G st = Some G' -> G <> [] -> grows G G'.
Proof.
  intros H HG.
  assert (SAME : G' = G -> grows G G') by (intros ->; apply grows_refl; auto).
  destruct st.
  - apply wt_SDecl_inv in H as (fr & G0 & -> & -> & Hb & Hn & _).
    exists fr, ((name, t) :: fr), G0. repeat split; auto. constructor; [constructor| |]; auto.
  - apply SAME. apply wt_SAssign_inv in H as [H _]. exact H.
  - apply SAME. apply wt_SCallStmt_inv in H as [H _]. exact H.
  - apply SAME. apply wt_SReturn_inv in H as [H _]. exact H.
  - apply SAME. apply wt_SBreak_inv in H as [H _]. exact H.
  - apply SAME. apply wt_SIf_inv in H as [H _]. exact H.
  - apply SAME. apply wt_SWhile_inv in H as [H _]. exact H.
  - apply SAME. apply wt_SFor_inv in H as [H _]. exact H.
  - apply SAME. injection H as <-. reflexivity.
Qed.

Lemma grows_nonempty G G' : grows G G' -> G' <> [].
Proof. intros (a & c & T & -> & -> & _). discriminate. Qed.

Lemma wt_stmts_grows F ret il : forall l G G', wt_stmts F ret il G l = Some G' -> G <> [] -> grows G G'.
Proof.
  induction l as [|st l IH]; intros G G' H HG; simpl in H.
  - inversion H; subst. apply grows_refl; auto.
  - destruct (wt_stmt F ret il G st) as [G1|] eqn:E1; [|discriminate].
    pose proof (wt_stmt_grows _ _ _ _ _ _ E1 HG) as Hg1.
    eapply grows_trans; eauto. eapply IH; eauto using grows_nonempty.
Qed.

Lemma list_set_Forall {A} (P : A -> Prop) l k x : Forall P l -> P x -> Forall P (list_set l k x).
Proof.
  intros H Hx; revert k; induction H; intros k; simpl; [constructor|].
  destruct k; constructor; auto.
Qed.

Lemma ty_decl_not_none t : ty_decl t = true -> t <> TNone.
Proof. unfold ty_decl. intros H E; subst; discriminate. Qed.

Lemma rg_ok_ext S S' named rg : ext S S' -> rg_ok S named rg -> rg_ok S' named rg.
Proof.
  intros E. destruct rg; simpl; auto.
  - intros [(u & H1 & H2)|H]; [left; eauto|right; auto].
  - intros [[(u & H1)|H] H2]; (split; [|exact H2]); [left; eauto|right; auto].
Qed.

Lemma run_test_wp S G e s args :
  inv S G e s -> Forall (fun l => sfind S l = Some TAny) args ->
  wp (run_test args s) (fun _ s' => inv S G e s').
Proof.
  intros Hi Hall. pose proof Hi as [Hh He].
  assert (Hd : strict = true -> deep_ok TAny value_depth) by (intros Hs; eapply deep_ok_of_ok1; auto).
  (* Sem.run_test is not a chain of binds: it matches on the result pairs, to count the test when the
     comparison fails with an error too; so this proof works on the pairs *)
  unfold run_test. apply wp_depth_fuel. revert Hd. generalize value_depth as d. intros d Hd.
  assert (BUMP : forall n m, inv S G e (upd_tests n m s)) by (intros; eapply inv_same; eauto).
  pose proof (proj1 (Forall_forall _ _) Hall) as Hin.
  assert (UW : forall a, In a args -> wp (unwrap_any a s) (fun _ s' => s' = s)).
  { intros a Ha. eapply unwrap_any_wp; eauto. }
  cbv beta zeta.
  destruct args as [|a [|b rest]].
  - exact I.
  - pose proof (UW a (or_introl eq_refl)) as Ua. unfold bindM, wp in *.
    destruct (unwrap_any a s) as [[v|er] s1] eqn:Eu; [subst s1|exact Ua].
    destruct v; try exact I. unfold ret at 1. cbv iota beta. rewrite Eu. unfold ret.
    destruct b; [apply BUMP|]. cbn [st_failfast upd_tests]. destruct (st_failfast s); [exact I|apply BUMP].
  - assert (SM : wp (same d a b s) (fun _ s' => s' = s)).
    { eapply (same_wp d S s a b TAny TAny); [auto|apply Hin; left; reflexivity|apply Hin; right; left; reflexivity|auto]. }
    assert (TAIL : forall s1, s1 = s ->
      wp (match same d a b s1 with
          | (Er e0, s2) => (Er e0, upd_tests (Datatypes.S (st_total s2)) (st_fails s2) s2)
          | (Ok true, s2) => (Ok tt, upd_tests (Datatypes.S (st_total s2)) (st_fails s2) s2)
          | (Ok false, s2) =>
              if st_failfast (upd_tests (Datatypes.S (st_total s2)) (Datatypes.S (st_fails s2)) s2)
              then (Er ETestFail, upd_tests (Datatypes.S (st_total s2)) (Datatypes.S (st_fails s2)) s2)
              else (Ok tt, upd_tests (Datatypes.S (st_total s2)) (Datatypes.S (st_fails s2)) s2)
          end) (fun _ s' => inv S G e s')).
    { intros s1 ->. unfold wp in SM |- *.
      destruct (same d a b s) as [[r|er] s2]; [subst s2|exact SM].
      destruct r; [apply BUMP|]. cbn [st_failfast upd_tests]. destruct (st_failfast s); [exact I|apply BUMP]. }
    destruct rest as [|m rest'].
    + unfold ret at 1. apply TAIL; reflexivity.
    + pose proof (UW m (or_intror (or_intror (or_introl eq_refl)))) as Um. unfold bindM at 1.
      unfold wp in Um. destruct (unwrap_any m s) as [[v|er] s1] eqn:Eu; [subst s1|exact Um].
      destruct v; try exact I; unfold ret at 1; apply TAIL; reflexivity.
Qed.

Lemma call_frag_cases name : call_frag name = true ->
  name = n_test \/ (str_eqb name n_test = false /\ (mem_str name s1_builtins = true \/ builtin_sig name = None)).
Proof.
  unfold call_frag. intros H.
  destruct (str_eqb name n_test) eqn:E; [left; apply str_eqb_eq; auto|right; split; auto].
  rewrite orb_false_r in H. apply orb_true_iff in H as [H|H]; auto.
  right. destruct (builtin_sig name); [discriminate|auto].
Qed.

Lemma find_func_In n F fd : find_func n F = Some fd -> In fd F.
Proof.
  induction F as [|f F IH]; simpl; [discriminate|].
  destruct (str_eqb (fn_name f) n); [intros H; inversion H; auto|auto].
Qed.

Definition nz (p : str * ty) : bool := negb (str_eqb (fst p) underscore).

Lemma params_frame_eq ps : params_frame ps = rev (filter nz ps).
Proof. reflexivity. Qed.

(* a parameter name does not occur among the later parameters: they stay fresh when it is bound *)
Lemma fresh_after n t ps sf :
  Forall (fun p => nz p = true -> sget (fst p) sf = None) ps -> negb (mem_str n (map fst ps)) = true ->
  Forall (fun p => nz p = true -> sget (fst p) ((n, t) :: sf) = None) ps.
Proof.
  intros Hf Hd. rewrite Forall_forall in Hf |- *. intros [k tk] Hin Hk. simpl.
  destruct (str_eqb n k) eqn:Enk; [|exact (Hf _ Hin Hk)].
  apply str_eqb_eq in Enk; subst k. exfalso. apply negb_true_iff in Hd.
  assert (Hin' : In n (map fst ps)) by (apply in_map_iff; exists (n, tk); auto).
  apply mem_str_In in Hin'. congruence.
Qed.

Lemma bind_params_ok S : forall ps args sf fr s,
  Forall2 (fun l t => sfind S l = Some t) args (map snd ps) ->
  frame_ok S sf fr ->
  Forall (fun p => nz p = true -> sget (fst p) sf = None) ps ->
  names_distinct (map fst ps) = true ->
  wp (bind_params ps args fr s)
     (fun r s' => s' = s /\ frame_ok S (rev (filter nz ps) ++ sf) (fst r)).
Proof.
  induction ps as [|[n t] ps IH]; intros args sf fr s HF Hfr Hfresh Hd.
  - simpl. split; auto.
  - simpl in HF. inversion HF as [|a t' rest ts' Ha HF']; subst. cbn [bind_params].
    simpl in Hd. apply andb_true_iff in Hd as [Hd1 Hd2]. inversion Hfresh as [|? ? Hf1 Hf2]; subst.
    simpl. unfold nz at 1. simpl.
    destruct (str_eqb n underscore) eqn:En; simpl.
    + eapply IH; eauto.
    + eapply wp_mono; [eapply (IH rest ((n, t) :: sf) (frame_set n a fr) s); eauto|].
      * apply frame_ok_decl; auto. apply Hf1. unfold nz; simpl. rewrite En. reflexivity.
      * apply fresh_after; assumption.
      * cbv beta. intros r s' [-> Hr]. split; auto. rewrite <- app_assoc. exact Hr.
Qed.

Lemma sget_In n sf t : sget n sf = Some t -> In (n, t) sf.
Proof.
  induction sf as [|[k u] sf IH]; simpl; [discriminate|].
  destruct (str_eqb k n) eqn:E; auto. apply str_eqb_eq in E; subst. intros H; inversion H; auto.
Qed.

Lemma params_frame_not_reserved ps n :
  forallb param_ok ps = true -> (n = n_err \/ n = n_errmsg) -> sget n (params_frame ps) = None.
Proof.
  intros Hp Hn. destruct (sget n (params_frame ps)) as [t|] eqn:E; auto. exfalso.
  apply sget_In in E. unfold params_frame in E. apply in_rev in E. apply filter_In in E as [Hin Hnz].
  rewrite forallb_forall in Hp. specialize (Hp _ Hin). unfold param_ok in Hp. simpl in Hp, Hnz.
  apply andb_true_iff in Hp as [Hp _]. apply negb_true_iff in Hnz. rewrite Hnz in Hp. simpl in Hp.
  apply binder_not_reserved in Hp as (N1 & N2 & _). destruct Hn; congruence.
Qed.

(* the body of a function or of a handler runs in its parameter frame over the program's globals *)
Lemma body_entry P S0 S G0 e0 s0 s ps fr ret body Gb :
  env_ok S0 G0 e0 (st_globals s0) -> ext S0 S -> heap_ok S (st_heap s) -> st_globals s = st_globals s0 ->
  frame_ok S (params_frame ps) fr -> forallb param_ok ps = true -> funcs_ok P ->
  wt_stmts (p_funcs P) ret false [params_frame ps; Gg] body = Some Gb ->
  inv S [params_frame ps; Gg] [fr] s /\ genv_ok P [params_frame ps; Gg] /\ gsub Gb.
Proof.
  intros He E Hh Hg Hfr Hpok HF0 EGb.
  assert (Hgl : globals_ok S (st_globals s)).
  { rewrite Hg. eapply globals_ok_ext; eauto. eapply env_ok_globals; eauto. }
  split; [|split].
  - split; auto. constructor; auto. constructor; auto. intros k u Hk; exact Hk.
  - split; [|split; auto]; simpl.
    + rewrite params_frame_not_reserved; auto. rewrite (HGg n_err TBool eq_refl). reflexivity.
    + rewrite params_frame_not_reserved; auto. rewrite (HGg n_errmsg TStr eq_refl). reflexivity.
  - apply wt_stmts_grows in EGb; [|discriminate]. apply grows_inv in EGb as (sf & -> & _). exact I.
Qed.

Section CallStep.
  Context (f : nat) (IHes : exprs_sound f) (IHblock : block_sound f).

  Lemma call_step : call_sound (S f).
  Proof.
    intros P e name args G sg ts S s Hsig Hty Hok Hm Hs1 HG Hi. cbn [eval_call].
    wbind ltac:(eapply IHes; eauto using sig_args_ok_value). intros vals s1 (S1 & E1 & Hi1 & HF).
    destruct (call_frag_cases _ Hm) as [->|[Htest Hm']].
    { (* test *)
      change (str_eqb n_test n_test) with true. cbv iota.
      unfold lookup_sig in Hsig. vm_compute in Hsig. inversion Hsig; subst sg. clear Hsig.
      unfold sig_args_ok in Hok. cbn [fs_var fs_params] in Hok.
      wbind ltac:(eapply run_test_wp; eauto using variadic_any_typed). intros _ s2 Hi2.
      apply wp_ret. exists S1; split; [auto|split; [auto|reflexivity]]. }
    rewrite Htest. destruct (builtin name e vals) as [m|] eqn:Eb.
    - (* a modelled built-in *)
      assert (Hmem : mem_str name s1_builtins = true).
      { destruct Hm' as [Hm'|Hm']; auto. apply builtin_some_sig in Eb. congruence. }
      pose proof (lookup_sig_builtin (p_funcs P) name (builtin_some_sig _ _ _ _ Eb)) as Hl.
      eapply wp_mono; [eapply builtin_sound; eauto; rewrite <- Hl; eauto|]. cbv beta.
      intros r s2 (S2 & l & -> & E2 & Hi2 & Hl2). exists S2; split; [eauto using ext_trans|split; auto].
    - destruct (existsb (str_eqb name) unmodelled_builtins); [exact I|].
      (* a user function *)
      assert (Hnb : builtin_sig name = None).
      { destruct Hm' as [Hm'|Hm']; auto. apply builtin_none in Eb. congruence. }
      unfold lookup_sig in Hsig. rewrite Hnb in Hsig.
      destruct (find_func name (p_funcs P)) as [fd|] eqn:Ef; [|discriminate].
      simpl in Hsig. inversion Hsig; subst sg. clear Hsig.
      destruct HG as (HG1 & HG2 & HF0). destruct (HF0 fd (find_func_In _ _ _ Ef)) as [Hwt Hfr].
      destruct (wt_func_inv _ _ _ Hwt) as (Hpok & Hnd & Hret & Gb & EGb).
      unfold s1_func in Hfr. apply andb_true_iff in Hfr as [Hfrb Hfrv].
      set (pf := params_frame (fn_params fd ++ match fn_variadic fd with Some (n, t) => [(n, TArr t)] | None => [] end)) in *.
      pose proof Hi1 as [Hh1 He1].
      assert (HGne : G <> []) by (eapply inv_nonempty; eauto).
      (* the body, in the parameter frame *)
      assert (TAIL : forall fr' s2 S2, ext S1 S2 -> heap_ok S2 (st_heap s2) ->
                st_globals s2 = st_globals s1 -> frame_ok S2 pf fr' ->
                wp ((let* (sig, _) := exec_block f P [fr'] (fn_body fd) in
                     match sig with
                     | SigReturn v => Sem.ret v
                     | _ => let* l := alloc HNone in Sem.ret (Some l)
                     end) s2) (cpost S G e (fn_ret fd))).
      { intros fr' s2 S2 E2 Hh2 Hg2 Hfr'.
        destruct (body_entry P S1 S2 G e s1 s2 _ fr' _ _ Gb He1 E2 Hh2 Hg2 Hfr' Hpok HF0 EGb) as (Hi2 & HG2' & Hgs).
        wbind ltac:(eapply (IHblock P (Some (fn_ret fd)) false [fr'] (fn_body fd) [pf; Gg] Gb S2); eauto).
        intros [sig e3] s3 (S3 & G3 & E3 & Hh3 & Hg3 & He3 & Hl3 & _ & Hsig & Hmust). simpl in *.
        assert (Hi3 : inv S3 G e s3).
        { split; auto. eapply env_ok_reglob; [eapply env_ok_ext; [|exact He1]; eauto using ext_trans|].
          eapply env_ok_globals; eauto. }
        assert (E13 : ext S S3) by eauto using ext_trans.
        destruct sig as [| |v].
        - (* fell off the end: a procedure *)
          assert (Hn : fn_ret fd = TNone).
          { apply orb_true_iff in Hret as [Hr|Hr]; [destruct (fn_ret fd); try discriminate; auto|].
            destruct (Hmust Hr) as [Hx|(v & Hx)]; discriminate. }
          rewrite Hn.
          wbind ltac:(eapply (alloc_epost S S3 G e s3 HNone TNone); eauto; constructor).
          intros l s4 (S4 & E4 & Hi4 & Hl4). apply wp_ret. exists S4; auto.
        - simpl in Hsig. discriminate.
        - apply wp_ret. exists S3; split; [auto|split; [auto|]].
          destruct v as [l|]; simpl in Hsig.
          + destruct Hsig as (t & Ht & Hl). inversion Ht; subst. auto.
          + inversion Hsig; auto. }
      (* the parameter frame *)
      unfold sig_args_ok, sig_of_fd in Hok. cbn [fs_var fs_params] in Hok.
      destruct (fn_variadic fd) as [[vn vt]|] eqn:Ev; cbn [option_map snd] in Hok.
      + (* variadic *)
        destruct (fn_params fd) eqn:Eps; [|discriminate]. simpl in Hok.
        cbn [bind_params]. unfold bindM at 1. cbn [Sem.ret].
        assert (Hvd : ty_decl (TArr vt) = true).
        { simpl in Hpok. apply andb_true_iff in Hpok as [Hp _]. exact (param_ok_decl _ Hp). }
        assert (Hvp : ty_proper vt = true) by exact (ty_decl_proper _ Hvd).
        assert (Hall : Forall (fun l => sfind S1 l = Some vt) vals).
        { destruct (ty_proper_not_gen _ Hvp). eapply variadic_typed; eauto. }
        pose proof (ty_ann_fr_ok1 (TArr vt) (ty_decl_ann _ Hvd) Hfrv) as Hoka.
        apply wp_bind.
        wbind ltac:(eapply (alloc_wp S1 s1 (HArr vals) (TArr vt)); eauto; constructor; auto).
        intros a s2 (S2 & E2 & Hh2 & Ha & Hg2). apply wp_ret.
        eapply (TAIL _ s2 S2); eauto.
        subst pf. unfold params_frame. simpl.
        destruct (str_eqb vn underscore) eqn:Evn; simpl.
        * apply frame_ok_nil.
        * apply (frame_ok_decl S2 [] [] vn (TArr vt) a); auto using frame_ok_nil.
      + (* fixed parameters *)
        assert (Hprop : Forall (fun p => ty_proper p = true) (map snd (fn_params fd))).
        { rewrite app_nil_r in Hpok. rewrite forallb_forall in Hpok. rewrite Forall_forall.
          intros p Hp. apply in_map_iff in Hp as (q & <- & Hq).
          exact (ty_decl_proper _ (param_ok_decl _ (Hpok _ Hq))). }
        apply args_ok_eq in Hok; auto. subst ts.
        wbind ltac:(eapply (bind_params_ok S1 (fn_params fd) vals [] [] s1); [exact HF|..]).
        * apply frame_ok_nil.
        * rewrite Forall_forall. intros; reflexivity.
        * rewrite app_nil_r in Hnd. exact Hnd.
        * intros [fr rest] s2 [-> Hfr]. unfold bindM at 1. cbn [Sem.ret].
          eapply (TAIL _ s1 S1); eauto using ext_refl.
          subst pf. simpl in Hfr. rewrite !app_nil_r in *. exact Hfr.
  Qed.
End CallStep.

Lemma spost_same S0 S G e ret il rt e' s' sig :
  ext S0 S -> inv S G e' s' -> List.length e' = List.length e -> sig_ok S ret il sig -> must_ret rt sig ->
  spost S0 G G e ret il rt (sig, e') s'.
Proof.
  intros E [Hh He] Hl Hs Hm. exists S, G. simpl.
  split; [auto|]. split; [auto|]. split; [apply grows_refl; eapply inv_nonempty; split; eauto|].
  split; [auto|]. split; [auto|]. split; [auto|]. split; auto.
Qed.

Section CtlStep.
  Context (f : nat) (IHe : expr_sound f) (IHstmt : stmt_sound f) (IHstmts : stmts_sound f)
          (IHblock : block_sound f) (IHcond : cond_sound f) (IHwhile : while_sound f) (IHfor : for_sound f).

  Lemma block_step : block_sound (S f).
  Proof.
    intros P ret il e l G G' S s Hwt Hs1 HG Hi Hgs. rewrite exec_block_unfold.
    apply wp_bind. eapply tick_inv; [exact Hi|]. intros s' Hi'. eapply IHstmts; eauto.
  Qed.

  Lemma stmts_step : stmts_sound (S f).
  Proof.
    intros P ret il e l G G' S s Hwt Hs1 HG Hi Hgs.
    pose proof (inv_nonempty _ _ _ _ Hi) as HGne.
    destruct l as [|st l].
    - rewrite exec_stmts_nil. simpl in Hwt; inversion Hwt; subst. apply wp_ret.
      eapply (spost_same S S); eauto using ext_refl, must_ret_false. exact I.
    - rewrite exec_stmts_cons. cbn [wt_stmts] in Hwt. cbn [s1_stmts] in Hs1. apply andb_true_iff in Hs1 as [Hs1a Hs1b].
      destruct (wt_stmt (p_funcs P) ret il G st) as [G1|] eqn:E1; [|discriminate].
      assert (Hg01 : grows G G1) by (eapply wt_stmt_grows; eauto).
      assert (Hg1' : grows G1 G') by (eapply wt_stmts_grows; eauto using grows_nonempty).
      wbind ltac:(eapply IHstmt; eauto using gsub_grows).
      intros [sig e1] s1 (S1 & G1' & Ex1 & Hh1 & Hg1 & He1 & Hl1 & Hn1 & Hsg1 & Hm1). simpl in *.
      destruct (is_ctl sig) eqn:Ec.
      + apply wp_ret. exists S1, G1'. simpl.
        split; [auto|]. split; [auto|]. split; [auto|]. split; [auto|]. split; [auto|].
        split; [intros ->; discriminate|]. split; [auto|].
        intros _. destruct sig as [| |v]; [discriminate|left; reflexivity|right; eauto].
      + assert (sig = SigNone) by (destruct sig; auto; discriminate). subst sig.
        rewrite (Hn1 eq_refl) in *.
        eapply wp_mono; [eapply (IHstmts P ret il e1 l G1 G' S1); eauto using genv_ok_grows; split; auto|].
        cbv beta. intros [sig2 e2] s2 (S2 & G2 & Ex2 & Hh2 & Hg2 & He2 & Hl2 & Hn2 & Hsg2 & Hm2). simpl in *.
        exists S2, G2. simpl.
        split; [eauto using ext_trans|]. split; [auto|]. split; [eauto using grows_trans|]. split; [auto|].
        split; [congruence|]. split; [auto|]. split; [auto|].
        intros Hr. cbn [always_returns existsb] in Hr. apply orb_true_iff in Hr as [Hr|Hr]; [|auto].
        destruct (Hm1 Hr) as [Hx|(v & Hx)]; discriminate.
  Qed.

  Lemma cond_step : cond_sound (S f).
  Proof.
    intros P ret il e c body G Gb S s Hc Hb Hs1c Hs1b HG Hi. rewrite exec_cond_unfold.
    pose proof (inv_nonempty _ _ _ _ Hi) as HGne.
    wbind ltac:(eapply (IHe c P ([] :: e) (push G) TBool S); eauto using inv_push, genv_ok_push).
    intros l s1 (S1 & E1 & Hi1 & Hl1).
    wbind ltac:(eapply load_wp; eauto; apply Hi1). intros v s2 [-> Hv]. inversion Hv; subst.
    destruct b.
    - assert (Hgs : gsub Gb) by (eapply gsub_push_result; eauto; eapply wt_stmts_grows; eauto; discriminate).
      wbind ltac:(eapply (IHblock P ret il ([] :: e) body (push G) Gb S1); eauto using genv_ok_push).
      intros [sig e2] s2 Hp. apply wp_ret.
      eapply pop_post in Hp; auto.
      destruct Hp as (S2 & E2 & Hi2 & Hl2 & Hsg & Hm). exists S2. simpl in *.
      split; [eauto using ext_trans|]. split; [auto|]. split; auto.
    - apply wp_ret. exists S1; split; auto. split; [eapply inv_unpush; eauto|]. simpl; auto.
  Qed.

  Lemma while_step : while_sound (S f).
  Proof.
    intros P ret e c body G Gb S s Hc Hb Hs1c Hs1b HG Hi. rewrite exec_while_unfold.
    wbind ltac:(eapply IHcond; eauto). intros [r e1] s1 (S1 & E1 & Hi1 & Hl1 & Hr). simpl in *.
    destruct r as [[| |v]|].
    - eapply wp_mono; [eapply (IHwhile P ret e1 c body G Gb S1); eauto|]. cbv beta.
      intros [sig e2] s2 (S2 & E2 & Hi2 & Hl2 & Hs2). exists S2. simpl in *.
      split; [eauto using ext_trans|]. split; [auto|]. split; [congruence|auto].
    - apply wp_ret. exists S1; simpl; auto.
    - apply wp_ret. exists S1; simpl. destruct Hr as [Hr _]. auto.
    - apply wp_ret. exists S1; simpl; auto.
  Qed.

  Lemma for_next_wp S G e s named rg :
    inv S G e s -> rg_ok S named rg ->
    wp ((match rg with
         | RgStep cur stop step =>
             if (PrimFloat.ltb 0 step && PrimFloat.leb stop cur) || (PrimFloat.ltb step 0 && PrimFloat.leb cur stop)
             then ret None
             else let* l := alloc (HNum cur) in ret (Some (l, RgStep (cur + step)%float stop step))
         | RgArr a cur =>
             let* v := load a in
             match v with
             | HArr els => match nth_error els cur with
                           | Some l => ret (Some (l, RgArr a (Datatypes.S cur)))
                           | None => ret None end
             | _ => crash "range over non-array"
             end
         | RgStr s cur =>
             match nth_error s cur with
             | Some c => let* l := alloc (HStr [c]) in ret (Some (l, RgStr s (Datatypes.S cur)))
             | None => ret None
             end
         | RgMap m todo =>
             let* v := load m in
             match v with
             | HMap om =>
                 (fix next (ks : list str) : M (option (loc * ranger)) :=
                    match ks with
                    | [] => ret None
                    | k :: t => if ohas k om then let* l := alloc (HStr k) in ret (Some (l, RgMap m t))
                                else next t
                    end) todo
             | _ => crash "range over non-map"
             end
         end) s)
       (fun nx s' => exists S', ext S S' /\ inv S' G e s' /\
          match nx with
          | None => True
          | Some (l, rg') => rg_ok S' named rg' /\ (forall vt, named = Some vt -> sfind S' l = Some vt)
          end).
  Proof.
    intros Hi Hrg. pose proof Hi as [Hh He]. destruct rg; simpl in Hrg.
    - match goal with |- context [if ?c then _ else _] => destruct c end.
      + apply wp_ret. exists S; auto using ext_refl.
      + wbind ltac:(eapply (alloc_epost S S G e s (HNum cur) TNum); eauto using ext_refl; constructor).
        intros l s1 (S1 & E1 & Hi1 & Hl1). apply wp_ret. exists S1; split; [auto|split; [exact Hi1|]].
        split; [simpl; auto|]. intros vt Hvt. destruct Hrg as [H|H]; congruence.
    - destruct Hrg as [(u & H1 & H2)|H1].
      + wbind ltac:(eapply load_wp with (S := S); eauto).
        intros v s1 [-> Hv]. inversion Hv; subst.
        destruct (nth_error els cur) as [l|] eqn:En; apply wp_ret;
          (exists S; split; [apply ext_refl|split; [exact Hi|]]); auto.
        split; [simpl; left; eauto|].
        intros vt Hvt. match goal with HF : Forall _ els |- _ => rewrite Forall_forall in HF; rename HF into HF0 end.
        apply nth_error_In in En.
        destruct H2; [congruence|]. rewrite (HF0 _ En). congruence.
      + wbind ltac:(eapply load_wp with (S := S); eauto).
        intros v s1 [-> Hv]. inversion Hv; subst. destruct cur; apply wp_ret; exists S; auto using ext_refl.
    - destruct (nth_error runes cur) as [c|].
      + wbind ltac:(eapply (alloc_epost S S G e s (HStr [c]) TStr); eauto using ext_refl; constructor).
        intros l s1 (S1 & E1 & Hi1 & Hl1). apply wp_ret. exists S1; split; [auto|split; [exact Hi1|]].
        split; [simpl; auto|]. intros vt Hvt. destruct Hrg as [H|H]; congruence.
      + apply wp_ret. exists S; auto using ext_refl.
    - destruct Hrg as [Hm Hn].
      assert (Hm' : exists t, sfind S m = Some t /\ (t = TEmptyMap \/ exists u, t = TMap u)).
      { destruct Hm as [(u & Hm)|Hm]; eauto. }
      destruct Hm' as (tm & Hmt & Htm).
      wbind ltac:(eapply load_wp with (S := S); eauto). intros v s1 [-> Hv].
      assert (exists om, v = HMap om) as (om & ->).
      { destruct Htm as [->|(u & ->)]; inversion Hv; subst; eauto. }
      clear Hv. induction todo as [|k todo IHt].
      + apply wp_ret. exists S; auto using ext_refl.
      + destruct (ohas k om); [|exact IHt].
        wbind ltac:(eapply (alloc_epost S S G e s (HStr k) TStr); eauto using ext_refl; constructor).
        intros l s1 (S1 & E1 & Hi1 & Hl1). apply wp_ret. exists S1; split; [auto|split; [exact Hi1|]].
        split.
        * simpl. split; auto. destruct Hm as [(u & Hm)|Hm]; [left; eauto|right; auto].
        * intros vt Hvt. destruct Hn as [H|H]; congruence.
  Qed.

  Lemma for_step : for_sound (S f).
  Proof.
    intros P ret e var rg body G fr0 named Gb S s Hb Hs1 HG Hi Hfr Hrg. cbn [exec_for].
    wbind ltac:(eapply for_next_wp; eauto). intros nx s1 (S1 & E1 & Hi1 & Hnx).
    destruct nx as [[l rg']|].
    2:{ apply wp_ret. exists S1; simpl; auto. }
    destruct Hnx as [Hrg' Hl].
    (* rebinding of the loop variable *)
    assert (U : wp (update_var var l e s1)
                   (fun e1 s2 => inv S1 (fr0 :: G) e1 s2 /\ List.length e1 = List.length e)).
    { destruct named as [vt|]; simpl in Hfr.
      - destruct Hfr as [Hbo ->].
        assert (Hsl : slookup var ([(var, vt)] :: G) = Some vt) by (simpl; rewrite str_eqb_refl; auto).
        eapply update_var_ok; eauto.
      - destruct Hfr as [-> ->]. unfold update_var. simpl. auto. }
    wbind ltac:(exact U). intros e1 s2 [Hi2 Hl2].
    assert (HGne : fr0 :: G <> []) by discriminate.
    assert (Hgs : gsub Gb) by (eapply gsub_push_result; eauto; eapply wt_stmts_grows; eauto; discriminate).
    wbind ltac:(eapply (IHblock P ret true ([] :: e1) body (push (fr0 :: G)) Gb S1);
                eauto using inv_push, genv_ok_push).
    intros [sig e2'] s3 Hp.
    eapply pop_post in Hp; auto.
    destruct Hp as (S3 & E3 & Hi3 & Hl3 & Hsg3 & _). simpl in *.
    destruct sig.
    - eapply wp_mono; [eapply (IHfor P ret (tl e2') var rg' body G fr0 named Gb S3); eauto using rg_ok_ext|].
      cbv beta. intros [sig4 e4] s4 (S4 & E4 & Hi4 & Hl4 & Hs4). exists S4. simpl in *.
      split; [eauto using ext_trans|]. split; [auto|]. split; [rewrite Hl4, Hl3; exact Hl2|auto].
    - apply wp_ret. exists S3. simpl.
      split; [eauto using ext_trans|]. split; [auto|]. split; [rewrite Hl3; exact Hl2|auto].
    - apply wp_ret. exists S3. simpl.
      split; [eauto using ext_trans|]. split; [auto|]. split; [rewrite Hl3; exact Hl2|auto].
  Qed.
End CtlStep.

Lemma map_set_key_wp S s m k v u :
  heap_ok S (st_heap s) -> sfind S m = Some (TMap u) -> sfind S v = Some u ->
  wp (map_set_key m k v s) (fun _ s' => heap_ok S (st_heap s') /\ st_globals s' = st_globals s).
Proof.
  intros Hh Hm Hv. unfold map_set_key.
  wbind ltac:(eapply load_wp; eauto). intros mv s1 [-> Hc]. inversion Hc; subst.
  eapply store_wp; eauto. constructor; auto using Inv_oset.
  rewrite pairs_oset. apply Forall_pset; auto.
Qed.

Section StmtStep.
  Context (f : nat) (IHe : expr_sound f) (IHc : call_sound f) (IHblock : block_sound f)
          (IHcond : cond_sound f) (IHwhile : while_sound f) (IHfor : for_sound f).

  Definition ipost (S : sty) (G : tyenv) (e : env) (rt : option ty) (il mr : bool)
    : signal * env -> state -> Prop :=
    fun r s' => exists S', ext S S' /\ inv S' G (snd r) s' /\ List.length (snd r) = List.length e /\
                           sig_ok S' rt il (fst r) /\ must_ret mr (fst r).

  Lemma if_go_wp P rt il els G :
    match els with
    | Some body => is_some (wt_stmts (p_funcs P) rt il (push G) body) = true /\ s1_stmts strict body = true
    | None => True
    end ->
    genv_ok P G ->
    forall conds e s S,
      conds_wt (p_funcs P) rt il G conds = true -> conds_s1 conds = true -> inv S G e s ->
      wp ((fix go (cs : list (expr * list stmt)) (e : env) : M (signal * env) :=
             match cs with
             | [] =>
                 match els with
                 | Some body =>
                     let* (sig, e1) := exec_block f P ([] :: e) body in
                     ret (sig, tl e1)
                 | None => ret (SigNone, e)
                 end
             | (c, body) :: t =>
                 let* (r, e1) := exec_cond f P e c body in
                 match r with
                 | Some sig => ret (sig, e1)
                 | None => go t e1
                 end
             end) conds e s)
         (ipost S G e rt il (conds_ret conds && match els with Some b => always_returns b | None => false end)).
  Proof.
    intros Hels HG. induction conds as [|[c body] conds IHl]; intros e s S Hwt Hs1 Hi.
    - pose proof (inv_nonempty _ _ _ _ Hi) as HGne. destruct els as [body|].
      + destruct Hels as [Hb Hsb].
        destruct (wt_stmts (p_funcs P) rt il (push G) body) as [Gb|] eqn:Eb; [|discriminate].
        assert (Hgs : gsub Gb) by (eapply gsub_push_result; eauto; eapply wt_stmts_grows; eauto; discriminate).
        wbind ltac:(eapply (IHblock P rt il ([] :: e) body (push G) Gb S); eauto using inv_push, genv_ok_push).
        intros [sig e1] s1 Hp. apply wp_ret.
        eapply pop_post in Hp; auto.
      + apply wp_ret. exists S. simpl.
        split; [apply ext_refl|]. split; [auto|]. split; [auto|]. split; [exact I|apply must_ret_false].
    - cbn [conds_wt] in Hwt. cbn [conds_s1] in Hs1.
      apply andb_true_iff in Hwt as [Hwt Hwt3]. apply andb_true_iff in Hwt as [Hwt1 Hwt2].
      apply andb_true_iff in Hs1 as [Hs1 Hs13]. apply andb_true_iff in Hs1 as [Hs11 Hs12].
      apply opt_ty_eqb_eq in Hwt1.
      destruct (wt_stmts (p_funcs P) rt il (push G) body) as [Gb|] eqn:Eb; [|discriminate].
      wbind ltac:(eapply IHcond; eauto). intros [r e1] s1 (S1 & E1 & Hi1 & Hl1 & Hr). simpl in *.
      destruct r as [sig|].
      + apply wp_ret. destruct Hr as [Hr1 Hr2]. exists S1. simpl.
        split; [auto|]. split; [auto|]. split; [auto|]. split; [auto|].
        intros Hm. apply Hr2. apply andb_true_iff in Hm as [Hm _]. apply andb_true_iff in Hm; tauto.
      + eapply wp_mono; [eapply (IHl e1 s1 S1); eauto|]. cbv beta.
        intros [sig e2] s2 (S2 & E2 & Hi2 & Hl2 & Hs2 & Hm2). exists S2. simpl in *.
        split; [eauto using ext_trans|]. split; [auto|]. split; [rewrite Hl2; auto|]. split; [auto|].
        intros Hm. apply Hm2. apply andb_true_iff in Hm as [Hm Hm']. apply andb_true_iff in Hm as [_ Hm].
        rewrite Hm, Hm'. reflexivity.
  Qed.

  Lemma num_wp P e1 x G1 S s :
    ety (p_funcs P) G1 x = Some TNum -> s1_expr strict x = true -> genv_ok P G1 -> inv S G1 e1 s ->
    wp ((let* l := eval_expr f P e1 x in
         let* v := load l in
         match v with HNum y => Sem.ret y | _ => internal "expected number" end) s)
       (fun _ s' => exists S', ext S S' /\ inv S' G1 e1 s').
  Proof.
    intros Ht Hs HG Hi.
    wbind ltac:(eapply IHe; eauto). intros l s1 (S1 & E1 & Hi1 & Hl1).
    wbind ltac:(eapply load_wp; eauto; apply Hi1). intros v s2 [-> Hv]. apply cell_ok_inv in Hv as [y ->].
    apply wp_ret. eauto.
  Qed.

  Lemma opt_num_expr F G o dflt :
    etyo F G o = true -> s1_opt strict o = true ->
    ety F G (match o with Some y => y | None => ENum dflt end) = Some TNum /\
    s1_expr strict (match o with Some y => y | None => ENum dflt end) = true.
  Proof. destruct o; simpl; intros H1 H2; auto. apply opt_ty_eqb_eq in H1; auto. Qed.

  Lemma zero_val_wp S s vt :
    heap_ok S (st_heap s) -> ty_decl vt = true -> fr_ty strict vt = true ->
    wp (zero_val vt s) (hpost S (st_globals s) (fun S' z => sfind S' z = Some vt)).
  Proof.
    intros Hh Hd Hs1.
    pose proof (ty_ann_fr_ty_ok1 _ (ty_decl_ann _ Hd) Hs1) as Hok. pose proof (ty_decl_proper _ Hd) as Hp.
    destruct vt; try discriminate; cbn [zero_val].
    1-3: apply (alloc_hpost S S); auto using ext_refl; constructor.
    - wbind ltac:(eapply (alloc_hpost S S s (HBool false) TBool); auto using ext_refl; constructor).
      intros b s1 (S1 & E1 & Hh1 & Hg1 & Hb). rewrite <- Hg1.
      apply (alloc_hpost S S1); auto. constructor; auto; discriminate.
    - apply (alloc_hpost S S); auto using ext_refl. constructor; constructor.
    - apply (alloc_hpost S S); auto using ext_refl. constructor; [apply Inv_oempty|constructor].
  Qed.

  (* the last step of every form of range: the loop variable is bound, the ranger is returned *)
  Lemma bind_loopvar S0 S G e s var vt named rg (m : M loc) :
    ext S0 S -> inv S (push G) ([] :: e) s -> rg_ok S named rg ->
    (forall v, var = Some v -> binder_ok v = true /\
       wp (m s) (hpost S (st_globals s) (fun S' z => sfind S' z = Some vt))) ->
    wp ((let* e2 := match var with
                    | Some v => let* z := m in set_var v z ([] :: e)
                    | None => Sem.ret ([] :: e)
                    end in Sem.ret (rg, e2)) s)
       (fun p s' => exists S', ext S0 S' /\
          inv S' ((match var with Some v => [(v, vt)] | None => [] end) :: G) (snd p) s' /\
          rg_ok S' named (fst p) /\ List.length (snd p) = Datatypes.S (List.length e)).
  Proof.
    intros E0 Hi Hrg Hv. apply wp_bind. destruct var as [v|].
    - destruct (Hv v eq_refl) as [Hb Hm]. pose proof (binder_not_reserved _ Hb) as (_ & _ & Hus).
      wbind ltac:(exact Hm). intros z s1 (S1 & E1 & Hh1 & Hg1 & Hz).
      assert (Hi1 : inv S1 (push G) ([] :: e) s1) by (eapply inv_step; eauto).
      pose proof (inv_nonempty _ _ _ _ (inv_unpush _ _ _ _ _ _ Hi1)) as HGne.
      eapply wp_mono; [eapply (set_var_ok S1 [] G ([] :: e) s1 v vt z); eauto; congruence|].
      cbv beta. intros e2 s2 [Hi2 Hl2]. apply wp_ret. exists S1; simpl.
      split; [eauto using ext_trans|]. split; [exact Hi2|]. split; [eauto using rg_ok_ext|exact Hl2].
    - apply wp_ret. apply wp_ret. exists S; simpl. auto.
  Qed.

  Lemma sdecl_ok name t x : stmt_ok (S f) (SDecl name t x).
  Proof.
    intros P ret il e G G' S s Hwt Hs1 HG Hi Hgs.
    apply wt_SDecl_inv in Hwt as (fr & G0 & -> & -> & Hb & Hnf & Hd & Hx).
    cbn [s1_stmt] in Hs1. apply andb_true_iff in Hs1 as [Hs1a Hs1b].
    pose proof (binder_not_reserved _ Hb) as (_ & _ & Hus).
    tick_step.
    eapply eval_copy_wp; eauto using ty_decl_not_none. intros c S2 s2 E2 Hi2 Hc.
    wbind ltac:(eapply (set_var_ok S2 fr G0 e s2 name t c); eauto).
    { intros ->. exact Hgs. }
    intros e' s3 [[Hh3 He3] Hl3].
    apply wp_ret. exists S2, (((name, t) :: fr) :: G0). simpl.
    split; [auto|]. split; [auto|]. split.
    { exists fr, ((name, t) :: fr), G0. repeat split; auto. constructor; [constructor| |]; auto. }
    split; [auto|]. split; [auto|]. split; [auto|]. split; [exact I|apply must_ret_false].
  Qed.

  (* the target of an assignment is evaluated after the value *)
  Lemma sassign_var_ok n a x : stmt_ok (S f) (SAssign (EVar n a) x).
  Proof.
    intros P ret il e G G' S s Hwt Hs1 HG Hi Hgs.
    apply wt_SAssign_inv in Hwt as (-> & t & Htg & Hx & Ha & _).
    apply ety_EVar_inv in Htg as (-> & _ & Hlk & _).
    cbn [s1_stmt] in Hs1. apply andb_true_iff in Hs1 as [_ Hs1].
    tick_step.
    eapply eval_copy_wp; eauto using ty_value_not_none, ty_ann_value. intros v S2 s2 E2 Hi2 Hv.
    wbind ltac:(eapply update_var_ok; eauto). intros e' s3 [Hi3 Hl3].
    apply wp_ret. eapply (spost_same S S2); eauto using must_ret_false. exact I.
  Qed.

  Lemma sassign_dot_ok a l k x : stmt_ok (S f) (SAssign (EDot a l k) x).
  Proof.
    intros P ret il e G G' S s Hwt Hs1 HG Hi Hgs.
    apply wt_SAssign_inv in Hwt as (-> & t & Htg & Hx & Ha & _).
    apply ety_EDot_inv in Htg as (-> & Hl & _).
    cbn [s1_stmt s1_expr] in Hs1. apply andb_true_iff in Hs1 as [Hs1a Hs1].
    apply andb_true_iff in Hs1a as [_ Hs1a].
    tick_step.
    eapply eval_copy_wp; eauto using ty_value_not_none, ty_ann_value. intros v S2 s2 E2 Hi2 Hv.
    wbind ltac:(eapply (IHe l P e G (TMap a) S2); eauto). intros la s3 (S3 & E3 & Hi3 & Hla).
    pose proof Hi3 as [Hh3 He3].
    wbind ltac:(eapply load_wp; [exact Hh3|]; eauto). intros va s4 [-> Hva]. inversion Hva; subst.
    wbind ltac:(eapply (map_set_key_wp S3 s3 la k v a); eauto).
    intros _ s4 [Hh4 Hg4]. apply wp_ret.
    eapply (spost_same S S3); eauto using ext_trans, must_ret_false; [eapply inv_store; eauto|exact I].
  Qed.

  Lemma sassign_index_ok a l i x : stmt_ok (S f) (SAssign (EIndex a l i) x).
  Proof.
    intros P ret il e G G' S s Hwt Hs1 HG Hi Hgs.
    apply wt_SAssign_inv in Hwt as (-> & t & Htg & Hx & Ha & Hform).
    apply ety_EIndex_inv in Htg as (-> & _ & ta & ti & Hta & Hti & Hcase).
    assert (Hta' : (ta = TArr a /\ ti = TNum) \/ (ta = TMap a /\ ti = TStr)).
    { (* a string has no assignable elements *)
      destruct Hcase as [(-> & _)|Hcase]; [|exact Hcase].
      destruct Hform as [(n & Hn)|[(l' & k' & Hd)|(l' & i' & u & Hf & Hl)]]; try discriminate.
      injection Hf as <- _. rewrite Hta in Hl. destruct Hl; discriminate. }
    cbn [s1_stmt s1_expr] in Hs1. apply andb_true_iff in Hs1 as [Hs1a Hs1].
    apply andb_true_iff in Hs1a as [Hs1a Hs1a3]. apply andb_true_iff in Hs1a as [_ Hs1a2].
    tick_step.
    eapply eval_copy_wp; eauto using ty_value_not_none, ty_ann_value. intros v S2 s2 E2 Hi2 Hv.
    wbind ltac:(eapply (IHe l P e G ta S2); eauto). intros la s3 (S3 & E3 & Hi3 & Hla).
    wbind ltac:(eapply (IHe i P e G ti S3); eauto). intros li s4 (S4 & E4 & Hi4 & Hli).
    pose proof Hi4 as [Hh4 He4].
    wbind ltac:(eapply load_wp; [exact Hh4|]; eauto). intros va s5 [-> Hva].
    destruct Hta' as [(-> & ->)|(-> & ->)]; inversion Hva; subst.
    - wbind ltac:(eapply load_num_wp; eauto). intros fi s5 ->.
      apply wp_bind. apply lift_norm_wp. intros j Hj.
      wbind ltac:(eapply (store_wp S4 s4 la (HArr (list_set els j v)) (TArr a)); eauto).
      { constructor. apply list_set_Forall; auto. }
      intros _ s5 [Hh5 Hg5]. apply wp_ret.
      eapply (spost_same S S4); eauto using ext_trans, must_ret_false; [eapply inv_store; eauto|exact I].
    - wbind ltac:(eapply load_str_wp; eauto). intros ks s5 ->.
      wbind ltac:(eapply (map_set_key_wp S4 s4 la ks v a); eauto).
      intros _ s5 [Hh5 Hg5]. apply wp_ret.
      eapply (spost_same S S4); eauto using ext_trans, must_ret_false; [eapply inv_store; eauto|exact I].
  Qed.

  Lemma sassign_ok tg x : stmt_ok (S f) (SAssign tg x).
  Proof.
    intros P ret il e G G' S s Hwt.
    destruct (wt_SAssign_inv _ _ _ _ _ _ _ Hwt) as (_ & t & _ & _ & _ & [(n & ->)|[(l & k & ->)|(l & i & u & -> & _)]]);
      revert Hwt.
    - apply sassign_var_ok.
    - apply sassign_dot_ok.
    - apply sassign_index_ok.
  Qed.

  Lemma scall_ok name args : stmt_ok (S f) (SCallStmt name args).
  Proof.
    intros P ret il e G G' S s Hwt Hs1 HG Hi Hgs.
    apply wt_SCallStmt_inv in Hwt as (-> & sg & ts & Hsg & Hts & Hok).
    rewrite s1_stmt_SCallStmt in Hs1. apply andb_true_iff in Hs1 as [Hs1a Hs1b].
    tick_step.
    wbind ltac:(eapply IHc; eauto). intros r s1 (S1 & E1 & Hi1 & _).
    apply wp_ret. eapply (spost_same S S1); eauto using must_ret_false. exact I.
  Qed.

  Lemma sreturn_ok o : stmt_ok (S f) (SReturn o).
  Proof.
    intros P ret il e G G' S s Hwt Hs1 HG Hi Hgs. apply wt_SReturn_inv in Hwt as [-> Ho].
    assert (MR : forall v, must_ret true (SigReturn v)) by (intros v _; right; eauto).
    destruct o as [x|].
    - destruct Ho as (t & -> & Hx). simpl in Hs1.
      tick_step.
      wbind ltac:(eapply IHe; eauto). intros l s1 (S1 & E1 & Hi1 & Hl1).
      apply wp_ret. eapply (spost_same S S1); simpl; eauto.
    - subst ret. tick_step. apply wp_ret. eapply (spost_same S S); simpl; eauto using ext_refl.
  Qed.

  Lemma sbreak_ok : stmt_ok (S f) SBreak.
  Proof.
    intros P ret il e G G' S s Hwt _ HG Hi Hgs. apply wt_SBreak_inv in Hwt as [-> ->].
    tick_step. apply wp_ret. eapply (spost_same S S); eauto using ext_refl, must_ret_false. reflexivity.
  Qed.

  Lemma sif_ok conds els : stmt_ok (S f) (SIf conds els).
  Proof.
    intros P ret il e G G' S s Hwt Hs1 HG Hi Hgs. apply wt_SIf_inv in Hwt as (-> & Hc & Hels).
    rewrite s1_stmt_SIf in Hs1. apply andb_true_iff in Hs1 as [Hs1a Hs1b].
    rewrite stmt_returns_SIf. tick_step.
    eapply wp_mono; [eapply (if_go_wp P ret il els G); eauto|].
    { destruct els; auto. }
    cbv beta. intros [sig e1] s1 (S1 & E1 & Hi1 & Hl1 & Hs & Hm). simpl in *.
    eapply (spost_same S S1); eauto. destruct els; [exact Hm|apply must_ret_false].
  Qed.

  Lemma swhile_ok c body : stmt_ok (S f) (SWhile c body).
  Proof.
    intros P ret il e G G' S s Hwt Hs1 HG Hi Hgs. apply wt_SWhile_inv in Hwt as (-> & Hc & Gb & Hb).
    rewrite s1_stmt_SWhile in Hs1. apply andb_true_iff in Hs1 as [Hs1a Hs1b].
    tick_step.
    eapply wp_mono; [eapply IHwhile; eauto|].
    cbv beta. intros [sig e1] s1 (S1 & E1 & Hi1 & Hl1 & Hs).
    eapply (spost_same S S1); eauto using sig_ok_noloop, must_ret_false.
  Qed.

  Lemma sfor_ok var vt r body : stmt_ok (S f) (SFor var vt r body).
  Proof.
    intros P ret il e G G' S s Hwt Hs1 HG Hi Hgs.
    apply wt_SFor_inv in Hwt as (-> & t & Hr & Hvar & Gb & Hbody).
    rewrite s1_stmt_SFor in Hs1.
    apply andb_true_iff in Hs1 as [Hs1 Hs1b]. apply andb_true_iff in Hs1 as [Hs1v Hs1r].
    assert (Hfr : forall v, var = Some v -> fr_ty strict vt = true) by (intros v ->; exact Hs1v).
    set (vname := match var with Some v => v | None => underscore end).
    set (named := match var with Some _ => Some vt | None => None end).
    set (fr0 := match var with Some v => [(v, vt)] | None => [] end) in *.
    assert (HG2 : genv_ok P (fr0 :: G)).
    { unfold fr0. destruct var as [v|]; [|exact HG]. destruct (Hvar v eq_refl) as (Hb & _). apply genv_ok_frame; auto. }
    assert (Hff : for_frame named vname fr0).
    { unfold named, vname, fr0. destruct var as [v|]; simpl; auto. destruct (Hvar v eq_refl); auto. }
    assert (Hnamed : named = None \/ named = Some t).
    { unfold named. destruct var as [v|]; auto. destruct (Hvar v eq_refl) as (_ & -> & _); auto. }
    pose proof (inv_nonempty _ _ _ _ Hi) as HGne.
    tick_step.
    pose proof (inv_push _ _ _ _ Hi) as Hip.
    apply wp_bind.
    eapply (wp_mono _ (fun p s' => exists S', ext S S' /\ inv S' (fr0 :: G) (snd p) s' /\
                          rg_ok S' named (fst p) /\ List.length (snd p) = Datatypes.S (List.length e))).
    { destruct r as [start stop step|y].
      - (* step range *)
        destruct Hr as (-> & Ec1 & Ec2 & Ec3).
        apply andb_true_iff in Hs1r as [Hs1r Hs1r3]. apply andb_true_iff in Hs1r as [Hs1r1 Hs1r2].
        destruct (opt_num_expr _ _ _ 0%float Ec1 Hs1r1) as [Ta Sa].
        destruct (opt_num_expr _ _ _ 1%float Ec3 Hs1r3) as [Tc Sc].
        wbind ltac:(eapply num_wp; eauto using genv_ok_push). intros a s1 (S1 & E1 & Hi1).
        wbind ltac:(eapply (num_wp P ([] :: e) stop (push G) S1); eauto using genv_ok_push). intros b s2 (S2 & E2 & Hi2).
        wbind ltac:(eapply (num_wp P ([] :: e) _ (push G) S2); eauto using genv_ok_push). intros c s3 (S3 & E3 & Hi3).
        destruct (PrimFloat.eqb c 0); [exact I|].
        eapply (bind_loopvar S S3); [eauto using ext_trans|exact Hi3|exact Hnamed|].
        intros v Hv. destruct (Hvar v Hv) as (Hb & -> & _). split; auto.
        apply (alloc_hpost S3 S3); [apply ext_refl|apply Hi3|constructor|auto].
      - (* range over a value *)
        destruct Hr as (ty' & Ey & Erng).
        wbind ltac:(eapply IHe; eauto using genv_ok_push). intros l s1 (S1 & E1 & Hi1 & Hl1).
        pose proof Hi1 as [Hh1 He1].
        wbind ltac:(eapply load_wp; eauto). intros v s2 [-> Hv].
        pose proof (ho_tys _ _ Hh1 _ _ Hl1) as Hok.
        (* a string or map binds a fresh string cell, an array the zero value of the element type *)
        assert (Hstr : t = TStr -> forall v, var = Some v -> binder_ok v = true /\
                  wp (alloc (HStr []) s1) (hpost S1 (st_globals s1) (fun S' z => sfind S' z = Some vt))).
        { intros -> v0 Hv0. destruct (Hvar v0 Hv0) as (Hb & -> & _). split; auto.
          apply (alloc_hpost S1 S1); [apply ext_refl|apply Hi1|constructor|auto]. }
        assert (Hzero : forall v, var = Some v -> binder_ok v = true /\
                  wp (zero_val vt s1) (hpost S1 (st_globals s1) (fun S' z => sfind S' z = Some vt))).
        { intros v0 Hv0. destruct (Hvar v0 Hv0) as (Hb & -> & Hd). split; auto.
          eapply zero_val_wp; eauto. }
        destruct ty'; simpl in Erng; try discriminate; inversion Erng; subst; inversion Hv; subst;
          (eapply (bind_loopvar S S1); [exact E1|exact Hi1| |auto]; simpl; eauto 6).
    }
    cbv beta. intros [rg e2] s1 (S1 & E1 & Hi1 & Hrg & Hl1). simpl in *.
    wbind ltac:(eapply (IHfor P ret e2 vname rg body G fr0 named Gb S1); eauto).
    intros [sig e3] s2 (S2 & E2 & [Hh2 He2] & Hl2 & Hsg). simpl in *. apply wp_ret.
    apply env_ok_pop in He2 as [He2 Hne]; auto.
    eapply (spost_same S S2); eauto using ext_trans, sig_ok_noloop, must_ret_false.
    + split; auto.
    + destruct e3; [congruence|]. simpl in *. rewrite Hl1 in Hl2. injection Hl2; auto.
  Qed.

  Lemma stmt_step : stmt_sound (S f).
  Proof.
    intros st. destruct st.
    - apply sdecl_ok.
    - apply sassign_ok.
    - apply scall_ok.
    - apply sreturn_ok.
    - apply sbreak_ok.
    - apply sif_ok.
    - apply swhile_ok.
    - apply sfor_ok.
    - (* SNop *)
      intros P ret il e G G' S s Hwt _ HG Hi Hgs. injection Hwt as <-.
      tick_step. apply wp_ret. eapply (spost_same S S); eauto using ext_refl, must_ret_false. exact I.
  Qed.
End StmtStep.

Theorem all_sound_n : forall n, all_sound n.
Proof.
  induction n as [|f IH].
  - repeat split; red; intros; exact I.
  - pose proof IH as (I1 & I2 & I3 & I4 & I5 & I6 & I7 & I8 & I9).
    split; [apply expr_step; auto|]. split; [apply exprs_step; auto|]. split; [apply call_step; auto|].
    split; [apply stmt_step; auto|]. split; [apply stmts_step; auto|]. split; [apply block_step; auto|].
    split; [apply cond_step; auto|]. split; [apply while_step; auto|]. apply for_step; auto.
Qed.

Definition goes_wrong_s (o : outcome) : Prop :=
  match o with OErr e => ~ safe_err e | _ => False end.

Definition genv0 : tyenv := [global_frame0].

(* a state a run may start from: some store typing makes the heap well typed and the globals are
   (a part of) the program's globals at their types, err and errmsg among them *)
Definition state_ok (s : state) : Prop := exists S, inv S genv0 [] s.

Lemma heap_ok_empty : heap_ok (PositiveMap.empty ty) hempty.
Proof.
  constructor; intros l t H; unfold sfind in H; rewrite PositiveMap.gempty in H; discriminate.
Qed.

Lemma init_state_ok stop input ff ay : state_ok (init_state stop input ff ay).
Proof.
  destruct (heap_ok_alloc _ _ (HBool false) TBool heap_ok_empty (CBool _ false) ok1_TBool) as (E1 & H1 & F1).
  destruct (heap_ok_alloc _ _ (HStr []) TStr H1 (CStr _ []) ok1_TStr) as (E2 & H2 & F2).
  destruct (heap_ok_alloc _ _ (HNum (float_of_bits pi_bits)) TNum H2 (CNum _ _) ok1_TNum) as (E3 & H3 & F3).
  eexists. split; [exact H3|].
  unfold genv0. constructor; [exact HGg|].
  change (st_globals (init_state stop input ff ay))
    with [(n_err, 1%positive); (n_errmsg, 2%positive); (s_ "pi", 3%positive)].
  split; [|split; discriminate].
  intros n l. cbn [frame_get].
  repeat match goal with |- context [str_eqb ?k n] =>
    let E := fresh "E" in
    destruct (str_eqb k n) eqn:E;
    [apply str_eqb_eq in E; subst n; intros H; inversion H; subst; eexists; split; [apply HGg; reflexivity|];
     first [reflexivity | apply F3 | apply E3, F2 | apply E3, E2, F1]|clear E] end.
  discriminate.
Qed.

(* the program is checked against Gg and lies in the fragment *)
Definition prog_ok (P : program) : Prop :=
  wt_top P = Some Gg /\
  forallb (wt_func (p_funcs P) Gg) (p_funcs P) = true /\
  s1_stmts strict (p_stmts P) = true /\ forallb (s1_func strict) (p_funcs P) = true.

Lemma prog_genv_ok P : prog_ok P -> genv_ok P genv0.
Proof.
  intros (_ & Hfs & _ & Hs1f). split; [reflexivity|split; [reflexivity|]]. intros fd Hfd.
  rewrite forallb_forall in Hfs, Hs1f. auto.
Qed.

Lemma state_ok_of S G e s : heap_ok S (st_heap s) -> env_ok S G e (st_globals s) -> state_ok s.
Proof.
  intros Hh He. exists S. split; auto. constructor; [exact HGg|eapply env_ok_globals; eauto].
Qed.

(* Soundness with the final state: a run ends with a safe outcome, and when it ends normally the state
   it leaves (on which the event handlers then run) is again well typed *)
Theorem run_generic P : prog_ok P ->
  forall fuel s0, state_ok s0 ->
    match run_program fuel P s0 with
    | (OErr e, _) => safe_err e
    | (_, s1) => state_ok s1
    end.
Proof.
  intros HP fuel s0 (S & Hi). pose proof (prog_genv_ok P HP) as HG. destruct HP as (Htop & Hfs & Hs1 & Hs1f).
  assert (Htop' : wt_stmts (p_funcs P) None false genv0 (p_stmts P) = Some [Gg]).
  { unfold wt_top, genv0 in *.
    destruct (wt_stmts (p_funcs P) None false [global_frame0] (p_stmts P)) as [[|g [|]]|]; try discriminate.
    inversion Htop; subst; auto. }
  destruct (all_sound_n fuel) as (_ & _ & _ & _ & Hstmts & _).
  assert (W : wp ((let* _ := tick in let* _ := exec_stmts fuel P [] (p_stmts P) in Sem.ret tt) s0)
                 (fun _ s' => state_ok s')).
  { apply wp_bind. eapply tick_inv; [exact Hi|]. intros s1 Hi1.
    wbind ltac:(eapply (Hstmts P None false [] (p_stmts P) genv0 [Gg] S); eauto).
    - intros n t H; exact H.
    - intros r s2 (S2 & G2 & _ & Hh2 & _ & He2 & _). apply wp_ret. eapply state_ok_of; eauto. }
  unfold run_program.
  destruct ((let* _ := tick in let* _ := exec_stmts fuel P [] (p_stmts P) in Sem.ret tt) s0) as [[u|er] s1].
  - simpl in W. assert (state_ok (test_report s1)).
    { destruct W as (S1 & Hh1 & He1). exists S1. unfold test_report.
      destruct (Nat.eqb (st_total s1) 0); split; auto. }
    destruct (Nat.ltb 0 (st_fails (test_report s1))); auto.
  - simpl in W. destruct er; simpl in *; auto.
Qed.

Theorem soundness_generic P : prog_ok P ->
  forall fuel s0, state_ok s0 -> ~ goes_wrong_s (fst (run_program fuel P s0)).
Proof.
  intros HP fuel s0 Hs0 Hbad. pose proof (run_generic P HP fuel s0 Hs0) as H.
  destruct (run_program fuel P s0) as [[| |er] s1]; simpl in *; auto.
Qed.

Lemma bind_payload_ok : forall ps args sf fr S s,
  heap_ok S (st_heap s) -> (List.length ps <= List.length args)%nat ->
  frame_ok S sf fr ->
  Forall (fun p => nz p = true -> sget (fst p) sf = None) ps ->
  names_distinct (map fst ps) = true ->
  wp (bind_payload ps args fr s)
     (fun fr' s' => exists S', ext S S' /\ heap_ok S' (st_heap s') /\ st_globals s' = st_globals s /\
                               frame_ok S' (rev (filter nz ps) ++ sf) fr').
Proof.
  induction ps as [|[n t] ps IH]; intros args sf fr S s Hh Hlen Hfr Hfresh Hd.
  - simpl. exists S; split; [apply ext_refl|auto].
  - cbn [bind_payload]. destruct args as [|a args]; [simpl in Hlen; lia|]. simpl in Hlen.
    simpl in Hd. apply andb_true_iff in Hd as [Hd1 Hd2]. inversion Hfresh as [|? ? Hf1 Hf2]; subst.
    assert (K : forall v, cell_ok S v t -> ty_ok1 t = true ->
              wp ((let* l := alloc v in
                   bind_payload ps args (if str_eqb n underscore then fr else frame_set n l fr)) s)
                 (fun fr' s' => exists S', ext S S' /\ heap_ok S' (st_heap s') /\ st_globals s' = st_globals s /\
                                           frame_ok S' (rev (filter nz ((n, t) :: ps)) ++ sf) fr')).
    { intros v Hv Hok.
      wbind ltac:(eapply alloc_wp; eauto). intros l s1 (S1 & E1 & Hh1 & Hl1 & Hg1).
      simpl. unfold nz at 1. simpl. destruct (str_eqb n underscore) eqn:En; simpl.
      - eapply wp_mono; [eapply (IH args sf fr S1 s1); eauto using frame_ok_ext; lia|].
        cbv beta. intros fr' s' (S' & E' & Hh' & Hg' & Hf'). hdone S'.
      - eapply wp_mono; [eapply (IH args ((n, t) :: sf) (frame_set n l fr) S1 s1); eauto; try lia|].
        + apply frame_ok_decl; eauto using frame_ok_ext. apply Hf1. unfold nz; simpl. rewrite En. reflexivity.
        + apply fresh_after; assumption.
        + cbv beta. intros fr' s' (S' & E' & Hh' & Hg' & Hf'). rewrite <- app_assoc. hdone S'. }
    unfold bindM at 1.
    destruct t; destruct a; try exact I.
    + apply (K (HNum f)); [constructor|auto].
    + apply (K (HStr s0)); [constructor|auto].
    + apply (K (HBool b)); [constructor|auto].
Qed.

Theorem handle_event_generic P : prog_ok P ->
  forallb (wt_handler (p_funcs P) Gg) (p_handlers P) = true ->
  forallb (fun h => s1_stmts strict (h_body h)) (p_handlers P) = true ->
  forall fuel name args s0 h, state_ok s0 ->
    find_handler name (p_handlers P) = Some h -> (List.length (h_params h) <= List.length args)%nat ->
    match handle_event fuel P name args s0 with
    | (OErr e, _) => safe_err e
    | (_, s1) => state_ok s1
    end.
Proof.
  intros HP Hwh Hsh fuel name args s0 h (S & [Hh He]) Hfind Hlen.
  pose proof (prog_genv_ok P HP) as (_ & _ & HF0).
  assert (Hin : In h (p_handlers P)).
  { clear -Hfind. induction (p_handlers P) as [|x l IH]; simpl in *; [discriminate|].
    destruct (str_eqb (h_name x) name); [inversion Hfind; auto|auto]. }
  rewrite forallb_forall in Hwh, Hsh. specialize (Hwh _ Hin). specialize (Hsh _ Hin).
  destruct (wt_handler_inv _ _ _ Hwh) as (Hpok & Hnd & Gb & EGb).
  set (pf := params_frame (h_params h)) in *.
  destruct (all_sound_n fuel) as (_ & _ & _ & _ & _ & Hblock & _).
  unfold handle_event. rewrite Hfind.
  assert (W : wp ((let* fr := bind_payload (h_params h) args [] in
                   let* _ := exec_block fuel P [fr] (h_body h) in Sem.ret tt) s0)
                 (fun _ s' => state_ok s')).
  { wbind ltac:(eapply (bind_payload_ok (h_params h) args [] [] S s0); eauto).
    - apply frame_ok_nil.
    - rewrite Forall_forall. intros; reflexivity.
    - intros fr s1 (S1 & E1 & Hh1 & Hg1 & Hfr). rewrite app_nil_r in Hfr.
      destruct (body_entry P S S1 genv0 [] s0 s1 _ fr _ _ Gb He E1 Hh1 Hg1 Hfr Hpok HF0 EGb) as (Hi1 & HG1 & Hgs).
      wbind ltac:(eapply (Hblock P (Some TNone) false [fr] (h_body h) [pf; Gg] Gb S1); eauto).
      intros r s2 (S2 & G2 & _ & Hh2 & _ & He2 & _). apply wp_ret. eapply state_ok_of; eauto. }
  destruct ((let* fr := bind_payload (h_params h) args [] in
             let* _ := exec_block fuel P [fr] (h_body h) in Sem.ret tt) s0) as [[u|er] s1]; simpl in *; auto.
Qed.

Theorem preservation_generic : forall n P e x G t S s,
  ety (p_funcs P) G x = Some t -> s1_expr strict x = true -> genv_ok P G -> inv S G e s ->
  match eval_expr n P e x s with
  | (Ok l, s') => exists S', ext S S' /\ inv S' G e s' /\ sfind S' l = Some t
  | (Er er, _) => safe_err er
  end.
Proof. intros n P e x. exact (proj1 (all_sound_n n) x P e). Qed.

(* every `any` cell of a typed heap carries a concrete, non-any type and holds
   a value of exactly that type *)
Theorem any_cells_concrete S h l :
  heap_ok S h -> sfind S l = Some TAny ->
  exists u i v, hget h l = Some (HAny u i) /\ u <> TAny /\ sfind S i = Some u /\
                hget h i = Some v /\ cell_ok S v u.
Proof.
  intros Hh Hl. destruct (ho_cells _ _ Hh _ _ Hl) as (v & Hg & Hc). inversion Hc; subst.
  match goal with Hi : sfind S i = Some u |- _ => destruct (ho_cells _ _ Hh _ _ Hi) as (v' & Hg' & Hc') end.
  exists u, i, v'. repeat split; auto.
Qed.

Theorem any_cells_only_at_any S h l u i :
  heap_ok S h -> hget h l = Some (HAny u i) -> forall t, sfind S l = Some t -> t = TAny.
Proof.
  intros Hh Hg t Hl. destruct (ho_cells _ _ Hh _ _ Hl) as (v & Hg' & Hc).
  rewrite Hg in Hg'; inversion Hg'; subst. inversion Hc; auto.
Qed.

End Sound.

Definition goes_wrong (o : outcome) : Prop :=
  match o with OErr (EInternal _) | OErr (EHostCrash _) => True | _ => False end.

(* going wrong otherwise than by the stack overflow on a cyclic value *)
Definition goes_wrong_badly (o : outcome) : Prop :=
  match o with
  | OErr (EInternal _) => True
  | OErr (EHostCrash w) => ~ overflow_reason w
  | _ => False
  end.

Lemma wt_top_extends P g : wt_top P = Some g ->
  forall n t, sget n global_frame0 = Some t -> sget n g = Some t.
Proof.
  unfold wt_top. destruct (wt_stmts (p_funcs P) None false [global_frame0] (p_stmts P)) as [G'|] eqn:E; [|discriminate].
  intros Hg. apply wt_stmts_grows in E; [|discriminate].
  apply grows_inv in E as (sf & -> & Hf). inversion Hg; subst. apply fgrows_sub. exact Hf.
Qed.

(* a start state of program P: well typed w.r.t. the global frame the checker computes for P *)
Definition start_ok (strict : bool) (P : program) (s : state) : Prop :=
  exists g, wt_top P = Some g /\ state_ok strict g s.

Lemma wt_program_inv P : wt_program P = true ->
  exists g, wt_top P = Some g /\ forallb (wt_func (p_funcs P) g) (p_funcs P) = true /\
            forallb (wt_handler (p_funcs P) g) (p_handlers P) = true.
Proof.
  unfold wt_program. destruct (wt_top P) as [g|]; [|discriminate].
  intros H. apply andb_true_iff in H as [H1 H2]. eauto.
Qed.

Lemma init_state_start_ok strict P stop input ff ay :
  wt_program P = true -> start_ok strict P (init_state stop input ff ay).
Proof.
  intros H. destruct (wt_program_inv P H) as (g & Hg & _). exists g; split; auto.
  apply init_state_ok. eapply wt_top_extends; eauto.
Qed.

(* the fragment predicate of a whole program (s1_program = frag true, s2_program = frag false) *)
Definition frag (strict : bool) (P : program) : bool :=
  s1_stmts strict (p_stmts P) && forallb (s1_func strict) (p_funcs P)
  && forallb (fun h => s1_stmts strict (h_body h)) (p_handlers P).

Definition safe_outcome (strict : bool) (o : outcome) : Prop :=
  match o with OErr e => safe_err strict e | _ => True end.

Lemma prog_ok_inst strict P g :
  wt_program P = true -> frag strict P = true -> wt_top P = Some g ->
  prog_ok strict g P /\ forallb (wt_handler (p_funcs P) g) (p_handlers P) = true /\
  forallb (fun h => s1_stmts strict (h_body h)) (p_handlers P) = true.
Proof.
  intros Hwt Hfr Hg. destruct (wt_program_inv P Hwt) as (g' & Hg' & Hf & Hh). rewrite Hg in Hg'. inversion Hg'; subst g'.
  unfold frag in Hfr. apply andb_true_iff in Hfr as [Hfr Hfr3]. apply andb_true_iff in Hfr as [Hfr1 Hfr2].
  repeat split; auto.
Qed.

Lemma run_inst strict P :
  wt_program P = true -> frag strict P = true ->
  forall fuel s0, start_ok strict P s0 ->
    safe_outcome strict (fst (run_program fuel P s0)) /\
    ((forall e, fst (run_program fuel P s0) <> OErr e) -> start_ok strict P (snd (run_program fuel P s0))).
Proof.
  intros Hwt Hfr fuel s0 (g & Hg & Hs0). destruct (prog_ok_inst strict P g Hwt Hfr Hg) as (HP & _).
  pose proof (run_generic strict g (wt_top_extends P g Hg) P HP fuel s0 Hs0) as H.
  destruct (run_program fuel P s0) as [[| |er] s1]; simpl in *.
  - split; auto. intros _. exists g; auto.
  - split; auto. intros _. exists g; auto.
  - split; auto. intros Hn. exfalso. eapply Hn; eauto.
Qed.

(* an event delivered to a handler of the program, in a well-typed state, with at least as many
   payload values as the handler declares parameters *)
Lemma event_inst strict P :
  wt_program P = true -> frag strict P = true ->
  forall fuel name args s0 h, start_ok strict P s0 ->
    find_handler name (p_handlers P) = Some h -> (List.length (h_params h) <= List.length args)%nat ->
    safe_outcome strict (fst (handle_event fuel P name args s0)) /\
    ((forall e, fst (handle_event fuel P name args s0) <> OErr e) ->
     start_ok strict P (snd (handle_event fuel P name args s0))).
Proof.
  intros Hwt Hfr fuel name args s0 h (g & Hg & Hs0) Hfind Hlen.
  destruct (prog_ok_inst strict P g Hwt Hfr Hg) as (HP & Hh & Hfr3).
  pose proof (handle_event_generic strict g (wt_top_extends P g Hg) P HP Hh Hfr3 fuel name args s0 h Hs0 Hfind Hlen) as H.
  destruct (handle_event fuel P name args s0) as [[| |er] s1]; simpl in *.
  - split; auto. intros _. exists g; auto.
  - split; auto. intros _. exists g; auto.
  - split; auto. intros Hn. exfalso. eapply Hn; eauto.
Qed.

Lemma safe_true_not_wrong o : safe_outcome true o -> ~ goes_wrong o.
Proof. destruct o as [| |er]; simpl; auto. destruct er; simpl; auto. intros [H _]; discriminate. Qed.

Lemma safe_false_not_badly o : safe_outcome false o -> ~ goes_wrong_badly o.
Proof. destruct o as [| |er]; simpl; auto. destruct er; simpl; auto. intros [_ H]; auto. Qed.

(* Stage 1 (strict fragment: `any` never inside a composite type): no run goes wrong *)
Theorem soundness_stage1 P :
  wt_program P = true -> s1_program P = true ->
  forall fuel s0, start_ok true P s0 -> ~ goes_wrong (fst (run_program fuel P s0)).
Proof. intros Hwt Hs1 fuel s0 Hs0. apply safe_true_not_wrong. apply run_inst; auto. Qed.

(* Stage 2 (every value type): the only way to go wrong is the stack overflow on a cyclic value *)
Theorem soundness_stage2 P :
  wt_program P = true -> s2_program P = true ->
  forall fuel s0, start_ok false P s0 -> ~ goes_wrong_badly (fst (run_program fuel P s0)).
Proof. intros Hwt Hs1 fuel s0 Hs0. apply safe_false_not_badly. apply run_inst; auto. Qed.

(* the state a normally ended run leaves is a start state again (for the event handlers) *)
Theorem run_leaves_start_ok strict P :
  wt_program P = true -> frag strict P = true ->
  forall fuel s0, start_ok strict P s0 ->
    (forall e, fst (run_program fuel P s0) <> OErr e) -> start_ok strict P (snd (run_program fuel P s0)).
Proof. intros Hwt Hfr fuel s0 Hs0. apply run_inst; auto. Qed.

Theorem handlers_stage1 P :
  wt_program P = true -> s1_program P = true ->
  forall fuel name args s0 h, start_ok true P s0 ->
    find_handler name (p_handlers P) = Some h -> (List.length (h_params h) <= List.length args)%nat ->
    ~ goes_wrong (fst (handle_event fuel P name args s0)) /\
    ((forall e, fst (handle_event fuel P name args s0) <> OErr e) ->
     start_ok true P (snd (handle_event fuel P name args s0))).
Proof.
  intros Hwt Hs1 fuel name args s0 h Hs0 Hf Hl.
  destruct (event_inst true P Hwt Hs1 fuel name args s0 h Hs0 Hf Hl) as [H1 H2].
  split; auto using safe_true_not_wrong.
Qed.

Theorem handlers_stage2 P :
  wt_program P = true -> s2_program P = true ->
  forall fuel name args s0 h, start_ok false P s0 ->
    find_handler name (p_handlers P) = Some h -> (List.length (h_params h) <= List.length args)%nat ->
    ~ goes_wrong_badly (fst (handle_event fuel P name args s0)) /\
    ((forall e, fst (handle_event fuel P name args s0) <> OErr e) ->
     start_ok false P (snd (handle_event fuel P name args s0))).
Proof.
  intros Hwt Hs1 fuel name args s0 h Hs0 Hf Hl.
  destruct (event_inst false P Hwt Hs1 fuel name args s0 h Hs0 Hf Hl) as [H1 H2].
  split; auto using safe_false_not_badly.
Qed.

(* the tag of the any cell built by an Any node is the node's annotation ... *)
Lemma eany_tag n P e a t s l s' :
  eval_expr n P e (EAny a t) s = (Ok l, s') -> exists i, hget (st_heap s') l = Some (HAny t i).
Proof.
  destruct n; [discriminate|]. cbn [eval_expr]. unfold bindM.
  destruct (tick s) as [[[]|] s1]; [|discriminate].
  destruct (eval_expr n P e a s1) as [[l0|] s2]; [|discriminate].
  destruct (load l0 s2) as [[v|] s3]; [|discriminate].
  destruct v; try discriminate; unfold alloc; simpl; intros H; inversion H; subst; simpl;
    unfold hget; simpl; rewrite PositiveMap.gss; eauto.
Qed.

(* ... copying an argument keeps the tag ... *)
Lemma copy_or_ref_tag d l s l' s' u i :
  copy_or_ref d l s = (Ok l', s') -> hget (st_heap s) l = Some (HAny u i) ->
  exists i', hget (st_heap s') l' = Some (HAny u i').
Proof.
  destruct d; [discriminate|]. cbn [copy_or_ref]. unfold bindM, load. intros H Hg. rewrite Hg in H.
  destruct (copy_or_ref d i s) as [[i'|] s1]; [|discriminate].
  unfold alloc in H; simpl in H. inversion H; subst. simpl. unfold hget; simpl. rewrite PositiveMap.gss; eauto.
Qed.

(* ... and typeof returns the text of the tag *)
Lemma typeof_any_tag e l u i s :
  hget (st_heap s) l = Some (HAny u i) ->
  exists m r s', builtin (s_ "typeof") e [l] = Some m /\ m s = (Ok (Some r), s') /\
                 hget (st_heap s') r = Some (HStr (ty_str u)).
Proof.
  intros Hg. unfold builtin.
  repeat match goal with |- context [name_is ?a ?b] =>
    let v := eval vm_compute in (name_is a b) in change (name_is a b) with v; cbv iota end.
  eexists _, _, _. split; [reflexivity|]. unfold bindM, load. rewrite Hg. unfold alloc, Sem.ret. simpl.
  split; [reflexivity|]. unfold hget; simpl. apply PositiveMap.gss.
Qed.
