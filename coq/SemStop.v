(* SemStop.v — C14, interruptibility and clean stop.  [atom m]: m never touches the four control
   fields of the state (st_yields, st_stop_at, st_stopped, st_check_after_yield), does not depend
   on them, and only extends st_trace; every [Prim] computation is one.  [Built m]: m is put
   together from atoms and [tick] by bind; every [PrimT] computation, so each evaluator function,
   is one.  Monotonicity, the stop simulation, freezing and the interleaved log are each proved
   once, by induction on [Built]. *)
From Coq Require Import ZArith NArith List String Bool Floats FMapPositive Lia Arith.
From EvyV Require Import Base Num Ast Omap Sem SemBasics SemPure SemWalkProofs.
From EvyV Require SemScope.
Import ListNotations.
Local Open Scope nat_scope.

Definition set_ctl (o : option nat) (b : bool) (y : nat) (c : bool) (s : state) : state :=
  {| st_heap := st_heap s; st_globals := st_globals s; st_trace := st_trace s; st_yields := y;
     st_stop_at := o; st_stopped := b; st_input := st_input s;
     st_total := st_total s; st_fails := st_fails s; st_failfast := st_failfast s;
     st_check_after_yield := c |}.

(* replace only the platform's plan for raising the stop flag *)
Definition set_stop (o : option nat) (s : state) : state :=
  set_ctl o (st_stopped s) (st_yields s) (st_check_after_yield s) s.

Definition ctl_eq (s s' : state) : Prop :=
  st_yields s' = st_yields s /\ st_stop_at s' = st_stop_at s /\
  st_stopped s' = st_stopped s /\ st_check_after_yield s' = st_check_after_yield s.

(* the old trace is a suffix of the new one (traces are newest first) *)
Definition suffix (old new : list event) : Prop := exists d, new = d ++ old.
(* chronological order *)
Definition prefix (l1 l2 : list event) : Prop := exists d, l2 = l1 ++ d.

Lemma suffix_refl l : suffix l l.
Proof. exists []. reflexivity. Qed.
Lemma suffix_trans a b c : suffix a b -> suffix b c -> suffix a c.
Proof. intros [d1 ->] [d2 ->]. exists (d2 ++ d1). now rewrite app_assoc. Qed.
Lemma suffix_cons x l : suffix l (x :: l).
Proof. exists [x]. reflexivity. Qed.
Lemma suffix_prefix_rev a b : suffix a b -> prefix (rev a) (rev b).
Proof. intros [d ->]. exists (rev d). apply rev_app_distr. Qed.
Lemma prefix_refl l : prefix l l.
Proof. exists []. now rewrite app_nil_r. Qed.
Lemma prefix_trans a b c : prefix a b -> prefix b c -> prefix a c.
Proof. intros [d1 ->] [d2 ->]. exists (d1 ++ d2). now rewrite app_assoc. Qed.
Lemma suffix_length a b : suffix a b -> List.length a <= List.length b.
Proof. intros [d ->]. rewrite app_length. lia. Qed.
#[global] Hint Resolve suffix_refl suffix_cons prefix_refl : core.

Lemma set_ctl_id s : set_ctl (st_stop_at s) (st_stopped s) (st_yields s) (st_check_after_yield s) s = s.
Proof. destruct s; reflexivity. Qed.
Lemma set_stop_id s : set_stop (st_stop_at s) s = s.
Proof. apply set_ctl_id. Qed.
Lemma set_ctl_set_ctl o b y c o' b' y' c' s :
  set_ctl o b y c (set_ctl o' b' y' c' s) = set_ctl o b y c s.
Proof. reflexivity. Qed.
Lemma set_stop_set_stop o o' s : set_stop o (set_stop o' s) = set_stop o s.
Proof. reflexivity. Qed.

Definition atom {A} (m : M A) : Prop :=
  forall s r s', m s = (r, s') ->
    ctl_eq s s' /\ suffix (st_trace s) (st_trace s') /\
    forall o b y c, m (set_ctl o b y c s) = (r, set_ctl o b y c s').

Lemma ctl_eq_refl s : ctl_eq s s.
Proof. repeat split. Qed.
Lemma ctl_eq_trans a b c : ctl_eq a b -> ctl_eq b c -> ctl_eq a c.
Proof. unfold ctl_eq. intuition congruence. Qed.
#[global] Hint Resolve ctl_eq_refl : core.

Lemma atom_lift A (x : res A) : atom (lift x).
Proof. intros s r s' H. inversion H; subst. auto. Qed.
Lemma atom_ret A (a : A) : atom (ret a).
Proof. apply (atom_lift _ (Ok a)). Qed.
Lemma atom_fail A e : atom (@fail A e).
Proof. apply (atom_lift _ (Er e)). Qed.
Lemma atom_crash A w : atom (@crash A w).
Proof. apply atom_fail. Qed.
Lemma atom_internal A w : atom (@internal A w).
Proof. apply atom_fail. Qed.
Lemma atom_depth_fuel : atom depth_fuel.
Proof. apply atom_ret. Qed.

Lemma atom_bind A B (m : M A) (f : A -> M B) :
  atom m -> (forall a, atom (f a)) -> atom (bindM m f).
Proof.
  intros Hm Hf s r s2 H. unfold bindM in H.
  destruct (m s) as [[a|e] s1] eqn:E.
  - destruct (Hm _ _ _ E) as (C1 & T1 & I1), (Hf a _ _ _ H) as (C2 & T2 & I2).
    split; [eapply ctl_eq_trans; eauto|]. split; [eapply suffix_trans; eauto|].
    intros. unfold bindM. rewrite I1. apply I2.
  - inversion H; subst. destruct (Hm _ _ _ E) as (C1 & T1 & I1).
    split; [auto|]. split; [auto|]. intros. unfold bindM. now rewrite I1.
Qed.

Lemma atom_ext A (m m' : M A) : (forall s, m s = m' s) -> atom m -> atom m'.
Proof. intros E H s r s' H1. rewrite <- E in H1. destruct (H _ _ _ H1) as (?&?&I). split; [auto|]. split; [auto|]. intros. rewrite <- E. apply I. Qed.

Lemma atom_emitE e : atom (emitE e).
Proof. intros s r s' H. inversion H; subst. repeat split; simpl; auto. Qed.
Lemma atom_alloc v : atom (alloc v).
Proof. intros s r s' H. inversion H; subst. repeat split; simpl; auto. Qed.
Lemma atom_store l v : atom (store l v).
Proof. intros s r s' H. inversion H; subst. repeat split; simpl; auto. Qed.
Lemma atom_load l : atom (load l).
Proof.
  intros s r s' H. unfold load in *. simpl.
  destruct (hget (st_heap s) l); inversion H; subst; auto.
Qed.
Lemma atom_lookup n e : atom (lookup n e).
Proof.
  intros s r s' H. unfold lookup in *. simpl.
  destruct (str_eqb n underscore); [inversion H; subst; auto|].
  destruct (env_get n e); inversion H; subst; auto.
Qed.
Lemma atom_set_var n l e : atom (set_var n l e).
Proof.
  intros s r s' H. unfold set_var in *. simpl.
  destruct (str_eqb n underscore); [inversion H; subst; auto|].
  destruct e; inversion H; subst; repeat split; simpl; auto.
Qed.
Lemma atom_update_var n l e : atom (update_var n l e).
Proof.
  intros s r s' H. unfold update_var in *. simpl.
  destruct (str_eqb n underscore); [inversion H; subst; auto|].
  destruct (env_update n l e); [inversion H; subst; auto|].
  destruct (frame_get n (st_globals s)); inversion H; subst; repeat split; simpl; auto.
Qed.

Lemma atom_read_line : atom read_line.
Proof.
  intros s r s' H. unfold read_line in *. simpl.
  destruct (st_input s); inversion H; subst; clear H; repeat split; simpl; auto.
Qed.

(* a computation that factors through the heap (SemPure: every pure built-in) is an atom *)
Lemma atom_heap_only A (m : M A) : heap_only m -> atom m.
Proof.
  intros HO s r s' H. destruct (heap_only_run m s r s' HO H) as (E & _ & T).
  rewrite E. repeat split; auto.
  intros o b y c. rewrite (T (set_ctl o b y c s) eq_refl). reflexivity.
Qed.

Theorem prim_atom A (m : M A) : Prim m -> atom m.
Proof.
  induction 1.
  - now apply atom_heap_only.
  - apply atom_store.
  - apply atom_emitE.
  - apply atom_lookup.
  - apply atom_set_var.
  - apply atom_update_var.
  - apply atom_read_line.
  - now apply atom_bind.
  - eapply atom_ext; eauto.
Qed.

Lemma atom_copy_or_ref n l : atom (copy_or_ref n l).
Proof. apply prim_atom, prim_copy_or_ref. Qed.
Lemma atom_deep_copy n l : atom (deep_copy n l).
Proof. apply prim_atom, prim_deep_copy. Qed.
Lemma atom_show n r l : atom (show n r l).
Proof. apply prim_atom, prim_show. Qed.
Lemma atom_show_str l : atom (show_str l).
Proof. apply prim_atom, prim_show_str. Qed.
Lemma atom_join_args a s : atom (join_args a s).
Proof. apply prim_atom, prim_join_args. Qed.
Lemma atom_equals n a b : atom (equals n a b).
Proof. apply prim_atom, prim_equals. Qed.
Lemma atom_same n a b : atom (same n a b).
Proof. apply prim_atom, prim_same. Qed.
Lemma atom_load_num l : atom (load_num l).
Proof. apply prim_atom, prim_load_num. Qed.
Lemma atom_load_str l : atom (load_str l).
Proof. apply prim_atom, prim_load_str. Qed.
Lemma atom_load_bool l : atom (load_bool l).
Proof. apply prim_atom, prim_load_bool. Qed.
Lemma atom_slice_bounds lo hi n : atom (slice_bounds lo hi n).
Proof. apply prim_atom, prim_slice_bounds. Qed.
Lemma atom_zero_val t : atom (zero_val t).
Proof. apply prim_atom, prim_zero_val. Qed.
Lemma atom_bin_num op x y : atom (bin_num op x y).
Proof. apply prim_atom, prim_bin_num. Qed.
Lemma atom_bin_str op x y : atom (bin_str op x y).
Proof. apply prim_atom, prim_bin_str. Qed.
Lemma atom_bin_bool op x y : atom (bin_bool op x y).
Proof. apply prim_atom, prim_bin_bool. Qed.
Lemma atom_bin_arr op xs r : atom (bin_arr op xs r).
Proof. apply prim_atom, prim_bin_arr. Qed.
Lemma atom_global_err e b msg : atom (global_err e b msg).
Proof. apply prim_atom, prim_global_err. Qed.
Lemma atom_unwrap_any l : atom (unwrap_any l).
Proof. apply prim_atom, prim_unwrap_any. Qed.
Lemma atom_none_val : atom none_val.
Proof. apply prim_atom, prim_none_val. Qed.
Lemma atom_map_set_key m k v : atom (map_set_key m k v).
Proof. apply prim_atom, prim_map_set_key. Qed.
Lemma atom_bind_params ps args fr : atom (bind_params ps args fr).
Proof. apply prim_atom, prim_bind_params. Qed.
Lemma atom_bind_payload ps args fr : atom (bind_payload ps args fr).
Proof. apply prim_atom, prim_bind_payload. Qed.
Lemma atom_builtin name e args m : builtin name e args = Some m -> atom m.
Proof. intro H. exact (prim_atom _ _ (prim_builtin _ _ _ _ H)). Qed.

(* the bookkeeping of `test` touches only the test counters *)
Lemma atom_run_test args : atom (run_test args).
Proof.
  intros s r s' H. rewrite run_test_eq in H. destruct (test_verdict args s) as [x s2] eqn:E.
  destruct (prim_atom _ _ (prim_test_verdict args) _ _ _ E) as (C & T & I).
  assert (X : ctl_eq s2 s' /\ st_trace s' = st_trace s2 /\
              forall o b y c, test_end x (set_ctl o b y c s2) = (r, set_ctl o b y c s')).
  { destruct x as [[|]|e]; cbn in H; [|destruct (st_failfast s2) eqn:F|]; inversion H; subst;
      repeat split; intros; cbn; rewrite ?F; reflexivity. }
  destruct X as (C2 & T2 & I2).
  split; [eapply ctl_eq_trans; eassumption|]. split; [rewrite T2; exact T|].
  intros. rewrite run_test_eq, I. apply I2.
Qed.

Inductive Built : forall {A : Type}, M A -> Prop :=
| B_atom A (m : M A) : atom m -> Built m
| B_tick : Built tick
| B_bind A B (m : M A) (f : A -> M B) : Built m -> (forall a, Built (f a)) -> Built (bindM m f)
| B_ext A (m m' : M A) : (forall s, m s = m' s) -> Built m -> Built m'.

Theorem primT_built A (m : M A) : PrimT m -> Built m.
Proof.
  induction 1.
  - now apply B_atom, prim_atom.
  - apply B_tick.
  - apply B_atom, atom_run_test.
  - now apply B_bind.
  - eapply B_ext; eauto.
Qed.

Definition BuiltAll (n : nat) : Prop :=
  (forall P e x, Built (eval_expr n P e x)) /\
  (forall P e l, Built (eval_exprs n P e l)) /\
  (forall P e name args, Built (eval_call n P e name args)) /\
  (forall P e s, Built (exec_stmt n P e s)) /\
  (forall P e l, Built (exec_stmts n P e l)) /\
  (forall P e l, Built (exec_block n P e l)) /\
  (forall P e c body, Built (exec_cond n P e c body)) /\
  (forall P e c body, Built (exec_while n P e c body)) /\
  (forall P e var rg body, Built (exec_for n P e var rg body)).

Lemma built_all : forall n, BuiltAll n.
Proof.
  intro n. destruct (primT_all n) as (H1 & H2 & H3 & H4 & H5 & H6 & H7 & H8 & H9).
  repeat split; intros; apply primT_built; auto.
Qed.

Lemma built_eval_expr n P e x : Built (eval_expr n P e x). Proof. apply built_all. Qed.
Lemma built_eval_exprs n P e l : Built (eval_exprs n P e l). Proof. apply built_all. Qed.
Lemma built_eval_call n P e f a : Built (eval_call n P e f a). Proof. apply built_all. Qed.
Lemma built_exec_stmt n P e s : Built (exec_stmt n P e s). Proof. apply built_all. Qed.
Lemma built_exec_stmts n P e l : Built (exec_stmts n P e l). Proof. apply built_all. Qed.
Lemma built_exec_block n P e l : Built (exec_block n P e l). Proof. apply built_all. Qed.
Lemma built_exec_cond n P e c b : Built (exec_cond n P e c b). Proof. apply built_all. Qed.
Lemma built_exec_while n P e c b : Built (exec_while n P e c b). Proof. apply built_all. Qed.
Lemma built_exec_for n P e v r b : Built (exec_for n P e v r b). Proof. apply built_all. Qed.
#[global] Hint Resolve built_eval_expr built_eval_exprs built_eval_call built_exec_stmt built_exec_stmts
  built_exec_block built_exec_cond built_exec_while built_exec_for : core.

Definition Mono {A} (m : M A) : Prop :=
  forall s r s', m s = (r, s') ->
    st_yields s <= st_yields s' /\ suffix (st_trace s) (st_trace s') /\
    st_stop_at s' = st_stop_at s /\ st_check_after_yield s' = st_check_after_yield s /\
    (st_stopped s = true -> st_stopped s' = true /\ st_yields s' = st_yields s).

Lemma mono_tick : Mono tick.
Proof.
  intros s r s' H. unfold tick in H. destruct (st_stopped s) eqn:St.
  - inversion H; subst. repeat split; auto.
  - destruct (_ && _); inversion H; subst; simpl; repeat split; auto; discriminate.
Qed.

Theorem built_mono A (m : M A) : Built m -> Mono m.
Proof.
  induction 1.
  - intros s r s' E. destruct (H _ _ _ E) as ((Y & O & S & C) & T & _).
    repeat split; auto; try lia; congruence.
  - apply mono_tick.
  - intros s r s2 E. unfold bindM in E. destruct (m s) as [[a|e] s1] eqn:E1.
    + destruct (IHBuilt _ _ _ E1) as (Y1 & T1 & O1 & C1 & S1).
      destruct (H1 a _ _ _ E) as (Y2 & T2 & O2 & C2 & S2).
      split; [lia|]. split; [eapply suffix_trans; eauto|]. split; [congruence|]. split; [congruence|].
      intro St. destruct (S1 St) as (St1 & Ye1). destruct (S2 St1) as (St2 & Ye2). split; [auto|lia].
    + inversion E; subst. eauto.
  - intros s r s' E. rewrite <- H in E. eauto.
Qed.

(* an uninterrupted run of the corrected code, not (yet) stopped *)
Definition live (s : state) : Prop :=
  st_stopped s = false /\ st_check_after_yield s = true /\ st_stop_at s = None.

(* the final state of a run stopped by the flag raised at yield k *)
Definition stopped_at (k : nat) (s : state) : Prop :=
  st_yields s = S k /\ st_stopped s = true /\ st_stop_at s = Some k /\ st_check_after_yield s = true.

Definition StopSim {A} (m : M A) : Prop :=
  forall k s r s', live s -> m s = (r, s') ->
    live s' /\ st_yields s <= st_yields s' /\ suffix (st_trace s) (st_trace s') /\
    ((st_yields s <= k < st_yields s' /\
      exists sk, m (set_stop (Some k) s) = (Er EStopped, sk) /\ stopped_at k sk /\
                 suffix (st_trace s) (st_trace sk) /\ suffix (st_trace sk) (st_trace s'))
     \/
     (~ (st_yields s <= k < st_yields s') /\ m (set_stop (Some k) s) = (r, set_stop (Some k) s'))).

Lemma set_stop_ctl_eq o s s' :
  ctl_eq s s' ->
  set_ctl o (st_stopped s) (st_yields s) (st_check_after_yield s) s' = set_stop o s'.
Proof. intros (a & b & c & d). unfold set_stop. now rewrite a, c, d. Qed.

Lemma stopsim_atom A (m : M A) : atom m -> StopSim m.
Proof.
  intros Hm k s r s' (L1 & L2 & L3) E. destruct (Hm _ _ _ E) as (C & T & I).
  pose proof C as (Cy & Co & Cs & Cc).
  split; [unfold live; repeat split; congruence|]. split; [lia|]. split; [auto|].
  right. split; [lia|]. unfold set_stop at 1. rewrite I. f_equal. now apply set_stop_ctl_eq.
Qed.

Lemma stopsim_tick : StopSim tick.
Proof.
  intros k s r s' (L1 & L2 & L3) E. unfold tick in E. rewrite L1, L3 in E. simpl in E.
  inversion E; subst; clear E. simpl.
  split; [unfold live; simpl; auto|]. split; [lia|]. split; [auto|].
  destruct (Nat.eqb k (st_yields s)) eqn:K.
  - apply Nat.eqb_eq in K. left. split; [lia|].
    exists (upd_yield (S (st_yields s)) true (set_stop (Some k) s)).
    split.
    + unfold tick. simpl. rewrite L1, L2. subst k. now rewrite Nat.eqb_refl.
    + unfold stopped_at. simpl. repeat split; auto; now subst.
  - apply Nat.eqb_neq in K. right. split; [lia|].
    unfold tick. simpl. rewrite L1. apply Nat.eqb_neq in K. rewrite K. reflexivity.
Qed.

Lemma stopsim_bind A B (m : M A) (f : A -> M B) :
  StopSim m -> (forall a, StopSim (f a)) -> StopSim (bindM m f).
Proof.
  intros Hm Hf k s r s2 L H. unfold bindM in H. destruct (m s) as [[a|e] s1] eqn:E.
  - destruct (Hm k _ _ _ L E) as (L1 & Y1 & T1 & D1).
    destruct (Hf a k _ _ _ L1 H) as (L2 & Y2 & T2 & D2).
    split; [auto|]. split; [lia|]. split; [eapply suffix_trans; eauto|].
    destruct D1 as [(R1 & sk & Ek & Sk & Ta & Tb) | (N1 & Ek)].
    + left. split; [lia|]. exists sk. unfold bindM. rewrite Ek.
      repeat split; auto; try apply Sk. eapply suffix_trans; eauto.
    + destruct D2 as [(R2 & sk & Ek2 & Sk & Ta & Tb) | (N2 & Ek2)].
      * left. split; [lia|]. exists sk. unfold bindM. rewrite Ek.
        split; [exact Ek2|]. split; [auto|]. split; [eapply suffix_trans; eauto|auto].
      * right. split; [lia|]. unfold bindM. rewrite Ek. exact Ek2.
  - inversion H; subst. destruct (Hm k _ _ _ L E) as (L1 & Y1 & T1 & D1).
    split; [auto|]. split; [auto|]. split; [auto|].
    destruct D1 as [(R1 & sk & Ek & Rest) | (N1 & Ek)].
    + left. split; [auto|]. exists sk. unfold bindM. rewrite Ek. auto.
    + right. split; [auto|]. unfold bindM. rewrite Ek. auto.
Qed.

Theorem built_stopsim A (m : M A) : Built m -> StopSim m.
Proof.
  induction 1.
  - now apply stopsim_atom.
  - apply stopsim_tick.
  - now apply stopsim_bind.
  - intros k s r s' L E. rewrite <- H in E. rewrite <- H. eauto.
Qed.

(* C14.1 stop_is_prefix.  [m] run from the same state s0 (not stopped, corrected order of the stop test)
   once uninterrupted and once with the flag raised during yield number k.
   No fuel caveat: both runs have the same fuel, and the statement holds whatever
   the uninterrupted result is (including Er EOutOfFuel). *)
Definition StopPrefix {A} (m : M A) : Prop :=
  forall k s0, st_stopped s0 = false -> st_check_after_yield s0 = true ->
  forall rI sI, m (set_stop None s0) = (rI, sI) ->
  forall rk sk, m (set_stop (Some k) s0) = (rk, sk) ->
    (* the flag is never raised: yield number k does not happen in this run *)
    (~ (st_yields s0 <= k < st_yields sI) /\
     rk = rI /\ sk = set_stop (Some k) sI /\ st_stopped sk = false)
    \/
    (* the flag is raised at yield k *)
    (st_yields s0 <= k < st_yields sI /\
     rk = Er EStopped /\ st_yields sk = S k /\ st_stopped sk = true /\
     prefix (rev (st_trace s0)) (rev (st_trace sk)) /\
     prefix (rev (st_trace sk)) (rev (st_trace sI))).

Theorem built_stop_prefix A (m : M A) : Built m -> StopPrefix m.
Proof.
  intros Hb k s0 St Ck rI sI EI rk sk Ek.
  assert (L : live (set_stop None s0)) by (unfold live; simpl; auto).
  destruct (built_stopsim _ _ Hb k _ _ _ L EI) as ((L1 & L2 & L3) & Y & T & D).
  change (set_stop (Some k) (set_stop None s0)) with (set_stop (Some k) s0) in D.
  simpl in Y, T, D.
  destruct D as [(R & sk' & Ek' & (S1 & S2 & S3 & S4) & Ta & Tb) | (N & Ek')];
    rewrite Ek in Ek'; inversion Ek'; subst.
  - right. repeat split; auto using suffix_prefix_rev; lia.
  - left. repeat split; auto.
Qed.

Definition StopPrefixAll (n : nat) (P : program) : Prop :=
  (forall e x, StopPrefix (eval_expr n P e x)) /\
  (forall e l, StopPrefix (eval_exprs n P e l)) /\
  (forall e name args, StopPrefix (eval_call n P e name args)) /\
  (forall e s, StopPrefix (exec_stmt n P e s)) /\
  (forall e l, StopPrefix (exec_stmts n P e l)) /\
  (forall e l, StopPrefix (exec_block n P e l)) /\
  (forall e c body, StopPrefix (exec_cond n P e c body)) /\
  (forall e c body, StopPrefix (exec_while n P e c body)) /\
  (forall e var rg body, StopPrefix (exec_for n P e var rg body)).

Theorem stop_is_prefix : forall n P, StopPrefixAll n P.
Proof. intros. repeat split; intros; apply built_stop_prefix; auto. Qed.

Definition program_m (fuel : nat) (P : program) : M unit :=
  let* _ := tick in let* _ := exec_stmts fuel P [] (p_stmts P) in ret tt.

Lemma built_program_m fuel P : Built (program_m fuel P).
Proof.
  unfold program_m. apply B_bind; [apply B_tick|intros _].
  apply B_bind; [auto|intros _]. apply B_atom, atom_ret.
Qed.

Lemma test_report_set_stop o s : test_report (set_stop o s) = set_stop o (test_report s).
Proof. unfold test_report. simpl. destruct (Nat.eqb (st_total s) 0); reflexivity. Qed.
Lemma test_report_yields s : st_yields (test_report s) = st_yields s.
Proof. unfold test_report. destruct (Nat.eqb (st_total s) 0); reflexivity. Qed.
Lemma test_report_fails s : st_fails (test_report s) = st_fails s.
Proof. unfold test_report. destruct (Nat.eqb (st_total s) 0); reflexivity. Qed.
Lemma test_report_trace s :
  st_trace (test_report s) = st_trace s \/ exists txt, st_trace (test_report s) = EvPrint [PStr txt] :: st_trace s.
Proof. unfold test_report. destruct (Nat.eqb (st_total s) 0); [auto|]. right. simpl. eauto. Qed.
Lemma test_report_no_tests s : st_total s = 0 -> test_report s = s.
Proof. unfold test_report. now intros ->. Qed.

Lemma test_report_stopped s : st_stopped (test_report s) = st_stopped s.
Proof. unfold test_report. destruct (Nat.eqb (st_total s) 0); reflexivity. Qed.

(* the summary of the tests run so far: nothing, or one print event *)
Definition summary_tail (tail : list event) : Prop := tail = [] \/ exists txt, tail = [EvPrint [PStr txt]].

(* what run_program does with the result of the evaluation proper *)
Definition program_end (r : res unit) (s1 : state) : outcome * state :=
  let s2 := match r with
            | Er (ENeedOracle _) | Er (EUnsupported _) | Er EOutOfFuel => s1
            | _ => test_report s1 end in
  match r with
  | Er e => (OErr e, s2)
  | Ok _ => if Nat.ltb 0 (st_fails s2) then (OTestsFailed, s2) else (ODone, s2)
  end.

Lemma run_program_eq fuel P s :
  run_program fuel P s = (let (r, s1) := program_m fuel P s in program_end r s1).
Proof. reflexivity. Qed.

Lemma program_end_set_stop o r s1 :
  program_end r (set_stop o s1) = (fst (program_end r s1), set_stop o (snd (program_end r s1))).
Proof.
  unfold program_end. destruct r as [u|e]; [|destruct e; rewrite ?test_report_set_stop; reflexivity].
  rewrite test_report_set_stop. change (st_fails (set_stop o (test_report s1))) with (st_fails (test_report s1)).
  destruct (Nat.ltb 0 (st_fails (test_report s1))); reflexivity.
Qed.

(* it adds at most the test summary *)
Lemma program_end_state r s1 : let s2 := snd (program_end r s1) in
  st_stopped s2 = st_stopped s1 /\ st_yields s2 = st_yields s1 /\
  exists tail, st_trace s2 = tail ++ st_trace s1 /\ summary_tail tail.
Proof.
  assert (R : let s2 := test_report s1 in
              st_stopped s2 = st_stopped s1 /\ st_yields s2 = st_yields s1 /\
              exists tail, st_trace s2 = tail ++ st_trace s1 /\ summary_tail tail).
  { cbv zeta. rewrite test_report_stopped, test_report_yields. repeat split.
    destruct (test_report_trace s1) as [->|(txt & ->)];
      [exists []; split; [reflexivity|left; reflexivity] | exists [EvPrint [PStr txt]]; split; [reflexivity|right; eauto]]. }
  assert (N : st_stopped s1 = st_stopped s1 /\ st_yields s1 = st_yields s1 /\
              exists tail, st_trace s1 = tail ++ st_trace s1 /\ summary_tail tail)
    by (repeat split; exists []; split; [reflexivity|left; reflexivity]).
  destruct r as [u|e]; [|destruct e; first [exact R | exact N]].
  unfold program_end. destruct (Nat.ltb 0 (st_fails (test_report s1))); exact R.
Qed.

Theorem run_program_stop_prefix : forall fuel P k s0,
  st_stopped s0 = false -> st_check_after_yield s0 = true ->
  forall oI sI, run_program fuel P (set_stop None s0) = (oI, sI) ->
  forall ok sk, run_program fuel P (set_stop (Some k) s0) = (ok, sk) ->
    (~ (st_yields s0 <= k < st_yields sI) /\ ok = oI /\ sk = set_stop (Some k) sI)
    \/
    (st_yields s0 <= k < st_yields sI /\ ok = OErr EStopped /\ st_yields sk = S k /\
     exists pre tail, rev (st_trace sk) = pre ++ tail /\
                      prefix (rev (st_trace s0)) pre /\ prefix pre (rev (st_trace sI)) /\
                      summary_tail tail /\ (st_total sk = 0 -> tail = [])).
Proof.
  intros fuel P k s0 St Ck oI sI EI ok sk Ek. rewrite run_program_eq in EI, Ek.
  destruct (program_m fuel P (set_stop None s0)) as [rI s1] eqn:E1.
  destruct (program_m fuel P (set_stop (Some k) s0)) as [rk s1k] eqn:E1k.
  destruct (program_end_state rI s1) as (_ & Ys & tl0 & Ts & _). rewrite EI in Ys, Ts. cbn [snd] in Ys, Ts.
  assert (Tsuf : suffix (st_trace s1) (st_trace sI)) by (exists tl0; exact Ts).
  destruct (built_stop_prefix _ _ (built_program_m fuel P) k s0 St Ck _ _ E1 _ _ E1k)
    as [(N & -> & -> & _) | (R & -> & Y & S & Pa & Pb)].
  - left. split; [lia|]. rewrite program_end_set_stop, EI in Ek. inversion Ek; auto.
  - cbn in Ek. inversion Ek; subst; clear Ek.
    right. split; [lia|]. split; [auto|]. split; [now rewrite test_report_yields|].
    exists (rev (st_trace s1k)).
    destruct (test_report_trace s1k) as [E|(txt & E)].
    + exists []. rewrite E, app_nil_r. split; [auto|]. split; [auto|].
      split; [eapply prefix_trans; [eauto|]; now apply suffix_prefix_rev|].
      split; [left; auto|auto].
    + exists [EvPrint [PStr txt]]. rewrite E. simpl. split; [auto|]. split; [auto|].
      split; [eapply prefix_trans; [eauto|]; now apply suffix_prefix_rev|].
      split; [right; eauto|].
      intro Z. exfalso.
      assert (st_total s1k = 0).
      { unfold test_report in Z. destruct (Nat.eqb (st_total s1k) 0) eqn:Q; [now apply Nat.eqb_eq|exact Z]. }
      rewrite test_report_no_tests in E by auto.
      apply (f_equal (@List.length _)) in E. simpl in E. lia.
Qed.

Lemma built_handler_run fuel P h args : Built (SemScope.handler_run fuel P h args).
Proof.
  unfold SemScope.handler_run. apply B_bind; [apply B_atom, atom_bind_payload|intro fr].
  apply B_bind; [auto|intros _]. apply B_atom, atom_ret.
Qed.

Theorem handle_event_stop_prefix : forall fuel P name args k s0,
  st_stopped s0 = false -> st_check_after_yield s0 = true ->
  forall oI sI, handle_event fuel P name args (set_stop None s0) = (oI, sI) ->
  forall ok sk, handle_event fuel P name args (set_stop (Some k) s0) = (ok, sk) ->
    (~ (st_yields s0 <= k < st_yields sI) /\ ok = oI /\ sk = set_stop (Some k) sI)
    \/
    (st_yields s0 <= k < st_yields sI /\ ok = OErr EStopped /\ st_yields sk = S k /\ st_stopped sk = true /\
     prefix (rev (st_trace s0)) (rev (st_trace sk)) /\ prefix (rev (st_trace sk)) (rev (st_trace sI))).
Proof.
  intros fuel P name args k s0 St Ck oI sI EI ok sk Ek.
  unfold handle_event in EI, Ek. destruct (find_handler name (p_handlers P)) as [h|].
  - fold (SemScope.handler_run fuel P h args) in EI, Ek.
    destruct (SemScope.handler_run fuel P h args (set_stop None s0)) as [rI s1] eqn:E1.
    destruct (SemScope.handler_run fuel P h args (set_stop (Some k) s0)) as [rk s1k] eqn:E1k.
    destruct (built_stop_prefix _ _ (built_handler_run fuel P h args) k s0 St Ck _ _ E1 _ _ E1k)
      as [(N & -> & -> & _) | (R & -> & Y & S & Pa & Pb)].
    + left. destruct rI; inversion EI; inversion Ek; subst; auto.
    + right. inversion Ek; subst. destruct rI; inversion EI; subst; auto 10.
  - left. inversion EI; inversion Ek; subst. simpl. split; [lia|auto].
Qed.

Definition stopped_err (n : nat) : err := match n with O => EOutOfFuel | S _ => EStopped end.

(* the three functions that model Evaluator.eval (they tick first): no state change at all *)
Lemma frozen_eval_expr n P e x s : st_stopped s = true -> eval_expr n P e x s = (Er (stopped_err n), s).
Proof. intro H. destruct n; [reflexivity | exact (eval_expr_stopped n P e x s H)]. Qed.
Lemma frozen_exec_stmt n P e x s : st_stopped s = true -> exec_stmt n P e x s = (Er (stopped_err n), s).
Proof. intro H. destruct n; [reflexivity | exact (exec_stmt_stopped n P e x s H)]. Qed.
Lemma frozen_exec_block n P e l s : st_stopped s = true -> exec_block n P e l s = (Er (stopped_err n), s).
Proof. intro H. destruct n; [reflexivity | exact (exec_block_stopped n P e l s H)]. Qed.

(* the helpers that do not tick themselves: whatever they evaluate first does *)
Lemma frozen_eval_exprs n P e l s : st_stopped s = true ->
  exists r, eval_exprs n P e l s = (r, s) /\ (forall v, r = Ok v -> l = [] /\ v = []).
Proof.
  intro H. destruct n; [eexists; split; [reflexivity|discriminate]|]. cbn [eval_exprs].
  destruct l as [|x t].
  - eexists; split; [reflexivity|]. intros v E. inversion E; auto.
  - unfold bindM. rewrite frozen_eval_expr by auto. eexists; split; [reflexivity|discriminate].
Qed.
Lemma frozen_exec_stmts n P e l s : st_stopped s = true ->
  exists r, exec_stmts n P e l s = (r, s) /\ (forall v, r = Ok v -> l = []).
Proof.
  intro H. destruct n; [eexists; split; [reflexivity|discriminate]|]. cbn [exec_stmts].
  destruct l as [|x t].
  - eexists; split; [reflexivity|auto].
  - unfold bindM. rewrite frozen_exec_stmt by auto. eexists; split; [reflexivity|discriminate].
Qed.
Lemma frozen_exec_cond n P e c b s : st_stopped s = true ->
  exists err, exec_cond n P e c b s = (Er err, s).
Proof.
  intro H. destruct n; [eexists; reflexivity|]. cbn [exec_cond]. unfold bindM.
  rewrite frozen_eval_expr by auto. eauto.
Qed.
Lemma frozen_exec_while n P e c b s : st_stopped s = true ->
  exists err, exec_while n P e c b s = (Er err, s).
Proof.
  intro H. destruct n; [eexists; reflexivity|]. cbn [exec_while]. unfold bindM.
  destruct (frozen_exec_cond n P e c b s H) as (err & ->). eauto.
Qed.
Lemma frozen_eval_call n P e name x t s : st_stopped s = true ->
  exists err, eval_call n P e name (x :: t) s = (Er err, s).
Proof.
  intro H. destruct n; [eexists; reflexivity|]. cbn [eval_call]. unfold bindM.
  destruct (frozen_eval_exprs n P e (x :: t) s H) as ([v|err] & -> & Hv); [|eauto].
  destruct (Hv v eq_refl). discriminate.
Qed.

(* every Built computation (in particular exec_for, whose ranger may still allocate
   the next element, and eval_call on an empty argument list): no yield, flag stays up *)
Lemma frozen_built A (m : M A) s r s' : Built m -> st_stopped s = true -> m s = (r, s') ->
  st_stopped s' = true /\ st_yields s' = st_yields s.
Proof. intros Hb St E. apply (built_mono _ _ Hb _ _ _ E). auto. Qed.

(* C14.2 nothing_after_stop, on final states.  The raising tick cuts every continuation: with the corrected order, whatever [f]
   is, it is not run; the state differs from the one the tick was entered with only
   in the yield counter and the flag *)
Lemma tick_raise_cuts B (f : unit -> M B) s :
  st_stopped s = false -> st_check_after_yield s = true -> st_stop_at s = Some (st_yields s) ->
  bindM tick f s = (Er EStopped, upd_yield (S (st_yields s)) true s).
Proof. intros St Ck At. unfold bindM, tick. now rewrite St, At, Ck, Nat.eqb_refl. Qed.

(* a run with the flag raised at yield k (alone, no reference run): as soon as the
   flag is up at the end, the result is "stopped" and the raising yield was the
   last one: the evaluator never reached another eval prologue *)
Theorem stop_is_immediate A (m : M A) : Built m ->
  forall k s r s', st_stopped s = false -> st_check_after_yield s = true -> st_stop_at s = Some k ->
  m s = (r, s') ->
  (st_stopped s' = false /\ ~ (st_yields s <= k < st_yields s'))
  \/ (st_stopped s' = true /\ r = Er EStopped /\ st_yields s' = S k /\ st_yields s <= k).
Proof.
  intros Hb k s r s' St Ck At E.
  destruct (m (set_stop None s)) as [rI sI] eqn:EI.
  assert (Es : set_stop (Some k) s = s) by (rewrite <- At; apply set_stop_id).
  rewrite <- Es in E.
  destruct (built_stop_prefix _ _ Hb k s St Ck _ _ EI _ _ E) as [(N & -> & -> & S0) | (R & -> & Y & S1 & _)].
  - left. split; [auto|]. simpl. exact N.
  - right. repeat split; auto; lia.
Qed.

(* C14.3: a yield per loop iteration, call and event *)
(* ranger.next, named (it is an atom: it never ticks) *)
Definition ranger_next (rg : ranger) : M (option (loc * ranger)) :=
  match rg with
  | RgStep cur stop step =>
      if (PrimFloat.ltb 0 step && PrimFloat.leb stop cur) || (PrimFloat.ltb step 0 && PrimFloat.leb cur stop)
      then ret None
      else let* l := alloc (HNum cur) in ret (Some (l, RgStep (cur + step)%float stop step))
  | RgArr a cur =>
      let* v := load a in
      match v with
      | HArr els => match nth_error els cur with
                    | Some l => ret (Some (l, RgArr a (S cur)))
                    | None => ret None end
      | _ => crash "range over non-array"
      end
  | RgStr s cur =>
      match nth_error s cur with
      | Some c => let* l := alloc (HStr [c]) in ret (Some (l, RgStr s (S cur)))
      | None => ret None
      end
  | RgMap m todo =>
      let* v := load m in
      match v with
      | HMap om =>
          (fix next (ks : list str) : M (option (loc * ranger)) :=
             match ks with
             | [] => ret None
             | k :: t => if ohas k om then let* l := alloc (HStr k) in ret (Some (l, RgMap m t))
                         else next t
             end) todo
      | _ => crash "range over non-map"
      end
  end.

Lemma exec_for_unfold f P e var rg body :
  exec_for (S f) P e var rg body =
  (let* nx := ranger_next rg in
   match nx with
   | None => ret (SigNone, e)
   | Some (l, rg') =>
       let* e1 := update_var var l e in
       let* (sig, e2') := exec_block f P ([] :: e1) body in
       let e2 := tl e2' in
       match sig with
       | SigBreak => ret (SigNone, e2)
       | SigReturn v => ret (SigReturn v, e2)
       | SigNone => exec_for f P e2 var rg' body
       end
   end).
Proof. reflexivity. Qed.

Lemma prim_ranger_next rg : Prim (ranger_next rg).
Proof.
  destruct rg; simpl; try solve [prim_tac].
  apply P_bind; [prim_tac|intro v]. destruct v; try solve [prim_tac].
  induction todo; simpl; prim_tac.
Qed.
Lemma atom_ranger_next rg : atom (ranger_next rg).
Proof. apply prim_atom, prim_ranger_next. Qed.

Lemma tick_counts s r s' : tick s = (r, s') ->
  (st_stopped s = true /\ r = Er EStopped /\ s' = s) \/ (st_stopped s = false /\ st_yields s' = S (st_yields s)).
Proof.
  unfold tick. destruct (st_stopped s); intro H.
  - left. inversion H; auto.
  - right. destruct (_ && _); inversion H; subst; auto.
Qed.

Lemma tick_first_yields A (m : M A) s r s' : TickFirst m -> m s = (r, s') ->
  (st_stopped s = true /\ r = Er EStopped /\ s' = s) \/ (st_stopped s = false /\ S (st_yields s) <= st_yields s').
Proof.
  intros (K & HK & E) H. rewrite E in H. unfold bindM in H.
  destruct (tick s) as [[u|e] s1] eqn:T; destruct (tick_counts _ _ _ T) as [(St & Hr & Hs) | (St & Y)];
    try discriminate.
  - right. split; [auto|]. apply (built_mono _ _ (primT_built _ _ HK)) in H. lia.
  - left. inversion H; inversion Hr; subst; auto.
  - right. inversion H; subst. split; [auto|lia].
Qed.

Lemma tick_first_ok A (m : M A) s a s' : TickFirst m -> m s = (Ok a, s') -> S (st_yields s) <= st_yields s'.
Proof. intros T H. destruct (tick_first_yields _ _ _ _ _ T H) as [(_ & ? & _)|(_ & ?)]; [discriminate|auto]. Qed.

(* every completed evaluation of an expression, a statement or a block yielded at least once *)
Theorem eval_expr_yields n P e x s a s' : eval_expr n P e x s = (Ok a, s') -> S (st_yields s) <= st_yields s'.
Proof. destruct n; [discriminate|]. apply tick_first_ok, eval_expr_tick_first. Qed.
Theorem exec_stmt_yields n P e x s a s' : exec_stmt n P e x s = (Ok a, s') -> S (st_yields s) <= st_yields s'.
Proof. destruct n; [discriminate|]. apply tick_first_ok, exec_stmt_tick_first. Qed.
Theorem exec_block_yields n P e body s a s' :
  exec_block n P e body s = (Ok a, s') -> S (st_yields s) <= st_yields s'.
Proof. destruct n; [discriminate|]. apply tick_first_ok, exec_block_tick_first. Qed.

(* ... and a block that is entered while the flag is down yields before its first statement,
   however it ends (normally, with an error, stopped, or out of fuel further down) *)
Theorem exec_block_yields_first f P e body s :
  exec_block (S f) P e body s =
  if st_stopped s then (Er EStopped, s)
  else
    let raised := match st_stop_at s with Some k => Nat.eqb k (st_yields s) | None => false end in
    let s1 := upd_yield (S (st_yields s)) raised s in
    if raised && st_check_after_yield s then (Er EStopped, s1) else exec_stmts f P e body s1.
Proof.
  rewrite exec_block_unfold. unfold bindM, tick. destruct (st_stopped s); [reflexivity|].
  cbv zeta. destruct (_ && _); reflexivity.
Qed.

Lemma mono_yields A (m : M A) s r s' : Built m -> m s = (r, s') -> st_yields s <= st_yields s'.
Proof. intros Hb E. apply (built_mono _ _ Hb _ _ _ E). Qed.
Lemma atom_yields A (m : M A) s r s' : atom m -> m s = (r, s') -> st_yields s' = st_yields s.
Proof. intros Hm E. apply (Hm _ _ _ E). Qed.

(* one iteration of a while loop: the condition and the body block each yield *)
Theorem while_iteration_yields f P e c body s e1 s1 :
  exec_cond f P e c body s = (Ok (Some SigNone, e1), s1) ->
  exec_while (S f) P e c body s = exec_while f P e1 c body s1 /\ st_yields s + 2 <= st_yields s1.
Proof.
  intro H. split.
  - rewrite exec_while_unfold. unfold bindM. now rewrite H.
  - destruct f; [discriminate|]. rewrite exec_cond_unfold in H.
    apply bindM_inv in H as (l & s2 & E1 & H). apply eval_expr_yields in E1.
    apply bindM_inv in H as (v & s3 & E2 & H). apply (atom_yields _ _ _ _ _ (atom_load l)) in E2.
    destruct v as [| |[|]| | | |]; try discriminate.
    apply bindM_inv in H as ([sig e2] & s4 & E3 & H). apply exec_block_yields in E3.
    inversion H; subst. lia.
Qed.

Theorem for_iteration_yields f P e var rg body s l rg' s1 e1 s2 e2 s3 :
  ranger_next rg s = (Ok (Some (l, rg')), s1) ->
  update_var var l e s1 = (Ok e1, s2) ->
  exec_block f P ([] :: e1) body s2 = (Ok (SigNone, e2), s3) ->
  exec_for (S f) P e var rg body s = exec_for f P (tl e2) var rg' body s3 /\ S (st_yields s) <= st_yields s3.
Proof.
  intros H1 H2 H3. split.
  - rewrite exec_for_unfold. unfold bindM. now rewrite H1, H2, H3.
  - apply exec_block_yields in H3.
    apply (atom_yields _ _ _ _ _ (atom_ranger_next rg)) in H1.
    apply (atom_yields _ _ _ _ _ (atom_update_var var l e)) in H2. lia.
Qed.

(* a completed call of a user-defined function (the name is neither `test` nor a built-in) *)
Theorem call_yields n P e name args s r s' :
  str_eqb name n_test = false -> (forall vals, builtin name e vals = None) ->
  eval_call n P e name args s = (Ok r, s') -> S (st_yields s) <= st_yields s'.
Proof.
  intros Nt Nb H. destruct n; [discriminate|]. rewrite SemScope.eval_call_unfold in H.
  apply bindM_inv in H as (vals & s1 & E1 & H).
  apply (mono_yields _ _ _ _ _ (built_eval_exprs _ _ _ _)) in E1.
  unfold SemScope.call_dispatch in H. rewrite Nt, Nb in H.
  destruct (existsb _ _); [discriminate|].
  destruct (find_func name (p_funcs P)) as [fd|]; [|discriminate].
  assert (Hm : atom (SemScope.call_frame fd vals)) by (apply prim_atom; unfold SemScope.call_frame; prim_tac).
  apply bindM_inv in H as (fr & s2 & E2 & H). apply (atom_yields _ _ _ _ _ Hm) in E2.
  apply bindM_inv in H as ([sig e2] & s3 & E3 & H). apply exec_block_yields in E3.
  assert (st_yields s' = st_yields s3).
  { destruct sig; [| |inversion H; subst; lia];
      (eapply atom_yields; [|exact H]; apply prim_atom; prim_tac). }
  lia.
Qed.

Theorem handle_event_yields fuel P name args s s' :
  handle_event fuel P name args s = (ODone, s') -> S (st_yields s) <= st_yields s'.
Proof.
  unfold handle_event. destruct (find_handler name (p_handlers P)) as [h|]; [|discriminate].
  unfold bindM at 1.
  destruct (bind_payload (h_params h) args [] s) as [[fr|?] s1] eqn:E1; [|discriminate].
  apply (atom_yields _ _ _ _ _ (atom_bind_payload _ _ _)) in E1.
  unfold bindM.
  destruct (exec_block fuel P [fr] (h_body h) s1) as [[?|?] s2] eqn:E2; [|discriminate].
  apply exec_block_yields in E2. intro H'. inversion H'; subst. lia.
Qed.

Definition machinery_off (s : state) : Prop := st_stopped s = false /\ st_stop_at s = None.

(* the condition `true` and the empty body block: two yields (condition node, body block),
   then the statement list of the body, with the fuel that is left *)
Lemma endless_cond_body f P e s : machinery_off s ->
  exists s1, machinery_off s1 /\ st_yields s1 = st_yields s + 2 /\
    exec_cond (S (S f)) P e (EBool true) [] s =
    (let* (sig, e2) := exec_stmts f P ([] :: e) [] in ret (Some sig, tl e2)) s1.
Proof.
  intro Off. rewrite exec_cond_unfold. cbn [eval_expr]. unfold bindM at 1 2. rewrite tick_run by auto.
  set (s1 := upd_yield (S (st_yields s)) false s).
  unfold alloc. destruct (halloc (st_heap s1) (HBool true)) as [l h] eqn:Eh.
  unfold bindM at 1. unfold load at 1. cbn [st_heap upd_heap].
  assert (Hg : hget h l = Some (HBool true)).
  { inversion Eh; subst l h. apply (hget_halloc_new (st_heap s1)). }
  rewrite Hg. rewrite exec_block_unfold. unfold bindM at 1 2.
  assert (Off2 : machinery_off (upd_heap h s1)) by (destruct Off; split; auto).
  rewrite tick_run by auto.
  eexists. split; [|split; [|reflexivity]]; [destruct Off; split; auto|simpl; lia].
Qed.

Lemma endless_cond g P e s : machinery_off s ->
  exists s1, exec_cond (S (S (S g))) P e (EBool true) [] s = (Ok (Some SigNone, e), s1) /\
             machinery_off s1 /\ st_yields s1 = st_yields s + 2.
Proof.
  intro Off. destruct (endless_cond_body (S g) P e s Off) as (s1 & Off1 & Y & ->).
  exists s1. split; [reflexivity|auto].
Qed.

Lemma endless_cond_short P e s : machinery_off s ->
  exists s1, exec_cond 2 P e (EBool true) [] s = (Er EOutOfFuel, s1) /\ st_yields s1 = st_yields s + 2.
Proof.
  intro Off. destruct (endless_cond_body 0 P e s Off) as (s1 & Off1 & Y & ->).
  exists s1. split; [reflexivity|auto].
Qed.

Lemma endless_while_step g P e s : machinery_off s ->
  exists s1, exec_while (S (S (S (S g)))) P e (EBool true) [] s = exec_while (S (S (S g))) P e (EBool true) [] s1 /\
             machinery_off s1 /\ st_yields s1 = st_yields s + 2.
Proof.
  intro Off. destruct (endless_cond g P e s Off) as (s1 & E & Off1 & Y).
  exists s1. split; [|auto]. rewrite exec_while_unfold. unfold bindM. now rewrite E.
Qed.

(* with fuel n the loop runs out of fuel after exactly 2*(n-2) yields *)
Theorem endless_while_yields n P e s : machinery_off s ->
  exists s', exec_while n P e (EBool true) [] s = (Er EOutOfFuel, s') /\
             st_yields s' = st_yields s + 2 * (n - 2).
Proof.
  revert s. induction n as [|n IH]; intros s Off.
  - eexists. split; [reflexivity|]. simpl. lia.
  - destruct n as [|[|[|g]]].
    + eexists. split; [reflexivity|]. simpl. lia.
    + eexists. split; [reflexivity|]. simpl. lia.
    + (* fuel 3: the condition and the block tick, then the statement list has no fuel *)
      destruct (endless_cond_short P e s Off) as (s1 & E & Y).
      exists s1. rewrite exec_while_unfold. unfold bindM. rewrite E. split; [reflexivity|]. lia.
    + destruct (endless_while_step g P e s Off) as (s1 & E & Off1 & Y).
      destruct (IH s1 Off1) as (s' & E' & Y'). exists s'. rewrite E. split; [exact E'|]. lia.
Qed.

Definition endless_program : program :=
  {| p_funcs := []; p_handlers := []; p_stmts := [SWhile (EBool true) []] |}.

(* the whole run: out of fuel, after 2*fuel - 6 yields (so >= fuel yields once fuel >= 6) *)
Theorem endless_run_yields n s : machinery_off s -> 4 <= n ->
  exists s', run_program n endless_program s = (OErr EOutOfFuel, s') /\
             st_yields s' = st_yields s + 2 * n - 6.
Proof.
  intros Off Hn. destruct n as [|[|n]]; try lia.
  unfold run_program. unfold bindM at 1. rewrite tick_run by auto.
  set (s1 := upd_yield (S (st_yields s)) false s).
  assert (Off1 : machinery_off s1) by (destruct Off; split; auto).
  simpl p_stmts. rewrite exec_stmts_cons. cbn [exec_stmt]. unfold bindM at 1 2 3. rewrite tick_run by auto.
  set (s2 := upd_yield (S (st_yields s1)) false s1).
  assert (Off2 : machinery_off s2) by (destruct Off1; split; auto).
  destruct (endless_while_yields n endless_program [] s2 Off2) as (s' & E & Y).
  rewrite E. eexists. split; [reflexivity|]. rewrite Y. simpl. lia.
Qed.

(* C14.2 nothing_after_stop, on the interleaved platform log.
   The state only counts yields; to speak about "after the raise" the calls the
   platform sees are interleaved in a log: the Yielder calls (numbered), the
   moment the flag goes up, and the effects.  [Run m s r s' l]: m, decomposed
   into atoms (which by definition can neither yield nor see the flag), eval
   prologues and binds, goes from s to (r, s') and the platform sees l. *)
Inductive item := IYield (n : nat) | IRaise | IEffect (e : event).

Inductive Run : forall {A : Type}, M A -> state -> res A -> state -> list item -> Prop :=
| R_atom A (m : M A) s r s' d :
    atom m -> m s = (r, s') -> st_trace s' = d ++ st_trace s -> Run m s r s' (map IEffect (rev d))
| R_tick_refused s :
    st_stopped s = true -> Run tick s (Er EStopped) s []
| R_tick s r s' :
    st_stopped s = false -> tick s = (r, s') ->
    Run tick s r s' (IYield (st_yields s) :: if st_stopped s' then [IRaise] else [])
| R_bind_ok A B (m : M A) (f : A -> M B) s a s1 l1 r s2 l2 :
    Run m s (Ok a) s1 l1 -> Run (f a) s1 r s2 l2 -> Run (bindM m f) s r s2 (l1 ++ l2)
| R_bind_er A B (m : M A) (f : A -> M B) s e s1 l1 :
    Run m s (Er e) s1 l1 -> Run (bindM m f) s (Er e) s1 l1
| R_ext A (m m' : M A) s r s' l :
    (forall s, m s = m' s) -> Run m s r s' l -> Run m' s r s' l.

Fixpoint effects (l : list item) : list event :=
  match l with [] => [] | IEffect e :: t => e :: effects t | _ :: t => effects t end.
Fixpoint yields_of (l : list item) : list nat :=
  match l with [] => [] | IYield n :: t => n :: yields_of t | _ :: t => yields_of t end.

Lemma effects_app a b : effects (a ++ b) = effects a ++ effects b.
Proof. induction a as [|[]]; simpl; congruence. Qed.
Lemma yields_of_app a b : yields_of (a ++ b) = yields_of a ++ yields_of b.
Proof. induction a as [|[]]; simpl; congruence. Qed.
Lemma effects_map d : effects (map IEffect d) = d.
Proof. induction d; simpl; congruence. Qed.
Lemma yields_of_map d : yields_of (map IEffect d) = [].
Proof. induction d; simpl; congruence. Qed.
Lemma no_raise_map d : ~ In IRaise (map IEffect d).
Proof. induction d; simpl; [tauto|]. intros [?|?]; [discriminate|auto]. Qed.

(* every run of a Built computation (so of every evaluator function) has a log *)
Theorem run_exists A (m : M A) : Built m -> forall s r s', m s = (r, s') -> exists l, Run m s r s' l.
Proof.
  induction 1; intros s r s' E.
  - destruct (H _ _ _ E) as (_ & (d & Hd) & _). eexists. eapply R_atom; eauto.
  - destruct (st_stopped s) eqn:St.
    + assert (tick s = (Er EStopped, s)) by (unfold tick; now rewrite St).
      rewrite E in H. inversion H; subst. eexists. now apply R_tick_refused.
    + eexists. now apply R_tick.
  - unfold bindM in E. destruct (m s) as [[a|e] s1] eqn:E1.
    + destruct (IHBuilt _ _ _ E1) as (l1 & R1). destruct (H1 a _ _ _ E) as (l2 & R2).
      eexists. eapply R_bind_ok; eauto.
    + inversion E; subst. destruct (IHBuilt _ _ _ E1) as (l1 & R1). eexists. eapply R_bind_er; eauto.
  - rewrite <- H in E. destruct (IHBuilt _ _ _ E) as (l & R). eexists. eapply R_ext; eauto.
Qed.

(* the log is faithful: it is a log of THIS run; its effects are exactly the events
   appended to the trace, in order; its yields are exactly the yields counted *)
Theorem run_sound A (m : M A) s r s' l : Run m s r s' l ->
  m s = (r, s') /\
  st_trace s' = rev (effects l) ++ st_trace s /\
  st_yields s <= st_yields s' /\
  yields_of l = seq (st_yields s) (st_yields s' - st_yields s) /\
  st_check_after_yield s' = st_check_after_yield s.
Proof.
  induction 1.
  - destruct (H _ _ _ H0) as ((Y & _ & _ & C) & _).
    rewrite effects_map, yields_of_map, rev_involutive, Y, Nat.sub_diag. auto 6.
  - split; [unfold tick; now rewrite H|]. rewrite Nat.sub_diag. auto.
  - split; [auto|].
    assert (E : effects (if st_stopped s' then [IRaise] else []) = [] /\
                yields_of (if st_stopped s' then [IRaise] else []) = []) by (destruct (st_stopped s'); auto).
    destruct E as (E1 & E2). simpl. rewrite E1, E2.
    unfold tick in H0. rewrite H in H0. destruct (_ && _); inversion H0; subst;
      cbn [upd_yield st_yields st_trace st_check_after_yield app rev];
      replace (S (st_yields s) - st_yields s) with 1 by lia; simpl; auto 6.
  - destruct IHRun1 as (E1 & T1 & Y1 & L1 & C1), IHRun2 as (E2 & T2 & Y2 & L2 & C2).
    split; [unfold bindM; now rewrite E1|].
    rewrite effects_app, yields_of_app, rev_app_distr, <- app_assoc, <- T1, T2, L1, L2.
    split; [auto|]. split; [lia|]. split; [|congruence].
    replace (st_yields s2 - st_yields s) with ((st_yields s1 - st_yields s) + (st_yields s2 - st_yields s1)) by lia.
    rewrite seq_app. do 2 f_equal. lia.
  - destruct IHRun as (E1 & Rest). split; [unfold bindM; now rewrite E1|auto].
  - destruct IHRun as (E1 & Rest). split; [now rewrite <- H|auto].
Qed.

(* with the corrected order of the stop test: in EVERY log of a run that starts with
   the flag down, the raise (if any) is the last entry — no effect and no yield
   follows it — and the run then ends with the "stopped" result *)
Theorem run_nothing_after_raise A (m : M A) s r s' l : Run m s r s' l ->
  st_check_after_yield s = true -> st_stopped s = false ->
  (st_stopped s' = false /\ ~ In IRaise l)
  \/ (st_stopped s' = true /\ r = Er EStopped /\ exists l0, l = l0 ++ [IRaise] /\ ~ In IRaise l0).
Proof.
  induction 1; intros Ck St.
  - left. destruct (H _ _ _ H0) as ((_ & _ & S & _) & _). split; [congruence|apply no_raise_map].
  - congruence.
  - unfold tick in H0. rewrite H, Ck, andb_true_r in H0.
    destruct (match st_stop_at s with Some k => Nat.eqb k (st_yields s) | None => false end);
      inversion H0; subst; simpl.
    + right. split; [auto|]. split; [auto|]. exists [IYield (st_yields s)]. split; [auto|].
      simpl. intros [?|[]]. discriminate.
    + left. split; [auto|]. simpl. intros [?|[]]. discriminate.
  - destruct (IHRun1 Ck St) as [(S1 & N1) | (_ & Hr & _)]; [|discriminate].
    assert (Ck1 : st_check_after_yield s1 = true).
    { apply run_sound in H. destruct H as (_ & _ & _ & _ & C). congruence. }
    destruct (IHRun2 Ck1 S1) as [(S2 & N2) | (S2 & Hr & l0 & -> & N0)].
    + left. split; [auto|]. rewrite in_app_iff. tauto.
    + right. split; [auto|]. split; [auto|]. exists (l1 ++ l0). split; [now rewrite app_assoc|].
      rewrite in_app_iff. tauto.
  - destruct (IHRun Ck St) as [?|(S1 & Hr & Rest)]; [auto|]. right. inversion Hr; subst. auto.
  - auto.
Qed.

Corollary nothing_after_stop_log A (m : M A) : Built m ->
  forall s r s', st_check_after_yield s = true -> st_stopped s = false -> m s = (r, s') ->
  exists l, Run m s r s' l /\
    st_trace s' = rev (effects l) ++ st_trace s /\
    yields_of l = seq (st_yields s) (st_yields s' - st_yields s) /\
    ((st_stopped s' = false /\ ~ In IRaise l)
     \/ (st_stopped s' = true /\ r = Er EStopped /\ exists l0, l = l0 ++ [IRaise] /\ ~ In IRaise l0)).
Proof.
  intros Hb s r s' Ck St E. destruct (run_exists _ _ Hb _ _ _ E) as (l & R).
  exists l. split; [auto|]. destruct (run_sound _ _ _ _ _ _ R) as (_ & T & _ & Y & _).
  split; [auto|]. split; [auto|]. eapply run_nothing_after_raise; eauto.
Qed.

(* the whole program: the platform log of the evaluation, then at most the test summary *)
Theorem run_program_nothing_after_stop fuel P s o s2 :
  st_check_after_yield s = true -> st_stopped s = false -> run_program fuel P s = (o, s2) ->
  exists r s1 l tail,
    Run (program_m fuel P) s r s1 l /\
    st_trace s2 = tail ++ rev (effects l) ++ st_trace s /\ summary_tail tail /\
    yields_of l = seq (st_yields s) (st_yields s2 - st_yields s) /\
    ((st_stopped s2 = false /\ ~ In IRaise l)
     \/ (st_stopped s2 = true /\ o = OErr EStopped /\ exists l0, l = l0 ++ [IRaise] /\ ~ In IRaise l0)).
Proof.
  intros Ck St E. rewrite run_program_eq in E.
  destruct (program_m fuel P s) as [r s1] eqn:E1.
  destruct (nothing_after_stop_log _ _ (built_program_m fuel P) _ _ _ Ck St E1) as (l & HR & T & Y & D).
  exists r, s1, l.
  destruct (program_end_state r s1) as (Hst & Hy & tail & Ht & Hsum). rewrite E in Hst, Hy, Ht. cbn [snd] in Hst, Hy, Ht.
  exists tail. rewrite Ht, T, Hst, Hy. split; [exact HR|]. repeat split; auto.
  destruct D as [?|(S1 & -> & Rest)]; [left; auto|right]. split; [auto|]. split; [|exact Rest].
  cbn in E. inversion E; reflexivity.
Qed.

(* Every yield of a run is the prologue of some node (eval_expr / exec_stmt /
   exec_block / the program node).  With the corrected order the node entered
   while the flag goes up does nothing: the state it leaves is the state it was
   entered with, plus the yield count and the flag. *)
Definition raise_now (s : state) : Prop :=
  st_stopped s = false /\ st_stop_at s = Some (st_yields s).

Theorem raise_at_entry_freezes n P e s :
  raise_now s -> st_check_after_yield s = true ->
  let s' := upd_yield (S (st_yields s)) true s in
  (forall x, eval_expr (S n) P e x s = (Er EStopped, s')) /\
  (forall x, exec_stmt (S n) P e x s = (Er EStopped, s')) /\
  (forall l, exec_block (S n) P e l s = (Er EStopped, s')) /\
  run_program n P s = (OErr EStopped, test_report s').
Proof.
  intros (St & At) Ck s'. repeat split; intros.
  - cbn [eval_expr]. now apply tick_raise_cuts.
  - cbn [exec_stmt]. now apply tick_raise_cuts.
  - cbn [exec_block]. now apply tick_raise_cuts.
  - unfold run_program. rewrite tick_raise_cuts by auto. reflexivity.
Qed.

Definition cls_stmt : stmt := SCallStmt (s_ "cls") [].
Definition empty_program : program := {| p_funcs := []; p_handlers := []; p_stmts := [] |}.

(* the node entered while the flag goes up still runs: one more effect *)
Theorem raise_at_entry_freezes_refuted_old :
  exists n P e x s, raise_now s /\ st_check_after_yield s = false /\
    exists r s', exec_stmt (S n) P e x s = (r, s') /\ st_trace s' = EvCls :: st_trace s.
Proof.
  exists 2, empty_program, [], cls_stmt, (init_state (Some 0) [] false false).
  split; [split; reflexivity|]. split; [reflexivity|].
  eexists. eexists. split; [vm_compute; reflexivity|reflexivity].
Qed.

Definition two_prints : program :=
  {| p_funcs := []; p_handlers := [];
     p_stmts := [SCallStmt (s_ "print") [ENum 1]; SCallStmt (s_ "print") [ENum 2]] |}.
Definition one_print : program :=
  {| p_funcs := []; p_handlers := []; p_stmts := [SCallStmt (s_ "print") [ENum 1]] |}.

(* `print 1` `print 2`, flag raised at yield 2 (entering the argument of the first
   print): both orders make no further yield, the old one still prints *)
Theorem stop_one_more_effect_refuted_old :
  exists fuel P k,
    let s_old := snd (run_program fuel P (init_state (Some k) [] false false)) in
    let s_new := snd (run_program fuel P (init_state (Some k) [] false true)) in
    st_stopped s_old = true /\ st_yields s_old = S k /\
    st_stopped s_new = true /\ st_yields s_new = S k /\
    st_trace s_new = [] /\
    st_trace s_old = [EvPrint [PStr (s_ "1"); PStr [10%N]]].
Proof. exists 10, two_prints, 2. vm_compute. repeat split; reflexivity. Qed.

(* `print 1`, flag raised at its last yield: the old order reports success although the flag is up *)
Theorem stopped_result_refuted_old :
  exists fuel P k s, run_program fuel P (init_state (Some k) [] false false) = (ODone, s) /\
                     st_stopped s = true /\ st_yields s = S k.
Proof. exists 10, one_print, 2. eexists. split; [vm_compute; reflexivity|]. split; reflexivity. Qed.

(* eval_call is not an eval node: it does not test the flag itself (it is only ever
   reached through eval_expr / exec_stmt, which do) *)
Example eval_call_alone_not_frozen :
  exists s r s', st_stopped s = true /\
    eval_call 2 empty_program [] (s_ "cls") [] s = (r, s') /\ st_trace s' = EvCls :: st_trace s.
Proof.
  exists (set_ctl None true 0 true (init_state None [] false true)).
  eexists. eexists. split; [reflexivity|]. split; [vm_compute; reflexivity|reflexivity].
Qed.

Definition MonoAll (n : nat) (P : program) : Prop :=
  (forall e x, Mono (eval_expr n P e x)) /\
  (forall e l, Mono (eval_exprs n P e l)) /\
  (forall e name args, Mono (eval_call n P e name args)) /\
  (forall e s, Mono (exec_stmt n P e s)) /\
  (forall e l, Mono (exec_stmts n P e l)) /\
  (forall e l, Mono (exec_block n P e l)) /\
  (forall e c body, Mono (exec_cond n P e c body)) /\
  (forall e c body, Mono (exec_while n P e c body)) /\
  (forall e var rg body, Mono (exec_for n P e var rg body)).

Theorem mono_all n P : MonoAll n P.
Proof. unfold MonoAll. repeat match goal with |- _ /\ _ => split end; intros; apply built_mono; auto. Qed.

(* every primitive of the state monad except [tick] is independent of the stop machinery *)
Theorem primitives_stop_independent :
  (forall e, atom (emitE e)) /\ (forall v, atom (alloc v)) /\ (forall l, atom (load l)) /\
  (forall l v, atom (store l v)) /\ (forall n e, atom (lookup n e)) /\
  (forall n l e, atom (set_var n l e)) /\ (forall n l e, atom (update_var n l e)) /\
  (forall n l, atom (copy_or_ref n l)) /\ (forall n l, atom (deep_copy n l)) /\
  (forall n r l, atom (show n r l)) /\ (forall n a b, atom (equals n a b)) /\
  (forall n a b, atom (same n a b)) /\ (forall t, atom (zero_val t)) /\
  (forall op xs r, atom (bin_arr op xs r)) /\ (forall e b msg, atom (global_err e b msg)) /\
  (forall args, atom (run_test args)) /\ (forall rg, atom (ranger_next rg)) /\
  (forall ps args fr, atom (bind_params ps args fr)) /\ (forall ps args fr, atom (bind_payload ps args fr)) /\
  (forall name e args m, builtin name e args = Some m -> atom m).
Proof.
  repeat match goal with |- _ /\ _ => split end; intros;
    auto using prim_atom, atom_run_test, atom_ranger_next with primdb.
  eapply atom_builtin; eauto.
Qed.

(* an endless program stays interruptible: whatever the yield k at which the
   platform raises the flag, with enough fuel to get there the run ends "stopped"
   right at that yield *)
Theorem endless_is_interruptible k n ff :
  k + 7 <= 2 * n ->
  exists s, run_program n endless_program (init_state (Some k) [] ff true) = (OErr EStopped, s) /\
            st_yields s = S k.
Proof.
  intro Hn. set (s0 := init_state (Some k) [] ff true).
  assert (Off : machinery_off (set_stop None s0)) by (split; reflexivity).
  destruct (endless_run_yields n _ Off ltac:(lia)) as (sI & EI & YI).
  destruct (run_program n endless_program s0) as [ok sk] eqn:Ek.
  assert (Ek' : run_program n endless_program (set_stop (Some k) s0) = (ok, sk)) by exact Ek.
  destruct (run_program_stop_prefix n endless_program k s0 eq_refl eq_refl _ _ EI _ _ Ek')
    as [(N & _) | (R & -> & Y & _)].
  - exfalso. apply N. simpl in *. lia.
  - exists sk. auto.
Qed.

Definition f_def : funcdef :=
  {| fn_name := s_ "f"; fn_params := [(s_ "n", TNum)]; fn_variadic := None; fn_ret := TNone;
     fn_body := [SCallStmt (s_ "print") [EVar (s_ "n") TNum]] |}.
Definition demo : program :=
  {| p_funcs := [f_def]; p_handlers := [];
     p_stmts := [SFor (Some (s_ "i")) TNum (RStep None (ENum 2) None)
                   [SFor (Some (s_ "j")) TNum (RStep None (ENum 2) None)
                      [SCallStmt (s_ "f") [EBin BPlus TNum (EVar (s_ "i") TNum) (EVar (s_ "j") TNum)]]];
                 SCallStmt (s_ "print") [EStr (s_ "done")]] |}.
Definition demo_run (k : option nat) := run_program 100 demo (init_state k [] false true).

Definition tests_prog : program :=
  {| p_funcs := []; p_handlers := [];
     p_stmts := [SCallStmt (s_ "test") [EAny (EBool true) TBool]; SCallStmt (s_ "print") [ENum 1]] |}.

Definition ev_prog : program :=
  {| p_funcs := [];
     p_handlers := [{| h_name := s_ "key"; h_params := [(s_ "k", TStr)];
                       h_body := [SCallStmt (s_ "print") [EVar (s_ "k") TStr]] |}];
     p_stmts := [] |}.

Definition ex_seven : expr := ENum 7.
Definition ex_ranger : ranger := RgStep 0 2 1.
