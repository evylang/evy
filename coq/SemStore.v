(* SemStore.v — the store discipline of Sem.v through the whole evaluator
   (property C09); vocabulary and primitive lemmas are in SemStoreBase.v. *)
From Coq Require Import ZArith NArith PArith List String Bool Floats FMapPositive Lia.
From EvyV Require Import Base Num Ast Omap Sem SemBasics SemStoreBase.
From EvyV Require SemScope.
Import ListNotations.
Local Open Scope positive_scope.

(* Programs that do not declare a variable named err / errmsg (the parser rejects such
   declarations as redeclaration of a builtin variable); globalErr looks the names up from
   the calling scope, so this is what makes it reach the global cells. *)
Fixpoint stmt_ok (s : stmt) : bool :=
  match s with
  | SDecl n _ _ => name_ok n
  | SIf conds els =>
      forallb (fun cb => forallb stmt_ok (snd cb)) conds &&
      match els with Some b => forallb stmt_ok b | None => true end
  | SWhile _ b => forallb stmt_ok b
  | SFor var _ _ b => match var with Some v => name_ok v | None => true end && forallb stmt_ok b
  | _ => true
  end.
Definition stmts_ok (l : list stmt) : bool := forallb stmt_ok l.
Definition params_ok (ps : list (str * ty)) : bool := forallb (fun p => name_ok (fst p)) ps.
Definition func_ok (fd : funcdef) : bool :=
  params_ok (fn_params fd) &&
  match fn_variadic fd with Some (vn, _) => name_ok vn | None => true end &&
  stmts_ok (fn_body fd).
Definition handler_ok (h : handler) : bool := params_ok (h_params h) && stmts_ok (h_body h).
Definition no_err_decl (P : program) : bool :=
  forallb func_ok (p_funcs P) && forallb handler_ok (p_handlers P) && stmts_ok (p_stmts P).

Lemma find_func_ok n fs fd : forallb func_ok fs = true -> find_func n fs = Some fd -> func_ok fd = true.
Proof.
  induction fs as [|f t IH]; simpl; [discriminate|]. rewrite andb_true_iff. intros [A B].
  destruct (str_eqb (fn_name f) n); [intro E; inversion E; subst; auto | auto].
Qed.
Lemma find_handler_ok n hs h : forallb handler_ok hs = true -> find_handler n hs = Some h -> handler_ok h = true.
Proof.
  induction hs as [|f t IH]; simpl; [discriminate|]. rewrite andb_true_iff. intros [A B].
  destruct (str_eqb (h_name f) n); [intro E; inversion E; subst; auto | auto].
Qed.

(* named forms of the local fixpoints of Sem.v, proved equal; those of the for statement are SemScope's *)
Section EmapGo.
  Variables (ev : expr -> M loc) (d : nat).
  Fixpoint emap_go (ps : list (str * expr)) : M (list (str * loc)) :=
    match ps with
    | [] => ret []
    | (k, a) :: t =>
        let* l := ev a in
        let* c := copy_or_ref d l in
        let* r := emap_go t in ret ((k, c) :: r)
    end.
End EmapGo.

Lemma eval_expr_EMap f P e t ps :
  eval_expr (S f) P e (EMap t ps) =
  (let* _ := tick in
   let* d := depth_fuel in
   let* vals := emap_go (eval_expr f P e) d ps in
   alloc (HMap {| pairs := vals; order := map fst ps |})).
Proof. reflexivity. Qed.

Section IfGo.
  Variables (ec : env -> expr -> list stmt -> M (option signal * env))
            (eb : env -> list stmt -> M (signal * env)) (els : option (list stmt)).
  Fixpoint if_go (cs : list (expr * list stmt)) (e : env) : M (signal * env) :=
    match cs with
    | [] =>
        match els with
        | Some body => let* (sig, e1) := eb ([] :: e) body in ret (sig, tl e1)
        | None => ret (SigNone, e)
        end
    | (c, body) :: t =>
        let* (r, e1) := ec e c body in
        match r with
        | Some sig => ret (sig, e1)
        | None => if_go t e1
        end
    end.
End IfGo.

Lemma exec_stmt_SIf f P e conds els :
  exec_stmt (S f) P e (SIf conds els) =
  (let* _ := tick in if_go (exec_cond f P) (exec_block f P) els conds e).
Proof. reflexivity. Qed.

Lemma SpecI_map_next m om ks : SpecI (SemScope.map_next m om ks).
Proof. induction ks as [|k t IH]; simpl; spi. Qed.
Lemma SpecI_for_next rg : SpecI (SemScope.for_next rg).
Proof. destruct rg; simpl; spi; apply SpecI_map_next. Qed.

Definition SpecE {B} (m : M (B * env)) : Prop := Spec (fun p => good_env (snd p)) m.

Lemma stmts_ok_cons s l : stmts_ok (s :: l) = true -> stmt_ok s = true /\ stmts_ok l = true.
Proof. unfold stmts_ok; simpl. apply andb_true_iff. Qed.

Lemma Spec_bind_loopvar var z e :
  SpecI z -> name_ok (SemScope.loopvar_name var) = true -> good_env e ->
  Spec good_env (SemScope.bind_loopvar var z e).
Proof.
  intros Z N G. destruct var as [v|]; simpl; [|apply Spec_ret; exact G].
  eapply Spec_bind; [apply Spec_I, Z | intros l _; apply Spec_set_var; auto].
Qed.

Section Step.
  Variable P : program.
  Hypothesis HP : forallb func_ok (p_funcs P) = true.
  Variable f : nat.
  Hypothesis IHexpr : forall e x, good_env e -> SpecI (eval_expr f P e x).
  Hypothesis IHexprs : forall e l, good_env e -> SpecI (eval_exprs f P e l).
  Hypothesis IHcall : forall e name args, good_env e -> SpecI (eval_call f P e name args).
  Hypothesis IHstmt : forall e st, good_env e -> stmt_ok st = true -> SpecE (exec_stmt f P e st).
  Hypothesis IHstmts : forall e l, good_env e -> stmts_ok l = true -> SpecE (exec_stmts f P e l).
  Hypothesis IHblock : forall e l, good_env e -> stmts_ok l = true -> SpecE (exec_block f P e l).
  Hypothesis IHcond : forall e c body, good_env e -> stmts_ok body = true -> SpecE (exec_cond f P e c body).
  Hypothesis IHwhile : forall e c body, good_env e -> stmts_ok body = true -> SpecE (exec_while f P e c body).
  Hypothesis IHfor : forall e var rg body, good_env e -> name_ok var = true -> stmts_ok body = true ->
                                           SpecE (exec_for f P e var rg body).

  Lemma emap_go_spec e d ps : good_env e -> SpecI (emap_go (eval_expr f P e) d ps).
  Proof.
    intro G. induction ps as [|[k a] t IH]; simpl; spi.
    - apply IHexpr; auto.
    - apply SpecI_copy_or_ref.
  Qed.

  Lemma range_num_spec e o dflt : good_env e -> SpecI (SemScope.range_num f P e o dflt).
  Proof. intro G. apply SpecI_bind; [apply IHexpr; exact G | intro l; spi]. Qed.

  (* what a bind starts with: a computation whose result carries a condition (an induction hypothesis
     on statements, a binding site), or a plain Inv step; the environments asked for are good by [genv] *)
  Ltac leaf :=
    first [ apply IHstmt | apply IHstmts | apply IHblock | apply IHcond | apply IHwhile | apply IHfor
          | apply Spec_set_var | apply Spec_update_var
          | apply Spec_bind_loopvar; [first [apply SpecI_alloc | apply SpecI_zero_val] | | ]
          | apply Spec_I;
            first [ apply IHexpr | apply IHexprs | apply IHcall | apply range_num_spec
                  | apply SpecI_for_next | apply SpecI_map_set_key | solve [spi] | solve [auto with speci] ] ];
    auto with genv.

  (* along the syntax of the term, as spi; a pair bound by the continuation is split at once *)
  Ltac spe :=
    repeat match goal with
           | |- SpecE _ => unfold SpecE
           | |- Spec _ (bindM _ _) =>
               let a := fresh "a" in let Qa := fresh "Qa" in
               eapply Spec_bind; [solve [leaf] | intros a Qa; cbv beta in Qa];
               try match type of a with (_ * _)%type => destruct a; cbn [fst snd] in Qa end;
               cbv beta iota
           | |- Spec _ (match ?x with _ => _ end) => destruct x
           | |- Spec _ (if ?x then _ else _) => destruct x
           | |- Spec _ (ret _) => apply Spec_ret; cbn [fst snd]; solve [auto with genv]
           | |- Spec _ (fail _) => apply Spec_fail
           | |- Spec _ (crash _) => apply Spec_fail
           | |- Spec _ (internal _) => apply Spec_fail
           | |- Spec _ _ => solve [leaf]
           end.

  Lemma step_expr e x : good_env e -> SpecI (eval_expr (S f) P e x).
  Proof.
    intro G. pose proof (IHexpr e) as He. pose proof (IHexprs e) as Hes. pose proof (IHcall e) as Hc.
    destruct x.
    7: rewrite eval_expr_EMap.
    all: cbn [eval_expr]; cbv zeta; spi; auto using emap_go_spec with speci.
  Qed.

  Lemma step_exprs e l : good_env e -> SpecI (eval_exprs (S f) P e l).
  Proof.
    intro G. cbn [eval_exprs]. destruct l; spi; auto with speci.
  Qed.

  Lemma step_call e name args : good_env e -> SpecI (eval_call (S f) P e name args).
  Proof.
    intro G. cbn [eval_call]. apply SpecI_bind; [apply IHexprs; exact G | intro vals].
    destruct (str_eqb name n_test); [spi; apply SpecI_run_test|].
    destruct (builtin name e vals) as [m|] eqn:B; [eapply SpecI_builtin; eauto|].
    destruct (existsb (str_eqb name) unmodelled_builtins); [spi|].
    destruct (find_func name (p_funcs P)) as [fd|] eqn:F; [|spi].
    pose proof (find_func_ok _ _ _ HP F) as OK. unfold func_ok in OK.
    rewrite !andb_true_iff in OK. destruct OK as [[O1 O2] O3].
    (* the frame of the callee binds parameter names only *)
    eapply Spec_SpecI, Spec_bind; [apply Spec_bind_params; [exact O1 | apply frame_ok_nil]|].
    intros [fr rest] Fr; simpl in Fr. eapply (Spec_bind frame_ok).
    - destruct (fn_variadic fd) as [[vn vt]|]; [|apply Spec_ret; exact Fr].
      eapply Spec_bind; [apply Spec_I, SpecI_alloc|]. intros a _. apply Spec_ret.
      destruct (str_eqb vn underscore); auto. apply frame_ok_set; auto.
    - intros fr' Fr'. eapply Spec_bind; [apply IHblock; auto with genv|].
      intros [sig e1] _. apply Spec_I. spi.
  Qed.

  Lemma if_go_spec els conds : forall e,
    good_env e -> forallb (fun cb => stmts_ok (snd cb)) conds = true ->
    match els with Some b => stmts_ok b | None => true end = true ->
    SpecE (if_go (exec_cond f P) (exec_block f P) els conds e).
  Proof.
    induction conds as [|[c body] t IH]; intros e G Hc He; simpl.
    - destruct els; spe.
    - simpl in Hc. apply andb_true_iff in Hc. destruct Hc as [Hc1 Hc2].
      eapply Spec_bind; [apply IHcond; auto|]. intros [o e1] G1; simpl in G1.
      destruct o; [apply Spec_ret; exact G1 | apply IH; auto].
  Qed.

  Lemma for_init_spec e var vt r :
    good_env e -> name_ok (SemScope.loopvar_name var) = true -> SpecE (SemScope.for_init f P e var vt r).
  Proof. intros G N. unfold SemScope.for_init. destruct r; spe. Qed.

  Lemma step_stmt e st : good_env e -> stmt_ok st = true -> SpecE (exec_stmt (S f) P e st).
  Proof.
    intros G OK. destruct st; simpl in OK.
    8: { rewrite SemScope.exec_stmt_for. apply andb_true_iff in OK. destruct OK as [O1 O2].
         assert (N : name_ok (SemScope.loopvar_name var) = true) by (destruct var; auto).
         eapply Spec_bind; [apply Spec_I, SpecI_tick | intros _ _].
         eapply Spec_bind; [apply for_init_spec; auto with genv|]. intros [rg e2] G2; simpl in G2. spe. }
    6: { rewrite exec_stmt_SIf. apply andb_true_iff in OK. destruct OK as [O1 O2].
         eapply Spec_bind; [apply Spec_I, SpecI_tick | intros _ _]. apply if_go_spec; auto. }
    2: { cbn [exec_stmt].
         eapply Spec_bind; [apply Spec_I, SpecI_tick | intros _ _].
         eapply Spec_bind; [apply Spec_I, IHexpr; exact G | intros v0 _].
         eapply Spec_bind; [apply Spec_I, SpecI_ro, ro_depth | intros d _].
         destruct target.
         4: { (* x = e: the copy and the rebinding together (Spec_assign_var) *)
           apply (Spec_ext _ (let* e' := (let* v := copy_or_ref d v0 in update_var name v e) in ret (SigNone, e')));
             [intro; apply bindM_assoc|].
           eapply Spec_bind; [apply Spec_assign_var; exact G | intros e' G'; apply Spec_ret; exact G']. }
         10: { (* a[i] = e: the store overwrites the array or map cell just read *)
           eapply Spec_bind; [apply Spec_I, SpecI_copy_or_ref | intros v _].
           eapply Spec_bind; [apply Spec_I, IHexpr; exact G | intros la _].
           eapply Spec_bind; [apply Spec_I, IHexpr; exact G | intros li _].
           apply Spec_load. intro va. destruct va; try apply SpecAt_any, Spec_fail.
           - apply SpecAt_read; [apply ro_load_num | intro fi]. apply SpecAt_read; [apply ro_lift | intro k].
             eapply SpecAt_bind; [apply SpecAt_store; [reflexivity | exact I] | intros; apply Spec_ret; exact G].
           - apply SpecAt_any. spe. }
         all: spe. }
    all: cbn [exec_stmt]; spe.
  Qed.

  Lemma step_stmts e l : good_env e -> stmts_ok l = true -> SpecE (exec_stmts (S f) P e l).
  Proof.
    intros G OK. cbn [exec_stmts]. destruct l as [|st t]; [apply Spec_ret; exact G|].
    apply stmts_ok_cons in OK. destruct OK as [O1 O2].
    eapply Spec_bind; [apply IHstmt; assumption|]. intros [sig e1] G1; simpl in G1.
    destruct (is_ctl sig); [apply Spec_ret; exact G1 | apply IHstmts; assumption].
  Qed.

  Lemma step_block e l : good_env e -> stmts_ok l = true -> SpecE (exec_block (S f) P e l).
  Proof.
    intros G OK. cbn [exec_block].
    eapply Spec_bind; [apply Spec_I, SpecI_tick | intros _ _; apply IHstmts; assumption].
  Qed.

  Lemma step_cond e c body : good_env e -> stmts_ok body = true -> SpecE (exec_cond (S f) P e c body).
  Proof. intros G OK. cbn [exec_cond]. cbv zeta. spe. Qed.

  Lemma step_while e c body : good_env e -> stmts_ok body = true -> SpecE (exec_while (S f) P e c body).
  Proof.
    intros G OK. cbn [exec_while].
    eapply Spec_bind; [apply IHcond; assumption|]. intros [r e1] G1; simpl in G1.
    destruct r as [[]|]; try (apply Spec_ret; exact G1). apply IHwhile; assumption.
  Qed.

  Lemma step_for e var rg body :
    good_env e -> name_ok var = true -> stmts_ok body = true -> SpecE (exec_for (S f) P e var rg body).
  Proof.
    intros G N OK. rewrite SemScope.exec_for_unfold. unfold SemScope.for_iter. spe.
  Qed.
End Step.

(* A2, for all nine functions at once *)
Theorem evaluator_store_inv P (HP : forallb func_ok (p_funcs P) = true) : forall n,
  (forall e x, good_env e -> SpecI (eval_expr n P e x)) /\
  (forall e l, good_env e -> SpecI (eval_exprs n P e l)) /\
  (forall e name args, good_env e -> SpecI (eval_call n P e name args)) /\
  (forall e st, good_env e -> stmt_ok st = true -> SpecE (exec_stmt n P e st)) /\
  (forall e l, good_env e -> stmts_ok l = true -> SpecE (exec_stmts n P e l)) /\
  (forall e l, good_env e -> stmts_ok l = true -> SpecE (exec_block n P e l)) /\
  (forall e c body, good_env e -> stmts_ok body = true -> SpecE (exec_cond n P e c body)) /\
  (forall e c body, good_env e -> stmts_ok body = true -> SpecE (exec_while n P e c body)) /\
  (forall e var rg body, good_env e -> name_ok var = true -> stmts_ok body = true ->
                         SpecE (exec_for n P e var rg body)).
Proof.
  induction n as [|n IH].
  - repeat apply conj; intros; simpl; first [apply SpecI_ro, ro_fail | apply Spec_fail].
  - destruct IH as (I1 & I2 & I3 & I4 & I5 & I6 & I7 & I8 & I9).
    repeat apply conj; intros.
    + apply step_expr; auto.
    + apply step_exprs; auto.
    + apply step_call; auto.
    + apply step_stmt; auto.
    + apply step_stmts; auto.
    + apply step_block; auto.
    + apply step_cond; auto.
    + apply step_while; auto.
    + apply step_for; auto.
Qed.

Definition exec_stmts_inv P HP n := proj1 (proj2 (proj2 (proj2 (proj2 (evaluator_store_inv P HP n))))).
Definition exec_block_inv P HP n := proj1 (proj2 (proj2 (proj2 (proj2 (proj2 (evaluator_store_inv P HP n)))))).

Lemma no_err_decl_funcs P : no_err_decl P = true -> forallb func_ok (p_funcs P) = true.
Proof. unfold no_err_decl. rewrite !andb_true_iff. tauto. Qed.
Lemma no_err_decl_stmts P : no_err_decl P = true -> stmts_ok (p_stmts P) = true.
Proof. unfold no_err_decl. rewrite !andb_true_iff. tauto. Qed.
Lemma no_err_decl_handlers P : no_err_decl P = true -> forallb handler_ok (p_handlers P) = true.
Proof. unfold no_err_decl. rewrite !andb_true_iff. tauto. Qed.

Lemma wf_init stop input ff ay : wf (init_state stop input ff ay).
Proof.
  unfold wf.
  change (st_heap (init_state stop input ff ay)) with
    (snd (halloc (snd (halloc (snd (halloc hempty (HBool false))) (HStr []))) (HNum (float_of_bits pi_bits)))).
  repeat apply fresh_ok_halloc. intros l _. apply PositiveMap.gempty.
Qed.

Lemma test_report_heap s : st_heap (test_report s) = st_heap s /\ st_globals (test_report s) = st_globals s.
Proof. unfold test_report. destruct (Nat.eqb _ _); simpl; auto. Qed.

(* Evaluator.Eval *)
Lemma run_program_inv fuel P s0 o s1 :
  no_err_decl P = true -> run_program fuel P s0 = (o, s1) -> Inv s0 s1.
Proof.
  intros OK H. unfold run_program in H.
  match type of H with (let '(r, s1) := ?m s0 in _) = _ => destruct (m s0) as [r s2] eqn:E end.
  assert (I1 : Inv s0 s2).
  { refine (Spec_SpecI (fun _ => True) _ _ _ _ _ E).
    eapply Spec_bind; [apply Spec_I, SpecI_tick | intros _ _].
    eapply Spec_bind; [|intros; apply Spec_ret; exact I].
    apply (exec_stmts_inv P (no_err_decl_funcs P OK)); [apply good_env_nil | apply no_err_decl_stmts; exact OK]. }
  eapply Inv_trans; [exact I1|].
  assert (st_heap s1 = st_heap s2 /\ st_globals s1 = st_globals s2) as [A B].
  { destruct r as [u|er].
    - destruct (Nat.ltb 0 _); inversion H; subst; apply test_report_heap.
    - inversion H; subst. destruct er; auto using test_report_heap. }
  apply Inv_same; auto.
Qed.

Lemma Spec_bind_payload ps : forall args fr,
  params_ok ps = true -> frame_ok fr -> Spec frame_ok (bind_payload ps args fr).
Proof.
  induction ps as [|[n t] ps IH]; intros args fr Hn F; simpl.
  - apply Spec_ret. exact F.
  - unfold params_ok in Hn. simpl in Hn. apply andb_true_iff in Hn. destruct Hn as [Hn1 Hn2].
    destruct args as [|a more]; [apply Spec_fail|].
    eapply Spec_bind; [apply Spec_I; destruct t, a; spi | intros l _].
    apply IH; auto. destruct (str_eqb n underscore); auto. apply frame_ok_set; auto.
Qed.

(* Evaluator.HandleEvent *)
Lemma handle_event_inv fuel P name args s0 o s1 :
  no_err_decl P = true -> handle_event fuel P name args s0 = (o, s1) -> Inv s0 s1.
Proof.
  intros OK H. unfold handle_event in H.
  destruct (find_handler name (p_handlers P)) as [h|] eqn:F; [|inversion H; subst; apply Inv_refl].
  pose proof (find_handler_ok _ _ _ (no_err_decl_handlers P OK) F) as HO.
  unfold handler_ok in HO. apply andb_true_iff in HO. destruct HO as [O1 O2].
  match type of H with (match ?m s0 with _ => _ end) = _ => destruct (m s0) as [r s2] eqn:E end.
  assert (s1 = s2) by (destruct r; inversion H; auto). subst s2. clear H.
  refine (Spec_SpecI (fun _ => True) _ _ _ _ _ E).
  eapply Spec_bind; [apply Spec_bind_payload; [exact O1 | apply frame_ok_nil] | intros fr F1].
  eapply Spec_bind; [|intros; apply Spec_ret; exact I].
  apply (exec_block_inv P (no_err_decl_funcs P OK)); [apply good_env_single; exact F1 | exact O2].
Qed.

(* A2: in every run and every event, a basic cell other than the two cells bound
   to err / errmsg keeps its content *)
Theorem in_place_only_err_run fuel P s0 o s1 :
  no_err_decl P = true -> wf s0 -> run_program fuel P s0 = (o, s1) ->
  wf s1 /\ basic_cells_stable s0 s1.
Proof.
  intros OK W H. destruct (run_program_inv _ _ _ _ _ OK H W) as [W1 R1]. split; [auto | apply R1].
Qed.

Theorem in_place_only_err_event fuel P name args s0 o s1 :
  no_err_decl P = true -> wf s0 -> handle_event fuel P name args s0 = (o, s1) ->
  wf s1 /\ basic_cells_stable s0 s1.
Proof.
  intros OK W H. destruct (handle_event_inv _ _ _ _ _ _ _ OK H W) as [W1 R1]. split; [auto | apply R1].
Qed.

Theorem in_place_only_err P n :
  forallb func_ok (p_funcs P) = true ->
  (forall e x s r s', good_env e -> wf s -> eval_expr n P e x s = (r, s') -> basic_cells_stable s s') /\
  (forall e l s r s', good_env e -> wf s -> eval_exprs n P e l s = (r, s') -> basic_cells_stable s s') /\
  (forall e nm args s r s', good_env e -> wf s -> eval_call n P e nm args s = (r, s') -> basic_cells_stable s s') /\
  (forall e st s r s', good_env e -> stmt_ok st = true -> wf s ->
                       exec_stmt n P e st s = (r, s') -> basic_cells_stable s s') /\
  (forall e l s r s', good_env e -> stmts_ok l = true -> wf s ->
                      exec_stmts n P e l s = (r, s') -> basic_cells_stable s s') /\
  (forall e l s r s', good_env e -> stmts_ok l = true -> wf s ->
                      exec_block n P e l s = (r, s') -> basic_cells_stable s s') /\
  (forall e c b s r s', good_env e -> stmts_ok b = true -> wf s ->
                        exec_cond n P e c b s = (r, s') -> basic_cells_stable s s') /\
  (forall e c b s r s', good_env e -> stmts_ok b = true -> wf s ->
                        exec_while n P e c b s = (r, s') -> basic_cells_stable s s') /\
  (forall e var rg b s r s', good_env e -> name_ok var = true -> stmts_ok b = true -> wf s ->
                             exec_for n P e var rg b s = (r, s') -> basic_cells_stable s s').
Proof.
  intro HP. destruct (evaluator_store_inv P HP n) as (I1 & I2 & I3 & I4 & I5 & I6 & I7 & I8 & I9).
  assert (St : forall A (m : M A) s r s', SpecI m -> wf s -> m s = (r, s') -> basic_cells_stable s s')
    by (intros A m s r s' H W E; apply (H _ _ _ E W)).
  repeat apply conj; intros; (eapply St; [|eassumption|eassumption]);
    first [ apply I1 | apply I2 | apply I3 | eapply Spec_SpecI, I4 | eapply Spec_SpecI, I5 | eapply Spec_SpecI, I6
          | eapply Spec_SpecI, I7 | eapply Spec_SpecI, I8 | eapply Spec_SpecI, I9 ]; assumption.
Qed.

Theorem basic_noninterference_partial P n e target x s r s' :
  forallb func_ok (p_funcs P) = true -> good_env e -> wf s ->
  exec_stmt n P e (SAssign target x) s = (r, s') ->
  forall l v, hget (st_heap s) l = Some v -> is_basic v = true -> ~ err_loc (st_globals s) l ->
              hget (st_heap s') l = Some v.
Proof.
  intros HP G W H. destruct (in_place_only_err P n HP) as (_ & _ & _ & I4 & _).
  exact (I4 e (SAssign target x) s r s' G eq_refl W H).
Qed.
