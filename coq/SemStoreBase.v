(* SemStoreBase.v — the store discipline of Sem.v (property C09): which operations allocate, which
   share, and which mutate in place.  Here: the relation R between the states of a run, the judgment
   Spec over computations with its rules for the elementary accesses, and copy_or_ref.
   A1  copy_or_ref: fresh cell for basic values, same cell for arrays/maps, fresh box (and,
       recursively, content) for any.
   A2  globalErr is the only in-place mutation of a basic cell (SemStore.v).
   A3  privacy of the err/errmsg cells (SemPrivacy.v).
   A4  indexing shares, slicing / + give fresh containers with copy_or_ref'd elements,
       * deep-copies (SemFresh.v). *)
From Coq Require Import ZArith NArith PArith List String Bool Floats FMapPositive Lia.
From EvyV Require Import Base Num Ast Omap Sem SemBasics SemPure.
Import ListNotations.
Local Open Scope positive_scope.

Definition is_basic (v : hval) : bool :=
  match v with HNum _ | HStr _ | HBool _ => true | _ => false end.
Definition is_composite (v : hval) : bool :=
  match v with HArr _ | HMap _ => true | _ => false end.

(* same constructor; any-boxes are immutable (same type tag and content) *)
Definition same_kind (v v' : hval) : Prop :=
  match v, v' with
  | HNum _, HNum _ | HStr _, HStr _ | HBool _, HBool _
  | HArr _, HArr _ | HMap _, HMap _ | HNone, HNone => True
  | HAny t i, HAny t' i' => t = t' /\ i = i'
  | _, _ => False
  end.

Lemma same_kind_refl v : same_kind v v.
Proof. destruct v; simpl; auto. Qed.
Lemma same_kind_sym a b : same_kind a b -> same_kind b a.
Proof. destruct a, b; simpl; try tauto. intros [-> ->]; auto. Qed.
Lemma same_kind_trans a b c : same_kind a b -> same_kind b c -> same_kind a c.
Proof. destruct a, b; simpl; try tauto; destruct c; simpl; try tauto. intros [-> ->] [-> ->]; auto. Qed.
Lemma same_kind_basic a b : same_kind a b -> is_basic a = is_basic b.
Proof. destruct a, b; simpl; tauto. Qed.
Lemma same_kind_composite a b : same_kind a b -> is_composite a = is_composite b.
Proof. destruct a, b; simpl; tauto. Qed.

Definition fresh_ok (h : heap) : Prop := forall l, hnext h <= l -> hget h l = None.
Definition wf (s : state) : Prop := fresh_ok (st_heap s).

Lemma wf_alloc_lt s l v : wf s -> hget (st_heap s) l = Some v -> l < hnext (st_heap s).
Proof.
  intros W H. destruct (Pos.ltb_spec l (hnext (st_heap s))); auto.
  rewrite (W l) in H by assumption. discriminate.
Qed.

(* the cells bound to err / errmsg in the global frame *)
Definition err_loc (g : frame) (l : loc) : Prop :=
  frame_get n_err g = Some l \/ frame_get n_errmsg g = Some l.

Definition heap_extends (h h' : heap) : Prop :=
  hnext h <= hnext h' /\ forall l v, hget h l = Some v -> hget h' l = Some v.

Lemma heap_extends_refl h : heap_extends h h.
Proof. exact (hextends_refl h). Qed.
Lemma heap_extends_trans a b c : heap_extends a b -> heap_extends b c -> heap_extends a c.
Proof. exact (hextends_trans a b c). Qed.

Definition basic_cells_stable (s s' : state) : Prop :=
  forall l v, hget (st_heap s) l = Some v -> is_basic v = true ->
              ~ err_loc (st_globals s) l -> hget (st_heap s') l = Some v.

(* the relation carried through the evaluator, a preorder; r_stable is the statement of A2 *)
Record R (s s' : state) : Prop := {
  r_next : hnext (st_heap s) <= hnext (st_heap s');
  r_kind : forall l v, hget (st_heap s) l = Some v ->
                       exists v', hget (st_heap s') l = Some v' /\ same_kind v v';
  r_stable : basic_cells_stable s s';
  r_err : forall l v, err_loc (st_globals s') l -> hget (st_heap s) l = Some v ->
                      is_basic v = true -> err_loc (st_globals s) l }.

Lemma R_refl s : R s s.
Proof.
  constructor; [lia | | red; auto | auto].
  intros l v H; exists v; split; [auto | apply same_kind_refl].
Qed.

Lemma R_trans a b c : R a b -> R b c -> R a c.
Proof.
  intros [A1 A2 A3 A4] [B1 B2 B3 B4]. constructor.
  - lia.
  - intros l v H. destruct (A2 _ _ H) as (v' & H' & K). destruct (B2 _ _ H') as (v'' & H'' & K').
    exists v''; split; [auto | eapply same_kind_trans; eauto].
  - intros l v H Hb Hn. apply B3; auto. intro E. apply Hn. eapply A4; eauto.
  - intros l v E H Hb. destruct (A2 _ _ H) as (v' & H' & K).
    eapply A4; eauto. eapply B4; eauto. rewrite <- (same_kind_basic _ _ K); auto.
Qed.

Definition Inv (s s' : state) : Prop := wf s -> wf s' /\ R s s'.

Lemma Inv_refl s : Inv s s.
Proof. intro W; split; [auto | apply R_refl]. Qed.
Lemma Inv_trans a b c : Inv a b -> Inv b c -> Inv a c.
Proof. intros H1 H2 W. destruct (H1 W) as [W1 R1]. destruct (H2 W1) as [W2 R2]. split; [auto | eapply R_trans; eauto]. Qed.

Lemma Inv_heap_same s s' :
  st_heap s' = st_heap s ->
  (forall l v, err_loc (st_globals s') l -> hget (st_heap s) l = Some v -> is_basic v = true ->
               err_loc (st_globals s) l) ->
  Inv s s'.
Proof.
  intros Hh He W. split; [red; rewrite Hh; exact W|].
  constructor; rewrite ?Hh.
  - lia.
  - intros l v H; exists v; split; [auto | apply same_kind_refl].
  - red; rewrite Hh; auto.
  - exact He.
Qed.

Lemma Inv_same s s' : st_heap s' = st_heap s -> st_globals s' = st_globals s -> Inv s s'.
Proof. intros Hh Hg. apply Inv_heap_same; auto. rewrite Hg; auto. Qed.

Lemma fresh_ok_halloc h v : fresh_ok h -> fresh_ok (snd (halloc h v)).
Proof. exact (hfresh_halloc h v). Qed.
Lemma heap_extends_halloc h v : fresh_ok h -> heap_extends h (snd (halloc h v)).
Proof. exact (hextends_halloc h v). Qed.
Lemma hget_halloc_old h v l x : fresh_ok h -> hget h l = Some x -> hget (snd (halloc h v)) l = Some x.
Proof. intro W. apply (heap_extends_halloc h v W). Qed.

Lemma Inv_extends s s' :
  heap_extends (st_heap s) (st_heap s') -> fresh_ok (st_heap s') -> st_globals s' = st_globals s -> Inv s s'.
Proof.
  intros [E1 E2] W' Hg W. split; [exact W'|]. constructor.
  - exact E1.
  - intros l v H; exists v; split; [auto | apply same_kind_refl].
  - red; auto.
  - rewrite Hg; auto.
Qed.

Lemma Inv_alloc s v : Inv s (upd_heap (snd (halloc (st_heap s) v)) s).
Proof.
  intro W. apply Inv_extends; simpl; auto.
  - apply heap_extends_halloc; exact W.
  - apply fresh_ok_halloc; exact W.
Qed.

Lemma hget_hset_same h l v : hget (hset h l v) l = Some v.
Proof. unfold hset, hget; simpl. apply PositiveMap.gss. Qed.
Lemma hget_hset_other h l v l' : l' <> l -> hget (hset h l v) l' = hget h l'.
Proof. intro N. unfold hset, hget; simpl. apply PositiveMap.gso; auto. Qed.

Lemma fresh_ok_hset h l v v0 : fresh_ok h -> hget h l = Some v0 -> fresh_ok (hset h l v).
Proof.
  intros W H l' Hl. rewrite hget_hset_other; [apply W; exact Hl|].
  intro E; subst. simpl in Hl. rewrite (W l) in H by exact Hl. discriminate.
Qed.

(* overwriting a cell by a value of the same kind: a non-basic cell (element store, SetKey, del)
   or a cell bound to err / errmsg (globalErr) *)
Lemma Inv_store s l v0 v :
  hget (st_heap s) l = Some v0 -> same_kind v0 v -> is_basic v0 = false \/ err_loc (st_globals s) l ->
  Inv s (upd_heap (hset (st_heap s) l v) s).
Proof.
  intros H K C W. split; [eapply fresh_ok_hset; eauto|]. constructor; simpl.
  - lia.
  - intros l' x Hx. destruct (Pos.eq_dec l' l) as [->|N].
    + rewrite hget_hset_same. exists v; split; auto. congruence.
    + rewrite hget_hset_other by auto. exists x; split; [auto | apply same_kind_refl].
  - intros l' x Hx Hbx Hn. simpl. destruct (Pos.eq_dec l' l) as [->|N].
    + destruct C; [congruence | contradiction].
    + rewrite hget_hset_other; auto.
  - auto.
Qed.
Lemma Inv_store_composite s l v0 v :
  hget (st_heap s) l = Some v0 -> is_basic v0 = false -> same_kind v0 v ->
  Inv s (upd_heap (hset (st_heap s) l v) s).
Proof. intros H Hb K. eapply Inv_store; eauto. Qed.

Lemma ret_inv {A} (a : A) s r s' : ret a s = (r, s') -> r = Ok a /\ s' = s.
Proof. unfold ret; intro H; inversion H; auto. Qed.
Lemma fail_inv {A} e s (r : res A) s' : fail e s = (r, s') -> r = Er e /\ s' = s.
Proof. unfold fail; intro H; inversion H; auto. Qed.
Lemma crash_inv {A} w s (r : res A) s' : crash w s = (r, s') -> r = Er (EHostCrash (s_ w)) /\ s' = s.
Proof. unfold crash; apply fail_inv. Qed.
Lemma depth_fuel_inv s r s' : depth_fuel s = (r, s') -> r = Ok value_depth /\ s' = s.
Proof. unfold depth_fuel; intro H; inversion H; auto. Qed.

Lemma load_inv l s r s' :
  load l s = (r, s') ->
  s' = s /\ ((exists v, r = Ok v /\ hget (st_heap s) l = Some v) \/
             (r = Er (EHostCrash (s_ "nil value")) /\ hget (st_heap s) l = None)).
Proof.
  unfold load. destruct (hget (st_heap s) l) eqn:E; intro H; inversion H; subst; split; eauto.
Qed.

Lemma alloc_inv v s r s' :
  alloc v s = (r, s') -> r = Ok (hnext (st_heap s)) /\ s' = upd_heap (snd (halloc (st_heap s) v)) s.
Proof. rewrite alloc_run. intro H; inversion H; auto. Qed.

Lemma store_inv l v s r s' :
  store l v s = (r, s') -> r = Ok tt /\ s' = upd_heap (hset (st_heap s) l v) s.
Proof. unfold store; intro H; inversion H; auto. Qed.

Definition readonly {A} (m : M A) : Prop := forall s r s', m s = (r, s') -> s' = s.

Lemma ro_ret {A} (a : A) : readonly (ret a).
Proof. intros s r s' H; apply ret_inv in H; tauto. Qed.
Lemma ro_fail {A} e : readonly (@fail A e).
Proof. intros s r s' H; apply fail_inv in H; tauto. Qed.
Lemma ro_crash {A} w : readonly (@crash A w).
Proof. apply ro_fail. Qed.
Lemma ro_load l : readonly (load l).
Proof. intros s r s' H; apply load_inv in H; tauto. Qed.
Lemma ro_depth : readonly depth_fuel.
Proof. intros s r s' H; apply depth_fuel_inv in H; tauto. Qed.
Lemma ro_lift {A} (x : res A) : readonly (lift x).
Proof. intros s r s' H. unfold lift in H. inversion H; auto. Qed.
Lemma ro_bind {A B} (m : M A) (f : A -> M B) : readonly m -> (forall a, readonly (f a)) -> readonly (bindM m f).
Proof.
  intros Hm Hf s r s' H. apply bind_inv in H. destruct H as [(a & s1 & H1 & H) | (e & H1 & ->)].
  - apply Hm in H1; subst. eapply Hf; eauto.
  - eapply Hm; eauto.
Qed.
Lemma ro_mapM {A B} (f : A -> M B) l : (forall a, readonly (f a)) -> readonly (mapM f l).
Proof.
  intro Hf. induction l as [|x t IH]; simpl; [apply ro_ret|].
  apply ro_bind; auto. intro. apply ro_bind; auto. intro; apply ro_ret.
Qed.
Lemma ro_load_num l : readonly (load_num l).
Proof. apply ro_bind; [apply ro_load | intros []; first [apply ro_ret | apply ro_crash]]. Qed.
Lemma ro_load_str l : readonly (load_str l).
Proof. apply ro_bind; [apply ro_load | intros []; first [apply ro_ret | apply ro_crash]]. Qed.
Lemma ro_load_bool l : readonly (load_bool l).
Proof. apply ro_bind; [apply ro_load | intros []; first [apply ro_ret | apply ro_crash]]. Qed.
Lemma ro_lookup n e : readonly (lookup n e).
Proof.
  intros s r s' H. unfold lookup in H. destruct (str_eqb n underscore); [inversion H; auto|].
  destruct (env_get n e); inversion H; auto.
Qed.

(* along the syntax of the term: bind and case analysis first, so that the lemmas about the
   primitives are only tried at the leaves *)
Ltac ro :=
  repeat first
    [ match goal with
      | |- readonly (bindM _ _) => apply ro_bind; [|intro]
      | |- readonly (match ?x with _ => _ end) => destruct x
      | |- readonly (if ?x then _ else _) => destruct x
      end
    | apply ro_ret | apply ro_fail | apply ro_crash | apply ro_load | apply ro_depth | apply ro_lift
    | apply ro_load_num | apply ro_load_str | apply ro_load_bool | apply ro_lookup
    | apply ro_mapM; intro
    | assumption ].

Lemma ro_show fuel : forall repr l, readonly (show fuel repr l).
Proof.
  induction fuel as [|f IH]; intros repr l; simpl; [apply ro_crash|].
  ro; try apply IH.
Qed.

Lemma ro_equals fuel : forall a b, readonly (equals fuel a b).
Proof.
  induction fuel as [|f IH]; intros a b; simpl; [apply ro_crash|].
  apply ro_bind; [apply ro_load | intro va]. apply ro_bind; [apply ro_load | intro vb].
  destruct va, vb; ro; try apply IH.
  - revert els0. induction els as [|x xt IHx]; intros [|y yt]; ro.
    + apply IH.
    + apply IHx.
  - induction (pairs m) as [|[k i] t IHt]; ro. apply IH.
Qed.

Lemma ro_same fuel : forall a b, readonly (same fuel a b).
Proof.
  induction fuel as [|f IH]; intros a b; simpl; [apply ro_crash|].
  apply ro_bind; [apply ro_load | intro g]. apply ro_bind; [apply ro_load | intro w].
  destruct g; ro; try apply IH.
  - revert els. induction els0 as [|x xt IHx]; intros [|y yt]; ro.
    + apply IH.
    + apply IHx.
  - induction (pairs m0) as [|[k i] t IHt]; ro. apply IH.
Qed.

Lemma ro_show_str l : readonly (show_str l).
Proof. unfold show_str. ro. apply ro_show. Qed.
Lemma ro_join_args args sep : readonly (join_args args sep).
Proof. unfold join_args. ro. apply ro_show. Qed.
Lemma ro_unwrap_any l : readonly (unwrap_any l).
Proof. unfold unwrap_any. ro. Qed.
Lemma ro_slice_bounds lo hi len : readonly (slice_bounds lo hi len).
Proof. unfold slice_bounds. ro. Qed.

Definition SpecI {A} (m : M A) : Prop := forall s r s', m s = (r, s') -> Inv s s'.

Lemma SpecI_ro {A} (m : M A) : readonly m -> SpecI m.
Proof. intros H s r s' E. apply H in E; subst. apply Inv_refl. Qed.
Lemma SpecI_bind {A B} (m : M A) (f : A -> M B) : SpecI m -> (forall a, SpecI (f a)) -> SpecI (bindM m f).
Proof.
  intros Hm Hf s r s' H. apply bind_inv in H. destruct H as [(a & s1 & H1 & H) | (e & H1 & ->)].
  - eapply Inv_trans; [eapply Hm | eapply Hf]; eauto.
  - eapply Hm; eauto.
Qed.
Lemma SpecI_alloc v : SpecI (alloc v).
Proof. intros s r s' H. apply alloc_inv in H. destruct H as [_ ->]. apply Inv_alloc. Qed.
Lemma SpecI_emitE ev : SpecI (emitE ev).
Proof. intros s r s' H. unfold emitE in H. inversion H. apply Inv_same; reflexivity. Qed.
Lemma SpecI_tick : SpecI tick.
Proof.
  intros s r s' H. unfold tick in H. destruct (st_stopped s); [inversion H; apply Inv_refl|].
  destruct (_ && _); inversion H; apply Inv_same; reflexivity.
Qed.
Lemma SpecI_mapM {A B} (f : A -> M B) l : (forall a, SpecI (f a)) -> SpecI (mapM f l).
Proof.
  intro Hf. induction l as [|x t IH]; simpl; [apply SpecI_ro, ro_ret|].
  apply SpecI_bind; auto. intro. apply SpecI_bind; auto. intro; apply SpecI_ro, ro_ret.
Qed.
Lemma SpecI_none_val : SpecI none_val.
Proof. unfold none_val. apply SpecI_bind; [apply SpecI_alloc | intro; apply SpecI_ro, ro_ret]. Qed.

Ltac spi1 :=
  first
    [ match goal with
      | |- SpecI (bindM _ _) => apply SpecI_bind; [|intro]
      | |- SpecI (match ?x with _ => _ end) => destruct x
      | |- SpecI (if ?x then _ else _) => destruct x
      end
    | apply SpecI_alloc | apply SpecI_emitE | apply SpecI_tick | apply SpecI_none_val
    | assumption
    | apply SpecI_mapM; intro
    | apply SpecI_ro; solve [ro | apply ro_show_str | apply ro_join_args | apply ro_unwrap_any
                             | apply ro_equals | apply ro_same | apply ro_slice_bounds | apply ro_show ] ].
Ltac spi := repeat spi1.

Lemma SpecI_copy_or_ref fuel : forall l, SpecI (copy_or_ref fuel l).
Proof. induction fuel as [|f IH]; intro l; simpl; spi. apply IH. Qed.

Lemma SpecI_deep_copy fuel : forall l, SpecI (deep_copy fuel l).
Proof. induction fuel as [|f IH]; intro l; simpl; spi; apply IH. Qed.

Lemma SpecI_zero_val t : SpecI (zero_val t).
Proof. destruct t; simpl; spi. Qed.
Lemma SpecI_bin_num op x y : SpecI (bin_num op x y).
Proof. destruct op; simpl; spi. Qed.
Lemma SpecI_bin_str op x y : SpecI (bin_str op x y).
Proof. destruct op; simpl; spi. Qed.
Lemma SpecI_bin_bool op x y : SpecI (bin_bool op x y).
Proof. destruct op; simpl; spi. Qed.
Lemma SpecI_bin_arr op xs r : SpecI (bin_arr op xs r).
Proof.
  destruct op; simpl; spi; try apply SpecI_copy_or_ref; try apply SpecI_deep_copy.
Qed.

#[export] Hint Resolve SpecI_copy_or_ref SpecI_deep_copy SpecI_zero_val SpecI_bin_num SpecI_bin_str
  SpecI_bin_bool SpecI_bin_arr : speci.

(* every run of m is an Inv step and a successful result satisfies Q; SpecI is the case Q = True *)
Definition Spec {A} (Q : A -> Prop) (m : M A) : Prop :=
  forall s r s', m s = (r, s') -> Inv s s' /\ forall a, r = Ok a -> Q a.

Lemma Spec_I {A} (m : M A) : SpecI m -> Spec (fun _ => True) m.
Proof. intros H s r s' E. split; [eapply H; eauto | auto]. Qed.
Lemma Spec_SpecI {A} (Q : A -> Prop) m : Spec Q m -> SpecI m.
Proof. intros H s r s' E. apply (H _ _ _ E). Qed.
Lemma Spec_ret {A} (Q : A -> Prop) a : Q a -> Spec Q (ret a).
Proof. intros H s r s' E. apply ret_inv in E. destruct E as [-> ->]. split; [apply Inv_refl | intros ? [= <-]; exact H]. Qed.
Lemma Spec_fail {A} (Q : A -> Prop) e : Spec Q (fail e).
Proof. intros s r s' E. apply fail_inv in E. destruct E as [-> ->]. split; [apply Inv_refl | discriminate]. Qed.
Lemma Spec_bind {A B} (Q : A -> Prop) (Q' : B -> Prop) (m : M A) (k : A -> M B) :
  Spec Q m -> (forall a, Q a -> Spec Q' (k a)) -> Spec Q' (bindM m k).
Proof.
  intros Hm Hk s r s' H. apply bind_inv in H. destruct H as [(a & s1 & H1 & H) | (e & H1 & ->)];
    destruct (Hm _ _ _ H1) as [I1 Q1]; [|split; [exact I1 | discriminate]].
  destruct (Hk a (Q1 _ eq_refl) _ _ _ H) as [I2 Q2]. split; [eapply Inv_trans; eauto | exact Q2].
Qed.
Lemma Spec_ext {A} (Q : A -> Prop) (m m' : M A) : (forall s, m s = m' s) -> Spec Q m -> Spec Q m'.
Proof. intros E H s r s' H'. rewrite <- E in H'. eauto. Qed.

(* the same from a state in which cell l holds v0: what a store into l needs to know *)
Definition SpecAt (l : loc) (v0 : hval) {A} (Q : A -> Prop) (m : M A) : Prop :=
  forall s r s', hget (st_heap s) l = Some v0 -> m s = (r, s') -> Inv s s' /\ forall a, r = Ok a -> Q a.

Lemma Spec_load {A} (Q : A -> Prop) l (k : hval -> M A) :
  (forall v0, SpecAt l v0 Q (k v0)) -> Spec Q (bindM (load l) k).
Proof.
  intros Hk s r s' H. apply bind_inv in H. destruct H as [(v & s1 & H1 & H) | (e & H1 & ->)];
    apply load_inv in H1; destruct H1 as [-> H1]; [|split; [apply Inv_refl | discriminate]].
  destruct H1 as [(v' & [= <-] & Hg) | [[=] _]]. eapply Hk; eauto.
Qed.
Lemma SpecAt_any {A} (Q : A -> Prop) l v0 m : Spec Q m -> SpecAt l v0 Q m.
Proof. intros H s r s' _. apply H. Qed.
Lemma SpecAt_read {A B} (Q : B -> Prop) l v0 (m : M A) (k : A -> M B) :
  readonly m -> (forall a, SpecAt l v0 Q (k a)) -> SpecAt l v0 Q (bindM m k).
Proof.
  intros Hm Hk s r s' Hg H. apply bind_inv in H. destruct H as [(a & s1 & H1 & H) | (e & H1 & ->)];
    apply Hm in H1; subst; [eapply Hk; eauto | split; [apply Inv_refl | discriminate]].
Qed.
Lemma SpecAt_store l v0 v : is_basic v0 = false -> same_kind v0 v -> SpecAt l v0 (fun _ => True) (store l v).
Proof.
  intros Hb K s r s' Hg H. apply store_inv in H. destruct H as [_ ->]. split; [|auto].
  eapply Inv_store_composite; eauto.
Qed.
Lemma SpecAt_bind {A B} (Q : A -> Prop) (Q' : B -> Prop) l v0 (m : M A) (k : A -> M B) :
  SpecAt l v0 Q m -> (forall a, Q a -> Spec Q' (k a)) -> SpecAt l v0 Q' (bindM m k).
Proof.
  intros Hm Hk s r s' Hg H. apply bind_inv in H. destruct H as [(a & s1 & H1 & H) | (e & H1 & ->)];
    destruct (Hm _ _ _ Hg H1) as [I1 Q1]; [|split; [exact I1 | discriminate]].
  destruct (Hk a (Q1 _ eq_refl) _ _ _ H) as [I2 Q2]. split; [eapply Inv_trans; eauto | exact Q2].
Qed.

(* no local frame binds err / errmsg: globalErr then reaches the global cells *)
Definition good_env (e : env) : Prop := env_get n_err e = None /\ env_get n_errmsg e = None.

Lemma lookup_err_good e s r s' :
  good_env e -> lookup n_err e s = (r, s') -> s' = s /\ r = Ok (frame_get n_err (st_globals s)).
Proof.
  intros [G _]. unfold lookup. rewrite n_err_not_underscore, G. intro H; inversion H; auto.
Qed.
Lemma lookup_errmsg_good e s r s' :
  good_env e -> lookup n_errmsg e s = (r, s') -> s' = s /\ r = Ok (frame_get n_errmsg (st_globals s)).
Proof.
  intros [_ G]. unfold lookup. rewrite n_errmsg_not_underscore, G. intro H; inversion H; auto.
Qed.

(* globalErr: the only in-place mutation of basic cells, and only of the err cells *)
Lemma store_err_fwd l v s r s' v0 :
  store l v s = (r, s') -> hget (st_heap s) l = Some v0 -> same_kind v0 v -> err_loc (st_globals s) l ->
  Inv s s' /\ st_globals s' = st_globals s.
Proof.
  intros H Hg K E. apply store_inv in H. destruct H as [_ ->]. split; [|reflexivity].
  eapply Inv_store; eauto.
Qed.

Lemma SpecI_global_err e is_err msg : good_env e -> SpecI (global_err e is_err msg).
Proof.
  intros G s r s' H. unfold global_err in H.
  apply bind_inv in H. destruct H as [(a & s1 & H1 & H) | (x & H1 & ->)];
    apply (lookup_err_good _ _ _ _ G) in H1; destruct H1 as [-> H1]; [|discriminate].
  inversion H1; subst; clear H1.
  destruct (frame_get n_err (st_globals s)) as [l|] eqn:El; [|exact (SpecI_ro _ (ro_crash _) _ _ _ H)].
  apply bind_inv in H. destruct H as [(v & s1 & H1 & H) | (x & H1 & ->)];
    apply load_inv in H1; destruct H1 as [-> H1]; [|apply Inv_refl].
  destruct H1 as [(v' & Hv & Hg) | [? _]]; [|discriminate]. inversion Hv; subst v'; clear Hv.
  destruct v; try exact (SpecI_ro _ (ro_crash _) _ _ _ H).
  apply bind_inv in H. destruct H as [(u & s1 & H1 & H) | (x & H1 & ->)];
    (eapply store_err_fwd in H1; [|eassumption|exact I|left; exact El]); destruct H1 as [I1 G1];
    [|exact I1].
  eapply Inv_trans; [exact I1|]. clear I1.
  apply bind_inv in H. destruct H as [(a & s2 & H1 & H) | (x & H1 & ->)];
    apply (lookup_errmsg_good _ _ _ _ G) in H1; destruct H1 as [-> H1]; [|discriminate].
  inversion H1; subst; clear H1. rewrite G1 in H.
  destruct (frame_get n_errmsg (st_globals s)) as [l2|] eqn:El2; [|exact (SpecI_ro _ (ro_crash _) _ _ _ H)].
  apply bind_inv in H. destruct H as [(v & s2 & H1 & H) | (x & H1 & ->)];
    apply load_inv in H1; destruct H1 as [-> H1]; [|apply Inv_refl].
  destruct H1 as [(v' & Hv & Hg') | [? _]]; [|discriminate]. inversion Hv; subst v'; clear Hv.
  destruct v; try exact (SpecI_ro _ (ro_crash _) _ _ _ H).
  destruct (pieces_str msg); [|exact (SpecI_ro _ (ro_fail _) _ _ _ H)].
  eapply store_err_fwd in H; [|eassumption|exact I|right; rewrite G1; exact El2]. tauto.
Qed.

Definition name_ok (n : str) : bool := negb (str_eqb n n_err) && negb (str_eqb n n_errmsg).
Lemma name_ok_neq n : name_ok n = true -> n <> n_err /\ n <> n_errmsg.
Proof.
  unfold name_ok. rewrite andb_true_iff, !negb_true_iff, !str_eqb_neq. auto.
Qed.
Lemma name_ok_false n : name_ok n = false -> n = n_err \/ n = n_errmsg.
Proof.
  unfold name_ok. destruct (str_eqb n n_err) eqn:E1; [left; apply str_eqb_eq; exact E1|].
  destruct (str_eqb n n_errmsg) eqn:E2; [right; apply str_eqb_eq; exact E2 | discriminate].
Qed.
Lemma name_ok_underscore : name_ok underscore = true. Proof. reflexivity. Qed.

Definition frame_ok (f : frame) : Prop := frame_get n_err f = None /\ frame_get n_errmsg f = None.

Lemma good_env_nil : good_env []. Proof. split; reflexivity. Qed.
Lemma good_env_cons f e : good_env (f :: e) <-> frame_ok f /\ good_env e.
Proof.
  unfold good_env, frame_ok; simpl.
  destruct (frame_get n_err f), (frame_get n_errmsg f); intuition discriminate.
Qed.
Lemma good_env_push e : good_env e -> good_env ([] :: e).
Proof. intro G. apply good_env_cons; split; [split; reflexivity | exact G]. Qed.
Lemma good_env_tl e : good_env e -> good_env (tl e).
Proof. destruct e; simpl; auto. intro G; apply good_env_cons in G; tauto. Qed.
Lemma good_env_single f : frame_ok f -> good_env [f].
Proof. intro F. apply good_env_cons; split; [exact F | apply good_env_nil]. Qed.
Lemma frame_ok_set n l f : name_ok n = true -> frame_ok f -> frame_ok (frame_set n l f).
Proof.
  intros N [F1 F2]. apply name_ok_neq in N. destruct N as [N1 N2].
  split; rewrite frame_get_set_other by congruence; auto.
Qed.
Lemma frame_ok_nil : frame_ok []. Proof. split; reflexivity. Qed.
#[export] Hint Resolve good_env_nil good_env_push good_env_tl good_env_single frame_ok_set frame_ok_nil : genv.

Lemma env_update_none n l e : env_get n e = None -> env_update n l e = None.
Proof.
  induction e as [|f t IH]; simpl; auto. destruct (frame_get n f); [discriminate|].
  intro H; rewrite IH; auto.
Qed.
Lemma env_get_update_other n n' l e e' : n' <> n -> env_update n l e = Some e' -> env_get n' e' = env_get n' e.
Proof.
  intro N. revert e'. induction e as [|f t IH]; simpl; [discriminate|]. intro e'.
  destruct (frame_get n f).
  - intro H; inversion H; subst; simpl. rewrite frame_get_replace_other; auto.
  - destruct (env_update n l t) as [e0|]; simpl; [|discriminate]. intro H; inversion H; subst; simpl.
    rewrite (IH e0); auto.
Qed.

Lemma err_loc_set_other n l g x : name_ok n = true -> err_loc (frame_set n l g) x <-> err_loc g x.
Proof.
  intro N. apply name_ok_neq in N. destruct N. unfold err_loc. rewrite !frame_get_set_other by congruence; tauto.
Qed.
Lemma err_loc_replace_other n l g x : name_ok n = true -> err_loc (frame_replace n l g) x <-> err_loc g x.
Proof.
  intro N. apply name_ok_neq in N. destruct N. unfold err_loc. rewrite !frame_get_replace_other by congruence; tauto.
Qed.

(* a rebinding moves an err binding, if any, to the new cell *)
Lemma err_loc_replace n v g x : frame_get n g <> None -> err_loc (frame_replace n v g) x -> x = v \/ err_loc g x.
Proof.
  intros F [E|E]; [destruct (str_eq_dec n n_err) as [->|N] | destruct (str_eq_dec n n_errmsg) as [->|N]].
  - rewrite frame_get_replace_same in E by exact F. inversion E; auto.
  - rewrite frame_get_replace_other in E by congruence. right; left; exact E.
  - rewrite frame_get_replace_same in E by exact F. inversion E; auto.
  - rewrite frame_get_replace_other in E by congruence. right; right; exact E.
Qed.

(* scope.set for a name other than err / errmsg *)
Lemma Spec_set_var n l e : name_ok n = true -> good_env e -> Spec good_env (set_var n l e).
Proof.
  unfold set_var. intros N G s r s' H. destruct (str_eqb n underscore).
  { inversion H; subst. split; [apply Inv_refl | intros ? E; inversion E; subst; auto]. }
  destruct e as [|f t]; inversion H; subst; clear H.
  - split; [|intros ? E; inversion E; subst; auto].
    apply Inv_heap_same; simpl; auto. intros x v E _ _. apply err_loc_set_other in E; auto.
  - split; [apply Inv_refl | intros ? E; inversion E; subst].
    apply good_env_cons in G. apply good_env_cons. split; [apply frame_ok_set|]; tauto.
Qed.

(* scope.update for a name other than err / errmsg (loop variables) *)
Lemma Spec_update_var n l e : name_ok n = true -> good_env e -> Spec good_env (update_var n l e).
Proof.
  unfold update_var. intros N G s r s' H. destruct (str_eqb n underscore).
  { inversion H; subst. split; [apply Inv_refl | intros ? E; inversion E; subst; auto]. }
  destruct (env_update n l e) as [e1|] eqn:U.
  { inversion H; subst; clear H. split; [apply Inv_refl | intros ? E; inversion E; subst].
    pose proof (name_ok_neq _ N) as [N1 N2]. destruct G as [G1 G2]. split.
    - rewrite (env_get_update_other n n_err l e); auto.
    - rewrite (env_get_update_other n n_errmsg l e); auto. }
  destruct (frame_get n (st_globals s)); inversion H; subst; clear H.
  - split; [|intros ? E; inversion E; subst; auto].
    apply Inv_heap_same; simpl; auto. intros x v E _ _. apply err_loc_replace_other in E; auto.
  - split; [apply Inv_refl | discriminate].
Qed.

Definition only_extends (s s' : state) : Prop :=
  heap_extends (st_heap s) (st_heap s') /\ wf s' /\ s' = upd_heap (st_heap s') s.

Lemma only_extends_refl s : wf s -> only_extends s s.
Proof. intro W. split; [apply heap_extends_refl|split; [auto|destruct s; reflexivity]]. Qed.
Lemma only_extends_trans a b c : only_extends a b -> only_extends b c -> only_extends a c.
Proof.
  intros (A1 & A2 & A3) (B1 & B2 & B3). split; [eapply heap_extends_trans; eauto|split; auto].
  rewrite B3 at 1. rewrite A3. reflexivity.
Qed.
Lemma only_extends_ho {A} (m : M A) s r s' : heap_only m -> wf s -> m s = (r, s') -> only_extends s s'.
Proof.
  intros HO W H. destruct (heap_only_run m s r s' HO H) as (E & X & _). destruct (X W) as [W' X'].
  split; [exact X' | split; [exact W' | exact E]].
Qed.

(* how the result c of copy_or_ref relates to its argument l: [N] is hnext of the heap
   before the call (cells >= N did not exist), [h'] the heap after it (which extends the
   heap before: every old cell is unchanged) *)
Inductive copy_rel (N : positive) (h' : heap) : loc -> loc -> Prop :=
| cr_basic l c v : hget h' l = Some v -> is_basic v = true ->
                   N <= c -> hget h' c = Some v -> copy_rel N h' l c
| cr_comp l v : hget h' l = Some v -> is_composite v = true -> copy_rel N h' l l
| cr_any l c t i i' : hget h' l = Some (HAny t i) ->
                      N <= c -> hget h' c = Some (HAny t i') -> c <> i' ->
                      copy_rel N h' i i' -> copy_rel N h' l c.

Lemma copy_rel_mono N N' h1 h2 l c :
  N' <= N -> heap_extends h1 h2 -> copy_rel N h1 l c -> copy_rel N' h2 l c.
Proof.
  intros LN [_ E] C. induction C.
  - eapply cr_basic; eauto. lia.
  - eapply cr_comp; eauto.
  - eapply cr_any; eauto. lia.
Qed.

Lemma copy_or_ref_spec fuel : forall l s r s',
  copy_or_ref fuel l s = (r, s') -> wf s ->
  only_extends s s' /\
  forall c, r = Ok c -> copy_rel (hnext (st_heap s)) (st_heap s') l c /\ c < hnext (st_heap s').
Proof.
  induction fuel as [|f IH]; intros l s r s' H W;
    (split; [exact (only_extends_ho _ _ _ _ (ho_copy_or_ref _ l) W H)|]); simpl in H.
  { apply fail_inv in H; destruct H as [-> _]. discriminate. }
  apply bind_inv in H. destruct H as [(v & s1 & H1 & H) | (e & H1 & ->)];
    apply load_inv in H1; destruct H1 as [-> H1]; [|discriminate].
  destruct H1 as [(v' & Hv & Hg) | [? _]]; [|discriminate]. inversion Hv; subst v'; clear Hv.
  destruct v.
  1-3: apply alloc_inv in H; destruct H as [-> ->]; intros c E; inversion E; subst; clear E; split;
       [eapply cr_basic; [apply hget_halloc_old; eauto | reflexivity | lia | apply hget_halloc_new]
       | simpl; lia].
  2-3: apply ret_inv in H; destruct H as [-> ->]; intros c E; inversion E; subst;
       (split; [eapply cr_comp; eauto | eapply wf_alloc_lt; eauto]).
  - apply bind_inv in H. destruct H as [(i' & s1 & H1 & H) | (e & H1 & ->)]; [|discriminate].
    destruct (IH _ _ _ _ H1 W) as [(E1 & W1 & _) X2]. destruct (X2 _ eq_refl) as [C L].
    apply alloc_inv in H; destruct H as [-> ->].
    intros c E; inversion E; subst; clear E. split; [|simpl; lia].
    eapply cr_any.
    + apply hget_halloc_old; [exact W1|]. apply E1. exact Hg.
    + destruct E1; lia.
    + apply hget_halloc_new.
    + lia.
    + eapply copy_rel_mono; [|apply heap_extends_halloc; exact W1 | exact C]. lia.
  - apply crash_inv in H; destruct H as [-> _]. discriminate.
Qed.

Lemma copy_rel_fresh_or_same h h' l c :
  fresh_ok h -> copy_rel (hnext h) h' l c ->
  hget h c = None \/ (c = l /\ exists v, hget h' l = Some v /\ is_composite v = true).
Proof. intros W C. destruct C; [left; apply W; auto | right; eauto | left; apply W; auto]. Qed.

Lemma copy_not_old_basic d l s v s' w :
  wf s -> copy_or_ref d l s = (Ok v, s') -> hget (st_heap s) v = Some w -> is_basic w = false.
Proof.
  intros W C Hv. destruct (copy_or_ref_spec _ _ _ _ _ C W) as [((_ & OE) & _) X].
  destruct (X _ eq_refl) as [CR _]. apply copy_rel_fresh_or_same in CR; [|exact W].
  destruct CR as [CR | [-> (w' & Hw & Hc)]]; [congruence|].
  apply OE in Hv. rewrite Hw in Hv. inversion Hv; subst w'. destruct w; try discriminate; reflexivity.
Qed.

(* val = copyOrRef(val); scope.update(name, val) — for EVERY name, err and errmsg included:
   the copy is what keeps the new err cell from being an old basic cell *)
Lemma Spec_assign_var d l n e : good_env e -> Spec good_env (let* v := copy_or_ref d l in update_var n v e).
Proof.
  intros G s1 r s3 H. apply bind_inv in H. destruct H as [(v & s2 & C & U) | (x & C & ->)];
    [|split; [eapply SpecI_copy_or_ref; eauto | discriminate]].
  destruct (name_ok n) eqn:N.
  { eapply (Spec_bind _ _ _ (fun v => update_var n v e));
      [apply Spec_I, SpecI_copy_or_ref | intros; apply Spec_update_var; auto |].
    unfold bindM. rewrite C. exact U. }
  (* err = e / errmsg = e: the global binding moves to the copy *)
  pose proof (SpecI_copy_or_ref _ _ _ _ _ C) as I1.
  unfold update_var in U. destruct (str_eqb n underscore).
  { inversion U; subst. split; [auto | intros ? E; inversion E; subst; auto]. }
  rewrite env_update_none in U by (destruct (name_ok_false _ N) as [-> | ->]; apply G).
  destruct (frame_get n (st_globals s2)) eqn:Fg; inversion U; subst; clear U;
    [|split; [auto | discriminate]].
  split; [|intros ? E; inversion E; subst; auto].
  intro W. destruct (I1 W) as [W2 [A1 A2 A3 A4]]. split; [exact W2|]. constructor; simpl; auto.
  intros x w E Hx Hb. apply (A4 x w); auto.
  assert (F : frame_get n (st_globals s2) <> None) by congruence.
  destruct (err_loc_replace _ _ _ _ F E) as [-> | E']; [|exact E'].
  rewrite (copy_not_old_basic _ _ _ _ _ _ W C Hx) in Hb. discriminate.
Qed.

(* the body of `del` *)
Lemma SpecI_del_body m k :
  SpecI (let* mv := load m in let* ks := load_str k in
         match mv with
         | HMap om => let* _ := store m (HMap (odel ks om)) in none_val
         | _ => crash "del: not a *mapVal"
         end).
Proof.
  eapply Spec_SpecI, Spec_load. intro v0. apply SpecAt_read; [apply ro_load_str | intro ks].
  destruct v0; try apply SpecAt_any, Spec_fail.
  eapply SpecAt_bind; [apply SpecAt_store; [reflexivity | exact I] | intros; apply Spec_I, SpecI_none_val].
Qed.

Lemma SpecI_map_set_key m k v : SpecI (map_set_key m k v).
Proof.
  eapply Spec_SpecI, Spec_load. intro v0. destruct v0; try apply SpecAt_any, Spec_fail.
  apply SpecAt_store; [reflexivity | exact I].
Qed.

Lemma SpecI_alloc_some v : SpecI (let* l := alloc v in ret (Some l)).
Proof. spi. Qed.

(* the action of `read` *)
Definition read_body : M (option loc) :=
  fun s => match st_input s with
           | [] => (let* l := alloc (HStr []) in ret (Some l)) (upd_trace (EvRead :: st_trace s) s)
           | x :: t => (let* l := alloc (HStr x) in ret (Some l)) (upd_input t (upd_trace (EvRead :: st_trace s) s))
           end.

Lemma SpecI_read_body : SpecI read_body.
Proof.
  intros s r s' H. unfold read_body in H. destruct (st_input s);
    (eapply Inv_trans; [|eapply SpecI_alloc_some; exact H]); apply Inv_same; reflexivity.
Qed.

Ltac spi_b G :=
  repeat first
    [ match goal with
      | |- SpecI (bindM (load _) _) => apply SpecI_del_body
      | |- SpecI (fun _ => _) => apply SpecI_read_body
      | |- SpecI (global_err _ _ _) => apply SpecI_global_err; exact G
      end
    | spi1 ].

(* a computation that factors through the heap and only extends it (SemPure: every pure
   built-in) changes no existing cell at all *)
Lemma SpecI_heap_only {A} (m : M A) : heap_only m -> SpecI m.
Proof.
  intros HO s r s' H W. destruct (heap_only_run m s r s' HO H) as (E & X & _).
  destruct (X W) as [W' [X1 X2]]. apply (Inv_extends s s'); auto.
  - split; assumption.
  - rewrite E. reflexivity.
Qed.

Lemma SpecI_builtin name e args m :
  good_env e -> builtin name e args = Some m -> SpecI m.
Proof.
  intro G. apply when_some_eq. unfold builtin.
  rows ltac:(spi_b G).
  exact (when_some_impl _ _ _ (@SpecI_heap_only _) (pure_builtin_heap_only name args)).
Qed.

(* run_test in named parts: the argument check and the verdict only read; the counters are bumped
   whatever they answer, errors included *)
Definition rt_validate (args : list loc) : M unit :=
  match args with
  | [] => fail (EPanic PkBadArguments)
  | [a] => let* v := unwrap_any a in match v with HBool _ => ret tt | _ => fail (EPanic PkBadArguments) end
  | _ :: _ :: rest =>
      match rest with
      | m :: _ => let* v := unwrap_any m in match v with HStr _ => ret tt | _ => fail (EPanic PkBadArguments) end
      | [] => ret tt
      end
  end.
Definition rt_verdict (d : nat) (args : list loc) : M bool :=
  match args with
  | [a] => let* v := unwrap_any a in match v with HBool b => ret b | _ => crash "test: not a bool" end
  | w :: g :: _ => same d w g
  | [] => ret true
  end.
Definition rt_bump (failed : bool) (s : state) : state :=
  upd_tests (S (st_total s)) (if failed then S (st_fails s) else st_fails s) s.
Definition rt_body (d : nat) (args : list loc) : M unit :=
  fun s0 =>
    match rt_validate args s0 with
    | (Er e, s1) => (Er e, rt_bump false s1)
    | (Ok _, s1) =>
        match rt_verdict d args s1 with
        | (Er e, s2) => (Er e, rt_bump false s2)
        | (Ok true, s2) => (Ok tt, rt_bump false s2)
        | (Ok false, s2) =>
            let s3 := rt_bump true s2 in
            if st_failfast s3 then (Er ETestFail, s3) else (Ok tt, s3)
        end
    end.
Lemma run_test_eq args : run_test args = (let* d := depth_fuel in rt_body d args).
Proof. reflexivity. Qed.

Lemma ro_rt_validate args : readonly (rt_validate args).
Proof. unfold rt_validate. ro; apply ro_unwrap_any. Qed.
Lemma ro_rt_verdict d args : readonly (rt_verdict d args).
Proof. unfold rt_verdict. ro; first [apply ro_unwrap_any | apply ro_same]. Qed.

Lemma SpecI_run_test args : SpecI (run_test args).
Proof.
  intros s r s' H. rewrite run_test_eq in H. change (rt_body value_depth args s = (r, s')) in H.
  assert (B : forall b, Inv s (rt_bump b s)) by (intro; apply Inv_same; reflexivity).
  unfold rt_body in H.
  destruct (rt_validate args s) as [[u|e] s1] eqn:V; apply ro_rt_validate in V; subst s1;
    [|inversion H; subst; apply B].
  destruct (rt_verdict value_depth args s) as [[[|]|e] s2] eqn:W; apply ro_rt_verdict in W; subst s2.
  - inversion H; subst; apply B.
  - cbv zeta in H. destruct (st_failfast _); inversion H; subst; apply B.
  - inversion H; subst; apply B.
Qed.

Lemma Spec_bind_params ps : forall args fr,
  forallb (fun p => name_ok (fst p)) ps = true -> frame_ok fr ->
  Spec (fun p => frame_ok (fst p)) (bind_params ps args fr).
Proof.
  induction ps as [|[n t] ps IH]; intros args fr Hn F; simpl.
  - apply Spec_ret. exact F.
  - simpl in Hn. apply andb_true_iff in Hn. destruct Hn as [Hn1 Hn2].
    destruct args as [|a rest]; [apply Spec_fail|].
    apply IH; auto. destruct (str_eqb n underscore); auto. apply frame_ok_set; auto.
Qed.
