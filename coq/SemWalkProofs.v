(* SemWalkProofs.v — how the evaluator of Sem.v is written.  [Prim m]: m is put together, by bind and
   case analysis, from the elementary state accesses other than [tick]; [PrimT m]: the same with
   [tick] and the test bookkeeping.  The library functions and every built-in are [Prim], the nine
   evaluator functions are [PrimT] (one induction on the fuel).  A property of computations that
   holds of the elementary accesses and passes through bind therefore holds of the whole evaluator,
   by induction on [Prim] / [PrimT] and without another look at Sem.v. *)
From Coq Require Import ZArith NArith List String Bool Floats FMapPositive Lia.
From EvyV Require Import Base Num Ast Omap Sem SemBasics SemPure.
Import ListNotations.

(* the state access of the `read` built-in: one line of input, or the empty line *)
Definition read_line : M str := fun s =>
  match st_input s with
  | [] => (Ok [], upd_trace (EvRead :: st_trace s) s)
  | x :: t => (Ok x, upd_input t (upd_trace (EvRead :: st_trace s) s))
  end.

(* [P_heap] covers ret, fail, alloc, load and the pure built-ins (SemPure) *)
Inductive Prim : forall {A : Type}, M A -> Prop :=
| P_heap A (m : M A) : heap_only m -> Prim m
| P_store l v : Prim (store l v)
| P_emitE ev : Prim (emitE ev)
| P_lookup n e : Prim (lookup n e)
| P_set_var n l e : Prim (set_var n l e)
| P_update_var n l e : Prim (update_var n l e)
| P_read : Prim read_line
| P_bind A B (m : M A) (f : A -> M B) : Prim m -> (forall a, Prim (f a)) -> Prim (bindM m f)
| P_ext A (m m' : M A) : (forall s, m s = m' s) -> Prim m -> Prim m'.

Lemma prim_ret A (a : A) : Prim (ret a). Proof. apply P_heap, ho_ret. Qed.
Lemma prim_fail A e : Prim (@fail A e). Proof. apply P_heap, ho_fail. Qed.
Lemma prim_crash A w : Prim (@crash A w). Proof. apply prim_fail. Qed.
Lemma prim_internal A w : Prim (@internal A w). Proof. apply prim_fail. Qed.
Lemma prim_lift A (x : res A) : Prim (lift x). Proof. apply P_heap, ho_const. Qed.
Lemma prim_depth_fuel : Prim depth_fuel. Proof. apply (prim_ret _ value_depth). Qed.
Lemma prim_alloc v : Prim (alloc v). Proof. apply P_heap, ho_alloc. Qed.
Lemma prim_load l : Prim (load l). Proof. apply P_heap, ho_load. Qed.

Lemma prim_mapM A B (f : A -> M B) l : (forall x, Prim (f x)) -> Prim (mapM f l).
Proof.
  intro H. induction l; simpl; [apply prim_ret|].
  apply P_bind; [apply H|intro]. apply P_bind; [exact IHl|intro; apply prim_ret].
Qed.

Create HintDb primdb.
#[global] Hint Resolve prim_ret prim_fail prim_crash prim_internal prim_lift prim_depth_fuel prim_alloc prim_load
  P_store P_emitE P_lookup P_set_var P_update_var : primdb.

(* the decomposition of a computation along its syntax; the leaves from [primdb] *)
Ltac prim_step :=
  first
    [ assumption
    | match goal with |- Prim (bindM _ _) => apply P_bind; [ | intros ] end
    | match goal with |- Prim (match ?x with _ => _ end) => destruct x end
    | apply prim_mapM; intro; cbv beta
    | solve [auto with primdb] ].
Ltac prim_tac := repeat prim_step.

Lemma prim_copy_or_ref n l : Prim (copy_or_ref n l).
Proof. revert l. induction n; intro l; simpl; prim_tac. Qed.
Lemma prim_deep_copy n l : Prim (deep_copy n l).
Proof. revert l. induction n; intro l; simpl; prim_tac. Qed.
Lemma prim_show n r l : Prim (show n r l).
Proof. revert l. induction n; intro l; simpl; prim_tac. Qed.
#[global] Hint Resolve prim_copy_or_ref prim_deep_copy prim_show : primdb.

Lemma prim_show_str l : Prim (show_str l).
Proof. unfold show_str. prim_tac. Qed.
Lemma prim_join_args a s : Prim (join_args a s).
Proof. unfold join_args. prim_tac. Qed.
#[global] Hint Resolve prim_show_str prim_join_args : primdb.

Lemma prim_equals n a b : Prim (equals n a b).
Proof.
  revert a b. induction n; intros a b; simpl; [prim_tac|].
  apply P_bind; [prim_tac|intros va]. apply P_bind; [prim_tac|intros vb].
  destruct va, vb; try solve [prim_tac].
  - destruct (negb _); [prim_tac|]. revert els0. induction els; intros [|y yt]; prim_tac.
  - destruct (negb _); [prim_tac|]. generalize (pairs m). intro ps. induction ps as [|[k i] t]; prim_tac.
Qed.
Lemma prim_same n a b : Prim (same n a b).
Proof.
  revert a b. induction n; intros a b; simpl; [prim_tac|].
  apply P_bind; [prim_tac|intros g]. apply P_bind; [prim_tac|intros w].
  destruct g; try solve [prim_tac].
  - destruct w; try solve [prim_tac]. destruct (negb _); [prim_tac|].
    revert els. induction els0; intros [|y yt]; prim_tac.
  - destruct w; try solve [prim_tac]. destruct (negb _); [prim_tac|].
    generalize (pairs m0). intro ps. induction ps as [|[k i] t]; prim_tac.
Qed.
#[global] Hint Resolve prim_equals prim_same : primdb.

Lemma prim_load_num l : Prim (load_num l).
Proof. unfold load_num. prim_tac. Qed.
Lemma prim_load_str l : Prim (load_str l).
Proof. unfold load_str. prim_tac. Qed.
Lemma prim_load_bool l : Prim (load_bool l).
Proof. unfold load_bool. prim_tac. Qed.
#[global] Hint Resolve prim_load_num prim_load_str prim_load_bool : primdb.

Lemma prim_slice_bounds lo hi n : Prim (slice_bounds lo hi n).
Proof. unfold slice_bounds. prim_tac. Qed.
Lemma prim_zero_val t : Prim (zero_val t).
Proof. unfold zero_val. prim_tac. Qed.
Lemma prim_bin_num op x y : Prim (bin_num op x y).
Proof. unfold bin_num. prim_tac. Qed.
Lemma prim_bin_str op x y : Prim (bin_str op x y).
Proof. unfold bin_str. prim_tac. Qed.
Lemma prim_bin_bool op x y : Prim (bin_bool op x y).
Proof. unfold bin_bool. prim_tac. Qed.
Lemma prim_bin_arr op xs r : Prim (bin_arr op xs r).
Proof. unfold bin_arr. prim_tac. Qed.
#[global] Hint Resolve prim_slice_bounds prim_zero_val prim_bin_num prim_bin_str prim_bin_bool prim_bin_arr : primdb.

Lemma prim_global_err e b msg : Prim (global_err e b msg).
Proof. unfold global_err. prim_tac. Qed.
Lemma prim_unwrap_any l : Prim (unwrap_any l).
Proof. unfold unwrap_any. prim_tac. Qed.
Lemma prim_none_val : Prim none_val.
Proof. unfold none_val. prim_tac. Qed.
Lemma prim_map_set_key m k v : Prim (map_set_key m k v).
Proof. unfold map_set_key. prim_tac. Qed.
Lemma prim_bind_params ps args fr : Prim (bind_params ps args fr).
Proof. revert args fr. induction ps as [|[n t] ps]; intros; simpl; prim_tac. Qed.
Lemma prim_bind_payload ps args fr : Prim (bind_payload ps args fr).
Proof. revert args fr. induction ps as [|[n t] ps]; intros; simpl; prim_tac. Qed.
#[global] Hint Resolve prim_global_err prim_unwrap_any prim_none_val prim_map_set_key prim_bind_params
  prim_bind_payload : primdb.

(* the `test` built-in: a [Prim] computation delivers the verdict; then the counters are bumped
   whatever it answered, errors included, which no bind does *)
Definition test_verdict (args : list loc) : M bool :=
  let* _ := match args with
            | [] => fail (EPanic PkBadArguments)
            | [a] => let* v := unwrap_any a in
                     match v with HBool _ => ret tt | _ => fail (EPanic PkBadArguments) end
            | _ :: _ :: rest =>
                match rest with
                | m :: _ => let* v := unwrap_any m in
                            match v with HStr _ => ret tt | _ => fail (EPanic PkBadArguments) end
                | [] => ret tt
                end
            end in
  match args with
  | [a] => let* v := unwrap_any a in match v with HBool b => ret b | _ => crash "test: not a bool" end
  | w :: g :: _ => same value_depth w g
  | [] => ret true
  end.

Definition test_end (r : res bool) (s : state) : res unit * state :=
  let bump (failed : bool) := upd_tests (S (st_total s)) (if failed then S (st_fails s) else st_fails s) s in
  match r with
  | Er e => (Er e, bump false)
  | Ok true => (Ok tt, bump false)
  | Ok false => if st_failfast s then (Er ETestFail, bump true) else (Ok tt, bump true)
  end.

Lemma run_test_eq args s : run_test args s = (let (r, s2) := test_verdict args s in test_end r s2).
Proof.
  unfold run_test, test_verdict. change depth_fuel with (ret value_depth). rewrite bindM_ret_l. cbv zeta beta.
  match goal with |- _ = (let (r, s2) := bindM ?V (fun _ => ?W) s in _) => generalize V, W end.
  intros v w. unfold bindM. destruct (v s) as [[u|e] s1]; [destruct (w s1) as [[[|]|e] s2]|]; reflexivity.
Qed.

Lemma prim_test_verdict args : Prim (test_verdict args).
Proof. unfold test_verdict. prim_tac. Qed.

Lemma prim_read :
  Prim (fun s => match st_input s with
                 | [] => (let* l := alloc (HStr []) in ret (Some l)) (upd_trace (EvRead :: st_trace s) s)
                 | x :: t => (let* l := alloc (HStr x) in ret (Some l)) (upd_input t (upd_trace (EvRead :: st_trace s) s))
                 end).
Proof.
  apply (P_ext _ (let* x := read_line in let* l := alloc (HStr x) in ret (Some l))).
  - intro s. unfold bindM at 1, read_line. destruct (st_input s); reflexivity.
  - apply P_bind; [apply P_read|intro]. prim_tac.
Qed.

(* one row of a table written as a chain of [if c then Some x else ...] *)
Lemma opt_if A (Q : A -> Prop) (c : bool) x o :
  Q x -> (forall m, o = Some m -> Q m) -> forall m, (if c then Some x else o) = Some m -> Q m.
Proof. intros Hx Ho m. destruct c; [intros [= <-]; exact Hx|apply Ho]. Qed.

(* the built-ins, row by row; the pure ones (the end of the chain) through SemPure *)
Lemma prim_builtin name e args : forall m, builtin name e args = Some m -> Prim m.
Proof.
  unfold builtin. generalize (pure_builtin_spec name args). generalize (pure_builtin name args). intros o Ho.
  repeat (apply opt_if; [first [ apply prim_read | prim_tac ] | ]).
  intros m H. apply P_heap, (Ho _ H).
Qed.

Lemma opt_if_none A (c : bool) (x x' : A) o o' :
  (o = None -> o' = None) -> (if c then Some x else o) = None -> (if c then Some x' else o') = None.
Proof. destruct c; [discriminate|auto]. Qed.

(* whether a name is a built-in does not depend on the environment or the arguments *)
Lemma builtin_none_indep name e vals e' vals' :
  builtin name e vals = None -> builtin name e' vals' = None.
Proof.
  unfold builtin. generalize (pure_builtin_none_indep name vals vals').
  generalize (pure_builtin name vals), (pure_builtin name vals'). intros o o' Ho.
  repeat apply opt_if_none. exact Ho.
Qed.

(* with the eval prologue; [run_test] is a leaf of its own ([run_test_eq]) *)
Inductive PrimT : forall {A : Type}, M A -> Prop :=
| T_prim A (m : M A) : Prim m -> PrimT m
| T_tick : PrimT tick
| T_test args : PrimT (run_test args)
| T_bind A B (m : M A) (f : A -> M B) : PrimT m -> (forall a, PrimT (f a)) -> PrimT (bindM m f)
| T_ext A (m m' : M A) : (forall s, m s = m' s) -> PrimT m -> PrimT m'.

Ltac primT_step :=
  first
    [ match goal with |- PrimT (bindM _ _) => apply T_bind; [ | intros ] end
    | match goal with |- PrimT (match ?x with _ => _ end) => destruct x end
    | assumption
    | match goal with H : forall _, _ |- PrimT _ => apply H end
    | apply T_tick
    | apply T_test
    | apply T_prim; solve [prim_tac] ].
Ltac primT_tac := repeat primT_step.

(* a computation that starts with the eval prologue *)
Definition TickFirst {A} (m : M A) : Prop :=
  exists K, PrimT K /\ forall s, m s = bindM tick (fun _ => K) s.

Lemma tick_first_primT A (m : M A) : TickFirst m -> PrimT m.
Proof.
  intros (K & HK & E). apply (T_ext _ (bindM tick (fun _ => K))); [auto|].
  apply T_bind; [apply T_tick|auto].
Qed.

Definition PrimTAll (n : nat) : Prop :=
  (forall P e x, PrimT (eval_expr n P e x)) /\
  (forall P e l, PrimT (eval_exprs n P e l)) /\
  (forall P e name args, PrimT (eval_call n P e name args)) /\
  (forall P e s, PrimT (exec_stmt n P e s)) /\
  (forall P e l, PrimT (exec_stmts n P e l)) /\
  (forall P e l, PrimT (exec_block n P e l)) /\
  (forall P e c body, PrimT (exec_cond n P e c body)) /\
  (forall P e c body, PrimT (exec_while n P e c body)) /\
  (forall P e var rg body, PrimT (exec_for n P e var rg body)).

(* one more unit of fuel; the three functions that model Evaluator.eval begin with the prologue *)
Lemma primT_step_fuel n : PrimTAll n ->
  (forall P e x, TickFirst (eval_expr (S n) P e x)) /\
  (forall P e l, PrimT (eval_exprs (S n) P e l)) /\
  (forall P e name args, PrimT (eval_call (S n) P e name args)) /\
  (forall P e s, TickFirst (exec_stmt (S n) P e s)) /\
  (forall P e l, PrimT (exec_stmts (S n) P e l)) /\
  (forall P e l, TickFirst (exec_block (S n) P e l)) /\
  (forall P e c body, PrimT (exec_cond (S n) P e c body)) /\
  (forall P e c body, PrimT (exec_while (S n) P e c body)) /\
  (forall P e var rg body, PrimT (exec_for (S n) P e var rg body)).
Proof.
  intros (IH1 & IH2 & IH3 & IH4 & IH5 & IH6 & IH7 & IH8 & IH9).
  repeat split; intros.
  - eexists. split; [|intro s; cbn [eval_expr]; reflexivity].
    destruct x; try solve [primT_tac].
    (* EMap *)
    apply T_bind; [primT_tac|intro d]. apply T_bind; [|intros; primT_tac].
    induction pairs as [|[k a] ps IHps]; simpl; primT_tac.
  - cbn [eval_exprs]. primT_tac.
  - cbn [eval_call]. apply T_bind; [primT_tac|intro vals].
    destruct (str_eqb name n_test); [primT_tac|].
    destruct (builtin name e vals) eqn:Eb; [|primT_tac].
    apply T_prim. exact (prim_builtin _ _ _ _ Eb).
  - eexists. split; [|intro s0; cbn [exec_stmt]; reflexivity].
    destruct s; try solve [primT_tac].
    (* SIf *)
    revert e. induction conds as [|[c body] cs IHcs]; intro e; simpl; primT_tac.
  - cbn [exec_stmts]. primT_tac.
  - eexists. split; [|intro s; cbn [exec_block]; reflexivity]. primT_tac.
  - cbn [exec_cond]. primT_tac.
  - cbn [exec_while]. primT_tac.
  - cbn [exec_for]. apply T_bind; [|intros; primT_tac].
    destruct rg; try solve [primT_tac].
    apply T_bind; [primT_tac|intro v]. destruct v; try solve [primT_tac].
    induction todo; simpl; primT_tac.
Qed.

Theorem primT_all n : PrimTAll n.
Proof.
  induction n.
  - repeat split; intros; apply T_prim, prim_fail.
  - destruct (primT_step_fuel n IHn) as (H1 & H2 & H3 & H4 & H5 & H6 & H7 & H8 & H9).
    repeat split; intros; auto using tick_first_primT.
Qed.

Lemma eval_expr_tick_first f P e x : TickFirst (eval_expr (S f) P e x).
Proof. apply (primT_step_fuel f (primT_all f)). Qed.
Lemma exec_stmt_tick_first f P e x : TickFirst (exec_stmt (S f) P e x).
Proof. apply (primT_step_fuel f (primT_all f)). Qed.
Lemma exec_block_tick_first f P e l : TickFirst (exec_block (S f) P e l).
Proof. apply (primT_step_fuel f (primT_all f)). Qed.
