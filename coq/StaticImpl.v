(* StaticImpl.v — Static.v's certificate checker against the IMPLEMENTATION model of the Go type
   checker (Types.v: tc / check, the model C04 proves equivalent to the specification rule by rule).
   Composition of StaticTypes.v (Static <-> TypesSpec) with TypesWhole.v (TypesSpec <-> Types on the
   uniform fragment). *)
From Coq Require Import List Bool.
From EvyV Require Import Base Ast Sem Static StaticTypes.
From EvyV Require TypesSyntax TypesSpec Types TypesProofs TypesWhole.
Import ListNotations.
Module S := TypesSyntax.
Module Sp := TypesSpec.
Module T := Types.
Module TP := TypesProofs.
Module TW := TypesWhole.

(* forward: a Static-typed coercion-free tree whose erasure is uniform is typed by the implementation
   model, without error, with the same type *)
Theorem static_to_impl F G A t e :
  ety F G A = Some t -> plain F G A = true -> erase G A = Some e -> TW.uniform e = true ->
  exists n, T.tc e = T.ONode n false /\ ty_of (TP.erase (T.node_type n)) = t.
Proof.
  intros Ht Hp He Hu. destruct (static_to_spec F G A t Ht Hp) as (e' & k & s & He' & Hs & ->).
  rewrite He in He'. inversion He'; subst e'.
  destruct (TW.tc_uniform e Hu k s Hs) as (n & Hn & _ & G2 & _). exists n. rewrite G2. auto.
Qed.

Lemma sty_is_tc G A t : sty_is G A t = true ->
  exists e k s, erase G A = Some e /\ Sp.spec_tc e = Some (k, s) /\ t = ty_of s.
Proof. apply sty_is_inv. Qed.

(* condition *)
Theorem impl_ctx_cond F G c e : sis F G c TBool = true -> erase G c = Some e -> TW.uniform e = true ->
  T.check S.CCond e = T.Accept T.TBool T.TBool.
Proof.
  unfold sis. intros H He Hu. apply andb_true_iff in H as [_ H].
  destruct (sty_is_erased _ _ _ _ H He) as (k & s & Hs & Ht).
  apply (TW.impl_cond e k s Hu Hs). destruct s; try discriminate; reflexivity.
Qed.

(* inferred declaration *)
Theorem impl_ctx_decl F G t a e : sis F G a t = true -> ty_decl t = true -> erase G a = Some e -> TW.uniform e = true ->
  exists T0 shown, T.check S.CDecl e = T.Accept T0 shown /\ ty_of (TP.erase T0) = t.
Proof.
  unfold sis. intros H Hd He Hu. apply andb_true_iff in H as [_ H].
  destruct (sty_is_erased _ _ _ _ H He) as (k & s & Hs & Ht).
  assert (Hc : S.closed s = true).
  { rewrite closed_proper, <- Ht. exact (StaticProofs.ty_decl_proper t Hd). }
  destruct (TW.impl_decl e k s Hu Hs Hc) as (T0 & shown & Hc' & HT). exists T0, shown. split; [exact Hc'|]. congruence.
Qed.

(* a value meeting a slot of exactly its type (assignment to a variable, parameter, return) *)
Theorem impl_ctx_value F G t a e st :
  ann_ok F G a = true -> sty_is G a t = true -> sty_of t = Some st -> erase G a = Some e -> TW.uniform e = true ->
  exists shown,
    T.check (S.CAssign st) e = T.Accept (T.fixed_type (T.embed st)) shown /\
    T.check (S.CParam st) e = T.Accept (T.fixed_type (T.embed st)) shown /\
    T.check (S.CVariadic st) e = T.Accept (T.fixed_type (T.embed st)) shown /\
    T.check (S.CReturn st) e = T.Accept (T.embed st) shown.
Proof.
  intros _ H Hst He Hu.
  destruct (sty_is_erased _ _ _ _ H He) as (k & s & Hs & Ht).
  subst t. rewrite sty_of_ty_of in Hst. inversion Hst; subst st.
  exact (TW.impl_value e k s Hu Hs).
Qed.

(* a value stored into a slot of type any: the wrapped node  EAny a' t'  *)
Theorem impl_ctx_value_any F G a' t' e :
  arg_ann (ann_ok F G) G TAny (EAny a' t') = true -> erase G a' = Some e -> TW.uniform e = true ->
  exists shown, T.check (S.CAssign S.SAny) e = T.Accept T.TAny shown.
Proof.
  unfold arg_ann. intros H He Hu. apply orb_true_iff in H as [H|H].
  - apply andb_true_iff in H as [H _]. apply andb_true_iff in H as [H _]. apply andb_true_iff in H as [_ H].
    destruct (sty_is_erased _ _ _ _ H He) as (k & s & Hs & Ht).
    exact (TW.impl_value_any e k s Hu Hs).
  - (* the defaulted empty literal:  print []  *)
    unfold zero_any, zero_lit in H. apply andb_true_iff in H as [H _].
    destruct a'; try discriminate.
    + destruct es; [|discriminate]. simpl in He. inversion He; subst e.
      exact (TW.impl_value_any (S.EArr []) Sp.KConst S.SEmptyArr Hu eq_refl).
    + destruct pairs; [|discriminate]. simpl in He. inversion He; subst e.
      exact (TW.impl_value_any (S.EMap []) Sp.KConst S.SEmptyMap Hu eq_refl).
Qed.

(* range operand: the loop variable gets the type Static expects *)
Theorem impl_ctx_range G y st t e :
  spec_ty_of G y = Some st -> srange st = Some t -> erase G y = Some e -> TW.uniform e = true ->
  exists T0, T.check S.CRange e = T.Accept T0 T0 /\ ty_of (TP.erase T0) = t.
Proof.
  intros Hsp Hr He Hu. unfold spec_ty_of in Hsp. rewrite He in Hsp.
  destruct (Sp.spec_tc e) as [[k s]|] eqn:Hs; [|discriminate]. simpl in Hsp. inversion Hsp; subst s.
  unfold srange in Hr. destruct (range_guard st) eqn:Eg; [|discriminate].
  rewrite <- (spec_check_range_tc e k st Hs) in Hr.
  destruct (Sp.spec_check S.CRange e) as [a b|] eqn:Ec; [|discriminate]. inversion Hr; subst t.
  destruct (TW.impl_range e k st Hu Hs) with (st := a) (sh := b) as (T0 & HT & HE).
  - destruct st; simpl in Eg; auto.
  - exact Ec.
  - exists T0. split; [exact HT|]. congruence.
Qed.

(* assignment to a target chain *)
Theorem impl_ctx_assign_to F G tg st a e root steps :
  target_of G tg = Some (root, steps) -> target_sty G tg = Some st -> S.closed root = true ->
  TW.uniform_steps steps = true ->
  ann_ok F G a = true -> sty_is G a (ty_of st) = true -> erase G a = Some e -> TW.uniform e = true ->
  exists T0 shown, T.check (S.CAssignTo root steps) e = T.Accept T0 shown /\ TP.erase T0 = st.
Proof.
  intros Hto Hts Hc Hus _ H He Hu. unfold target_sty in Hts. rewrite Hto in Hts.
  destruct (Sp.spec_steps steps) as [ks|] eqn:Ek; [|discriminate].
  destruct (sty_is_erased _ _ _ _ H He) as (k & s & Hs & Ht).
  apply ty_of_inj in Ht. subst s.
  exact (TW.impl_assign_to e k root steps ks st Hu Hc Hus Ek Hts Hs).
Qed.

(* converse: what the implementation model types without error (uniform fragment), Static types the
   same on the tree that carries the specification's types *)
Theorem impl_to_static F G A e n :
  ann_ok F G A = true -> erase G A = Some e -> TW.uniform e = true -> T.tc e = T.ONode n false ->
  ety F G A = Some (ty_of (TP.erase (T.node_type n))).
Proof.
  intros Ha He Hu Hn. destruct (TW.tc_spec_agree e Hu n Hn) as (k & Hs).
  exact (proj1 (spec_to_static F G A) Ha e k _ He Hs).
Qed.

(* the retyped empty literal of a value slot: the implementation model converts the source [] / {}
   to the slot's (closed array / map) type *)
Theorem impl_ctx_zero t e st G : zero_lit t e = true -> sty_of t = Some st ->
  exists e' shown, erase G e = Some e' /\
    T.check (S.CAssign st) e' = T.Accept (T.fixed_type (T.embed st)) shown.
Proof.
  unfold zero_lit. intros H Hst.
  destruct e; try discriminate.
  - destruct es; [|discriminate]. destruct t; try discriminate. exists (S.EArr []).
    simpl in Hst. destruct (sty_of t) as [u|]; [|discriminate]. inversion Hst; subst st.
    eexists. split; [reflexivity|]. unfold T.check, T.check_accept. cbn [T.tc map T.seq_outcomes T.node_type T.embed T.fixed_type].
    assert (T.accepts (T.TArr true (T.embed u)) T.TEmptyArr = true) as -> by reflexivity.
    cbn [T.wrap_any T.node_type]. cbv zeta.
    assert (T.equals (T.TArr true (T.embed u)) T.TEmptyArr = false) as ->.
    { simpl. rewrite TP.equals_none_r. apply TP.spec_not_none. apply TP.spec_embed. }
    reflexivity.
  - destruct pairs; [|discriminate]. destruct t; try discriminate. exists (S.EMap []).
    simpl in Hst. destruct (sty_of t) as [u|]; [|discriminate]. inversion Hst; subst st.
    eexists. split; [reflexivity|]. unfold T.check, T.check_accept. cbn [T.tc map T.seq_outcomes T.node_type T.embed T.fixed_type].
    assert (T.accepts (T.TMap true (T.embed u)) T.TEmptyMap = true) as -> by reflexivity.
    cbn [T.wrap_any T.node_type]. cbv zeta.
    assert (T.equals (T.TMap true (T.embed u)) T.TEmptyMap = false) as ->.
    { simpl. rewrite TP.equals_none_r. apply TP.spec_not_none. apply TP.spec_embed. }
    reflexivity.
Qed.
