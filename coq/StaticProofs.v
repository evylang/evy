(* StaticProofs.v — facts about the certificate checker Static.v that its soundness proof
   (SemSound.v) and its comparison with the declarative rules (StaticTypes.v) both use. *)
From Coq Require Import List Bool.
From EvyV Require Import Base Ast Static.
Import ListNotations.

Lemma ty_eqb_eq a b : ty_eqb a b = true -> a = b.
Proof. revert b; induction a; destruct b; simpl; intros H; try discriminate; auto; f_equal; auto. Qed.

Lemma ty_eqb_same a : ty_eqb a a = true.
Proof. induction a; simpl; auto. Qed.

Lemma opt_ty_eqb_eq o t : opt_ty_eqb o t = true -> o = Some t.
Proof. destruct o; simpl; [|discriminate]. intros H; apply ty_eqb_eq in H; congruence. Qed.

Lemma opt_ty_eqb_refl t : opt_ty_eqb (Some t) t = true.
Proof. exact (ty_eqb_same t). Qed.

Lemma ty_proper_value t : ty_proper t = true -> ty_value t = true.
Proof. induction t; simpl; auto; discriminate. Qed.

Lemma ty_decl_proper t : ty_decl t = true -> ty_proper t = true.
Proof. unfold ty_decl. intros H. apply andb_true_iff in H as [H _]. exact H. Qed.

Lemma ty_decl_ann t : ty_decl t = true -> ty_ann t = true.
Proof.
  unfold ty_decl, ty_ann. intros H. apply andb_true_iff in H as [Hp Hs]. rewrite Hs, (ty_proper_value t Hp). reflexivity.
Qed.

Lemma param_ok_decl p : param_ok p = true -> ty_decl (snd p) = true.
Proof. unfold param_ok. intros H. apply andb_true_iff in H as [_ H]. exact H. Qed.

Lemma etyps_map F G ps : etyps F G ps = etys F G (map snd ps).
Proof. induction ps as [|[k x] ps IH]; simpl; [reflexivity|rewrite IH; reflexivity]. Qed.

(* the checker on the forms whose sub-expressions are nested lists: ety's local fixpoints hide them from simpl *)
Lemma ety_EArr F G t es : ety F G (EArr t es) =
      match es with
      | [] => match t with
              | TEmptyArr => Some t
              | TArr _ => if ty_ann t then Some t else None
              | _ => None end
      | _ :: _ =>
          match t, etys F G es with
          | TArr u, Some ts => if forallb (ty_eqb u) ts && ty_ann t then Some t else None
          | _, _ => None
          end
      end.
Proof. reflexivity. Qed.

Lemma ety_EMap F G t ps : ety F G (EMap t ps) =
      match ps with
      | [] => match t with
              | TEmptyMap => Some t
              | TMap _ => if ty_ann t then Some t else None
              | _ => None end
      | _ :: _ =>
          match t, etyps F G ps with
          | TMap u, Some ts =>
              if forallb (ty_eqb u) ts && ty_ann t && keys_nodup (map fst ps) then Some t else None
          | _, _ => None
          end
      end.
Proof. reflexivity. Qed.

Lemma ety_ECall F G name t args : ety F G (ECall name t args) =
      match lookup_sig F name, etys F G args with
      | Some sg, Some ts => if sig_args_ok sg ts && ty_eqb (fs_ret sg) t then Some t else None
      | _, _ => None
      end.
Proof. reflexivity. Qed.

Lemma ety_ESlice F G t l lo hi : ety F G (ESlice t l lo hi) =
      match ety F G l with
      | Some a =>
          match a with
          | TArr _ | TEmptyArr | TStr => if ty_eqb a t && etyo F G lo && etyo F G hi then Some t else None
          | _ => None
          end
      | None => None
      end.
Proof. reflexivity. Qed.

(* what the checker has established when it accepts an expression of a given form *)
Lemma if_some {A} (c : bool) (a t : A) : (if c then Some a else None) = Some t -> c = true /\ a = t.
Proof. destruct c; [|discriminate]. intros H; injection H; auto. Qed.

Lemma ety_EVar_inv F G n a t : ety F G (EVar n a) = Some t ->
  t = a /\ str_eqb n Sem.underscore = false /\ slookup n G = Some a /\ ty_ann a = true.
Proof.
  cbn [ety]. intros H. apply if_some in H as [H <-].
  apply andb_true_iff in H as [H H3]. apply andb_true_iff in H as [H1 H2].
  apply negb_true_iff in H1. auto using opt_ty_eqb_eq.
Qed.

Lemma ety_EAny_inv F G x a t : ety F G (EAny x a) = Some t ->
  t = TAny /\ ety F G x = Some a /\ a <> TAny /\ ty_ann a = true.
Proof.
  cbn [ety]. intros H. apply if_some in H as [H <-].
  apply andb_true_iff in H as [H H3]. apply andb_true_iff in H as [H1 H2].
  repeat split; auto using opt_ty_eqb_eq. intros ->; discriminate.
Qed.

Lemma ety_EArr_inv F G a es t : ety F G (EArr a es) = Some t ->
  t = a /\ (es = [] /\ a = TEmptyArr \/
            exists u ts, a = TArr u /\ ty_ann a = true /\ etys F G es = Some ts /\ forallb (ty_eqb u) ts = true).
Proof.
  rewrite ety_EArr. destruct es as [|x es].
  - destruct a; try discriminate.
    + intros H. apply if_some in H as [H <-]. split; [reflexivity|right]. exists a, []. auto.
    + intros H; injection H as <-. auto.
  - destruct a; try discriminate. destruct (etys F G (x :: es)) as [ts|]; [|discriminate].
    intros H. apply if_some in H as [H <-]. apply andb_true_iff in H as [H1 H2].
    split; [reflexivity|right]. exists a, ts. auto.
Qed.

Lemma ety_EMap_inv F G a ps t : ety F G (EMap a ps) = Some t ->
  t = a /\ (ps = [] /\ a = TEmptyMap \/
            exists u ts, a = TMap u /\ ty_ann a = true /\ etyps F G ps = Some ts /\ forallb (ty_eqb u) ts = true /\
                         keys_nodup (map fst ps) = true).
Proof.
  rewrite ety_EMap. destruct ps as [|p ps].
  - destruct a; try discriminate.
    + intros H. apply if_some in H as [H <-]. split; [reflexivity|right]. exists a, []. auto.
    + intros H; injection H as <-. auto.
  - destruct a; try discriminate. destruct (etyps F G (p :: ps)) as [ts|]; [|discriminate].
    intros H. apply if_some in H as [H <-]. apply andb_true_iff in H as [H H3]. apply andb_true_iff in H as [H1 H2].
    split; [reflexivity|right]. exists a, ts. auto.
Qed.

Lemma ety_ECall_inv F G name a args t : ety F G (ECall name a args) = Some t ->
  t = a /\ exists sg ts, lookup_sig F name = Some sg /\ etys F G args = Some ts /\
                         sig_args_ok sg ts = true /\ fs_ret sg = a.
Proof.
  rewrite ety_ECall. destruct (lookup_sig F name) as [sg|]; [|discriminate].
  destruct (etys F G args) as [ts|]; [|discriminate].
  intros H. apply if_some in H as [H <-]. apply andb_true_iff in H as [H1 H2].
  split; [reflexivity|]. exists sg, ts. auto using ty_eqb_eq.
Qed.

Lemma ety_EUn_inv F G op x t : ety F G (EUn op x) = Some t ->
  ety F G x = Some t /\ (op = UMinus /\ t = TNum \/ op = UBang /\ t = TBool).
Proof. cbn [ety]. destruct op, (ety F G x) as [[]|]; try discriminate; intros H; injection H as <-; auto. Qed.

Lemma ety_EBin_inv F G op a l r t : ety F G (EBin op a l r) = Some t ->
  t = a /\ ty_ann a = true /\ exists ta tb, ety F G l = Some ta /\ ety F G r = Some tb /\
    (bin_ty op ta tb = Some a \/ bin_empty op ta tb a = true).
Proof.
  cbn [ety]. destruct (ety F G l) as [ta|]; [|discriminate]. destruct (ety F G r) as [tb|]; [|discriminate].
  intros H. apply if_some in H as [H <-]. apply andb_true_iff in H as [H1 H2]. apply orb_true_iff in H1.
  split; [reflexivity|split; [exact H2|]]. exists ta, tb.
  split; [reflexivity|split; [reflexivity|]]. destruct H1 as [H1|H1]; auto using opt_ty_eqb_eq.
Qed.

Lemma ety_EIndex_inv F G a l i t : ety F G (EIndex a l i) = Some t ->
  t = a /\ ty_ann a = true /\ exists ta ti, ety F G l = Some ta /\ ety F G i = Some ti /\
    (ta = TStr /\ ti = TNum /\ a = TStr \/ ta = TArr a /\ ti = TNum \/ ta = TMap a /\ ti = TStr).
Proof.
  cbn [ety]. destruct (ety F G l) as [ta|]; [|discriminate].
  destruct (ety F G i) as [ti|]; [|destruct ta; discriminate].
  destruct ta; try discriminate; destruct ti; try discriminate; intros H; apply if_some in H as [H <-].
  - apply ty_eqb_eq in H as <-. split; [reflexivity|split; [reflexivity|]]. exists TStr, TNum. auto 7.
  - apply andb_true_iff in H as [H1 H2]. apply ty_eqb_eq in H1 as <-.
    split; [reflexivity|split; [exact H2|]]. exists (TArr ta), TNum. auto 7.
  - apply andb_true_iff in H as [H1 H2]. apply ty_eqb_eq in H1 as <-.
    split; [reflexivity|split; [exact H2|]]. exists (TMap ta), TStr. auto 7.
Qed.

Lemma ety_ESlice_inv F G a l lo hi t : ety F G (ESlice a l lo hi) = Some t ->
  t = a /\ ety F G l = Some a /\ etyo F G lo = true /\ etyo F G hi = true /\
  (a = TStr \/ (exists u, a = TArr u) \/ a = TEmptyArr).
Proof.
  rewrite ety_ESlice. destruct (ety F G l) as [ta|]; [|discriminate].
  destruct ta; try discriminate; intros H; apply if_some in H as [H <-];
    apply andb_true_iff in H as [H H3]; apply andb_true_iff in H as [H1 H2]; apply ty_eqb_eq in H1 as <-; eauto 8.
Qed.

Lemma ety_EDot_inv F G a l k t : ety F G (EDot a l k) = Some t ->
  t = a /\ ety F G l = Some (TMap a) /\ ty_ann a = true.
Proof.
  cbn [ety]. destruct (ety F G l) as [[]|]; try discriminate.
  intros H. apply if_some in H as [H <-]. apply andb_true_iff in H as [H1 H2]. apply ty_eqb_eq in H1 as <-. auto.
Qed.

Lemma ety_EAssert_inv F G a l t : ety F G (EAssert a l) = Some t ->
  t = a /\ ety F G l = Some TAny /\ is_any a = false /\ ty_decl a = true.
Proof.
  cbn [ety]. destruct (ety F G l) as [[]|]; try discriminate.
  intros H. apply if_some in H as [H <-]. apply andb_true_iff in H as [H1 H2].
  apply negb_true_iff in H1. auto.
Qed.

Lemma is_some_inv {A} (o : option A) : is_some o = true -> exists a, o = Some a.
Proof. destruct o; [eauto|discriminate]. Qed.

(* the same for statements; only a declaration changes the typing environment *)
Lemma wt_SDecl_inv F ret il G n t x G' : wt_stmt F ret il G (SDecl n t x) = Some G' ->
  exists fr G0, G = fr :: G0 /\ G' = ((n, t) :: fr) :: G0 /\
    binder_ok n = true /\ sget n fr = None /\ ty_decl t = true /\ ety F G x = Some t.
Proof.
  cbn [wt_stmt]. destruct G as [|fr G0]; [discriminate|]. intros H. apply if_some in H as [H <-].
  apply andb_true_iff in H as [H H4]. apply andb_true_iff in H as [H H3]. apply andb_true_iff in H as [H1 H2].
  exists fr, G0. repeat split; auto using opt_ty_eqb_eq. destruct (sget n fr); [discriminate|reflexivity].
Qed.

(* an assignment target is a variable, an element or a field, annotated with the type of the value *)
Lemma wt_SAssign_inv F ret il G tg x G' : wt_stmt F ret il G (SAssign tg x) = Some G' ->
  G' = G /\ exists t, ety F G tg = Some t /\ ety F G x = Some t /\ ty_ann t = true /\
    ((exists n, tg = EVar n t) \/ (exists l k, tg = EDot t l k) \/
     (exists l i u, tg = EIndex t l i /\ (ety F G l = Some (TArr u) \/ ety F G l = Some (TMap u)))).
Proof.
  cbn [wt_stmt]. destruct (ety F G tg) as [t|] eqn:Etg; [|discriminate].
  destruct (ety F G x) as [tv|]; [|discriminate].
  intros H. apply if_some in H as [H <-]. apply andb_true_iff in H as [H1 H2]. apply ty_eqb_eq in H2 as <-.
  split; [reflexivity|]. exists t. split; [reflexivity|split; [reflexivity|]].
  destruct tg; try discriminate H1.
  - apply ety_EVar_inv in Etg as (-> & _ & _ & Ha). eauto.
  - apply ety_EIndex_inv in Etg as (-> & Ha & ta & ti & E1 & _). split; [exact Ha|]. right; right.
    rewrite E1 in H1. destruct ta; try discriminate H1; eauto 7.
  - apply ety_EDot_inv in Etg as (-> & _ & Ha). eauto 6.
Qed.

Lemma wt_SCallStmt_inv F ret il G name args G' : wt_stmt F ret il G (SCallStmt name args) = Some G' ->
  G' = G /\ exists sg ts, lookup_sig F name = Some sg /\ etys F G args = Some ts /\ sig_args_ok sg ts = true.
Proof.
  cbn [wt_stmt]. unfold call_ty. destruct (lookup_sig F name) as [sg|]; [|discriminate].
  destruct (etys F G args) as [ts|]; [|discriminate]. destruct (sig_args_ok sg ts) eqn:E; [|discriminate].
  intros H; injection H as <-. eauto 6.
Qed.

Lemma wt_SReturn_inv F ret il G o G' : wt_stmt F ret il G (SReturn o) = Some G' ->
  G' = G /\ match o with
            | Some x => exists t, ret = Some t /\ ety F G x = Some t
            | None => ret = Some TNone
            end.
Proof.
  cbn [wt_stmt]. destruct o as [x|].
  - destruct ret as [t|]; [|discriminate]. intros H. apply if_some in H as [H <-].
    apply andb_true_iff in H as [_ H]. eauto using opt_ty_eqb_eq.
  - destruct ret as [[]|]; try discriminate. intros H; injection H as <-. auto.
Qed.

Lemma wt_SBreak_inv F ret il G G' : wt_stmt F ret il G SBreak = Some G' -> G' = G /\ il = true.
Proof. cbn [wt_stmt]. intros H. apply if_some in H as [H <-]. auto. Qed.

Section CondsWt.
  Context (F : list funcdef) (ret : option ty) (il : bool) (G : tyenv).
  Fixpoint conds_wt (cs : list (expr * list stmt)) : bool :=
    match cs with
    | [] => true
    | (c, body) :: r =>
        opt_ty_eqb (ety F (push G) c) TBool && is_some (wt_stmts F ret il (push G) body) && conds_wt r
    end.
End CondsWt.

Lemma wt_stmt_SIf F ret il G conds els : wt_stmt F ret il G (SIf conds els) =
  if conds_wt F ret il G conds &&
     match els with Some body => is_some (wt_stmts F ret il (push G) body) | None => true end
  then Some G else None.
Proof. reflexivity. Qed.

Lemma wt_SIf_inv F ret il G conds els G' : wt_stmt F ret il G (SIf conds els) = Some G' ->
  G' = G /\ conds_wt F ret il G conds = true /\
  match els with Some body => is_some (wt_stmts F ret il (push G) body) = true | None => True end.
Proof.
  rewrite wt_stmt_SIf. intros H. apply if_some in H as [H <-]. apply andb_true_iff in H as [H1 H2].
  destruct els; auto.
Qed.

Lemma wt_stmt_SWhile F ret il G c body : wt_stmt F ret il G (SWhile c body) =
  if opt_ty_eqb (ety F (push G) c) TBool && is_some (wt_stmts F ret true (push G) body) then Some G else None.
Proof. reflexivity. Qed.

Lemma wt_SWhile_inv F ret il G c body G' : wt_stmt F ret il G (SWhile c body) = Some G' ->
  G' = G /\ ety F (push G) c = Some TBool /\ exists Gb, wt_stmts F ret true (push G) body = Some Gb.
Proof.
  rewrite wt_stmt_SWhile. intros H. apply if_some in H as [H <-]. apply andb_true_iff in H as [H1 H2].
  auto using opt_ty_eqb_eq, is_some_inv.
Qed.

Lemma wt_stmt_SFor F ret il G var vt r body : wt_stmt F ret il G (SFor var vt r body) =
      let G1 := push G in
      let rng : option ty :=
        match r with
        | RStep start stop step =>
            if etyo F G1 start && opt_ty_eqb (ety F G1 stop) TNum && etyo F G1 step then Some TNum else None
        | RExpr y => match ety F G1 y with Some t => range_var_ty t | None => None end
        end in
      match rng with
      | None => None
      | Some t =>
          let G2 := match var with
                    | Some v => if binder_ok v && ty_eqb vt t && ty_decl vt then Some ([(v, vt)] :: G) else None
                    | None => Some ([] :: G)
                    end in
          match G2 with
          | Some G2 => if is_some (wt_stmts F ret true (push G2) body) then Some G else None
          | None => None
          end
      end.
Proof. reflexivity. Qed.

(* [t] is the type the range yields; a named loop variable is declared at that type *)
Lemma wt_SFor_inv F ret il G var vt r body G' : wt_stmt F ret il G (SFor var vt r body) = Some G' ->
  G' = G /\ exists t,
    match r with
    | RStep a b c => t = TNum /\ etyo F (push G) a = true /\ ety F (push G) b = Some TNum /\ etyo F (push G) c = true
    | RExpr y => exists ty, ety F (push G) y = Some ty /\ range_var_ty ty = Some t
    end /\
    (forall v, var = Some v -> binder_ok v = true /\ vt = t /\ ty_decl vt = true) /\
    exists Gb, wt_stmts F ret true (push (match var with Some v => [(v, vt)] | None => [] end :: G)) body = Some Gb.
Proof.
  rewrite wt_stmt_SFor. cbv zeta.
  match goal with |- match ?rng with _ => _ end = _ -> _ => destruct rng as [t|] eqn:Erng; [|discriminate] end.
  intros H.
  assert (Hv : (forall v, var = Some v -> binder_ok v = true /\ vt = t /\ ty_decl vt = true) /\ G' = G /\
               exists Gb, wt_stmts F ret true (push (match var with Some v => [(v, vt)] | None => [] end :: G)) body = Some Gb).
  { destruct var as [v|].
    - destruct (binder_ok v && ty_eqb vt t && ty_decl vt) eqn:Ec; [|discriminate].
      apply if_some in H as [H <-]. apply andb_true_iff in Ec as [Ec Ec3]. apply andb_true_iff in Ec as [Ec1 Ec2].
      apply ty_eqb_eq in Ec2. split; [|auto using is_some_inv]. intros v0 Hv0; injection Hv0 as <-; auto.
    - apply if_some in H as [H <-]. split; [discriminate|auto using is_some_inv]. }
  destruct Hv as (Hv & -> & Hb). split; [reflexivity|]. exists t. split; [|auto].
  destruct r as [a b c|y].
  - apply if_some in Erng as [E <-]. apply andb_true_iff in E as [E E3]. apply andb_true_iff in E as [E1 E2].
    auto using opt_ty_eqb_eq.
  - destruct (ety F (push G) y) as [ty|]; [eauto|discriminate].
Qed.

(* what wt_func has checked of a function: [ps] are its parameters, the variadic one as an array *)
Lemma wt_func_inv F g fd : wt_func F g fd = true ->
  let ps := fn_params fd ++ match fn_variadic fd with Some (n, t) => [(n, TArr t)] | None => [] end in
  forallb param_ok ps = true /\ names_distinct (map fst ps) = true /\
  (is_none (fn_ret fd) || always_returns (fn_body fd)) = true /\
  exists Gb, wt_stmts F (Some (fn_ret fd)) false [params_frame ps; g] (fn_body fd) = Some Gb.
Proof.
  unfold wt_func. intros H.
  apply andb_true_iff in H as [H H7]. apply andb_true_iff in H as [H H6]. apply andb_true_iff in H as [H _].
  apply andb_true_iff in H as [H _]. apply andb_true_iff in H as [H _]. apply andb_true_iff in H as [H1 H2].
  cbv zeta. auto using is_some_inv.
Qed.

Lemma wt_handler_inv F g h : wt_handler F g h = true ->
  forallb param_ok (h_params h) = true /\ names_distinct (map fst (h_params h)) = true /\
  exists Gb, wt_stmts F (Some TNone) false [params_frame (h_params h); g] (h_body h) = Some Gb.
Proof.
  unfold wt_handler. destruct (assoc_str (h_name h) event_sigs); [|discriminate]. intros H.
  apply andb_true_iff in H as [H H4]. apply andb_true_iff in H as [H H3]. apply andb_true_iff in H as [_ H2].
  auto using is_some_inv.
Qed.
