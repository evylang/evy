(* StaticTypes.v — the two Gallina descriptions of evy's static typing, connected:
     Static.v      the certificate checker [wt_program] on the ANNOTATED tree the parser exports
                   (proved sound w.r.t. the evaluator model in SemSound.v), and
     TypesSpec.v   the declarative typing rules written from docs/spec.md, whose executable
                   renderings (spec_tc, spec_check, op_type, …) TypesProofs.v proves equivalent, rule by
                   rule, to the implementation model Types.v (accepts, matches, validateBinaryType, …).
   The translation [erase] forgets what the parser added to the source: type annotations and Any
   wrappers; variables are typed by the environment on both sides. *)
From Coq Require Import List Bool NArith ZArith Lia.
From EvyV Require Import Base Ast Sem Static StaticProofs.
From EvyV Require TypesSyntax TypesSpec TypesSpecProofs Types TypesProofs TypesWhole.
Import ListNotations.

(* Ast.ty has three parser-internal leaves the source language cannot name (none, the generic
   parameter types); the specification's [sty] has none of them *)
Fixpoint sty_of (t : ty) : option TypesSyntax.sty :=
  match t with
  | TNum => Some TypesSyntax.SNum | TStr => Some TypesSyntax.SString | TBool => Some TypesSyntax.SBool | TAny => Some TypesSyntax.SAny
  | TArr u => option_map TypesSyntax.SArr (sty_of u)
  | TMap u => option_map TypesSyntax.SMap (sty_of u)
  | TEmptyArr => Some TypesSyntax.SEmptyArr | TEmptyMap => Some TypesSyntax.SEmptyMap
  | TNone | TGenArr | TGenMap => None
  end.

Fixpoint ty_of (s : TypesSyntax.sty) : ty :=
  match s with
  | TypesSyntax.SNum => TNum | TypesSyntax.SString => TStr | TypesSyntax.SBool => TBool | TypesSyntax.SAny => TAny
  | TypesSyntax.SArr u => TArr (ty_of u) | TypesSyntax.SMap u => TMap (ty_of u)
  | TypesSyntax.SEmptyArr => TEmptyArr | TypesSyntax.SEmptyMap => TEmptyMap
  end.

Lemma sty_of_ty_of s : sty_of (ty_of s) = Some s.
Proof. induction s; simpl; try reflexivity; rewrite IHs; reflexivity. Qed.

Lemma ty_of_sty_of t s : sty_of t = Some s -> ty_of s = t.
Proof.
  revert s; induction t; simpl; intros s H; try discriminate; try (inversion H; reflexivity);
    destruct (sty_of t) as [u|]; simpl in H; inversion H; subst; simpl; f_equal; auto.
Qed.

Lemma sty_of_value t : ty_value t = true <-> exists s, sty_of t = Some s.
Proof.
  induction t; simpl; split; intros H; try (eexists; reflexivity); try reflexivity;
    try discriminate; try (destruct H as (s & H); discriminate).
  - apply IHt in H as (s & ->). simpl; eauto.
  - destruct H as (s & H). apply IHt. destruct (sty_of t); [eauto|discriminate].
  - apply IHt in H as (s & ->). simpl; eauto.
  - destruct H as (s & H). apply IHt. destruct (sty_of t); [eauto|discriminate].
Qed.


(* a type the source can write = a closed specification type *)
Lemma closed_proper s : TypesSyntax.closed s = ty_proper (ty_of s).
Proof. induction s; simpl; auto. Qed.

Definition binop_of (op : binop) : TypesSyntax.binop :=
  match op with
  | BPlus => TypesSyntax.OpPlus | BMinus => TypesSyntax.OpMinus | BSlash => TypesSyntax.OpSlash | BAsterisk => TypesSyntax.OpAsterisk
  | BPercent => TypesSyntax.OpPercent | BOr => TypesSyntax.OpOr | BAnd => TypesSyntax.OpAnd | BEq => TypesSyntax.OpEq | BNotEq => TypesSyntax.OpNotEq
  | BLt => TypesSyntax.OpLt | BGt => TypesSyntax.OpGt | BLtEq => TypesSyntax.OpLtEq | BGtEq => TypesSyntax.OpGtEq
  end.

Definition unop_of (op : unop) : TypesSyntax.unop := match op with UMinus => TypesSyntax.UMinus | UBang => TypesSyntax.UBang end.

Lemma unify_under x y :
  (TypesSpec.unify (TypesSyntax.SArr x) (TypesSyntax.SArr y) <> None <-> TypesSpec.unify x y <> None) /\
  (TypesSpec.unify (TypesSyntax.SMap x) (TypesSyntax.SMap y) <> None <-> TypesSpec.unify x y <> None).
Proof.
  simpl. destruct (TypesSyntax.sty_eqb x y) eqn:E.
  - apply TypesSpecProofs.sty_eqb_eq in E; subst. rewrite TypesSpecProofs.unify_refl. split; split; discriminate.
  - destruct (TypesSpec.unify x y); simpl; split; split; congruence.
Qed.

(* operands of == / != : Static's [ty_compat] is the specification's [unify] succeeding *)
Lemma compat_unify : forall a b, ty_compat (ty_of a) (ty_of b) = true <-> TypesSpec.unify a b <> None.
Proof.
  induction a; destruct b;
    try solve [simpl; split; intros H; solve [discriminate | congruence | reflexivity | exfalso; apply H; reflexivity]].
  - exact (iff_trans (IHa b) (iff_sym (proj1 (unify_under a b)))).
  - exact (iff_trans (IHa b) (iff_sym (proj2 (unify_under a b)))).
Qed.

Lemma ty_of_inj a b : ty_of a = ty_of b -> a = b.
Proof. intros H. pose proof (sty_of_ty_of a) as Ha. rewrite H, sty_of_ty_of in Ha. congruence. Qed.

(* Static's acceptance of a binary node annotated t over operand types a, b *)
Definition bin_ok (op : binop) (a b t : ty) : bool := opt_ty_eqb (bin_ty op a b) t || bin_empty op a b t.

(* == and != : both tables ask only whether the operand types unify *)
Lemma eq_ops_spec op a b : op = BEq \/ op = BNotEq ->
  bin_ty op (ty_of a) (ty_of b) = option_map ty_of (TypesSpec.op_type (binop_of op) a b).
Proof.
  intros Hop.
  assert (E : bin_ty op (ty_of a) (ty_of b) = if ty_compat (ty_of a) (ty_of b) then Some TBool else None)
    by (destruct Hop as [->| ->]; reflexivity).
  assert (E' : TypesSpec.op_type (binop_of op) a b =
               match TypesSpec.unify a b with Some _ => Some TypesSyntax.SBool | None => None end)
    by (destruct Hop as [->| ->]; reflexivity).
  rewrite E, E'. destruct (compat_unify a b) as [C1 C2].
  destruct (ty_compat (ty_of a) (ty_of b)), (TypesSpec.unify a b); try reflexivity.
  - exfalso. apply C1; reflexivity.
  - discriminate C2. discriminate.
Qed.

(* forward: the result type Static computes is the one the specification's table gives *)
Theorem bin_ty_spec op a b t :
  bin_ty op (ty_of a) (ty_of b) = Some t ->
  exists s, TypesSpec.op_type (binop_of op) a b = Some s /\ t = ty_of s.
Proof.
  intros H.
  destruct op; simpl binop_of;
    try (destruct a, b; simpl in H; try discriminate; inversion H; subst; eexists; split; reflexivity).
  - (* + *)
    destruct a, b; simpl in H; try discriminate;
      try (inversion H; subst; eexists; split; reflexivity).
    + destruct (ty_eqb (ty_of a) (ty_of b)) eqn:E; [|discriminate]. apply ty_eqb_eq, ty_of_inj in E; subst b.
      inversion H; subst. exists (TypesSyntax.SArr a). split; [|reflexivity].
      unfold TypesSpec.op_type. simpl. rewrite TypesSpecProofs.sty_eqb_refl. reflexivity.
  - (* == *)
    rewrite eq_ops_spec in H by auto. simpl binop_of in H.
    destruct (TypesSpec.op_type TypesSyntax.OpEq a b) as [s|]; inversion H. eauto.
  - rewrite eq_ops_spec in H by auto. simpl binop_of in H.
    destruct (TypesSpec.op_type TypesSyntax.OpNotEq a b) as [s|]; inversion H. eauto.
Qed.

(* converse: where the specification's table gives a type Static accepts the node annotated with
   it, PROVIDED array concatenation unifies its operands only at the top ([shallow]): Static types
   a + b when a = b or one of them is exactly the untyped [].  The guard is needed: see
   [bin_guard_needed] (the program  [[1]] + [[]] ). *)
Definition shallow (op : binop) (a b : TypesSyntax.sty) : Prop :=
  op = BPlus -> TypesSpec.is_array_b a = true -> a = b \/ a = TypesSyntax.SEmptyArr \/ b = TypesSyntax.SEmptyArr.

Theorem op_type_static op a b s :
  TypesSpec.op_type (binop_of op) a b = Some s -> shallow op a b ->
  bin_ok op (ty_of a) (ty_of b) (ty_of s) = true.
Proof.
  intros H Hsh. unfold bin_ok.
  destruct op; simpl binop_of in H;
    try (destruct a, b; simpl in H; try discriminate; inversion H; subst; reflexivity).
  - (* + *)
    destruct a, b; simpl in H; try discriminate; try (inversion H; subst; reflexivity).
    + destruct (Hsh eq_refl eq_refl) as [E|[E|E]]; try discriminate. inversion E; subst b.
      unfold TypesSpec.op_type in H. simpl in H. rewrite TypesSpecProofs.sty_eqb_refl in H. inversion H; subst.
      simpl. rewrite ty_eqb_same. simpl. rewrite ty_eqb_same. reflexivity.
    + unfold TypesSpec.op_type in H; simpl in H. inversion H; subst. simpl. rewrite ty_eqb_same. reflexivity.
    + unfold TypesSpec.op_type in H; simpl in H. inversion H; subst. simpl. rewrite ty_eqb_same. reflexivity.
  - (* * *)
    destruct a, b; simpl in H; try discriminate; inversion H; subst; simpl; try rewrite ty_eqb_same; reflexivity.
  - (* == *)
    rewrite eq_ops_spec by auto. simpl binop_of. rewrite H. simpl. rewrite ty_eqb_same. reflexivity.
  - rewrite eq_ops_spec by auto. simpl binop_of. rewrite H. simpl. rewrite ty_eqb_same. reflexivity.
Qed.

(* the guard is exact: the specification (and the Go parser) type  [[1]] + [[]]  as [][]num,
   Static does not (the evaluator would store an untyped-[] cell in a [][]num array) *)
Lemma bin_guard_needed :
  let a := TypesSyntax.SArr (TypesSyntax.SArr TypesSyntax.SNum) in let b := TypesSyntax.SArr TypesSyntax.SEmptyArr in
  TypesSpec.op_type TypesSyntax.OpPlus a b = Some a /\ bin_ok BPlus (ty_of a) (ty_of b) (ty_of a) = false.
Proof. split; reflexivity. Qed.

(* unary operators, index, slice, dot, type assertion: the same tables *)
Lemma unop_spec op a : 
  match op, ty_of a with UMinus, TNum => Some TNum | UBang, TBool => Some TBool | _, _ => None end
  = option_map ty_of (TypesSpec.unop_type (unop_of op) a).
Proof. destruct op, a; reflexivity. Qed.

Definition static_index (a b : ty) : option ty :=
  match a, b with
  | TArr u, TNum => Some u | TStr, TNum => Some TStr | TMap u, TStr => Some u | _, _ => None
  end.
Lemma index_spec a b : static_index (ty_of a) (ty_of b) = option_map ty_of (TypesSpec.index_type_s a b).
Proof. destruct a, b; reflexivity. Qed.

Definition static_slice (a : ty) : option ty :=
  match a with TArr _ | TEmptyArr | TStr => Some a | _ => None end.
Lemma slice_spec a : static_slice (ty_of a) = option_map ty_of (TypesSpec.slice_type_s a).
Proof. destruct a; reflexivity. Qed.

Definition static_dot (a : ty) : option ty := match a with TMap u => Some u | _ => None end.
Lemma dot_spec a : static_dot (ty_of a) = option_map ty_of (TypesSpec.dot_type_s a).
Proof. destruct a; reflexivity. Qed.

(* type assertion: Static's side condition is the specification's AssertOk plus the nesting bound *)
Lemma assert_spec t :
  negb (is_any (ty_of t)) && ty_decl (ty_of t) =
  negb (TypesSyntax.sty_eqb t TypesSyntax.SAny) && TypesSyntax.closed t && ty_small (ty_of t).
Proof. unfold ty_decl. rewrite <- closed_proper. destruct t; simpl; try reflexivity. Qed.

(* assignment target steps *)
Lemma target_step_spec_static t k :
  TypesSpec.target_step_s t k =
  match t, k with
  | TypesSyntax.SArr s, TypesSpec.SKIdx TypesSyntax.SNum => Some s
  | TypesSyntax.SMap s, TypesSpec.SKIdx TypesSyntax.SString => Some s
  | TypesSyntax.SMap s, TypesSpec.SKDot => Some s
  | _, _ => None
  end.
Proof. reflexivity. Qed.

(* the loop variable of  for x := range e : equal except that the specification (like the parser)
   gives the DEFAULTED element type, Static the element type itself; they coincide on closed
   element types *)
Lemma range_spec a :
  match a with TypesSyntax.SArr u => TypesSyntax.closed u = true | TypesSyntax.SNum => False (* a step range: RStep, not RExpr *) | _ => True end ->
  option_map ty_of
    (match TypesSpec.spec_check TypesSyntax.CRange (TypesSyntax.EVar a) with TypesSpec.SAccept st _ => Some st | TypesSpec.SReject => None end)
  = range_var_ty (ty_of a).
Proof.
  destruct a as [| | | |u|u| |]; simpl; auto; try contradiction. intros Hc. f_equal.
  clear -Hc. induction u; simpl in *; try reflexivity; try discriminate; f_equal; auto.
Qed.

Lemma range_guard_needed :
  TypesSpec.spec_check TypesSyntax.CRange (TypesSyntax.EVar (TypesSyntax.SArr TypesSyntax.SEmptyArr)) = TypesSpec.SAccept (TypesSyntax.SArr TypesSyntax.SAny) (TypesSyntax.SArr TypesSyntax.SAny) /\
  range_var_ty (ty_of (TypesSyntax.SArr TypesSyntax.SEmptyArr)) = Some TEmptyArr.
Proof. split; reflexivity. Qed.

(* forgets annotations and Any wrappers; a variable is represented by its type, taken from the
   environment; a call by its result type (its arguments are contexts of their own, see
   [arg_conv]) *)
Fixpoint erase (G : tyenv) (e : expr) {struct e} : option TypesSyntax.expr :=
  let erases := fix go (es : list expr) : option (list TypesSyntax.expr) :=
    match es with
    | [] => Some []
    | x :: r => match erase G x, go r with Some a, Some b => Some (a :: b) | _, _ => None end
    end in
  let erasep := fix go (ps : list (str * expr)) : option (list TypesSyntax.expr) :=
    match ps with
    | [] => Some []
    | (_, x) :: r => match erase G x, go r with Some a, Some b => Some (a :: b) | _, _ => None end
    end in
  let eraseo (o : option expr) : option (option TypesSyntax.expr) :=
    match o with None => Some None | Some x => option_map Some (erase G x) end in
  match e with
  | ENum _ => Some TypesSyntax.ELitNum
  | EStr _ => Some TypesSyntax.ELitStr
  | EBool _ => Some TypesSyntax.ELitBool
  | EVar n _ => match slookup n G with Some t => option_map TypesSyntax.EVar (sty_of t) | None => None end
  | EAny a _ => erase G a
  | EArr _ es => option_map TypesSyntax.EArr (erases es)
  | EMap _ ps => option_map TypesSyntax.EMap (erasep ps)
  | ECall _ t _ => option_map TypesSyntax.ECall (sty_of t)
  | EUn op a => option_map (TypesSyntax.EUn (unop_of op)) (erase G a)
  | EBin op _ l r =>
      match erase G l, erase G r with Some a, Some b => Some (TypesSyntax.EBin (binop_of op) a b) | _, _ => None end
  | EIndex _ l i =>
      match erase G l, erase G i with Some a, Some b => Some (TypesSyntax.EIndex a b) | _, _ => None end
  | ESlice _ l lo hi =>
      match erase G l, eraseo lo, eraseo hi with
      | Some a, Some b, Some c => Some (TypesSyntax.ESlice a b c)
      | _, _, _ => None
      end
  | EDot _ l _ => option_map TypesSyntax.EDot (erase G l)
  | EGroup a => option_map TypesSyntax.EGroup (erase G a)
  | EAssert t a => match erase G a, sty_of t with Some a', Some s => Some (TypesSyntax.EAssert a' s) | _, _ => None end
  end.

Section Erases.
  Context (G : tyenv).
  Fixpoint erases (es : list expr) : option (list TypesSyntax.expr) :=
    match es with
    | [] => Some []
    | x :: r => match erase G x, erases r with Some a, Some b => Some (a :: b) | _, _ => None end
    end.
  Fixpoint erasep (ps : list (str * expr)) : option (list TypesSyntax.expr) :=
    match ps with
    | [] => Some []
    | (_, x) :: r => match erase G x, erasep r with Some a, Some b => Some (a :: b) | _, _ => None end
    end.
  Definition eraseo (o : option expr) : option (option TypesSyntax.expr) :=
    match o with None => Some None | Some x => option_map Some (erase G x) end.
End Erases.

Lemma erase_EArr G t es : erase G (EArr t es) = option_map TypesSyntax.EArr (erases G es).
Proof. reflexivity. Qed.
Lemma erase_EMap G t ps : erase G (EMap t ps) = option_map TypesSyntax.EMap (erasep G ps).
Proof. reflexivity. Qed.
(* the values of a map literal are treated as the elements of an array literal *)
Lemma erasep_map G ps : erasep G ps = erases G (map snd ps).
Proof. induction ps as [|[k x] ps IH]; simpl; [reflexivity|rewrite IH; reflexivity]. Qed.
Lemma erase_ESlice G t l lo hi : erase G (ESlice t l lo hi) =
      match erase G l, eraseo G lo, eraseo G hi with
      | Some a, Some b, Some c => Some (TypesSyntax.ESlice a b c)
      | _, _, _ => None
      end.
Proof. reflexivity. Qed.

(* [plain]: the tree contains no Any wrapper and no annotation that only a conversion by its context
   explains: every binary node carries the type the operator table gives ([bin_ty], not the
   inferred annotation of [] + [] / [] * n).  In such a tree every annotation is the type of the
   source expression itself. *)
Fixpoint plain (F : list funcdef) (G : tyenv) (e : expr) {struct e} : bool :=
  let plains := fix go (es : list expr) : bool :=
    match es with [] => true | x :: r => plain F G x && go r end in
  let plainp := fix go (ps : list (str * expr)) : bool :=
    match ps with [] => true | (_, x) :: r => plain F G x && go r end in
  let plaino (o : option expr) : bool := match o with Some x => plain F G x | None => true end in
  match e with
  | ENum _ | EStr _ | EBool _ | EVar _ _ => true
  | EAny _ _ => false
  | EArr t es => match es, t with [], TEmptyArr => true | [], _ => false | _, _ => plains es end
  | EMap t ps => match ps, t with [], TEmptyMap => true | [], _ => false | _, _ => plainp ps end
  | ECall _ t _ => ty_value t
  | EUn _ a => plain F G a
  | EBin op t l r =>
      plain F G l && plain F G r &&
      match ety F G l, ety F G r with Some a, Some b => opt_ty_eqb (bin_ty op a b) t | _, _ => false end
  | EIndex _ l i => plain F G l && plain F G i
  | ESlice _ l lo hi => plain F G l && plaino lo && plaino hi
  | EDot _ l _ => plain F G l
  | EGroup a => plain F G a
  | EAssert _ a => plain F G a
  end.

Section Plains.
  Context (F : list funcdef) (G : tyenv).
  Fixpoint plains (es : list expr) : bool := match es with [] => true | x :: r => plain F G x && plains r end.
  Fixpoint plainp (ps : list (str * expr)) : bool :=
    match ps with [] => true | (_, x) :: r => plain F G x && plainp r end.
  Definition plaino (o : option expr) : bool := match o with Some x => plain F G x | None => true end.
End Plains.

Lemma plain_EArr F G t es : plain F G (EArr t es) =
  match es, t with [], TEmptyArr => true | [], _ => false | _, _ => plains F G es end.
Proof. destruct es; reflexivity. Qed.
Lemma plain_EMap F G t ps : plain F G (EMap t ps) =
  match ps, t with [], TEmptyMap => true | [], _ => false | _, _ => plainp F G ps end.
Proof. destruct ps; reflexivity. Qed.
Lemma plainp_map F G ps : plainp F G ps = plains F G (map snd ps).
Proof. induction ps as [|[k x] ps IH]; simpl; [reflexivity|rewrite IH; reflexivity]. Qed.
Lemma plain_ESlice F G t l lo hi : plain F G (ESlice t l lo hi) = plain F G l && plaino F G lo && plaino F G hi.
Proof. reflexivity. Qed.

Section ExprInd.
  Context (P : expr -> Prop).
  Context (Hnum : forall f, P (ENum f)) (Hstr : forall s, P (EStr s)) (Hbool : forall b, P (EBool b))
          (Hvar : forall n t, P (EVar n t)) (Hany : forall a t, P a -> P (EAny a t))
          (Harr : forall t es, Forall P es -> P (EArr t es))
          (Hmap : forall t ps, Forall (fun p => P (snd p)) ps -> P (EMap t ps))
          (Hcall : forall n t args, Forall P args -> P (ECall n t args))
          (Hun : forall op a, P a -> P (EUn op a))
          (Hbin : forall op t l r, P l -> P r -> P (EBin op t l r))
          (Hidx : forall t l i, P l -> P i -> P (EIndex t l i))
          (Hslice : forall t l lo hi, P l -> (forall x, lo = Some x -> P x) -> (forall x, hi = Some x -> P x) ->
                                      P (ESlice t l lo hi))
          (Hdot : forall t l k, P l -> P (EDot t l k))
          (Hgroup : forall a, P a -> P (EGroup a))
          (Hassert : forall t a, P a -> P (EAssert t a)).
  Fixpoint expr_ind' (e : expr) : P e :=
    match e with
    | ENum f => Hnum f | EStr s => Hstr s | EBool b => Hbool b | EVar n t => Hvar n t
    | EAny a t => Hany a t (expr_ind' a)
    | EArr t es => Harr t es ((fix go (l : list expr) : Forall P l :=
                                 match l with [] => Forall_nil _ | x :: r => Forall_cons _ (expr_ind' x) (go r) end) es)
    | EMap t ps => Hmap t ps ((fix go (l : list (str * expr)) : Forall (fun p => P (snd p)) l :=
                                 match l with
                                 | [] => Forall_nil _
                                 | (k, x) :: r => Forall_cons (k, x) (expr_ind' x) (go r)
                                 end) ps)
    | ECall n t args => Hcall n t args ((fix go (l : list expr) : Forall P l :=
                                 match l with [] => Forall_nil _ | x :: r => Forall_cons _ (expr_ind' x) (go r) end) args)
    | EUn op a => Hun op a (expr_ind' a)
    | EBin op t l r => Hbin op t l r (expr_ind' l) (expr_ind' r)
    | EIndex t l i => Hidx t l i (expr_ind' l) (expr_ind' i)
    | ESlice t l lo hi =>
        Hslice t l lo hi (expr_ind' l)
          (match lo as o return (forall x, o = Some x -> P x) with
           | Some y => fun x H => match H in (_ = z) return (match z with Some w => P w | None => True end) with
                                  | eq_refl => expr_ind' y end
           | None => fun x H => match H in (_ = z) return (match z with Some w => P w | None => True end) with
                                | eq_refl => I end
           end)
          (match hi as o return (forall x, o = Some x -> P x) with
           | Some y => fun x H => match H in (_ = z) return (match z with Some w => P w | None => True end) with
                                  | eq_refl => expr_ind' y end
           | None => fun x H => match H in (_ = z) return (match z with Some w => P w | None => True end) with
                                | eq_refl => I end
           end)
    | EDot t l k => Hdot t l k (expr_ind' l)
    | EGroup a => Hgroup a (expr_ind' a)
    | EAssert t a => Hassert t a (expr_ind' a)
    end.
End ExprInd.

Lemma ty_value_sty t : ty_value t = true -> exists s, sty_of t = Some s /\ ty_of s = t.
Proof. intros H. apply sty_of_value in H as (s & Hs). exists s; split; auto. eapply ty_of_sty_of; eauto. Qed.

Lemma ty_ann_sty t : ty_ann t = true -> exists s, sty_of t = Some s /\ ty_of s = t.
Proof. unfold ty_ann. intros H. apply andb_true_iff in H as [H _]. apply ty_value_sty; auto. Qed.

Definition spec_typed (F : list funcdef) (G : tyenv) (A : expr) : Prop :=
  forall t, ety F G A = Some t -> plain F G A = true ->
  exists e k s, erase G A = Some e /\ TypesSpec.spec_tc e = Some (k, s) /\ t = ty_of s.

Lemma elems_spec F G es :
  Forall (spec_typed F G) es ->
  forall ts, etys F G es = Some ts -> plains F G es = true ->
  exists el ks, erases G es = Some el /\ TypesSpec.all_some (map TypesSpec.spec_tc el) = Some ks /\
                map (fun x => ty_of (snd x)) ks = ts.
Proof.
  induction 1 as [|A es HA _ IH]; intros ts Ht Hp.
  - simpl in Ht. inversion Ht; subst. exists [], []. repeat split; reflexivity.
  - cbn [etys] in Ht. cbn [plains] in Hp. apply andb_true_iff in Hp as [Hp1 Hp2].
    destruct (ety F G A) as [t|] eqn:Ea; [|discriminate].
    destruct (etys F G es) as [ts'|] eqn:Ees; inversion Ht; subst.
    destruct (HA t Ea Hp1) as (e & k & s & He & Hs & ->).
    destruct (IH ts' eq_refl Hp2) as (el & ks & Hel & Hks & Hm).
    exists (e :: el), ((k, s) :: ks). cbn [erases]. rewrite He, Hel. simpl. rewrite Hs, Hks. simpl.
    repeat split; auto. congruence.
Qed.

Lemma all_same u : forall ks, forallb (ty_eqb (ty_of u)) (map (fun x : TypesSpec.kind * TypesSyntax.sty => ty_of (snd x)) ks) = true ->
  Forall (fun y => snd y = u) ks.
Proof.
  induction ks as [|x ks IH]; simpl; intros H; constructor; apply andb_true_iff in H as [H1 H2]; auto.
  apply ty_eqb_eq, ty_of_inj in H1. auto.
Qed.

Lemma all_some_len {A} : forall (l : list (option A)) ks, TypesSpec.all_some l = Some ks -> List.length ks = List.length l.
Proof.
  induction l as [|[x|] l IH]; intros ks H; simpl in H; try discriminate; [inversion H; reflexivity|].
  destruct (TypesSpec.all_some l); [|discriminate]. inversion H; subst. simpl. f_equal. auto.
Qed.

Lemma erases_inv G : forall es el, erases G es = Some el -> List.length el = List.length es.
Proof.
  induction es as [|x es IH]; intros el H; simpl in H; [inversion H; reflexivity|].
  destruct (erase G x), (erases G es) eqn:E; try discriminate. inversion H; subst. simpl. f_equal. auto.
Qed.

Lemma nonempty_ks {X} (el : list TypesSyntax.expr) (l : list X) :
  List.length el = List.length l -> l <> [] -> TypesSpec.all_some (map TypesSpec.spec_tc el) = Some [] -> False.
Proof.
  intros Hl Hn H. apply all_some_len in H. rewrite map_length in H. simpl in H.
  destruct l; [congruence|]. rewrite <- H in Hl. discriminate.
Qed.

(* the elements of a non-empty literal whose checked element types all equal [ty_of s] *)
Lemma lit_spec F G s es ts :
  Forall (spec_typed F G) es -> es <> [] -> etys F G es = Some ts -> forallb (ty_eqb (ty_of s)) ts = true ->
  plains F G es = true ->
  exists el y ks, erases G es = Some el /\ TypesSpec.all_some (map TypesSpec.spec_tc el) = Some (y :: ks) /\
                  snd (fold_left TypesSpec.sjoin ks y) = s.
Proof.
  intros H Hne Ets Hall Hp. destruct (elems_spec F G es H ts Ets Hp) as (el & ks & Hel & Hks & Hm).
  rewrite <- Hm in Hall. apply all_same in Hall.
  destruct ks as [|y ks]; [exfalso; eapply nonempty_ks; [eapply erases_inv; eauto|exact Hne|exact Hks]|].
  inversion Hall as [|? ? Hy Hks']. exists el, y, ks. split; [exact Hel|split; [exact Hks|]].
  apply TypesWhole.fold_sjoin_same; auto.
Qed.

Lemma opt_spec F G o :
  (forall x, o = Some x -> spec_typed F G x) -> etyo F G o = true -> plaino F G o = true ->
  exists eo, eraseo G o = Some eo /\
    match eo with None => True | Some x => exists k, TypesSpec.spec_tc x = Some (k, TypesSyntax.SNum) end.
Proof.
  intros H Ht Hp. destruct o as [x|]; simpl in *.
  - apply opt_ty_eqb_eq in Ht. destruct (H x eq_refl TNum Ht Hp) as (e & k & s & He & Hs & Hts).
    destruct s; try discriminate. rewrite He. simpl. eexists; split; [reflexivity|]. simpl. eauto.
  - exists None; auto.
Qed.

Lemma spec_typed_EVar F G n t : spec_typed F G (EVar n t).
Proof.
  intros ty0 Hty _. apply ety_EVar_inv in Hty as (-> & _ & Hl & Ha).
  destruct (ty_ann_sty _ Ha) as (s & Hs & Hts).
  exists (TypesSyntax.EVar s), TypesSpec.KVar, s. cbn [erase]. rewrite Hl, Hs. simpl. auto.
Qed.

Lemma spec_typed_EArr F G t es : Forall (spec_typed F G) es -> spec_typed F G (EArr t es).
Proof.
  intros H ty0 Hty Hp. apply ety_EArr_inv in Hty as (-> & Ha). rewrite plain_EArr in Hp. rewrite erase_EArr.
  destruct es as [|x es].
  - destruct Ha as [(_ & ->)|(u & ts & -> & _)]; [|discriminate Hp].
    exists (TypesSyntax.EArr []), TypesSpec.KConst, TypesSyntax.SEmptyArr. simpl. auto.
  - destruct Ha as [(E & _)|(u & ts & -> & Ha & Ets & Hall)]; [discriminate E|].
    destruct (ty_ann_sty _ Ha) as (s0 & Hs & Hts). destruct s0 as [| | | |s|s| |]; try discriminate.
    simpl in Hts. injection Hts as <-.
    destruct (lit_spec F G s (x :: es) ts H ltac:(discriminate) Ets Hall Hp) as (el & y & ks & Hel & Hks & Hj).
    rewrite Hel. simpl. eexists _, _, (TypesSyntax.SArr s). split; [reflexivity|]. split; [|reflexivity].
    cbn [TypesSpec.spec_tc]. rewrite Hks, Hj. reflexivity.
Qed.

Lemma spec_typed_EMap F G t ps : Forall (fun p => spec_typed F G (snd p)) ps -> spec_typed F G (EMap t ps).
Proof.
  intros H ty0 Hty Hp. apply ety_EMap_inv in Hty as (-> & Ha).
  rewrite plain_EMap, plainp_map in Hp. rewrite erase_EMap, erasep_map. apply Forall_map in H.
  destruct ps as [|p ps].
  - destruct Ha as [(_ & ->)|(u & ts & -> & _)]; [|discriminate Hp].
    exists (TypesSyntax.EMap []), TypesSpec.KConst, TypesSyntax.SEmptyMap. simpl. auto.
  - destruct Ha as [(E & _)|(u & ts & -> & Ha & Ets & Hall & _)]; [discriminate E|]. rewrite etyps_map in Ets.
    destruct (ty_ann_sty _ Ha) as (s0 & Hs & Hts). destruct s0 as [| | | |s|s| |]; try discriminate.
    simpl in Hts. injection Hts as <-.
    destruct (lit_spec F G s (map snd (p :: ps)) ts H ltac:(simpl; discriminate) Ets Hall Hp) as (el & y & ks & Hel & Hks & Hj).
    rewrite Hel. simpl. eexists _, _, (TypesSyntax.SMap s). split; [reflexivity|]. split; [|reflexivity].
    cbn [TypesSpec.spec_tc]. rewrite Hks, Hj. reflexivity.
Qed.

Lemma spec_typed_ECall F G n t args : spec_typed F G (ECall n t args).
Proof.
  intros ty0 Hty Hp. apply ety_ECall_inv in Hty as (-> & _). cbn [plain] in Hp.
  destruct (ty_value_sty _ Hp) as (s & Hs & Hts).
  exists (TypesSyntax.ECall s), TypesSpec.KVar, s. cbn [erase]. rewrite Hs. simpl. auto.
Qed.

Lemma spec_typed_EUn F G op A : spec_typed F G A -> spec_typed F G (EUn op A).
Proof.
  intros IHA ty0 Hty Hp. apply ety_EUn_inv in Hty as [Ea Hop]. cbn [plain] in Hp.
  destruct (IHA ty0 Ea Hp) as (e & k & s & He & Hs & Hts).
  cbn [erase]. rewrite He. simpl.
  destruct Hop as [[-> ->]|[-> ->]]; destruct s; try discriminate Hts;
    eexists _, k, _; (split; [reflexivity|]); cbn [TypesSpec.spec_tc]; rewrite Hs; simpl; auto.
Qed.

Lemma spec_typed_EBin F G op t A1 A2 : spec_typed F G A1 -> spec_typed F G A2 -> spec_typed F G (EBin op t A1 A2).
Proof.
  intros IHA1 IHA2 ty0 Hty Hp. apply ety_EBin_inv in Hty as (-> & _ & ta & tb & Ea & Eb & _).
  cbn [plain] in Hp. apply andb_true_iff in Hp as [Hp Hp3]. apply andb_true_iff in Hp as [Hp1 Hp2].
  rewrite Ea, Eb in Hp3. apply opt_ty_eqb_eq in Hp3.
  destruct (IHA1 ta Ea Hp1) as (e1 & k1 & s1 & He1 & Hs1 & ->).
  destruct (IHA2 tb Eb Hp2) as (e2 & k2 & s2 & He2 & Hs2 & ->).
  destruct (bin_ty_spec _ _ _ _ Hp3) as (s & Hop & ->).
  cbn [erase]. rewrite He1, He2.
  eexists _, _, s. split; [reflexivity|]. cbn [TypesSpec.spec_tc]. rewrite Hs1, Hs2, Hop. auto.
Qed.

Lemma spec_typed_EIndex F G t A1 A2 : spec_typed F G A1 -> spec_typed F G A2 -> spec_typed F G (EIndex t A1 A2).
Proof.
  intros IHA1 IHA2 ty0 Hty Hp. apply ety_EIndex_inv in Hty as (-> & _ & ta & ti & Ea & Eb & Hcase).
  cbn [plain] in Hp. apply andb_true_iff in Hp as [Hp1 Hp2].
  destruct (IHA1 ta Ea Hp1) as (e1 & k1 & s1 & He1 & Hs1 & E1).
  destruct (IHA2 ti Eb Hp2) as (e2 & k2 & s2 & He2 & Hs2 & E2).
  cbn [erase]. rewrite He1, He2.
  destruct Hcase as [(-> & -> & ->)|[(-> & ->)|(-> & ->)]];
    destruct s1; try discriminate E1; destruct s2; try discriminate E2.
  - eexists _, _, TypesSyntax.SString. split; [reflexivity|]. cbn [TypesSpec.spec_tc]. rewrite Hs1, Hs2. simpl. auto.
  - injection E1 as ->.
    eexists _, _, s1. split; [reflexivity|]. cbn [TypesSpec.spec_tc]. rewrite Hs1, Hs2. simpl. auto.
  - injection E1 as ->.
    eexists _, _, s1. split; [reflexivity|]. cbn [TypesSpec.spec_tc]. rewrite Hs1, Hs2. simpl. auto.
Qed.

Lemma spec_typed_ESlice F G t A lo hi :
  spec_typed F G A -> (forall x, lo = Some x -> spec_typed F G x) -> (forall x, hi = Some x -> spec_typed F G x) ->
  spec_typed F G (ESlice t A lo hi).
Proof.
  intros IHA H H0 ty0 Hty Hp. apply ety_ESlice_inv in Hty as (-> & Ea & Hc2 & Hc3 & Hta).
  rewrite plain_ESlice in Hp. rewrite erase_ESlice.
  apply andb_true_iff in Hp as [Hp Hp3]. apply andb_true_iff in Hp as [Hp1 Hp2].
  destruct (IHA t Ea Hp1) as (e1 & k1 & s1 & He1 & Hs1 & E1).
  assert (Hsl : TypesSpec.slice_type_s s1 = Some s1).
  { destruct Hta as [->|[(u & ->)| ->]]; destruct s1; try discriminate E1; reflexivity. }
  destruct (opt_spec F G lo H Hc2 Hp2) as (elo & Helo & Hlo).
  destruct (opt_spec F G hi H0 Hc3 Hp3) as (ehi & Hehi & Hhi).
  rewrite He1, Helo, Hehi.
  assert (BD : forall eo, match eo with None => True | Some x => exists k, TypesSpec.spec_tc x = Some (k, TypesSyntax.SNum) end ->
             exists kb, TypesWhole.sbound eo = Some kb).
  { intros [x|] Hx; simpl; [destruct Hx as (k & ->); eauto|eauto]. }
  destruct (BD _ Hlo) as (kl & Hkl). destruct (BD _ Hhi) as (kh & Hkh).
  eexists _, _, s1. split; [reflexivity|]. rewrite TypesWhole.spec_tc_ESlice, Hs1, Hkl, Hkh, Hsl. auto.
Qed.

Lemma spec_typed_EDot F G t A key : spec_typed F G A -> spec_typed F G (EDot t A key).
Proof.
  intros IHA ty0 Hty Hp. apply ety_EDot_inv in Hty as (-> & Ea & _). cbn [plain] in Hp.
  destruct (IHA _ Ea Hp) as (e1 & k1 & s1 & He1 & Hs1 & E1).
  cbn [erase]. rewrite He1. simpl. destruct s1; try discriminate E1. injection E1 as ->.
  eexists _, _, s1. split; [reflexivity|]. cbn [TypesSpec.spec_tc]. rewrite Hs1. simpl. auto.
Qed.

Lemma spec_typed_EGroup F G A : spec_typed F G A -> spec_typed F G (EGroup A).
Proof.
  intros IHA ty0 Hty Hp. cbn [ety] in Hty. cbn [plain] in Hp.
  destruct (IHA ty0 Hty Hp) as (e1 & k1 & s1 & He1 & Hs1 & ->).
  cbn [erase]. rewrite He1. simpl. eexists _, _, s1. split; [reflexivity|]. cbn [TypesSpec.spec_tc]. eauto.
Qed.

Lemma spec_typed_EAssert F G t A : spec_typed F G A -> spec_typed F G (EAssert t A).
Proof.
  intros IHA ty0 Hty Hp. apply ety_EAssert_inv in Hty as (-> & Ea & Hn & Hd). cbn [plain] in Hp.
  destruct (IHA TAny Ea Hp) as (e1 & k1 & s1 & He1 & Hs1 & E1). destruct s1; try discriminate E1.
  destruct (ty_ann_sty _ (ty_decl_ann t Hd)) as (s & Hs & Hts). subst t.
  assert (Ec : negb (is_any (ty_of s)) && ty_decl (ty_of s) = true) by (rewrite Hn, Hd; reflexivity).
  rewrite assert_spec in Ec. apply andb_true_iff in Ec as [Ec _].
  cbn [erase]. rewrite He1, Hs.
  eexists _, _, s. split; [reflexivity|]. cbn [TypesSpec.spec_tc]. rewrite Hs1. rewrite Ec. auto.
Qed.

Theorem static_to_spec F G : forall A, spec_typed F G A.
Proof.
  induction A using expr_ind'.
  - intros ty0 Hty Hp. inversion Hty; subst. exists TypesSyntax.ELitNum, TypesSpec.KConst, TypesSyntax.SNum. auto.
  - intros ty0 Hty Hp. inversion Hty; subst. exists TypesSyntax.ELitStr, TypesSpec.KConst, TypesSyntax.SString. auto.
  - intros ty0 Hty Hp. inversion Hty; subst. exists TypesSyntax.ELitBool, TypesSpec.KConst, TypesSyntax.SBool. auto.
  - apply spec_typed_EVar.
  - intros ty0 Hty Hp. discriminate.
  - apply spec_typed_EArr, H.
  - apply spec_typed_EMap, H.
  - apply spec_typed_ECall.
  - apply spec_typed_EUn, IHA.
  - apply spec_typed_EBin; assumption.
  - apply spec_typed_EIndex; assumption.
  - apply spec_typed_ESlice; assumption.
  - apply spec_typed_EDot, IHA.
  - apply spec_typed_EGroup, IHA.
  - apply spec_typed_EAssert, IHA.
Qed.

(* the specification's type of an annotated node (of its erasure) *)
Definition spec_ty_of (G : tyenv) (A : expr) : option TypesSyntax.sty :=
  match erase G A with Some e => option_map snd (TypesSpec.spec_tc e) | None => None end.

Definition sty_is (G : tyenv) (A : expr) (t : ty) : bool :=
  match spec_ty_of G A with Some s => ty_eqb (ty_of s) t | None => false end.

Definition shallow_b (op : binop) (a b : TypesSyntax.sty) : bool :=
  match op with
  | BPlus => negb (TypesSpec.is_array_b a) || TypesSyntax.sty_eqb a b || TypesSyntax.sty_eqb a TypesSyntax.SEmptyArr || TypesSyntax.sty_eqb b TypesSyntax.SEmptyArr
  | _ => true
  end.

Lemma shallow_b_ok op a b : shallow_b op a b = true -> shallow op a b.
Proof.
  unfold shallow_b, shallow. intros H -> Ha. rewrite Ha in H. simpl in H.
  apply orb_true_iff in H as [H|H]; [apply orb_true_iff in H as [H|H]|]; apply TypesSpecProofs.sty_eqb_eq in H; auto.
Qed.

(* the value node the parser fabricates for a typed declaration  x:[]num  /  x:{}num  and for
   x := []  (declared with the defaulted type): an empty literal carrying the declared type *)
Definition zero_lit (t : ty) (e : expr) : bool :=
  match e, t with
  | EArr t' [], TArr _ => ty_eqb t t'
  | EMap t' [], TMap _ => ty_eqb t t'
  | _, _ => false
  end.

Lemma zero_lit_ety F G t e : zero_lit t e = true -> ty_decl t = true -> ety F G e = Some t.
Proof.
  unfold zero_lit. intros H Hd.
  pose proof (ty_decl_ann t Hd) as Ha.
  destruct e; try discriminate.
  - destruct es; [|discriminate]. destruct t; try discriminate. apply ty_eqb_eq in H. subst t0.
    rewrite ety_EArr. rewrite Ha. reflexivity.
  - destruct pairs; [|discriminate]. destruct t; try discriminate. apply ty_eqb_eq in H. subst t0.
    rewrite ety_EMap. rewrite Ha. reflexivity.
Qed.

(* the defaulted empty literal stored into any:  print []  ,  typeof {}  *)
Definition zero_any (t : ty) (e : expr) : bool :=
  zero_lit t e && match t with TArr TAny | TMap TAny => true | _ => false end.

(* an argument against a parameter type: the value has exactly the parameter's type, or the parameter is
   any and the value is wrapped (the wrapper records the value's own type), or the parameter is one of
   the two generic built-in parameter types *)
Section ArgAnn.
  Context (ann : expr -> bool) (G : tyenv).
  Definition arg_ann (p : ty) (a : expr) : bool :=
    match p with
    | TAny =>
        match a with
        | EAny a' t' => (ann a' && sty_is G a' t' && negb (is_any t') && ty_small t') || zero_any t' a'
        | _ => ann a && sty_is G a TAny
        end
    | TGenArr => ann a && match spec_ty_of G a with Some s => TypesSpec.is_array_b s && ty_small (ty_of s) | None => false end
    | TGenMap => ann a && match spec_ty_of G a with Some s => TypesSpec.is_map_b s && ty_small (ty_of s) | None => false end
    | _ => (ann a && sty_is G a p && ty_small p) || (ty_decl p && zero_lit p a)
    end.
  Fixpoint args_ann (ps : list ty) (args : list expr) {struct args} : bool :=
    match ps, args with
    | [], [] => true
    | p :: ps', a :: args' => arg_ann p a && args_ann ps' args'
    | _, _ => false
    end.
  Section VArgs.
    Context (v : ty).
    Fixpoint vargs_ann (args : list expr) : bool :=
      match args with [] => true | a :: r => arg_ann v a && vargs_ann r end.
  End VArgs.
  (* the values of a map literal of type {}any *)
  Fixpoint pvargs_ann (ps : list (str * expr)) : bool :=
    match ps with [] => true | (_, x) :: r => arg_ann TAny x && pvargs_ann r end.
  Definition sig_ann (sg : fsig) (args : list expr) : bool :=
    match fs_var sg with
    | Some v => match fs_params sg with [] => vargs_ann v args | _ => false end
    | None => args_ann (fs_params sg) args
    end.
End ArgAnn.

(* [ann_ok]: every annotation of the tree is the type the SPECIFICATION gives the node; literals are
   uniform (their elements all have the literal's element type: nothing was converted), concatenation
   unifies only at the top ([shallow]), variables are those of the environment, nesting depths are
   within the model's bound *)
Fixpoint ann_ok (F : list funcdef) (G : tyenv) (A : expr) {struct A} : bool :=
  let elems (u : ty) := fix go (es : list expr) : bool :=
    match es with [] => true | x :: r => ann_ok F G x && sty_is G x u && go r end in
  let pelems (u : ty) := fix go (ps : list (str * expr)) : bool :=
    match ps with [] => true | (_, x) :: r => ann_ok F G x && sty_is G x u && go r end in
  let bound (o : option expr) : bool := match o with Some x => ann_ok F G x | None => true end in
  let arg1 (p : ty) (a : expr) : bool :=
    match p with
    | TAny =>
        match a with
        | EAny a' t' => (ann_ok F G a' && sty_is G a' t' && negb (is_any t') && ty_small t') || zero_any t' a'
        | _ => ann_ok F G a && sty_is G a TAny
        end
    | TGenArr => ann_ok F G a && match spec_ty_of G a with Some s => TypesSpec.is_array_b s && ty_small (ty_of s) | None => false end
    | TGenMap => ann_ok F G a && match spec_ty_of G a with Some s => TypesSpec.is_map_b s && ty_small (ty_of s) | None => false end
    | _ => (ann_ok F G a && sty_is G a p && ty_small p) || (ty_decl p && zero_lit p a)
    end in
  let argsf := fix go (ps : list ty) (args : list expr) {struct args} : bool :=
    match ps, args with
    | [], [] => true
    | p :: ps', a :: args' => arg1 p a && go ps' args'
    | _, _ => false
    end in
  let argsv (v : ty) := fix go (args : list expr) : bool :=
    match args with [] => true | a :: r => arg1 v a && go r end in
  let pargsv := fix go (ps : list (str * expr)) : bool :=
    match ps with [] => true | (_, x) :: r => arg1 TAny x && go r end in
  let elemsz (u : ty) := fix go (es : list expr) : bool :=
    match es with [] => true | x :: r => ((ann_ok F G x && sty_is G x u) || zero_lit u x) && go r end in
  let pelemsz (u : ty) := fix go (ps : list (str * expr)) : bool :=
    match ps with [] => true | (_, x) :: r => ((ann_ok F G x && sty_is G x u) || zero_lit u x) && go r end in
  match A with
  | ENum _ | EStr _ | EBool _ => true
  | EVar n t => negb (str_eqb n underscore) && opt_ty_eqb (slookup n G) t && ty_small t
  | EAny _ _ => false
  | EArr t es =>
      match es, t with
      | [], TEmptyArr => true
      | _ :: _, TArr u =>
          (elems u es || (is_any u && argsv TAny es && sty_is G A t) || (ty_decl u && elemsz u es && sty_is G A t))
          && ty_small t
      | _, _ => false
      end
  | EMap t ps =>
      match ps, t with
      | [], TEmptyMap => true
      | _ :: _, TMap u =>
          (pelems u ps || (is_any u && pargsv ps && sty_is G A t) || (ty_decl u && pelemsz u ps && sty_is G A t))
          && ty_small t && keys_nodup (map fst ps)
      | _, _ => false
      end
  | ECall name t args =>
      match lookup_sig F name with
      | Some sg =>
          ty_eqb (fs_ret sg) t && ty_value t &&
          match fs_var sg with
          | Some v => match fs_params sg with [] => argsv v args | _ => false end
          | None => argsf (fs_params sg) args
          end
      | None => false
      end
  | EUn _ a => ann_ok F G a
  | EBin op t l r =>
      ann_ok F G l && ann_ok F G r && ty_small t && sty_is G A t &&
      match spec_ty_of G l, spec_ty_of G r with Some a, Some b => shallow_b op a b | _, _ => false end
  | EIndex t l i => ann_ok F G l && ann_ok F G i && ty_small t && sty_is G A t
  | ESlice t l lo hi => ann_ok F G l && bound lo && bound hi && sty_is G A t
  | EDot t l _ => ann_ok F G l && ty_small t && sty_is G A t
  | EGroup a => ann_ok F G a
  | EAssert t a => ann_ok F G a && ty_small t
  end.

Section AnnLists.
  Context (F : list funcdef) (G : tyenv).
  Section Elems.
    Context (u : ty).
    Fixpoint elems_ann (es : list expr) : bool :=
      match es with [] => true | x :: r => ann_ok F G x && sty_is G x u && elems_ann r end.
    Fixpoint pelems_ann (ps : list (str * expr)) : bool :=
      match ps with [] => true | (_, x) :: r => ann_ok F G x && sty_is G x u && pelems_ann r end.
    (* elements that may be the empty literal retyped to the element type:  [[1] []]  *)
    Fixpoint elemsz_ann (es : list expr) : bool :=
      match es with [] => true | x :: r => ((ann_ok F G x && sty_is G x u) || zero_lit u x) && elemsz_ann r end.
    Fixpoint pelemsz_ann (ps : list (str * expr)) : bool :=
      match ps with [] => true | (_, x) :: r => ((ann_ok F G x && sty_is G x u) || zero_lit u x) && pelemsz_ann r end.
  End Elems.
  Definition bound_ann (o : option expr) : bool := match o with Some x => ann_ok F G x | None => true end.
End AnnLists.

Lemma ann_ok_EArr F G t es : ann_ok F G (EArr t es) =
      match es, t with
      | [], TEmptyArr => true
      | _ :: _, TArr u =>
          (elems_ann F G u es || (is_any u && vargs_ann (ann_ok F G) G TAny es && sty_is G (EArr t es) t)
           || (ty_decl u && elemsz_ann F G u es && sty_is G (EArr t es) t)) && ty_small t
      | _, _ => false
      end.
Proof. destruct es, t; reflexivity. Qed.
Lemma ann_ok_EMap F G t ps : ann_ok F G (EMap t ps) =
      match ps, t with
      | [], TEmptyMap => true
      | _ :: _, TMap u =>
          (pelems_ann F G u ps || (is_any u && pvargs_ann (ann_ok F G) G ps && sty_is G (EMap t ps) t)
           || (ty_decl u && pelemsz_ann F G u ps && sty_is G (EMap t ps) t))
          && ty_small t && keys_nodup (map fst ps)
      | _, _ => false
      end.
Proof. destruct ps, t; reflexivity. Qed.
Lemma ann_ok_ECall F G name t args : ann_ok F G (ECall name t args) =
      match lookup_sig F name with
      | Some sg => ty_eqb (fs_ret sg) t && ty_value t && sig_ann (ann_ok F G) G sg args
      | None => false
      end.
Proof. reflexivity. Qed.
Lemma ann_ok_ESlice F G t l lo hi : ann_ok F G (ESlice t l lo hi) =
  ann_ok F G l && bound_ann F G lo && bound_ann F G hi && sty_is G (ESlice t l lo hi) t.
Proof. reflexivity. Qed.

Lemma pelems_ann_map F G u ps : pelems_ann F G u ps = elems_ann F G u (map snd ps).
Proof. induction ps as [|[k x] ps IH]; simpl; [reflexivity|rewrite IH; reflexivity]. Qed.
Lemma pelemsz_ann_map F G u ps : pelemsz_ann F G u ps = elemsz_ann F G u (map snd ps).
Proof. induction ps as [|[k x] ps IH]; simpl; [reflexivity|rewrite IH; reflexivity]. Qed.
Lemma pvargs_ann_map ann G ps : pvargs_ann ann G ps = vargs_ann ann G TAny (map snd ps).
Proof. induction ps as [|[k x] ps IH]; simpl; [reflexivity|rewrite IH; reflexivity]. Qed.

Lemma ty_value_ty_of s : ty_value (ty_of s) = true.
Proof. induction s; simpl; auto. Qed.

Lemma ty_ann_ty_of s : ty_small (ty_of s) = true -> ty_ann (ty_of s) = true.
Proof. unfold ty_ann. intros ->. rewrite ty_value_ty_of. reflexivity. Qed.

Lemma sty_is_inv G A t : sty_is G A t = true ->
  exists e k s, erase G A = Some e /\ TypesSpec.spec_tc e = Some (k, s) /\ t = ty_of s.
Proof.
  unfold sty_is, spec_ty_of. destruct (erase G A) as [e|]; [|discriminate].
  destruct (TypesSpec.spec_tc e) as [[k s]|] eqn:Es; [|discriminate]. simpl. intros H. apply ty_eqb_eq in H.
  exists e, k, s. auto.
Qed.

Lemma sty_is_erased G A t e : sty_is G A t = true -> erase G A = Some e ->
  exists k s, TypesSpec.spec_tc e = Some (k, s) /\ t = ty_of s.
Proof.
  intros H He. destruct (sty_is_inv _ _ _ H) as (e' & k & s & He' & Hs & Ht). exists k, s. split; congruence.
Qed.

Lemma sty_is_eq G A t e k s :
  sty_is G A t = true -> erase G A = Some e -> TypesSpec.spec_tc e = Some (k, s) -> t = ty_of s.
Proof. intros H He Hs. destruct (sty_is_erased _ _ _ _ H He) as (k' & s' & Hs' & ->). congruence. Qed.

Definition ann_typed (F : list funcdef) (G : tyenv) (A : expr) : Prop :=
  ann_ok F G A = true -> forall e k s, erase G A = Some e -> TypesSpec.spec_tc e = Some (k, s) ->
  ety F G A = Some (ty_of s).

Lemma ann_typed_by_sty F G A t : ann_typed F G A -> ann_ok F G A = true -> sty_is G A t = true -> ety F G A = Some t.
Proof.
  intros H Ha Hs. destruct (sty_is_inv _ _ _ Hs) as (e & k & s & He & Hsp & ->). eapply H; eauto.
Qed.

Lemma elems_conv F G u es :
  Forall (ann_typed F G) es -> elems_ann F G u es = true ->
  exists ts, etys F G es = Some ts /\ forallb (ty_eqb u) ts = true.
Proof.
  induction 1 as [|x es Hx _ IH]; intros H.
  - exists []. auto.
  - cbn [elems_ann] in H. apply andb_true_iff in H as [H H3]. apply andb_true_iff in H as [H1 H2].
    destruct (IH H3) as (ts & Hts & Hall).
    exists (u :: ts). cbn [etys]. rewrite (ann_typed_by_sty F G x u Hx H1 H2), Hts. simpl.
    rewrite ty_eqb_same. auto.
Qed.

Definition arg_typed (F : list funcdef) (G : tyenv) (a : expr) : Prop :=
  ann_typed F G a /\ (forall a' t', a = EAny a' t' -> ann_typed F G a').

Lemma arg_conv F G p a :
  arg_typed F G a -> arg_ann (ann_ok F G) G p a = true ->
  exists ta, ety F G a = Some ta /\ arg_ok p ta = true.
Proof.
  intros [H1 H2] Ha. unfold arg_ann in Ha.
  assert (PLAINARG : forall q, ann_ok F G a && sty_is G a q && ty_small q = true -> q <> TGenArr -> q <> TGenMap ->
             exists ta, ety F G a = Some ta /\ arg_ok q ta = true).
  { intros q Hq N1 N2. apply andb_true_iff in Hq as [Hq Hq3]. apply andb_true_iff in Hq as [Hq1 Hq2].
    exists q. split; [eapply ann_typed_by_sty; eauto|].
    destruct (sty_is_inv _ _ _ Hq2) as (e & k & s & _ & _ & ->).
    unfold arg_ok, ty_ann. rewrite ty_eqb_same, ty_value_ty_of, Hq3.
    destruct (ty_of s); try reflexivity; congruence. }
  assert (ZEROARG : forall q, ty_decl q && zero_lit q a = true ->
             exists ta, ety F G a = Some ta /\ arg_ok q ta = true).
  { intros q Hq. apply andb_true_iff in Hq as [Hd Hz]. exists q. split; [apply zero_lit_ety; assumption|].
    unfold arg_ok. rewrite ty_eqb_same, (ty_decl_ann q Hd).
    unfold zero_lit in Hz. destruct a; try discriminate; destruct q; try discriminate; reflexivity. }
  assert (GENARG : forall (gen : TypesSyntax.sty -> bool) q,
            ann_ok F G a && match spec_ty_of G a with Some s => gen s && ty_small (ty_of s) | None => false end = true ->
            (forall s, gen s = true -> ty_ann (ty_of s) = true -> arg_ok q (ty_of s) = true) ->
            exists ta, ety F G a = Some ta /\ arg_ok q ta = true).
  { intros gen q Hq Hgen. apply andb_true_iff in Hq as [Hq1 Hq2]. unfold spec_ty_of in Hq2.
    destruct (erase G a) as [e|] eqn:He; [|discriminate].
    destruct (TypesSpec.spec_tc e) as [[k s]|] eqn:Hs; [|discriminate]. simpl in Hq2.
    apply andb_true_iff in Hq2 as [Hq2 Hq3].
    exists (ty_of s). split; [eapply H1; eauto|auto using ty_ann_ty_of]. }
  destruct p;
    try (apply orb_true_iff in Ha as [Ha|Ha]; [apply PLAINARG; [exact Ha|discriminate|discriminate]|apply ZEROARG; exact Ha]).
  - (* any *)
    destruct a; try (apply (PLAINARG TAny); [rewrite Ha; reflexivity|discriminate|discriminate]).
    exists TAny. split; [|reflexivity]. cbn [ety].
    apply orb_true_iff in Ha as [Ha|Ha].
    + apply andb_true_iff in Ha as [Ha Ha4]. apply andb_true_iff in Ha as [Ha Ha3]. apply andb_true_iff in Ha as [Ha1 Ha2].
      rewrite (ann_typed_by_sty F G a t (H2 a t eq_refl) Ha1 Ha2). simpl. rewrite ty_eqb_same, Ha3. simpl.
      destruct (sty_is_inv _ _ _ Ha2) as (e & k & s & _ & _ & ->). rewrite (ty_ann_ty_of s Ha4). reflexivity.
    + unfold zero_any in Ha. apply andb_true_iff in Ha as [Hz Hk].
      assert (Hd : ty_decl t = true) by (destruct t as [| | | | |u|u| | | |]; try discriminate; destruct u; try discriminate; reflexivity).
      rewrite (zero_lit_ety F G t a Hz Hd). simpl. rewrite ty_eqb_same, (ty_decl_ann t Hd).
      destruct t; try discriminate; reflexivity.
  - (* generic array *)
    apply (GENARG TypesSpec.is_array_b); [exact Ha|]. intros s Hs Hann. destruct s; try discriminate Hs; exact Hann.
  - (* generic map *)
    apply (GENARG TypesSpec.is_map_b); [exact Ha|]. intros s Hs Hann. destruct s; try discriminate Hs; exact Hann.
Qed.

Lemma args_conv F G : forall args ps,
  Forall (arg_typed F G) args -> args_ann (ann_ok F G) G ps args = true ->
  exists ts, etys F G args = Some ts /\ args_ok ps None ts = true.
Proof.
  induction args as [|a args IH]; intros ps HF Ha; destruct ps as [|p ps]; simpl in Ha; try discriminate.
  - exists []. auto.
  - inversion HF; subst. apply andb_true_iff in Ha as [Ha1 Ha2].
    destruct (arg_conv F G p a H1 Ha1) as (ta & Hta & Hok).
    destruct (IH ps H2 Ha2) as (ts & Hts & Hoks).
    exists (ta :: ts). cbn [etys]. rewrite Hta, Hts. simpl. rewrite Hok, Hoks. auto.
Qed.

Lemma vargs_conv F G v : forall args,
  Forall (arg_typed F G) args -> vargs_ann (ann_ok F G) G v args = true ->
  exists ts, etys F G args = Some ts /\ forallb (arg_ok v) ts = true.
Proof.
  induction args as [|a args IH]; intros HF Ha; simpl in Ha.
  - exists []. auto.
  - inversion HF; subst. apply andb_true_iff in Ha as [Ha1 Ha2].
    destruct (arg_conv F G v a H1 Ha1) as (ta & Hta & Hok).
    destruct (IH H2 Ha2) as (ts & Hts & Hoks).
    exists (ta :: ts). cbn [etys]. rewrite Hta, Hts. simpl. rewrite Hok, Hoks. auto.
Qed.

Lemma elems_same F G t : forall es el ks,
  elems_ann F G t es = true -> erases G es = Some el -> TypesSpec.all_some (map TypesSpec.spec_tc el) = Some ks ->
  Forall (fun y => ty_of (snd y) = t) ks.
Proof.
  induction es as [|x es IH]; intros el ks Ha He Hk.
  - simpl in He. inversion He; subst. simpl in Hk. inversion Hk; constructor.
  - cbn [elems_ann] in Ha. apply andb_true_iff in Ha as [Ha Ha3]. apply andb_true_iff in Ha as [_ Ha2].
    cbn [erases] in He. destruct (erase G x) as [e|] eqn:Ex; [|discriminate].
    destruct (erases G es) as [el'|] eqn:Ees; [|discriminate]. inversion He; subst.
    simpl in Hk. destruct (TypesSpec.spec_tc e) as [[k st]|] eqn:Est; [|discriminate].
    destruct (TypesSpec.all_some (map TypesSpec.spec_tc el')) as [ks'|] eqn:Eks; [|discriminate]. inversion Hk; subst.
    constructor; [simpl; symmetry; eapply sty_is_eq; eauto|eauto].
Qed.

Lemma join_same (t : ty) y ks : Forall (fun z : TypesSpec.kind * TypesSyntax.sty => ty_of (snd z) = t) (y :: ks) ->
  ty_of (snd (fold_left TypesSpec.sjoin ks y)) = t.
Proof.
  intros H. inversion H; subst. rewrite TypesWhole.fold_sjoin_same with (u := snd y); auto.
  eapply Forall_impl; [|exact H3]. cbv beta. intros z Hz. apply ty_of_inj. congruence.
Qed.

Lemma elemsz_conv F G u : forall es, Forall (ann_typed F G) es -> ty_decl u = true -> elemsz_ann F G u es = true ->
  exists ts, etys F G es = Some ts /\ forallb (ty_eqb u) ts = true.
Proof.
  induction 1 as [|x es Hx _ IH]; intros Hd H.
  - exists []. auto.
  - cbn [elemsz_ann] in H. apply andb_true_iff in H as [H1 H2]. destruct (IH Hd H2) as (ts & Hts & Hall).
    exists (u :: ts). cbn [etys].
    assert (ety F G x = Some u) as ->.
    { apply orb_true_iff in H1 as [H1|H1]; [|apply zero_lit_ety; assumption].
      apply andb_true_iff in H1 as [A B]. exact (ann_typed_by_sty F G x u Hx A B). }
    rewrite Hts. cbn [forallb]. rewrite ty_eqb_same, Hall. auto.
Qed.

Lemma arg_ok_any_all ts : forallb (arg_ok TAny) ts = true -> forallb (ty_eqb TAny) ts = true.
Proof.
  induction ts as [|a ts IH]; [reflexivity|]. cbn [forallb]. intros H. apply andb_true_iff in H as [A B].
  unfold arg_ok in A. apply andb_true_iff in A as [A _]. rewrite A, (IH B). reflexivity.
Qed.

(* the elements of a non-empty literal of element type u, in each of the three ways ann_ok accepts them *)
Lemma lit_elems_conv F G u es A t :
  Forall (arg_typed F G) es ->
  elems_ann F G u es || (is_any u && vargs_ann (ann_ok F G) G TAny es && sty_is G A t)
    || (ty_decl u && elemsz_ann F G u es && sty_is G A t) = true ->
  exists ts, etys F G es = Some ts /\ forallb (ty_eqb u) ts = true /\
             (elems_ann F G u es = true \/ sty_is G A t = true /\ ty_value u = true).
Proof.
  intros H Ha.
  assert (HF : Forall (ann_typed F G) es) by (eapply Forall_impl; [|exact H]; intros a [Ha' _]; exact Ha').
  apply orb_true_iff in Ha as [Ha|Ha]; [apply orb_true_iff in Ha as [Ha|Ha]|].
  - destruct (elems_conv F G u es HF Ha) as (ts & Hts & Hall). exists ts. auto.
  - (* mixed element types: every element wrapped *)
    apply andb_true_iff in Ha as [Ha Hst]. apply andb_true_iff in Ha as [Hany Hv]. destruct u; try discriminate.
    destruct (vargs_conv F G TAny es H Hv) as (ts & Hts & Hok). exists ts.
    split; [exact Hts|split; [exact (arg_ok_any_all ts Hok)|right; split; [exact Hst|reflexivity]]].
  - (* elements that may be the empty literal retyped to the element type *)
    apply andb_true_iff in Ha as [Ha Hst]. apply andb_true_iff in Ha as [Hd Hv].
    destruct (elemsz_conv F G u es HF Hd Hv) as (ts & Hts & Hok). exists ts.
    split; [exact Hts|split; [exact Hok|right; split; [exact Hst|exact (ty_proper_value u (ty_decl_proper u Hd))]]].
Qed.

Lemma elems_join F G u es el ks :
  es <> [] -> elems_ann F G u es = true -> erases G es = Some el ->
  TypesSpec.all_some (map TypesSpec.spec_tc el) = Some ks ->
  exists y ks', ks = y :: ks' /\ ty_of (snd (fold_left TypesSpec.sjoin ks' y)) = u.
Proof.
  intros Hne Ha Eel Eks. pose proof (elems_same F G u _ _ _ Ha Eel Eks) as Hsame.
  destruct ks as [|y ks]; [exfalso; eapply nonempty_ks; [eapply erases_inv; eauto|exact Hne|exact Eks]|].
  exists y, ks. split; [reflexivity|apply join_same; exact Hsame].
Qed.

Lemma ann_typed_EVar F G n t : ann_typed F G (EVar n t).
Proof.
  intros Ha e k st He Hs. cbn [ann_ok] in Ha. cbn [erase] in He.
  apply andb_true_iff in Ha as [Ha Ha3]. apply andb_true_iff in Ha as [Ha1 Ha2].
  pose proof (opt_ty_eqb_eq _ _ Ha2) as Hl. rewrite Hl in He.
  destruct (sty_of t) as [s0|] eqn:Est; [|discriminate]. inversion He; subst. inversion Hs; subst.
  pose proof (ty_of_sty_of _ _ Est) as Et. subst t.
  cbn [ety]. rewrite Ha1, Ha2, (ty_ann_ty_of _ Ha3). reflexivity.
Qed.

Lemma ann_typed_EArr F G t es : Forall (arg_typed F G) es -> ann_typed F G (EArr t es).
Proof.
  intros H Ha e k st He Hs. pose proof He as He0. rewrite ann_ok_EArr in Ha. rewrite erase_EArr in He. rewrite ety_EArr.
  destruct es as [|x es].
  - destruct t; try discriminate. simpl in He. inversion He; subst. inversion Hs; subst. reflexivity.
  - destruct t; try discriminate. apply andb_true_iff in Ha as [Ha1 Ha2].
    destruct (lit_elems_conv _ _ _ _ _ _ H Ha1) as (ts & Hts & Hall & Hcase). rewrite Hts, Hall.
    assert (Et : TArr t = ty_of st /\ ty_value t = true).
    { destruct Hcase as [Hel|[Hst Hv]]; [|split; [exact (sty_is_eq G _ _ e k st Hst He0 Hs)|exact Hv]].
      destruct (erases G (x :: es)) as [el|] eqn:Eel; [|discriminate]. simpl in He. inversion He; subst.
      cbn [TypesSpec.spec_tc] in Hs.
      destruct (TypesSpec.all_some (map TypesSpec.spec_tc el)) as [ks|] eqn:Eks; [|discriminate].
      destruct (elems_join F G t (x :: es) _ _ ltac:(discriminate) Hel Eel Eks) as (y & ks' & -> & Hj).
      injection Hs as <- <-. simpl ty_of. rewrite Hj. split; [reflexivity|]. rewrite <- Hj. apply ty_value_ty_of. }
    destruct Et as [<- Hv]. unfold ty_ann. simpl ty_value. rewrite Hv, Ha2. reflexivity.
Qed.

Lemma ann_typed_EMap F G t ps : Forall (fun p => arg_typed F G (snd p)) ps -> ann_typed F G (EMap t ps).
Proof.
  intros H Ha e k st He Hs. pose proof He as He0. rewrite ann_ok_EMap in Ha.
  rewrite erase_EMap, erasep_map in He. rewrite ety_EMap, etyps_map.
  apply Forall_map in H.
  destruct ps as [|p ps].
  - destruct t; try discriminate. simpl in He. inversion He; subst. inversion Hs; subst. reflexivity.
  - destruct t; try discriminate. apply andb_true_iff in Ha as [Ha Ha3]. apply andb_true_iff in Ha as [Ha1 Ha2].
    rewrite pelems_ann_map, pvargs_ann_map, pelemsz_ann_map in Ha1.
    destruct (lit_elems_conv _ _ _ _ _ _ H Ha1) as (ts & Hts & Hall & Hcase). rewrite Hts, Hall.
    assert (Et : TMap t = ty_of st /\ ty_value t = true).
    { destruct Hcase as [Hel|[Hst Hv]]; [|split; [exact (sty_is_eq G _ _ e k st Hst He0 Hs)|exact Hv]].
      destruct (erases G (map snd (p :: ps))) as [el|] eqn:Eel; [|discriminate]. simpl in He. inversion He; subst.
      cbn [TypesSpec.spec_tc] in Hs.
      destruct (TypesSpec.all_some (map TypesSpec.spec_tc el)) as [ks|] eqn:Eks; [|discriminate].
      destruct (elems_join F G t (map snd (p :: ps)) _ _ ltac:(simpl; discriminate) Hel Eel Eks) as (y & ks' & -> & Hj).
      injection Hs as <- <-. simpl ty_of. rewrite Hj. split; [reflexivity|]. rewrite <- Hj. apply ty_value_ty_of. }
    destruct Et as [<- Hv]. unfold ty_ann. simpl ty_value. rewrite Hv, Ha2, Ha3. reflexivity.
Qed.

Lemma ann_typed_ECall F G n t args : Forall (arg_typed F G) args -> ann_typed F G (ECall n t args).
Proof.
  intros H Ha e k st He Hs. rewrite ann_ok_ECall in Ha. rewrite ety_ECall. cbn [erase] in He.
  destruct (lookup_sig F n) as [sg|]; [|discriminate].
  apply andb_true_iff in Ha as [Ha Ha3]. apply andb_true_iff in Ha as [Ha1 Ha2].
  destruct (sty_of t) as [s0|] eqn:Est; [|discriminate]. inversion He; subst. inversion Hs; subst.
  rewrite (ty_of_sty_of _ _ Est).
  unfold sig_ann in Ha3. unfold sig_args_ok.
  destruct (fs_var sg) as [v|].
  - destruct (fs_params sg); [|discriminate].
    destruct (vargs_conv F G v args H Ha3) as (ts & Hts & Hok). rewrite Hts, Hok, Ha1. reflexivity.
  - destruct (args_conv F G args (fs_params sg) H Ha3) as (ts & Hts & Hok). rewrite Hts, Hok, Ha1. reflexivity.
Qed.

Lemma ann_typed_EUn F G op A : ann_typed F G A -> ann_typed F G (EUn op A).
Proof.
  intros IHA Ha e k st He Hs. cbn [ann_ok] in Ha. cbn [erase] in He.
  destruct (erase G A) as [ea|] eqn:Ea; [|discriminate]. simpl in He. inversion He; subst.
  cbn [TypesSpec.spec_tc] in Hs. destruct (TypesSpec.spec_tc ea) as [[ka sa]|] eqn:Esa; [|discriminate].
  cbn [ety]. rewrite (IHA Ha _ _ _ Ea Esa).
  destruct op, sa; simpl in Hs; try discriminate; inversion Hs; subst; reflexivity.
Qed.

Lemma ann_typed_EBin F G op t A1 A2 : ann_typed F G A1 -> ann_typed F G A2 -> ann_typed F G (EBin op t A1 A2).
Proof.
  intros IHA1 IHA2 Ha e k st He Hs. cbn [ann_ok] in Ha. cbn [erase] in He.
  apply andb_true_iff in Ha as [Ha Ha5]. apply andb_true_iff in Ha as [Ha Ha4].
  apply andb_true_iff in Ha as [Ha Ha3]. apply andb_true_iff in Ha as [Ha1 Ha2].
  unfold spec_ty_of in Ha5.
  destruct (erase G A1) as [e1|] eqn:E1; [|discriminate]. destruct (erase G A2) as [e2|] eqn:E2; [|discriminate].
  inversion He; subst. cbn [TypesSpec.spec_tc] in Hs.
  destruct (TypesSpec.spec_tc e1) as [[k1 s1]|] eqn:Es1; [|discriminate].
  destruct (TypesSpec.spec_tc e2) as [[k2 s2]|] eqn:Es2; [|discriminate]. simpl in Ha5.
  destruct (TypesSpec.op_type (binop_of op) s1 s2) as [so|] eqn:Eop; inversion Hs; subst.
  assert (Et : t = ty_of st).
  { eapply sty_is_eq; [exact Ha4| |].
    - cbn [erase]. rewrite E1, E2. reflexivity.
    - cbn [TypesSpec.spec_tc]. rewrite Es1, Es2, Eop. reflexivity. }
  subst t.
  cbn [ety]. rewrite (IHA1 Ha1 _ _ _ E1 Es1), (IHA2 Ha2 _ _ _ E2 Es2).
  pose proof (op_type_static op s1 s2 st Eop (shallow_b_ok _ _ _ Ha5)) as Hok. unfold bin_ok in Hok.
  rewrite Hok, (ty_ann_ty_of _ Ha3). reflexivity.
Qed.

Lemma ann_typed_EIndex F G t A1 A2 : ann_typed F G A1 -> ann_typed F G A2 -> ann_typed F G (EIndex t A1 A2).
Proof.
  intros IHA1 IHA2 Ha e k st He Hs. cbn [ann_ok] in Ha. cbn [erase] in He.
  apply andb_true_iff in Ha as [Ha Ha4]. apply andb_true_iff in Ha as [Ha Ha3]. apply andb_true_iff in Ha as [Ha1 Ha2].
  destruct (erase G A1) as [e1|] eqn:E1; [|discriminate]. destruct (erase G A2) as [e2|] eqn:E2; [|discriminate].
  inversion He; subst. cbn [TypesSpec.spec_tc] in Hs.
  destruct (TypesSpec.spec_tc e1) as [[k1 s1]|] eqn:Es1; [|discriminate].
  destruct (TypesSpec.spec_tc e2) as [[k2 s2]|] eqn:Es2; [|discriminate].
  destruct (TypesSpec.index_type_s s1 s2) as [so|] eqn:Eop; inversion Hs; subst.
  assert (Et : t = ty_of st).
  { eapply sty_is_eq; [exact Ha4| |].
    - cbn [erase]. rewrite E1, E2. reflexivity.
    - cbn [TypesSpec.spec_tc]. rewrite Es1, Es2, Eop. reflexivity. }
  subst t.
  cbn [ety]. rewrite (IHA1 Ha1 _ _ _ E1 Es1), (IHA2 Ha2 _ _ _ E2 Es2).
  destruct s1, s2; simpl in Eop; try discriminate; inversion Eop; subst; simpl;
    unfold ty_ann; rewrite ?ty_eqb_same, ?ty_value_ty_of, ?Ha3; reflexivity.
Qed.

Lemma ann_typed_ESlice F G t A lo hi :
  ann_typed F G A -> (forall x, lo = Some x -> ann_typed F G x) -> (forall x, hi = Some x -> ann_typed F G x) ->
  ann_typed F G (ESlice t A lo hi).
Proof.
  intros IHA H H0 Ha e k st He Hs. rewrite ann_ok_ESlice in Ha. rewrite erase_ESlice in He. rewrite ety_ESlice.
  apply andb_true_iff in Ha as [Ha Ha4]. apply andb_true_iff in Ha as [Ha Ha3]. apply andb_true_iff in Ha as [Ha1 Ha2].
  destruct (erase G A) as [e1|] eqn:E1; [|discriminate].
  destruct (eraseo G lo) as [elo|] eqn:Elo; [|discriminate]. destruct (eraseo G hi) as [ehi|] eqn:Ehi; [|discriminate].
  inversion He; subst. rewrite TypesWhole.spec_tc_ESlice in Hs.
  destruct (TypesSpec.spec_tc e1) as [[k1 s1]|] eqn:Es1; [|discriminate].
  assert (BD : forall o eo, (forall x, o = Some x -> ann_typed F G x) -> bound_ann F G o = true -> eraseo G o = Some eo ->
             TypesWhole.sbound eo <> None -> etyo F G o = true).
  { intros o eo Ho Hb Heo Hne. destruct o as [x|]; [|reflexivity]. simpl in *.
    destruct (erase G x) as [ex|] eqn:Ex; [|discriminate]. inversion Heo; subst. simpl in Hne.
    destruct (TypesSpec.spec_tc ex) as [[kx sx]|] eqn:Esx; [|congruence].
    destruct sx; try congruence.
    rewrite (Ho x eq_refl Hb _ _ _ Ex Esx). reflexivity. }
  destruct (TypesWhole.sbound elo) as [kb1|] eqn:B1; [|discriminate].
  destruct (TypesWhole.sbound ehi) as [kb2|] eqn:B2; [|discriminate].
  destruct (TypesSpec.slice_type_s s1) as [so|] eqn:Esl; [|discriminate].
  inversion Hs; subst.
  assert (Et : t = ty_of st).
  { eapply sty_is_eq; [exact Ha4| |].
    - rewrite erase_ESlice, E1, Elo, Ehi. reflexivity.
    - rewrite TypesWhole.spec_tc_ESlice, Es1, B1, B2, Esl. reflexivity. }
  subst t.
  rewrite (IHA Ha1 _ _ _ E1 Es1).
  rewrite (BD lo elo H Ha2 Elo) by (rewrite B1; discriminate).
  rewrite (BD hi ehi H0 Ha3 Ehi) by (rewrite B2; discriminate).
  destruct s1; simpl in Esl; try discriminate; inversion Esl; subst; simpl; rewrite ?ty_eqb_same; reflexivity.
Qed.

Lemma ann_typed_EDot F G t A key : ann_typed F G A -> ann_typed F G (EDot t A key).
Proof.
  intros IHA Ha e k st He Hs. cbn [ann_ok] in Ha. cbn [erase] in He.
  apply andb_true_iff in Ha as [Ha Ha3]. apply andb_true_iff in Ha as [Ha1 Ha2].
  destruct (erase G A) as [e1|] eqn:E1; [|discriminate]. simpl in He. inversion He; subst.
  cbn [TypesSpec.spec_tc] in Hs. destruct (TypesSpec.spec_tc e1) as [[k1 s1]|] eqn:Es1; [|discriminate].
  destruct (TypesSpec.dot_type_s s1) as [so|] eqn:Eop; inversion Hs; subst.
  assert (Et : t = ty_of st).
  { eapply sty_is_eq; [exact Ha3| |].
    - cbn [erase]. rewrite E1. reflexivity.
    - cbn [TypesSpec.spec_tc]. rewrite Es1, Eop. reflexivity. }
  subst t. cbn [ety]. rewrite (IHA Ha1 _ _ _ E1 Es1).
  destruct s1; simpl in Eop; try discriminate; inversion Eop; subst; simpl.
  unfold ty_ann. rewrite ty_eqb_same, ty_value_ty_of, Ha2. reflexivity.
Qed.

Lemma ann_typed_EGroup F G A : ann_typed F G A -> ann_typed F G (EGroup A).
Proof.
  intros IHA Ha e k st He Hs. cbn [ann_ok] in Ha. cbn [erase] in He.
  destruct (erase G A) as [e1|] eqn:E1; [|discriminate]. simpl in He. inversion He; subst.
  cbn [TypesSpec.spec_tc] in Hs. cbn [ety]. eapply IHA; eauto.
Qed.

Lemma ann_typed_EAssert F G t A : ann_typed F G A -> ann_typed F G (EAssert t A).
Proof.
  intros IHA Ha e k st He Hs. cbn [ann_ok] in Ha. cbn [erase] in He.
  apply andb_true_iff in Ha as [Ha1 Ha2].
  destruct (erase G A) as [e1|] eqn:E1; [|discriminate]. destruct (sty_of t) as [s0|] eqn:Est; [|discriminate].
  inversion He; subst. cbn [TypesSpec.spec_tc] in Hs.
  destruct (TypesSpec.spec_tc e1) as [[k1 s1]|] eqn:Es1; [|discriminate].
  destruct s1; try discriminate.
  destruct (negb (TypesSyntax.sty_eqb s0 TypesSyntax.SAny) && TypesSyntax.closed s0) eqn:Ec; inversion Hs; subst.
  pose proof (ty_of_sty_of _ _ Est) as Et. subst t.
  cbn [ety]. rewrite (IHA Ha1 _ _ _ E1 Es1). simpl.
  rewrite assert_spec, Ec, Ha2. reflexivity.
Qed.

Theorem spec_to_static F G : forall A, arg_typed F G A.
Proof.
  induction A using expr_ind'; (split; [|try (intros a' t' Heq; discriminate Heq)]).
  - intros _ e k st He Hs. inversion He; subst. inversion Hs; subst. reflexivity.
  - intros _ e k st He Hs. inversion He; subst. inversion Hs; subst. reflexivity.
  - intros _ e k st He Hs. inversion He; subst. inversion Hs; subst. reflexivity.
  - apply ann_typed_EVar.
  - intros Ha; discriminate.
  - (* the operand of an Any wrapper *)
    intros a' t' Heq. inversion Heq; subst. apply IHA.
  - apply ann_typed_EArr, H.
  - apply ann_typed_EMap, H.
  - apply ann_typed_ECall, H.
  - apply ann_typed_EUn, IHA.
  - apply ann_typed_EBin; [apply IHA1|apply IHA2].
  - apply ann_typed_EIndex; [apply IHA1|apply IHA2].
  - apply ann_typed_ESlice; [apply IHA|intros x Hx; apply (H x Hx)|intros x Hx; apply (H0 x Hx)].
  - apply ann_typed_EDot, IHA.
  - apply ann_typed_EGroup, IHA.
  - apply ann_typed_EAssert, IHA.
Qed.

Lemma ann_sty_ety F G A s : ann_ok F G A = true -> spec_ty_of G A = Some s -> ety F G A = Some (ty_of s).
Proof.
  intros Ha Hs. unfold spec_ty_of in Hs. destruct (erase G A) as [e|] eqn:He; [|discriminate].
  destruct (TypesSpec.spec_tc e) as [[k s']|] eqn:Ht; [|discriminate]. simpl in Hs. inversion Hs; subst.
  exact (proj1 (spec_to_static F G A) Ha e k s He Ht).
Qed.

(* a value flowing into a slot of type t (declared variable, assignment target, return type): it has
   exactly the slot's type, or the slot is any and the value is wrapped *)
Definition sval (F : list funcdef) (G : tyenv) (t : ty) (e : expr) : bool :=
  ty_value t && arg_ann (ann_ok F G) G t e.

Lemma sval_ety F G t e : sval F G t e = true -> ety F G e = Some t.
Proof.
  unfold sval. intros H. apply andb_true_iff in H as [Hv H].
  destruct (arg_conv F G t e (spec_to_static F G e) H) as (ta & Hta & Hok).
  unfold arg_ok in Hok. destruct t; try discriminate;
    apply andb_true_iff in Hok as [Hok _]; apply ty_eqb_eq in Hok; subst; exact Hta.
Qed.

(* the retyped empty literal of a value slot is the source expression [] / {} , which the
   specification converts to every closed array / map type (and stores into any) *)
Lemma zero_spec_accepts G t e st : zero_lit t e = true -> sty_of t = Some st ->
  exists e', erase G e = Some e' /\
    (exists shown, TypesSpec.spec_check (TypesSyntax.CAssign st) e' = TypesSpec.SAccept st shown) /\
    (exists shown, TypesSpec.spec_check (TypesSyntax.CAssign TypesSyntax.SAny) e' = TypesSpec.SAccept TypesSyntax.SAny shown).
Proof.
  unfold zero_lit. intros H Hst.
  destruct e; try discriminate.
  - destruct es; [|discriminate]. destruct t; try discriminate. exists (TypesSyntax.EArr []). split; [reflexivity|].
    simpl in Hst. destruct (sty_of t) as [u|]; [|discriminate]. inversion Hst; subst st.
    vm_compute. eauto.
  - destruct pairs; [|discriminate]. destruct t; try discriminate. exists (TypesSyntax.EMap []). split; [reflexivity|].
    simpl in Hst. destruct (sty_of t) as [u|]; [|discriminate]. inversion Hst; subst st.
    vm_compute. eauto.
Qed.

(* the specification's assignability rule accepts the flow of [sval] *)
Lemma sval_spec_accepts F G t e st :
  sval F G t e = true -> sty_of t = Some st -> TypesSyntax.closed st = true ->
  exists e', erase G e = Some e' /\
             exists shown, TypesSpec.spec_check (TypesSyntax.CAssign st) e' = TypesSpec.SAccept st shown.
Proof.
  unfold sval. intros H Hst Hc. apply andb_true_iff in H as [_ H].
  assert (EXACT : forall a, sty_is G a t = true ->
            exists e', erase G a = Some e' /\ exists k, TypesSpec.spec_tc e' = Some (k, st)).
  { intros a Hs. destruct (sty_is_inv _ _ _ Hs) as (e' & k & s & He & Htc & Ht).
    exists e'. split; [exact He|]. exists k. rewrite Htc. subst t. rewrite sty_of_ty_of in Hst. congruence. }
  assert (ACC : forall e' k, TypesSpec.spec_tc e' = Some (k, st) ->
            exists shown, TypesSpec.spec_check (TypesSyntax.CAssign st) e' = TypesSpec.SAccept st shown).
  { intros e' k Htc. unfold TypesSpec.spec_check, TypesSpec.spec_assign. rewrite Htc.
    assert (TypesSpec.assignable_b k st st = true) as ->; [|eauto].
    unfold TypesSpec.assignable_b. destruct k; [rewrite (proj2 (TypesSpecProofs.sty_eqb_eq st st) eq_refl); reflexivity|].
    apply TypesSpecProofs.conv_b_refl. }
  assert (PLAIN : forall a, ann_ok F G a && sty_is G a t && ty_small t = true ->
            exists e', erase G a = Some e' /\
              exists shown, TypesSpec.spec_check (TypesSyntax.CAssign st) e' = TypesSpec.SAccept st shown).
  { intros a Ha. apply andb_true_iff in Ha as [Ha _]. apply andb_true_iff in Ha as [_ Ha].
    destruct (EXACT _ Ha) as (e' & He & k & Htc). exists e'. split; [exact He|]. eapply ACC; eauto. }
  assert (ZERO : ty_decl t && zero_lit t e = true ->
            exists e', erase G e = Some e' /\
              exists shown, TypesSpec.spec_check (TypesSyntax.CAssign st) e' = TypesSpec.SAccept st shown).
  { intros Hz. apply andb_true_iff in Hz as [_ Hz].
    destruct (zero_spec_accepts G t e st Hz Hst) as (e' & He & A & _). eauto. }
  unfold arg_ann in H. destruct t; try discriminate;
    try (apply orb_true_iff in H as [H|H]; [apply PLAIN; exact H|apply ZERO; exact H]).
  (* the slot is any *)
  simpl in Hst. inversion Hst; subst st.
  destruct e as [| | | |a' t'| | | | | | | | | |]; try (apply andb_true_iff in H as [_ H];
         destruct (EXACT _ H) as (e' & He & k & Htc); exists e'; split; [exact He|]; eapply ACC; eauto).
  apply orb_true_iff in H as [H|H].
  - apply andb_true_iff in H as [H _]. apply andb_true_iff in H as [H _]. apply andb_true_iff in H as [_ H].
    destruct (sty_is_inv _ _ _ H) as (e' & k & s & He & Htc & Ht).
    exists e'. cbn [erase]. split; [exact He|].
    unfold TypesSpec.spec_check, TypesSpec.spec_assign. rewrite Htc.
    assert (TypesSpec.assignable_b k TypesSyntax.SAny s = true) as ->; [|eauto].
    unfold TypesSpec.assignable_b. destruct k; [apply orb_true_r|]. destruct s; reflexivity.
  - unfold zero_any in H. apply andb_true_iff in H as [Hz Hk].
    assert (exists u, sty_of t' = Some u) as (u & Hu).
    { destruct t' as [| | | | |v|v| | | |]; try discriminate; destruct v; try discriminate; simpl; eauto. }
    destruct (zero_spec_accepts G t' a' u Hz Hu) as (e' & He & _ & A). exists e'. cbn [erase]. split; [exact He|exact A].
Qed.

(* the written target as the specification's context sees it: root variable type + steps *)
Fixpoint target_of (G : tyenv) (tg : expr) : option (TypesSyntax.sty * list TypesSyntax.tstep) :=
  match tg with
  | EVar n _ => match slookup n G with
                | Some t => match sty_of t with Some s => Some (s, []) | None => None end
                | None => None
                end
  | EIndex _ a i =>
      match target_of G a, erase G i with
      | Some (root, steps), Some i' => Some (root, steps ++ [TypesSyntax.TIdx i'])
      | _, _ => None
      end
  | EDot _ a _ =>
      match target_of G a with
      | Some (root, steps) => Some (root, steps ++ [TypesSyntax.TDot])
      | None => None
      end
  | _ => None
  end.

(* the type the specification's target-chain rule gives the target *)
Definition target_sty (G : tyenv) (tg : expr) : option TypesSyntax.sty :=
  match target_of G tg with
  | Some (root, steps) =>
      match TypesSpec.spec_steps steps with
      | Some ks => TypesSpec.target_chain_s root ks
      | None => None
      end
  | None => None
  end.

Lemma spec_steps_app a b :
  TypesSpec.spec_steps (a ++ b) =
  match TypesSpec.spec_steps a, TypesSpec.spec_steps b with Some x, Some y => Some (x ++ y) | _, _ => None end.
Proof.
  induction a as [|st a IH]; simpl.
  - destruct (TypesSpec.spec_steps b); reflexivity.
  - rewrite IH.
    destruct (match st with
              | TypesSyntax.TIdx i => match TypesSpec.spec_tc i with Some (_, it) => Some (TypesSpec.SKIdx it) | None => None end
              | TypesSyntax.TDot => Some TypesSpec.SKDot | TypesSyntax.TSlice _ => Some TypesSpec.SKSlice | TypesSyntax.TAssert _ => Some TypesSpec.SKAssert end);
      destruct (TypesSpec.spec_steps a); destruct (TypesSpec.spec_steps b); reflexivity.
Qed.

Lemma target_chain_app root a b :
  TypesSpec.target_chain_s root (a ++ b) =
  match TypesSpec.target_chain_s root a with Some t => TypesSpec.target_chain_s t b | None => None end.
Proof.
  revert root; induction a as [|k a IH]; intros root; simpl; [reflexivity|].
  destruct (TypesSpec.target_step_s root k); [apply IH|reflexivity].
Qed.

(* a target the chain rule types is typed the same by the expression rules, and its last step is an
   array or map step (Static's shape condition) *)
Lemma target_sty_spec G : forall tg st, target_sty G tg = Some st ->
  spec_ty_of G tg = Some st /\
  match tg with
  | EVar _ _ | EDot _ _ _ => True
  | EIndex _ a _ => exists u, spec_ty_of G a = Some (TypesSyntax.SArr u) \/ spec_ty_of G a = Some (TypesSyntax.SMap u)
  | _ => False
  end.
Proof.
  unfold target_sty.
  induction tg as [| | |n t0'| | | | | | |tx tg1 IHtg1 tg2 IHtg2| |tx tg IHtg key| |]; intros st H; cbn [target_of] in H; try discriminate.
  - (* variable *)
    destruct (slookup n G) as [t0|] eqn:El; [|discriminate].
    destruct (sty_of t0) as [s0|] eqn:Es; [|discriminate]. simpl in H. inversion H; subst.
    split; [|exact I]. unfold spec_ty_of. cbn [erase]. rewrite El, Es. reflexivity.
  - (* index step *)
    destruct (target_of G tg1) as [[root steps]|] eqn:E1; [|discriminate].
    destruct (erase G tg2) as [i'|] eqn:E2; [|discriminate].
    rewrite spec_steps_app in H. destruct (TypesSpec.spec_steps steps) as [ks|] eqn:Ek; [|discriminate].
    simpl in H. destruct (TypesSpec.spec_tc i') as [[ki it]|] eqn:Ei; [|discriminate].
    rewrite target_chain_app in H. destruct (TypesSpec.target_chain_s root ks) as [ta|] eqn:Ec; [|discriminate].
    destruct (IHtg1 ta eq_refl) as [Ha _]. simpl in H.
    unfold spec_ty_of in *. cbn [erase]. destruct (erase G tg1) as [l'|]; [|discriminate]. rewrite E2.
    cbn [TypesSpec.spec_tc]. destruct (TypesSpec.spec_tc l') as [[kl a]|]; [|discriminate]. simpl in Ha. inversion Ha; subst a.
    rewrite Ei. destruct (TypesSpec.target_step_s ta (TypesSpec.SKIdx it)) as [t'|] eqn:Et; [|discriminate]. inversion H; subst t'.
    destruct ta; try discriminate; destruct it; try discriminate; simpl in Et; inversion Et; subst; simpl; eauto.
  - (* dot step *)
    destruct (target_of G tg) as [[root steps]|] eqn:E1; [|discriminate].
    rewrite spec_steps_app in H. destruct (TypesSpec.spec_steps steps) as [ks|] eqn:Ek; [|discriminate].
    simpl in H. rewrite target_chain_app in H. destruct (TypesSpec.target_chain_s root ks) as [ta|] eqn:Ec; [|discriminate].
    destruct (IHtg ta eq_refl) as [Ha _]. simpl in H.
    unfold spec_ty_of in *. cbn [erase]. destruct (erase G tg) as [l'|]; [|discriminate].
    cbn [TypesSpec.spec_tc option_map]. destruct (TypesSpec.spec_tc l') as [[kl a]|]; [|discriminate]. simpl in Ha. inversion Ha; subst a.
    destruct (TypesSpec.target_step_s ta TypesSpec.SKDot) as [t'|] eqn:Et; [|discriminate]. inversion H; subst t'.
    destruct ta; try discriminate; simpl in Et; inversion Et; subst; simpl; auto.
Qed.

(* the specification's verdict on the range operand, under the guard of [range_spec] *)
Definition range_guard (s : TypesSyntax.sty) : bool :=
  match s with TypesSyntax.SArr u => TypesSyntax.closed u | TypesSyntax.SNum => false | _ => true end.

Definition srange (s : TypesSyntax.sty) : option ty :=
  if range_guard s then
    match TypesSpec.spec_check TypesSyntax.CRange (TypesSyntax.EVar s) with TypesSpec.SAccept st _ => Some (ty_of st) | TypesSpec.SReject => None end
  else None.

Lemma spec_check_range_tc e k s : TypesSpec.spec_tc e = Some (k, s) ->
  TypesSpec.spec_check TypesSyntax.CRange e = TypesSpec.spec_check TypesSyntax.CRange (TypesSyntax.EVar s).
Proof. intros H. unfold TypesSpec.spec_check. rewrite H. reflexivity. Qed.

Lemma srange_static s t : srange s = Some t -> range_var_ty (ty_of s) = Some t.
Proof.
  unfold srange. destruct (range_guard s) eqn:Eg; [|discriminate]. intros H.
  rewrite <- (range_spec s).
  - destruct (TypesSpec.spec_check TypesSyntax.CRange (TypesSyntax.EVar s)); [|discriminate]. inversion H; reflexivity.
  - destruct s; simpl in *; auto; discriminate.
Qed.

(* [conv F G t A]: A is a tree of slot type t -- either an expression of exactly that type carrying the
   specification's types, or the conversion of a composite literal: the literal (and the
   concatenations, repetitions, groups and slices of literals) retyped t with every element converted
   to the element type; an element converted to any is wrapped, the wrapper recording the type the
   value has on its own *)
Definition is_arr (t : ty) : bool := match t with TArr _ => true | _ => false end.

Fixpoint conv (F : list funcdef) (G : tyenv) (t : ty) (A : expr) {struct A} : bool :=
  let all (u : ty) := fix go (es : list expr) : bool :=
    match es with [] => true | x :: r => conv F G u x && go r end in
  let allp (u : ty) := fix go (ps : list (str * expr)) : bool :=
    match ps with [] => true | (_, x) :: r => conv F G u x && go r end in
  let bnd (o : option expr) : bool :=
    match o with Some x => ann_ok F G x && sty_is G x TNum | None => true end in
  (ann_ok F G A && sty_is G A t && ty_small t)
  || match A with
     | EAny a' t' => is_any t && negb (is_any t') && ty_decl t' && conv F G t' a'
     | EArr t0 es => ty_eqb t0 t && ty_decl t && match t with TArr u => all u es | _ => false end
     | EMap t0 ps =>
         ty_eqb t0 t && ty_decl t && match t with TMap u => allp u ps && keys_nodup (map fst ps) | _ => false end
     | EBin BPlus t0 l r => ty_eqb t0 t && ty_decl t && is_arr t && conv F G t l && conv F G t r
     | EBin BAsterisk t0 l r =>
         ty_eqb t0 t && ty_decl t && is_arr t && conv F G t l && ann_ok F G r && sty_is G r TNum
     | EGroup a => conv F G t a
     | ESlice t0 l lo hi => ty_eqb t0 t && ty_decl t && is_arr t && conv F G t l && bnd lo && bnd hi
     | _ => false
     end.

Section ConvLists.
  Context (F : list funcdef) (G : tyenv) (u : ty).
  Fixpoint convs (es : list expr) : bool :=
    match es with [] => true | x :: r => conv F G u x && convs r end.
  Fixpoint convp (ps : list (str * expr)) : bool :=
    match ps with [] => true | (_, x) :: r => conv F G u x && convp r end.
End ConvLists.
Definition bnd_ann (F : list funcdef) (G : tyenv) (o : option expr) : bool :=
  match o with Some x => ann_ok F G x && sty_is G x TNum | None => true end.

Definition conv_struct (F : list funcdef) (G : tyenv) (t : ty) (A : expr) : bool :=
  match A with
  | EAny a' t' => is_any t && negb (is_any t') && ty_decl t' && conv F G t' a'
  | EArr t0 es => ty_eqb t0 t && ty_decl t && match t with TArr u => convs F G u es | _ => false end
  | EMap t0 ps =>
      ty_eqb t0 t && ty_decl t && match t with TMap u => convp F G u ps && keys_nodup (map fst ps) | _ => false end
  | EBin BPlus t0 l r => ty_eqb t0 t && ty_decl t && is_arr t && conv F G t l && conv F G t r
  | EBin BAsterisk t0 l r =>
      ty_eqb t0 t && ty_decl t && is_arr t && conv F G t l && ann_ok F G r && sty_is G r TNum
  | EGroup a => conv F G t a
  | ESlice t0 l lo hi => ty_eqb t0 t && ty_decl t && is_arr t && conv F G t l && bnd_ann F G lo && bnd_ann F G hi
  | _ => false
  end.

Lemma conv_eq F G t A : conv F G t A = (ann_ok F G A && sty_is G A t && ty_small t) || conv_struct F G t A.
Proof. destruct A; reflexivity. Qed.

Lemma convs_etys F G u : forall es, Forall (fun x => forall t, conv F G t x = true -> ety F G x = Some t) es ->
  convs F G u es = true -> exists ts, etys F G es = Some ts /\ forallb (ty_eqb u) ts = true.
Proof.
  induction 1 as [|x es Hx _ IH]; intros H.
  - exists []. auto.
  - cbn [convs] in H. apply andb_true_iff in H as [H1 H2]. destruct (IH H2) as (ts & Hts & Hall).
    exists (u :: ts). cbn [etys]. rewrite (Hx u H1), Hts. cbn [forallb]. rewrite ty_eqb_same, Hall. auto.
Qed.

Lemma convp_map F G u ps : convp F G u ps = convs F G u (map snd ps).
Proof. induction ps as [|[k x] ps IH]; simpl; [reflexivity|rewrite IH; reflexivity]. Qed.

Lemma bnd_etyo F G o : bnd_ann F G o = true -> etyo F G o = true.
Proof.
  destruct o as [x|]; simpl; auto. intros H. apply andb_true_iff in H as [H1 H2].
  rewrite (ann_typed_by_sty F G x TNum (proj1 (spec_to_static F G x)) H1 H2). apply ty_eqb_same.
Qed.

Theorem conv_ety F G : forall A t, conv F G t A = true -> ety F G A = Some t.
Proof.
  induction A using expr_ind'; intros tz Hcv; rewrite conv_eq in Hcv; apply orb_true_iff in Hcv as [Hcv|Hcv];
    try (apply andb_true_iff in Hcv as [Hcv _]; apply andb_true_iff in Hcv as [Ha Hs];
         exact (ann_typed_by_sty F G _ tz (proj1 (spec_to_static F G _)) Ha Hs));
    try discriminate Hcv; cbn [conv_struct] in Hcv.
  - (* wrapped into any *)
    apply andb_true_iff in Hcv as [Hcv Hc]. apply andb_true_iff in Hcv as [Hcv Hd]. apply andb_true_iff in Hcv as [Hany Hn].
    destruct tz; try discriminate. cbn [ety]. rewrite (IHA t Hc), (ty_decl_ann t Hd), Hn. simpl. rewrite ty_eqb_same. reflexivity.
  - (* array literal *)
    apply andb_true_iff in Hcv as [Hcv Hc]. apply andb_true_iff in Hcv as [He Hd]. apply ty_eqb_eq in He. subst t.
    destruct tz; try discriminate. rewrite ety_EArr. rewrite (ty_decl_ann _ Hd).
    destruct es as [|x es]; [reflexivity|].
    destruct (convs_etys F G tz (x :: es) H Hc) as (ts & -> & ->). reflexivity.
  - (* map literal *)
    apply andb_true_iff in Hcv as [Hcv Hc]. apply andb_true_iff in Hcv as [He Hd]. apply ty_eqb_eq in He. subst t.
    destruct tz; try discriminate. apply andb_true_iff in Hc as [Hc Hk]. rewrite ety_EMap, etyps_map. rewrite (ty_decl_ann _ Hd).
    rewrite convp_map in Hc.
    apply (proj2 (Forall_map snd (fun x => forall t, conv F G t x = true -> ety F G x = Some t) ps)) in H.
    destruct ps as [|p ps]; [reflexivity|].
    destruct (convs_etys F G tz (map snd (p :: ps)) H Hc) as (ts & -> & ->). rewrite Hk. reflexivity.
  - (* concatenation / repetition *)
    destruct op; try discriminate.
    + apply andb_true_iff in Hcv as [Hcv Hr]. apply andb_true_iff in Hcv as [Hcv Hl]. apply andb_true_iff in Hcv as [Hcv Harr].
      apply andb_true_iff in Hcv as [He Hd]. apply ty_eqb_eq in He. subst t.
      cbn [ety]. rewrite (IHA1 tz Hl), (IHA2 tz Hr), (ty_decl_ann _ Hd).
      destruct tz; try discriminate. simpl. unfold opt_ty_eqb. simpl. rewrite ?ty_eqb_same. reflexivity.
    + apply andb_true_iff in Hcv as [Hcv Hs]. apply andb_true_iff in Hcv as [Hcv Ha]. apply andb_true_iff in Hcv as [Hcv Hl].
      apply andb_true_iff in Hcv as [Hcv Harr]. apply andb_true_iff in Hcv as [He Hd]. apply ty_eqb_eq in He. subst t.
      cbn [ety]. rewrite (IHA1 tz Hl), (ann_typed_by_sty F G A2 TNum (proj1 (spec_to_static F G A2)) Ha Hs), (ty_decl_ann _ Hd).
      destruct tz; try discriminate. simpl. unfold opt_ty_eqb. simpl. rewrite ?ty_eqb_same. reflexivity.
  - (* slice *)
    apply andb_true_iff in Hcv as [Hcv Hhi]. apply andb_true_iff in Hcv as [Hcv Hlo]. apply andb_true_iff in Hcv as [Hcv Hl].
    apply andb_true_iff in Hcv as [Hcv Harr]. apply andb_true_iff in Hcv as [He Hd]. apply ty_eqb_eq in He. subst t.
    rewrite ety_ESlice, (IHA tz Hl), (bnd_etyo _ _ _ Hlo), (bnd_etyo _ _ _ Hhi).
    destruct tz; try discriminate. rewrite ty_eqb_same. reflexivity.
  - (* group *)
    cbn [ety]. apply IHA. exact Hcv.
Qed.

Lemma conv_ty_ann F G : forall A t, conv F G t A = true -> ty_ann t = true.
Proof.
  induction A using expr_ind'; intros tz Hcv; rewrite conv_eq in Hcv; apply orb_true_iff in Hcv as [Hcv|Hcv];
    try (apply andb_true_iff in Hcv as [Hcv Hsm]; apply andb_true_iff in Hcv as [_ Hs];
         destruct (sty_is_inv _ _ _ Hs) as (e' & k' & s' & _ & _ & ->); exact (ty_ann_ty_of s' Hsm));
    try discriminate Hcv; cbn [conv_struct] in Hcv.
  - apply andb_true_iff in Hcv as [Hcv _]. apply andb_true_iff in Hcv as [Hcv _]. apply andb_true_iff in Hcv as [Hany _].
    destruct tz; try discriminate. reflexivity.
  - apply andb_true_iff in Hcv as [Hcv _]. apply andb_true_iff in Hcv as [_ Hd]. apply ty_decl_ann; exact Hd.
  - apply andb_true_iff in Hcv as [Hcv _]. apply andb_true_iff in Hcv as [_ Hd]. apply ty_decl_ann; exact Hd.
  - destruct op; try discriminate.
    + apply andb_true_iff in Hcv as [Hcv _]. apply andb_true_iff in Hcv as [Hcv _]. apply andb_true_iff in Hcv as [Hcv _].
      apply andb_true_iff in Hcv as [_ Hd]. apply ty_decl_ann; exact Hd.
    + apply andb_true_iff in Hcv as [Hcv _]. apply andb_true_iff in Hcv as [Hcv _]. apply andb_true_iff in Hcv as [Hcv _].
      apply andb_true_iff in Hcv as [Hcv _]. apply andb_true_iff in Hcv as [_ Hd]. apply ty_decl_ann; exact Hd.
  - apply andb_true_iff in Hcv as [Hcv _]. apply andb_true_iff in Hcv as [Hcv _]. apply andb_true_iff in Hcv as [Hcv _].
    apply andb_true_iff in Hcv as [Hcv _]. apply andb_true_iff in Hcv as [_ Hd]. apply ty_decl_ann; exact Hd.
  - apply IHA. exact Hcv.
Qed.

(* a converted value in a slot: the SPECIFICATION accepts the source expression in a slot of that type
   (and, stored into any, shows the type the wrapper records), and the tree is its conversion *)
Definition spec_slot (G : tyenv) (t : ty) (A : expr) : bool :=
  match erase G A, sty_of t with
  | Some e, Some st =>
      match TypesSpec.spec_check (TypesSyntax.CAssign st) e with
      | TypesSpec.SAccept _ shown =>
          match t, A with TAny, EAny _ t' => ty_eqb (ty_of shown) t' | _, _ => true end
      | TypesSpec.SReject => false
      end
  | _, _ => false
  end.

Definition cval (F : list funcdef) (G : tyenv) (t : ty) (A : expr) : bool := spec_slot G t A && conv F G t A.

Lemma cval_ety F G t A : cval F G t A = true -> ety F G A = Some t.
Proof. unfold cval. intros H. apply andb_true_iff in H as [_ H]. apply conv_ety; exact H. Qed.

Lemma cval_spec_accepts F G t A : cval F G t A = true ->
  exists e st, erase G A = Some e /\ sty_of t = Some st /\
    exists shown, TypesSpec.spec_check (TypesSyntax.CAssign st) e = TypesSpec.SAccept st shown.
Proof.
  unfold cval, spec_slot. intros H. apply andb_true_iff in H as [H _].
  destruct (erase G A) as [e|]; [|discriminate]. destruct (sty_of t) as [st|]; [|discriminate].
  exists e, st. split; [reflexivity|]. split; [reflexivity|].
  unfold TypesSpec.spec_check in *. unfold TypesSpec.spec_assign in *.
  destruct (TypesSpec.spec_tc e) as [[k s]|]; [|discriminate].
  destruct (TypesSpec.assignable_b k st s); [eauto|discriminate].
Qed.

(* arguments of a call statement: as [arg_ann], or a converted value *)
Definition carg (F : list funcdef) (G : tyenv) (p : ty) (a : expr) : bool :=
  arg_ann (ann_ok F G) G p a || match p with TGenArr | TGenMap => false | _ => cval F G p a end.
Fixpoint cargs (F : list funcdef) (G : tyenv) (ps : list ty) (args : list expr) {struct args} : bool :=
  match ps, args with
  | [], [] => true
  | p :: ps', a :: args' => carg F G p a && cargs F G ps' args'
  | _, _ => false
  end.
Fixpoint cvargs (F : list funcdef) (G : tyenv) (v : ty) (args : list expr) : bool :=
  match args with [] => true | a :: r => carg F G v a && cvargs F G v r end.
Definition sig_cv (F : list funcdef) (G : tyenv) (sg : fsig) (args : list expr) : bool :=
  match fs_var sg with
  | Some v => match fs_params sg with [] => cvargs F G v args | _ => false end
  | None => cargs F G (fs_params sg) args
  end.

Lemma carg_ok F G p a : carg F G p a = true -> exists ta, ety F G a = Some ta /\ arg_ok p ta = true.
Proof.
  unfold carg. intros H. apply orb_true_iff in H as [H|H]; [exact (arg_conv F G p a (spec_to_static F G a) H)|].
  assert (Hc : cval F G p a = true) by (destruct p; try discriminate; exact H).
  exists p. split; [apply cval_ety; exact Hc|].
  unfold cval in Hc. apply andb_true_iff in Hc as [_ Hc]. pose proof (conv_ty_ann F G a p Hc) as Ha.
  unfold arg_ok. destruct p; try discriminate H; rewrite ty_eqb_same, Ha; reflexivity.
Qed.

Lemma cargs_ok F G : forall args ps, cargs F G ps args = true ->
  exists ts, etys F G args = Some ts /\ args_ok ps None ts = true.
Proof.
  induction args as [|a args IH]; intros ps Ha; destruct ps as [|p ps]; simpl in Ha; try discriminate.
  - exists []. auto.
  - apply andb_true_iff in Ha as [Ha1 Ha2].
    destruct (carg_ok F G p a Ha1) as (ta & Hta & Hok). destruct (IH ps Ha2) as (ts & Hts & Hoks).
    exists (ta :: ts). cbn [etys]. rewrite Hta, Hts. simpl. rewrite Hok, Hoks. auto.
Qed.

Lemma cvargs_ok F G v : forall args, cvargs F G v args = true ->
  exists ts, etys F G args = Some ts /\ forallb (arg_ok v) ts = true.
Proof.
  induction args as [|a args IH]; intros Ha; simpl in Ha.
  - exists []. auto.
  - apply andb_true_iff in Ha as [Ha1 Ha2].
    destruct (carg_ok F G v a Ha1) as (ta & Hta & Hok). destruct (IH Ha2) as (ts & Hts & Hoks).
    exists (ta :: ts). cbn [etys]. rewrite Hta, Hts. split; [reflexivity|]. cbn [forallb]. rewrite Hok, Hoks. reflexivity.
Qed.

Lemma sig_cv_call F G name sg args :
  lookup_sig F name = Some sg -> sig_cv F G sg args = true -> call_ty F G name args = Some (fs_ret sg).
Proof.
  intros Hl Ha. unfold call_ty. rewrite Hl. unfold sig_cv in Ha. unfold sig_args_ok.
  destruct (fs_var sg) as [v|].
  - destruct (fs_params sg); [|discriminate].
    destruct (cvargs_ok F G v args Ha) as (ts & -> & Hok). rewrite Hok. reflexivity.
  - destruct (cargs_ok F G args (fs_params sg) Ha) as (ts & -> & Hok). rewrite Hok. reflexivity.
Qed.

Definition sis (F : list funcdef) (G : tyenv) (e : expr) (t : ty) : bool := ann_ok F G e && sty_is G e t.
Definition siso (F : list funcdef) (G : tyenv) (o : option expr) (t : ty) : bool :=
  match o with Some x => sis F G x t | None => true end.

Lemma sis_ety F G e t : sis F G e t = true -> ety F G e = Some t.
Proof.
  unfold sis. intros H. apply andb_true_iff in H as [H1 H2].
  eapply ann_typed_by_sty; eauto. apply spec_to_static.
Qed.

(* a value slot: [sval], or the empty literal retyped to the slot's type ( x = []  with x:[]num ) *)
Definition sval0 (F : list funcdef) (G : tyenv) (t : ty) (e : expr) : bool :=
  sval F G t e || (ty_decl t && zero_lit t e) || (ty_value t && cval F G t e).

Lemma sval0_ety F G t e : sval0 F G t e = true -> ety F G e = Some t.
Proof.
  unfold sval0. intros H. apply orb_true_iff in H as [H|H].
  - apply orb_true_iff in H as [H|H]; [apply sval_ety; exact H|].
    apply andb_true_iff in H as [Hd Hz]. apply zero_lit_ety; assumption.
  - apply andb_true_iff in H as [_ H]. apply cval_ety; exact H.
Qed.

Fixpoint swt_stmt (F : list funcdef) (ret : option ty) (inloop : bool) (G : tyenv) (s : stmt) {struct s}
  : option tyenv :=
  let swt_stmts := fix swt_stmts (inloop : bool) (G : tyenv) (l : list stmt) : option tyenv :=
    match l with
    | [] => Some G
    | x :: r => match swt_stmt F ret inloop G x with Some G' => swt_stmts inloop G' r | None => None end
    end in
  match s with
  | SDecl n t e =>
      match G with
      | fr :: G' =>
          if binder_ok n && negb (is_some (sget n fr))
             && ty_decl t && sval0 F G t e
          then Some (((n, t) :: fr) :: G') else None
      | [] => None
      end
  | SAssign target e =>
      match target_sty G target with
      | Some st => if ann_ok F G target && sval0 F G (ty_of st) e then Some G else None
      | None => None
      end
  | SCallStmt name args =>
      match lookup_sig F name with
      | Some sg => if sig_cv F G sg args then Some G else None
      | None => None
      end
  | SReturn None => match ret with Some TNone => Some G | _ => None end
  | SReturn (Some e) =>
      match ret with
      | Some t => if sval0 F G t e then Some G else None
      | None => None
      end
  | SBreak => if inloop then Some G else None
  | SIf conds els =>
      let conds_ok := (fix go (cs : list (expr * list stmt)) : bool :=
        match cs with
        | [] => true
        | (c, body) :: r =>
            sis F (push G) c TBool && is_some (swt_stmts inloop (push G) body) && go r
        end) conds in
      let els_ok := match els with Some body => is_some (swt_stmts inloop (push G) body) | None => true end in
      if conds_ok && els_ok then Some G else None
  | SWhile c body =>
      if sis F (push G) c TBool && is_some (swt_stmts true (push G) body) then Some G else None
  | SFor var vt r body =>
      let G1 := push G in
      let rng : option ty :=
        match r with
        | RStep start stop step =>
            if siso F G1 start TNum && sis F G1 stop TNum && siso F G1 step TNum then Some TNum else None
        | RExpr y =>
            if ann_ok F G1 y then match spec_ty_of G1 y with Some st => srange st | None => None end else None
        end in
      match rng with
      | None => None
      | Some t =>
          let G2 := match var with
                    | Some v => if binder_ok v && ty_eqb vt t && ty_decl vt then Some ([(v, vt)] :: G) else None
                    | None => Some ([] :: G)
                    end in
          match G2 with
          | Some G2 => if is_some (swt_stmts true (push G2) body) then Some G else None
          | None => None
          end
      end
  | SNop => Some G
  end.

Section SwtStmts.
  Context (F : list funcdef) (ret : option ty).
  Fixpoint swt_stmts (inloop : bool) (G : tyenv) (l : list stmt) : option tyenv :=
    match l with
    | [] => Some G
    | x :: r => match swt_stmt F ret inloop G x with Some G' => swt_stmts inloop G' r | None => None end
    end.
  Section Conds.
    Context (il : bool) (G : tyenv).
    Fixpoint sconds (cs : list (expr * list stmt)) : bool :=
      match cs with
      | [] => true
      | (c, body) :: r => sis F (push G) c TBool && is_some (swt_stmts il (push G) body) && sconds r
      end.
  End Conds.
End SwtStmts.

Lemma swt_stmt_SIf F ret il G conds els : swt_stmt F ret il G (SIf conds els) =
  if sconds F ret il G conds &&
     match els with Some body => is_some (swt_stmts F ret il (push G) body) | None => true end
  then Some G else None.
Proof. reflexivity. Qed.
Lemma swt_stmt_SWhile F ret il G c body : swt_stmt F ret il G (SWhile c body) =
  if sis F (push G) c TBool && is_some (swt_stmts F ret true (push G) body) then Some G else None.
Proof. reflexivity. Qed.
Lemma swt_stmt_SFor F ret il G var vt r body : swt_stmt F ret il G (SFor var vt r body) =
      let G1 := push G in
      let rng : option ty :=
        match r with
        | RStep start stop step =>
            if siso F G1 start TNum && sis F G1 stop TNum && siso F G1 step TNum then Some TNum else None
        | RExpr y =>
            if ann_ok F G1 y then match spec_ty_of G1 y with Some st => srange st | None => None end else None
        end in
      match rng with
      | None => None
      | Some t =>
          let G2 := match var with
                    | Some v => if binder_ok v && ty_eqb vt t && ty_decl vt then Some ([(v, vt)] :: G) else None
                    | None => Some ([] :: G)
                    end in
          match G2 with
          | Some G2 => if is_some (swt_stmts F ret true (push G2) body) then Some G else None
          | None => None
          end
      end.
Proof. reflexivity. Qed.
Definition opt_all (P : stmt -> Prop) (els : option (list stmt)) : Prop :=
  match els with Some b => Forall P b | None => True end.

Section StmtInd.
  Context (P : stmt -> Prop).
  Context (HDecl : forall n t e, P (SDecl n t e)) (HAssign : forall a e, P (SAssign a e))
          (HCall : forall n a, P (SCallStmt n a)) (HRet : forall e, P (SReturn e)) (HBreak : P SBreak)
          (HIf : forall conds els, Forall (fun cb => Forall P (snd cb)) conds ->
                   opt_all P els -> P (SIf conds els))
          (HWhile : forall c body, Forall P body -> P (SWhile c body))
          (HFor : forall v vt r body, Forall P body -> P (SFor v vt r body))
          (HNop : P SNop).
  Fixpoint stmt_ind' (s : stmt) : P s :=
    let lind := fix go (l : list stmt) : Forall P l :=
      match l with [] => Forall_nil _ | x :: r => Forall_cons _ (stmt_ind' x) (go r) end in
    match s with
    | SDecl n t e => HDecl n t e
    | SAssign a e => HAssign a e
    | SCallStmt n a => HCall n a
    | SReturn e => HRet e
    | SBreak => HBreak
    | SIf conds els =>
        HIf conds els
          ((fix go (cs : list (expr * list stmt)) : Forall (fun cb => Forall P (snd cb)) cs :=
              match cs with
              | [] => Forall_nil _
              | cb :: r => Forall_cons cb (match cb as cb' return Forall P (snd cb') with (c, b) => lind b end) (go r)
              end) conds)
          (match els as els' return opt_all P els' with Some b => lind b | None => I end)
    | SWhile c body => HWhile c body (lind body)
    | SFor v vt r body => HFor v vt r body (lind body)
    | SNop => HNop
    end.
End StmtInd.

Definition stmt_conv (F : list funcdef) (s : stmt) : Prop :=
  forall ret il G G', swt_stmt F ret il G s = Some G' -> wt_stmt F ret il G s = Some G'.

Lemma stmts_conv F l : Forall (stmt_conv F) l ->
  forall ret il G G', swt_stmts F ret il G l = Some G' -> wt_stmts F ret il G l = Some G'.
Proof.
  induction 1 as [|x l Hx Hl IH]; intros ret il G G' Hs; simpl in *; [exact Hs|].
  destruct (swt_stmt F ret il G x) as [G1|] eqn:E; [|discriminate].
  rewrite (Hx _ _ _ _ E). apply IH; exact Hs.
Qed.

Lemma stmts_conv_some F l : Forall (stmt_conv F) l ->
  forall ret il G, is_some (swt_stmts F ret il G l) = true -> is_some (wt_stmts F ret il G l) = true.
Proof.
  intros Hl ret il G H. destruct (swt_stmts F ret il G l) as [G'|] eqn:E; [|discriminate].
  rewrite (stmts_conv F l Hl _ _ _ _ E). reflexivity.
Qed.

Lemma all_arg_typed F G (args : list expr) : Forall (arg_typed F G) args.
Proof. apply Forall_forall. intros a _. apply spec_to_static. Qed.

Lemma sig_ann_call F G name sg args :
  lookup_sig F name = Some sg -> sig_ann (ann_ok F G) G sg args = true ->
  call_ty F G name args = Some (fs_ret sg).
Proof.
  intros Hl Ha. unfold call_ty. rewrite Hl. unfold sig_ann in Ha. unfold sig_args_ok.
  destruct (fs_var sg) as [v|].
  - destruct (fs_params sg); [|discriminate].
    destruct (vargs_conv F G v args (all_arg_typed F G args) Ha) as (ts & -> & Hok). rewrite Hok. reflexivity.
  - destruct (args_conv F G args (fs_params sg) (all_arg_typed F G args) Ha) as (ts & -> & Hok). rewrite Hok. reflexivity.
Qed.

Lemma siso_etyo F G o : siso F G o TNum = true -> etyo F G o = true.
Proof. destruct o; simpl; auto. intros H. rewrite (sis_ety _ _ _ _ H). apply opt_ty_eqb_refl. Qed.

Theorem swt_stmt_wt F : forall s, stmt_conv F s.
Proof.
  induction s as [n t e|a e|n a|e| |conds els Hc He|c body Hb|v vt r body Hb|] using stmt_ind'; intros ret il G G' H.
  - (* declaration *)
    cbn [swt_stmt] in H. cbn [wt_stmt]. destruct G as [|fr G0]; [discriminate|].
    match type of H with (if ?c then _ else _) = _ => destruct c eqn:Ec; [|discriminate] end.
    apply andb_true_iff in Ec as [Ec Ev]. rewrite Ec. simpl.
    apply andb_true_iff in Ec as [_ Ed].
    assert (ety F (fr :: G0) e = Some t) as -> by (apply sval0_ety; exact Ev).
    rewrite opt_ty_eqb_refl. exact H.
  - (* assignment *)
    cbn [swt_stmt] in H. cbn [wt_stmt].
    destruct (target_sty G a) as [st|] eqn:Et; [|discriminate].
    match type of H with (if ?c then _ else _) = _ => destruct c eqn:Ec; [|discriminate] end.
    apply andb_true_iff in Ec as [Ea Ev].
    destruct (target_sty_spec G a st Et) as [Hs Hshape].
    rewrite (ann_sty_ety F G a st Ea Hs), (sval0_ety F G _ _ Ev), ty_eqb_same, andb_true_r.
    destruct a; try contradiction; try exact H.
    destruct Hshape as (u & Hu). cbn [ann_ok] in Ea.
    apply andb_true_iff in Ea as [Ea _]. apply andb_true_iff in Ea as [Ea _]. apply andb_true_iff in Ea as [Ea _].
    destruct Hu as [Hu|Hu]; rewrite (ann_sty_ety F G a1 _ Ea Hu); exact H.
  - (* call statement *)
    cbn [swt_stmt] in H. cbn [wt_stmt].
    destruct (lookup_sig F n) as [sg|] eqn:El; [|discriminate].
    destruct (sig_cv F G sg a) eqn:Ea; [|discriminate].
    rewrite (sig_cv_call F G n sg a El Ea). exact H.
  - (* return *)
    cbn [swt_stmt] in H. cbn [wt_stmt]. destruct e as [e|]; [|exact H].
    destruct ret as [t|]; [|discriminate].
    destruct (sval0 F G t e) eqn:Ev; [|discriminate].
    rewrite (sval0_ety F G t e Ev), opt_ty_eqb_refl.
    assert (is_none t = false) as ->; [|exact H].
    unfold sval0, sval, ty_decl in Ev. destruct t; try reflexivity. discriminate Ev.
  - exact H.
  - (* if *)
    rewrite swt_stmt_SIf in H. rewrite wt_stmt_SIf.
    match type of H with (if ?c then _ else _) = _ => destruct c eqn:Ec; [|discriminate] end.
    apply andb_true_iff in Ec as [Ec Ee].
    assert (conds_wt F ret il G conds = true) as ->.
    { clear -Hc Ec. induction Hc as [|[c b] r Hb Hr IH]; [reflexivity|]. simpl in *.
      apply andb_true_iff in Ec as [Ec Ec3]. apply andb_true_iff in Ec as [Ec1 Ec2].
      rewrite (sis_ety _ _ _ _ Ec1), opt_ty_eqb_refl, (stmts_conv_some F b Hb _ _ _ Ec2), (IH Ec3). reflexivity. }
    destruct els as [b|]; [|exact H]. simpl in He. rewrite (stmts_conv_some F b He _ _ _ Ee). exact H.
  - (* while *)
    rewrite swt_stmt_SWhile in H. rewrite wt_stmt_SWhile.
    match type of H with (if ?c then _ else _) = _ => destruct c eqn:Ec; [|discriminate] end.
    apply andb_true_iff in Ec as [Ec1 Ec2].
    rewrite (sis_ety _ _ _ _ Ec1), opt_ty_eqb_refl, (stmts_conv_some F body Hb _ _ _ Ec2). exact H.
  - (* for *)
    rewrite swt_stmt_SFor in H. rewrite wt_stmt_SFor. cbv zeta in *.
    match type of H with match ?x with _ => _ end = _ => destruct x as [t|] eqn:Er; [|discriminate] end.
    match goal with |- match ?x with _ => _ end = _ => assert (x = Some t) as -> end.
    { destruct r as [start stop step|y].
      - match type of Er with (if ?c then _ else _) = _ => destruct c eqn:Ec; [|discriminate] end.
        apply andb_true_iff in Ec as [Ec Ec3]. apply andb_true_iff in Ec as [Ec1 Ec2].
        rewrite (siso_etyo _ _ _ Ec1), (siso_etyo _ _ _ Ec3), (sis_ety _ _ _ _ Ec2), opt_ty_eqb_refl. exact Er.
      - destruct (ann_ok F (push G) y) eqn:Ea; [|discriminate].
        destruct (spec_ty_of (push G) y) as [st|] eqn:Es; [|discriminate].
        rewrite (ann_sty_ety F _ y st Ea Es). apply srange_static; exact Er. }
    match type of H with match ?x with _ => _ end = _ => destruct x as [G2|]; [|discriminate] end.
    match type of H with (if ?c then _ else _) = _ => destruct c eqn:Ec; [|discriminate] end.
    rewrite (stmts_conv_some F body Hb _ _ _ Ec). exact H.
  - exact H.
Qed.

(* the structural checks are Static's own (binders, parameters, signatures, break inside a loop, every
   path of a typed function returns); only the typing of the contexts is replaced by the specification's *)
Definition swt_func (F : list funcdef) (globals : sframe) (fd : funcdef) : bool :=
  let ps := fn_params fd in
  let vp := match fn_variadic fd with Some (n, t) => [(n, TArr t)] | None => [] end in
  forallb param_ok (ps ++ vp) && names_distinct (map fst (ps ++ vp))
  && (match fn_variadic fd with Some _ => match ps with [] => true | _ => false end | None => true end)
  && (is_none (fn_ret fd) || ty_decl (fn_ret fd))
  && negb (is_some (builtin_sig (fn_name fd)))
  && is_some (swt_stmts F (Some (fn_ret fd)) false [params_frame (ps ++ vp); globals] (fn_body fd))
  && (is_none (fn_ret fd) || always_returns (fn_body fd)).

Definition swt_handler (F : list funcdef) (globals : sframe) (h : handler) : bool :=
  match assoc_str (h_name h) event_sigs with
  | None => false
  | Some ts =>
      (match h_params h with [] => true | ps => tys_eqb (map snd ps) ts end)
      && forallb param_ok (h_params h) && names_distinct (map fst (h_params h))
      && is_some (swt_stmts F (Some TNone) false [params_frame (h_params h); globals] (h_body h))
  end.

Definition swt_top (P : program) : option sframe :=
  match swt_stmts (p_funcs P) None false [global_frame0] (p_stmts P) with
  | Some [g] => Some g
  | _ => None
  end.

Definition swt_program (P : program) : bool :=
  match swt_top P with
  | Some g => forallb (swt_func (p_funcs P) g) (p_funcs P) && forallb (swt_handler (p_funcs P) g) (p_handlers P)
  | None => false
  end.

Lemma all_stmt_conv F l : Forall (stmt_conv F) l.
Proof. apply Forall_forall. intros s _. apply swt_stmt_wt. Qed.

Lemma swt_func_wt F g fd : swt_func F g fd = true -> wt_func F g fd = true.
Proof.
  unfold swt_func, wt_func. intros H.
  apply andb_true_iff in H as [H H7]. apply andb_true_iff in H as [H H6].
  rewrite H, H7. rewrite (stmts_conv_some F _ (all_stmt_conv F _) _ _ _ H6). reflexivity.
Qed.

Lemma swt_handler_wt F g h : swt_handler F g h = true -> wt_handler F g h = true.
Proof.
  unfold swt_handler, wt_handler. destruct (assoc_str (h_name h) event_sigs); [|auto]. intros H.
  apply andb_true_iff in H as [H H4].
  rewrite H. rewrite (stmts_conv_some F _ (all_stmt_conv F _) _ _ _ H4). reflexivity.
Qed.

Lemma forallb_impl {A} (f g : A -> bool) l : (forall x, f x = true -> g x = true) -> forallb f l = true -> forallb g l = true.
Proof. intros Hfg. induction l; simpl; auto. intros H. apply andb_true_iff in H as [H1 H2]. rewrite (Hfg _ H1), (IHl H2). reflexivity. Qed.

(* a program all of whose contexts the specification's rules accept (on the tree annotated with the
   specification's types) and that passes the structural checks is accepted by Static's checker *)
Theorem swt_program_wt P : swt_program P = true -> wt_program P = true.
Proof.
  unfold swt_program, wt_program, swt_top, wt_top. intros H.
  destruct (swt_stmts (p_funcs P) None false [global_frame0] (p_stmts P)) as [G'|] eqn:E; [|discriminate].
  rewrite (stmts_conv _ _ (all_stmt_conv _ _) _ _ _ _ E).
  destruct G' as [|g [|? ?]]; try discriminate.
  apply andb_true_iff in H as [H1 H2].
  rewrite (forallb_impl _ _ _ (swt_func_wt _ _) H1), (forallb_impl _ _ _ (swt_handler_wt _ _) H2). reflexivity.
Qed.

Lemma defaults_closed s : TypesSyntax.closed s = true -> TypesSpec.defaults s = s.
Proof. induction s; simpl; intros H; try reflexivity; try discriminate; f_equal; auto. Qed.

(* inferred declaration  x := e  *)
Lemma decl_spec_accepts F G t e : sis F G e t = true -> ty_decl t = true ->
  exists e' st, erase G e = Some e' /\ ty_of st = t /\ TypesSpec.spec_check TypesSyntax.CDecl e' = TypesSpec.SAccept st st.
Proof.
  unfold sis. intros H Hd. apply andb_true_iff in H as [_ H].
  destruct (sty_is_inv _ _ _ H) as (e' & k & s & He & Htc & Ht). exists e', s. split; [exact He|]. split; [auto|].
  unfold TypesSpec.spec_check. rewrite Htc. rewrite defaults_closed; [reflexivity|].
  rewrite closed_proper, <- Ht. exact (ty_decl_proper t Hd).
Qed.

(* condition of if / while *)
Lemma cond_spec_accepts F G c : sis F G c TBool = true ->
  exists e', erase G c = Some e' /\ TypesSpec.spec_check TypesSyntax.CCond e' = TypesSpec.SAccept TypesSyntax.SBool TypesSyntax.SBool.
Proof.
  unfold sis. intros H. apply andb_true_iff in H as [_ H].
  destruct (sty_is_inv _ _ _ H) as (e' & k & s & He & Htc & Ht). exists e'. split; [exact He|].
  unfold TypesSpec.spec_check. rewrite Htc. destruct s; try discriminate. reflexivity.
Qed.

(* range operand *)
Lemma range_spec_accepts G y st t : spec_ty_of G y = Some st -> srange st = Some t ->
  exists e' st', erase G y = Some e' /\ ty_of st' = t /\ TypesSpec.spec_check TypesSyntax.CRange e' = TypesSpec.SAccept st' st'.
Proof.
  unfold spec_ty_of, srange. destruct (erase G y) as [e'|]; [|discriminate].
  destruct (TypesSpec.spec_tc e') as [[k s]|] eqn:Htc; [|discriminate]. cbn [option_map snd]. intros Hs. inversion Hs; subst s.
  destruct (range_guard st); [|discriminate]. rewrite <- (spec_check_range_tc e' k st Htc).
  destruct (TypesSpec.spec_check TypesSyntax.CRange e') as [a b|] eqn:Ec; [|discriminate]. intros Ht. inversion Ht; subst.
  exists e', a. split; [reflexivity|]. split; [reflexivity|].
  rewrite Ec. unfold TypesSpec.spec_check in Ec. rewrite Htc in Ec. destruct st; inversion Ec; reflexivity.
Qed.

(* assignment to a target chain  v<steps> = e  *)
Lemma assign_to_spec_accepts F G tg st e :
  target_sty G tg = Some st -> TypesSyntax.closed st = true -> sval F G (ty_of st) e = true ->
  exists root steps e', target_of G tg = Some (root, steps) /\ erase G e = Some e' /\
    exists shown, TypesSpec.spec_check (TypesSyntax.CAssignTo root steps) e' = TypesSpec.SAccept st shown.
Proof.
  unfold target_sty. destruct (target_of G tg) as [[root steps]|]; [|discriminate].
  destruct (TypesSpec.spec_steps steps) as [ks|] eqn:Ek; [|discriminate]. intros Hc Hcl Hv.
  destruct (sval_spec_accepts F G (ty_of st) e st Hv (sty_of_ty_of st) Hcl) as (e' & He & shown & Hacc).
  exists root, steps, e'. split; [reflexivity|]. split; [exact He|]. exists shown.
  unfold TypesSpec.spec_check in *. rewrite Ek, Hc. exact Hacc.
Qed.

(* arguments of generic built-in parameters *)
Lemma generic_arr_spec_accepts F G a : arg_ann (ann_ok F G) G TGenArr a = true ->
  exists e' st, erase G a = Some e' /\ TypesSpec.spec_check TypesSyntax.CGenericArr e' = TypesSpec.SAccept st st.
Proof.
  unfold arg_ann, spec_ty_of. intros H. apply andb_true_iff in H as [_ H].
  destruct (erase G a) as [e'|]; [|discriminate]. destruct (TypesSpec.spec_tc e') as [[k s]|] eqn:Htc; [|discriminate].
  simpl in H. apply andb_true_iff in H as [H _]. exists e', s. split; [reflexivity|].
  unfold TypesSpec.spec_check. rewrite Htc, H. reflexivity.
Qed.
Lemma generic_map_spec_accepts F G a : arg_ann (ann_ok F G) G TGenMap a = true ->
  exists e' st, erase G a = Some e' /\ TypesSpec.spec_check TypesSyntax.CGenericMap e' = TypesSpec.SAccept st st.
Proof.
  unfold arg_ann, spec_ty_of. intros H. apply andb_true_iff in H as [_ H].
  destruct (erase G a) as [e'|]; [|discriminate]. destruct (TypesSpec.spec_tc e') as [[k s]|] eqn:Htc; [|discriminate].
  simpl in H. apply andb_true_iff in H as [H _]. exists e', s. split; [reflexivity|].
  unfold TypesSpec.spec_check. rewrite Htc, H. reflexivity.
Qed.

(* an assignment to a target chain is judged like an assignment to a variable of the chain's type *)
Lemma assign_to_as_assign G tg st root steps e' :
  target_of G tg = Some (root, steps) -> target_sty G tg = Some st ->
  TypesSpec.spec_check (TypesSyntax.CAssignTo root steps) e' = TypesSpec.spec_check (TypesSyntax.CAssign st) e'.
Proof.
  unfold target_sty. intros -> H. destruct (TypesSpec.spec_steps steps) as [ks|] eqn:Ek; [|discriminate].
  unfold TypesSpec.spec_check. rewrite Ek, H. reflexivity.
Qed.
