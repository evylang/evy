(* SvgProofs.v — lemmas about the SVG platform model (Svg.v). *)
From Coq Require Import ZArith NArith List Bool Floats Lia.
From EvyV Require Import Base Svg.
From EvyV.Gen Require Import SvgConsts.
Import ListNotations.

Lemma sf_eqb_eq a b : sf_eqb a b = true -> a = b.
Proof.
  destruct a, b; simpl; try discriminate; intro H.
  1,2: apply eqb_prop in H; congruence.
  - reflexivity.
  - apply andb_true_iff in H as [H H3]. apply andb_true_iff in H as [H1 H2].
    apply eqb_prop in H1. apply Pos.eqb_eq in H2. apply Z.eqb_eq in H3. congruence.
Qed.

Lemma Prim2SF_inj x y : Prim2SF x = Prim2SF y -> x = y.
Proof. intro H. rewrite <- (SF2Prim_Prim2SF x), <- (SF2Prim_Prim2SF y), H. reflexivity. Qed.

Lemma same_text_eq a b : same_text a b = true -> a = b.
Proof. intro H. apply Prim2SF_inj, sf_eqb_eq, H. Qed.

(* Go's == on float64 against a non-zero finite constant is identity of the value *)
Lemma feqb_finite_eq x d s m e :
  Prim2SF d = SpecFloat.S754_finite s m e -> PrimFloat.eqb x d = true -> x = d.
Proof.
  intros Hd H. rewrite eqb_spec, Hd in H. apply Prim2SF_inj. rewrite Hd.
  unfold SpecFloat.SFeqb, SpecFloat.SFcompare in H.
  destruct (Prim2SF x) as [s1|s1| |s1 m1 e1]; try discriminate.
  - destruct s; discriminate.
  - destruct s1; discriminate.
  - destruct s1, s; try discriminate.
    all: destruct (Z.compare e1 e) eqn:E; try discriminate;
      apply Z.compare_eq in E; destruct (Pos.compare_cont Eq m1 m) eqn:P; try discriminate;
      apply Pos.compare_eq in P; congruence.
Qed.

Lemma feqb_default_sw x : PrimFloat.eqb x default_StrokeWidth = true -> x = default_StrokeWidth.
Proof. eapply feqb_finite_eq. vm_compute. reflexivity. Qed.
Lemma feqb_default_size x : PrimFloat.eqb x default_FontSize = true -> x = default_FontSize.
Proof. eapply feqb_finite_eq. vm_compute. reflexivity. Qed.
Lemma feqb_default_weight x : PrimFloat.eqb x default_FontWeight = true -> x = default_FontWeight.
Proof. eapply feqb_finite_eq. vm_compute. reflexivity. Qed.

Lemma pick_nds d s : pick_s (nds d s) d = eff d s.
Proof.
  unfold nds, eff. destruct (str_eqb s d) eqn:E.
  - apply str_eqb_eq in E. subst. simpl. destruct d; reflexivity.
  - destruct s; reflexivity.
Qed.

Lemma is_empty_true s : is_empty s = true -> s = [].
Proof. destruct s; [reflexivity | discriminate]. Qed.

Lemma pick_s_nonempty a b : is_empty a = false -> pick_s a b = a.
Proof. destruct a; [discriminate | reflexivity]. Qed.

Lemma clear_color_nonempty c : is_empty (clear_color c) = false.
Proof. unfold clear_color. destruct c; reflexivity. Qed.

Lemma pick_s_nil_l x : pick_s [] x = x. Proof. reflexivity. Qed.
Lemma pick_s_assoc a b c : pick_s (pick_s a b) c = pick_s a (pick_s b c).
Proof. destruct a; reflexivity. Qed.
Lemma pick_o_assoc {A} (a b c : option A) : pick_o (pick_o a b) c = pick_o a (pick_o b c).
Proof. destruct a; reflexivity. Qed.
Lemma pick_l_assoc {A} (a b c : list A) : pick_l (pick_l a b) c = pick_l a (pick_l b c).
Proof. destruct a; reflexivity. Qed.

Lemma over_a_a0 x : over_a a0 x = x.
Proof. destruct x; reflexivity. Qed.
Lemma over_t_t0 x : over_t t0 x = x.
Proof. destruct x; reflexivity. Qed.
Lemma over_a_assoc a b c : over_a (over_a a b) c = over_a a (over_a b c).
Proof.
  unfold over_a; simpl. rewrite !pick_s_assoc, pick_o_assoc, pick_l_assoc. reflexivity.
Qed.

Definition ctx_a (fx : fixes) : eattr := over_a (root_a fx) initial_a.
Definition ctx_t (fx : fixes) : tattr := over_t (root_t fx) initial_t.

(* The root element's attributes together with SVG's initial values are the
   default pen: this is what justifies nonDefaultAttr dropping default values.
   (Closed facts about coq/Gen/SvgConsts.v: they are re-checked whenever a
   default or a root attribute changes in runtime.go.) *)
Lemma ctx_a_default fx :
  ctx_a fx = mkA default_Fill default_Stroke (Some default_StrokeWidth) default_StrokeLinecap [].
Proof. reflexivity. Qed.

Lemma ctx_t_default fx :
  ctx_t fx = mkT default_TextAnchor default_Baseline (Some default_FontSize) (Some default_FontWeight)
                 default_FontStyle (if fx_family fx then default_FontFamily else root_FontFamily) (Some default_LetterSpacing).
Proof. unfold ctx_t, root_t. destruct (fx_family fx); reflexivity. Qed.

(* the attributes in effect inside a <g> that Push builds under pen p / font f *)
Definition gctx_a (fx : fixes) (p : pen) : eattr := over_a (nd_attr p) (ctx_a fx).
Definition gctx_t (fx : fixes) (f : fnt) : tattr := over_t (nd_tattr f) (ctx_t fx).

Lemma gctx_a_spec fx p : gctx_a fx p = spec_paint p.
Proof.
  unfold gctx_a. rewrite ctx_a_default. unfold over_a, nd_attr, spec_paint; simpl.
  rewrite !pick_nds. f_equal.
  - destruct (PrimFloat.eqb (sw_val p) default_StrokeWidth) eqn:E; simpl; [|reflexivity].
    apply feqb_default_sw in E. congruence.
  - destruct (p_dash p); reflexivity.
Qed.

Lemma gctx_t_spec fx f : gctx_t fx f = spec_font fx f.
Proof.
  unfold gctx_t. rewrite ctx_t_default. unfold over_t, nd_tattr, spec_font; simpl.
  f_equal; try apply pick_nds.
  - destruct (PrimFloat.eqb (f_size f) default_FontSize) eqn:E; simpl; [|reflexivity].
    apply feqb_default_size in E. congruence.
  - destruct (PrimFloat.eqb (f_weight f) default_FontWeight) eqn:E; simpl; [|reflexivity].
    apply feqb_default_weight in E. congruence.
  - destruct (fx_family fx); [apply pick_nds | reflexivity].
  - destruct (same_text (f_ls f) default_LetterSpacing) eqn:E; simpl; [|reflexivity].
    apply same_text_eq in E. congruence.
Qed.

(* the default pen writes no attributes *)
Lemma nd_attr_default p : pen_is_default p = true -> nd_attr p = a0.
Proof.
  unfold pen_is_default, nd_attr, sw_val. intro H.
  repeat (apply andb_true_iff in H; destruct H as [H ?]).
  destruct (p_sw p); [discriminate|]. destruct (p_dash p); [|discriminate].
  unfold nds. rewrite H, H3, H1. reflexivity.
Qed.

(* the buffer invariant:
   every pending element was built by a drawing call under the CURRENT pen *)
Inductive item_ok (fx : fixes) (p : pen) : item -> Prop :=
| ok_plain g : is_text g = false -> item_ok fx p (IShape g a0 t0)
| ok_clear c : item_ok fx p (IShape GClear (mkA (clear_color c) (clear_color c) None [] []) t0)
| ok_text x y s : item_ok fx p (IShape (GText x y s) (text_attr fx p) t0)
| ok_grid c l : item_ok fx p (IGrid (mkA [] c None [] []) t0 l).

Lemma draw_item_ok fx fuel kk c it :
  draw_item fx fuel kk c = Some (Some it) -> item_ok fx (kpen kk) it.
Proof.
  destruct c; simpl; intro H; try discriminate; try (inversion H; subst; constructor; reflexivity).
  destruct (grid_lines fx fuel unit); inversion H; subst. constructor.
Qed.

Lemma text_paint_in_group fx p : over_a (text_attr fx p) (spec_paint p) = spec_text_paint fx p.
Proof.
  unfold text_attr, spec_text_paint. destruct (fx_text fx); simpl.
  - unfold over_a; simpl. destruct (p_dash p); reflexivity.
  - unfold over_a; simpl. destruct (str_eqb (p_fill p) (p_stroke p)); simpl.
    + destruct (p_dash p); reflexivity.
    + destruct (p_stroke p); simpl; destruct (p_dash p); reflexivity.
Qed.

Lemma grid_line_in_group p c gb :
  (fst gb, over_a (grid_line_attr (snd gb)) (over_a (mkA [] c None [] []) (spec_paint p)), @None tattr)
  = spec_grid_line p c gb.
Proof.
  unfold spec_grid_line, grid_line_attr, over_a. destruct gb as [g b]; simpl.
  destruct b, c; simpl; destruct (p_dash p); reflexivity.
Qed.

(* a drawing call appends one element whose shapes, resolved inside the group
   Push would build now, are exactly the specification's shapes for that call *)
Lemma draw_flat fx fuel kk c it :
  draw_item fx fuel kk c = Some (Some it) ->
  spec_shapes fx fuel kk c = Some (flat_item (gctx_a fx (kpen kk)) (gctx_t fx (kfnt kk)) it).
Proof.
  rewrite gctx_a_spec, gctx_t_spec.
  destruct c; simpl; intro H; try discriminate;
    try (inversion H; subst; simpl; rewrite ?over_a_a0; reflexivity).
  - (* clear *) inversion H; subst; simpl. unfold over_a; simpl.
    rewrite !(pick_s_nonempty _ _ (clear_color_nonempty c)). reflexivity.
  - (* text *) inversion H; subst; simpl. rewrite text_paint_in_group, over_t_t0. reflexivity.
  - (* gridn *) destruct (grid_lines fx fuel unit) as [l|]; inversion H; subst; simpl.
    rewrite map_map. f_equal. apply map_ext. intro gb. simpl. symmetry. apply grid_line_in_group.
Qed.

Lemma draw_none fx fuel kk c :
  draw_item fx fuel kk c = Some None -> spec_shapes fx fuel kk c = Some [] /\ is_draw c = false.
Proof.
  destruct c; simpl; intro H; try discriminate; try (split; reflexivity).
  destruct (grid_lines fx fuel unit); discriminate.
Qed.

Lemma draw_hang fx fuel kk c :
  draw_item fx fuel kk c = None <-> spec_shapes fx fuel kk c = None.
Proof.
  destruct c; simpl; split; intro H; try discriminate; destruct (grid_lines fx fuel unit); try discriminate; reflexivity.
Qed.

Lemma draw_keeps_pen fx c kk :
  is_style c = false -> kpen (core_step fx kk c) = kpen kk /\ kfnt (core_step fx kk c) = kfnt kk.
Proof. destruct c; simpl; intro H; try discriminate; split; reflexivity. Qed.

Lemma draw_not_style fx fuel kk c it : draw_item fx fuel kk c = Some (Some it) -> is_style c = false.
Proof. destruct c; simpl; intro H; try discriminate; reflexivity. Qed.

Lemma text_lone_fill (F S d : str) :
  is_empty S && negb (is_empty F) && negb (str_eqb F d) = false ->
  pick_s (if str_eqb (nds d F) (nds d S) then nds d F else nds d S) d
  = pick_s (if str_eqb F S then [] else S) (pick_s (nds d F) d).
Proof.
  intro G. rewrite (pick_nds d F).
  destruct (str_eqb F S) eqn:EFS.
  - apply str_eqb_eq in EFS. subst. rewrite str_eqb_refl. simpl. apply pick_nds.
  - apply str_eqb_neq in EFS.
    destruct (str_eqb (nds d F) (nds d S)) eqn:EN.
    + apply str_eqb_eq in EN. rewrite pick_nds.
      destruct S as [|s0 S']; [reflexivity|]. simpl.
      unfold nds in EN.
      destruct (str_eqb (s0 :: S') d) eqn:ESd.
      * apply str_eqb_eq in ESd.
        destruct (str_eqb F d) eqn:EFd.
        -- apply str_eqb_eq in EFd. congruence.
        -- subst F. simpl. symmetry. exact ESd.
      * destruct (str_eqb F d); [discriminate | congruence].
    + rewrite pick_nds. destruct S as [|s0 S']; [|reflexivity].
      destruct F as [|f0 F']; [reflexivity|].
      change (negb (str_eqb (f0 :: F') d) = false) in G.
      apply negb_false_iff in G. apply str_eqb_eq in G. rewrite G. destruct d; reflexivity.
Qed.

Lemma default_fill_is_default_stroke : default_Fill = default_Stroke.
Proof. reflexivity. Qed.

Lemma lone_flat fx p f e :
  item_ok fx p e ->
  lone_ok fx p [e] = true ->
  flat_item (ctx_a fx) (ctx_t fx)
            (set_tattr (if pen_is_default p then e else set_attr fx e (nd_attr p)) (nd_tattr f))
  = flat_item (gctx_a fx p) (gctx_t fx f) e.
Proof.
  intros Hok G. unfold gctx_a. simpl in G. apply andb_true_iff in G as [G1 G2].
  destruct Hok as [g Hg | c | x y s | c l].
  - (* plain shape *)
    destruct (pen_is_default p) eqn:D.
    + rewrite (nd_attr_default p D). simpl. rewrite Hg. simpl. rewrite Hg, !over_a_a0. reflexivity.
    + do 3 (simpl; rewrite ?Hg); destruct (fx_lone fx); do 3 (simpl; rewrite ?Hg); rewrite ?over_a_a0; reflexivity.
  - (* clear *)
    destruct (pen_is_default p) eqn:D.
    + rewrite (nd_attr_default p D). simpl. rewrite !over_a_a0. reflexivity.
    + simpl. destruct (fx_lone fx); simpl.
      * rewrite over_a_assoc. reflexivity.
      * simpl in G1. rewrite clear_color_nonempty in G1. discriminate.
  - (* text *)
    unfold gctx_t.
    destruct (pen_is_default p) eqn:D.
    + rewrite (nd_attr_default p D). simpl. rewrite !over_a_a0, over_t_t0. reflexivity.
    + simpl. unfold text_attr in *. destruct (fx_text fx); simpl.
      * rewrite over_a_assoc, over_t_t0. reflexivity.
      * rewrite over_t_t0. simpl in G2. apply negb_true_iff in G2.
        pose proof (text_lone_fill (p_fill p) (p_stroke p) default_Fill G2) as TL.
        f_equal. f_equal. f_equal.
        rewrite ctx_a_default. unfold nd_attr, over_a; simpl.
        change default_Stroke with default_Fill in *.
        destruct (str_eqb (nds default_Fill (p_fill p)) (nds default_Fill (p_stroke p))) eqn:EN;
          simpl; f_equal; exact TL.
  - (* gridn group *)
    destruct (pen_is_default p) eqn:D.
    + rewrite (nd_attr_default p D). simpl. rewrite !over_a_a0. reflexivity.
    + simpl. destruct (fx_lone fx); simpl.
      * rewrite over_a_assoc. reflexivity.
      * simpl in G1. destruct c; [|discriminate]. change (mkA [] [] None [] []) with a0.
        rewrite over_a_a0. reflexivity.
Qed.

Definition flat_pushed (fx : fixes) (st : state) : list fshape :=
  flat_map (flat_top (ctx_a fx) (ctx_t fx)) (pushed st).
Definition flat_pending (fx : fixes) (st : state) : list fshape :=
  flat_map (flat_item (gctx_a fx (kpen (k st))) (gctx_t fx (kfnt (k st)))) (pending st).
Definition total (fx : fixes) (st : state) : list fshape := flat_pushed fx st ++ flat_pending fx st.
Definition inv (fx : fixes) (st : state) : Prop := Forall (item_ok fx (kpen (k st))) (pending st).

Lemma push_flat fx st :
  inv fx st ->
  lone_ok fx (kpen (k st)) (pending st) = true ->
  flat_pushed fx (push fx st) = total fx st /\ pending (push fx st) = [] /\ k (push fx st) = k st.
Proof.
  unfold inv, total, flat_pushed, flat_pending, push. intros I G.
  destruct (pending st) as [|e [|e2 es]] eqn:P.
  - rewrite P. simpl. rewrite app_nil_r. auto.
  - simpl. split; [|auto]. rewrite flat_map_app. simpl. rewrite !app_nil_r. f_equal.
    inversion I; subst. apply lone_flat; assumption.
  - simpl pending. simpl k. simpl pushed. split; [|auto]. rewrite flat_map_app. f_equal. simpl flat_map at 1.
    rewrite app_nil_r. unfold flat_top, gctx_a, gctx_t.
    destruct (pen_is_default (kpen (k st))) eqn:D; [rewrite (nd_attr_default _ D)|]; reflexivity.
Qed.

Lemma render_flat fx st :
  inv fx st -> lone_ok fx (kpen (k st)) (pending st) = true ->
  flatten (render fx st) = total fx st.
Proof. intros I G. destruct (push_flat fx st I G) as [H _]. exact H. Qed.

Lemma step_total fx fuel st c st' :
  step fx fuel st c = Some st' ->
  inv fx st ->
  (is_style c = true -> lone_ok fx (kpen (k st)) (pending st) = true) ->
  exists shapes, spec_shapes fx fuel (k st) c = Some shapes /\
                 total fx st' = total fx st ++ shapes /\
                 k st' = core_step fx (k st) c /\ inv fx st'.
Proof.
  unfold step. intros H I G.
  destruct (draw_item fx fuel (k st) c) as [[it|]|] eqn:D; [| |discriminate].
  - (* drawing call *)
    inversion H; subst; clear H. exists (flat_item (gctx_a fx (kpen (k st))) (gctx_t fx (kfnt (k st))) it).
    pose proof (draw_not_style _ _ _ _ _ D) as NS.
    destruct (draw_keeps_pen fx c (k st) NS) as [KP KF].
    split; [apply draw_flat; exact D|]. split; [|split; [reflexivity|]].
    + unfold total, flat_pushed, flat_pending. simpl. rewrite KP, KF, flat_map_app. simpl.
      rewrite app_nil_r, app_assoc. reflexivity.
    + unfold inv. simpl. rewrite KP. apply Forall_app. split; [exact I|].
      constructor; [|constructor]. eapply draw_item_ok; exact D.
  - (* pen / cursor call *)
    destruct (draw_none _ _ _ _ D) as [SS ND]. exists []. rewrite app_nil_r. split; [exact SS|].
    destruct (is_style c) eqn:S.
    + destruct (push_flat fx st I (G eq_refl)) as [PF [PP PK]].
      inversion H; subst; clear H. rewrite PP, PK. split; [|split; [reflexivity|]].
      * unfold total at 1, flat_pending; simpl. rewrite app_nil_r. exact PF.
      * unfold inv. simpl. constructor.
    + inversion H; subst; clear H. destruct (draw_keeps_pen fx c (k st) S) as [KP KF].
      split; [|split; [reflexivity|]].
      * unfold total, flat_pushed, flat_pending. simpl. rewrite KP, KF. reflexivity.
      * unfold inv. simpl. rewrite KP. exact I.
Qed.

Lemma run_total fx fuel l : forall st st',
  run fx fuel st l = Some st' ->
  inv fx st ->
  guard fx fuel st l = true ->
  exists out, spec_from fx fuel (k st) l = Some out /\ flatten (render fx st') = total fx st ++ out.
Proof.
  induction l as [|c t IH]; intros st st' R I G.
  - simpl in R. inversion R; subst. exists []. split; [reflexivity|]. rewrite app_nil_r.
    apply render_flat; [exact I | exact G].
  - simpl in R. destruct (step fx fuel st c) as [st1|] eqn:S; [|discriminate].
    simpl in G. rewrite S in G. apply andb_true_iff in G as [G1 G2].
    assert (G1' : is_style c = true -> lone_ok fx (kpen (k st)) (pending st) = true).
    { intro SC. rewrite SC in G1. exact G1. }
    destruct (step_total fx fuel st c st1 S I G1') as [shapes [SS [T [K I1]]]].
    destruct (IH st1 st' R I1 G2) as [out [SF FL]].
    exists (shapes ++ out). simpl. rewrite SS, <- K, SF. split; [reflexivity|].
    rewrite FL, T, app_assoc. reflexivity.
Qed.

(* the model hangs exactly when the specification has no value: a gridn whose loop does not end *)
Lemma run_hangs_iff fx fuel l : forall st,
  run fx fuel st l = None <-> spec_from fx fuel (k st) l = None.
Proof.
  induction l as [|c t IH]; intro st; simpl; [split; discriminate|].
  unfold step at 1.
  destruct (draw_item fx fuel (k st) c) as [[it|]|] eqn:D.
  - rewrite (draw_flat _ _ _ _ _ D). rewrite IH. simpl.
    destruct (spec_from fx fuel (core_step fx (k st) c) t); split; intro; try discriminate; reflexivity.
  - destruct (draw_none _ _ _ _ D) as [SS _]. rewrite SS, IH. simpl.
    assert (K : k (if is_style c then push fx st else st) = k st).
    { destruct (is_style c); [|reflexivity]. unfold push. destruct (pending st) as [|? [|? ?]]; reflexivity. }
    rewrite K.
    destruct (spec_from fx fuel (core_step fx (k st) c) t); split; intro; try discriminate; reflexivity.
  - apply draw_hang in D. rewrite D. split; reflexivity.
Qed.

Lemma inv_pre_init fx : inv fx pre_init.
Proof. constructor. Qed.

(* for every variant of the code: under that variant's guard, the document shows
   that variant's specification *)
Theorem shows_what_was_drawn fx fuel l st :
  run fx fuel pre_init l = Some st ->
  guard fx fuel pre_init l = true ->
  spec fx fuel l = Some (flatten (render fx st)).
Proof.
  intros R G. destruct (run_total fx fuel l pre_init st R (inv_pre_init fx) G) as [out [S F]].
  unfold spec. rewrite S, F. reflexivity.
Qed.

(* with both fx_lone and fx_text the guard is trivially true *)
Lemma guard_trivial fx fuel l : fx_lone fx = true -> fx_text fx = true -> forall st, guard fx fuel st l = true.
Proof.
  intros L T. assert (LO : forall p pend, lone_ok fx p pend = true).
  { intros p [|e [|? ?]]; simpl; try reflexivity. rewrite L, T. reflexivity. }
  induction l as [|c t IH]; intro st; simpl; [apply LO|].
  rewrite LO. destruct (is_style c); simpl; destruct (step fx fuel st c); auto.
Qed.

Theorem shows_what_was_drawn_fixed fuel l st :
  run all fuel pre_init l = Some st ->
  spec all fuel l = Some (flatten (render all st)).
Proof. intro R. apply shows_what_was_drawn; [exact R | apply guard_trivial; reflexivity]. Qed.

Theorem hangs_iff_spec_undefined fx fuel l :
  run fx fuel pre_init l = None <-> spec fx fuel l = None.
Proof. apply run_hangs_iff. Qed.

Definition is_gridn (c : cmd) : bool := match c with CGridn _ _ => true | _ => false end.

Lemma spec_one_shape fx fuel kk c :
  is_draw c = true -> is_gridn c = false -> exists sh, spec_shapes fx fuel kk c = Some [sh].
Proof. destruct c; simpl; intros H1 H2; try discriminate; eexists; reflexivity. Qed.

Lemma spec_no_shape fx fuel kk c : is_draw c = false -> spec_shapes fx fuel kk c = Some [].
Proof. destruct c; simpl; intro H; try discriminate; reflexivity. Qed.

Lemma spec_grid_shapes fx fuel kk u s :
  spec_shapes fx fuel kk (CGridn u s) = option_map (map (spec_grid_line (kpen kk) s)) (grid_lines fx fuel u).
Proof. simpl. destruct (grid_lines fx fuel u); reflexivity. Qed.

Lemma spec_count fx fuel l : forall kk out,
  forallb (fun c => negb (is_gridn c)) l = true ->
  spec_from fx fuel kk l = Some out ->
  List.length out = List.length (filter is_draw l).
Proof.
  induction l as [|c t IH]; intros kk out NG S; simpl in *.
  - inversion S. reflexivity.
  - apply andb_true_iff in NG as [NG1 NG2]. apply negb_true_iff in NG1.
    destruct (spec_shapes fx fuel kk c) as [a|] eqn:SS; [|discriminate].
    destruct (spec_from fx fuel (core_step fx kk c) t) as [b|] eqn:SF; [|discriminate].
    inversion S; subst. rewrite app_length, (IH _ _ NG2 SF).
    destruct (is_draw c) eqn:D.
    + destruct (spec_one_shape fx fuel kk c D NG1) as [sh E]. rewrite E in SS. inversion SS. reflexivity.
    + rewrite (spec_no_shape fx fuel kk c D) in SS. inversion SS. reflexivity.
Qed.

(* histories without the calls the remaining deviations are about *)
Definition no_dev (c : cmd) : bool :=
  match c with CEllipse _ _ _ _ _ | CText _ => false | _ => true end.
Definition agree (a b : core) : Prop := cx a = cx b /\ cy a = cy b /\ kpen a = kpen b.

Lemma spec_shapes_nodev fx1 fx2 fuel a b c :
  fx_gridn_bound fx1 = fx_gridn_bound fx2 ->
  no_dev c = true -> agree a b -> spec_shapes fx1 fuel a c = spec_shapes fx2 fuel b c.
Proof.
  intros GB N [X [Y P]]. destruct c; simpl in *; try discriminate; unfold grid_lines; rewrite ?X, ?Y, ?P, ?GB; reflexivity.
Qed.

Lemma core_step_agree fx1 fx2 a b c : agree a b -> agree (core_step fx1 a c) (core_step fx2 b c).
Proof.
  intros [X [Y P]]. unfold agree. destruct c; simpl; rewrite ?X, ?Y, ?P; auto.
Qed.

Lemma spec_from_nodev fx1 fx2 fuel l : fx_gridn_bound fx1 = fx_gridn_bound fx2 -> forall a b,
  forallb no_dev l = true -> agree a b -> spec_from fx1 fuel a l = spec_from fx2 fuel b l.
Proof.
  intro GB. induction l as [|c t IH]; intros a b N A; simpl in *; [reflexivity|].
  apply andb_true_iff in N as [N1 N2].
  rewrite (spec_shapes_nodev fx1 fx2 fuel a b c GB N1 A), (IH _ _ N2 (core_step_agree fx1 fx2 a b c A)). reflexivity.
Qed.

(* without a text call no text is ever pending, so with fx_lone the guard holds *)
Definition no_text_item (i : item) : bool := match i with IShape g _ _ => negb (is_text g) | IGrid _ _ _ => true end.

Lemma draw_no_text fx fuel kk c it :
  no_dev c = true -> draw_item fx fuel kk c = Some (Some it) -> no_text_item it = true.
Proof.
  destruct c; simpl; intros N H; try discriminate; try (inversion H; subst; reflexivity).
  destruct (grid_lines fx fuel unit); inversion H; subst. reflexivity.
Qed.

Lemma lone_ok_no_text fx p pend :
  fx_lone fx = true -> forallb no_text_item pend = true -> lone_ok fx p pend = true.
Proof.
  intros L N. destruct pend as [|e [|? ?]]; simpl; try reflexivity. rewrite L. simpl.
  simpl in N. apply andb_true_iff in N as [N _].
  destruct e as [g a t|a t l]; simpl in *; [|apply orb_true_r].
  apply negb_true_iff in N. rewrite N. simpl. apply orb_true_r.
Qed.

Lemma guard_no_text fx fuel l : fx_lone fx = true -> forall st,
  forallb no_dev l = true -> forallb no_text_item (pending st) = true -> guard fx fuel st l = true.
Proof.
  intros L. induction l as [|c t IH]; intros st N P; simpl.
  - apply lone_ok_no_text; assumption.
  - simpl in N. apply andb_true_iff in N as [N1 N2].
    rewrite (lone_ok_no_text fx _ _ L P).
    assert (E : (if is_style c then true else true) = true) by (destruct (is_style c); reflexivity).
    rewrite E. simpl.
    destruct (step fx fuel st c) as [st1|] eqn:S; [|reflexivity].
    apply IH; [exact N2|]. unfold step in S.
    destruct (draw_item fx fuel (k st) c) as [[it|]|] eqn:D; [| |discriminate]; inversion S; subst; simpl.
    + rewrite forallb_app, P. simpl. rewrite (draw_no_text _ _ _ _ _ N1 D). reflexivity.
    + destruct (is_style c); [|exact P]. unfold push.
      destruct (pending st) as [|? [|? ?]] eqn:PE; simpl; rewrite ?PE; reflexivity.
Qed.

(* the intended meaning, with the grid positions computed by the given loop
   variant (the two loops draw the same grid up to floating-point rounding; which
   one runs is a matter of termination, not of what is shown) *)
Definition intended (loop_bounded : bool) : fixes := mkFx true true true loop_bounded true true true.

(* the code in force against the INTENDED meaning: no ellipse / text call *)
Theorem shows_what_was_drawn_guarded fx fuel l st :
  fx_lone fx = true ->
  run fx fuel pre_init (program l) = Some st ->
  forallb no_dev l = true ->
  spec (intended (fx_gridn_bound fx)) fuel (program l) = Some (flatten (render fx st)).
Proof.
  intros L R N.
  assert (N' : forallb no_dev (program l) = true) by exact N.
  rewrite <- (shows_what_was_drawn fx fuel (program l) st R (guard_no_text fx fuel (program l) L pre_init N' eq_refl)).
  unfold spec. symmetry. apply spec_from_nodev; [reflexivity | exact N' | repeat split].
Qed.

Lemma effective_accepted fx l : forallb (wrapper_accepts fx) (effective fx l) = true.
Proof.
  induction l as [|c t IH]; simpl; [reflexivity|].
  destruct (wrapper_accepts fx c) eqn:E; simpl; [rewrite E, IH|]; reflexivity.
Qed.

Lemma effective_all_accepted fx l : rejected fx l = false -> effective fx l = l.
Proof.
  unfold rejected. induction l as [|c t IH]; simpl; [reflexivity|].
  destruct (wrapper_accepts fx c); simpl; [intro H; rewrite (IH H); reflexivity | discriminate].
Qed.

(* with the check in force, a unit <= 0 never reaches the loop *)
Lemma gridn_nonpositive_rejected fx u c :
  fx_gridn fx = true -> fx_gridn_bound fx = false ->
  PrimFloat.leb u 0%float = true -> wrapper_accepts fx (CGridn u c) = false.
Proof. intros G B L. simpl. rewrite G, B, L. reflexivity. Qed.

Lemma effective_units_positive fx l u c :
  fx_gridn fx = true -> fx_gridn_bound fx = false ->
  In (CGridn u c) (effective fx l) -> PrimFloat.leb u 0%float = false.
Proof.
  intros G B I. pose proof (effective_accepted fx l) as A. rewrite forallb_forall in A.
  specialize (A _ I). simpl in A. rewrite G, B in A. apply negb_true_iff in A. exact A.
Qed.

Definition old_loop (fuel : nat) (u : float) : option (list (geom * bool)) := grid_loop fuel 0%float (tx u) 0%Z.

Lemma grid_lines_old fx fuel u : fx_gridn_bound fx = false -> grid_lines fx fuel u = old_loop fuel u.
Proof. intro H. unfold grid_lines. rewrite H. reflexivity. Qed.

(* with the bound (FIX gridn-tiny-unit-does-not-terminate): the loop always
   ends, whatever the unit, and draws at most 2 * (maxGridRounds + 1) lines --- *)
Lemma grid_rounds_length left : forall n u, (List.length (grid_rounds left n u) <= 2 * left)%nat.
Proof.
  induction left as [|k IH]; intros n u; simpl; [lia|].
  destruct (PrimFloat.leb (fmul (float_of_Z n) u) grid_bound); simpl; [|lia].
  specialize (IH (Z.succ n) u). lia.
Qed.

Theorem gridn_terminates_bounded fx fuel u :
  fx_gridn_bound fx = true ->
  exists l, grid_lines fx fuel u = Some l /\ (List.length l <= 2 * Z.to_nat (grid_max_rounds + 1))%nat.
Proof.
  intro H. exists (grid_count (tx u)). unfold grid_lines. rewrite H. split; [reflexivity|].
  apply grid_rounds_length.
Qed.

(* so with the bound no history hangs: a document is always written *)
Lemma step_some fx fuel st c : fx_gridn_bound fx = true -> exists st', step fx fuel st c = Some st'.
Proof.
  intro H. unfold step.
  destruct (draw_item fx fuel (k st) c) as [[it|]|] eqn:D; try (eexists; reflexivity).
  destruct c; simpl in D; try discriminate. unfold grid_lines in D. rewrite H in D. discriminate.
Qed.

Theorem never_hangs fx fuel l : fx_gridn_bound fx = true -> forall st, exists st', run fx fuel st l = Some st'.
Proof.
  intro H. induction l as [|c t IH]; intro st; simpl; [eexists; reflexivity|].
  destruct (step_some fx fuel st c H) as [st1 S]. rewrite S. apply IH.
Qed.

(* every gridn call that reaches the platform has a unit >= minGridUnit (in particular not NaN) *)
Lemma effective_units_at_least_min fx l u c :
  fx_gridn_bound fx = true -> In (CGridn u c) (effective fx l) -> PrimFloat.leb grid_min_unit u = true.
Proof.
  intros G I. pose proof (effective_accepted fx l) as A. rewrite forallb_forall in A.
  specialize (A _ I). simpl in A. rewrite G in A. exact A.
Qed.

(* Termination of the accumulating loop (code in force until the bound lands),
   stated over the abstract condition: some natural-number
   measure of the loop variable strictly decreases at every round that is
   entered.  (Over binary64 "unit > 0" is NOT sufficient: i + unit = i once
   unit < ulp(i)/2, see [gridn_stalls].) *)
Lemma grid_loop_S fuel i u cnt :
  grid_loop (S fuel) i u cnt =
  if PrimFloat.leb i grid_bound then
    match grid_loop fuel (fadd i u) u (Z.succ cnt) with
    | Some r => Some (grid_pair i (Z.eqb (Z.modulo cnt grid_every) 0) r)
    | None => None
    end
  else Some [].
Proof. reflexivity. Qed.

Lemma grid_loop_terminates u (m : float -> nat) :
  (forall i, PrimFloat.leb i grid_bound = true -> (m (fadd i u) < m i)%nat) ->
  forall n i cnt, (m i <= n)%nat -> exists l, grid_loop (S n) i u cnt = Some l.
Proof.
  intros Hm. induction n as [|n IH]; intros i cnt Hi.
  - simpl. destruct (PrimFloat.leb i grid_bound) eqn:E; [|eexists; reflexivity].
    specialize (Hm i E). lia.
  - rewrite grid_loop_S.
    destruct (PrimFloat.leb i grid_bound) eqn:E; [|eexists; reflexivity].
    specialize (Hm i E). destruct (IH (fadd i u) (Z.succ cnt)) as [r Hr]; [lia|].
    rewrite Hr. eexists; reflexivity.
Qed.

Theorem gridn_terminates_if_measure unit (m : float -> nat) :
  (forall i, PrimFloat.leb i grid_bound = true -> (m (fadd i (tx unit)) < m i)%nat) ->
  exists fuel l, old_loop fuel unit = Some l.
Proof.
  intro Hm. destruct (grid_loop_terminates (tx unit) m Hm (m 0%float) 0%float 0%Z (le_n _)) as [l Hl].
  exists (S (m 0%float)), l. exact Hl.
Qed.

Lemma grid_loop_stuck u i :
  PrimFloat.leb i grid_bound = true -> fadd i u = i -> forall fuel cnt, grid_loop fuel i u cnt = None.
Proof.
  intros B S. induction fuel as [|f IH]; intro cnt; simpl; [reflexivity|].
  rewrite B, S, IH. reflexivity.
Qed.

Lemma gridn_zero_never_ends : forall fuel, old_loop fuel 0%float = None.
Proof. intro fuel. apply grid_loop_stuck; vm_compute; reflexivity. Qed.

Lemma gridn_neg_infinity_never_ends : forall fuel, old_loop fuel neg_infinity = None.
Proof.
  intros [|f]; [reflexivity|]. unfold old_loop. simpl.
  replace (PrimFloat.leb 0 grid_bound) with true by (vm_compute; reflexivity).
  replace (fadd 0 (tx neg_infinity)) with neg_infinity by (vm_compute; reflexivity).
  rewrite grid_loop_stuck; [reflexivity | vm_compute; reflexivity | vm_compute; reflexivity].
Qed.

(* the stall: with unit 1e-17 (scaled: 1e-16 < ulp(1)/2) the loop variable no
   longer moves once it has reached 1, and 1 <= 1000: from there the
   accumulating loop never ends, whatever the fuel *)
Lemma gridn_stalls :
  fadd 1%float (tx 1e-17%float) = 1%float /\
  forall fuel cnt, grid_loop fuel 1%float (tx 1e-17%float) cnt = None.
Proof.
  assert (E : fadd 1%float (tx 1e-17%float) = 1%float) by (vm_compute; reflexivity).
  split; [exact E|]. apply grid_loop_stuck; [vm_compute; reflexivity | exact E].
Qed.

(* non-vacuity of the measure hypothesis: when one step from anywhere within the
   bound leaves it, the loop body runs once *)
Definition one_round (x : float) : nat := if PrimFloat.leb x grid_bound then 1 else 0.

Lemma one_round_measure u :
  (forall i, PrimFloat.leb i grid_bound = true -> PrimFloat.leb (fadd i u) grid_bound = false) ->
  forall i, PrimFloat.leb i grid_bound = true -> (one_round (fadd i u) < one_round i)%nat.
Proof. intros H i E. unfold one_round. rewrite E, (H i E). lia. Qed.

(* unit = NaN (0/0) *)
Lemma nan_measure :
  forall i, PrimFloat.leb i grid_bound = true -> (one_round (fadd i (tx nan)) < one_round i)%nat.
Proof.
  apply one_round_measure. intros i _.
  assert (N : Prim2SF (fadd i (tx nan)) = SpecFloat.S754_nan).
  { unfold fadd. rewrite add_spec.
    replace (Prim2SF (tx nan)) with SpecFloat.S754_nan by (vm_compute; reflexivity).
    unfold SF64add, SpecFloat.SFadd. destruct (Prim2SF i); reflexivity. }
  rewrite leb_spec, N. reflexivity.
Qed.

(* unit = +infinity *)
Lemma infinity_measure :
  forall i, PrimFloat.leb i grid_bound = true -> (one_round (fadd i (tx infinity)) < one_round i)%nat.
Proof.
  apply one_round_measure. intros i _.
  rewrite leb_spec. unfold fadd. rewrite add_spec.
  replace (Prim2SF (tx infinity)) with (SpecFloat.S754_infinity false) by (vm_compute; reflexivity).
  replace (Prim2SF grid_bound) with (SpecFloat.S754_finite false 8796093022208000 (-43)) by (vm_compute; reflexivity).
  unfold SF64add, SpecFloat.SFadd. destruct (Prim2SF i) as [s|s| |s m e]; try reflexivity.
  destruct s; reflexivity.
Qed.
