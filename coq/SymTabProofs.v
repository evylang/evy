(* SymTabProofs.v — invariants of the symbol-table model over every history. *)
From Coq Require Import NArith List Bool Lia ZifyBool ZifyNat ZifyN.
From EvyV Require Import Base SymTab.
Import ListNotations.
Open Scope N_scope.

Definition tab_ok (scp : sscope) (base : N) (t : table) : Prop :=
  base <= index t /\
  (forall n y, slookup n (store t) = Some y -> sname y = n /\ sscp y = scp /\ base <= sidx y < index t) /\
  (forall n1 n2 y1 y2, slookup n1 (store t) = Some y1 -> slookup n2 (store t) = Some y2 ->
                       sidx y1 = sidx y2 -> n1 = n2).

(* the index a table pushed on top of chain [ts] starts from *)
Definition base_of (ts : list table) : N :=
  match ts with
  | [] => 0
  | [_] => 0
  | o :: _ :: _ => index o
  end.

Fixpoint chain_ok (ts : list table) : Prop :=
  match ts with
  | [] => False
  | [g] => tab_ok GlobalScope 0 g
  | t :: tl => tab_ok LocalScope (base_of tl) t /\ chain_ok tl
  end.

Definition Inv (s : symtab) : Prop := chain_ok (cur s :: outers s).

Lemma chain_ok_cons t tl : tl <> [] -> chain_ok (t :: tl) <-> tab_ok LocalScope (base_of tl) t /\ chain_ok tl.
Proof. destruct tl; [congruence|]. simpl. tauto. Qed.

Lemma slookup_cons_same n y st : slookup n ((n, y) :: st) = Some y.
Proof. simpl. rewrite str_eqb_refl. reflexivity. Qed.

Lemma tab_ok_empty scp b : tab_ok scp b {| store := []; index := b; nmax := 0 |}.
Proof. repeat split; simpl; try lia; intros; discriminate. Qed.

Lemma inv_new : Inv new_symtab.
Proof. exact (tab_ok_empty GlobalScope 0). Qed.

Lemma inv_push s : Inv s -> Inv (st_push s).
Proof.
  unfold Inv, st_push. intro H. cbn [cur outers].
  apply chain_ok_cons; [discriminate|]. split; [|exact H].
  destruct (outers s) as [|o r] eqn:E; cbn [base_of]; apply tab_ok_empty.
Qed.

Lemma inv_pop s : Inv s -> Inv (st_pop s).
Proof.
  unfold Inv, st_pop. intro H. destruct (outers s) as [|o r] eqn:E; [rewrite E; exact H|].
  cbn [cur outers]. apply chain_ok_cons in H; [|discriminate]. destruct H as [_ H].
  (* the new current table differs from o in nmax only, which tab_ok does not read *)
  destruct r; exact H.
Qed.

Lemma tab_ok_define scp b t n :
  tab_ok scp b t -> slookup n (store t) = None ->
  tab_ok scp b {| store := (n, {| sname := n; sscp := scp; sidx := index t |}) :: store t;
                  index := index t + 1; nmax := nmax t |}.
Proof.
  intros (A & B & C) HN. split; [simpl; lia|]. split.
  - intros m y. simpl. destruct (str_eqb n m) eqn:E.
    + intro H; inversion H; subst; simpl. apply str_eqb_eq in E. repeat split; auto; lia.
    + intro H. apply B in H. simpl. intuition lia.
  - intros n1 n2 y1 y2. simpl.
    destruct (str_eqb n n1) eqn:E1; destruct (str_eqb n n2) eqn:E2; intros H1 H2 HI.
    + apply str_eqb_eq in E1, E2. congruence.
    + inversion H1; subst; simpl in HI. apply B in H2. lia.
    + inversion H2; subst; simpl in HI. apply B in H1. lia.
    + eapply C; eauto.
Qed.

Lemma inv_define n s : Inv s -> Inv (fst (st_define n s)).
Proof.
  unfold Inv, st_define. intro H.
  destruct (slookup n (store (cur s))) eqn:E; [exact H|]. cbn [fst cur outers].
  destruct (outers s) as [|o r] eqn:EO.
  - simpl in *. apply (tab_ok_define GlobalScope 0 (cur s) n H E).
  - apply chain_ok_cons in H; [|discriminate]. apply chain_ok_cons; [discriminate|].
    destruct H as [H1 H2]. split; [|exact H2].
    apply (tab_ok_define LocalScope _ (cur s) n H1 E).
Qed.

Lemma inv_step o s : Inv s -> Inv (fst (st_step o s)).
Proof.
  destruct o; simpl; intro H.
  - apply inv_push; auto.
  - apply inv_pop; auto.
  - pose proof (inv_define name s H). destruct (st_define name s); exact H0.
  - exact H.
Qed.

Lemma st_run_cons o t s :
  st_run (o :: t) s = (fst (st_run t (fst (st_step o s))), snd (st_step o s) :: snd (st_run t (fst (st_step o s)))).
Proof.
  simpl. destruct (st_step o s) as [s1 r]. simpl. destruct (st_run t s1). reflexivity.
Qed.

Lemma inv_run h : forall s, Inv s -> Inv (fst (st_run h s)).
Proof.
  induction h as [|o t IH]; intros s H; [exact H|].
  rewrite st_run_cons. simpl. apply IH. apply inv_step. exact H.
Qed.

(* y is the symbol stored under name n in the table at depth d (0 = current) *)
Definition live_in (ts : list table) (d : nat) (n : str) (y : symbol) : Prop :=
  exists t, nth_error ts d = Some t /\ slookup n (store t) = Some y.
Definition live_at (d : nat) (n : str) (y : symbol) (s : symtab) : Prop :=
  live_in (cur s :: outers s) d n y.

Definition all_below (b : N) (ts : list table) : Prop :=
  forall d n y, live_in ts d n y -> sscp y = LocalScope -> sidx y < b.

Lemma live_in_S t tl d n y : live_in (t :: tl) (S d) n y <-> live_in tl d n y.
Proof. unfold live_in; simpl; tauto. Qed.

Lemma live_in_0 t tl n y : live_in (t :: tl) 0 n y <-> slookup n (store t) = Some y.
Proof.
  unfold live_in; simpl. split.
  - intros (t' & E & H). inversion E; subst; auto.
  - intro H; eauto.
Qed.

Lemma live_S t tl d n y : live_in (t :: tl) (S d) n y -> live_in tl d n y.
Proof. apply live_in_S. Qed.
Lemma live_0 t tl n y : live_in (t :: tl) 0 n y -> slookup n (store t) = Some y.
Proof. apply live_in_0. Qed.

Lemma chain_below ts : chain_ok ts -> all_below (base_of ts) ts /\
  (forall d n y, live_in ts d n y -> sscp y = LocalScope -> (S d < length ts)%nat).
Proof.
  induction ts as [|t tl IH]; [simpl; tauto|].
  destruct tl as [|o r].
  - simpl. intros (A & B & C).
    assert (NL : forall d n y, live_in [t] d n y -> sscp y = LocalScope -> False).
    { intros d n y H L. destruct d; [|destruct H as (? & E & _); destruct d; discriminate].
      apply live_0 in H. apply B in H. destruct H as (_ & S & _). congruence. }
    split; intros d n y H L; destruct (NL d n y H L).
  - intro H. apply chain_ok_cons in H; [|discriminate]. destruct H as [(A & B & C) H2].
    specialize (IH H2). destruct IH as [IH1 IH2]. split.
    + intros d n y H L. cbn [base_of]. destruct d.
      * apply live_0 in H. apply B in H. lia.
      * apply live_S in H. specialize (IH1 _ _ _ H L). lia.
    + intros d n y H L. destruct d; [simpl; lia|].
      apply live_S in H. specialize (IH2 _ _ _ H L). simpl in *. lia.
Qed.

Lemma chain_no_sharing ts : chain_ok ts ->
  forall d1 d2 n1 n2 y1 y2, live_in ts d1 n1 y1 -> live_in ts d2 n2 y2 ->
    sscp y1 = sscp y2 -> sidx y1 = sidx y2 -> d1 = d2 /\ n1 = n2.
Proof.
  induction ts as [|t tl IH]; [simpl; tauto|].
  intros H d1 d2 n1 n2 y1 y2 L1 L2 ES EI.
  destruct tl as [|o r].
  - destruct d1; [|destruct L1 as (? & E & _); destruct d1; discriminate].
    destruct d2; [|destruct L2 as (? & E & _); destruct d2; discriminate].
    simpl in H. destruct H as (A & B & C). apply live_0 in L1, L2. split; eauto.
  - apply chain_ok_cons in H; [|discriminate]. destruct H as [(A & B & C) H2].
    pose proof (chain_below _ H2) as [BL _].
    destruct d1, d2.
    + apply live_0 in L1, L2. split; eauto.
    + exfalso. apply live_0 in L1. apply live_S in L2. apply B in L1.
      destruct L1 as (_ & S1 & R1). assert (sscp y2 = LocalScope) by congruence.
      specialize (BL _ _ _ L2 H). lia.
    + exfalso. apply live_0 in L2. apply live_S in L1. apply B in L2.
      destruct L2 as (_ & S2 & R2). assert (sscp y1 = LocalScope) by congruence.
      specialize (BL _ _ _ L1 H). lia.
    + apply live_S in L1, L2. destruct (IH H2 _ _ _ _ _ _ L1 L2 ES EI). split; congruence.
Qed.

Theorem symtab_no_sharing : forall (h : list sop),
  let s := fst (st_run h new_symtab) in
  forall d1 d2 n1 n2 y1 y2, live_at d1 n1 y1 s -> live_at d2 n2 y2 s ->
    sscp y1 = sscp y2 -> sidx y1 = sidx y2 -> d1 = d2 /\ n1 = n2.
Proof.
  intros h s. apply chain_no_sharing. apply (inv_run h new_symtab inv_new).
Qed.

Lemma resolve_in_spec n ts :
  match resolve_in n ts with
  | Some y => exists d, live_in ts d n y /\ forall d' y', (d' < d)%nat -> ~ live_in ts d' n y'
  | None => forall d y, ~ live_in ts d n y
  end.
Proof.
  induction ts as [|t tl IH]; simpl.
  - intros d y (t & E & _). destruct d; discriminate.
  - destruct (slookup n (store t)) eqn:E.
    + exists 0%nat. split; [apply live_in_0; exact E|]. intros; lia.
    + destruct (resolve_in n tl) as [y|].
      * destruct IH as (d & L & M). exists (S d). split; [apply live_in_S; exact L|].
        intros d' y' Hd HL. destruct d'.
        -- apply live_0 in HL. congruence.
        -- apply live_S in HL. apply (M d' y'); [lia|exact HL].
      * intros d y HL. destruct d.
        -- apply live_0 in HL. congruence.
        -- apply live_S in HL. apply (IH d y HL).
Qed.

Theorem resolve_innermost : forall (s : symtab) (n : str),
  match st_resolve n s with
  | Some y => exists d, live_at d n y s /\ forall d' y', (d' < d)%nat -> ~ live_at d' n y' s
  | None => forall d y, ~ live_at d n y s
  end.
Proof. intros s n. apply resolve_in_spec. Qed.

Theorem define_then_resolve : forall (s : symtab) (n : str),
  st_resolve n (fst (st_define n s)) = Some (snd (st_define n s)).
Proof.
  intros s n. unfold st_define, st_resolve.
  destruct (slookup n (store (cur s))) eqn:E; cbn [fst snd cur outers resolve_in store].
  - rewrite E. reflexivity.
  - rewrite slookup_cons_same. reflexivity.
Qed.

Inductive wellnested : list sop -> Prop :=
| wn_nil : wellnested []
| wn_define n h : wellnested h -> wellnested (SDefine n :: h)
| wn_resolve n h : wellnested h -> wellnested (SResolve n :: h)
| wn_block h1 h2 : wellnested h1 -> wellnested h2 -> wellnested (SPush :: h1 ++ SPop :: h2).

Lemma st_run_app h1 : forall h2 s,
  fst (st_run (h1 ++ h2) s) = fst (st_run h2 (fst (st_run h1 s))).
Proof.
  induction h1 as [|o t IH]; intros h2 s; [reflexivity|].
  rewrite <- app_comm_cons. rewrite !st_run_cons. cbn [fst]. apply IH.
Qed.

(* what a well-nested history may change in the current table: only add
   definitions on top, advance index, raise nmax *)
Lemma wellnested_frame h : wellnested h -> forall s,
  outers (fst (st_run h s)) = outers s /\
  exists added, store (cur (fst (st_run h s))) = added ++ store (cur s).
Proof.
  induction 1; intro s.
  - simpl. split; [reflexivity|exists []; reflexivity].
  - rewrite st_run_cons. destruct (IHwellnested (fst (st_step (SDefine n) s))) as [A (ad & B)].
    cbn [fst]. rewrite A, B. simpl. unfold st_define.
    destruct (slookup n (store (cur s))); cbn [fst cur outers store].
    + split; [reflexivity|exists ad; reflexivity].
    + split; [reflexivity|]. exists (ad ++ [(n, {| sname := n; sscp := match outers s with [] => GlobalScope | _ :: _ => LocalScope end; sidx := index (cur s) |})]).
      rewrite <- app_assoc. reflexivity.
  - rewrite st_run_cons. cbn [fst st_step]. apply IHwellnested.
  - rewrite st_run_cons. cbn [fst st_step]. rewrite st_run_app. rewrite st_run_cons. cbn [fst st_step].
    set (s1 := fst (st_run h1 (st_push s))).
    destruct (IHwellnested1 (st_push s)) as [A1 _]. fold s1 in A1. cbn [st_push outers] in A1.
    destruct (IHwellnested2 (st_pop s1)) as [A2 (ad & B2)].
    rewrite A2, B2. unfold st_pop. rewrite A1. cbn [cur outers store]. split; [reflexivity|exists ad; reflexivity].
Qed.

(* names defined inside a block vanish when it is closed: everything that
   was resolvable before the block resolves to the same symbol after it *)
Theorem block_is_transparent : forall (h : list sop) (s : symtab) (n : str),
  wellnested h ->
  st_resolve n (fst (st_run (SPush :: h ++ [SPop]) s)) = st_resolve n s.
Proof.
  intros h s n W.
  assert (W2 : wellnested (SPush :: h ++ SPop :: [])) by (apply wn_block; [exact W|constructor]).
  rewrite st_run_cons. cbn [fst st_step]. rewrite st_run_app. rewrite st_run_cons. cbn [fst st_step st_run].
  destruct (wellnested_frame h W (st_push s)) as [A _]. cbn [st_push outers] in A.
  unfold st_resolve, st_pop. rewrite A. cbn [cur outers resolve_in store]. reflexivity.
Qed.

(* nestedMaxIndex of the root table once c and the open scopes os are popped *)
Definition P (c : table) (os : list table) : N := nmax (st_pop_all_aux c os).

Lemma P_mono os : forall c c', nmax c <= nmax c' -> index c <= index c' -> P c os <= P c' os.
Proof.
  unfold P. induction os as [|o r IH]; intros c c' H1 H2; simpl; [exact H1|].
  apply IH; simpl; lia.
Qed.

Lemma P_ge_nmax os : forall c, nmax c <= P c os.
Proof.
  unfold P. induction os as [|o r IH]; intro c; simpl; [lia|].
  etransitivity; [|apply IH]. simpl. lia.
Qed.

Lemma P_ge_sum os : forall c, os <> [] -> nmax c + index c <= P c os.
Proof.
  intros c H. destruct os as [|o r]; [congruence|]. unfold P; simpl.
  etransitivity; [|apply (P_ge_nmax r)]. simpl. lia.
Qed.

Lemma P_ge_index os : forall c t, In t (removelast os) -> index t <= P c os.
Proof.
  induction os as [|o r IH]; intros c t H; [destruct H|].
  destruct r as [|o2 r2]; [destruct H|].
  change (removelast (o :: o2 :: r2)) with (o :: removelast (o2 :: r2)) in H.
  unfold P. cbn [st_pop_all_aux]. destruct H as [<-|H].
  - etransitivity; [|apply (P_ge_sum (o2 :: r2)); discriminate]. simpl. lia.
  - apply (IH _ _ H).
Qed.

Definition bound (s : symtab) : N := P (cur s) (outers s).

Lemma bound_step o s : bound s <= bound (fst (st_step o s)).
Proof.
  unfold bound. destruct o; simpl.
  - unfold st_push; cbn [cur outers]. unfold P at 2. cbn [st_pop_all_aux]. apply P_mono; simpl; lia.
  - unfold st_pop. destruct (outers s) as [|o r] eqn:E; [rewrite E; lia|]. cbn [cur outers].
    unfold P at 1. cbn [st_pop_all_aux]. unfold P. lia.
  - unfold st_define. destruct (slookup name (store (cur s))); cbn [fst cur outers]; [lia|].
    apply P_mono; simpl; lia.
  - lia.
Qed.

Lemma nth_removelast {A} (l : list A) : forall d t, nth_error l d = Some t -> (S d < length l)%nat -> In t (removelast l).
Proof.
  induction l as [|a l IH]; intros d t E DL; [destruct d; discriminate|].
  destruct l as [|b l]; [simpl in DL; lia|].
  change (removelast (a :: b :: l)) with (a :: removelast (b :: l)).
  destruct d; [inversion E; left; reflexivity|]. right. apply (IH d); [exact E|simpl in *; lia].
Qed.

Lemma chain_local_index ts : chain_ok ts -> forall d t n y,
  nth_error ts d = Some t -> slookup n (store t) = Some y -> sscp y = LocalScope -> sidx y < index t.
Proof.
  induction ts as [|a l IH]; intros H d t n y E HL S; [destruct d; discriminate|].
  destruct l as [|b l].
  - destruct d; [|destruct d; discriminate]. inversion E; subst. simpl in H. destruct H as (_ & B & _).
    apply B in HL. destruct HL as (_ & X & _). congruence.
  - apply chain_ok_cons in H; [|discriminate]. destruct H as [(A & B & C) H3].
    destruct d; [inversion E; subst; apply B in HL; lia|]. apply (IH H3 d t n y E HL S).
Qed.

(* a live local is below the index of its table; the bound covers the current
   table by P_ge_sum, an outer one (never the root) by P_ge_index *)
Lemma live_below_bound s : Inv s -> forall d n y, live_at d n y s -> sscp y = LocalScope -> sidx y < bound s.
Proof.
  unfold Inv, live_at, bound. intros H d n y L S.
  pose proof (chain_below _ H) as [_ DL]. specialize (DL _ _ _ L S). destruct L as (t & E & HL).
  pose proof (chain_local_index _ H d t n y E HL S) as LT.
  destruct (outers s) as [|o r]; [simpl in DL; lia|].
  destruct d.
  - inversion E; subst t. pose proof (P_ge_sum (o :: r) (cur s) ltac:(discriminate)). lia.
  - pose proof (P_ge_index (o :: r) (cur s) t (nth_removelast (o :: r) d t E ltac:(simpl in *; lia))). lia.
Qed.

Lemma step_result_below o s : Inv s -> forall y, snd (st_step o s) = RSym y -> sscp y = LocalScope ->
  sidx y < bound (fst (st_step o s)).
Proof.
  intros H y E S. destruct o; simpl in E; try discriminate.
  - pose proof (inv_step (SDefine name) s H) as H'. simpl in *.
    pose proof (define_then_resolve s name) as DR.
    destruct (st_define name s) as [s' y'] eqn:ED. simpl in *. inversion E; subst y'.
    pose proof (resolve_innermost s' name) as RI. rewrite DR in RI. destruct RI as (d & L & _).
    apply (live_below_bound s' H' d name y L S).
  - simpl. destruct (st_resolve name s) eqn:ER; [|discriminate]. inversion E; subst.
    pose proof (resolve_innermost s name) as RI. rewrite ER in RI. destruct RI as (d & L & _).
    apply (live_below_bound s H d name y L S).
Qed.

Lemma bound_run h : forall s, bound s <= bound (fst (st_run h s)).
Proof.
  induction h as [|o t IH]; intro s; [simpl; lia|].
  rewrite st_run_cons. cbn [fst]. etransitivity; [apply (bound_step o s)|apply IH].
Qed.

Lemma run_results_below h : forall s, Inv s ->
  forall y, In (RSym y) (snd (st_run h s)) -> sscp y = LocalScope -> sidx y < bound (fst (st_run h s)).
Proof.
  induction h as [|o t IH]; intros s H y HI S; [destruct HI|].
  rewrite st_run_cons in *. cbn [fst snd] in *. destruct HI as [E|HI].
  - pose proof (step_result_below o s H y E S). pose proof (bound_run t (fst (st_step o s))). lia.
  - apply IH; auto. apply inv_step; auto.
Qed.

(* every LOCAL symbol any Define/Resolve of the history ever returned has an
   index below the nestedMaxIndex the root table has once all open scopes are
   popped — i.e. below Bytecode.LocalCount *)
Theorem symtab_locals_below_localcount : forall (h : list sop) (y : symbol),
  In (RSym y) (snd (st_run h new_symtab)) -> sscp y = LocalScope ->
  sidx y < nmax (st_pop_all (fst (st_run h new_symtab))).
Proof. intros h y HI S. apply (run_results_below h new_symtab inv_new y HI S). Qed.

Corollary symtab_locals_below_localcount_closed : forall (h : list sop) (y : symbol),
  outers (fst (st_run h new_symtab)) = [] ->
  In (RSym y) (snd (st_run h new_symtab)) -> sscp y = LocalScope ->
  sidx y < st_local_count (fst (st_run h new_symtab)).
Proof.
  intros h y E HI S. pose proof (symtab_locals_below_localcount h y HI S) as H.
  unfold st_pop_all in H. rewrite E in H. exact H.
Qed.

(* at top level a step does not lower the root table's index (GlobalCount) *)
Lemma global_index_mono o s : outers s = [] -> outers (fst (st_step o s)) = [] -> index (cur s) <= index (cur (fst (st_step o s))).
Proof.
  intros E E'. destruct o; simpl in *.
  - discriminate.
  - unfold st_pop. rewrite E. lia.
  - unfold st_define. destruct (slookup name (store (cur s))); simpl; lia.
  - lia.
Qed.
