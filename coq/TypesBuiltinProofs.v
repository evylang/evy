(* TypesBuiltinProofs.v — a call result is a variable-like value, for every
   result type and in particular for every row of the regenerated built-in
   table. *)
From Coq Require Import List Bool String.
From EvyV Require Import Base TypesSyntax Types TypesSpec TypesSpecProofs TypesProofs BuiltinTy TypesBuiltin.
From EvyV.Gen Require Import BuiltinSigs.
Import ListNotations.

Definition composite (t : sty) : bool := match t with SArr _ | SMap _ => true | _ => false end.

Lemma call_type_var_ty t : closed t = true -> composite t = true -> var_ty (fixed_type (embed t)) = true.
Proof.
  intros Hc Hk. unfold var_ty.
  destruct (fixed_type_keeps (embed t)) as [A B]. rewrite A, B, spec_embed, (closed_embed_iff t Hc). simpl.
  destruct t; simpl in *; try discriminate; rewrite nofix_embed; reflexivity.
Qed.

(* the node of a call, what the specification says about it, and — for a
   composite result type — assignability of the result: exactly that of a
   variable (identical type or any), never the conversion a constant gets *)
Theorem call_result_is_variable t :
  closed t = true ->
  tc (ECall t) = ONode (NLeaf (fixed_type (embed t))) false /\
  spec_tc (ECall t) = Some (KVar, t) /\
  (composite t = true -> forall T, spec_ty T = true ->
     (accepts T (fixed_type (embed t)) = true <-> Assignable KVar (erase T) t)).
Proof.
  intros Hc. split; [reflexivity|]. split; [reflexivity|].
  intros Hk T HT.
  assert (Hv := call_type_var_ty t Hc Hk).
  assert (E : erase (fixed_type (embed t)) = t) by (rewrite erase_fixed_type; apply erase_embed).
  pose proof (accepts_iff_assignable T (fixed_type (embed t)) HT (var_pure _ Hv)) as H.
  rewrite (var_kind _ Hv), E in H. exact H.
Qed.

(* every result type of the regenerated built-in table can be written in a program *)
Lemma builtin_results_closed : Forall (fun p => closed (snd p) = true) builtin_results.
Proof. vm_compute. repeat constructor. Qed.

Lemma builtin_ret_in name t : builtin_ret name = Some t ->
  exists s, In s builtin_sigs /\ s_ (b_name s) = name /\ sty_of_bty (b_ret s) = Some t.
Proof.
  unfold builtin_ret. induction builtin_sigs as [|s r IH]; simpl; [discriminate|].
  destruct (str_eqb (s_ (b_name s)) name) eqn:E.
  - intro H. exists s. apply str_eqb_eq in E. auto.
  - intro H. destruct (IH H) as (s' & I & N & R). exists s'. auto.
Qed.

Lemma sig_in_results s t : In s builtin_sigs -> sty_of_bty (b_ret s) = Some t -> In (b_name s, t) builtin_results.
Proof.
  intros I R. unfold builtin_results. apply in_flat_map. exists s. split; [exact I|]. rewrite R. left. reflexivity.
Qed.

Theorem builtin_call_result_is_variable name t :
  builtin_ret name = Some t ->
  closed t = true /\
  tc (ECall t) = ONode (NLeaf (fixed_type (embed t))) false /\
  spec_tc (ECall t) = Some (KVar, t) /\
  (composite t = true -> forall T, spec_ty T = true ->
     (accepts T (fixed_type (embed t)) = true <-> erase T = t \/ erase T = SAny)).
Proof.
  intro H. destruct (builtin_ret_in name t H) as (s & I & _ & R).
  assert (Hc : closed t = true).
  { pose proof builtin_results_closed as F. rewrite Forall_forall in F.
    exact (F _ (sig_in_results s t I R)). }
  split; [exact Hc|].
  destruct (call_result_is_variable t Hc) as (A & B & C).
  split; [exact A|]. split; [exact B|].
  intros Hk T HT. rewrite (C Hk T HT). apply asg_var.
Qed.

(* non-vacuity: split is in the table with a composite result type *)
Lemma builtin_split_row : builtin_ret (s_ "split") = Some (SArr SString).
Proof. vm_compute. reflexivity. Qed.
