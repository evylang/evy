(* TypesProofs.v — the implementation model (Types.v) against the declarative
   specification (TypesSpec.v).  All statements quantify over all types, at any
   nesting depth and any Fixed-bit placement (induction on the type). *)
From Coq Require Import List Bool Lia.
From EvyV Require Import Base TypesSyntax Types TypesOld TypesSpec TypesSpecProofs.
From EvyV.Gen Require Import TypeNames.
Import ListNotations.

(* Fixed bits erased.  Only meaningful on [spec_ty] types (no NONE_TYPE, no
   GENERIC_* node: those are parser-internal and the specification has no
   name for them). *)
Fixpoint erase (t : ty) : sty :=
  match t with
  | TNum => SNum | TString => SString | TBool => SBool | TAny => SAny
  | TArr _ s => SArr (erase s) | TMap _ s => SMap (erase s)
  | TEmptyArr => SEmptyArr | TEmptyMap => SEmptyMap
  | TNone | TGenArr | TGenMap => SAny
  end.

Fixpoint spec_ty (t : ty) : bool :=
  match t with
  | TNone | TGenArr | TGenMap => false
  | TArr _ s | TMap _ s => spec_ty s
  | _ => true
  end.

Fixpoint has_empty (t : ty) : bool :=
  match t with
  | TEmptyArr | TEmptyMap => true
  | TArr _ s | TMap _ s => has_empty s
  | _ => false
  end.

(* how the parser encodes the specification's value kinds in a type:
   a constant / empty literal has no Fixed node; a variable (fixedType of a
   declared or inferred type) is Fixed at the top only and has no empty leaf.
   Basic types and any carry no flag: for them both kinds coincide in the
   specification as well. *)
Definition kind_of (t : ty) : kind := if has_fixed t then KVar else KConst.

Definition const_ty (t : ty) : bool := spec_ty t && negb (has_fixed t).
Definition var_ty (t : ty) : bool :=
  spec_ty t && negb (has_empty t) &&
  match t with TArr true s | TMap true s => negb (has_fixed s) | _ => false end.
Definition pure_ty (t : ty) : bool := const_ty t || var_ty t.

Lemma const_spec t : const_ty t = true -> spec_ty t = true.
Proof. unfold const_ty; intro H; apply andb_true_iff in H as [H _]; exact H. Qed.

Lemma const_nofix t : const_ty t = true -> has_fixed t = false.
Proof. unfold const_ty; intro H; apply andb_true_iff in H as [_ H]; apply negb_true_iff in H; exact H. Qed.

Lemma var_ty_inv t : var_ty t = true ->
  spec_ty t = true /\ has_empty t = false /\ fixed t = true /\ has_fixed t = true.
Proof.
  unfold var_ty. intro H. apply andb_true_iff in H as [H H3]. apply andb_true_iff in H as [H1 H2].
  apply negb_true_iff in H2.
  destruct t; try discriminate; destruct fx; try discriminate; simpl; auto.
Qed.

Lemma var_form t : var_ty t = true ->
  exists s, (t = TArr true s \/ t = TMap true s) /\ has_fixed s = false.
Proof.
  unfold var_ty. intro H. apply andb_true_iff in H as [_ H].
  destruct t; try discriminate; destruct fx; try discriminate; apply negb_true_iff in H; eauto.
Qed.

Lemma var_kind t : var_ty t = true -> kind_of t = KVar.
Proof. intro H. apply var_ty_inv in H as (_ & _ & _ & H). unfold kind_of. rewrite H. reflexivity. Qed.

Lemma var_pure t : var_ty t = true -> pure_ty t = true.
Proof. intro H. unfold pure_ty. rewrite H. apply orb_true_r. Qed.

Lemma pure_cases t : pure_ty t = true -> const_ty t = true \/ var_ty t = true.
Proof. apply orb_true_iff. Qed.

Lemma pure_spec t : pure_ty t = true -> spec_ty t = true.
Proof.
  intro H. apply pure_cases in H as [H | H]; [apply const_spec; exact H | apply var_ty_inv in H as [H _]; exact H].
Qed.

Lemma erase_embed s : erase (embed s) = s.
Proof. induction s; simpl; congruence. Qed.

Lemma spec_embed s : spec_ty (embed s) = true.
Proof. induction s; simpl; auto. Qed.

Lemma spec_not_none r : spec_ty r = true -> is_none r = false.
Proof. destruct r; simpl; auto; discriminate. Qed.

Ltac split_fixed :=
  repeat match goal with
         | H : _ || _ = false |- _ => apply orb_false_iff in H as [? ?]; subst
         end.

Lemma accepts_from_const : forall l r top,
  spec_ty l = true -> spec_ty r = true -> has_fixed r = false ->
  accepts_from top false l r = conv_b (erase r) (erase l).
Proof.
  induction l; intros r top Hl Hr Hf; destruct r; simpl in *; split_fixed;
    try discriminate; try reflexivity; simpl;
    try (apply IHl; assumption);
    try (apply spec_not_none; assumption);
    try (destruct top; reflexivity).
Qed.

Lemma accepts_from_fixed : forall l r top rf,
  spec_ty l = true -> spec_ty r = true -> has_empty r = false -> rf || fixed r = true ->
  accepts_from top rf l r = (top && is_any l) || sty_eqb (erase l) (erase r).
Proof.
  induction l; intros r top rf Hl Hr He Hx; destruct r; simpl in *;
    try discriminate;
    try (rewrite ?andb_true_r, ?andb_false_r, ?orb_false_r; reflexivity);
    try (rewrite Hx; simpl; rewrite ?andb_false_r, ?orb_false_r, ?orb_true_r; try reflexivity);
    try (destruct top; reflexivity);
    try (rewrite IHl by (auto; apply orb_true_l); simpl; reflexivity);
    try (rewrite andb_false_r; simpl; apply spec_not_none; assumption).
Qed.

Lemma is_any_erase t : spec_ty t = true -> is_any t = sty_eqb (erase t) SAny.
Proof. destruct t; simpl; auto; discriminate. Qed.

(* Type.accepts against spec.md "Assignability", on the value kinds the
   specification names: variables, constants, empty literals *)
Theorem accepts_iff_assignable t t2 :
  spec_ty t = true -> pure_ty t2 = true ->
  (accepts t t2 = true <-> Assignable (kind_of t2) (erase t) (erase t2)).
Proof.
  intros Ht Hp. rewrite <- assignable_b_iff. apply pure_cases in Hp as [Hc | Hv].
  - assert (Hf := const_nofix t2 Hc).
    unfold kind_of, accepts. rewrite Hf, accepts_from_const by (auto using const_spec). simpl. tauto.
  - apply var_ty_inv in Hv as (Hs & He & Hfx & Hhf).
    unfold kind_of, accepts. rewrite Hhf. rewrite accepts_from_fixed by (auto; rewrite Hfx; reflexivity).
    simpl. rewrite (is_any_erase t Ht). rewrite orb_comm. tauto.
Qed.

(* a literal whose element is directly a composite variable ([x], {k:x})
   behaves like a variable too, as spec.md demands of every literal that
   contains a variable *)
Lemma accepts_literal_of_variable t f s :
  spec_ty t = true -> var_ty s = true ->
  (accepts t (TArr f s) = true <-> Assignable KVar (erase t) (erase (TArr f s))) /\
  (accepts t (TMap f s) = true <-> Assignable KVar (erase t) (erase (TMap f s))).
Proof.
  intros Ht Hv. apply var_ty_inv in Hv as (Hs & He & Hfx & Hhf).
  rewrite <- !assignable_b_iff. unfold accepts.
  destruct t; simpl in *; try discriminate; rewrite ?orb_false_r;
    try (split; split; intro; discriminate); try (split; tauto).
  1,2: rewrite accepts_from_fixed by (auto; rewrite Hfx; apply orb_true_r); simpl; split; tauto.
  all: rewrite (spec_not_none s Hs); split; split; intro; discriminate.
Qed.

(* ... but one level deeper the parser converts although spec.md says the
   literal is "treated like a variable": REFUTED on the unchanged tree.
   Witness:  x:[]num ; t:[]any ; t = [{k:x}]   (also: t = [[x]]) *)
Lemma accepts_nested_variable_refuted :
  exists t t2, spec_ty t = true /\ spec_ty t2 = true /\ has_empty t2 = false /\
    kind_of t2 = KVar /\ accepts t t2 = true /\ ~ Assignable (kind_of t2) (erase t) (erase t2).
Proof.
  exists (TArr true TAny), (TArr false (TMap false (TArr true TNum))).
  repeat split; try reflexivity.
  rewrite <- assignable_b_iff. vm_compute. discriminate.
Qed.

(* parser-internal shapes the specification has no name for *)
Lemma accepts_generic_array t2 : accepts TGenArr t2 = is_array_name t2.
Proof. destruct t2; reflexivity. Qed.
Lemma accepts_generic_map t2 : accepts TGenMap t2 = is_map_name t2.
Proof. destruct t2; reflexivity. Qed.
Lemma accepts_none t : accepts t TNone = is_none t.
Proof. destruct t; reflexivity. Qed.

Lemma is_some_iff {A} (o : option A) (R : A -> Prop) :
  (forall r, o = Some r <-> R r) -> (match o with Some _ => true | None => false end = true <-> exists r, R r).
Proof.
  intro H. destruct o as [a|].
  - split; [intros _; exists a; apply H; reflexivity | reflexivity].
  - split; [discriminate | intros [r Hr]; apply H in Hr; discriminate].
Qed.

Definition unifiable (a b : sty) : bool := match unify a b with Some _ => true | None => false end.

Lemma unifiable_sub a b :
  unifiable (SArr a) (SArr b) = unifiable a b /\ unifiable (SMap a) (SMap b) = unifiable a b.
Proof.
  unfold unifiable; simpl. destruct (sty_eqb a b) eqn:E.
  - apply sty_eqb_eq in E; subst. rewrite unify_refl; split; reflexivity.
  - destruct (unify a b); split; reflexivity.
Qed.

Lemma matches_unifiable : forall l r, spec_ty l = true -> spec_ty r = true ->
  matches l r = unifiable (erase l) (erase r).
Proof.
  induction l; intros r Hl Hr; destruct r; simpl in *; try discriminate; try reflexivity;
    rewrite ?(proj1 (unifiable_sub _ _)), ?(proj2 (unifiable_sub _ _)); try (apply IHl; assumption);
    try (apply spec_not_none; assumption).
Qed.

Theorem matches_iff_operand_compatible l r :
  spec_ty l = true -> spec_ty r = true ->
  (matches l r = true <-> exists u, Unify (erase l) (erase r) u).
Proof.
  intros Hl Hr. rewrite matches_unifiable by assumption. apply is_some_iff. intro u. apply unify_iff.
Qed.

Lemma is_num_erase t : is_num t = sty_eqb (erase t) SNum.
Proof. destruct t; reflexivity. Qed.

Lemma erase_num t : spec_ty t = true -> is_num t = sty_eqb (erase t) SNum.
Proof. intros _. apply is_num_erase. Qed.

Lemma validate_binary_spec op lt rt :
  spec_ty lt = true -> spec_ty rt = true ->
  validate_binary op lt rt = match op_type op (erase lt) (erase rt) with Some _ => true | None => false end.
Proof.
  intros Hl Hr. unfold validate_binary. rewrite matches_unifiable by assumption.
  rewrite (spec_not_none lt Hl), (spec_not_none rt Hr). unfold op_type, unifiable. cbn [orb].
  destruct (equality op) eqn:Q.
  - destruct op; try discriminate Q; rewrite andb_false_r, orb_false_r; destruct (unify _ _); reflexivity.
  - (* the right operand matters only beside a basic left operand and under "*" *)
    destruct lt; try discriminate Hl; cbn -[unify].
    1-3: destruct rt; try discriminate Hr; destruct op; try discriminate Q; reflexivity.
    all: destruct op; try discriminate Q; cbn -[unify]; try (destruct (unify _ _); reflexivity).
    all: rewrite orb_true_r; destruct rt; try discriminate Hr; reflexivity.
Qed.

(* acceptance: validateBinaryType appends no error exactly on the rows of the table *)
Theorem binop_accept_iff op lt rt :
  spec_ty lt = true -> spec_ty rt = true ->
  (validate_binary op lt rt = true <-> exists r, OpType op (erase lt) (erase rt) r).
Proof.
  intros Hl Hr. rewrite validate_binary_spec by assumption. apply is_some_iff. intro r. apply op_type_iff.
Qed.

Lemma closed_erase t : spec_ty t = true -> has_empty t = false -> closed (erase t) = true.
Proof. induction t; simpl; auto; discriminate. Qed.

Lemma unify_closed_left : forall a b u, unify a b = Some u -> closed a = true -> u = a.
Proof.
  induction a; intros b u H Hc; destruct b; simpl in *; try discriminate;
    try (inversion H; subst; reflexivity).
  all: destruct (sty_eqb a b); [inversion H; reflexivity|];
    destruct (unify a b) eqn:U; simpl in H; [|discriminate]; inversion H; subst;
    f_equal; eapply IHa; eauto.
Qed.

(* a left operand without untyped empty leaf decides the result type: its own,
   or bool under a comparison *)
Lemma op_type_closed_left op a b s :
  op_type op a b = Some s -> closed a = true -> s = if is_comparison op then SBool else a.
Proof.
  unfold op_type. intros O Hc.
  destruct op; cbn -[unify] in O; try (destruct (unify a b); inversion O; reflexivity);
    destruct a; try discriminate O; cbn -[unify] in O;
    try (eapply unify_closed_left; eassumption);
    destruct b; try discriminate O; inversion O; reflexivity.
Qed.

Lemma unify_empty_left b u : unify SEmptyArr b = Some u -> u = b.
Proof. destruct b; simpl; intro H; inversion H; reflexivity. Qed.

Lemma equals_none_r l : equals l TNone = is_none l.
Proof. destruct l; reflexivity. Qed.

Lemma equals_erase : forall l r, spec_ty l = true -> spec_ty r = true ->
  equals l r = sty_eqb (erase l) (erase r).
Proof.
  induction l; intros r Hl Hr; destruct r; simpl in *; try discriminate; try reflexivity;
    try (apply IHl; assumption); try (apply spec_not_none; assumption);
    try (rewrite equals_none_r; apply spec_not_none; assumption).
Qed.

Lemma erase_merge_fixed : forall t t2, spec_ty t = true -> spec_ty t2 = true -> equals t t2 = true ->
  erase (merge_fixed t t2) = erase t.
Proof.
  induction t; intros t2 Hs Hs2 He; simpl;
    try (destruct (negb (has_fixed t2) || _); [reflexivity|]; simpl;
         rewrite equals_erase in He by assumption; apply sty_eqb_eq in He; simpl in He; congruence).
  all: destruct (negb (has_fixed t2) || false) eqn:C; [reflexivity|];
    destruct (negb (fx || has_fixed t)) eqn:D.
  1,3: rewrite equals_erase in He by assumption; apply sty_eqb_eq in He; simpl in He; congruence.
  all: destruct t2; simpl in *; try discriminate; try reflexivity; f_equal; apply IHt; assumption.
Qed.

Lemma spec_merge_fixed : forall t t2, spec_ty t = true -> spec_ty t2 = true -> spec_ty (merge_fixed t t2) = true.
Proof.
  induction t; intros t2 Hs Hs2; simpl in Hs; try discriminate Hs; simpl;
    try (destruct (negb (has_fixed t2) || _); [reflexivity|]; simpl; assumption).
  all: destruct (negb (has_fixed t2) || false) eqn:C; [assumption|];
    destruct (negb (fx || has_fixed t)); [assumption|];
    destruct t2; simpl in *; try discriminate C; try assumption; apply IHt; assumption.
Qed.

(* result type.  [bnt0] is binary_node_type without the final fixedType (which
   does not change the erased type). *)
Definition bnt0 (op : binop) (lt rt : ty) : ty :=
  let exp := if is_comparison op then TBool else lt in
  if is_empty_arr exp && is_plus op then rt else exp.

Lemma erase_fixed_type t : erase (fixed_type t) = erase t.
Proof. destruct t; reflexivity. Qed.

Lemma fixed_type_keeps t : spec_ty (fixed_type t) = spec_ty t /\ has_empty (fixed_type t) = has_empty t.
Proof. destruct t; simpl; auto. Qed.

(* every later step of binary_node_type keeps a specification type and its erasure *)
Lemma bnt_keeps op lt rt : spec_ty lt = true -> spec_ty rt = true ->
  spec_ty (binary_node_type op lt rt) = true /\
  erase (binary_node_type op lt rt) = erase (bnt0 op lt rt).
Proof.
  intros Hl Hr. unfold binary_node_type. fold (bnt0 op lt rt). set (t0 := bnt0 op lt rt).
  assert (H0 : spec_ty t0 = true).
  { unfold t0, bnt0. destruct (is_comparison op), (_ && _); auto. }
  set (t1 := if is_plus op && is_array_name t0 && equals t0 rt then merge_fixed t0 rt else t0).
  assert (H1 : spec_ty t1 = true /\ erase t1 = erase t0).
  { unfold t1. destruct (is_plus op && is_array_name t0 && equals t0 rt) eqn:C; [|auto].
    apply andb_true_iff in C as [_ C]. split; [apply spec_merge_fixed | apply erase_merge_fixed]; assumption. }
  destruct (is_array_name t1 && fixed rt); [rewrite (proj1 (fixed_type_keeps _)), erase_fixed_type|]; exact H1.
Qed.

Lemma binary_node_type_spec_ty op lt rt :
  spec_ty lt = true -> spec_ty rt = true -> spec_ty (binary_node_type op lt rt) = true.
Proof. intros Hl Hr. apply bnt_keeps; assumption. Qed.

(* before commit f8788c6: the T of the node was the table's result type only
   when the left operand has no untyped empty leaf, or is [] under "+" *)
Lemma binop_result_type_old op lt rt :
  spec_ty lt = true -> spec_ty rt = true ->
  validate_binary op lt rt = true ->
  (has_empty lt = false \/ (lt = TEmptyArr /\ op = OpPlus)) ->
  OpType op (erase lt) (erase rt) (erase (binary_node_type_old op lt rt)).
Proof.
  intros Hl Hr Hv Hg. rewrite validate_binary_spec in Hv by assumption.
  destruct (op_type op (erase lt) (erase rt)) eqn:O; [|discriminate]. clear Hv.
  apply op_type_iff. rewrite O. f_equal.
  destruct Hg as [He | [-> ->]].
  - rewrite (op_type_closed_left _ _ _ _ O (closed_erase lt Hl He)).
    unfold binary_node_type_old. destruct (is_comparison op); [reflexivity|].
    destruct lt; try reflexivity; discriminate He.
  - simpl in *. apply unify_empty_left in O. exact O.
Qed.

(* the current parseBinaryExpr: the T of the node is the table's result type
   for every left operand that is the empty array literal or has no untyped
   empty leaf — [] * n included *)
Theorem binop_result_type op lt rt :
  spec_ty lt = true -> spec_ty rt = true ->
  validate_binary op lt rt = true ->
  (has_empty lt = false \/ lt = TEmptyArr) ->
  OpType op (erase lt) (erase rt) (erase (binary_node_type op lt rt)).
Proof.
  intros Hl Hr Hv Hg. rewrite (proj2 (bnt_keeps op lt rt Hl Hr)). destruct Hg as [He | ->].
  - replace (bnt0 op lt rt) with (binary_node_type_old op lt rt).
    + apply binop_result_type_old; auto.
    + unfold binary_node_type_old, bnt0.
      destruct (is_comparison op); [reflexivity|].
      destruct lt; simpl in *; try reflexivity; discriminate.
  - rewrite validate_binary_spec in Hv by assumption.
    destruct (op_type op (erase TEmptyArr) (erase rt)) eqn:O; [|discriminate].
    apply op_type_iff. rewrite O. f_equal.
    unfold op_type in O. destruct op; simpl in *;
      try (destruct rt; simpl in *; try discriminate; inversion O; reflexivity);
      try discriminate.
Qed.

(* regression lemma about the code BEFORE f8788c6: [] * n was typed by its right operand *)
Lemma binop_result_type_before_fix_refuted :
  exists op lt rt, spec_ty lt = true /\ spec_ty rt = true /\ validate_binary op lt rt = true /\
    ~ OpType op (erase lt) (erase rt) (erase (binary_node_type_old op lt rt)).
Proof.
  exists OpAsterisk, TEmptyArr, TNum. repeat split; try reflexivity.
  intro H. apply op_type_iff in H. vm_compute in H. discriminate.
Qed.

Lemma validate_unary_iff op t : validate_unary op t = true <-> UnOpType op (erase t) (erase t).
Proof.
  destruct op, t; simpl; split; intro H; try reflexivity; try discriminate; try constructor; inversion H.
Qed.

Theorem unop_type_table op t :
  spec_ty t = true ->
  (validate_unary op t = true <-> UnOpType op (erase t) (erase t)).
Proof. intros _. apply validate_unary_iff. Qed.

Theorem infer_spec : forall t, spec_ty t = true ->
  exists t', infer t = Some t' /\ Defaults (erase t) (erase t') /\
             spec_ty t' = true /\ has_empty t' = false /\
             fixed t' = fixed t /\ has_fixed t' = has_fixed t.
Proof.
  induction t; intro H; simpl in *; try discriminate;
    try (eexists; repeat split; try reflexivity; constructor; fail).
  all: destruct (IHt H) as (t' & E & D & S & Em & _ & HF); rewrite E;
    eexists; repeat split; simpl; try reflexivity; try assumption; try congruence; constructor; exact D.
Qed.

(* infer crashes (nil dereference) exactly on types containing a GENERIC node *)
Fixpoint has_generic (t : ty) : bool :=
  match t with TGenArr | TGenMap => true | TArr _ s | TMap _ s => has_generic s | _ => false end.

Lemma infer_none_iff t : infer t = None <-> has_generic t = true.
Proof.
  induction t; simpl; try (split; discriminate); try tauto.
  all: destruct (infer t); [split; [discriminate | intro H; apply IHt in H; discriminate] | tauto].
Qed.

Theorem index_rule lt it s :
  spec_ty it = true -> is_empty lt = false ->
  (IndexType (erase lt) (erase it) s <-> exists t, index_type lt it = Some t /\ erase t = s).
Proof.
  intros Hi He. unfold index_type.
  destruct lt; simpl in *; try discriminate;
    destruct it; simpl in *; try discriminate;
    split; intro H;
    try (inversion H; subst; eexists; split; reflexivity);
    try (destruct H as [t [H1 H2]]; try discriminate; inversion H1; subst; constructor);
    try (inversion H; fail).
Qed.

Definition bound_ok (o : option ty) : bool := match o with Some t => is_num t | None => true end.

Theorem slice_rule lt st et :
  spec_ty lt = true ->
  slice_type lt st et =
    if bound_ok st && bound_ok et && is_array_b (erase lt) || bound_ok st && bound_ok et && sty_eqb (erase lt) SString
    then Some lt else None.
Proof.
  intros Hl. unfold slice_type, bound_ok.
  destruct lt; simpl in *; try discriminate;
    destruct st as [[]|], et as [[]|]; reflexivity.
Qed.

Lemma slice_type_spec a : (exists r, SliceType a r) <-> (is_array_b a = true \/ a = SString).
Proof.
  split.
  - intros [r H]; inversion H; subst; simpl; auto.
  - intros [H | ->]; [destruct a; try discriminate; eexists; constructor | eexists; constructor].
Qed.

Theorem dot_rule lt s :
  is_empty lt = false ->
  (DotType (erase lt) s <-> exists t, dot_type lt = Some t /\ erase t = s).
Proof.
  intros He. unfold dot_type.
  destruct lt; simpl in *; try discriminate; split; intro H;
    try (inversion H; subst; eexists; split; reflexivity);
    try (destruct H as [t [H1 H2]]; try discriminate; inversion H1; subst; constructor);
    try (inversion H; fail).
Qed.

Lemma closed_embed_iff s : closed s = true -> has_empty (embed s) = false.
Proof. induction s; simpl; auto; discriminate. Qed.

Theorem assert_rule lt s :
  spec_ty lt = true -> closed s = true ->
  (validate_assert lt (embed s) = true <-> AssertOk (erase lt) s).
Proof.
  intros Hl Hc. unfold validate_assert, AssertOk.
  rewrite andb_true_iff, negb_true_iff.
  rewrite (is_any_erase lt Hl), (is_any_erase (embed s) (spec_embed s)), erase_embed.
  rewrite sty_eqb_eq, sty_eqb_neq. tauto.
Qed.

Lemma sty_eqb_sym a b : sty_eqb a b = sty_eqb b a.
Proof.
  destruct (sty_eqb a b) eqn:E.
  - apply sty_eqb_eq in E; subst; symmetry; apply sty_eqb_refl.
  - symmetry; apply sty_eqb_neq; apply sty_eqb_neq in E; congruence.
Qed.

Lemma cjoin_comm : forall a b, cjoin a b = cjoin b a.
Proof.
  induction a; intro b; destruct b; simpl; try reflexivity.
  all: rewrite (sty_eqb_sym b a); destruct (sty_eqb a b) eqn:E;
    [apply sty_eqb_eq in E; subst; reflexivity | f_equal; apply IHa].
Qed.

Lemma cjoin_eq a b : sty_eqb a b = true -> cjoin a b = a.
Proof. intro E. destruct a; simpl; rewrite ?E; try reflexivity; destruct b; simpl in *; try discriminate; rewrite ?E; reflexivity. Qed.

Lemma merge_fixed_nofix t t2 : has_fixed t2 = false -> merge_fixed t t2 = t.
Proof. intro H. destruct t; simpl; rewrite H; reflexivity. Qed.

(* a constant carries no Fixed flag, so it is the image of its erased type:
   on constants combineTypes is a function of specification types *)
Lemma nofix_embed s : has_fixed (embed s) = false.
Proof. induction s; simpl; auto. Qed.

Lemma const_embed s : const_ty (embed s) = true.
Proof. unfold const_ty. rewrite spec_embed, nofix_embed. reflexivity. Qed.

Lemma const_is_embed t : const_ty t = true -> t = embed (erase t).
Proof.
  unfold const_ty. induction t; simpl; intro H; try discriminate; try reflexivity.
  all: destruct fx; [rewrite andb_false_r in H; discriminate|]; f_equal; apply IHt; exact H.
Qed.

Lemma equals_embed x y : equals (embed x) (embed y) = sty_eqb x y.
Proof. rewrite equals_erase, !erase_embed by apply spec_embed. reflexivity. Qed.

Lemma comb_embed : forall x y sw, comb sw (embed x) (embed y) = Some (embed (cjoin x y)).
Proof.
  induction x; intros y sw; destruct y, sw; try reflexivity;
    cbn -[sty_eqb]; rewrite ?equals_none_r, ?(spec_not_none _ (spec_embed _)); try reflexivity.
  (* array/array and map/map, in either role *)
  all: rewrite IHx, !equals_embed, !nofix_embed, ?(sty_eqb_sym y x); cbn [sty_eqb negb orb];
    destruct (sty_eqb x y) eqn:E; [apply sty_eqb_eq in E; subst|]; reflexivity.
Qed.

Lemma comb_const a b sw : const_ty a = true -> const_ty b = true ->
  exists r, comb sw a b = Some r /\ const_ty r = true /\ erase r = cjoin (erase a) (erase b).
Proof.
  intros Ha Hb. exists (embed (cjoin (erase a) (erase b))).
  rewrite (const_is_embed a Ha), (const_is_embed b Hb) at 1.
  split; [apply comb_embed | split; [apply const_embed | apply erase_embed]].
Qed.

Definition abs (t : ty) : kind * sty := (kind_of t, erase t).

Lemma abs_const t : const_ty t = true -> abs t = (KConst, erase t).
Proof. intro H. unfold abs, kind_of. rewrite (const_nofix t H). reflexivity. Qed.

Lemma abs_var t : var_ty t = true -> abs t = (KVar, erase t).
Proof. intro H. unfold abs. rewrite (var_kind t H). reflexivity. Qed.

Lemma nofix_fixed t : has_fixed t = false -> fixed t = false.
Proof. destruct t; simpl; auto; intro H; apply orb_false_iff in H as [H _]; exact H. Qed.

Lemma comb_equal c t : equals c t = true -> comb false c t = Some (merge_fixed c t).
Proof. intro H. destruct c; cbn [comb]; cbv zeta; rewrite H; reflexivity. Qed.

Lemma comb_fixed c t : equals c t = false -> fixed t || fixed c = true ->
  comb false c t = Some (if fixed c && negb (fixed t) && accepts c t then c
                         else if fixed t && negb (fixed c) && accepts t c then t else TAny).
Proof.
  intros H H0. destruct c; cbn [comb]; cbv zeta; rewrite H, H0;
    destruct (_ && _ && accepts _ t); try reflexivity; destruct (_ && _ && accepts t _); reflexivity.
Qed.

Lemma merge_fixed_var_const c t : has_fixed c = false -> var_ty t = true -> merge_fixed c t = t.
Proof.
  intros Hc Hv. assert (H := Hv). apply var_ty_inv in H as (_ & _ & _ & Ht).
  unfold var_ty in Hv. destruct t; try (rewrite andb_false_r in Hv; discriminate).
  all: destruct c; simpl in *; rewrite Ht; simpl; try reflexivity; rewrite Hc; reflexivity.
Qed.

Lemma merge_fixed_var_var c t : var_ty c = true -> var_ty t = true -> equals c t = true -> merge_fixed c t = c.
Proof.
  intros Hc Ht He.
  destruct (var_form c Hc) as (cs & [-> | ->] & Hcs); destruct (var_form t Ht) as (ts & [-> | ->] & Hts);
    simpl in He; try discriminate; simpl; rewrite (merge_fixed_nofix cs ts Hts); reflexivity.
Qed.

(* one variable among the two elements: the result is that variable or any *)
Lemma abs_var_or_any v (b : bool) : var_ty v = true ->
  pure_ty (if b then v else TAny) = true /\
  aeq (abs (if b then v else TAny)) (if b then (KVar, erase v) else (KVar, SAny)).
Proof.
  intro Vv. destruct b; split; [exact (var_pure v Vv) | rewrite (abs_var v Vv); apply aeq_refl | reflexivity | apply aeq_any].
Qed.

Lemma combine2_var_const v k : var_ty v = true -> const_ty k = true ->
  combine2 v k = Some (if conv_b (erase k) (erase v) then v else TAny) /\
  combine2 k v = Some (if conv_b (erase k) (erase v) then v else TAny).
Proof.
  intros Vv Ck. destruct (var_ty_inv v Vv) as (Sv & _ & Fv & _).
  assert (Sk := const_spec k Ck). assert (Nk := const_nofix k Ck). assert (Fk := nofix_fixed k Nk).
  assert (A : accepts v k = conv_b (erase k) (erase v)) by (apply accepts_from_const; assumption).
  unfold combine2. split.
  - destruct (equals v k) eqn:E.
    + rewrite (comb_equal v k E), (merge_fixed_nofix v k Nk).
      rewrite equals_erase in E by assumption. apply sty_eqb_eq in E. rewrite <- E, conv_b_refl. reflexivity.
    + rewrite (comb_fixed v k E) by (rewrite Fv; apply orb_true_r). rewrite Fv, Fk, A. simpl.
      destruct (conv_b (erase k) (erase v)); reflexivity.
  - destruct (equals k v) eqn:E.
    + rewrite (comb_equal k v E), (merge_fixed_var_const k v Nk Vv).
      rewrite equals_erase in E by assumption. apply sty_eqb_eq in E. rewrite E, conv_b_refl. reflexivity.
    + rewrite (comb_fixed k v E) by (rewrite Fv; reflexivity). rewrite Fv, Fk, A. simpl.
      destruct (conv_b (erase k) (erase v)); reflexivity.
Qed.

Lemma combine2_var_var c t : var_ty c = true -> var_ty t = true ->
  combine2 c t = Some (if sty_eqb (erase c) (erase t) then c else TAny).
Proof.
  intros Vc Vt. destruct (var_ty_inv c Vc) as (Sc & _ & Fc & _). destruct (var_ty_inv t Vt) as (St & _ & Ft & _).
  rewrite <- (equals_erase c t Sc St). unfold combine2. destruct (equals c t) eqn:E.
  - rewrite (comb_equal c t E), (merge_fixed_var_var c t Vc Vt E). reflexivity.
  - rewrite (comb_fixed c t E) by (rewrite Fc; apply orb_true_r). rewrite Fc, Ft. reflexivity.
Qed.

(* one loop iteration of combineTypes is the specification's least common
   element type of the two elements (up to the kind of the type any) *)
Lemma combine2_pure c t : pure_ty c = true -> pure_ty t = true ->
  exists r, combine2 c t = Some r /\ pure_ty r = true /\ aeq (abs r) (sjoin (abs c) (abs t)).
Proof.
  intros Pc Pt. apply pure_cases in Pc as [Cc | Vc]; apply pure_cases in Pt as [Ct | Vt].
  - destruct (comb_const c t false Cc Ct) as (r & E & C & ER). exists r. split; [exact E|].
    split; [unfold pure_ty; rewrite C; reflexivity|].
    rewrite (abs_const r C), (abs_const c Cc), (abs_const t Ct), ER. simpl. apply aeq_refl.
  - destruct (combine2_var_const t c Vt Cc) as [_ E]. eexists. split; [exact E|].
    rewrite (abs_const c Cc), (abs_var t Vt). simpl.
    apply abs_var_or_any; exact Vt.
  - destruct (combine2_var_const c t Vc Ct) as [E _]. eexists. split; [exact E|].
    rewrite (abs_var c Vc), (abs_const t Ct). simpl.
    apply abs_var_or_any; exact Vc.
  - eexists. split; [exact (combine2_var_var c t Vc Vt)|].
    rewrite (abs_var c Vc), (abs_var t Vt). simpl.
    apply abs_var_or_any; exact Vc.
Qed.

Lemma combine_from_pure : forall ts c, pure_ty c = true -> Forall (fun t => pure_ty t = true) ts ->
  exists r, combine_from c ts = Some r /\ pure_ty r = true /\
    aeq (abs r) (fold_left sjoin (map abs ts) (abs c)).
Proof.
  induction ts as [|t ts IH]; intros c Pc Hts; simpl.
  - exists c. split; [reflexivity|]. split; [exact Pc | apply aeq_refl].
  - inversion Hts; subst.
    destruct (combine2_pure c t Pc H1) as (r & E & Pr & A). rewrite E.
    destruct (IH r Pr H2) as (r' & E' & Pr' & U). exists r'. split; [exact E'|]. split; [exact Pr'|].
    intro T. rewrite (U T). apply fold_sjoin_aeq, A.
Qed.

Lemma combine_some ts r :
  Forall (fun t => pure_ty t = true) ts -> combine ts = Some r ->
  pure_ty r = true /\ Strictest (map abs ts) (erase r).
Proof.
  intros Hts E. destruct ts as [|c ts]; [discriminate|]. inversion Hts; subst.
  destruct (combine_from_pure ts c H1 H2) as (r' & E' & Pr & U).
  simpl in E. rewrite E in E'. inversion E'; subst r'. split; [exact Pr|].
  apply (lub_is_Strictest (map abs (c :: ts)) (abs r)). intro T. rewrite (U T). apply fold_sjoin_ub.
Qed.

(* combineTypes on elements that are variables, constants or empty literals
   (any number, any types, any depth) does not crash and returns the
   specification's Strictest element type *)
Theorem combine_strictest ts :
  ts <> [] -> Forall (fun t => pure_ty t = true) ts ->
  exists r, combine ts = Some r /\ pure_ty r = true /\ Strictest (map abs ts) (erase r).
Proof.
  intros Hne Hts. destruct ts as [|c ts]; [contradiction|].
  destruct (combine_from_pure ts c) as (r & E & _); [inversion Hts; assumption ..|].
  exists r. split; [exact E | apply combine_some; assumption].
Qed.

(* every element is accepted by the combined type: what wrapAny relies on *)
Corollary combine_upper_bound ts r :
  Forall (fun t => pure_ty t = true) ts -> combine ts = Some r ->
  forall t, In t ts -> accepts r t = true.
Proof.
  intros Hts E t Ht. destruct (combine_some ts r Hts E) as (Pr & UB & _).
  apply accepts_iff_assignable; [apply pure_spec; exact Pr | rewrite Forall_forall in Hts; apply Hts; exact Ht|].
  apply (UB (abs t)). apply in_map; exact Ht.
Qed.

Theorem combine_perm ts ts' r r' :
  (forall t, In t ts <-> In t ts') ->
  Forall (fun t => pure_ty t = true) ts -> Forall (fun t => pure_ty t = true) ts' ->
  combine ts = Some r -> combine ts' = Some r' -> erase r = erase r'.
Proof.
  intros P H H' E E'.
  destruct (combine_some ts r H E) as [_ Sx]. destruct (combine_some ts' r' H' E') as [_ Sx'].
  eapply Strictest_unique; [exact Sx|].
  eapply Strictest_perm; [|exact Sx'].
  intro e. rewrite !in_map_iff. split; intros [t [<- Ht]]; exists t; split; auto; apply P; auto.
Qed.

(* combineTypes before commit 0e214ac *)
Lemma combine_strictest_before_fix_refuted :
  exists ts r, Forall (fun t => pure_ty t = true) ts /\ combine_old ts = Some r /\
    exists t, In t ts /\ accepts r t = false.
Proof.
  exists [TArr false TNum; TArr true TNum; TArr false TString], (TArr false TAny).
  split; [repeat constructor|]. split; [reflexivity|].
  exists (TArr true TNum). split; [simpl; auto | reflexivity].
Qed.

Lemma combine_perm_before_fix_refuted :
  exists ts ts' r r', (forall t, In t ts <-> In t ts') /\
    Forall (fun t => pure_ty t = true) ts /\
    combine_old ts = Some r /\ combine_old ts' = Some r' /\ erase r <> erase r'.
Proof.
  exists [TArr false TNum; TArr true TNum; TArr false TString],
         [TArr true TNum; TArr false TNum; TArr false TString],
         (TArr false TAny), TAny.
  split; [intro t; simpl; tauto|]. split; [repeat constructor|].
  split; [reflexivity|]. split; [reflexivity|]. discriminate.
Qed.

Lemma combine_not_strictest_before_fix_refuted :
  exists ts r, Forall (fun t => pure_ty t = true) ts /\ combine_old ts = Some r /\
    ~ Strictest (map abs ts) (erase r).
Proof.
  exists [TArr true TNum; TEmptyArr], TAny.
  split; [repeat constructor|]. split; [reflexivity|].
  intros [_ L].
  assert (H : Converts SAny (SArr SNum)).
  { apply L. intros e [<- | [<- | []]]; simpl; [constructor | apply As_conv; constructor]. }
  inversion H.
Qed.

(* wrap_total would say: whenever the parser built node n without error and
   accepts target (type of n), wrapAny n target does not panic.  After commits
   48eed77, a303004, 3a7bc1f every non-literal result is Fixed and wrapAny looks
   into groups, concatenations, repetitions and slices; what is left is the
   concatenation whose LEFT operand has a nested untyped empty: its type is the
   left operand's ([][]), accepts lets it through for any [][]T, and wrapAny
   then tries to retype the right operand too.
   Witness:  t:[][]string ; t = [[]]+[[1]]   *)
Lemma wrap_total_refuted :
  exists e n target, tc e = ONode n false /\ accepts target (node_type n) = true /\ wrap_any n target = None.
Proof.
  exists (EBin OpPlus (EArr [EArr []]) (EArr [EArr [ELitNum]])). eexists.
  exists (TArr true (TArr false TString)).
  split; [vm_compute; reflexivity|]. split; vm_compute; reflexivity.
Qed.

(* programs on which wrapAny panicked before those commits *)
Lemma wrap_former_witnesses_ok :
  check (CAssign (SArr SAny)) (ECall (SArr SNum)) = Reject /\
  check (CAssign (SArr SAny)) (EIndex (EVar (SArr (SArr SNum))) ELitNum) = Reject /\
  check CDecl (ESlice (EArr []) None None) = Accept (TArr true TAny) (TArr true TAny) /\
  check CDecl (EBin OpPlus (EMap []) ELitNum) = Reject.
Proof. vm_compute. repeat split; reflexivity. Qed.

(* what IS total: values whose type is rigid (basic types, any, variables and
   everything Fixed) are never converted, only wrapped in Any or passed through *)
Definition rigid (t : ty) : bool :=
  match t with
  | TArr f _ | TMap f _ => f
  | TEmptyArr | TEmptyMap | TGenArr | TGenMap => false
  | _ => true
  end.

Lemma accepts_from_fixed_equals : forall l r rf,
  has_generic l = false -> has_empty r = false -> rf || fixed r = true ->
  accepts_from false rf l r = true -> equals l r = true.
Proof.
  induction l; intros r rf Hg He Hx H; destruct r; simpl in *; try discriminate; try reflexivity;
    try (rewrite Hx in H; simpl in H; try discriminate);
    try (eapply IHl; eauto; apply orb_true_l); try exact H.
Qed.

Theorem wrap_total_rigid t target :
  rigid t = true -> has_empty t = false -> has_generic target = false \/ is_generic target = true ->
  accepts target t = true -> exists n', wrap_any (NLeaf t) target = Some n'.
Proof.
  intros Hr He Hg Ha. unfold wrap_any. simpl.
  destruct (equals target t) eqn:E; [eauto|].
  destruct (is_any target) eqn:A; [eauto|].
  destruct (is_generic target) eqn:G; [eauto|].
  exfalso. destruct Hg as [Hg | Hg]; [|discriminate].
  unfold accepts in Ha.
  destruct target; simpl in *; try discriminate;
    destruct t; simpl in *; try discriminate;
    subst; simpl in *;
    try (apply accepts_from_fixed_equals in Ha; auto; congruence);
    try congruence.
Qed.

(* every expression form that is not a composite literal, group, binary
   expression or slice yields a node of rigid type on the current tree
   (a303004): wrap_total_rigid applies to all of them *)
Definition annot_closed (e : expr) : bool :=
  match e with EVar t | ECall t | EAssert _ t => closed t | _ => true end.

Lemma infer_no_empty : forall t t', infer t = Some t' -> has_empty t' = false /\ has_generic t' = false.
Proof.
  induction t; intros t' H; simpl in H; try (inversion H; subst; split; reflexivity); try discriminate.
  all: destruct (infer t) eqn:E; [|discriminate]; inversion H; subst; simpl; apply IHt; reflexivity.
Qed.

Lemma rigid_fixed_type t : has_empty t = false -> has_generic t = false ->
  rigid (fixed_type t) = true /\ has_empty (fixed_type t) = false.
Proof. destruct t; simpl; intros; try discriminate; auto. Qed.

Lemma embed_no_generic s : has_generic (embed s) = false.
Proof. induction s; simpl; auto. Qed.

Lemma rigid_embed s : closed s = true ->
  rigid (fixed_type (embed s)) = true /\ has_empty (fixed_type (embed s)) = false.
Proof. intro Hc. apply rigid_fixed_type; [apply closed_embed_iff; exact Hc | apply embed_no_generic]. Qed.

Lemma rigid_infer t t' : infer t = Some t' ->
  rigid (fixed_type t') = true /\ has_empty (fixed_type t') = false.
Proof. intro I. apply infer_no_empty in I as [I1 I2]. apply rigid_fixed_type; assumption. Qed.

Lemma range_var_rigid t vt : range_var_type t = Some (Some vt) -> rigid vt = true /\ has_empty vt = false.
Proof.
  unfold range_var_type. destruct (name t) eqn:N; try discriminate;
    try (intro H; inversion H; subst; auto; fail).
  destruct (infer t) eqn:I; [|discriminate]. apply infer_no_empty in I as [I1 I2].
  destruct t0; simpl; try discriminate; intro H; inversion H; subst; simpl in I1, I2;
    apply rigid_fixed_type; assumption.
Qed.

Theorem tc_leaf_rigid e t err :
  annot_closed e = true -> tc e = ONode (NLeaf t) err -> rigid t = true /\ has_empty t = false.
Proof.
  intros Hc H. destruct e; simpl in *.
  1-3: inversion H; subst; auto.
  1,2: inversion H; subst; apply rigid_embed; exact Hc.
  1,2: destruct (seq_outcomes (map tc els)) as [[[ns er]|]|]; try discriminate;
    destruct ns; [discriminate|]; destruct (combine _); [|discriminate]; destruct (wrap_all _ _); discriminate.
  - destruct (tc e1); simpl in H; try discriminate. destruct (tc e2); simpl in H; try discriminate.
    destruct (validate_binary _ _ _); discriminate.
  - destruct (tc e); simpl in H; try discriminate.
    destruct (validate_unary op (node_type n)) eqn:V; [|discriminate]. inversion H; subst.
    destruct op, (node_type n); simpl in V; try discriminate; auto.
  - destruct (tc e); simpl in H; discriminate.
  - destruct (tc e1); simpl in H; try discriminate.
    destruct (negb _); [discriminate|]. destruct (tc e2); simpl in H; try discriminate.
    destruct (index_type _ _); [|destruct (is_generic _); discriminate].
    destruct (infer t0) eqn:I; [|discriminate]. inversion H; subst. exact (rigid_infer _ _ I).
  - destruct (tc e); simpl in H; try discriminate.
    destruct (negb _); [discriminate|].
    destruct s as [s|]; [destruct (tc s)|]; try discriminate;
      (destruct (negb _); [discriminate|]);
      (destruct e0 as [e0|]; [destruct (tc e0)|]; try discriminate);
      destruct (slice_type _ _ _); discriminate.
  - destruct (tc e); simpl in H; try discriminate.
    destruct (dot_type _); [|destruct (is_generic _); discriminate].
    destruct (infer t0) eqn:I; [|discriminate]. inversion H; subst. exact (rigid_infer _ _ I).
  - destruct (tc e); simpl in H; try discriminate. inversion H; subst. apply rigid_embed; exact Hc.
  - destruct (tc e); simpl in H; try discriminate.
    destruct (range_var_type (node_type n)) as [[vt|]|] eqn:R; try discriminate; inversion H; subst; auto.
    eapply range_var_rigid; eauto.
Qed.

(* parseAssignmentTarget against spec.md "Assignments" *)
Definition erase_step (k : kstep) : sstep :=
  match k with KIdx it => SKIdx (erase it) | KDot => SKDot | KSlice => SKSlice | KAssert => SKAssert end.
Definition spec_step (k : kstep) : bool := match k with KIdx it => spec_ty it | _ => true end.

Lemma infer_id : forall t, spec_ty t = true -> has_empty t = false -> infer t = Some t.
Proof.
  induction t; simpl; intros Hs He; try discriminate; try reflexivity.
  all: rewrite (IHt Hs He); reflexivity.
Qed.

Lemma target_step_spec t k :
  spec_ty t = true -> has_empty t = false -> spec_step k = true ->
  match target_step_s (erase t) (erase_step k) with
  | Some s => exists T, target_step t k = Some (Some T) /\ erase T = s /\ spec_ty T = true /\ has_empty T = false
  | None => target_step t k = Some None
  end.
Proof.
  intros Hs He Hk.
  destruct t; simpl in Hs, He; try discriminate;
    destruct k as [it| | |]; simpl in Hk; try reflexivity;
    try (destruct it; simpl in Hk; try discriminate; try reflexivity);
    simpl; unfold index_type, dot_type; simpl;
    try (rewrite (infer_id _ Hs He);
         eexists; split; [reflexivity|]; split; [apply erase_fixed_type|];
         destruct (fixed_type_keeps t) as [A B]; rewrite A, B; auto).
Qed.

Lemma target_chain_spec : forall ks t,
  spec_ty t = true -> has_empty t = false -> forallb spec_step ks = true ->
  match target_chain_s (erase t) (map erase_step ks) with
  | Some s => exists T, target_chain t ks = Some (Some T) /\ erase T = s
  | None => target_chain t ks = Some None
  end.
Proof.
  induction ks as [|k ks IH]; intros t Hs He Hk; simpl; [eauto|].
  simpl in Hk. apply andb_true_iff in Hk as [Hk1 Hk2].
  assert (St := target_step_spec t k Hs He Hk1).
  destruct (target_step_s (erase t) (erase_step k)) as [s1|]; [|rewrite St; reflexivity].
  destruct St as (T1 & E1 & <- & S1 & N1). rewrite E1. apply IH; assumption.
Qed.

(* for all root types and all chains: the chain is a
   target by spec.md (a variable, an indexed array, a map field — never a
   character of a string, a slice or a type assertion) exactly when
   parseAssignmentTarget builds a node, and the node's type is the target's *)
Theorem target_ok_iff : forall ks t,
  spec_ty t = true -> has_empty t = false -> forallb spec_step ks = true ->
  forall s, (TargetChain (erase t) (map erase_step ks) s <->
             exists T, target_chain t ks = Some (Some T) /\ erase T = s).
Proof.
  intros ks t Hs He Hk s. rewrite <- target_chain_s_iff.
  assert (C := target_chain_spec ks t Hs He Hk).
  destruct (target_chain_s (erase t) (map erase_step ks)) as [s'|].
  - destruct C as (T & E & <-). rewrite E. split.
    + intro H. inversion H. eauto.
    + intros (T' & E' & <-). inversion E'. reflexivity.
  - rewrite C. split; [discriminate | intros (T & E & _); discriminate].
Qed.

(* parseAssignmentTarget never panics on specification types *)
Corollary target_chain_no_crash : forall ks t,
  spec_ty t = true -> has_empty t = false -> forallb spec_step ks = true -> target_chain t ks <> None.
Proof.
  intros ks t Hs He Hk. assert (C := target_chain_spec ks t Hs He Hk).
  destruct (target_chain_s (erase t) (map erase_step ks)); [destruct C as (T & E & _)|]; congruence.
Qed.

Lemma target_chain_app ks : forall t t' ks',
  target_chain t ks = Some (Some t') -> target_chain t (ks ++ ks') = target_chain t' ks'.
Proof.
  induction ks as [|k ks IH]; intros t t' ks' H; simpl in *.
  - inversion H; reflexivity.
  - destruct (target_step t k) as [[t1|]|]; try discriminate. apply IH; exact H.
Qed.

(* a character of a string is never a target, at any depth of the chain and
   whatever the types before it *)
Lemma string_char_never_target ks t it rest :
  target_chain t ks = Some (Some TString) -> target_chain t (ks ++ KIdx it :: rest) = Some None.
Proof. intro H. rewrite (target_chain_app ks t TString _ H). reflexivity. Qed.

Corollary target_string_char_rejected ks t it rest :
  spec_ty t = true -> has_empty t = false -> forallb spec_step ks = true ->
  target_chain t ks = Some (Some TString) -> target_chain t (ks ++ KIdx it :: rest) = Some None.
Proof. intros _ _ _. apply string_char_never_target. Qed.

(* parseForStatement, for every range operand of a specification type: the
   loop variable exists exactly for the iterable types, its type is the element
   type (keys and characters: string; counting: num; untyped empties defaulted) … *)
Theorem range_var_spec t :
  spec_ty t = true ->
  match range_elem_s (erase t) with
  | Some s => exists vt, range_var_type t = Some (Some vt) /\ erase vt = s /\ spec_ty vt = true
  | None => range_var_type t = None
  end.
Proof.
  intro Hs. destruct t; simpl in Hs; try discriminate; simpl;
    try (eexists; repeat split; reflexivity); try reflexivity.
  - destruct (infer_spec t Hs) as (t' & E & D & S & Em & _).
    unfold range_var_type; simpl. rewrite E. simpl.
    eexists; split; [reflexivity|]. rewrite erase_fixed_type. split.
    + symmetry. apply defaults_iff in D. exact D.
    + destruct (fixed_type_keeps t') as [A _]; rewrite A; exact S.
Qed.

(* the loop variable over a variable, a constant or an empty literal has a pure
   variable type: Fixed at the top if composite, nothing convertible below *)
Lemma range_var_var_ty t vt :
  pure_ty t = true -> range_var_type t = Some (Some vt) ->
  is_array_name vt || is_map_name vt = true -> var_ty vt = true.
Proof.
  intros Hp Hr Hcomp.
  assert (Hs := pure_spec t Hp).
  unfold range_var_type in Hr. destruct (name t) eqn:N; try discriminate;
    try (inversion Hr; subst; discriminate).
  destruct (infer_spec t Hs) as (t' & E & _ & S & Em & _ & HF). rewrite E in Hr.
  assert (HFs : forall s, sub t' = Some s -> has_fixed s = false).
  { apply pure_cases in Hp as [Hc | Hv'].
    - apply const_nofix in Hc. rewrite <- HF in Hc. intros s Hsub.
      destruct t'; simpl in *; try discriminate; inversion Hsub; subst;
        apply orb_false_iff in Hc as [_ Hc]; exact Hc.
    - destruct (var_form t Hv') as (ts & [-> | ->] & Hts); simpl in E;
        destruct (infer ts) eqn:I; try discriminate; inversion E; subst; simpl;
        intros s Hsub; inversion Hsub; subst;
        destruct (infer_spec ts) as (x & Ex & _ & _ & _ & _ & Hx);
        try (apply var_ty_inv in Hv' as [Hv' _]; simpl in Hv'; exact Hv');
        rewrite I in Ex; inversion Ex; subst; congruence. }
  destruct t'; simpl in Hr; try discriminate; inversion Hr; subst; simpl in S, Em;
    specialize (HFs _ eq_refl);
    destruct t'; simpl in Hcomp; try discriminate; unfold var_ty; simpl in *;
    rewrite S, Em; simpl; apply orb_false_iff in HFs as [_ HFs]; rewrite HFs; reflexivity.
Qed.

(* … and it is a VARIABLE of that type: by accepts_iff_assignable it is
   assignable to the identical type or any only *)
Theorem range_var_is_variable t vt :
  pure_ty t = true -> range_var_type t = Some (Some vt) ->
  (rigid vt = true /\ has_empty vt = false) /\
  (forall T, spec_ty T = true -> is_array_name vt || is_map_name vt = true ->
             (accepts T vt = true <-> Assignable KVar (erase T) (erase vt))).
Proof.
  intros Hp Hr. split; [eapply range_var_rigid; eauto|].
  intros T HT Hcomp. assert (Hv := range_var_var_ty t vt Hp Hr Hcomp).
  rewrite <- (var_kind vt Hv). apply accepts_iff_assignable; [exact HT | exact (var_pure vt Hv)].
Qed.

(* regression, about parseBinaryExpr before commit 6b5553c: only the TOP-LEVEL
   Fixed flag of the right operand was looked at, so  [[1]] + [nums]  (nums a
   variable) kept the unfixed type [][]num of its left operand; accepts let it
   through for [][]any although the right operand itself is not accepted — and
   wrapAny then panicked on nums.   nums := [1] ; a:[][]any ; a = [[1]] + [nums] *)
Lemma concat_inner_fixed_before_fix_refuted :
  exists lt rt target, validate_binary OpPlus lt rt = true /\ has_empty lt = false /\ has_empty rt = false /\
    accepts target (binary_node_type_pre_6b5553c OpPlus lt rt) = true /\ accepts target rt = false.
Proof.
  exists (TArr false (TArr false TNum)), (TArr false (TArr true TNum)), (TArr true (TArr false TAny)).
  repeat split; reflexivity.
Qed.

(* on the current tree the same program is a type error, and the node type carries the variable's flag *)
Lemma concat_inner_fixed_now :
  binary_node_type OpPlus (TArr false (TArr false TNum)) (TArr false (TArr true TNum)) = TArr false (TArr true TNum) /\
  check (CAssign (SArr (SArr SAny))) (EBin OpPlus (EArr [EArr [ELitNum]]) (EArr [EVar (SArr SNum)])) = Reject /\
  check (CAssign (SArr SAny)) (EBin OpPlus (EArr [EArr [ELitNum]]) (EArr [EVar (SArr SNum)])) = Reject /\
  check (CAssign (SArr (SArr SNum))) (EBin OpPlus (EArr [EArr [ELitNum]]) (EArr [EVar (SArr SNum)])) =
    Accept (TArr true (TArr false TNum)) (TArr false (TArr true TNum)).
Proof. vm_compute. repeat split; reflexivity. Qed.

Lemma range_operands_spec ts :
  forallb spec_ty ts = true -> range_operands_ok ts = range_operands_s (map erase ts).
Proof.
  destruct ts as [|t [|t2 [|t3 [|t4 r]]]]; simpl; intro H; try reflexivity.
  - destruct t; simpl in *; try discriminate; reflexivity.
  - destruct t; simpl in *; try discriminate; try reflexivity;
      destruct t2; simpl in *; try discriminate; reflexivity.
  - destruct t; simpl in *; try discriminate; try reflexivity;
      destruct t2; simpl in *; try discriminate; try reflexivity;
      destruct t3; simpl in *; try discriminate; reflexivity.
  - destruct t; simpl in *; try discriminate; try reflexivity;
      destruct t2; simpl in *; try discriminate; try reflexivity;
      destruct t3; simpl in *; try discriminate; reflexivity.
Qed.

(* parseForStatement + parseStepRange: the range clause is accepted exactly
   for one operand of an iterable type (num, string, array, map), or two or
   three operands that are all num; four or more operands never *)
Theorem range_operands_ok_iff ts :
  forallb spec_ty ts = true -> (range_operands_ok ts = true <-> RangeOperands (map erase ts)).
Proof. intro H. rewrite (range_operands_spec ts H). apply range_operands_s_iff. Qed.
