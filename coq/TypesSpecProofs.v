(* TypesSpecProofs.v — the executable renderings of TypesSpec.v are equivalent
   to the declarative relations, and the least-common-type function computes
   the Strictest type.  Nothing here mentions the implementation model. *)
From Coq Require Import List Bool Lia.
From EvyV Require Import TypesSyntax TypesSpec.
Import ListNotations.

Lemma sty_eqb_eq a b : sty_eqb a b = true <-> a = b.
Proof.
  revert b; induction a; intros []; simpl; split; intro H; try reflexivity; try discriminate;
    try (apply IHa in H; congruence); try (inversion H; subst; apply IHa; reflexivity).
Qed.

Lemma sty_eqb_refl a : sty_eqb a a = true.
Proof. apply sty_eqb_eq; reflexivity. Qed.

Lemma sty_eqb_neq a b : sty_eqb a b = false <-> a <> b.
Proof.
  split; intro H.
  - intro E; apply sty_eqb_eq in E; congruence.
  - destruct (sty_eqb a b) eqn:E; [apply sty_eqb_eq in E; contradiction | reflexivity].
Qed.

Lemma conv_b_refl a : conv_b a a = true.
Proof. induction a; simpl; auto. Qed.

Lemma conv_b_sound a b : conv_b a b = true -> Converts a b.
Proof.
  revert a; induction b; intros a H; simpl in H;
    try (apply sty_eqb_eq in H; subst; constructor; fail);
    try (constructor; fail).
  all: destruct a; try discriminate; constructor; apply IHb; exact H.
Qed.

Lemma conv_b_complete a b : Converts a b -> conv_b a b = true.
Proof.
  induction 1; simpl; auto using conv_b_refl.
Qed.

Lemma conv_b_iff a b : conv_b a b = true <-> Converts a b.
Proof. split; [apply conv_b_sound | apply conv_b_complete]. Qed.

Lemma assignable_b_iff k t t2 : assignable_b k t t2 = true <-> Assignable k t t2.
Proof.
  destruct k; simpl.
  - rewrite orb_true_iff, !sty_eqb_eq. split.
    + intros [-> | ->]; constructor.
    + inversion 1; subst; auto.
  - rewrite conv_b_iff. split.
    + intro H; apply As_conv; exact H.
    + inversion 1; subst; auto; constructor.
Qed.

Lemma defaults_iff a b : defaults a = b <-> Defaults a b.
Proof.
  split.
  - intros <-. induction a; simpl; constructor; auto.
  - induction 1; simpl; congruence.
Qed.

Lemma unify_refl a : unify a a = Some a.
Proof. destruct a; simpl; rewrite ?sty_eqb_refl; reflexivity. Qed.

Lemma unify_sound a b r : unify a b = Some r -> Unify a b r.
Proof.
  revert b r; induction a; intros b r H; simpl in H;
    destruct b; simpl in H; try discriminate;
    try (inversion H; subst; constructor; fail).
  all: destruct (sty_eqb a b) eqn:E.
  1,3: inversion H; subst; apply sty_eqb_eq in E; subst; constructor.
  all: destruct (unify a b) eqn:U; simpl in H; try discriminate; inversion H; subst;
    constructor; apply IHa; exact U.
Qed.

Lemma unify_complete a b r : Unify a b r -> unify a b = Some r.
Proof.
  induction 1; try apply unify_refl; try reflexivity.
  all: simpl; destruct (sty_eqb a b) eqn:E; [|rewrite IHUnify; reflexivity];
    apply sty_eqb_eq in E; subst; rewrite unify_refl in IHUnify; congruence.
Qed.

Lemma unify_iff a b r : unify a b = Some r <-> Unify a b r.
Proof. split; [apply unify_sound | apply unify_complete]. Qed.

Lemma is_array_b_iff t : is_array_b t = true <-> is_array t.
Proof.
  unfold is_array; destruct t; simpl; split; intro H; try discriminate; auto;
    try (destruct H as [H | [s H]]; discriminate); eauto.
Qed.

Lemma op_type_sound op a b r : op_type op a b = Some r -> OpType op a b r.
Proof.
  unfold op_type. destruct (equality op) eqn:Eq.
  - destruct (unify a b) eqn:U; intro H; inversion H; subst.
    eapply Op_equality; eauto. apply unify_sound; exact U.
  - intro H.
    assert (Arr : is_array_b a = true ->
                  match op with
                  | OpPlus => unify a b
                  | OpAsterisk => match b with SNum => Some a | _ => None end
                  | _ => None
                  end = Some r -> OpType op a b r).
    { intros Ha H'. apply is_array_b_iff in Ha. destruct op; try discriminate.
      - apply Op_concat_array; [exact Ha | apply unify_sound; exact H'].
      - destruct b; try discriminate. inversion H'; subst. apply Op_repeat; exact Ha. }
    destruct a; simpl in H; try discriminate.
    + destruct b; try discriminate.
      destruct (arith op) eqn:A; [inversion H; subst; constructor; exact A|].
      destruct (ordering op) eqn:O; [inversion H; subst; apply Op_order_num; exact O | discriminate].
    + destruct b; try discriminate.
      destruct op; simpl in H; try discriminate; inversion H; subst;
        try (apply Op_order_string; reflexivity); constructor.
    + destruct b; try discriminate.
      destruct (logical op) eqn:L; [inversion H; subst; constructor; exact L | discriminate].
    + apply Arr; [reflexivity | exact H].
    + apply Arr; [reflexivity | exact H].
Qed.

Lemma op_type_complete op a b r : OpType op a b r -> op_type op a b = Some r.
Proof.
  destruct 1; unfold op_type.
  - destruct op; try discriminate; reflexivity.
  - reflexivity.
  - apply is_array_b_iff in H. apply unify_complete in H0. simpl.
    destruct a; try discriminate; simpl; exact H0.
  - apply is_array_b_iff in H. simpl. destruct a; try discriminate; reflexivity.
  - destruct op; try discriminate; reflexivity.
  - destruct op; try discriminate; reflexivity.
  - destruct op; try discriminate; reflexivity.
  - rewrite H. apply unify_complete in H0. rewrite H0. reflexivity.
Qed.

Lemma op_type_iff op a b r : op_type op a b = Some r <-> OpType op a b r.
Proof. split; [apply op_type_sound | apply op_type_complete]. Qed.

Lemma converts_arr_inv x t : Converts (SArr x) t -> t = SAny \/ exists y, t = SArr y /\ Converts x y.
Proof. inversion 1; subst; eauto using Converts. Qed.

Lemma converts_map_inv x t : Converts (SMap x) t -> t = SAny \/ exists y, t = SMap y /\ Converts x y.
Proof. inversion 1; subst; eauto using Converts. Qed.

Lemma converts_earr_inv t : Converts SEmptyArr t -> t = SAny \/ t = SEmptyArr \/ exists y, t = SArr y.
Proof. inversion 1; subst; eauto. Qed.

Lemma converts_emap_inv t : Converts SEmptyMap t -> t = SAny \/ t = SEmptyMap \/ exists y, t = SMap y.
Proof. inversion 1; subst; eauto. Qed.

Lemma converts_any_inv t : Converts SAny t -> t = SAny.
Proof. inversion 1; subst; auto. Qed.

Lemma converts_trans a b c : Converts a b -> Converts b c -> Converts a c.
Proof.
  intros H; revert c; induction H; intros c H2; auto.
  - apply converts_any_inv in H2; subst; constructor.
  - apply converts_arr_inv in H2 as [-> | [y [-> Hy]]]; constructor; auto.
  - apply converts_map_inv in H2 as [-> | [y [-> Hy]]]; constructor; auto.
  - apply converts_arr_inv in H2 as [-> | [y [-> Hy]]]; constructor.
  - apply converts_map_inv in H2 as [-> | [y [-> Hy]]]; constructor.
Qed.

(* cjoin is the least upper bound of two constants *)
Lemma cjoin_ub : forall a b, Converts a (cjoin a b) /\ Converts b (cjoin a b).
Proof.
  induction a; intros []; simpl; try (split; constructor).
  all: destruct (sty_eqb a s) eqn:E;
    [apply sty_eqb_eq in E; subst; split; constructor | split; constructor; apply IHa].
Qed.

Lemma cjoin_least : forall a b t, Converts a t -> Converts b t -> Converts (cjoin a b) t.
Proof.
  induction a; intros b t Ha Hb; destruct b; simpl; try assumption;
    try (inversion Ha; subst; inversion Hb; subst; constructor; fail).
  all: destruct (sty_eqb a b) eqn:E; [assumption|];
    inversion Ha; subst; inversion Hb; subst;
    try (rewrite sty_eqb_refl in E; discriminate);
    constructor; apply IHa; assumption || constructor.
Qed.

Lemma cjoin_lub a b : forall t, Converts (cjoin a b) t <-> (Converts a t /\ Converts b t).
Proof.
  intro t. split.
  - intro H. destruct (cjoin_ub a b) as [Ua Ub]. split; eapply converts_trans; eassumption.
  - intros [Ha Hb]. apply cjoin_least; assumption.
Qed.

Definition Asg (e : kind * sty) (t : sty) : Prop := Assignable (fst e) t (snd e).

Lemma asg_var a t : Assignable KVar t a <-> (t = a \/ t = SAny).
Proof. split; [inversion 1; subst; auto | intros [-> | ->]; constructor]. Qed.

Lemma asg_const a t : Assignable KConst t a <-> Converts a t.
Proof. split; [inversion 1; subst; auto; constructor | apply As_conv]. Qed.

Lemma asg_any k T : Assignable k T SAny <-> T = SAny.
Proof.
  split.
  - inversion 1; subst; auto. apply converts_any_inv; assumption.
  - intros ->; constructor.
Qed.

Lemma sjoin_var_const a b t :
  Asg (if conv_b b a then (KVar, a) else (KVar, SAny)) t <-> (Assignable KVar t a /\ Assignable KConst t b).
Proof.
  unfold Asg. destruct (conv_b b a) eqn:E; simpl; rewrite !asg_var, asg_const.
  - apply conv_b_iff in E. split; [intros [-> | ->]; split; auto; constructor | tauto].
  - split; [intros [-> | ->]; split; auto; constructor|].
    intros [[-> | ->] H]; auto. apply conv_b_iff in H; congruence.
Qed.

Lemma sjoin_ub e1 e2 t : Asg (sjoin e1 e2) t <-> (Asg e1 t /\ Asg e2 t).
Proof.
  destruct e1 as [[] a], e2 as [[] b]; unfold sjoin.
  - unfold Asg. destruct (sty_eqb a b) eqn:E; simpl; rewrite !asg_var.
    + apply sty_eqb_eq in E; subst. tauto.
    + apply sty_eqb_neq in E. split; [intros [-> | ->]; auto | intros [[-> | ->] [H | H]]; auto; congruence].
  - apply sjoin_var_const.
  - rewrite sjoin_var_const. apply and_comm.
  - unfold Asg; simpl. rewrite !asg_const. apply cjoin_lub.
Qed.

Lemma fold_sjoin_ub l : forall e t, Asg (fold_left sjoin l e) t <-> Forall (fun x => Asg x t) (e :: l).
Proof.
  induction l as [|y l IH]; intros e t; simpl.
  - split; [intro H; constructor; [exact H | constructor] | intro H; inversion H; assumption].
  - rewrite IH, !Forall_cons_iff, sjoin_ub. tauto.
Qed.

(* two elements that can be assigned to the same targets *)
Definition aeq (e1 e2 : kind * sty) : Prop := forall T, Asg e1 T <-> Asg e2 T.

Lemma aeq_refl e : aeq e e.
Proof. intro T; tauto. Qed.

Lemma aeq_any k1 k2 : aeq (k1, SAny) (k2, SAny).
Proof. intro T; unfold Asg; simpl. rewrite !asg_any. tauto. Qed.

Lemma fold_sjoin_aeq l a b : aeq a b -> aeq (fold_left sjoin l a) (fold_left sjoin l b).
Proof. intros H T. rewrite !fold_sjoin_ub, !Forall_cons_iff, (H T). reflexivity. Qed.

Lemma asg_converts e t : Asg e t -> Converts (snd e) t.
Proof. destruct e as [k a]; unfold Asg; simpl. inversion 1; subst; auto; constructor. Qed.

(* an element that can be assigned to exactly the common targets of els carries their Strictest type *)
Lemma lub_is_Strictest els r :
  (forall t, Asg r t <-> Forall (fun e => Asg e t) els) -> Strictest els (snd r).
Proof.
  intro U. split.
  - apply Forall_forall, U. unfold Asg. constructor.
  - intros t' Ht'. apply asg_converts, U, Forall_forall, Ht'.
Qed.

Theorem strictest_is_Strictest els e : strictest els = Some e -> Strictest els (snd e).
Proof.
  destruct els as [|x l]; simpl; [discriminate|]. intro H; inversion H; subst; clear H.
  apply lub_is_Strictest. intro t. apply fold_sjoin_ub.
Qed.

Lemma converts_antisym a b : Converts a b -> Converts b a -> a = b.
Proof.
  intro H; induction H; intro H2; auto.
  - apply converts_any_inv in H2; auto.
  - apply converts_arr_inv in H2 as [? | [y [E Hy]]]; [discriminate|]. inversion E; subst. f_equal; auto.
  - apply converts_map_inv in H2 as [? | [y [E Hy]]]; [discriminate|]. inversion E; subst. f_equal; auto.
  - inversion H2.
  - inversion H2.
Qed.

Theorem Strictest_unique els t1 t2 : Strictest els t1 -> Strictest els t2 -> t1 = t2.
Proof.
  intros [U1 L1] [U2 L2]. apply converts_antisym; [apply L1; exact U2 | apply L2; exact U1].
Qed.

Lemma Strictest_perm els els' t : (forall e, In e els <-> In e els') -> Strictest els t -> Strictest els' t.
Proof.
  intros P [U L]. split.
  - intros e He; apply U, P, He.
  - intros t' H; apply L. intros e He; apply H, P, He.
Qed.

Lemma target_step_s_iff t k r : target_step_s t k = Some r <-> TargetStep t k r.
Proof.
  split.
  - destruct t, k; simpl; try discriminate; try (destruct it; try discriminate);
      intro H; inversion H; subst; constructor.
  - destruct 1; reflexivity.
Qed.

Lemma target_chain_s_iff ks : forall t r, target_chain_s t ks = Some r <-> TargetChain t ks r.
Proof.
  induction ks as [|k ks IH]; intros t r; simpl.
  - split; [intro H; inversion H; constructor | inversion 1; reflexivity].
  - split.
    + destruct (target_step_s t k) eqn:E; [|discriminate]. intro H.
      econstructor; [apply target_step_s_iff; exact E | apply IH; exact H].
    + inversion 1; subst. apply target_step_s_iff in H3. rewrite H3. apply IH; assumption.
Qed.

Lemma range_operands_s_iff ts : range_operands_s ts = true <-> RangeOperands ts.
Proof.
  split.
  - destruct ts as [|t [|t2 [|t3 [|t4 r]]]]; simpl; intro H; try discriminate H.
    + destruct t; try discriminate H; eapply Ro_one; reflexivity.
    + destruct t; try discriminate H; destruct t2; try discriminate H; constructor.
    + destruct t; try discriminate H; destruct t2; try discriminate H; destruct t3; try discriminate H; constructor.
    + destruct t; try discriminate H; destruct t2; try discriminate H; destruct t3; discriminate H.
  - destruct 1; simpl; try reflexivity. destruct t; simpl in *; try discriminate; reflexivity.
Qed.
