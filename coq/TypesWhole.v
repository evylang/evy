(* TypesWhole.v — the implementation model of the type checker (Types.tc, Types.check) against the
   specification's whole-expression typing (TypesSpec.spec_tc, spec_check) on the UNIFORM fragment:
   composite literals whose elements all have the same type (nothing is converted inside an
   expression), variables and results of closed types, binary operators whose left operand has no
   untyped empty leaf (or is [] itself), index / field results of closed type.  TypesProofs.v compares
   the two models rule by rule; here the rules are composed over a whole expression.  The kinds
   (constant / variable) of the specification are not compared: they only matter for conversions. *)
From Coq Require Import List Bool.
From EvyV Require Import Base TypesSyntax Types TypesSpec TypesSpecProofs TypesProofs.
From EvyV.Gen Require Import TypeNames.
Import ListNotations.

Definition opt_holds (P : expr -> Prop) (o : option expr) : Prop :=
  match o with Some x => P x | None => True end.

Section SExprInd.
  Context (P : expr -> Prop).
  Context (HNum : P ELitNum) (HStr : P ELitStr) (HBool : P ELitBool)
          (HVar : forall t, P (EVar t)) (HCall : forall t, P (ECall t))
          (HArr : forall els, Forall P els -> P (EArr els))
          (HMap : forall els, Forall P els -> P (EMap els))
          (HBin : forall op l r, P l -> P r -> P (EBin op l r))
          (HUn : forall op e, P e -> P (EUn op e))
          (HGroup : forall e, P e -> P (EGroup e))
          (HIndex : forall l i, P l -> P i -> P (EIndex l i))
          (HSlice : forall l s e, P l -> opt_holds P s -> opt_holds P e -> P (ESlice l s e))
          (HDot : forall l, P l -> P (EDot l))
          (HAssert : forall e t, P e -> P (EAssert e t))
          (HLoop : forall r, P r -> P (ELoopVar r)).
  Fixpoint sexpr_ind (e : expr) : P e :=
    let lind := fix go (l : list expr) : Forall P l :=
      match l with [] => Forall_nil _ | x :: r => Forall_cons _ (sexpr_ind x) (go r) end in
    let oind := fun (o : option expr) =>
      match o as o' return opt_holds P o' with Some x => sexpr_ind x | None => I end in
    match e with
    | ELitNum => HNum | ELitStr => HStr | ELitBool => HBool
    | EVar t => HVar t | ECall t => HCall t
    | EArr els => HArr els (lind els)
    | EMap els => HMap els (lind els)
    | EBin op l r => HBin op l r (sexpr_ind l) (sexpr_ind r)
    | EUn op a => HUn op a (sexpr_ind a)
    | EGroup a => HGroup a (sexpr_ind a)
    | EIndex l i => HIndex l i (sexpr_ind l) (sexpr_ind i)
    | ESlice l s e' => HSlice l s e' (sexpr_ind l) (oind s) (oind e')
    | EDot l => HDot l (sexpr_ind l)
    | EAssert a t => HAssert a t (sexpr_ind a)
    | ELoopVar r => HLoop r (sexpr_ind r)
    end.
End SExprInd.

(* the operand of an index / field access is not the untyped [] / {} itself (the parser gives
   [][0]  the type none without reporting an error at the expression) *)
Definition not_empty_base (l : expr) : bool :=
  match spec_tc l with Some (_, SEmptyArr) | Some (_, SEmptyMap) => false | _ => true end.

Definition same_types (ks : list (kind * sty)) : bool :=
  match ks with x :: r => forallb (fun y => sty_eqb (snd y) (snd x)) r | [] => true end.

Fixpoint uniform (e : expr) : bool :=
  let all := fix go (l : list expr) : bool := match l with [] => true | x :: r => uniform x && go r end in
  let opt := fun (o : option expr) => match o with Some x => uniform x | None => true end in
  match e with
  | ELitNum | ELitStr | ELitBool => true
  | EVar t | ECall t => closed t
  | EArr els => all els && match all_some (map spec_tc els) with Some ks => same_types ks | None => true end
  | EMap els => all els && match all_some (map spec_tc els) with Some ks => same_types ks | None => true end
  | EBin op l r =>
      uniform l && uniform r &&
      match spec_tc l with Some (_, a) => closed a || sty_eqb a SEmptyArr | None => true end
  | EUn _ a => uniform a
  | EGroup a => uniform a
  | EIndex l i =>
      not_empty_base l && uniform l && uniform i && match spec_tc (EIndex l i) with Some (_, t) => closed t | None => true end
  | ESlice l s e' => uniform l && opt s && opt e'
  | EDot l => not_empty_base l && uniform l && match spec_tc (EDot l) with Some (_, t) => closed t | None => true end
  | EAssert a t => closed t && uniform a
  | ELoopVar _ => false      (* the loop variable as a value (C04's ELoopVar): outside; StaticTypes.erase never produces it *)
  end.

Fixpoint uniforms (l : list expr) : bool := match l with [] => true | x :: r => uniform x && uniforms r end.

Lemma uniform_EArr els : uniform (EArr els) =
  uniforms els && match all_some (map spec_tc els) with Some ks => same_types ks | None => true end.
Proof. reflexivity. Qed.
Lemma uniform_EMap els : uniform (EMap els) =
  uniforms els && match all_some (map spec_tc els) with Some ks => same_types ks | None => true end.
Proof. reflexivity. Qed.

Definition good (n : node) (s : sty) : Prop :=
  spec_ty (node_type n) = true /\ erase (node_type n) = s /\ infer_node n <> None.

Definition tc_ok (e : expr) : Prop :=
  uniform e = true -> forall k s, spec_tc e = Some (k, s) -> exists n, tc e = ONode n false /\ good n s.

Lemma closed_erase_inv t : spec_ty t = true -> closed (erase t) = true -> has_empty t = false.
Proof. induction t; simpl; auto; discriminate. Qed.

Lemma merge_fixed_same : forall c t, spec_ty c = true -> spec_ty t = true -> erase c = erase t ->
  spec_ty (merge_fixed c t) = true /\ erase (merge_fixed c t) = erase c.
Proof.
  induction c as [| | | | |f c IHc|f c IHc| | | |]; intros t2 Hc Ht He; simpl merge_fixed;
    try (match goal with |- context [if ?b then _ else _] => destruct b end;
         [auto | split; [exact Ht | symmetry; exact He]]; fail).
  - match goal with |- context [if ?b then _ else _] => destruct b end; [auto|].
    match goal with |- context [if ?b then _ else _] => destruct b end; [split; [exact Ht|symmetry; exact He]|].
    destruct t2; simpl in He, Ht; try discriminate. simpl. inversion He.
    destruct (IHc t2 Hc Ht H0) as [A B]. rewrite A, B. auto.
  - match goal with |- context [if ?b then _ else _] => destruct b end; [auto|].
    match goal with |- context [if ?b then _ else _] => destruct b end; [split; [exact Ht|symmetry; exact He]|].
    destruct t2; simpl in He, Ht; try discriminate. simpl. inversion He.
    destruct (IHc t2 Hc Ht H0) as [A B]. rewrite A, B. auto.
Qed.

Lemma equals_same c t : spec_ty c = true -> spec_ty t = true -> erase c = erase t -> equals c t = true.
Proof. intros Hc Ht He. rewrite equals_erase by assumption. rewrite He. apply sty_eqb_refl. Qed.

Lemma combine_from_same : forall ts c, spec_ty c = true ->
  Forall (fun t => spec_ty t = true /\ erase t = erase c) ts ->
  exists s, combine_from c ts = Some s /\ spec_ty s = true /\ erase s = erase c.
Proof.
  induction ts as [|t ts IH]; intros c Hc HF; simpl.
  - eauto.
  - inversion HF as [|? ? [Ht He] HF']; subst.
    unfold combine2. rewrite comb_equal by (apply equals_same; auto).
    destruct (merge_fixed_same c t Hc Ht (eq_sym He)) as [A B].
    destruct (IH (merge_fixed c t) A) as (s & Hs & S1 & S2).
    + eapply Forall_impl; [|exact HF']. intros x [X1 X2]. split; [exact X1|congruence].
    + exists s. rewrite Hs. repeat split; congruence.
Qed.

Lemma wrap_same n s : spec_ty s = true -> spec_ty (node_type n) = true -> erase (node_type n) = erase s ->
  wrap_any n s = Some n.
Proof.
  intros Hs Hn He.
  assert (E : equals s (node_type n) = true) by (apply equals_same; auto).
  destruct n; simpl in *; rewrite E; reflexivity.
Qed.

Lemma wrap_generic n t : is_generic t = true -> wrap_any n t = Some n.
Proof.
  intros H. assert (A : is_any t = false) by (destruct t; try discriminate; reflexivity).
  destruct n; cbn [wrap_any]; cbv zeta; rewrite A, H; destruct (equals _ _); reflexivity.
Qed.

Lemma wrap_all_same s : forall ns, spec_ty s = true ->
  Forall (fun n => spec_ty (node_type n) = true /\ erase (node_type n) = erase s) ns ->
  wrap_all ns s = Some ns.
Proof.
  unfold wrap_all. induction ns as [|n ns IH]; intros Hs HF; simpl; [reflexivity|].
  inversion HF as [|? ? [A B] HF']; subst. rewrite (wrap_same n s Hs A B), (IH Hs HF'). reflexivity.
Qed.

Lemma sjoin_same k1 k2 u : snd (sjoin (k1, u) (k2, u)) = u.
Proof.
  destruct k1, k2; simpl; try rewrite conv_b_refl; try rewrite sty_eqb_refl; simpl; auto.
  unfold cjoin. destruct u; simpl; try rewrite !sty_eqb_refl; reflexivity.
Qed.

Lemma fold_sjoin_same u : forall l x, snd x = u -> Forall (fun y => snd y = u) l ->
  snd (fold_left sjoin l x) = u.
Proof.
  induction l as [|y l IH]; intros x Hx Hall; simpl; auto.
  inversion Hall; subst. apply IH; auto. destruct x, y; simpl in *; subst. apply sjoin_same.
Qed.

Lemma same_types_all x r : same_types (x :: r) = true -> Forall (fun y : kind * sty => snd y = snd x) r.
Proof.
  simpl. induction r as [|y r IH]; simpl; intros H; constructor.
  - apply andb_true_iff in H as [H _]. apply sty_eqb_eq in H. exact H.
  - apply IH. apply andb_true_iff in H as [_ H]. exact H.
Qed.

Lemma seq_ok : forall els, Forall tc_ok els -> uniforms els = true ->
  forall ks, all_some (map spec_tc els) = Some ks ->
  exists ns, seq_outcomes (map tc els) = Some (Some (ns, false)) /\
             Forall2 (fun n (x : kind * sty) => good n (snd x)) ns ks.
Proof.
  induction els as [|e els IH]; intros HF Hu ks Hks; simpl in *.
  - inversion Hks; subst. exists []. split; [reflexivity|constructor].
  - inversion HF as [|? ? He HF']; subst. apply andb_true_iff in Hu as [Hu1 Hu2].
    destruct (spec_tc e) as [[k s]|] eqn:Es; [|discriminate].
    destruct (all_some (map spec_tc els)) as [ks'|] eqn:Ek; [|discriminate]. inversion Hks; subst ks.
    destruct (He Hu1 k s Es) as (n & Hn & Hg).
    destruct (IH HF' Hu2 ks' eq_refl) as (ns & Hns & HF2).
    exists (n :: ns). rewrite Hn, Hns. destruct Hg as (G1 & G2 & G3).
    rewrite (spec_not_none _ G1). split; [reflexivity|]. constructor; [repeat split; assumption|exact HF2].
Qed.

Lemma forall2_good ns r u : Forall2 (fun n (x : kind * sty) => good n (snd x)) ns r ->
  Forall (fun y : kind * sty => snd y = u) r -> Forall (fun n => good n u) ns.
Proof.
  induction 1 as [|n y ns r Hn HF IH]; intros Hall; constructor; inversion Hall as [|? ? Hy Hr]; subst; auto.
Qed.

Lemma lit_ok els : Forall tc_ok els -> uniforms els = true ->
  forall x r, all_some (map spec_tc els) = Some (x :: r) -> same_types (x :: r) = true ->
  exists n0 ns s, seq_outcomes (map tc els) = Some (Some (n0 :: ns, false)) /\
    combine (map node_type (n0 :: ns)) = Some s /\ wrap_all (n0 :: ns) s = Some (n0 :: ns) /\
    spec_ty s = true /\ erase s = snd (fold_left sjoin r x) /\ Forall (fun n => infer_node n <> None) (n0 :: ns).
Proof.
  intros HF Hu x r Hks Hsame.
  destruct (seq_ok els HF Hu _ Hks) as (ns & Hns & HF2).
  inversion HF2 as [|n0 x' ns' r' Hg0 HF2' E1 E2]; subst.
  pose proof (same_types_all _ _ Hsame) as Hall.
  assert (GOOD : Forall (fun n => good n (snd x)) (n0 :: ns')).
  { constructor; [exact Hg0|]. eapply forall2_good; eauto. }
  destruct Hg0 as (G1 & G2 & G3).
  destruct (combine_from_same (map node_type ns') (node_type n0) G1) as (s & Hs & S1 & S2).
  { inversion GOOD; subst. clear -H2 G2. induction H2; simpl; constructor; auto.
    destruct H as (A & B & _). split; [exact A|congruence]. }
  exists n0, ns', s. split; [exact Hns|]. split; [exact Hs|]. split.
  - apply wrap_all_same; [exact S1|]. eapply Forall_impl; [|exact GOOD].
    intros n (A & B & _). split; [exact A|congruence].
  - split; [exact S1|]. split; [rewrite (fold_sjoin_same (snd x)) by auto; congruence|].
    eapply Forall_impl; [|exact GOOD]. intros n (_ & _ & C). exact C.
Qed.

Lemma infer_list_some : forall ns, Forall (fun n => infer_node n <> None) ns ->
  (fix go (l : list node) : option (list node) :=
     match l with
     | [] => Some []
     | x :: r => match infer_node x with
                 | Some y => match go r with Some r' => Some (y :: r') | None => None end
                 | None => None
                 end
     end) ns <> None.
Proof.
  induction 1 as [|n ns Hn HF IH]; [discriminate|].
  destruct (infer_node n); [|contradiction].
  match goal with |- match ?g with _ => _ end <> None => destruct g eqn:E end; [discriminate|exact IH].
Qed.

Lemma infer_some t : spec_ty t = true -> infer t <> None.
Proof. intros H. destruct (infer_spec t H) as (t' & -> & _). discriminate. Qed.

Lemma erase_empty_arr t : spec_ty t = true -> erase t = SEmptyArr -> t = TEmptyArr.
Proof. destruct t; simpl; intros; try discriminate; reflexivity. Qed.

Definition sbound (o : option expr) : option kind :=
  match o with
  | None => Some KConst
  | Some x => match spec_tc x with Some (k', SNum) => Some k' | _ => None end
  end.

Lemma spec_tc_ESlice l s e' : spec_tc (ESlice l s e') =
  match spec_tc l with
  | Some (k, a) =>
      match sbound s, sbound e', slice_type_s a with
      | Some k1, Some k2, Some t => Some (kjoin k (kjoin k1 k2), t)
      | _, _, _ => None
      end
  | None => None
  end.
Proof. reflexivity. Qed.

Lemma bound_tc o : opt_holds tc_ok o -> match o with Some x => uniform x | None => true end = true ->
  forall k', sbound o = Some k' ->
  match o with Some x => exists n, tc x = ONode n false /\ node_type n = TNum | None => True end.
Proof.
  destruct o as [x|]; [|auto]. simpl. intros IH Hu k' Hb.
  destruct (spec_tc x) as [[kx tx]|] eqn:Ex; [|discriminate]. destruct tx; try discriminate.
  destruct (IH Hu kx SNum Ex) as (n & Hn & N1 & N2 & _). exists n. split; [exact Hn|].
  destruct (node_type n); simpl in N1, N2; try discriminate; reflexivity.
Qed.

Lemma lit_infer_some t ns : spec_ty t = true -> Forall (fun n => infer_node n <> None) ns ->
  infer_node (NArrLit t ns) <> None /\ infer_node (NMapLit t ns) <> None.
Proof.
  intros Ht Hinf. pose proof (infer_some t Ht) as Hi. pose proof (infer_list_some _ Hinf) as Hl.
  cbn [infer_node]. destruct (infer t); [|contradiction].
  split; match goal with |- match ?g with _ => _ end <> None => destruct g; [discriminate|contradiction] end.
Qed.

Lemma spec_fixed_embed s : spec_ty (fixed_type (embed s)) = true.
Proof. rewrite (proj1 (fixed_type_keeps _)). apply spec_embed. Qed.

Lemma erase_fixed_embed s : erase (fixed_type (embed s)) = s.
Proof. rewrite erase_fixed_type. apply erase_embed. Qed.

(* a node of a declared type: variables, call results, type assertions *)
Lemma good_embed n s : node_type n = fixed_type (embed s) -> infer_node n <> None -> good n s.
Proof.
  intros E Hi. unfold good. rewrite E. split; [apply spec_fixed_embed|]. split; [apply erase_fixed_embed|exact Hi].
Qed.

(* the element of an array or a map of closed element type *)
Lemma good_fixed n u : spec_ty u = true -> node_type n = fixed_type u -> infer_node n <> None -> good n (erase u).
Proof.
  intros Hu E Hi. unfold good. rewrite E.
  split; [rewrite (proj1 (fixed_type_keeps u)); exact Hu|]. split; [apply erase_fixed_type|exact Hi].
Qed.

Lemma tc_ok_EArr els : Forall tc_ok els -> tc_ok (EArr els).
Proof.
  intros H Hu k s0 Hs. rewrite uniform_EArr in Hu. apply andb_true_iff in Hu as [Hu1 Hu2].
  cbn [spec_tc] in Hs. cbn [tc].
  destruct (all_some (map spec_tc els)) as [[|x r]|] eqn:Ek; [| |discriminate].
  - inversion Hs; subst.
    destruct (seq_ok els H Hu1 [] Ek) as (ns & Hns & HF2). inversion HF2; subst. rewrite Hns.
    exists (NArrLit TEmptyArr []). repeat split; try reflexivity; discriminate.
  - destruct (lit_ok els H Hu1 x r Ek Hu2) as (n0 & ns & st & Hns & Hc & Hw & S1 & S2 & Hinf).
    rewrite Hns, Hc, Hw. inversion Hs; subst.
    exists (NArrLit (TArr false st) (n0 :: ns)). split; [reflexivity|]. split; [exact S1|]. split.
    + simpl. rewrite S2. reflexivity.
    + apply (lit_infer_some (TArr false st)); assumption.
Qed.

Lemma tc_ok_EMap els : Forall tc_ok els -> tc_ok (EMap els).
Proof.
  intros H Hu k s0 Hs. rewrite uniform_EMap in Hu. apply andb_true_iff in Hu as [Hu1 Hu2].
  cbn [spec_tc] in Hs. cbn [tc].
  destruct (all_some (map spec_tc els)) as [[|x r]|] eqn:Ek; [| |discriminate].
  - inversion Hs; subst.
    destruct (seq_ok els H Hu1 [] Ek) as (ns & Hns & HF2). inversion HF2; subst. rewrite Hns.
    exists (NMapLit TEmptyMap []). repeat split; try reflexivity; discriminate.
  - destruct (lit_ok els H Hu1 x r Ek Hu2) as (n0 & ns & st & Hns & Hc & Hw & S1 & S2 & Hinf).
    rewrite Hns, Hc, Hw. inversion Hs; subst.
    exists (NMapLit (TMap false st) (n0 :: ns)). split; [reflexivity|]. split; [exact S1|]. split.
    + simpl. rewrite S2. reflexivity.
    + apply (lit_infer_some (TMap false st)); assumption.
Qed.

Lemma tc_ok_EBin op e1 e2 : tc_ok e1 -> tc_ok e2 -> tc_ok (EBin op e1 e2).
Proof.
  intros IHe1 IHe2 Hu k s0 Hs.
  cbn [uniform] in Hu. apply andb_true_iff in Hu as [Hu Hg]. apply andb_true_iff in Hu as [Hu1 Hu2].
  cbn [spec_tc] in Hs.
  destruct (spec_tc e1) as [[k1 a]|] eqn:E1; [|discriminate].
  destruct (spec_tc e2) as [[k2 b]|] eqn:E2; [|discriminate].
  destruct (op_type op a b) as [t|] eqn:Eo; [|discriminate]. inversion Hs; subst.
  destruct (IHe1 Hu1 k1 a E1) as (ln & Hl & L1 & L2 & L3).
  destruct (IHe2 Hu2 k2 b E2) as (rn & Hr & R1 & R2 & R3).
  cbn [tc]. rewrite Hl, Hr. cbn [bind_node].
  assert (Hv : validate_binary op (node_type ln) (node_type rn) = true).
  { rewrite validate_binary_spec by assumption. rewrite L2, R2, Eo. reflexivity. }
  rewrite Hv. eexists. split; [reflexivity|]. split; [apply binary_node_type_spec_ty; assumption|]. split; [|discriminate].
  simpl node_type.
  assert (Hgd : has_empty (node_type ln) = false \/ node_type ln = TEmptyArr).
  { apply orb_true_iff in Hg as [Hg|Hg].
    - left. apply closed_erase_inv; [exact L1|rewrite L2; exact Hg].
    - right. apply erase_empty_arr; [exact L1|]. rewrite L2. apply sty_eqb_eq. exact Hg. }
  pose proof (binop_result_type op _ _ L1 R1 Hv Hgd) as Ht. rewrite L2, R2 in Ht.
  apply op_type_iff in Ht. congruence.
Qed.

Lemma tc_ok_EUn op e : tc_ok e -> tc_ok (EUn op e).
Proof.
  intros IHe Hu k s0 Hs. cbn [uniform] in Hu. cbn [spec_tc] in Hs.
  destruct (spec_tc e) as [[k1 a]|] eqn:E1; [|discriminate].
  destruct (unop_type op a) as [t'|] eqn:Eu; [|discriminate]. inversion Hs; subst.
  destruct (IHe Hu k a E1) as (n & Hn & N1 & N2 & N3).
  cbn [tc]. rewrite Hn. cbn [bind_node].
  assert (validate_unary op (node_type n) = true /\ s0 = a) as [Hv ->].
  { destruct op, a; simpl in Eu; try discriminate; inversion Eu; subst;
      destruct (node_type n); simpl in N1, N2; try discriminate; split; reflexivity. }
  rewrite Hv. exists (NLeaf (node_type n)). split; [reflexivity|]. repeat split; try assumption; discriminate.
Qed.

Lemma tc_ok_EGroup e : tc_ok e -> tc_ok (EGroup e).
Proof.
  intros IHe Hu k s0 Hs. cbn [uniform] in Hu. cbn [spec_tc] in Hs.
  destruct (IHe Hu k s0 Hs) as (n & Hn & N1 & N2 & N3).
  cbn [tc]. rewrite Hn. cbn [bind_node]. exists (NGroup n). split; [reflexivity|].
  split; [exact N1|]. split; [exact N2|]. cbn [infer_node].
  destruct (is_inferrer n); [|discriminate]. destruct (infer_node n); [discriminate|contradiction].
Qed.

Lemma tc_ok_EIndex e1 e2 : tc_ok e1 -> tc_ok e2 -> tc_ok (EIndex e1 e2).
Proof.
  intros IHe1 IHe2 Hu k s0 Hs.
  cbn [uniform] in Hu. apply andb_true_iff in Hu as [Hu Hc]. apply andb_true_iff in Hu as [Hu1 Hu2].
  apply andb_true_iff in Hu1 as [_ Hu1].
  rewrite Hs in Hc. cbn [spec_tc] in Hs.
  destruct (spec_tc e1) as [[k1 a]|] eqn:E1; [|discriminate].
  destruct (spec_tc e2) as [[k2 b]|] eqn:E2; [|discriminate].
  destruct (index_type_s a b) as [t'|] eqn:Ei; [|discriminate]. inversion Hs; subst.
  destruct (IHe1 Hu1 k1 a E1) as (ln & Hl & L1 & L2 & L3).
  destruct (IHe2 Hu2 k2 b E2) as (rn & Hr & R1 & R2 & R3).
  cbn [tc]. rewrite Hl. cbn [bind_node].
  destruct (node_type ln) as [| | | | |f u|f u| | | |] eqn:El; simpl in L1, L2; try discriminate; subst a;
    simpl in Ei; try discriminate;
    destruct b; try discriminate; inversion Ei; subst;
    destruct (node_type rn) eqn:Er; simpl in R1, R2; try discriminate;
    simpl; rewrite Hr; cbn [bind_node]; rewrite Er; simpl.
  - eexists. split; [reflexivity|]. repeat split; try reflexivity; discriminate.
  - rewrite (infer_id u L1 (closed_erase_inv u L1 Hc)).
    eexists. split; [reflexivity|]. apply good_fixed; [exact L1|reflexivity|discriminate].
  - rewrite (infer_id u L1 (closed_erase_inv u L1 Hc)).
    eexists. split; [reflexivity|]. apply good_fixed; [exact L1|reflexivity|discriminate].
Qed.

Lemma tc_ok_ESlice e1 o1 o2 : tc_ok e1 -> opt_holds tc_ok o1 -> opt_holds tc_ok o2 -> tc_ok (ESlice e1 o1 o2).
Proof.
  intros IHe1 IHo1 IHo2 Hu k s0 Hs.
  cbn [uniform] in Hu. apply andb_true_iff in Hu as [Hu Hu3]. apply andb_true_iff in Hu as [Hu1 Hu2].
  rewrite spec_tc_ESlice in Hs.
  destruct (spec_tc e1) as [[k1 a]|] eqn:E1; [|discriminate].
  destruct (sbound o1) as [kb1|] eqn:B1; [|discriminate].
  destruct (sbound o2) as [kb2|] eqn:B2; [|discriminate].
  destruct (slice_type_s a) as [t'|] eqn:Et; [|discriminate]. inversion Hs; subst.
  destruct (IHe1 Hu1 k1 a E1) as (ln & Hl & L1 & L2 & L3).
  pose proof (bound_tc o1 IHo1 Hu2 kb1 B1) as X1.
  pose proof (bound_tc o2 IHo2 Hu3 kb2 B2) as X2.
  cbn [tc]. rewrite Hl. cbn [bind_node].
  assert (s0 = a) as -> by (destruct a; simpl in Et; try discriminate; inversion Et; reflexivity).
  exists (NSlice (node_type ln) ln).
  split; [|split; [exact L1|split; [exact L2|discriminate]]].
  destruct o1 as [x|], o2 as [y|];
    try (destruct X1 as (nx & Hx & Tx)); try (destruct X2 as (ny & Hy & Ty));
    try rewrite Hx; try rewrite Hy; try rewrite Tx; try rewrite Ty;
    destruct (node_type ln) as [| | | | |f u|f u| | | |]; simpl in L1, L2; try discriminate; subst a;
    simpl in Et; try discriminate; simpl; try rewrite Tx; try rewrite Ty; reflexivity.
Qed.

Lemma tc_ok_EDot e : tc_ok e -> tc_ok (EDot e).
Proof.
  intros IHe Hu k s0 Hs.
  cbn [uniform] in Hu. apply andb_true_iff in Hu as [Hu1 Hc]. apply andb_true_iff in Hu1 as [_ Hu1].
  rewrite Hs in Hc. cbn [spec_tc] in Hs.
  destruct (spec_tc e) as [[k1 a]|] eqn:E1; [|discriminate].
  destruct (dot_type_s a) as [t'|] eqn:Ed; [|discriminate]. inversion Hs; subst.
  destruct (IHe Hu1 k a E1) as (ln & Hl & L1 & L2 & L3).
  cbn [tc]. rewrite Hl. cbn [bind_node].
  destruct (node_type ln) as [| | | | |f u|f u| | | |] eqn:El; simpl in L1, L2; try discriminate; subst a;
    simpl in Ed; try discriminate; inversion Ed; subst; simpl.
  rewrite (infer_id u L1 (closed_erase_inv u L1 Hc)).
  eexists. split; [reflexivity|]. apply good_fixed; [exact L1|reflexivity|discriminate].
Qed.

Lemma tc_ok_EAssert e t : tc_ok e -> tc_ok (EAssert e t).
Proof.
  intros IHe Hu k s0 Hs.
  cbn [uniform] in Hu. apply andb_true_iff in Hu as [_ Hu]. cbn [spec_tc] in Hs.
  destruct (spec_tc e) as [[k1 a]|] eqn:E1; [|discriminate].
  destruct a; try discriminate.
  destruct (negb (sty_eqb t SAny) && closed t) eqn:Ec; [|discriminate]. inversion Hs; subst.
  destruct (IHe Hu k SAny E1) as (n & Hn & N1 & N2 & N3).
  cbn [tc]. rewrite Hn. cbn [bind_node].
  apply andb_true_iff in Ec as [Ec1 Ec2].
  assert (Hv : validate_assert (node_type n) (embed s0) = true).
  { apply (assert_rule _ _ N1 Ec2). unfold AssertOk. rewrite N2. split; [reflexivity|]. split; [|exact Ec2].
    apply negb_true_iff in Ec1. apply sty_eqb_neq in Ec1. exact Ec1. }
  rewrite Hv. eexists. split; [reflexivity|]. apply good_embed; [reflexivity|discriminate].
Qed.

Theorem tc_uniform : forall e, tc_ok e.
Proof.
  induction e using sexpr_ind.
  1-3: intros Hu k s0 Hs; inversion Hs; subst; eexists; repeat split; try reflexivity; discriminate.
  1-2: (* variable, call result *)
    intros Hu k s0 Hs; inversion Hs; subst; eexists; (split; [reflexivity|]); apply good_embed; [reflexivity|discriminate].
  - apply tc_ok_EArr; assumption.
  - apply tc_ok_EMap; assumption.
  - apply tc_ok_EBin; assumption.
  - apply tc_ok_EUn; assumption.
  - apply tc_ok_EGroup; assumption.
  - apply tc_ok_EIndex; assumption.
  - apply tc_ok_ESlice; assumption.
  - apply tc_ok_EDot; assumption.
  - apply tc_ok_EAssert; assumption.
  - (* loop variable: outside the fragment *)
    intros Hu. discriminate Hu.
Qed.

Lemma accepts_same : forall l r top rf, spec_ty l = true -> spec_ty r = true -> erase l = erase r ->
  accepts_from top rf l r = true.
Proof.
  induction l as [| | | | |f l IHl|f l IHl| | | |]; intros r top rf Hl Hr He;
    destruct r; simpl in Hl, Hr, He; try discriminate; try reflexivity;
    inversion He; simpl; apply IHl; assumption.
Qed.

Lemma check_accept_exact target n : spec_ty target = true -> good n (erase target) ->
  check_accept target (ONode n false) = Accept target (shown_type n).
Proof.
  intros Ht (G1 & G2 & _). unfold check_accept, accepts.
  rewrite (accepts_same target (node_type n) true false Ht G1 (eq_sym G2)).
  rewrite (wrap_same n target Ht G1 G2). reflexivity.
Qed.

Lemma check_accept_any n s : good n s -> exists shown, check_accept TAny (ONode n false) = Accept TAny shown.
Proof.
  intros (G1 & G2 & G3). unfold check_accept.
  assert (accepts TAny (node_type n) = true) as ->.
  { destruct (node_type n); simpl in G1; try discriminate; reflexivity. }
  assert (exists n', wrap_any n TAny = Some n') as (n' & ->).
  { destruct (infer_node n) as [v|] eqn:Ei; [|contradiction].
    destruct n; cbn [wrap_any node_type is_any]; cbv zeta;
      match goal with |- exists _, (if ?c then _ else _) = _ => destruct c; [eauto|] end;
      rewrite Ei; eauto. }
  eauto.
Qed.

Section Contexts.
  Context (e : expr) (k : kind) (s : sty).
  Hypothesis (Hu : uniform e = true) (Hs : spec_tc e = Some (k, s)).

  (* a value meeting a slot of its own type: assignment, parameter, variadic parameter, return *)
  Theorem impl_value : exists shown,
    check (CAssign s) e = Accept (fixed_type (embed s)) shown /\
    check (CParam s) e = Accept (fixed_type (embed s)) shown /\
    check (CVariadic s) e = Accept (fixed_type (embed s)) shown /\
    check (CReturn s) e = Accept (embed s) shown.
  Proof.
    destruct (tc_uniform e Hu k s Hs) as (n & Hn & Hg). exists (shown_type n). unfold check. rewrite Hn.
    assert (A : forall target, spec_ty target = true -> erase target = s ->
              check_accept target (ONode n false) = Accept target (shown_type n)).
    { intros target T1 T2. apply check_accept_exact; [exact T1|rewrite T2; exact Hg]. }
    repeat split; apply A; auto using spec_embed, erase_embed, spec_fixed_embed, erase_fixed_embed.
  Qed.

  (* ... or a slot of type any *)
  Theorem impl_value_any : exists shown, check (CAssign SAny) e = Accept TAny shown.
  Proof.
    destruct (tc_uniform e Hu k s Hs) as (n & Hn & Hg). unfold check. rewrite Hn. simpl fixed_type.
    exact (check_accept_any n s Hg).
  Qed.

  Theorem impl_cond : s = SBool -> check CCond e = Accept TBool TBool.
  Proof.
    intros ->. destruct (tc_uniform e Hu k SBool Hs) as (n & Hn & G1 & G2 & _). unfold check. rewrite Hn.
    destruct (node_type n); simpl in G1, G2; try discriminate. reflexivity.
  Qed.

  Theorem impl_decl : closed s = true -> exists T shown, check CDecl e = Accept T shown /\ erase T = s.
  Proof.
    intros Hc. destruct (tc_uniform e Hu k s Hs) as (n & Hn & G1 & G2 & G3). unfold check. rewrite Hn.
    rewrite (spec_not_none _ G1).
    assert (He : has_empty (node_type n) = false) by (apply closed_erase_inv; [exact G1|rewrite G2; exact Hc]).
    rewrite (infer_id _ G1 He).
    rewrite (wrap_same n (fixed_type (node_type n))).
    - eexists. eexists. split; [reflexivity|]. rewrite erase_fixed_type. exact G2.
    - rewrite (proj1 (fixed_type_keeps _)). exact G1.
    - exact G1.
    - symmetry. apply erase_fixed_type.
  Qed.

  Theorem impl_generic_array : is_array_b s = true -> exists shown, check CGenericArr e = Accept TGenArr shown.
  Proof.
    intros Ha. destruct (tc_uniform e Hu k s Hs) as (n & Hn & G1 & G2 & G3). unfold check, check_accept. rewrite Hn.
    rewrite accepts_generic_array.
    assert (is_array_name (node_type n) = true) as ->.
    { destruct (node_type n); simpl in G1, G2; subst s; simpl in Ha; try discriminate; reflexivity. }
    rewrite (wrap_generic n TGenArr eq_refl). eauto.
  Qed.

  Theorem impl_generic_map : is_map_b s = true -> exists shown, check CGenericMap e = Accept TGenMap shown.
  Proof.
    intros Ha. destruct (tc_uniform e Hu k s Hs) as (n & Hn & G1 & G2 & G3). unfold check, check_accept. rewrite Hn.
    rewrite accepts_generic_map.
    assert (is_map_name (node_type n) = true) as ->.
    { destruct (node_type n); simpl in G1, G2; subst s; simpl in Ha; try discriminate; reflexivity. }
    rewrite (wrap_generic n TGenMap eq_refl). eauto.
  Qed.

  (* the range operand: the same loop-variable type as the specification gives *)
  Theorem impl_range : match s with SArr u => closed u = true | _ => True end ->
    forall st sh, spec_check CRange e = SAccept st sh ->
    exists T, check CRange e = Accept T T /\ erase T = st.
  Proof.
    intros Hc st sh Hsp. destruct (tc_uniform e Hu k s Hs) as (n & Hn & G1 & G2 & G3).
    unfold spec_check in Hsp. rewrite Hs in Hsp. unfold check. rewrite Hn.
    destruct (node_type n) as [| | | | |f u|f u| | | |]; simpl in G1, G2; try discriminate; subst s;
      simpl in Hsp; try discriminate; inversion Hsp; subst; unfold range_var_type; simpl;
      try (eexists; split; reflexivity).
    rewrite (infer_id u G1 (closed_erase_inv u G1 Hc)). simpl.
    eexists. split; [reflexivity|]. rewrite erase_fixed_type. symmetry.
    clear -Hc. induction (erase u); simpl in *; try reflexivity; try discriminate; f_equal; auto.
  Qed.
End Contexts.

Fixpoint uniform_steps (steps : list tstep) : bool :=
  match steps with
  | [] => true
  | TIdx i :: r => uniform i && uniform_steps r
  | _ :: r => uniform_steps r
  end.

Lemma target_outcome_ok : forall steps t ks st,
  spec_ty t = true -> has_empty t = false -> uniform_steps steps = true ->
  spec_steps steps = Some ks -> target_chain_s (erase t) ks = Some st ->
  exists T, target_outcome t false steps = TNode T false /\ erase T = st /\ spec_ty T = true /\ has_empty T = false.
Proof.
  induction steps as [|stp steps IH]; intros t ks st Ht He Hu Hk Hc.
  - simpl in Hk. inversion Hk; subst. simpl in Hc. inversion Hc; subst. exists t. auto.
  - destruct stp as [i| |sl|ta].
    + (* index step *)
      simpl in Hu. apply andb_true_iff in Hu as [Hu1 Hu2]. simpl in Hk.
      destruct (spec_tc i) as [[ki it]|] eqn:Ei; [|discriminate].
      destruct (spec_steps steps) as [ks'|] eqn:Ek; [|discriminate]. inversion Hk; subst ks. simpl in Hc.
      destruct (target_step_s (erase t) (SKIdx it)) as [t1|] eqn:Es; [|discriminate].
      destruct (tc_uniform i Hu1 ki it Ei) as (inode & Hi & I1 & I2 & _).
      pose proof (target_step_spec t (KIdx (node_type inode)) Ht He I1) as St.
      change (erase_step (KIdx (node_type inode))) with (SKIdx (erase (node_type inode))) in St. rewrite I2, Es in St.
      destruct St as (T1 & E1 & E2 & S1 & N1).
      destruct (IH T1 ks' st S1 N1 Hu2 eq_refl) as (T & HT & R); [rewrite E2; exact Hc|].
      exists T. split; [|exact R]. cbn [target_outcome]. rewrite Hi, E1.
      destruct t; simpl in Ht, Es; try discriminate; simpl; exact HT.
    + (* dot step *)
      simpl in Hu. simpl in Hk.
      destruct (spec_steps steps) as [ks'|] eqn:Ek; [|discriminate]. inversion Hk; subst ks. simpl in Hc.
      destruct (target_step_s (erase t) SKDot) as [t1|] eqn:Es; [|discriminate].
      pose proof (target_step_spec t KDot Ht He eq_refl) as St.
      change (erase_step KDot) with SKDot in St. rewrite Es in St.
      destruct St as (T1 & E1 & E2 & S1 & N1).
      destruct (IH T1 ks' st S1 N1 Hu eq_refl) as (T & HT & R); [rewrite E2; exact Hc|].
      exists T. split; [|exact R]. cbn [target_outcome]. rewrite E1. exact HT.
    + simpl in Hk. destruct (spec_steps steps); [|discriminate]. inversion Hk; subst ks. simpl in Hc.
      destruct (erase t); discriminate.
    + simpl in Hk. destruct (spec_steps steps); [|discriminate]. inversion Hk; subst ks. simpl in Hc.
      destruct (erase t); discriminate.
Qed.

(* v<steps> = e  with the value of exactly the target's type *)
Theorem impl_assign_to e k root steps ks st :
  uniform e = true -> closed root = true -> uniform_steps steps = true ->
  spec_steps steps = Some ks -> target_chain_s root ks = Some st -> spec_tc e = Some (k, st) ->
  exists T shown, check (CAssignTo root steps) e = Accept T shown /\ erase T = st.
Proof.
  intros Hu Hc Hus Hk Hch Hs.
  assert (F3 : has_empty (fixed_type (embed root)) = false).
  { rewrite (proj2 (fixed_type_keeps _)). apply closed_embed_iff. exact Hc. }
  destruct (target_outcome_ok steps _ ks st (spec_fixed_embed root) F3 Hus Hk) as (T & HT & T1 & T2 & T3);
    [rewrite erase_fixed_embed; exact Hch|].
  destruct (tc_uniform e Hu k st Hs) as (n & Hn & Hg).
  exists T, (shown_type n). split; [|exact T1]. unfold check. rewrite HT, Hn.
  rewrite (check_accept_exact T n T2); [reflexivity|rewrite T1; exact Hg].
Qed.

Definition tc_def (e : expr) : Prop :=
  uniform e = true -> forall n, tc e = ONode n false -> exists k s, spec_tc e = Some (k, s).

Lemma tc_node e (Hu : uniform e = true) k s n :
  spec_tc e = Some (k, s) -> tc e = ONode n false -> good n s.
Proof.
  intros Hs Hn. destruct (tc_uniform e Hu k s Hs) as (n' & Hn' & Hg). rewrite Hn in Hn'. inversion Hn'; subst. exact Hg.
Qed.

Lemma seq_inv : forall els ns, seq_outcomes (map tc els) = Some (Some (ns, false)) ->
  Forall (fun e => exists n, tc e = ONode n false) els.
Proof.
  induction els as [|e els IH]; intros ns H; [constructor|]. simpl in H.
  destruct (tc e) as [n er| |] eqn:Et; try discriminate.
  destruct (is_none (node_type n)); [discriminate|].
  destruct (seq_outcomes (map tc els)) as [[[ns' er']|]|] eqn:Es; try discriminate.
  inversion H; subst. apply orb_false_iff in H2 as [-> ->].
  constructor; [eauto|]. eapply IH; reflexivity.
Qed.

Lemma all_def : forall els, Forall tc_def els -> uniforms els = true ->
  Forall (fun e => exists n, tc e = ONode n false) els -> exists ks, all_some (map spec_tc els) = Some ks.
Proof.
  induction els as [|e els IH]; intros HF Hu Hn; simpl; [eauto|].
  inversion HF as [|? ? He HF']; subst. inversion Hn as [|? ? [n Hne] Hn']; subst.
  simpl in Hu. apply andb_true_iff in Hu as [Hu1 Hu2].
  destruct (He Hu1 n Hne) as (k & s & ->). destruct (IH HF' Hu2 Hn') as (ks & ->). eauto.
Qed.

Lemma bound_conv x : tc_def x -> uniform x = true ->
  forall nx, tc x = ONode nx false -> is_num (node_type nx) = true -> exists k', sbound (Some x) = Some k'.
Proof.
  intros IH Hu nx Hx Hnum. destruct (IH Hu nx Hx) as (kx & tx & Hs).
  destruct (tc_node x Hu kx tx nx Hs Hx) as (_ & G2 & _).
  simpl. rewrite Hs. destruct (node_type nx); try discriminate. simpl in G2. subst tx. eauto.
Qed.

Theorem tc_uniform_conv : forall e, tc_def e.
Proof.
  induction e as [| | |t|t|els H|els H|op e1 e2 IHe1 IHe2|op e IHe|e IHe|e1 e2 IHe1 IHe2|e1 o1 o2 IHe1 IHo1 IHo2|e IHe|e t IHe|r IHr]
    using sexpr_ind; intros Hu n Hn; try (simpl; eauto; fail).
  - (* array literal *)
    rewrite uniform_EArr in Hu. apply andb_true_iff in Hu as [Hu1 _]. cbn [tc] in Hn.
    destruct (seq_outcomes (map tc els)) as [[[ns er]|]|] eqn:Es; try discriminate.
    assert (er = false) as ->.
    { destruct ns; [inversion Hn; reflexivity|]. destruct (combine _); [|discriminate].
      destruct (wrap_all _ _); [|discriminate]. inversion Hn; reflexivity. }
    destruct (all_def els H Hu1 (seq_inv els ns Es)) as (ks & Hk). cbn [spec_tc]. rewrite Hk.
    destruct ks; eauto.
  - (* map literal *)
    rewrite uniform_EMap in Hu. apply andb_true_iff in Hu as [Hu1 _]. cbn [tc] in Hn.
    destruct (seq_outcomes (map tc els)) as [[[ns er]|]|] eqn:Es; try discriminate.
    assert (er = false) as ->.
    { destruct ns; [inversion Hn; reflexivity|]. destruct (combine _); [|discriminate].
      destruct (wrap_all _ _); [|discriminate]. inversion Hn; reflexivity. }
    destruct (all_def els H Hu1 (seq_inv els ns Es)) as (ks & Hk). cbn [spec_tc]. rewrite Hk.
    destruct ks; eauto.
  - (* binary operator *)
    cbn [uniform] in Hu. apply andb_true_iff in Hu as [Hu _]. apply andb_true_iff in Hu as [Hu1 Hu2].
    cbn [tc] in Hn.
    destruct (tc e1) as [ln le| |] eqn:E1; try discriminate. cbn [bind_node] in Hn.
    destruct (tc e2) as [rn re| |] eqn:E2; try discriminate. cbn [bind_node] in Hn.
    destruct (validate_binary op (node_type ln) (node_type rn)) eqn:Hv; [|discriminate].
    inversion Hn as [[Hn1 Hn2]]. apply orb_false_iff in Hn2 as [-> ->].
    destruct (IHe1 Hu1 ln E1) as (k1 & a & Ha). destruct (IHe2 Hu2 rn E2) as (k2 & b & Hb).
    destruct (tc_node e1 Hu1 k1 a ln Ha E1) as (L1 & L2 & _).
    destruct (tc_node e2 Hu2 k2 b rn Hb E2) as (R1 & R2 & _).
    rewrite validate_binary_spec in Hv by assumption. rewrite L2, R2 in Hv.
    cbn [spec_tc]. rewrite Ha, Hb. destruct (op_type op a b); [eauto|discriminate].
  - (* unary operator *)
    cbn [uniform] in Hu. cbn [tc] in Hn.
    destruct (tc e) as [rn re| |] eqn:E1; try discriminate. cbn [bind_node] in Hn.
    destruct (validate_unary op (node_type rn)) eqn:Hv; [|discriminate]. inversion Hn; subst.
    destruct (IHe Hu rn E1) as (k1 & a & Ha).
    destruct (tc_node e Hu k1 a rn Ha E1) as (R1 & R2 & _).
    cbn [spec_tc]. rewrite Ha.
    destruct op, (node_type rn); simpl in Hv, R1, R2; try discriminate; subst a; simpl; eauto.
  - (* group *)
    cbn [uniform] in Hu. cbn [tc] in Hn.
    destruct (tc e) as [gn ge| |] eqn:E1; try discriminate. cbn [bind_node] in Hn. inversion Hn; subst.
    exact (IHe Hu gn E1).
  - (* index *)
    cbn [uniform] in Hu. apply andb_true_iff in Hu as [Hu _]. apply andb_true_iff in Hu as [Hu1 Hu2].
    apply andb_true_iff in Hu1 as [Hne Hu1]. unfold not_empty_base in Hne.
    cbn [tc] in Hn.
    destruct (tc e1) as [ln le| |] eqn:E1; try discriminate. cbn [bind_node] in Hn.
    destruct (negb _) eqn:Hname in Hn; [discriminate|].
    destruct (tc e2) as [rn re| |] eqn:E2; try discriminate. cbn [bind_node] in Hn.
    destruct (index_type (node_type ln) (node_type rn)) as [ti|] eqn:Ei;
      [|destruct (is_generic (node_type ln)); discriminate].
    destruct (infer ti); [|discriminate]. inversion Hn as [[Hn1 Hn2]]. apply orb_false_iff in Hn2 as [-> ->].
    destruct (IHe1 Hu1 ln E1) as (k1 & a & Ha). destruct (IHe2 Hu2 rn E2) as (k2 & b & Hb).
    destruct (tc_node e1 Hu1 k1 a ln Ha E1) as (L1 & L2 & _).
    destruct (tc_node e2 Hu2 k2 b rn Hb E2) as (R1 & R2 & _).
    cbn [spec_tc]. rewrite Ha, Hb. rewrite Ha in Hne. unfold index_type in Ei.
    destruct (node_type ln); simpl in L1, L2; try discriminate; subst a; try discriminate Hne;
      destruct (node_type rn); simpl in R1, R2; try discriminate; subst b; simpl in Ei; try discriminate; simpl; eauto.
  - (* slice *)
    cbn [uniform] in Hu. apply andb_true_iff in Hu as [Hu Hu3]. apply andb_true_iff in Hu as [Hu1 Hu2].
    cbn [tc] in Hn.
    destruct (tc e1) as [ln le| |] eqn:E1; try discriminate. cbn [bind_node] in Hn.
    assert (X : le = false /\ exists k1 k2, sbound o1 = Some k1 /\ sbound o2 = Some k2 /\
                  (is_array_name (node_type ln) || is_string (node_type ln) = true)).
    { destruct o1 as [x|], o2 as [y|]; simpl in IHo1, IHo2, Hu2, Hu3; cbv zeta in Hn;
        repeat match type of Hn with
               | (if ?c then _ else _) = _ => let E := fresh "C" in destruct c eqn:E; [discriminate|]
               | match tc ?z with _ => _ end = _ => let E := fresh "T" in destruct (tc z) eqn:E; try discriminate
               end;
        match type of Hn with match ?st with _ => _ end = _ => destruct st eqn:Est; [|discriminate] end;
        inversion Hn as [[Hn1 Hn2]];
        repeat (apply orb_false_iff in Hn2 as [Hn2 ?]); subst;
        unfold slice_type in Est;
        repeat match type of Est with (if ?c then _ else _) = _ => let E := fresh "D" in destruct c eqn:E; [discriminate|] end;
        (split; [reflexivity|]);
        repeat match goal with H : negb _ = false |- _ => apply negb_false_iff in H end.
      - destruct (bound_conv x IHo1 Hu2 _ T ltac:(assumption)) as (k1 & B1).
        destruct (bound_conv y IHo2 Hu3 _ T0 ltac:(assumption)) as (k2 & B2). eauto 6.
      - destruct (bound_conv x IHo1 Hu2 _ T ltac:(assumption)) as (k1 & B1). exists k1, KConst. auto.
      - destruct (bound_conv y IHo2 Hu3 _ T ltac:(assumption)) as (k2 & B2). exists KConst, k2. auto.
      - exists KConst, KConst. auto. }
    destruct X as (-> & k1' & k2' & B1 & B2 & Hname).
    destruct (IHe1 Hu1 ln E1) as (k1 & a & Ha).
    destruct (tc_node e1 Hu1 k1 a ln Ha E1) as (L1 & L2 & _).
    rewrite spec_tc_ESlice, Ha, B1, B2.
    destruct (node_type ln); simpl in L1, L2, Hname; try discriminate; subst a; simpl; eauto.
  - (* field access *)
    cbn [uniform] in Hu. apply andb_true_iff in Hu as [Hu1 _]. apply andb_true_iff in Hu1 as [Hne Hu1].
    unfold not_empty_base in Hne. cbn [tc] in Hn.
    destruct (tc e) as [ln le| |] eqn:E1; try discriminate. cbn [bind_node] in Hn.
    destruct (dot_type (node_type ln)) as [ti|] eqn:Ed; [|destruct (is_generic (node_type ln)); discriminate].
    destruct (infer ti); [|discriminate]. inversion Hn; subst.
    destruct (IHe Hu1 ln E1) as (k1 & a & Ha).
    destruct (tc_node e Hu1 k1 a ln Ha E1) as (L1 & L2 & _).
    cbn [spec_tc]. rewrite Ha. rewrite Ha in Hne. unfold dot_type in Ed.
    destruct (node_type ln); simpl in L1, L2; try discriminate; subst a; try discriminate Hne;
      simpl in Ed; try discriminate; simpl; eauto.
  - (* type assertion *)
    cbn [uniform] in Hu. apply andb_true_iff in Hu as [Hct Hu]. cbn [tc] in Hn.
    destruct (tc e) as [an ae| |] eqn:E1; try discriminate. cbn [bind_node] in Hn.
    inversion Hn as [[Hn1 Hn2]]. apply orb_false_iff in Hn2 as [-> Hv]. apply negb_false_iff in Hv.
    destruct (IHe Hu an E1) as (k1 & a & Ha).
    destruct (tc_node e Hu k1 a an Ha E1) as (L1 & L2 & _).
    cbn [spec_tc]. rewrite Ha.
    unfold validate_assert in Hv. apply andb_true_iff in Hv as [Hv1 Hv2].
    rewrite (is_any_erase _ L1), L2 in Hv2. apply sty_eqb_eq in Hv2. subst a.
    rewrite (is_any_erase _ (spec_embed t)), erase_embed in Hv1. rewrite Hv1. simpl.
    rewrite Hct. eauto.
  - (* loop variable: outside the fragment *)
    discriminate Hu.
Qed.

(* the two directions together: on the uniform fragment the implementation builds a node without
   error exactly when the specification types the expression, and the types agree *)
Theorem tc_spec_agree e : uniform e = true ->
  forall n, tc e = ONode n false -> exists k, spec_tc e = Some (k, erase (node_type n)).
Proof.
  intros Hu n Hn. destruct (tc_uniform_conv e Hu n Hn) as (k & s & Hs).
  destruct (tc_node e Hu k s n Hs Hn) as (_ & G2 & _). exists k. rewrite G2. exact Hs.
Qed.

(* the guard [not_empty_base] is needed: the implementation (like the parser) gives  [][0]  the type
   none without an error, the specification gives  [][0]  no type.
   (Until /repo c2a6828 the witness was  [][0] == [][0]  typed bool; validateBinaryType now rejects
   none-typed operands, Types.validate_binary mirrors that, so the comparison is an error on both sides.) *)
Lemma not_empty_base_needed :
  let e := EIndex (EArr []) ELitNum in
  (exists n, tc e = ONode n false /\ node_type n = TNone) /\ spec_tc e = None.
Proof. vm_compute. split; [eexists; split; reflexivity|reflexivity]. Qed.

Lemma none_operand_comparison_rejected_now :
  tc (EBin OpEq (EIndex (EArr []) ELitNum) (EIndex (EArr []) ELitNum)) = ONil.
Proof. vm_compute. reflexivity. Qed.
