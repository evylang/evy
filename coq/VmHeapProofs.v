(* VmHeapProofs.v — the safety theorem of VmProofs.v for the VM with the store
   (VmHeap.v): a well-formed program never drives it into a stack underflow,
   an out-of-range constant/global/local access or a bad fetch, whatever the
   element stores do to the heap. *)
From Coq Require Import ZArith NArith PArith List Bool Lia ZifyBool ZifyNat ZifyN Floats FMapPositive.
From EvyV Require Import Base Bytecode BytecodeProofs Vm VmProofs VmHeap.
Require Import EvyV.Gen.Opcodes.
Import ListNotations.
Open Scope N_scope.

Lemma hvm_step_decoded p s i rest o :
  decode1 (skipn (N.to_nat (hip s)) (pcode p)) = Some (i, rest) -> opc_of_N (iop i) = Some o ->
  hvm_step p s = hexec s o (arg0 i) (hip s + ilen i).
Proof.
  intros HD Ho. destruct (decode1_opc _ _ _ _ HD Ho) as [Hlen Hshape]. unfold hvm_step, arg0. rewrite Hlen.
  destruct (has_operand o) eqn:EH.
  - destruct Hshape as (hi & lo & -> & ->). rewrite Ho, has_operand_vm, EH. reflexivity.
  - destruct Hshape as (-> & ->). rewrite Ho, has_operand_vm, EH. reflexivity.
Qed.

(* the crashes a well-formed program can still produce: the type-directed one,
   and the unbounded recursion of Equals / deepCopy through a cyclic heap *)
Definition hcrash_ok (c : crash) : Prop := c = CType \/ c = CHost.

Lemma hindex_crash h l i c : hindex h l i = RCrash c -> c = CType.
Proof.
  unfold hindex. intro H.
  repeat match type of H with
         | context [match ?x with _ => _ end] => destruct x; try discriminate
         end; inversion H; reflexivity.
Qed.

Lemma hslice_crash h l a b c : hslice h l a b = RCrash c -> c = CType.
Proof.
  unfold hslice. intro H.
  destruct l; try (inversion H; reflexivity);
    match type of H with context [hslice_bounds ?x ?y ?z] => destruct (hslice_bounds x y z) as [[[?|?] [?|?]]|] end;
    try discriminate; try (inversion H; reflexivity);
    match type of H with context [if ?c then _ else _] => destruct c end; try discriminate.
  all: try (unfold halloc in H; discriminate).
Qed.

Lemma hnum2_crash h args f c :
  (forall l r c', f l r = PCrash c' -> c' = CType) -> hnum2 h args f = RCrash c -> c = CType.
Proof.
  intros Hf H. unfold hnum2 in H.
  destruct args as [|[] [|[] [|]]]; try (inversion H; reflexivity).
  destruct (f f1 f0) as [[]| |] eqn:E; try discriminate; try (inversion H; reflexivity).
  inversion H; subst. eapply Hf; eauto.
Qed.

Lemma hstr2_crash h args f c : hstr2 h args f = RCrash c -> c = CType.
Proof.
  intro H. unfold hstr2 in H.
  destruct args as [|[] [|[] [|]]]; try (inversion H; reflexivity); discriminate.
Qed.

Lemma harr_repeat_crash r l h c : harr_repeat r l h = RCrash c -> c = CHost.
Proof.
  unfold harr_repeat. destruct (go_int_exact r) as [n|]; [|discriminate]. destruct (n <? 0)%Z; [discriminate|].
  destruct (repeat_too_large _ n); [discriminate|].
  destruct (arr_at h l); [unfold halloc; discriminate|].
  destruct (hrepeat _ _ _ _) as [[res h1]|]; [unfold halloc; discriminate|].
  intro H; inversion H; reflexivity.
Qed.

Lemma hpure_sem_crash o arg cs ls gs h args c :
  hpure_sem o arg cs ls gs h args = RCrash c ->
  hcrash_ok c \/
  (c = COperand /\
   ((o = Constant /\ nth_error cs (N.to_nat arg) = None) \/
    (o = GetGlobal /\ nth_error gs (N.to_nat arg) = None) \/
    (o = GetLocal /\ nth_error ls (N.to_nat arg) = None))).
Proof.
  intro H. destruct o; simpl in H;
    try (left; left; inversion H; reflexivity);
    try discriminate;
    try (left; left; eapply hstr2_crash; eassumption);
    try (left; left; eapply hnum2_crash; [|eassumption]; intros l r c' Hc; cbv beta in Hc;
         repeat match type of Hc with context [if ?b then _ else _] => destruct b end; discriminate).
  - destruct (nth_error cs (N.to_nat arg)) eqn:E; [discriminate|]. inversion H. right. split; auto.
  - destruct (nth_error gs (N.to_nat arg)) eqn:E; [discriminate|]. inversion H. right. split; auto.
  - destruct (nth_error ls (N.to_nat arg)) eqn:E; [discriminate|]. inversion H. right. split; auto.
  - left. left. destruct args as [|[] [|]]; try discriminate; inversion H; reflexivity.
  - left. left. destruct args as [|[] [|]]; try discriminate; inversion H; reflexivity.
  - left. destruct args as [|r [|l [|]]]; try (left; inversion H; reflexivity).
    destruct (heq_top h l r); [discriminate|left; inversion H; reflexivity|right; inversion H; reflexivity].
  - left. destruct args as [|r [|l [|]]]; try (left; inversion H; reflexivity).
    destruct (heq_top h l r); [discriminate|left; inversion H; reflexivity|right; inversion H; reflexivity].
  - left. left. destruct args as [|[] [|[] [|]]]; try discriminate; inversion H; reflexivity.
  - left. destruct args as [|[] [|[] [|]]]; try (left; inversion H; reflexivity).
    right. apply (harr_repeat_crash _ _ _ _ H).
  - left. left. destruct (hmap_pairs args []); [discriminate|inversion H; reflexivity].
  - left. left. destruct args as [|i [|l [|]]]; try (inversion H; reflexivity). eapply hindex_crash; eauto.
  - left. left. destruct args as [|b [|a [|l [|]]]]; try (inversion H; reflexivity). eapply hslice_crash; eauto.
Qed.

Lemma hset_index_crash h args c : hset_index h args = SCrash c -> c = CType.
Proof.
  unfold hset_index. intro H.
  destruct args as [|i [|l [|v [|]]]]; try discriminate.
  all: destruct l; try discriminate; destruct i; try discriminate; try (inversion H; reflexivity);
    match type of H with context [normalize_index ?f ?n ?b] => destruct (normalize_index f n b) end; discriminate.
Qed.

Lemma inject_list_length l : forall h, List.length (fst (inject_list l h)) = List.length l.
Proof.
  induction l as [|x t IH]; intro h; simpl; [reflexivity|].
  destruct (inject x h) as [x' h1]. specialize (IH h1). destruct (inject_list t h1) as [t' h2]. simpl in *. congruence.
Qed.

Lemma hexec_pure s o arg next : is_pure o = true ->
  hexec s o arg next =
  match simple_effect o arg with
  | None => HCrashed CDecode
  | Some (pn, _) =>
      if (List.length (hstack s) <? N.to_nat pn)%nat then HCrashed CUnderflow else
      match hpure_sem o arg (hconsts s) (hlocals s) (hglobals s) (hheap s) (firstn (N.to_nat pn) (hstack s)) with
      | ROk v h' => hwith s next (v :: skipn (N.to_nat pn) (hstack s)) h'
      | RErr e => HFailed e
      | RCrash c => HCrashed c
      end
  end.
Proof. destruct o; try discriminate; reflexivity. Qed.

Section Safe.
  Variable p : program.
  Let bc := info_of p.
  Let lc := plcount p.
  Variable instrs : list (N * instr).
  Variable h : N -> option ast.
  Hypothesis HD : decode_all (pcode p) = Some instrs.
  Hypothesis HS : forall pc i, In (pc, i) instrs -> operand_ok bc i = true.
  Hypothesis HF : forall pc a, h pc = Some a ->
       exists i succs, In (pc, i) instrs /\ xfer lc pc i a = Some succs /\
         forall t a', In (t, a') succs ->
           (t = codelen bc /\ a' = AH lc) \/ (t < codelen bc /\ h t = Some a').

  Definition hamatch (a : ast) (stk : list hval) : Prop :=
    match a with
    | AH k => lc + N.of_nat (List.length stk) = k
    | ACond k => exists b rest, stk = HBool b :: rest /\
                                lc + N.of_nat (List.length rest) = (if b then k + 1 else k)
    end.

  Definition hframe_ok (s : hstate) : Prop :=
    N.of_nat (List.length (hlocals s)) = lc /\ N.of_nat (List.length (hglobals s)) = pgcount p /\
    List.length (hconsts s) = List.length (pconsts p).

  Definition hvinv (s : hstate) : Prop :=
    hframe_ok s /\
    ((hip s = codelen bc /\ hstack s = []) \/
     (hip s < codelen bc /\ exists a, h (hip s) = Some a /\ hamatch a (hstack s))).

  Definition hsucc_cond (t : N) (a' : ast) : Prop :=
    (t = codelen bc /\ a' = AH lc) \/ (t < codelen bc /\ h t = Some a').

  Definition hgood (out : houtcome) : Prop :=
    match out with
    | HRunning s' => hvinv s'
    | HHalted _ => False
    | HFailed _ => True
    | HCrashed c => hcrash_ok c
    end.

  Lemma hmk_inv t a' s' : hsucc_cond t a' -> hip s' = t -> hframe_ok s' -> hamatch a' (hstack s') -> hvinv s'.
  Proof.
    intros [[Ht Ha]|[Ht Ha]] Hip Hfr Hm; split; auto.
    - left. subst a'. simpl in Hm. split; [congruence|]. destruct (hstack s'); [reflexivity|simpl in Hm; lia].
    - right. split; [congruence|]. exists a'. split; [congruence|exact Hm].
  Qed.

  Lemma hwith_good s next stk hp a' :
    hframe_ok s -> hsucc_cond next a' -> hamatch a' stk -> hgood (hwith s next stk hp).
  Proof.
    intros Hfr Hs Hm. unfold hwith. destruct (StackSize <? _); [exact I|].
    simpl. eapply hmk_inv; eauto.
  Qed.

  Lemma hexec_good s a i succs o :
    hframe_ok s -> hamatch a (hstack s) -> operand_ok bc i = true -> opc_of_N (iop i) = Some o ->
    xfer lc (hip s) i a = Some succs -> (forall t a', In (t, a') succs -> hsucc_cond t a') ->
    hgood (hexec s o (arg0 i) (hip s + ilen i)).
  Proof.
    intros Hfr Hm Hop Ho Hx Hsucc. pose proof Hfr as (HL & HG & HC).
    unfold operand_ok in Hop. rewrite Ho in Hop.
    set (arg := arg0 i) in *. set (next := hip s + ilen i) in *.
    destruct (jump_op o) eqn:HJ.
    2:{ (* a simple opcode: pops pn operands, pushes q *)
      rewrite (xfer_simple lc (hip s) i o a Ho HJ) in Hx. destruct a as [k|k]; [|discriminate Hx]. fold arg in Hx.
      destruct (simple_effect o arg) as [[pn q]|] eqn:HE; [|discriminate].
      destruct (lc + pn <=? k) eqn:EK; [|discriminate]. inversion Hx; subst succs; clear Hx.
      assert (Hsc : hsucc_cond next (AH (k - pn + q))) by (apply Hsucc; left; reflexivity).
      simpl in Hm.
      assert (Hlen : (N.to_nat pn <= List.length (hstack s))%nat) by lia.
      assert (Hrest : N.of_nat (List.length (skipn (N.to_nat pn) (hstack s))) = k - pn - lc)
        by (rewrite skipn_length; lia).
      assert (EU : (List.length (hstack s) <? N.to_nat pn)%nat = false) by (apply Nat.ltb_ge; exact Hlen).
      destruct (is_pure o) eqn:ES.
      { rewrite (hexec_pure s o arg next ES), HE, EU. rewrite (pure_pushes_one o arg pn q ES HE) in Hsc.
          destruct (hpure_sem o arg _ _ _ _ _) as [v hp'|e|c0] eqn:EP.
          - eapply hwith_good; [exact Hfr|exact Hsc|cbn [hamatch List.length]; lia].
          - exact I.
          - apply hpure_sem_crash in EP. destruct EP as [EP|[-> EP]]; [exact EP|exfalso].
            destruct EP as [[-> E2]|[[-> E2]|[-> E2]]];
              apply nth_error_None in E2; unfold bc, info_of in Hop; simpl in Hop; lia. }
      destruct o; try discriminate ES; try discriminate HJ; unfold hexec; rewrite HE, EU;
        simpl in HE; inversion HE; subst pn q; clear HE.
      - (* SetGlobal *)
        destruct (firstn_one (hstack s)) as [x Hx1]; [change (N.to_nat 1) with 1%nat in Hlen; lia|]. change (N.to_nat 1) with 1%nat. rewrite Hx1.
        unfold set_nth_opt. destruct (N.to_nat arg <? List.length (hglobals s))%nat eqn:EB.
        + eapply hmk_inv; [exact Hsc|reflexivity| |simpl; simpl in Hrest; rewrite Hrest; lia].
          repeat split; simpl; [exact HL|rewrite set_nth_length; exact HG|exact HC].
        + apply Nat.ltb_ge in EB. unfold bc, info_of in Hop. simpl in Hop. lia.
      - (* Drop *)
        eapply hmk_inv; [exact Hsc|reflexivity|exact Hfr|cbn [hamatch hstack hmk]; lia].
      - (* SetLocal *)
        destruct (firstn_one (hstack s)) as [x Hx1]; [change (N.to_nat 1) with 1%nat in Hlen; lia|]. change (N.to_nat 1) with 1%nat. rewrite Hx1.
        unfold set_nth_opt. destruct (N.to_nat arg <? List.length (hlocals s))%nat eqn:EB.
        + eapply hmk_inv; [exact Hsc|reflexivity| |simpl; simpl in Hrest; rewrite Hrest; lia].
          repeat split; simpl; [rewrite set_nth_length; exact HL|exact HG|exact HC].
        + apply Nat.ltb_ge in EB. unfold bc, info_of in Hop. simpl in Hop. fold lc in Hop. lia.
      - (* SetIndex: the store changes the heap only *)
        destruct (hset_index _ _) as [hp'|e|c0] eqn:ES'.
        + eapply hmk_inv; [exact Hsc|reflexivity|exact Hfr|cbn [hamatch hstack]; lia].
        + exact I.
        + apply hset_index_crash in ES'. left. exact ES'. }
    unfold xfer in Hx. rewrite Ho in Hx. fold arg next in Hx.
    destruct o; try discriminate HJ; destruct a as [k|k]; try discriminate Hx; simpl in Hm.
    - (* Jump *)
      inversion Hx; subst succs; clear Hx. simpl.
      eapply hmk_inv; [apply Hsucc; left; reflexivity|reflexivity|exact Hfr|simpl; exact Hm].
    - (* JumpOnFalse *)
      destruct (lc + 1 <=? k) eqn:EK; [|discriminate]. inversion Hx; subst succs; clear Hx. simpl.
      destruct (hstack s) as [|v rest] eqn:ES; [simpl in Hm; lia|].
      destruct v; try (left; reflexivity). simpl in Hm.
      destruct b.
      + eapply hmk_inv; [apply Hsucc; left; reflexivity|reflexivity|exact Hfr|simpl; lia].
      + eapply hmk_inv; [apply Hsucc; right; left; reflexivity|reflexivity|exact Hfr|simpl; lia].
    - (* JumpOnFalse after a range instruction *)
      inversion Hx; subst succs; clear Hx. simpl.
      destruct Hm as (b & rest & ES & Hh). rewrite ES. destruct b.
      + eapply hmk_inv; [apply Hsucc; left; reflexivity|reflexivity|exact Hfr|simpl; lia].
      + eapply hmk_inv; [apply Hsucc; right; left; reflexivity|reflexivity|exact Hfr|simpl; lia].
    - (* StepRange *)
      destruct (lc + 3 <=? k) eqn:EK; [|discriminate]. inversion Hx; subst succs; clear Hx. simpl.
      destruct (List.length (hstack s) <? 3)%nat eqn:EU; [apply Nat.ltb_lt in EU; lia|].
      destruct (hzero_step (hstack s)); [exact I|].
      destruct (hstep_range arg (hstack s)) as [stk|] eqn:ER; [|left; reflexivity].
      unfold hstep_range in ER.
      destruct (hstack s) as [|[] [|[] [|[] rest]]]; try discriminate. inversion ER; subst stk; clear ER.
      eapply hwith_good; [exact Hfr|apply Hsucc; left; reflexivity|].
      simpl in Hm. destruct (arg =? 0) eqn:EA; simpl.
      + rewrite andb_false_r. simpl. lia.
      + rewrite andb_true_r. eexists _, _. split; [reflexivity|].
        match goal with |- context [if ?g then _ else _] => destruct g end; simpl; lia.
    - (* IterRange *)
      destruct (lc + 2 <=? k) eqn:EK; [|discriminate]. inversion Hx; subst succs; clear Hx. simpl.
      destruct (List.length (hstack s) <? 2)%nat eqn:EU; [apply Nat.ltb_lt in EU; lia|].
      destruct (hiter_range arg (hheap s) (hstack s)) as [stk|] eqn:ER; [|left; reflexivity].
      unfold hiter_range in ER.
      destruct (hstack s) as [|[] [|it rest]]; try discriminate.
      destruct (float_to_Z f) as [z|]; [|discriminate]. destruct (z <? 0)%Z; [discriminate|].
      inversion ER; subst stk; clear ER.
      eapply hwith_good; [exact Hfr|apply Hsucc; left; reflexivity|].
      simpl in Hm.
      match goal with |- context [match ?v with Some _ => _ | None => _ end] => destruct v end;
        destruct (arg =? 0) eqn:EA; simpl; try lia;
        eexists _, _; (split; [reflexivity|]); simpl; lia.
  Qed.

  Lemma hstep_good s : hvinv s ->
    match hvm_step p s with
    | HRunning s' => hvinv s'
    | HHalted s' => s' = s /\ hip s = codelen bc /\ hstack s = []
    | HFailed _ => True
    | HCrashed c => hcrash_ok c
    end.
  Proof.
    intros [Hfr [[Hip Hst]|[Hip (a & Ha & Hm)]]].
    - unfold hvm_step. rewrite Hip. unfold bc, codelen, info_of; simpl. rewrite Nat2N.id, skipn_all. auto.
    - destruct (HF _ _ Ha) as (i & succs & HI & Hx & Hsucc).
      destruct (decode_all_fetch _ _ _ _ HD HI) as (rest & HD1 & Hend).
      destruct (xfer_some_opc _ _ _ _ _ Hx) as (o & Ho).
      pose proof (hexec_good s a i succs o Hfr Hm (HS _ _ HI) Ho Hx Hsucc) as G.
      rewrite (hvm_step_decoded p s i rest o HD1 Ho).
      destruct (hexec s o (arg0 i) (hip s + ilen i)); simpl in *; auto; contradiction.
  Qed.

End Safe.

Lemma hvm_init_fields p :
  hip (hvm_init p) = 0 /\ hstack (hvm_init p) = [] /\
  hlocals (hvm_init p) = repeat HNil (N.to_nat (plcount p)) /\
  hglobals (hvm_init p) = repeat HNil (N.to_nat (pgcount p)) /\
  List.length (hconsts (hvm_init p)) = List.length (pconsts p).
Proof.
  unfold hvm_init. pose proof (inject_list_length (pconsts p) heap_empty) as L.
  destruct (inject_list (pconsts p) heap_empty) as [cs hp]. simpl in *. auto.
Qed.

Lemma hreachable_inv p instrs h :
  decode_all (pcode p) = Some instrs ->
  (forall pc i, In (pc, i) instrs -> operand_ok (info_of p) i = true) ->
  (instrs <> [] -> h 0 = Some (AH (plcount p))) ->
  (forall pc a, h pc = Some a ->
       exists i succs, In (pc, i) instrs /\ xfer (plcount p) pc i a = Some succs /\
         forall t a', In (t, a') succs ->
           (t = codelen (info_of p) /\ a' = AH (plcount p)) \/ (t < codelen (info_of p) /\ h t = Some a')) ->
  forall s, hreachable p s -> hvinv p h s.
Proof.
  intros HD HS' HE HF s HR.
  induction HR as [|s s' HR IH Hstep].
  - destruct (hvm_init_fields p) as (F1 & F2 & F3 & F4 & F5).
    split; [repeat split; [rewrite F3, repeat_length; lia|rewrite F4, repeat_length; lia|exact F5]|].
    rewrite F1, F2.
    destruct (pcode p) as [|b t] eqn:EC.
    + left. split; [unfold codelen; simpl; rewrite EC; reflexivity|reflexivity].
    + right. split; [unfold codelen; simpl; rewrite EC; simpl; lia|].
      exists (AH (plcount p)). split; [|simpl; lia].
      apply HE. eapply decode_all_nonempty; [exact HD|discriminate].
  - pose proof (hstep_good p instrs h HD HS' HF s IH) as G. rewrite Hstep in G. exact G.
Qed.

(* VM safety with the store: element stores, aliasing, insertion of map keys
   are all performed by hvm_step.  Partial: the type-directed crash CType (an
   unchecked type assertion; needs the typed simulation of C16) and CHost (the
   recursion of Equals / deepCopy through a CYCLIC heap, which a well-formed
   but ill-typed program can build: a[0] = a) are not excluded. *)
Theorem wf_hvm_safe_store_partial : forall (p : program), WF (info_of p) ->
  forall s, hreachable p s ->
    plcount p <= hsp_of s /\
    match hvm_step p s with
    | HRunning _ | HFailed _ => True
    | HHalted s' => hip s' = N.of_nat (List.length (pcode p)) /\ hsp_of s' = plcount p
    | HCrashed c => c = CType \/ c = CHost
    end.
Proof.
  intros p (instrs & h & HD & HS & HE & HF) s HR.
  assert (HS' : forall pc i, In (pc, i) instrs -> operand_ok (info_of p) i = true)
    by (intros pc i HI; apply (HS pc i HI)).
  assert (INV : hvinv p h s) by (eapply hreachable_inv; eauto).
  split.
  - destruct INV as [(HL & _ & _) [[_ Hst]|[_ (a & _ & Hm)]]]; unfold hsp_of; rewrite HL.
    + lia.
    + destruct a as [k|k]; simpl in Hm; [lia|].
      destruct Hm as (b & rest & -> & Hh). simpl. destruct b; lia.
  - pose proof (hstep_good p instrs h HD HS' HF s INV) as G.
    destruct (hvm_step p s); auto.
    destruct G as (-> & Hip & Hst). split; [exact Hip|].
    destruct INV as [(HL & _ & _) _]. unfold hsp_of. rewrite HL, Hst. simpl. lia.
Qed.

Lemma find_hset_same l c h : PositiveMap.find l (hcells (hset l c h)) = Some c.
Proof. unfold hset; simpl. apply PositiveMap.gss. Qed.
Lemma find_hset_other l l' c h : l' <> l -> PositiveMap.find l' (hcells (hset l c h)) = PositiveMap.find l' (hcells h).
Proof. intro N. unfold hset; simpl. apply PositiveMap.gso. exact N. Qed.

Lemma hset_frame l c h l' : l' <> l ->
  arr_at (hset l c h) l' = arr_at h l' /\ map_at (hset l c h) l' = map_at h l'.
Proof. intro N. unfold arr_at, map_at. rewrite (find_hset_other l l' c h N). split; reflexivity. Qed.

Lemma hnorm_idx_lt f n i : normalize_index f n false = IOk i -> (i < n)%nat.
Proof.
  unfold normalize_index. destruct (go_int_exact f) as [z|]; [|discriminate].
  destruct ((z <? - Z.of_nat n) || (Z.of_nat n - 1 <? z))%Z eqn:Q; [discriminate|].
  apply orb_false_iff in Q as [Q1 Q2]. apply Z.ltb_ge in Q1, Q2.
  destruct (z <? 0)%Z eqn:Q3; intro H; inversion H; subst.
  - apply Z.ltb_lt in Q3. lia.
  - apply Z.ltb_ge in Q3. lia.
Qed.

(* a[i] = v through one reference [HArr l]: a read of index i through ANY value
   referring to the cell l (another global, local, stack slot, an element of
   another array, a map value) gives v; the other elements, the length, every
   other cell and the allocation pointer are unchanged *)
Theorem store_array_visible : forall h l f v h',
  hset_index h [HNum f; HArr l; v] = SOk h' ->
  hindex h' (HArr l) (HNum f) = ROk v h' /\
  (exists i, normalize_index f (List.length (arr_at h l)) false = IOk i /\
             arr_at h' l = set_nth i v (arr_at h l) /\
             forall j, j <> i -> nth_error (arr_at h' l) j = nth_error (arr_at h l) j) /\
  List.length (arr_at h' l) = List.length (arr_at h l) /\
  (forall l', l' <> l -> arr_at h' l' = arr_at h l' /\ map_at h' l' = map_at h l') /\
  hnext h' = hnext h.
Proof.
  intros h l f v h' H. unfold hset_index in H.
  destruct (normalize_index f (List.length (arr_at h l)) false) as [i|e] eqn:EN; [|discriminate].
  inversion H; subst h'; clear H.
  assert (A : arr_at (hset l (CArr (set_nth i v (arr_at h l))) h) l = set_nth i v (arr_at h l))
    by (unfold arr_at at 1; rewrite find_hset_same; reflexivity).
  pose proof (hnorm_idx_lt _ _ _ EN) as Hlt.
  split; [|split; [|split; [|split]]].
  - unfold hindex. rewrite A, set_nth_length, EN, nth_error_set_nth_same by exact Hlt. reflexivity.
  - exists i. split; [reflexivity|]. split; [exact A|]. intros j Hj. rewrite A. apply nth_error_set_nth_other. congruence.
  - rewrite A. apply set_nth_length.
  - intros l' N. apply hset_frame. exact N.
  - reflexivity.
Qed.

Lemma hlookup_set_same k v : forall m, hlookup k (hmap_set k v m) = Some v.
Proof.
  induction m as [|[k' v'] r IH]; simpl.
  - rewrite str_eqb_refl. reflexivity.
  - destruct (str_eqb k' k) eqn:E; simpl; rewrite E; [reflexivity|exact IH].
Qed.

Lemma hlookup_set_other k k2 v : str_eqb k2 k = false -> forall m, hlookup k2 (hmap_set k v m) = hlookup k2 m.
Proof.
  intros N m. induction m as [|[k' v'] r IH]; simpl.
  - destruct (str_eqb k k2) eqn:E; [|reflexivity].
    apply str_eqb_eq in E. subst. rewrite str_eqb_refl in N. discriminate.
  - destruct (str_eqb k' k) eqn:E; simpl.
    + apply str_eqb_eq in E. subst k'. destruct (str_eqb k k2) eqn:E2; [|reflexivity].
      apply str_eqb_eq in E2. subst. rewrite str_eqb_refl in N. discriminate.
    + destruct (str_eqb k' k2); [reflexivity|exact IH].
Qed.

(* m[k] = v through one map value [HMap order l]: a read of key k through ANY
   map value that refers to the cell l — whatever `order` that copy carries —
   gives v (also when k is new: the insertion is in the shared Go map); the
   other keys, every other cell and the allocation pointer are unchanged.  No
   `order` changes: it lives in the values, and hset_index returns only a heap
   (the recorded divergence vm-map-insert-lost, exactly as on the real VM). *)
Theorem store_map_visible : forall h order l k v h',
  hset_index h [HStr k; HMap order l; v] = SOk h' ->
  (forall order', hindex h' (HMap order' l) (HStr k) = ROk v h') /\
  (forall k2, str_eqb k2 k = false -> hlookup k2 (map_at h' l) = hlookup k2 (map_at h l)) /\
  (forall l', l' <> l -> arr_at h' l' = arr_at h l' /\ map_at h' l' = map_at h l') /\
  hnext h' = hnext h.
Proof.
  intros h order l k v h' H. unfold hset_index in H. inversion H; subst h'; clear H.
  assert (A : map_at (hset l (CMap (hmap_set k v (map_at h l))) h) l = hmap_set k v (map_at h l))
    by (unfold map_at at 1; rewrite find_hset_same; reflexivity).
  split; [|split; [|split]].
  - intro order'. unfold hindex. rewrite A, hlookup_set_same. reflexivity.
  - intros k2 N. rewrite A. apply hlookup_set_other. exact N.
  - intros l' N. apply hset_frame. exact N.
  - reflexivity.
Qed.

(* without OpSetIndex no existing cell ever changes (allocation only): the
   instructions other than OpSetIndex leave every cell below the allocation
   pointer as it is *)
Definition heap_extends (h h' : heap) : Prop :=
  (hnext h <= hnext h')%positive /\
  forall l, (l < hnext h)%positive -> PositiveMap.find l (hcells h') = PositiveMap.find l (hcells h).

Lemma heap_extends_refl h : heap_extends h h.
Proof. split; [apply Pos.le_refl|auto]. Qed.
Lemma heap_extends_trans a b c : heap_extends a b -> heap_extends b c -> heap_extends a c.
Proof.
  intros [L1 F1] [L2 F2]. split; [eapply Pos.le_trans; eauto|].
  intros l Hl. rewrite F2 by lia. apply F1. exact Hl.
Qed.

Lemma halloc_extends c h :
  heap_extends h {| hnext := Pos.succ (hnext h); hcells := PositiveMap.add (hnext h) c (hcells h) |}.
Proof. split; simpl; [lia|]. intros l Hl. apply PositiveMap.gso. lia. Qed.

Lemma copy_els_extends cp :
  (forall v h v' h', cp v h = Some (v', h') -> heap_extends h h') ->
  forall els h r h', copy_els cp els h = Some (r, h') -> heap_extends h h'.
Proof.
  intros Hcp. induction els as [|x t IH]; simpl; intros h r h' H.
  - inversion H. apply heap_extends_refl.
  - destruct (cp x h) as [[x' h1]|] eqn:E1; [|discriminate].
    destruct (copy_els cp t h1) as [[t' h2]|] eqn:E2; [|discriminate]. inversion H; subst.
    eapply heap_extends_trans; [eapply Hcp; eauto|eapply IH; eauto].
Qed.

Lemma copy_pairs_extends cp :
  (forall v h v' h', cp v h = Some (v', h') -> heap_extends h h') ->
  forall m h r h', copy_pairs cp m h = Some (r, h') -> heap_extends h h'.
Proof.
  intros Hcp. induction m as [|[k x] t IH]; simpl; intros h r h' H.
  - inversion H. apply heap_extends_refl.
  - destruct (cp x h) as [[x' h1]|] eqn:E1; [|discriminate].
    destruct (copy_pairs cp t h1) as [[t' h2]|] eqn:E2; [|discriminate]. inversion H; subst.
    eapply heap_extends_trans; [eapply Hcp; eauto|eapply IH; eauto].
Qed.

Lemma hcopy_extends : forall fuel v h v' h', hcopy fuel v h = Some (v', h') -> heap_extends h h'.
Proof.
  induction fuel as [|fuel IH]; intros v h v' h' H; simpl in H; [discriminate|].
  destruct v; try (inversion H; subst; apply heap_extends_refl).
  - destruct (copy_els (hcopy fuel) (arr_at h l) h) as [[els' h1]|] eqn:E; [|discriminate].
    unfold halloc in H. inversion H; subst.
    eapply heap_extends_trans; [eapply copy_els_extends; [exact IH|exact E]|apply halloc_extends].
  - destruct (copy_pairs (hcopy fuel) (map_at h l) h) as [[m' h1]|] eqn:E; [|discriminate].
    unfold halloc in H. inversion H; subst.
    eapply heap_extends_trans; [eapply copy_pairs_extends; [exact IH|exact E]|apply halloc_extends].
Qed.

Lemma hrepeat_extends fuel els : forall n h r h', hrepeat fuel n els h = Some (r, h') -> heap_extends h h'.
Proof.
  induction n as [|n IH]; simpl; intros h r h' H.
  - inversion H. apply heap_extends_refl.
  - destruct (hcopy_list fuel els h) as [[c h1]|] eqn:E1; [|discriminate].
    destruct (hrepeat fuel n els h1) as [[r2 h2]|] eqn:E2; [|discriminate]. inversion H; subst.
    eapply heap_extends_trans; [|eapply IH; eauto].
    unfold hcopy_list in E1. eapply copy_els_extends; [apply hcopy_extends|exact E1].
Qed.

Lemma harr_repeat_extends r l h v h' : harr_repeat r l h = ROk v h' -> heap_extends h h'.
Proof.
  unfold harr_repeat, halloc. destruct (go_int_exact r) as [n|]; [|discriminate]. destruct (n <? 0)%Z; [discriminate|].
  destruct (repeat_too_large _ n); [discriminate|].
  destruct (arr_at h l) as [|x t].
  - intro H; inversion H; subst. apply halloc_extends.
  - destruct (hrepeat _ _ _ _) as [[res h1]|] eqn:ER; [|discriminate].
    intro H; inversion H; subst.
    eapply heap_extends_trans; [eapply hrepeat_extends; eauto|apply halloc_extends].
Qed.

Lemma hindex_same h a b v h' : hindex h a b = ROk v h' -> h' = h.
Proof.
  unfold hindex. intro H.
  repeat match type of H with
         | context [match ?x with _ => _ end] => destruct x; try discriminate
         end; inversion H; reflexivity.
Qed.

Lemma hslice_extends h a b c v h' : hslice h a b c = ROk v h' -> heap_extends h h'.
Proof.
  unfold hslice, halloc. intro H.
  destruct a; try discriminate;
    match type of H with context [hslice_bounds ?x ?y ?z] => destruct (hslice_bounds x y z) as [[[?|?] [?|?]]|] end;
    try discriminate;
    match type of H with context [if ?c then _ else _] => destruct c end; try discriminate.
  - inversion H; subst. apply heap_extends_refl.
  - inversion H; subst. apply halloc_extends.
Qed.

Lemma hnum2_same h args f v h' : hnum2 h args f = ROk v h' -> h' = h.
Proof.
  unfold hnum2. intro H. destruct args as [|[] [|[] [|]]]; try discriminate.
  destruct (f f1 f0) as [[]| |]; try discriminate; inversion H; reflexivity.
Qed.
Lemma hstr2_same h args f v h' : hstr2 h args f = ROk v h' -> h' = h.
Proof.
  unfold hstr2. intro H. destruct args as [|[] [|[] [|]]]; try discriminate. inversion H; reflexivity.
Qed.

Lemma hpure_sem_extends o arg cs ls gs h args v h' :
  hpure_sem o arg cs ls gs h args = ROk v h' -> heap_extends h h'.
Proof.
  intro H. destruct o; simpl in H; try discriminate;
    try (apply hnum2_same in H; subst; apply heap_extends_refl);
    try (apply hstr2_same in H; subst; apply heap_extends_refl);
    try (inversion H; subst; apply heap_extends_refl; fail).
  - destruct (nth_error cs (N.to_nat arg)); [|discriminate]. inversion H; subst. apply heap_extends_refl.
  - destruct (nth_error gs (N.to_nat arg)); [|discriminate]. inversion H; subst. apply heap_extends_refl.
  - destruct (nth_error ls (N.to_nat arg)); [|discriminate]. inversion H; subst. apply heap_extends_refl.
  - destruct args as [|[] [|]]; try discriminate. inversion H; subst. apply heap_extends_refl.
  - destruct args as [|[] [|]]; try discriminate. inversion H; subst. apply heap_extends_refl.
  - destruct args as [|r [|l [|]]]; try discriminate.
    destruct (heq_top h l r); try discriminate. inversion H; subst. apply heap_extends_refl.
  - destruct args as [|r [|l [|]]]; try discriminate.
    destruct (heq_top h l r); try discriminate. inversion H; subst. apply heap_extends_refl.
  - unfold halloc in H. inversion H; subst. apply halloc_extends.
  - destruct args as [|[] [|[] [|]]]; try discriminate.
    unfold halloc in H. inversion H; subst. apply halloc_extends.
  - destruct args as [|[] [|[] [|]]]; try discriminate. eapply harr_repeat_extends; eauto.
  - destruct (hmap_pairs args []) as [ps|]; [|discriminate].
    unfold halloc in H. inversion H; subst. apply halloc_extends.
  - destruct args as [|i [|l [|]]]; try discriminate. apply hindex_same in H; subst. apply heap_extends_refl.
  - destruct args as [|b [|a [|l [|]]]]; try discriminate. eapply hslice_extends; eauto.
Qed.

Lemma hwith_heap s next stk hp s' : hwith s next stk hp = HRunning s' -> hheap s' = hp.
Proof. unfold hwith. destruct (StackSize <? _); [discriminate|]. intro H; inversion H; reflexivity. Qed.

Lemma hexec_extends s o arg next s' :
  o <> SetIndex -> hexec s o arg next = HRunning s' -> heap_extends (hheap s) (hheap s').
Proof.
  intros NS H. destruct (is_pure o) eqn:ES.
  - rewrite (hexec_pure s o arg next ES) in H.
    destruct (simple_effect o arg) as [[pn q]|]; [|discriminate].
    destruct (List.length (hstack s) <? N.to_nat pn)%nat; [discriminate|].
    destruct (hpure_sem o arg _ _ _ _ _) as [v hp'|e|c0] eqn:EP; try discriminate.
    apply hwith_heap in H. rewrite H. eapply hpure_sem_extends; exact EP.
  - destruct o; try discriminate ES; try congruence; unfold hexec in H.
    1-3: destruct (simple_effect _ arg) as [[pn q]|]; [|discriminate];
         destruct (List.length (hstack s) <? N.to_nat pn)%nat; [discriminate|].
    + (* SetGlobal *)
      destruct (firstn (N.to_nat pn) (hstack s)) as [|x [|]]; try discriminate.
      destruct (set_nth_opt _ _ _); [|discriminate]. inversion H; subst. apply heap_extends_refl.
    + (* Drop *) inversion H; subst. apply heap_extends_refl.
    + (* SetLocal *)
      destruct (firstn (N.to_nat pn) (hstack s)) as [|x [|]]; try discriminate.
      destruct (set_nth_opt _ _ _); [|discriminate]. inversion H; subst. apply heap_extends_refl.
    + (* Jump *) inversion H; subst. apply heap_extends_refl.
    + (* JumpOnFalse *)
      destruct (hstack s) as [|[] rest]; try discriminate. inversion H; subst. apply heap_extends_refl.
    + (* StepRange *)
      destruct (List.length (hstack s) <? 3)%nat; [discriminate|]. destruct (hzero_step _); [discriminate|].
      destruct (hstep_range _ _); [|discriminate]. apply hwith_heap in H. rewrite H. apply heap_extends_refl.
    + (* IterRange *)
      destruct (List.length (hstack s) <? 2)%nat; [discriminate|].
      destruct (hiter_range _ _ _); [|discriminate]. apply hwith_heap in H. rewrite H. apply heap_extends_refl.
Qed.

Definition fetches_setindex (p : program) (s : hstate) : Prop :=
  exists b rest, skipn (N.to_nat (hip s)) (pcode p) = b :: rest /\ opc_of_N b = Some SetIndex.

Theorem hvm_step_allocates_only : forall p s s',
  hvm_step p s = HRunning s' -> ~ fetches_setindex p s -> heap_extends (hheap s) (hheap s').
Proof.
  intros p s s' H NS. unfold hvm_step in H.
  destruct (skipn (N.to_nat (hip s)) (pcode p)) as [|b rest] eqn:EF; [discriminate|].
  destruct (opc_of_N b) as [o|] eqn:EO.
  - assert (No : o <> SetIndex) by (intro; subst o; apply NS; exists b, rest; split; [exact EF|exact EO]).
    destruct (vm_has_operand o).
    + destruct rest as [|hi [|lo rest']]; try discriminate. eapply hexec_extends; eauto.
    + eapply hexec_extends; eauto.
  - inversion H; subst. apply heap_extends_refl.
Qed.
