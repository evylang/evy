(* VmProofs.v — a well-formed program never drives the VM model into a stack
   underflow, an out-of-range constant/global/local access, a fetch outside
   the code or into the middle of an instruction; the operand stack never goes
   below LocalCount and is exactly LocalCount when the program ends. *)
From Coq Require Import ZArith NArith List Bool Lia ZifyBool ZifyNat ZifyN Floats.
From EvyV Require Import Base Bytecode BytecodeProofs Vm.
Require Import EvyV.Gen.Opcodes.
Import ListNotations.
Open Scope N_scope.

Lemma has_operand_vm o : vm_has_operand o = has_operand o.
Proof. destruct o; reflexivity. Qed.

Lemma vm_step_end p s : N.of_nat (List.length (pcode p)) <= ip s -> vm_step p s = Halted s.
Proof. intro H. unfold vm_step. rewrite skipn_all2 by lia. reflexivity. Qed.

Lemma vm_step_decoded p s i rest o :
  decode1 (skipn (N.to_nat (ip s)) (pcode p)) = Some (i, rest) -> opc_of_N (iop i) = Some o ->
  vm_step p s = exec p s o (arg0 i) (ip s + ilen i).
Proof.
  intros HD Ho. destruct (decode1_opc _ _ _ _ HD Ho) as [Hlen Hshape]. unfold vm_step, arg0. rewrite Hlen.
  destruct (has_operand o) eqn:EH.
  - destruct Hshape as (hi & lo & -> & ->). rewrite Ho, has_operand_vm, EH. reflexivity.
  - destruct Hshape as (-> & ->). rewrite Ho, has_operand_vm, EH. reflexivity.
Qed.

Lemma index_value_crash l i c : index_value l i = PCrash c -> c = CType.
Proof.
  unfold index_value. intro H.
  repeat match type of H with
         | context [match ?x with _ => _ end] => destruct x; try discriminate
         end; inversion H; reflexivity.
Qed.

Lemma slice_value_crash l a b c : slice_value l a b = PCrash c -> c = CType.
Proof.
  unfold slice_value. intro H.
  destruct l; try (inversion H; reflexivity);
    match type of H with context [slice_bounds ?x ?y ?z] => destruct (slice_bounds x y z) as [[[?|?] [?|?]]|] end;
    try discriminate; try (inversion H; reflexivity);
    match type of H with context [if ?c then _ else _] => destruct c end; discriminate.
Qed.

Lemma num2_crash args f c : (forall l r c', f l r = PCrash c' -> c' = CType) -> num2 args f = PCrash c -> c = CType.
Proof.
  intros Hf H. unfold num2 in H.
  destruct args as [|[] [|[] [|]]]; try (inversion H; reflexivity). eapply Hf; eauto.
Qed.

Lemma str2_crash args f c : str2 args f = PCrash c -> c = CType.
Proof.
  intro H. unfold str2 in H.
  destruct args as [|[] [|[] [|]]]; try (inversion H; reflexivity); discriminate.
Qed.

(* what may crash besides a type-directed panic: OpArrayRepeat without the
   count guard (the tree before 208ef1c; with repeat_guarded = true this is c = CType) *)
Definition crash_ok (c : crash) : Prop := c = CType \/ (repeat_guarded = false /\ c = CHost).

Lemma arr_repeat_crash g r l c : arr_repeat g r l = PCrash c -> g = false /\ c = CHost.
Proof.
  unfold arr_repeat. destruct (go_int_exact r) as [n|]; [|discriminate]. destruct (n <? 0)%Z; [discriminate|].
  destruct (repeat_too_large (List.length l) n); [|discriminate]. destruct g; [discriminate|]. intro H; inversion H. auto.
Qed.

Lemma pure_sem_crash o arg cs ls gs args c :
  pure_sem o arg cs ls gs args = PCrash c ->
  crash_ok c \/
  (c = COperand /\
   ((o = Constant /\ nth_error cs (N.to_nat arg) = None) \/
    (o = GetGlobal /\ nth_error gs (N.to_nat arg) = None) \/
    (o = GetLocal /\ nth_error ls (N.to_nat arg) = None))).
Proof.
  intro H. destruct o; simpl in H;
    try (left; left; inversion H; reflexivity);
    try discriminate;
    try (left; left; eapply str2_crash; eassumption);
    try (left; left; eapply num2_crash; [|eassumption]; intros l r c' Hc; cbv beta in Hc;
         repeat match type of Hc with context [if ?b then _ else _] => destruct b end; discriminate).
  - destruct (nth_error cs (N.to_nat arg)) eqn:E; [discriminate|]. inversion H. right. split; auto.
  - destruct (nth_error gs (N.to_nat arg)) eqn:E; [discriminate|]. inversion H. right. split; auto.
  - destruct (nth_error ls (N.to_nat arg)) eqn:E; [discriminate|]. inversion H. right. split; auto.
  - left. left. destruct args as [|[] [|]]; try discriminate; inversion H; reflexivity.
  - left. left. destruct args as [|[] [|]]; try discriminate; inversion H; reflexivity.
  - left. left. destruct args as [|r [|l [|]]]; try (inversion H; reflexivity).
    destruct (val_equals l r); [discriminate|inversion H; reflexivity].
  - left. left. destruct args as [|r [|l [|]]]; try (inversion H; reflexivity).
    destruct (val_equals l r); [discriminate|inversion H; reflexivity].
  - left. left. destruct args as [|[] [|[] [|]]]; try discriminate; inversion H; reflexivity.
  - left. destruct args as [|[] [|[] [|]]]; try (left; inversion H; reflexivity).
    right. apply (arr_repeat_crash _ _ _ _ H).
  - left. left. destruct (map_pairs args []); [discriminate|inversion H; reflexivity].
  - left. left. destruct args as [|i [|l [|]]]; try (inversion H; reflexivity). eapply index_value_crash; eauto.
  - left. left. destruct args as [|b [|a [|l [|]]]]; try (inversion H; reflexivity). eapply slice_value_crash; eauto.
Qed.

Lemma set_index_check_crash args c : set_index_check args = Some (PCrash c) -> c = CType.
Proof.
  unfold set_index_check. intro H.
  destruct args as [|i [|l [|v [|]]]]; try discriminate.
  all: destruct l; try discriminate; destruct i; try discriminate; try (inversion H; reflexivity);
    match type of H with context [normalize_index ?f ?n ?b] => destruct (normalize_index f n b) end; discriminate.
Qed.

(* Vm.v has value semantics for arrays and maps: its OpSetIndex pops and
   checks, but the store itself — which on the real VM is visible through
   every alias of the array / map object — is not performed.  [perturbed]
   over-approximates that effect: the CONTENTS of arrays and maps anywhere in
   the machine state (stack, locals, globals) may change arbitrarily; numbers,
   booleans, strings, the positions of all values and ip stay. *)
Definition vshape (v v' : value) : Prop :=
  match v, v' with
  | VArr _, VArr _ => True
  | VMap _, VMap _ => True
  | _, _ => v = v'
  end.

Definition perturbed (s s' : vmstate) : Prop :=
  ip s' = ip s /\ Forall2 vshape (ostack s) (ostack s') /\
  Forall2 vshape (locals s) (locals s') /\ Forall2 vshape (globals s) (globals s').

Lemma forall2_length {A B} (R : A -> B -> Prop) l l' : Forall2 R l l' -> List.length l' = List.length l.
Proof. induction 1; simpl; congruence. Qed.

Lemma vshape_refl v : vshape v v.
Proof. destruct v; simpl; auto. Qed.
Lemma perturbed_refl s : perturbed s s.
Proof.
  assert (R : forall l, Forall2 vshape l l) by (induction l; constructor; auto using vshape_refl).
  repeat split; auto.
Qed.

(* reachable, with such a change allowed between any two steps *)
Inductive reachable_h (p : program) : vmstate -> Prop :=
| rh_init : reachable_h p (vm_init p)
| rh_step s s' : reachable_h p s -> vm_step p s = Running s' -> reachable_h p s'
| rh_heap s s' : reachable_h p s -> perturbed s s' -> reachable_h p s'.

Lemma reachable_reachable_h p s : reachable p s -> reachable_h p s.
Proof. induction 1; [constructor|eapply rh_step; eauto]. Qed.

(* the instructions that only compute: they pop their operands and push one
   value, through the last branch of exec *)
Definition is_pure (o : opc) : bool :=
  match o with
  | SetGlobal | SetLocal | Drop | SetIndex | Jump | JumpOnFalse | StepRange | IterRange => false
  | _ => true
  end.

Lemma exec_pure_eq p s o arg next : is_pure o = true ->
  exec p s o arg next =
  match simple_effect o arg with
  | None => Crashed CDecode
  | Some (pn, q) =>
      if (List.length (ostack s) <? N.to_nat pn)%nat then Crashed CUnderflow else
      match pure_sem o arg (pconsts p) (locals s) (globals s) (firstn (N.to_nat pn) (ostack s)) with
      | POk v => with_stack s next (v :: skipn (N.to_nat pn) (ostack s))
      | PErr e => Failed e
      | PCrash c => Crashed c
      end
  end.
Proof. destruct o; try discriminate; reflexivity. Qed.

Lemma pure_pushes_one o arg pn q : is_pure o = true -> simple_effect o arg = Some (pn, q) -> q = 1.
Proof. destruct o; try discriminate; intros _ H; inversion H; reflexivity. Qed.

Section Safe.
  Variable p : program.
  Let bc := info_of p.
  Let lc := plcount p.
  Variable instrs : list (N * instr).
  Variable h : N -> option ast.
  Hypothesis HD : decode_all (pcode p) = Some instrs.
  Hypothesis HS : forall pc i, In (pc, i) instrs -> operand_ok bc i = true.
  Hypothesis HF : forall pc a, h pc = Some a ->
       exists i succs, In (pc, i) instrs /\ xfer lc pc i a = Some succs /\
         forall t a', In (t, a') succs ->
           (t = codelen bc /\ a' = AH lc) \/ (t < codelen bc /\ h t = Some a').

  Definition amatch (a : ast) (stk : list value) : Prop :=
    match a with
    | AH k => lc + N.of_nat (List.length stk) = k
    | ACond k => exists b rest, stk = VBool b :: rest /\
                                lc + N.of_nat (List.length rest) = (if b then k + 1 else k)
    end.

  Definition frame_ok (s : vmstate) : Prop :=
    N.of_nat (List.length (locals s)) = lc /\ N.of_nat (List.length (globals s)) = pgcount p.

  Definition vinv (s : vmstate) : Prop :=
    frame_ok s /\
    ((ip s = codelen bc /\ ostack s = []) \/
     (ip s < codelen bc /\ exists a, h (ip s) = Some a /\ amatch a (ostack s))).

  Definition succ_cond (t : N) (a' : ast) : Prop :=
    (t = codelen bc /\ a' = AH lc) \/ (t < codelen bc /\ h t = Some a').

  Definition good (out : outcome) : Prop :=
    match out with
    | Running s' => vinv s'
    | Halted _ => False
    | Failed _ => True
    | Crashed c => crash_ok c
    end.

  Lemma mk_inv t a' s' : succ_cond t a' -> ip s' = t -> frame_ok s' -> amatch a' (ostack s') -> vinv s'.
  Proof.
    intros [[Ht Ha]|[Ht Ha]] Hip Hfr Hm; split; auto.
    - left. subst a'. simpl in Hm. split; [congruence|]. destruct (ostack s'); [reflexivity|simpl in Hm; lia].
    - right. split; [congruence|]. exists a'. split; [congruence|exact Hm].
  Qed.

  (* the invariant does not look into arrays and maps *)
  Lemma vinv_perturbed s s' : vinv s -> perturbed s s' -> vinv s'.
  Proof.
    intros [[HL HG] HV] (Hip & HO & HLo & HGl). split.
    - split; [rewrite (forall2_length _ _ _ HLo); exact HL|rewrite (forall2_length _ _ _ HGl); exact HG].
    - rewrite Hip. destruct HV as [[H1 H2]|[H1 (a & Ha & Hm)]].
      + left. split; [exact H1|]. rewrite H2 in HO. inversion HO. reflexivity.
      + right. split; [exact H1|]. exists a. split; [exact Ha|].
        destruct a as [k|k]; simpl in *.
        * rewrite (forall2_length _ _ _ HO). exact Hm.
        * destruct Hm as (b0 & rest & ES & Hh). rewrite ES in HO.
          destruct (ostack s') as [|y l'] eqn:ES'; [inversion HO|].
          assert (Hxy : vshape (VBool b0) y) by (inversion HO; assumption).
          assert (Hrest : Forall2 vshape rest l') by (inversion HO; assumption).
          assert (Ey : y = VBool b0) by (destruct y; simpl in Hxy; congruence). subst y.
          exists b0, l'. split; [reflexivity|]. rewrite (forall2_length _ _ _ Hrest). exact Hh.
  Qed.

  Lemma with_stack_good s next stk a' :
    frame_ok s -> succ_cond next a' -> amatch a' stk -> good (with_stack s next stk).
  Proof.
    intros Hfr Hs Hm. unfold with_stack. destruct (StackSize <? _); [exact I|].
    simpl. eapply mk_inv; eauto.
  Qed.

  Lemma exec_good s a i succs o :
    frame_ok s -> amatch a (ostack s) -> operand_ok bc i = true -> opc_of_N (iop i) = Some o ->
    xfer lc (ip s) i a = Some succs -> (forall t a', In (t, a') succs -> succ_cond t a') ->
    good (exec p s o (arg0 i) (ip s + ilen i)).
  Proof.
    intros Hfr Hm Hop Ho Hx Hsucc. pose proof Hfr as [HL HG].
    unfold operand_ok in Hop. rewrite Ho in Hop.
    set (arg := arg0 i) in *. set (next := ip s + ilen i) in *.
    destruct (jump_op o) eqn:EJ.
    2:{ (* a simple opcode: pops pn operands, pushes q *)
      rewrite (xfer_simple lc (ip s) i o a Ho EJ) in Hx. destruct a as [k|k]; [|discriminate Hx]. fold arg next in Hx.
      destruct (simple_effect o arg) as [[pn q]|] eqn:HE; [|discriminate].
      destruct (lc + pn <=? k) eqn:EK; [|discriminate]. inversion Hx; subst succs; clear Hx.
      assert (Hsc : succ_cond next (AH (k - pn + q))) by (apply Hsucc; left; reflexivity).
      simpl in Hm.
      assert (Hlen : (N.to_nat pn <= List.length (ostack s))%nat) by lia.
      assert (Hrest : N.of_nat (List.length (skipn (N.to_nat pn) (ostack s))) = k - pn - lc)
        by (rewrite skipn_length; lia).
      assert (EU : (List.length (ostack s) <? N.to_nat pn)%nat = false) by (apply Nat.ltb_ge; exact Hlen).
      destruct (is_pure o) eqn:EPU.
      { rewrite (exec_pure_eq p s o arg next EPU), HE, EU. rewrite (pure_pushes_one o arg pn q EPU HE) in Hsc.
        destruct (pure_sem o arg _ _ _ _) as [v|e|c0] eqn:EP;
          [eapply with_stack_good; [exact Hfr|exact Hsc|cbn [amatch List.length]; lia]|exact I|].
        (* an operand crash needs an index out of range, which operand_ok excludes *)
        apply pure_sem_crash in EP. destruct EP as [EP|[-> EP]]; [exact EP|exfalso].
        destruct EP as [[-> E2]|[[-> E2]|[-> E2]]]; apply nth_error_None in E2; unfold bc, info_of in Hop; simpl in Hop; lia. }
      destruct o; try discriminate EPU; try discriminate EJ; unfold exec; rewrite HE, EU;
        simpl in HE; inversion HE; subst pn q; clear HE.
      - (* SetGlobal *)
        destruct (firstn_one (ostack s)) as [x Hx1]; [change (N.to_nat 1) with 1%nat in Hlen; lia|]. change (N.to_nat 1) with 1%nat. rewrite Hx1.
        unfold set_nth_opt. destruct (N.to_nat arg <? List.length (globals s))%nat eqn:EB.
        + eapply mk_inv; [exact Hsc|reflexivity| |simpl; simpl in Hrest; rewrite Hrest; lia].
          split; simpl; [exact HL|rewrite set_nth_length; exact HG].
        + apply Nat.ltb_ge in EB. unfold bc, info_of in Hop. simpl in Hop. lia.
      - (* Drop *)
        eapply mk_inv; [exact Hsc|reflexivity|exact Hfr|cbn [amatch ostack]; lia].
      - (* SetLocal *)
        destruct (firstn_one (ostack s)) as [x Hx1]; [change (N.to_nat 1) with 1%nat in Hlen; lia|]. change (N.to_nat 1) with 1%nat. rewrite Hx1.
        unfold set_nth_opt. destruct (N.to_nat arg <? List.length (locals s))%nat eqn:EB.
        + eapply mk_inv; [exact Hsc|reflexivity| |simpl; simpl in Hrest; rewrite Hrest; lia].
          split; simpl; [rewrite set_nth_length; exact HL|exact HG].
        + apply Nat.ltb_ge in EB. unfold bc, info_of in Hop. simpl in Hop. fold lc in Hop. lia.
      - (* SetIndex *)
        destruct (set_index_check _) as [[v|e|c0]|] eqn:ES.
        + eapply mk_inv; [exact Hsc|reflexivity|exact Hfr|cbn [amatch ostack]; lia].
        + exact I.
        + apply set_index_check_crash in ES. left. exact ES.
        + eapply mk_inv; [exact Hsc|reflexivity|exact Hfr|cbn [amatch ostack]; lia]. }
    unfold xfer in Hx. rewrite Ho in Hx. fold arg next in Hx.
    destruct o; try discriminate EJ; destruct a as [k|k]; try discriminate Hx; simpl in Hm.
    - (* Jump *)
      inversion Hx; subst succs; clear Hx. simpl.
      eapply mk_inv; [apply Hsucc; left; reflexivity|reflexivity|exact Hfr|simpl; exact Hm].
    - (* JumpOnFalse *)
      destruct (lc + 1 <=? k) eqn:EK; [|discriminate]. inversion Hx; subst succs; clear Hx. simpl.
      destruct (ostack s) as [|v rest] eqn:ES; [simpl in Hm; lia|].
      destruct v; try (left; reflexivity). simpl in Hm.
      destruct b.
      + eapply mk_inv; [apply Hsucc; left; reflexivity|reflexivity|exact Hfr|simpl; lia].
      + eapply mk_inv; [apply Hsucc; right; left; reflexivity|reflexivity|exact Hfr|simpl; lia].
    - (* JumpOnFalse right after a range instruction with a loop variable *)
      inversion Hx; subst succs; clear Hx. simpl.
      destruct Hm as (b & rest & ES & Hh). rewrite ES. destruct b.
      + eapply mk_inv; [apply Hsucc; left; reflexivity|reflexivity|exact Hfr|simpl; lia].
      + eapply mk_inv; [apply Hsucc; right; left; reflexivity|reflexivity|exact Hfr|simpl; lia].
    - (* StepRange *)
      destruct (lc + 3 <=? k) eqn:EK; [|discriminate]. inversion Hx; subst succs; clear Hx. simpl.
      destruct (List.length (ostack s) <? 3)%nat eqn:EU; [apply Nat.ltb_lt in EU; lia|].
      destruct (zero_step (ostack s)); [exact I|].
      destruct (step_range arg (ostack s)) as [stk|] eqn:ER; [|left; reflexivity].
      unfold step_range in ER.
      destruct (ostack s) as [|[] [|[] [|[] rest]]]; try discriminate. inversion ER; subst stk; clear ER.
      eapply with_stack_good; [exact Hfr|apply Hsucc; left; reflexivity|].
      simpl in Hm. destruct (arg =? 0) eqn:EA; simpl.
      + rewrite andb_false_r. simpl. lia.
      + rewrite andb_true_r. eexists _, _. split; [reflexivity|].
        match goal with |- context [if ?g then _ else _] => destruct g end; simpl; lia.
    - (* IterRange *)
      destruct (lc + 2 <=? k) eqn:EK; [|discriminate]. inversion Hx; subst succs; clear Hx. simpl.
      destruct (List.length (ostack s) <? 2)%nat eqn:EU; [apply Nat.ltb_lt in EU; lia|].
      destruct (iter_range arg (ostack s)) as [stk|] eqn:ER; [|left; reflexivity].
      unfold iter_range in ER.
      destruct (ostack s) as [|[] [|it rest]]; try discriminate.
      destruct (float_to_Z f) as [z|]; [|discriminate]. destruct (z <? 0)%Z; [discriminate|].
      inversion ER; subst stk; clear ER.
      eapply with_stack_good; [exact Hfr|apply Hsucc; left; reflexivity|].
      simpl in Hm.
      match goal with |- context [match ?v with Some _ => _ | None => _ end] => destruct v end;
        destruct (arg =? 0) eqn:EA; simpl; try lia;
        eexists _, _; (split; [reflexivity|]); simpl; lia.
  Qed.

  Lemma step_good s : vinv s ->
    match vm_step p s with
    | Running s' => vinv s'
    | Halted s' => s' = s /\ ip s = codelen bc /\ ostack s = []
    | Failed _ => True
    | Crashed c => crash_ok c
    end.
  Proof.
    intros [Hfr [[Hip Hst]|[Hip (a & Ha & Hm)]]].
    - rewrite vm_step_end by (rewrite Hip; apply N.le_refl). auto.
    - destruct (HF _ _ Ha) as (i & succs & HI & Hx & Hsucc).
      destruct (decode_all_fetch _ _ _ _ HD HI) as (rest & HD1 & Hend).
      destruct (xfer_some_opc _ _ _ _ _ Hx) as (o & Ho).
      pose proof (exec_good s a i succs o Hfr Hm (HS _ _ HI) Ho Hx Hsucc) as G.
      rewrite (vm_step_decoded p s i rest o HD1 Ho).
      destruct (exec p s o (arg0 i) (ip s + ilen i)); simpl in *; auto; contradiction.
  Qed.

End Safe.

Lemma decode_all_nonempty code instrs : decode_all code = Some instrs -> code <> [] -> instrs <> [].
Proof.
  unfold decode_all. destruct code as [|b t]; [congruence|]. intros H _.
  cbn [List.length decode_from] in H.
  destruct (decode1 (b :: t)) as [[i r]|]; [|discriminate].
  destruct (decode_from _ _ r); [|discriminate]. inversion H. discriminate.
Qed.

Lemma vinv_init p instrs h :
  decode_all (pcode p) = Some instrs -> (instrs <> [] -> h 0 = Some (AH (plcount p))) -> vinv p h (vm_init p).
Proof.
  intros HD HE. split; [split; simpl; rewrite repeat_length; lia|].
  destruct (pcode p) as [|b t] eqn:EC.
  - left. split; [unfold codelen; simpl; rewrite EC; reflexivity|reflexivity].
  - right. split; [unfold codelen; simpl; rewrite EC; simpl; lia|].
    exists (AH (plcount p)). split; [|simpl; lia].
    apply HE. eapply decode_all_nonempty; [exact HD|discriminate].
Qed.

Theorem wf_vm_safe_heap_crash_ok : forall (p : program), WF (info_of p) ->
  forall s, reachable_h p s ->
    plcount p <= sp_of s /\
    match vm_step p s with
    | Running _ | Failed _ => True
    | Halted s' => ip s' = N.of_nat (List.length (pcode p)) /\ sp_of s' = plcount p
    | Crashed c => crash_ok c
    end.
Proof.
  intros p (instrs & h & HD & HS & HE & HF) s HR.
  assert (HS' : forall pc i, In (pc, i) instrs -> operand_ok (info_of p) i = true)
    by (intros pc i HI; apply (HS pc i HI)).
  assert (INV : vinv p h s).
  { induction HR as [|s s' HR IH Hstep|s s' HR IH HP].
    - exact (vinv_init p instrs h HD HE).
    - pose proof (step_good p instrs h HD HS' HF s IH) as G. rewrite Hstep in G. exact G.
    - apply (vinv_perturbed p h s s' IH HP). }
  pose proof INV as [[HL _] _]. unfold sp_of. rewrite HL. split; [lia|].
  pose proof (step_good p instrs h HD HS' HF s INV) as G.
  destruct (vm_step p s); auto.
  destruct G as (-> & Hip & Hst). split; [exact Hip|]. rewrite HL, Hst. simpl. lia.
Qed.

(* The VM-safety theorem (partial: type-directed panics, CType, are not
   covered — they need the typed simulation of C16). *)
Theorem wf_vm_safe_crash_ok : forall (p : program), WF (info_of p) ->
  forall s, reachable p s ->
    (* the stack discipline: never below LocalCount *)
    plcount p <= sp_of s /\
    match vm_step p s with
    | Running _ | Failed _ => True
    (* the program ends exactly at the end of the code, with sp = LocalCount *)
    | Halted s' => ip s' = N.of_nat (List.length (pcode p)) /\ sp_of s' = plcount p
    (* no underflow, no out-of-range constant/global/local, no bad fetch; a host
       crash only from OpArrayRepeat while its count is unguarded (crash_ok) *)
    | Crashed c => crash_ok c
    end.
Proof. intros p HW s HR. exact (wf_vm_safe_heap_crash_ok p HW s (reachable_reachable_h p s HR)). Qed.

Lemma crash_ok_type c : crash_ok c -> c = CType.
Proof. intros [H|[H _]]; [exact H|discriminate H]. Qed.

(* since 208ef1c (repeat_guarded = true) the only crash left is the type-directed one *)
Theorem wf_vm_safe_partial : forall (p : program), WF (info_of p) ->
  forall s, reachable p s ->
    plcount p <= sp_of s /\
    match vm_step p s with
    | Running _ | Failed _ => True
    | Halted s' => ip s' = N.of_nat (List.length (pcode p)) /\ sp_of s' = plcount p
    | Crashed c => c = CType
    end.
Proof.
  intros p HW s HR. destruct (wf_vm_safe_crash_ok p HW s HR) as [A B]. split; [exact A|].
  destruct (vm_step p s); auto. apply crash_ok_type. exact B.
Qed.

Theorem wf_vm_safe_heap_partial : forall (p : program), WF (info_of p) ->
  forall s, reachable_h p s ->
    plcount p <= sp_of s /\
    match vm_step p s with
    | Running _ | Failed _ => True
    | Halted s' => ip s' = N.of_nat (List.length (pcode p)) /\ sp_of s' = plcount p
    | Crashed c => c = CType
    end.
Proof.
  intros p HW s HR. destruct (wf_vm_safe_heap_crash_ok p HW s HR) as [A B]. split; [exact A|].
  destruct (vm_step p s); auto. apply crash_ok_type. exact B.
Qed.
